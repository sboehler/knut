(* Proofs for C10: the accrual expansion of Model/Ledger.v (repaired variant [_fixed]) conserves
   every account's bookings, every generated transaction balances, the accrual account nets to
   zero, parts are dated at the period ends; the pinned variant drops equity legs. *)
From Coq Require Import ZArith QArith Qpower List Bool Lia Permutation.
From Knut Require Import Model.Str Model.Dec Model.Date Model.Account Model.Ledger.
From Knut Require Import Spec.DateSpec Spec.AccrualSpec.
From Knut Require Import Proofs.DecProofs Proofs.DateProofs Proofs.DecValueAccrual Proofs.ListFacts.
Import ListNotations.
Open Scope bool_scope.
Open Scope Z_scope.

Lemma list_eqb_eq {A} (eqb : A -> A -> bool) :
  (forall x y, eqb x y = true <-> x = y) ->
  forall l1 l2, list_eqb eqb l1 l2 = true <-> l1 = l2.
Proof.
  intros Heq. induction l1 as [|x r1 IH]; destruct l2 as [|y r2]; cbn [list_eqb]; split; intros H;
    try reflexivity; try discriminate.
  - apply andb_true_iff in H. destruct H as [H1 H2]. apply Heq in H1. apply IH in H2. subst. reflexivity.
  - injection H as Hx Hr. subst. apply andb_true_iff. split; [apply Heq; reflexivity|apply IH; reflexivity].
Qed.

Lemma s_eqb_eq a b : s_eqb a b = true <-> a = b.
Proof. apply list_eqb_eq. intros x y. apply Z.eqb_eq. Qed.

Lemma a_eqb_eq a b : a_eqb a b = true <-> a = b.
Proof. apply list_eqb_eq. exact s_eqb_eq. Qed.

Lemma s_eqb_refl a : s_eqb a a = true.
Proof. apply s_eqb_eq. reflexivity. Qed.

Lemma a_eqb_refl a : a_eqb a a = true.
Proof. apply a_eqb_eq. reflexivity. Qed.

Lemma a_eqb_neq a b : a <> b -> a_eqb a b = false.
Proof. intros H. destruct (a_eqb a b) eqn:E; [apply a_eqb_eq in E; contradiction|reflexivity]. Qed.

Lemma a_eqb_sym a b : a_eqb a b = a_eqb b a.
Proof.
  destruct (a_eqb a b) eqn:E1, (a_eqb b a) eqn:E2; try reflexivity.
  - apply a_eqb_eq in E1. subst. rewrite a_eqb_refl in E2. discriminate.
  - apply a_eqb_eq in E2. subst. rewrite a_eqb_refl in E1. discriminate.
Qed.

Lemma booked_app a c l1 l2 : (booked a c (l1 ++ l2) == booked a c l1 + booked a c l2)%Q.
Proof.
  induction l1 as [|p r IH]; cbn [booked app].
  - ring.
  - rewrite IH. ring.
Qed.

Lemma com_total_app c l1 l2 : (com_total c (l1 ++ l2) == com_total c l1 + com_total c l2)%Q.
Proof.
  induction l1 as [|p r IH]; cbn [com_total app].
  - ring.
  - rewrite IH. ring.
Qed.

Lemma all_postings_app l1 l2 : all_postings (l1 ++ l2) = all_postings l1 ++ all_postings l2.
Proof. unfold all_postings. apply flat_map_app. Qed.

Lemma all_postings_cons t l : all_postings (t :: l) = t_postings t ++ all_postings l.
Proof. reflexivity. Qed.

(* the accrual account's side of the legs: the part of a commodity total that sits on postings
   in commodity c, whatever their account *)
Lemma booked_le_total a c ps :
  (forall p, In p ps -> p_acc p = a) -> (booked a c ps == com_total c ps)%Q.
Proof.
  induction ps as [|p r IH]; intros H; cbn [booked com_total].
  - reflexivity.
  - rewrite IH by (intros q Hq; apply H; right; exact Hq).
    unfold on. rewrite (H p (or_introl eq_refl)), a_eqb_refl. cbn [andb]. reflexivity.
Qed.

Lemma neg_dec_nil : neg dec_nil = dec_nil.
Proof. reflexivity. Qed.

Lemma pair_build_is_pair cr db c q : is_pair cr db c q (pair_build cr db c q dec_nil).
Proof.
  unfold pair_build, is_pair, pair_postings.
  destruct (is_neg q || is_zero q && is_neg dec_nil).
  - right. cbn [rev app]. rewrite !neg_involutive. reflexivity.
  - left. reflexivity.
Qed.

Definition ind (b : bool) (x : Q) : Q := if b then x else 0%Q.

Add Parametric Morphism (b : bool) : (ind b) with signature Qeq ==> Qeq as ind_mor.
Proof. intros x y H. destruct b; cbn [ind]; [exact H|reflexivity]. Qed.

Lemma booked_pair a c x y cm q ps :
  is_pair x y cm q ps ->
  (booked a c ps == ind (a_eqb y a && s_eqb cm c) (dvalue q) - ind (a_eqb x a && s_eqb cm c) (dvalue q))%Q.
Proof.
  intros [H|H]; subst ps; unfold pair_postings; cbn [rev app booked]; unfold on, ind; cbn [p_acc p_com p_qty];
    destruct (a_eqb y a && s_eqb cm c), (a_eqb x a && s_eqb cm c); rewrite ?dvalue_neg; ring.
Qed.

Lemma com_total_pair c x y cm q ps : is_pair x y cm q ps -> (com_total c ps == 0)%Q.
Proof.
  intros [H|H]; subst ps; unfold pair_postings; cbn [rev app com_total]; cbn [p_com p_qty];
    destruct (s_eqb cm c); rewrite ?dvalue_neg; ring.
Qed.

Lemma mbind_ok {A B} (x : mresult A) (f : A -> mresult B) b :
  mbind x f = MOk b -> exists a, x = MOk a /\ f a = MOk b.
Proof. destruct x as [a|m|m]; cbn [mbind]; intros H; [exists a; auto|discriminate|discriminate]. Qed.

Lemma postings_create_ind (R : list booking -> list posting -> Prop) :
  R [] [] ->
  (forall b rest ps,
     R rest ps -> R (b :: rest) (pair_build (b_credit b) (b_debit b) (b_com b) (b_qty b) dec_nil ++ ps)) ->
  forall bs ps, postings_create bs = MOk ps -> R bs ps.
Proof.
  intros Hnil Hcons. induction bs as [|b rest IH]; intros ps H; cbn [postings_create] in H.
  - injection H as <-. exact Hnil.
  - apply mbind_ok in H. destruct H as [_ [_ H]].
    apply mbind_ok in H. destruct H as [_ [_ H]].
    apply mbind_ok in H. destruct H as [ps' [Hps' H]].
    injection H as <-. apply Hcons, IH, Hps'.
Qed.

Lemma postings_create_booked a c : forall bs ps,
  postings_create bs = MOk ps -> (booked a c ps == booked_src a c bs)%Q.
Proof.
  apply postings_create_ind; [reflexivity|]. intros b rest ps IH.
  rewrite booked_app, IH, (booked_pair a c _ _ _ _ _ (pair_build_is_pair _ _ _ _)).
  cbn [booked_src]. unfold ind.
  destruct (s_eqb (b_com b) c); rewrite ?andb_true_r, ?andb_false_r; ring.
Qed.

Lemma postings_create_balanced : forall bs ps, postings_create bs = MOk ps -> balanced ps.
Proof.
  apply postings_create_ind; [intros c; reflexivity|]. intros b rest ps IH c.
  rewrite com_total_app, (IH c), (com_total_pair c _ _ _ _ _ (pair_build_is_pair _ _ _ _)). ring.
Qed.

Lemma postings_create_cases bs :
  (exists ps, postings_create bs = MOk ps) \/ postings_create bs = MErr e_account.
Proof.
  induction bs as [|b rest IH]; cbn [postings_create]; [left; eexists; reflexivity|].
  unfold check_account.
  destruct (valid_account (b_credit b)); cbn [mbind]; [|right; reflexivity].
  destruct (valid_account (b_debit b)); cbn [mbind]; [|right; reflexivity].
  destruct IH as [[ps ->]| ->]; cbn [mbind]; [left; eexists; reflexivity|right; reflexivity].
Qed.

Lemma booked_src_absent a c bs :
  (forall b, In b bs -> (b_credit b, b_com b) <> (a, c) /\ (b_debit b, b_com b) <> (a, c)) ->
  (booked_src a c bs == 0)%Q.
Proof.
  induction bs as [|b r IH]; intros H; cbn [booked_src]; [reflexivity|].
  rewrite IH by (intros q Hq; apply H; right; exact Hq).
  destruct (H b (or_introl eq_refl)) as [Hc Hd].
  destruct (s_eqb (b_com b) c) eqn:E2; [|ring]. apply s_eqb_eq in E2.
  rewrite (a_eqb_neq (b_debit b) a), (a_eqb_neq (b_credit b) a); [ring| |].
  - intros E. apply Hc. rewrite E, E2. reflexivity.
  - intros E. apply Hd. rewrite E, E2. reflexivity.
Qed.

Lemma not_in_bookings_src a c bs : ~ in_bookings a bs -> (booked_src a c bs == 0)%Q.
Proof.
  intros H. apply booked_src_absent. intros b Hb.
  split; intros E; apply H; exists b; (split; [exact Hb|]); injection E; auto.
Qed.

Definition first_rem (i : Z) (ends : list Z) (rem : dec) : Q :=
  match ends with [] => 0%Q | _ :: _ => if i =? 0 then dvalue rem else 0%Q end.

(* the quantities of the parts i+1.. sum to (number of parts) * amount, plus the remainder if
   the first part is among them *)
Lemma accrual_parts_booked a c desc tg acc p amount rem n ends : forall i,
  0 <= i ->
  let total := (first_rem i ends rem + inject_Z (Z.of_nat (length ends)) * dvalue amount)%Q in
  (booked a c (all_postings (accrual_parts desc tg acc p amount rem n i ends))
   == ind (on a c p) total - ind (a_eqb acc a && s_eqb (p_com p) c) total)%Q.
Proof.
  induction ends as [|dt rest IH]; intros i Hi total; cbn [accrual_parts].
  - unfold total, first_rem, ind. cbn [all_postings flat_map booked length Z.of_nat].
    destruct (on a c p), (a_eqb acc a && s_eqb (p_com p) c); unfold inject_Z; ring.
  - rewrite all_postings_cons, booked_app. cbn [t_postings].
    rewrite (booked_pair a c _ _ _ _ _ (pair_build_is_pair acc (p_acc p) (p_com p) _)).
    rewrite (IH (i + 1)) by lia.
    assert (Hfr : first_rem (i + 1) rest rem = 0%Q).
    { unfold first_rem. destruct rest; [reflexivity|]. replace (i + 1 =? 0) with false by lia. reflexivity. }
    rewrite Hfr. unfold total, first_rem. cbn [length]. rewrite Nat2Z.inj_succ. unfold Z.succ.
    rewrite inject_Z_plus. unfold on, ind.
    destruct (i =? 0);
      destruct (a_eqb (p_acc p) a && s_eqb (p_com p) c), (a_eqb acc a && s_eqb (p_com p) c);
      rewrite ?dvalue_add; unfold inject_Z; ring.
Qed.

Lemma accrual_parts_Forall (P : txn -> Prop) desc tg acc p amount rem n ends :
  (forall d ds q, P (mkTxn d ds (pair_build acc (p_acc p) (p_com p) q dec_nil) tg)) ->
  forall i, Forall P (accrual_parts desc tg acc p amount rem n i ends).
Proof.
  intros HP. induction ends as [|dt rest IH]; intros i; cbn [accrual_parts]; constructor; [apply HP|apply IH].
Qed.

Lemma accrual_parts_ok desc tg acc p amount rem n ends : forall k,
  parts_ok desc tg acc p n k ends (accrual_parts desc tg acc p amount rem n (Z.of_nat k) ends).
Proof.
  induction ends as [|dt rest IH]; intros k; cbn [accrual_parts]; constructor; cbn [t_date t_desc t_targets t_postings];
    try reflexivity.
  - eexists. apply pair_build_is_pair.
  - replace (Z.of_nat k + 1) with (Z.of_nat (S k)) by lia. apply IH.
Qed.

(* for a non-empty window that does not start at the zero time the partition exists and has at
   least one period; for every interval but Once it tiles the window (C11) *)
Lemma accrual_partition s e iv :
  s <> 0 -> s <= e ->
  exists part,
    new_partition (mkPeriod s e) iv 0 = POk part /\
    periods part <> [] /\
    (iv <> Once -> tiles s e (periods part)) /\
    (iv = Once -> periods part = [mkPeriod s e]).
Proof.
  intros Hs Hse. destruct (interval_eqb iv Once) eqn:Eiv.
  - assert (iv = Once) by (destruct iv; try discriminate; reflexivity). subst iv.
    exists (mkPartition (mkPeriod s e) Once [mkPeriod s e]).
    rewrite partition_once by assumption.
    split; [reflexivity|]. cbn [periods]. split; [discriminate|]. split; [intros Hne; contradiction|reflexivity].
  - assert (Hiv : iv <> Once) by (intros E; subst iv; discriminate).
    destruct (partition_unlimited s e iv Hiv Hs) as [ps [Hnp [_ [Ht _]]]].
    exists (mkPartition (mkPeriod s e) iv ps). cbn [periods].
    split; [exact Hnp|]. split.
    + intros E. specialize (Ht Hse). rewrite E in Ht. exact Ht.
    + split; [intros _; exact (Ht Hse)|intros E; contradiction].
Qed.

Lemma tiles_ends_ascending : forall ps s e, tiles s e ps -> ascending (map p_end ps).
Proof.
  induction ps as [|p rest IH]; intros s e H; cbn [map ascending]; [exact I|].
  cbn [tiles] in H. destruct H as [Hs [Hle Hrest]].
  destruct rest as [|q rest'].
  - cbn [map]. split; exact I.
  - split.
    + cbn [map]. cbn [tiles] in Hrest. destruct Hrest as [Hqs [Hqle _]]. lia.
    + exact (IH _ _ Hrest).
Qed.

Section OnePosting.
  Variable rebook : account -> bool.
  Variables (t : txn) (ac : accrual) (p : posting).

  Definition rebooked : list txn :=
    [mkTxn (t_date t) (t_desc t) (pair_build (ac_account ac) (p_acc p) (p_com p) (p_qty p) dec_nil) (t_targets t)].

  Definition r1 : list txn := if rebook (p_acc p) then rebooked else [].

  Lemma expand_posting_inv l :
    expand_posting_gen rebook t ac p = MOk l ->
    (is_IE (p_acc p) = false /\ l = r1) \/
    (is_IE (p_acc p) = true /\
     exists part amount rem,
       new_partition (mkPeriod (ac_start ac) (ac_end ac)) (ac_interval ac) 0 = POk part /\
       periods part <> [] /\
       quo_rem (p_qty p) (of_int (Z.of_nat (length (periods part)))) 1 = DOk (amount, rem) /\
       l = r1 ++ accrual_parts (t_desc t) (t_targets t) (ac_account ac) p amount rem
                               (Z.of_nat (length (periods part))) 0 (end_dates part)).
  Proof.
    unfold expand_posting_gen. fold rebooked. fold r1. intros H.
    destruct (is_IE (p_acc p)).
    - right. split; [reflexivity|].
      destruct (new_partition (mkPeriod (ac_start ac) (ac_end ac)) (ac_interval ac) 0) as [part| |]; try discriminate.
      destruct (quo_rem (p_qty p) (of_int (Z.of_nat (length (periods part)))) 1) as [[amount rem]|] eqn:Eq; try discriminate.
      injection H as H. exists part, amount, rem. repeat split; auto.
      intros Hnil. rewrite Hnil in Eq. cbn [length Z.of_nat] in Eq. rewrite quo_rem_zero_panics in Eq. discriminate.
    - left. split; [reflexivity|]. injection H as H. auto.
  Qed.

  (* never a panic on a non-empty window that does not start at the zero time *)
  Lemma expand_posting_ok :
    ac_start ac <> 0 -> ac_start ac <= ac_end ac -> exists l, expand_posting_gen rebook t ac p = MOk l.
  Proof.
    intros Hs Hse. unfold expand_posting_gen.
    destruct (is_IE (p_acc p)); [|eexists; reflexivity].
    destruct (accrual_partition _ _ (ac_interval ac) Hs Hse) as [part [Hnp [Hne _]]].
    rewrite Hnp.
    destruct (quo_rem_ok (p_qty p) (Z.of_nat (length (periods part)))) as [q [r Hq]].
    - destruct (periods part); [contradiction|cbn [length]; lia].
    - rewrite Hq. eexists; reflexivity.
  Qed.

  (* an empty window (end before start) divides by the number of periods, which is zero *)
  Lemma expand_posting_empty_window :
    ac_start ac <> 0 -> ac_end ac < ac_start ac -> ac_interval ac <> Once -> is_IE (p_acc p) = true ->
    expand_posting_gen rebook t ac p = MPanic e_divzero.
  Proof.
    intros Hs Hes Hiv HIE. unfold expand_posting_gen. rewrite HIE.
    destruct (partition_unlimited _ (ac_end ac) _ Hiv Hs) as [ps [Hnp [He _]]].
    rewrite Hnp. cbn [periods]. rewrite (He Hes). cbn [length Z.of_nat]. rewrite quo_rem_zero_panics. reflexivity.
  Qed.
End OnePosting.

(* the repaired expansion of one posting is either re-booked once or split, never both *)
Lemma expand_posting_fixed_inv t ac p l :
  expand_posting_fixed t ac p = MOk l ->
  (is_IE (p_acc p) = false /\ l = rebooked t ac p) \/
  (is_IE (p_acc p) = true /\
   exists part amount rem,
     new_partition (mkPeriod (ac_start ac) (ac_end ac)) (ac_interval ac) 0 = POk part /\
     end_dates part <> [] /\
     quo_rem (p_qty p) (of_int (Z.of_nat (length (end_dates part)))) 1 = DOk (amount, rem) /\
     l = accrual_parts (t_desc t) (t_targets t) (ac_account ac) p amount rem
                       (Z.of_nat (length (end_dates part))) 0 (end_dates part)).
Proof.
  intros H. apply expand_posting_inv in H. unfold r1, rebook_fixed in H.
  destruct H as [[HIE ->]|[HIE [part [amount [rem [Hnp [Hne [Hq ->]]]]]]]]; rewrite HIE; [left; auto|right].
  split; [reflexivity|]. exists part, amount, rem. unfold end_dates. rewrite !map_length.
  repeat split; try assumption. intros E. apply map_eq_nil in E. contradiction.
Qed.

(* its own account receives exactly its quantity, the accrual account the opposite *)
Lemma expand_posting_fixed_booked a c t ac p l :
  expand_posting_fixed t ac p = MOk l ->
  (booked a c (all_postings l)
   == ind (on a c p) (dvalue (p_qty p)) - ind (a_eqb (ac_account ac) a && s_eqb (p_com p) c) (dvalue (p_qty p)))%Q.
Proof.
  intros H. destruct (expand_posting_fixed_inv _ _ _ _ H) as [[_ ->]|[_ [part [amount [rem [_ [Hne [Hq ->]]]]]]]].
  - unfold rebooked. rewrite all_postings_cons. cbn [t_postings all_postings flat_map]. rewrite app_nil_r.
    apply (booked_pair a c _ _ _ _ _ (pair_build_is_pair _ _ _ _)).
  - rewrite accrual_parts_booked by lia.
    assert (Htot : (first_rem 0 (end_dates part) rem
                    + inject_Z (Z.of_nat (length (end_dates part))) * dvalue amount == dvalue (p_qty p))%Q).
    { rewrite (quo_rem_spec _ _ _ _ Hq). unfold first_rem.
      destruct (end_dates part); [contradiction|]. cbn [Z.eqb]. ring. }
    rewrite Htot. reflexivity.
Qed.

Lemma expand_posting_fixed_leg t ac p l :
  expand_posting_fixed t ac p = MOk l ->
  exists ends,
    (is_IE (p_acc p) = true ->
     exists part, new_partition (mkPeriod (ac_start ac) (ac_end ac)) (ac_interval ac) 0 = POk part /\
                  ends = end_dates part) /\
    leg_ok (t_date t) (t_desc t) (t_targets t) (ac_account ac) ends p l.
Proof.
  intros H. unfold leg_ok.
  destruct (expand_posting_fixed_inv _ _ _ _ H) as [[HIE ->]|[HIE [part [amount [rem [Hnp [_ [_ ->]]]]]]]];
    rewrite HIE.
  - exists []. split; [discriminate|]. eexists. split; [reflexivity|].
    cbn [t_date t_desc t_targets t_postings]. repeat split. apply pair_build_is_pair.
  - exists (end_dates part). split; [intros _; exists part; auto|].
    apply (accrual_parts_ok _ _ _ _ _ _ _ _ 0%nat).
Qed.

Lemma expand_postings_ind rebook t ac (R : list posting -> list txn -> Prop) :
  R [] [] ->
  (forall p rest l1 l2, expand_posting_gen rebook t ac p = MOk l1 -> R rest l2 -> R (p :: rest) (l1 ++ l2)) ->
  forall ps l, expand_postings_gen rebook t ac ps = MOk l -> R ps l.
Proof.
  intros Hnil Hcons. induction ps as [|p rest IH]; intros l H; cbn [expand_postings_gen] in H.
  - injection H as <-. exact Hnil.
  - apply mbind_ok in H. destruct H as [l1 [H1 H]].
    apply mbind_ok in H. destruct H as [l2 [H2 H]]. injection H as <-.
    apply Hcons; [exact H1|apply IH, H2].
Qed.

(* every generated transaction is one pair with the accrual account, carrying the targets *)
Lemma expand_postings_Forall rebook t ac (P : txn -> Prop) :
  (forall d ds x c q, P (mkTxn d ds (pair_build (ac_account ac) x c q dec_nil) (t_targets t))) ->
  forall ps l, expand_postings_gen rebook t ac ps = MOk l -> Forall P l.
Proof.
  intros HP. apply expand_postings_ind; [constructor|]. intros p rest l1 l2 H1 IH.
  apply Forall_app. split; [|exact IH]. apply expand_posting_inv in H1.
  assert (Hr1 : Forall P (r1 rebook t ac p)).
  { unfold r1, rebooked. destruct (rebook (p_acc p)); constructor; [apply HP|constructor]. }
  destruct H1 as [[_ ->]|[_ [part [amount [rem [_ [_ [_ ->]]]]]]]]; [exact Hr1|].
  apply Forall_app. split; [exact Hr1|]. apply accrual_parts_Forall. intros. apply HP.
Qed.

Lemma expand_postings_ok rebook t ac ps :
  ac_start ac <> 0 -> ac_start ac <= ac_end ac -> exists l, expand_postings_gen rebook t ac ps = MOk l.
Proof.
  intros Hs Hse. induction ps as [|p rest [l2 IH]]; cbn [expand_postings_gen]; [eexists; reflexivity|].
  destruct (expand_posting_ok rebook t ac p Hs Hse) as [l1 H1]. rewrite H1, IH. cbn [mbind]. eexists; reflexivity.
Qed.

(* a panic on every income/expense leg is a panic of the whole as soon as there is such a leg *)
Lemma expand_postings_panic rebook t ac m ps :
  (forall p, is_IE (p_acc p) = true -> expand_posting_gen rebook t ac p = MPanic m) ->
  existsb (fun p => is_IE (p_acc p)) ps = true ->
  expand_postings_gen rebook t ac ps = MPanic m.
Proof.
  intros Hp. induction ps as [|p rest IH]; cbn [existsb expand_postings_gen]; [discriminate|].
  intros H. destruct (is_IE (p_acc p)) eqn:HIE.
  - rewrite (Hp p HIE). reflexivity.
  - unfold expand_posting_gen at 1. rewrite HIE. cbn [mbind]. rewrite (IH H). reflexivity.
Qed.

(* the sum over all legs: every account keeps what the original postings booked on it, and the
   accrual account additionally receives the opposite of everything *)
Lemma expand_postings_fixed_booked a c t ac : forall ps l,
  expand_postings_fixed t ac ps = MOk l ->
  (booked a c (all_postings l) == booked a c ps - ind (a_eqb (ac_account ac) a) (com_total c ps))%Q.
Proof.
  apply expand_postings_ind.
  - cbn [all_postings flat_map booked com_total]. unfold ind. destruct (a_eqb (ac_account ac) a); ring.
  - intros p rest l1 l2 H1 IH.
    rewrite all_postings_app, booked_app, (expand_posting_fixed_booked a c t ac p l1 H1), IH.
    cbn [booked com_total]. unfold ind.
    destruct (a_eqb (ac_account ac) a), (on a c p), (s_eqb (p_com p) c); cbn [andb]; ring.
Qed.

Lemma expand_postings_fixed_legs t ac : forall ps l,
  expand_postings_fixed t ac ps = MOk l ->
  exists legs, l = concat legs /\
    Forall2 (fun p leg => exists ends,
               (is_IE (p_acc p) = true ->
                exists part, new_partition (mkPeriod (ac_start ac) (ac_end ac)) (ac_interval ac) 0 = POk part /\
                             ends = end_dates part) /\
               leg_ok (t_date t) (t_desc t) (t_targets t) (ac_account ac) ends p leg) ps legs.
Proof.
  apply expand_postings_ind.
  - exists []. split; [reflexivity|constructor].
  - intros p rest l1 l2 H1 [legs [-> HF]]. exists (l1 :: legs). split; [reflexivity|].
    constructor; [exact (expand_posting_fixed_leg t ac p l1 H1)|exact HF].
Qed.

Lemma txn_create_inv rebook s ts :
  txn_create_gen rebook s = MOk ts ->
  exists ps, postings_create (st_bookings s) = MOk ps /\
    match st_accrual s with
    | None => ts = [mkTxn (st_date s) (st_desc s) ps (st_targets s)]
    | Some ac => valid_account (ac_account ac) = true /\
                 expand_postings_gen rebook (mkTxn (st_date s) (st_desc s) ps (st_targets s)) ac ps = MOk ts
    end.
Proof.
  unfold txn_create_gen. intros H. apply mbind_ok in H. destruct H as [ps [Hps H]].
  exists ps. split; [exact Hps|].
  destruct (st_accrual s) as [ac|].
  - unfold expand_gen, check_account in H. cbn [t_postings] in H.
    destruct (valid_account (ac_account ac)); cbn [mbind] in H; [split; [reflexivity|exact H]|discriminate].
  - injection H as H. auto.
Qed.

(* a generated transaction is the source transaction itself or, with an accrual, one pair with
   the accrual account *)
Lemma create_Forall rebook s ts (P : txn -> Prop) :
  (forall ps, st_accrual s = None -> postings_create (st_bookings s) = MOk ps ->
              P (mkTxn (st_date s) (st_desc s) ps (st_targets s))) ->
  (forall ac d ds x c q, st_accrual s = Some ac ->
              P (mkTxn d ds (pair_build (ac_account ac) x c q dec_nil) (st_targets s))) ->
  txn_create_gen rebook s = MOk ts -> Forall P ts.
Proof.
  intros Hplain Hpair H. apply txn_create_inv in H. destruct H as [ps [Hps H]].
  destruct (st_accrual s) as [ac|].
  - destruct H as [_ H]. eapply expand_postings_Forall; [|exact H]. intros. apply (Hpair ac). reflexivity.
  - subst ts. constructor; [apply Hplain; auto|constructor].
Qed.

(* every generated transaction balances -- with or without an accrual, pinned or repaired *)
Lemma create_each_balances rebook s ts :
  txn_create_gen rebook s = MOk ts -> Forall (fun t => balanced (t_postings t)) ts.
Proof.
  apply create_Forall.
  - intros ps _ Hps. exact (postings_create_balanced _ _ Hps).
  - intros ac d ds x c q _ c'. exact (com_total_pair c' _ _ _ _ _ (pair_build_is_pair _ _ _ _)).
Qed.

Lemma create_targets rebook s ts :
  txn_create_gen rebook s = MOk ts -> Forall (fun t => t_targets t = st_targets s) ts.
Proof. apply create_Forall; reflexivity. Qed.

(* conservation, for every account including the accrual account *)
Lemma create_fixed_conserve s ac ts a c :
  txn_create_fixed s = MOk ts -> st_accrual s = Some ac ->
  (booked_txns a c ts == booked_src a c (st_bookings s))%Q.
Proof.
  intros H Hac. apply txn_create_inv in H. destruct H as [ps [Hps H]]. rewrite Hac in H.
  destruct H as [_ H]. unfold booked_txns.
  rewrite (expand_postings_fixed_booked a c _ ac ps ts H).
  rewrite (postings_create_booked a c _ _ Hps).
  rewrite (postings_create_balanced _ _ Hps c). unfold ind. destruct (a_eqb (ac_account ac) a); ring.
Qed.

Lemma create_fixed_accrual_zero s ac ts c :
  txn_create_fixed s = MOk ts -> st_accrual s = Some ac ->
  ~ in_bookings (ac_account ac) (st_bookings s) ->
  (booked_txns (ac_account ac) c ts == 0)%Q.
Proof.
  intros H Hac Hnot. rewrite (create_fixed_conserve s ac ts _ c H Hac). apply not_in_bookings_src. exact Hnot.
Qed.

Lemma create_ok rebook s ac :
  st_accrual s = Some ac -> ac_start ac <> 0 -> ac_start ac <= ac_end ac ->
  (exists ts, txn_create_gen rebook s = MOk ts) \/ txn_create_gen rebook s = MErr e_account.
Proof.
  intros Hac Hs Hse. unfold txn_create_gen.
  destruct (postings_create_cases (st_bookings s)) as [[ps ->]| ->]; cbn [mbind]; [|right; reflexivity].
  rewrite Hac. unfold expand_gen, check_account.
  destruct (valid_account (ac_account ac)); cbn [mbind]; [|right; reflexivity].
  left. cbn [t_postings]. apply expand_postings_ok; assumption.
Qed.

Lemma txn_create_accrual rebook s ac ps :
  st_accrual s = Some ac -> postings_create (st_bookings s) = MOk ps -> valid_account (ac_account ac) = true ->
  txn_create_gen rebook s = expand_postings_gen rebook (mkTxn (st_date s) (st_desc s) ps (st_targets s)) ac ps.
Proof.
  intros Hac Hps Hv. unfold txn_create_gen. rewrite Hps. cbn [mbind]. rewrite Hac.
  unfold expand_gen, check_account. rewrite Hv. reflexivity.
Qed.

(* dates: the generated transactions are the concatenation of the expansions of the legs *)
Lemma create_fixed_dates s ac ts :
  txn_create_fixed s = MOk ts -> st_accrual s = Some ac ->
  ac_start ac <> 0 -> ac_start ac <= ac_end ac ->
  exists ps part legs,
    postings_create (st_bookings s) = MOk ps /\
    new_partition (mkPeriod (ac_start ac) (ac_end ac)) (ac_interval ac) 0 = POk part /\
    periods part <> [] /\
    (ac_interval ac <> Once -> tiles (ac_start ac) (ac_end ac) (periods part)) /\
    (ac_interval ac = Once -> periods part = [mkPeriod (ac_start ac) (ac_end ac)]) /\
    (ac_interval ac <> Once -> ascending (end_dates part)) /\
    ts = concat legs /\
    Forall2 (leg_ok (st_date s) (st_desc s) (st_targets s) (ac_account ac) (end_dates part)) ps legs.
Proof.
  intros H Hac Hs Hse. apply txn_create_inv in H. destruct H as [ps [Hps H]]. rewrite Hac in H.
  destruct H as [_ H].
  destruct (accrual_partition _ _ (ac_interval ac) Hs Hse) as [part [Hnp [Hne [Ht Ho]]]].
  destruct (expand_postings_fixed_legs _ ac ps ts H) as [legs [Hc HF]].
  exists ps, part, legs. repeat split; auto.
  - intros Hiv. unfold end_dates. eapply tiles_ends_ascending. exact (Ht Hiv).
  - cbn [t_date t_desc t_targets] in HF.
    clear Hc H Hps. induction HF as [|p leg ps' legs' [ends [He Hleg]] HF IH]; constructor; [|exact IH].
    unfold leg_ok in *. destruct (is_IE (p_acc p)) eqn:HIE; [|exact Hleg].
    destruct (He eq_refl) as [part' [Hnp' Hends]]. rewrite Hnp in Hnp'. injection Hnp' as Hp. subst part' ends.
    exact Hleg.
Qed.

Lemma qadd_eq x y : (qadd x y == x + y)%Q.
Proof. unfold qadd. apply Qred_correct. Qed.

Lemma booked_r_eq a c ps : (booked_r a c ps == booked a c ps)%Q.
Proof.
  induction ps as [|p r IH]; cbn [booked_r booked]; [reflexivity|]. rewrite qadd_eq, IH. reflexivity.
Qed.

Lemma booked_src_r_eq a c bs : (booked_src_r a c bs == booked_src a c bs)%Q.
Proof.
  induction bs as [|b r IH]; cbn [booked_src_r booked_src]; [reflexivity|]. rewrite qadd_eq, IH. reflexivity.
Qed.

Lemma com_total_r_eq c ps : (com_total_r c ps == com_total c ps)%Q.
Proof.
  induction ps as [|p r IH]; cbn [com_total_r com_total]; [reflexivity|]. rewrite qadd_eq, IH. reflexivity.
Qed.

Lemma com_total_absent c ps : (forall p, In p ps -> p_com p <> c) -> (com_total c ps == 0)%Q.
Proof.
  induction ps as [|p r IH]; intros H; cbn [com_total]; [reflexivity|].
  rewrite IH by (intros q Hq; apply H; right; exact Hq).
  destruct (s_eqb (p_com p) c) eqn:E; [apply s_eqb_eq in E; exfalso; exact (H p (or_introl eq_refl) E)|ring].
Qed.

Lemma booked_absent a c ps : (forall p, In p ps -> (p_acc p, p_com p) <> (a, c)) -> (booked a c ps == 0)%Q.
Proof.
  induction ps as [|p r IH]; intros H; cbn [booked]; [reflexivity|].
  rewrite IH by (intros q Hq; apply H; right; exact Hq).
  unfold on. destruct (a_eqb (p_acc p) a) eqn:E1; cbn [andb]; [|ring].
  destruct (s_eqb (p_com p) c) eqn:E2; [|ring].
  apply a_eqb_eq in E1. apply s_eqb_eq in E2. exfalso. apply (H p (or_introl eq_refl)). rewrite E1, E2. reflexivity.
Qed.

(* soundness of the executable clauses: what the check accepts satisfies the statements *)
Lemma balanced_b_sound ps : balanced_b ps = true -> balanced ps.
Proof.
  unfold balanced_b. intros H c. rewrite forallb_forall in H.
  destruct (in_dec (list_eq_dec Z.eq_dec) c (map p_com ps)) as [Hin|Hout].
  - apply in_map_iff in Hin. destruct Hin as [p [Hp Hin]]. specialize (H p Hin).
    apply Qeq_bool_iff in H. rewrite com_total_r_eq, Hp in H. exact H.
  - apply com_total_absent. intros p Hin E. apply Hout. apply in_map_iff. exists p. auto.
Qed.

Lemma conserve_b_sound bs ts :
  conserve_b bs ts = true -> forall a c, (booked_txns a c ts == booked_src a c bs)%Q.
Proof.
  unfold conserve_b, booked_txns. intros H a c. rewrite forallb_forall in H.
  destruct (in_dec cell_eq_dec (a, c) (cells_of_postings (all_postings ts) ++ cells_of_bookings bs)) as [Hin|Hout].
  - apply (nodup_In cell_eq_dec) in Hin. specialize (H _ Hin). cbn [fst snd] in H. apply Qeq_bool_iff in H.
    rewrite booked_r_eq, booked_src_r_eq in H. exact H.
  - rewrite booked_absent, booked_src_absent; [reflexivity| |].
    + intros b Hb. split; intros E; apply Hout; apply in_or_app; right; unfold cells_of_bookings;
        apply in_flat_map; exists b; (split; [exact Hb|]); rewrite <- E; cbn [In]; auto.
    + intros p Hp E. apply Hout. apply in_or_app. left. unfold cells_of_postings. apply in_map_iff.
      exists p. auto.
Qed.

Lemma accrual_zero_b_sound acc ts :
  accrual_zero_b acc ts = true -> forall c, (booked_txns acc c ts == 0)%Q.
Proof.
  unfold accrual_zero_b, booked_txns. intros H c. rewrite forallb_forall in H.
  destruct (in_dec str_eq_dec c (map p_com (all_postings ts))) as [Hin|Hout].
  - apply (nodup_In str_eq_dec) in Hin. specialize (H c Hin).
    apply Qeq_bool_iff in H. rewrite booked_r_eq in H. exact H.
  - apply booked_absent. intros p Hin E. apply Hout. apply in_map_iff. exists p.
    split; [injection E as _ E; exact E|exact Hin].
Qed.

Lemma in_bookings_b_false acc bs : in_bookings_b acc bs = false -> ~ in_bookings acc bs.
Proof.
  unfold in_bookings_b, in_bookings. intros H [b [Hin Hb]].
  assert (Ht : existsb (fun b => a_eqb (b_credit b) acc || a_eqb (b_debit b) acc) bs = true).
  { apply existsb_exists. exists b. split; [exact Hin|].
    destruct Hb as [Hb|Hb]; rewrite Hb, a_eqb_refl; [reflexivity|apply orb_true_r]. }
  rewrite Ht in H. discriminate.
Qed.

Lemma verdict_zero s ac ends ts :
  accrual_verdict s ac ends ts = 0 <->
  forallb (fun t => balanced_b (t_postings t)) ts = true /\
  conserve_b (st_bookings s) ts = true /\
  (in_bookings_b (ac_account ac) (st_bookings s) = false -> accrual_zero_b (ac_account ac) ts = true) /\
  dates_b (st_date s) (st_desc s) (ac_account ac) ends (st_bookings s) ts = true /\
  targets_b (st_targets s) ts = true.
Proof.
  unfold accrual_verdict.
  destruct (forallb _ ts); [|split; [discriminate|intros [E _]; discriminate E]].
  destruct (conserve_b _ ts); [|split; [discriminate|intros (_ & E & _); discriminate E]].
  destruct (in_bookings_b _ _), (accrual_zero_b _ ts); cbn [negb andb];
    try (split; [discriminate|intros (_ & _ & E & _); discriminate (E eq_refl)]).
  all: destruct (dates_b _ _ _ _ _ ts); [|split; [discriminate|intros (_ & _ & _ & E & _); discriminate E]].
  all: destruct (targets_b _ ts); cbn [negb]; [intuition congruence|split; [discriminate|intros (_ & _ & _ & _ & E); discriminate E]].
Qed.

Lemma list_eqb_refl {A} (eqb : A -> A -> bool) : (forall x, eqb x x = true) -> forall l, list_eqb eqb l l = true.
Proof. intros H. induction l as [|x r IH]; cbn [list_eqb]; [reflexivity|]. rewrite H, IH. reflexivity. Qed.

Lemma targets_b_sound targets ts : targets_b targets ts = true -> Forall (fun t => t_targets t = targets) ts.
Proof.
  unfold targets_b. intros H. rewrite forallb_forall in H. apply Forall_forall. intros t Hin. specialize (H t Hin).
  destruct targets as [l1|], (t_targets t) as [l2|]; try discriminate; [|reflexivity].
  apply (list_eqb_eq s_eqb s_eqb_eq) in H. subst. reflexivity.
Qed.

Lemma targets_b_complete targets ts : Forall (fun t => t_targets t = targets) ts -> targets_b targets ts = true.
Proof.
  unfold targets_b. intros H. apply forallb_forall. intros t Hin. rewrite Forall_forall in H. rewrite (H t Hin).
  destruct targets as [l|]; [|reflexivity]. apply list_eqb_refl. exact s_eqb_refl.
Qed.

(* completeness of clauses 1-3: what satisfies the statements is accepted *)
Lemma balanced_b_complete ps : balanced ps -> balanced_b ps = true.
Proof.
  unfold balanced_b. intros H. apply forallb_forall. intros p _. apply Qeq_bool_iff.
  rewrite com_total_r_eq. apply H.
Qed.

Lemma conserve_b_complete bs ts :
  (forall a c, (booked_txns a c ts == booked_src a c bs)%Q) -> conserve_b bs ts = true.
Proof.
  unfold conserve_b, booked_txns. intros H. apply forallb_forall. intros [a c] _. cbn [fst snd].
  apply Qeq_bool_iff. rewrite booked_r_eq, booked_src_r_eq. apply H.
Qed.

Lemma accrual_zero_b_complete acc ts : (forall c, (booked_txns acc c ts == 0)%Q) -> accrual_zero_b acc ts = true.
Proof.
  unfold accrual_zero_b, booked_txns. intros H. apply forallb_forall. intros c _.
  apply Qeq_bool_iff. rewrite booked_r_eq. apply H.
Qed.

Lemma observed_key_pair acc x c q d desc tg :
  observed_key acc (mkTxn d desc (pair_build acc x c q dec_nil) tg) = Some (d, desc, x, c).
Proof.
  unfold observed_key. cbn [t_postings t_date t_desc].
  destruct (pair_build_is_pair acc x c q) as [H|H]; rewrite H; unfold pair_postings; cbn [rev app];
    cbn [p_acc p_other p_com]; rewrite !a_eqb_refl, s_eqb_refl; cbn [andb orb].
  - reflexivity.
  - rewrite orb_true_r. destruct (a_eqb x acc) eqn:E; [apply a_eqb_eq in E; subst x|]; reflexivity.
Qed.

Definition part_keys (desc : str) (n : Z) (a : account) (c : commodity) (i : Z) (ends : list Z) : list key :=
  map (fun ie => (snd ie, part_desc desc (fst ie) n, a, c)) (numbered_from i ends).

Lemma accrual_parts_keys desc tg acc p amount rem n ends : forall i,
  map (observed_key acc) (accrual_parts desc tg acc p amount rem n i ends)
  = map Some (part_keys desc n (p_acc p) (p_com p) (i + 1) ends).
Proof.
  induction ends as [|dt rest IH]; intros i; cbn [accrual_parts map numbered_from part_keys]; [reflexivity|].
  rewrite observed_key_pair. cbn [fst snd]. unfold part_desc at 1. f_equal. apply IH.
Qed.

Lemma all_some_map_some {A} (l : list A) : all_some (map Some l) = Some l.
Proof. induction l as [|x r IH]; cbn [map all_some]; [reflexivity|]. rewrite IH. reflexivity. Qed.

Lemma expand_posting_fixed_keys t ac p l part :
  new_partition (mkPeriod (ac_start ac) (ac_end ac)) (ac_interval ac) 0 = POk part ->
  expand_posting_fixed t ac p = MOk l ->
  map (observed_key (ac_account ac)) l
  = map Some (leg_keys (t_date t) (t_desc t) (end_dates part) (p_acc p) (p_com p)).
Proof.
  intros Hpart H. unfold leg_keys.
  destruct (expand_posting_fixed_inv _ _ _ _ H) as [[HIE ->]|[HIE [part' [amount [rem [Hnp [_ [_ ->]]]]]]]];
    rewrite HIE.
  - unfold rebooked. cbn [map]. rewrite observed_key_pair. reflexivity.
  - rewrite Hpart in Hnp. injection Hnp as <-. apply accrual_parts_keys.
Qed.

Lemma expand_postings_fixed_keys t ac part :
  new_partition (mkPeriod (ac_start ac) (ac_end ac)) (ac_interval ac) 0 = POk part ->
  forall ps l, expand_postings_fixed t ac ps = MOk l ->
  map (observed_key (ac_account ac)) l
  = map Some (flat_map (fun p => leg_keys (t_date t) (t_desc t) (end_dates part) (p_acc p) (p_com p)) ps).
Proof.
  intros Hpart. apply expand_postings_ind; [reflexivity|]. intros p rest l1 l2 H1 IH.
  cbn [flat_map]. rewrite !map_app, IH, (expand_posting_fixed_keys t ac p l1 part Hpart H1). reflexivity.
Qed.

(* the legs in posting order are the legs in booking order up to swapping the two sides of a booking *)
Lemma postings_create_keys date desc ends : forall bs ps,
  postings_create bs = MOk ps ->
  Permutation (expected_keys date desc ends bs)
              (flat_map (fun p => leg_keys date desc ends (p_acc p) (p_com p)) ps).
Proof.
  apply postings_create_ind; [constructor|]. intros b rest ps IH.
  cbn [expected_keys flat_map]. rewrite flat_map_app. apply Permutation_app; [|exact IH].
  destruct (pair_build_is_pair (b_credit b) (b_debit b) (b_com b) (b_qty b)) as [Hp|Hp]; rewrite Hp;
    unfold pair_postings; cbn [rev app flat_map p_acc p_com]; rewrite app_nil_r.
  - apply Permutation_refl.
  - apply Permutation_app_comm.
Qed.

Lemma same_keys_b_perm l1 l2 : Permutation l1 l2 -> same_keys_b l1 l2 = true.
Proof.
  intros H. unfold same_keys_b. rewrite (Permutation_length H), Nat.eqb_refl. cbn [andb].
  apply forallb_forall. intros k _. unfold count_key. rewrite (Permutation_filter_length _ _ _ H). apply Nat.eqb_refl.
Qed.

Lemma create_fixed_dates_b s ac ts part :
  txn_create_fixed s = MOk ts -> st_accrual s = Some ac ->
  new_partition (mkPeriod (ac_start ac) (ac_end ac)) (ac_interval ac) 0 = POk part ->
  dates_b (st_date s) (st_desc s) (ac_account ac) (end_dates part) (st_bookings s) ts = true.
Proof.
  intros H Hac Hpart. apply txn_create_inv in H. destruct H as [ps [Hps H]]. rewrite Hac in H.
  destruct H as [_ H]. unfold dates_b.
  rewrite (expand_postings_fixed_keys _ ac part Hpart ps ts H), all_some_map_some. cbn [t_date t_desc].
  apply same_keys_b_perm. exact (postings_create_keys _ _ _ _ _ Hps).
Qed.

(* The executable statement accepts everything the repaired model returns. *)
Lemma model_meets_spec s ac ts part :
  txn_create_fixed s = MOk ts -> st_accrual s = Some ac ->
  new_partition (mkPeriod (ac_start ac) (ac_end ac)) (ac_interval ac) 0 = POk part ->
  accrual_verdict s ac (end_dates part) ts = 0.
Proof.
  intros H Hac Hpart. apply verdict_zero. repeat split.
  - apply forallb_forall. intros t Hin. apply balanced_b_complete.
    pose proof (create_each_balances _ _ _ H) as HF. rewrite Forall_forall in HF. exact (HF t Hin).
  - exact (conserve_b_complete _ _ (fun a c => create_fixed_conserve s ac ts a c H Hac)).
  - intros Ein. apply accrual_zero_b_complete.
    intros c. apply (create_fixed_accrual_zero s ac ts c H Hac). exact (in_bookings_b_false _ _ Ein).
  - exact (create_fixed_dates_b s ac ts part H Hac Hpart).
  - exact (targets_b_complete _ _ (create_targets _ _ _ H)).
Qed.

Lemma key_eqb_eq k1 k2 : key_eqb k1 k2 = true <-> k1 = k2.
Proof.
  destruct k1 as [[[d1 s1] a1] c1], k2 as [[[d2 s2] a2] c2]. unfold key_eqb.
  rewrite !andb_true_iff, Z.eqb_eq, !s_eqb_eq, a_eqb_eq. split.
  - intros [[[H1 H2] H3] H4]. subst. reflexivity.
  - intros H. injection H as H1 H2 H3 H4. auto.
Qed.

Lemma count_key_cons k x l : count_key k (x :: l) = ((if key_eqb k x then 1 else 0) + count_key k l)%nat.
Proof. unfold count_key. cbn [filter]. destruct (key_eqb k x); reflexivity. Qed.

Lemma count_key_app k l1 l2 : count_key k (l1 ++ l2) = (count_key k l1 + count_key k l2)%nat.
Proof. unfold count_key. rewrite filter_app, app_length. reflexivity. Qed.

Lemma count_pos_in k l : (0 < count_key k l)%nat -> In k l.
Proof.
  induction l as [|x r IH]; [cbn; lia|]. rewrite count_key_cons.
  destruct (key_eqb k x) eqn:E; [apply key_eqb_eq in E; subst; left; reflexivity|].
  intros H. right. apply IH. lia.
Qed.

Lemma same_counts_perm : forall l1 l2,
  length l1 = length l2 -> (forall k, In k l1 -> count_key k l1 = count_key k l2) -> Permutation l1 l2.
Proof.
  induction l1 as [|x r IH]; intros l2 Hlen Hc.
  - destruct l2; [constructor|discriminate].
  - assert (Hin : In x l2).
    { apply count_pos_in. rewrite <- (Hc x (or_introl eq_refl)). rewrite count_key_cons.
      replace (key_eqb x x) with true by (symmetry; apply key_eqb_eq; reflexivity). lia. }
    apply in_split in Hin. destruct Hin as [a [b Hl2]]. subst l2.
    apply Permutation_cons_app. apply IH.
    + rewrite app_length in *. cbn [length] in *. lia.
    + intros k Hk. specialize (Hc k (or_intror Hk)).
      rewrite count_key_cons, count_key_app, count_key_cons in Hc. rewrite count_key_app. lia.
Qed.

Lemma same_keys_b_sound l1 l2 : same_keys_b l1 l2 = true -> Permutation l1 l2.
Proof.
  unfold same_keys_b. intros H. apply andb_true_iff in H. destruct H as [Hl Hc].
  apply Nat.eqb_eq in Hl. rewrite forallb_forall in Hc.
  apply same_counts_perm; [exact Hl|]. intros k Hk. apply Nat.eqb_eq. exact (Hc k Hk).
Qed.

Lemma all_some_inv {A} (l : list (option A)) ks : all_some l = Some ks -> l = map Some ks.
Proof.
  revert ks. induction l as [|x r IH]; intros ks H; cbn [all_some] in H.
  - injection H as H. subst ks. reflexivity.
  - destruct x as [x|]; [|discriminate]. destruct (all_some r) as [kr|]; [|discriminate].
    injection H as H. subst ks. cbn [map]. rewrite (IH kr eq_refl). reflexivity.
Qed.

(* clause 4: every generated transaction is a pair with the accrual account, and the multiset of
   (date, description, leg account, commodity) is the expected one: per side of every booking
   line one entry per period end (income/expense side) or one at the original date *)
Lemma dates_b_sound date desc acc ends bs ts :
  dates_b date desc acc ends bs ts = true ->
  exists ks, map (observed_key acc) ts = map Some ks /\ Permutation (expected_keys date desc ends bs) ks.
Proof.
  unfold dates_b. destruct (all_some (map (observed_key acc) ts)) as [ks|] eqn:E; [|discriminate].
  intros H. exists ks. split; [exact (all_some_inv _ _ E)|exact (same_keys_b_sound _ _ H)].
Qed.

Lemma equity_refuted : exists s ac ts a c,
  txn_create_gen rebook_pinned s = MOk ts /\ st_accrual s = Some ac /\
  ac_start ac <> 0 /\ ac_start ac <= ac_end ac /\
  a <> ac_account ac /\ ~ in_bookings (ac_account ac) (st_bookings s) /\
  ~ (booked_txns a c ts == booked_src a c (st_bookings s))%Q /\
  ~ (booked_txns (ac_account ac) c ts == 0)%Q.
Proof.
  exists witness, witness_accrual.
  eexists. exists acc_equity_opening, chf.
  split; [vm_compute; reflexivity|].
  split; [reflexivity|].
  split; [vm_compute; discriminate|].
  split; [vm_compute; discriminate|].
  split; [discriminate|].
  split.
  - intros [bk [Hin Hb]]. cbn [st_bookings witness In] in Hin. destruct Hin as [Hin|[]]. subst bk.
    cbn [b_credit b_debit] in Hb. destruct Hb as [Hb|Hb]; discriminate Hb.
  - split; vm_compute; discriminate.
Qed.
