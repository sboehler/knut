(* Proofs about Model/AtomicFSConc.v: the interleaving theorem for the concurrent command.
   Route: [agree_on P f f'] (content and handles agree on the paths in P); an operation that
   mentions only paths in P maps states that agree on P to states that agree on P
   ([step_congr]); an operation that mentions no path in P leaves P alone ([step_frame] of
   AtomicFSProofs.v); hence the state restricted to {tmp_i, tgt_i} after ANY prefix of ANY
   interleaving is the state after the projection onto i alone from the one-file directory
   ([restrict_run]); the projection of a prefix is a prefix of the projection ([proj_firstn]);
   then [safe_prefixes] / [protocol_correct] per job.                                          *)
From Coq Require Import List Bool Arith PeanoNat NArith Lia.
From Knut Require Import Model.AtomicFS Model.AtomicFSConc Proofs.AtomicFSProofs.
Import ListNotations.

Definition agree_on (P : path -> bool) (f f' : fs) : Prop :=
  forall q, P q = true -> content f q = content f' q /\ is_open f q = is_open f' q.

Lemma agree_refl : forall P f, agree_on P f f.
Proof. intros P f q _. split; reflexivity. Qed.

Lemma agree_trans : forall P f g h, agree_on P f g -> agree_on P g h -> agree_on P f h.
Proof.
  intros P f g h Hfg Hgh q Hq. destruct (Hfg q Hq) as [A B]. destruct (Hgh q Hq) as [C D].
  rewrite A, B, C, D. split; reflexivity.
Qed.

Lemma fs_run_cons : forall t o tr f, fs_run t (o :: tr) f = fs_run t tr (fs_step t f o).
Proof. reflexivity. Qed.

(* an operation that mentions only paths in P: states that agree on P stay in agreement on P *)
Lemma step_congr : forall P t f f' o,
  agree_on P f f' ->
  (forall q, mentions o t q = true -> P q = true) ->
  agree_on P (fs_step t f o) (fs_step t f' o).
Proof.
  intros P t f f' o Ha Hm q Hq. destruct (Ha q Hq) as [Cq Oq].
  destruct o as [p|p d|p|p|p|p r|p|p|d|]; simpl in Hm; simpl fs_step.
  - (* Create *)
    assert (Hp : P p = true) by (apply Hm; apply Nat.eqb_refl).
    destruct (Ha p Hp) as [Cp Op]. rewrite <- Cp.
    destruct (content f p); simpl; rewrite <- ?Cq, <- ?Oq; auto.
  - (* Write *)
    assert (Hp : P p = true) by (apply Hm; apply Nat.eqb_refl).
    destruct (Ha p Hp) as [Cp Op]. rewrite <- Cp, <- Op.
    destruct (content f p); [destruct (is_open f p)|]; simpl; rewrite <- ?Cq, <- ?Oq; auto.
  - auto.
  - (* Close *) simpl. rewrite <- Cq, <- Oq. auto.
  - auto.
  - (* Rename *)
    assert (Hp : P p = true) by (apply Hm; rewrite Nat.eqb_refl; reflexivity).
    destruct (Ha p Hp) as [Cp Op]. rewrite <- Cp.
    destruct (content f p); [|auto]. destruct (p =? r); [auto|].
    simpl. rewrite <- Cq, <- Oq, <- Op. auto.
  - (* Unlink *) simpl. rewrite <- Cq, <- Oq. auto.
  - (* OpenTrunc *)
    assert (Hp : P p = true) by (apply Hm; apply Nat.eqb_refl).
    destruct (Ha p Hp) as [Cp Op]. rewrite <- Cp.
    destruct (content f p); simpl; rewrite <- ?Cq, <- ?Oq; auto.
  - (* WriteTgt *)
    assert (Hp : P t = true) by (apply Hm; apply Nat.eqb_refl).
    destruct (Ha t Hp) as [Cp Op]. rewrite <- Cp.
    destruct (content f t); simpl; rewrite <- ?Cq, <- ?Oq; auto.
  - auto.
Qed.

(* an operation that mentions no path in P *)
Lemma step_frame_on : forall P t f o,
  (forall q, P q = true -> mentions o t q = false) ->
  agree_on P (fs_step t f o) f.
Proof. intros P t f o Hm q Hq. apply step_frame. apply Hm. assumption. Qed.

Lemma proj_cons : forall i l o ltr,
  proj i ((l, o) :: ltr) = if l =? i then o :: proj i ltr else proj i ltr.
Proof. intros. unfold proj. simpl. destruct (l =? i); reflexivity. Qed.

Lemma in_proj : forall l o ltr, In (l, o) ltr -> In o (proj l ltr).
Proof.
  intros l o ltr Hin. unfold proj. apply in_map_iff. exists (l, o). split; [reflexivity|].
  apply filter_In. split; [assumption|]. simpl. apply Nat.eqb_refl.
Qed.

Lemma in_firstn : forall (A : Type) (x : A) k l, In x (firstn k l) -> In x l.
Proof.
  intros A x k l Hin. rewrite <- (firstn_skipn k l). apply in_or_app. left. assumption.
Qed.

(* what goroutine i did during a prefix of the schedule is a prefix of what it does in all *)
Lemma proj_firstn : forall i ltr k, exists k', proj i (firstn k ltr) = firstn k' (proj i ltr).
Proof.
  intros i. induction ltr as [|[l o] ltr IH]; intros k.
  - exists 0. rewrite firstn_nil. reflexivity.
  - destruct k as [|k]; [exists 0; reflexivity|].
    destruct (IH k) as [k' Hk']. rewrite firstn_cons, !proj_cons.
    destruct (l =? i).
    + exists (S k'). rewrite firstn_cons, Hk'. reflexivity.
    + exists k'. assumption.
Qed.

(* the state on P after an interleaved run, when the operations labelled i mention only paths
   in P and all others mention none of them, is the state after the operations labelled i alone *)
Lemma restrict_run : forall P i t ltr,
  (forall o, In (i, o) ltr -> forall q, mentions o t q = true -> P q = true) ->
  (forall l o, In (l, o) ltr -> l <> i -> forall q, P q = true -> mentions o t q = false) ->
  forall f f', agree_on P f f' ->
  agree_on P (fs_run t (map snd ltr) f) (fs_run t (proj i ltr) f').
Proof.
  intros P i t. induction ltr as [|[l o] ltr IH]; intros Hown Hoth f f' Ha.
  - exact Ha.
  - rewrite proj_cons. simpl map. rewrite fs_run_cons.
    assert (Hown' : forall o', In (i, o') ltr -> forall q, mentions o' t q = true -> P q = true)
      by (intros o' Hin; apply Hown; right; assumption).
    assert (Hoth' : forall l' o', In (l', o') ltr -> l' <> i ->
                                  forall q, P q = true -> mentions o' t q = false)
      by (intros l' o' Hin; apply (Hoth l' o'); right; assumption).
    destruct (l =? i) eqn:E.
    + apply Nat.eqb_eq in E. subst l. rewrite fs_run_cons. apply IH; [assumption|assumption|].
      apply step_congr; [assumption|]. apply Hown. left. reflexivity.
    + apply Nat.eqb_neq in E. apply IH; [assumption|assumption|].
      eapply agree_trans; [|exact Ha]. apply step_frame_on.
      apply (Hoth l o); [left; reflexivity|assumption].
Qed.

(* no protocol trace writes through a handle on the target, so the tgt parameter of fs_step (only
   WriteTgt uses it) is irrelevant for them *)
Definition no_wt (o : op) : bool := match o with WriteTgt _ => false | _ => true end.

Lemma step_tgt_irrel : forall t t' f o, no_wt o = true -> fs_step t f o = fs_step t' f o.
Proof. intros t t' f o H. destruct o; try reflexivity. discriminate. Qed.

Lemma mentions_tgt_irrel : forall t t' o q, no_wt o = true -> mentions o t q = mentions o t' q.
Proof. intros t t' o q H. destruct o; try reflexivity. discriminate. Qed.

Lemma run_tgt_irrel : forall t t' tr f, (forall o, In o tr -> no_wt o = true) ->
  fs_run t tr f = fs_run t' tr f.
Proof.
  intros t t'. induction tr as [|o tr IH]; intros f H; [reflexivity|].
  rewrite !fs_run_cons. rewrite (step_tgt_irrel t t' f o) by (apply H; left; reflexivity).
  apply IH. intros o' Hin. apply H. right. assumption.
Qed.

Lemma atomic_write_no_wt : forall tmp tgt new chmod splits flt o,
  In o (atomic_write tmp tgt new chmod splits flt) -> no_wt o = true.
Proof.
  intros tmp tgt new chmod splits flt. apply Forall_forall.
  apply atomic_write_ops; intros; reflexivity.
Qed.

Lemma job_trace_no_wt : forall j o, In o (job_trace j) -> no_wt o = true.
Proof.
  intros j o Hin. unfold job_trace, format_file in Hin. destruct (j_fmt j); [|contradiction].
  eapply atomic_write_no_wt; eassumption.
Qed.

(* a job mentions only its own two paths, whatever the tgt parameter *)
Lemma job_trace_mentions : forall j o t q, In o (job_trace j) -> q <> j_tmp j -> q <> j_tgt j ->
  mentions o t q = false.
Proof.
  intros j o t q Hin H1 H2.
  rewrite (mentions_tgt_irrel t (j_tgt j) o q) by (eapply job_trace_no_wt; eassumption).
  unfold job_trace, format_file in Hin. destruct (j_fmt j) as [new|]; [|contradiction].
  eapply atomic_write_mentions; eassumption.
Qed.

Fixpoint dbl (i : nat) : nat := match i with 0 => 0 | S i' => S (S (dbl i')) end.

Lemma dbl_spec : forall i, dbl i = 2 * i.
Proof. induction i as [|i IH]; [reflexivity|]. cbn [dbl]. rewrite IH. lia. Qed.

Lemma nth_paths : forall jobs i j, nth_error jobs i = Some j ->
  nth_error (job_paths jobs) (dbl i) = Some (j_tmp j) /\
  nth_error (job_paths jobs) (S (dbl i)) = Some (j_tgt j).
Proof.
  induction jobs as [|j0 r IH]; intros i j H.
  - destruct i; discriminate.
  - destruct i as [|i]; simpl in H.
    + injection H as ->. split; reflexivity.
    + exact (IH i j H).
Qed.

Lemma nodup_pos : forall (l : list path) a b x, NoDup l ->
  nth_error l a = Some x -> nth_error l b = Some x -> a = b.
Proof.
  intros l a b x Hnd Ha Hb. apply (proj1 (NoDup_nth_error l) Hnd).
  - apply nth_error_Some. rewrite Ha. discriminate.
  - rewrite Ha, Hb. reflexivity.
Qed.

Lemma tmp_ne_tgt : forall jobs i j, NoDup (job_paths jobs) -> nth_error jobs i = Some j ->
  j_tmp j <> j_tgt j.
Proof.
  intros jobs i j Hnd H E. destruct (nth_paths jobs i j H) as [A B]. rewrite E in A.
  pose proof (nodup_pos _ _ _ _ Hnd A B) as X. lia.
Qed.

(* own j q: q is one of the two paths of job j *)
Definition own (j : job) (q : path) : bool := (q =? j_tmp j) || (q =? j_tgt j).

Lemma own_cases : forall j q, own j q = true -> q = j_tmp j \/ q = j_tgt j.
Proof.
  intros j q H. unfold own in H. apply orb_true_iff in H.
  destruct H as [H|H]; apply Nat.eqb_eq in H; auto.
Qed.

Lemma own_tmp : forall j, own j (j_tmp j) = true.
Proof. intros. unfold own. rewrite Nat.eqb_refl. reflexivity. Qed.
Lemma own_tgt : forall j, own j (j_tgt j) = true.
Proof. intros. unfold own. rewrite Nat.eqb_refl. apply orb_true_r. Qed.

Lemma own_disjoint : forall jobs i i' j j' q, NoDup (job_paths jobs) ->
  nth_error jobs i = Some j -> nth_error jobs i' = Some j' -> i <> i' ->
  own j q = true -> q <> j_tmp j' /\ q <> j_tgt j'.
Proof.
  intros jobs i i' j j' q Hnd H H' Hne Hq.
  destruct (nth_paths jobs i j H) as [A B]. destruct (nth_paths jobs i' j' H') as [A' B'].
  rewrite !dbl_spec in *.
  destruct (own_cases j q Hq) as [-> | ->]; split; intro E; rewrite <- ?E in *.
  - pose proof (nodup_pos _ _ _ _ Hnd A A'). lia.
  - pose proof (nodup_pos _ _ _ _ Hnd A B'). lia.
  - pose proof (nodup_pos _ _ _ _ Hnd B A'). lia.
  - pose proof (nodup_pos _ _ _ _ Hnd B B'). lia.
Qed.

Lemma init_content_none : forall jobs q, (forall j0, In j0 jobs -> q <> j_tgt j0) ->
  init_content jobs q = None.
Proof.
  induction jobs as [|j0 r IH]; intros q H; [reflexivity|]. simpl.
  destruct (q =? j_tgt j0) eqn:E.
  - apply Nat.eqb_eq in E. exfalso. apply (H j0); [left; reflexivity|assumption].
  - apply IH. intros j1 Hin. apply H. right. assumption.
Qed.

Lemma init_content_first : forall jobs i j, nth_error jobs i = Some j ->
  (forall i0 j0, i0 < i -> nth_error jobs i0 = Some j0 -> j_tgt j <> j_tgt j0) ->
  init_content jobs (j_tgt j) = Some (j_old j).
Proof.
  induction jobs as [|j0 r IH]; intros i j H Hlt.
  - destruct i; discriminate.
  - destruct i as [|i]; simpl in H.
    + injection H as ->. simpl. rewrite Nat.eqb_refl. reflexivity.
    + simpl. destruct (j_tgt j =? j_tgt j0) eqn:E.
      * apply Nat.eqb_eq in E. exfalso. apply (Hlt 0 j0); [lia|reflexivity|assumption].
      * apply (IH i j H). intros i0 j1 Hi0 Hj1. apply (Hlt (S i0) j1); [lia|exact Hj1].
Qed.

Section Interleave.
  Variable jobs : list job.
  Variable ltr : list (nat * op).
  Variable t0 : path.
  Hypothesis Hnd : NoDup (job_paths jobs).
  Hypothesis Hproj : forall i,
    proj i ltr = match nth_error jobs i with Some j => job_trace j | None => [] end.
  (* the directory before the command: on the two paths of every job it looks like the directory
     that holds only the job's target (other files may exist and may be open) *)
  Variable f0 : fs.
  Hypothesis Hinit : forall i j, nth_error jobs i = Some j ->
    agree_on (own j) f0 (fs_init (j_tgt j) (j_old j)).

  (* operations of goroutine i mention only the two paths of job i *)
  Lemma own_ops : forall i j o, nth_error jobs i = Some j -> In (i, o) ltr ->
    forall q, mentions o t0 q = true -> own j q = true.
  Proof.
    intros i j o H Hin q Hm. apply in_proj in Hin. rewrite Hproj, H in Hin.
    unfold own. destruct (q =? j_tmp j) eqn:E1; [reflexivity|].
    destruct (q =? j_tgt j) eqn:E2; [reflexivity|].
    apply Nat.eqb_neq in E1. apply Nat.eqb_neq in E2.
    rewrite (job_trace_mentions j o t0 q Hin E1 E2) in Hm. discriminate.
  Qed.

  (* operations of the other goroutines mention neither *)
  Lemma other_ops : forall i j l o, nth_error jobs i = Some j -> In (l, o) ltr -> l <> i ->
    forall q, own j q = true -> mentions o t0 q = false.
  Proof.
    intros i j l o H Hin Hne q Hq. apply in_proj in Hin. rewrite Hproj in Hin.
    destruct (nth_error jobs l) as [j'|] eqn:Hl; [|contradiction].
    destruct (own_disjoint jobs i l j j' q Hnd H Hl (fun e => Hne (eq_sym e)) Hq) as [A B].
    apply (job_trace_mentions j' o t0 q Hin A B).
  Qed.

  (* the two paths of job i after a part of the schedule are as after goroutine i's part of it,
     run alone in the directory that holds only its target *)
  Lemma restricted_part : forall i j l, nth_error jobs i = Some j -> incl l ltr ->
    agree_on (own j) (fs_run t0 (map snd l) f0) (fs_run t0 (proj i l) (fs_init (j_tgt j) (j_old j))).
  Proof.
    intros i j l H Hl. apply restrict_run.
    - intros o Hin. apply (own_ops i j o H), Hl, Hin.
    - intros l' o Hin Hne. apply (other_ops i j l' o H); [apply Hl, Hin | exact Hne].
    - apply (Hinit i j H).
  Qed.

  (* after any prefix of the schedule: as after a prefix of the job's own trace *)
  Lemma restricted : forall i j k, nth_error jobs i = Some j ->
    exists k',
      agree_on (own j) (fs_run t0 (map snd (firstn k ltr)) f0)
                       (fs_run (j_tgt j) (firstn k' (job_trace j)) (fs_init (j_tgt j) (j_old j))).
  Proof.
    intros i j k H. destruct (proj_firstn i ltr k) as [k' Hk']. exists k'.
    rewrite (run_tgt_irrel (j_tgt j) t0)
      by (intros o Hin; apply (job_trace_no_wt j); eapply in_firstn; eassumption).
    pose proof (Hproj i) as Hp. rewrite H in Hp. rewrite <- Hp, <- Hk'.
    apply (restricted_part i j _ H). intros x. apply in_firstn.
  Qed.

  Lemma interleaving_prefix : forall k i j, nth_error jobs i = Some j ->
    let f := fs_run t0 (map snd (firstn k ltr)) f0 in
    content f (j_tgt j) = Some (j_old j) \/
    (exists new, j_fmt j = Some new /\ content f (j_tgt j) = Some new).
  Proof.
    intros k i j H f. subst f. destruct (restricted i j k H) as [k' Hk'].
    destruct (Hk' (j_tgt j) (own_tgt j)) as [C _]. rewrite C. clear C Hk'.
    pose proof (tmp_ne_tgt jobs i j Hnd H) as Hne.
    unfold job_trace, format_file. destruct (j_fmt j) as [new|].
    - destruct (protocol_correct (j_tgt j) (j_old j) new (j_tmp j) Hne
                  (j_chmod j) (j_splits j) (j_fault j)) as [Hsafe _].
      destruct (safe_prefixes (j_tgt j) (j_old j) new _ _ Hsafe (init_ok (j_tgt j) (j_old j) new) k')
        as [A|A]; [left; exact A|right; exists new; split; [reflexivity|exact A]].
    - left. rewrite firstn_nil. unfold fs_run, fs_init. simpl. rewrite Nat.eqb_refl. reflexivity.
  Qed.

  Lemma interleaving_final : forall i j, nth_error jobs i = Some j ->
    let f := fs_run t0 (map snd ltr) f0 in
    content f (j_tgt j) = Some (job_final j) /\ content f (j_tmp j) = None.
  Proof.
    intros i j H f. subst f.
    (* the whole schedule: the projection is the whole trace of the job *)
    assert (Hall : agree_on (own j) (fs_run t0 (map snd ltr) f0)
                     (fs_run (j_tgt j) (job_trace j) (fs_init (j_tgt j) (j_old j)))).
    { rewrite (run_tgt_irrel (j_tgt j) t0) by (apply job_trace_no_wt).
      pose proof (Hproj i) as Hp. rewrite H in Hp. rewrite <- Hp.
      apply (restricted_part i j ltr H (incl_refl _)). }
    destruct (Hall (j_tgt j) (own_tgt j)) as [C1 _]. destruct (Hall (j_tmp j) (own_tmp j)) as [C2 _].
    rewrite C1, C2. clear C1 C2 Hall.
    pose proof (tmp_ne_tgt jobs i j Hnd H) as Hne.
    unfold job_final, job_trace, format_file. destruct (j_fmt j) as [new|].
    - destruct (protocol_correct (j_tgt j) (j_old j) new (j_tmp j) Hne
                  (j_chmod j) (j_splits j) (j_fault j)) as (_ & Hc & Hr & Ht).
      cbv zeta in Hc, Hr, Ht. rewrite Hc, Ht. split; [|reflexivity].
      destruct (renamed_to (j_tgt j) _) eqn:R.
      + rewrite (proj1 Hr eq_refl). reflexivity.
      + destruct (j_fault j); try reflexivity. destruct Hr as [_ Hr]. discriminate (Hr eq_refl).
    - unfold fs_run, fs_init. simpl. rewrite Nat.eqb_refl.
      replace (j_tmp j =? j_tgt j) with false by (symmetry; apply Nat.eqb_neq; assumption).
      split; reflexivity.
  Qed.

  (* a path that belongs to no job (another journal, the training file of `infer`) is never
     touched, at any point of any schedule *)
  Lemma interleaving_others : forall k q, ~ In q (job_paths jobs) ->
    let f := fs_run t0 (map snd (firstn k ltr)) f0 in
    content f q = content f0 q /\ is_open f q = is_open f0 q.
  Proof.
    intros k q Hq f. subst f. apply run_frame. apply forallb_forall. intros o Hin.
    apply negb_true_iff. apply in_map_iff in Hin. destruct Hin as [[l o'] [E Hin]].
    simpl in E. subst o'. apply in_firstn in Hin. apply in_proj in Hin. rewrite Hproj in Hin.
    destruct (nth_error jobs l) as [j'|] eqn:Hl; [|contradiction].
    destruct (nth_paths jobs l j' Hl) as [A B].
    apply (job_trace_mentions j' o t0 q Hin); intro E; apply Hq; subst q;
      eapply nth_error_In; eassumption.
  Qed.
End Interleave.

(* the statement for a directory that may hold other files as well *)
Theorem interleaving_any_dir : forall (jobs : list job) (ltr : list (nat * op)) (t0 : path) (f0 : fs),
  NoDup (job_paths jobs) ->
  (forall i, proj i ltr = match nth_error jobs i with Some j => job_trace j | None => [] end) ->
  (forall i j, nth_error jobs i = Some j ->
     content f0 (j_tgt j) = Some (j_old j) /\ content f0 (j_tmp j) = None /\
     is_open f0 (j_tgt j) = false /\ is_open f0 (j_tmp j) = false) ->
  (forall k i j, nth_error jobs i = Some j ->
     let f := fs_run t0 (map snd (firstn k ltr)) f0 in
     content f (j_tgt j) = Some (j_old j) \/
     (exists new, j_fmt j = Some new /\ content f (j_tgt j) = Some new)) /\
  (forall i j, nth_error jobs i = Some j ->
     let f := fs_run t0 (map snd ltr) f0 in
     content f (j_tgt j) = Some (job_final j) /\ content f (j_tmp j) = None) /\
  (forall k q, ~ In q (job_paths jobs) ->
     let f := fs_run t0 (map snd (firstn k ltr)) f0 in
     content f q = content f0 q /\ is_open f q = is_open f0 q).
Proof.
  intros jobs ltr t0 f0 Hnd Hproj H0.
  assert (Hinit : forall i j, nth_error jobs i = Some j ->
                    agree_on (own j) f0 (fs_init (j_tgt j) (j_old j))).
  { intros i j H q Hq. destruct (H0 i j H) as (A & B & C & D).
    pose proof (tmp_ne_tgt jobs i j Hnd H) as Hne.
    unfold fs_init. cbn [content is_open].
    destruct (own_cases j q Hq) as [-> | ->].
    - replace (j_tmp j =? j_tgt j) with false by (symmetry; apply Nat.eqb_neq; assumption). auto.
    - rewrite Nat.eqb_refl. auto. }
  split; [|split].
  - intros k i j H. exact (interleaving_prefix jobs ltr t0 Hnd Hproj f0 Hinit k i j H).
  - intros i j H. exact (interleaving_final jobs ltr t0 Hnd Hproj f0 Hinit i j H).
  - intros k q Hq. exact (interleaving_others jobs ltr t0 Hproj f0 k q Hq).
Qed.

Theorem interleaving : forall (jobs : list job) (ltr : list (nat * op)) (t0 : path),
  NoDup (job_paths jobs) ->
  (forall i, proj i ltr = match nth_error jobs i with Some j => job_trace j | None => [] end) ->
  (forall k i j, nth_error jobs i = Some j ->
     let f := fs_run t0 (map snd (firstn k ltr)) (fs_init_jobs jobs) in
     content f (j_tgt j) = Some (j_old j) \/
     (exists new, j_fmt j = Some new /\ content f (j_tgt j) = Some new)) /\
  (forall i j, nth_error jobs i = Some j ->
     let f := fs_run t0 (map snd ltr) (fs_init_jobs jobs) in
     content f (j_tgt j) = Some (job_final j) /\ content f (j_tmp j) = None).
Proof.
  intros jobs ltr t0 Hnd Hproj.
  destruct (interleaving_any_dir jobs ltr t0 (fs_init_jobs jobs) Hnd Hproj) as (A & B & _); [|auto].
  intros i j H. cbn. repeat split.
  - apply (init_content_first jobs i j H). intros i0 j0 Hlt Hj0.
    apply (own_disjoint jobs i i0 j j0 (j_tgt j) Hnd H Hj0 ltac:(lia) (own_tgt j)).
  - apply init_content_none. intros j0 Hin. destruct (In_nth_error jobs j0 Hin) as [i0 Hi0].
    destruct (Nat.eq_dec i i0) as [<-|Hii].
    + rewrite H in Hi0. injection Hi0 as <-. apply (tmp_ne_tgt jobs i j Hnd H).
    + apply (own_disjoint jobs i i0 j j0 (j_tmp j) Hnd H Hi0 Hii (own_tmp j)).
Qed.
