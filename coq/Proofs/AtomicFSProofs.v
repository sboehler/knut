(* Proofs about Model/AtomicFS.v: a safe trace keeps the target in {old, new} after every prefix;
   every trace of the write-temp-then-rename protocol, with a failure at any operation and any
   splitting into short writes, is safe, installs new iff the rename happened and leaves no
   temporary file; operations leave the paths they do not mention untouched.                  *)
From Coq Require Import List Bool Arith PeanoNat NArith Lia.
From Knut Require Import Model.AtomicFS.
Import ListNotations.

Lemma bytes_eqb_eq : forall a b, bytes_eqb a b = true <-> a = b.
Proof.
  induction a as [|x a IH]; intros [|y b]; simpl; split; intro H; try reflexivity; try discriminate.
  - apply andb_true_iff in H. destruct H as [H1 H2]. apply N.eqb_eq in H1. apply IH in H2. congruence.
  - injection H as -> ->. rewrite N.eqb_refl. apply IH. reflexivity.
Qed.

Lemma bytes_eqb_refl : forall a, bytes_eqb a a = true.
Proof. intros. apply bytes_eqb_eq. reflexivity. Qed.

Section Safe.
  Variable tgt : path.
  Variable old new : bytes.

  Definition tgt_ok (f : fs) : Prop := content f tgt = Some old \/ content f tgt = Some new.

  (* operations leave the paths they do not mention untouched *)
  Lemma step_frame : forall f o q, mentions o tgt q = false ->
    content (fs_step tgt f o) q = content f q /\ is_open (fs_step tgt f o) q = is_open f q.
  Proof.
    intros f o q Hm. destruct o as [p|p d|p|p|p|p r|p|p|d|]; cbn in Hm |- *; auto.
    - destruct (content f p); cbn; rewrite ?Hm; auto.
    - destruct (content f p); [destruct (is_open f p)|]; cbn; rewrite ?Hm; auto.
    - rewrite Hm. auto.
    - apply orb_false_iff in Hm as [H1 H2].
      destruct (content f p); [destruct (p =? r)|]; cbn; rewrite ?H1, ?H2; auto.
    - rewrite Hm. auto.
    - destruct (content f p); cbn; rewrite ?Hm; auto.
    - destruct (content f tgt); cbn; rewrite ?Hm; auto.
  Qed.

  (* a safe operation does not mention the target, or has no effect on contents, or renames the
     complete new contents onto it *)
  Lemma step_keeps_target : forall f o, op_safe tgt new f o = true -> tgt_ok f -> tgt_ok (fs_step tgt f o).
  Proof.
    intros f o Hs Hok.
    assert (F : mentions o tgt tgt = false -> tgt_ok (fs_step tgt f o)).
    { intros Hm. unfold tgt_ok. rewrite (proj1 (step_frame f o tgt Hm)). exact Hok. }
    destruct o as [p|p d|p|p|p|p q|p|p|d|]; cbn [op_safe] in Hs; try exact Hok; try discriminate;
      try (apply F; cbn; rewrite Nat.eqb_sym; apply negb_true_iff, Hs).
    destruct (q =? tgt) eqn:Eq.
    - apply andb_true_iff in Hs as [Hs Ho]. apply andb_true_iff in Hs as [Hp Hc].
      apply negb_true_iff in Hp. apply Nat.eqb_eq in Eq. subst q.
      destruct (content f p) as [c|] eqn:Cp; [|discriminate]. apply bytes_eqb_eq in Hc. subst c.
      right. cbn. rewrite Cp, Hp. cbn. rewrite Nat.eqb_refl, (Nat.eqb_sym tgt p), Hp. reflexivity.
    - apply F. cbn. apply negb_true_iff in Hs. rewrite (Nat.eqb_sym tgt q), Eq, Nat.eqb_sym, Hs.
      reflexivity.
  Qed.

  Lemma safe_prefixes : forall tr f, safe_from tgt new f tr = true -> tgt_ok f ->
    forall k, tgt_ok (fs_run tgt (firstn k tr) f).
  Proof.
    induction tr as [|o tr IH]; intros f Hs Hok k.
    - rewrite firstn_nil. assumption.
    - destruct k as [|k]; [assumption|]. simpl in *. apply andb_true_iff in Hs. destruct Hs as [H1 H2].
      apply IH; [assumption|]. apply step_keeps_target; assumption.
  Qed.

  Lemma init_ok : tgt_ok (fs_init tgt old).
  Proof. left. unfold fs_init. simpl. rewrite Nat.eqb_refl. reflexivity. Qed.

  Lemma safe_from_app : forall a b f,
    safe_from tgt new f (a ++ b) = safe_from tgt new f a && safe_from tgt new (fs_run tgt a f) b.
  Proof.
    induction a as [|o a IH]; intros b f; simpl; [reflexivity|]. rewrite IH, andb_assoc. reflexivity.
  Qed.

  Lemma fs_run_app : forall a b f, fs_run tgt (a ++ b) f = fs_run tgt b (fs_run tgt a f).
  Proof. intros. unfold fs_run. apply fold_left_app. Qed.

  Lemma run_frame : forall tr f q, forallb (fun o => negb (mentions o tgt q)) tr = true ->
    content (fs_run tgt tr f) q = content f q /\ is_open (fs_run tgt tr f) q = is_open f q.
  Proof.
    induction tr as [|o tr IH]; intros f q H; simpl in *; [auto|].
    apply andb_true_iff in H. destruct H as [H1 H2]. apply negb_true_iff in H1.
    destruct (IH (fs_step tgt f o) q H2) as [A B]. destruct (step_frame f o q H1) as [C D].
    rewrite A, B, C, D. auto.
  Qed.

  Variable tmp : path.
  Hypothesis Hne : tmp <> tgt.

  Lemma writes_run : forall splits data f c,
    content f tmp = Some c -> is_open f tmp = true ->
    content (fs_run tgt (writes tmp data splits) f) tmp = Some (c ++ data) /\
    is_open (fs_run tgt (writes tmp data splits) f) tmp = true /\
    content (fs_run tgt (writes tmp data splits) f) tgt = content f tgt /\
    safe_from tgt new f (writes tmp data splits) = true.
  Proof.
    assert (E1 : (tmp =? tgt) = false) by (apply Nat.eqb_neq; assumption).
    assert (E2 : (tgt =? tmp) = false) by (apply Nat.eqb_neq; auto).
    induction splits as [|s r IH]; intros data f c Hc Ho; simpl.
    - destruct data as [|b data]; simpl.
      + rewrite app_nil_r. auto.
      + rewrite Hc, Ho. simpl. rewrite Nat.eqb_refl, E1, E2. auto.
    - rewrite Hc, Ho. simpl. rewrite E1. simpl.
      destruct (IH (skipn s data) (set_content f tmp (Some (c ++ firstn s data))) (c ++ firstn s data))
        as (A & B & C & D).
      + simpl. rewrite Nat.eqb_refl. reflexivity.
      + simpl. assumption.
      + rewrite A, B, C, D. rewrite <- app_assoc, firstn_skipn. simpl. rewrite E2. auto.
  Qed.

  Lemma renamed_writes : forall splits data, renamed_to tgt (writes tmp data splits) = false.
  Proof.
    induction splits as [|s r IH]; intros data; simpl.
    - destruct data; reflexivity.
    - apply IH.
  Qed.

  Lemma renamed_app : forall a b, renamed_to tgt (a ++ b) = renamed_to tgt a || renamed_to tgt b.
  Proof. intros. unfold renamed_to. apply existsb_app. Qed.

  (* state after  Create tmp :: writes tmp data splits  from the initial directory *)
  Lemma after_writes : forall splits data,
    let f := fs_run tgt (Create tmp :: writes tmp data splits) (fs_init tgt old) in
    content f tmp = Some data /\ is_open f tmp = true /\ content f tgt = Some old /\
    safe_from tgt new (fs_init tgt old) (Create tmp :: writes tmp data splits) = true.
  Proof.
    intros splits data.
    assert (E1 : (tmp =? tgt) = false) by (apply Nat.eqb_neq; assumption).
    assert (E2 : (tgt =? tmp) = false) by (apply Nat.eqb_neq; auto).
    simpl. rewrite E1. simpl.
    destruct (writes_run splits data
               (set_open (set_content (fs_init tgt old) tmp (Some [])) tmp true) [])
      as (A & B & C & D).
    - simpl. rewrite Nat.eqb_refl. reflexivity.
    - simpl. rewrite Nat.eqb_refl. reflexivity.
    - rewrite A, B, C, D. simpl. rewrite E2, Nat.eqb_refl. auto.
  Qed.

  Ltac tail_compute HA HB HC E1 E2 :=
    simpl; rewrite ?HA, ?HB, ?HC; simpl; rewrite ?E1, ?E2, ?Nat.eqb_refl, ?HA, ?HB, ?HC; simpl;
    rewrite ?E1, ?E2, ?Nat.eqb_refl, ?HA, ?HB, ?HC, ?bytes_eqb_refl; simpl;
    rewrite ?E1, ?E2, ?Nat.eqb_refl; simpl.

  Lemma protocol_correct : forall chmod splits flt,
    let tr := atomic_write tmp tgt new chmod splits flt in
    let f := fs_run tgt tr (fs_init tgt old) in
    safe_trace tgt old new tr = true /\
    content f tgt = Some (if renamed_to tgt tr then new else old) /\
    (renamed_to tgt tr = true <-> flt = NoFault) /\
    content f tmp = None.
  Proof.
    intros chmod splits flt.
    assert (E1 : (tmp =? tgt) = false) by (apply Nat.eqb_neq; assumption).
    assert (E2 : (tgt =? tmp) = false) by (apply Nat.eqb_neq; auto).
    unfold safe_trace.
    destruct flt as [|  |k| | | | | ]; unfold atomic_write.
    (* the common shape  (Create tmp :: writes ..) ++ tail  *)
    all: try match goal with
      |- context [Create ?t :: writes ?t ?data ?sp ++ ?tail] =>
        change (Create t :: writes t data sp ++ tail)
          with ((Create t :: writes t data sp) ++ tail);
        destruct (after_writes sp data) as (HA & HB & HC & HD);
        cbv zeta; rewrite safe_from_app, fs_run_app, HD, renamed_app;
        change (renamed_to tgt (Create t :: writes t data sp))
          with (renamed_to tgt (writes t data sp));
        rewrite renamed_writes;
        set (W := fs_run tgt (Create t :: writes t data sp) (fs_init tgt old)) in *
      end.
    - (* NoFault *)
      destruct chmod; tail_compute HA HB HC E1 E2;
        (repeat split; auto; intros; try reflexivity; try discriminate).
    - (* FailCreate *)
      simpl. rewrite Nat.eqb_refl, E1. repeat split; auto; intros; discriminate.
    - tail_compute HA HB HC E1 E2. repeat split; auto; intros; discriminate.
    - tail_compute HA HB HC E1 E2. repeat split; auto; intros; discriminate.
    - tail_compute HA HB HC E1 E2. repeat split; auto; intros; discriminate.
    - tail_compute HA HB HC E1 E2. repeat split; auto; intros; discriminate.
    - tail_compute HA HB HC E1 E2. repeat split; auto; intros; discriminate.
    - destruct chmod; tail_compute HA HB HC E1 E2; (repeat split; auto; intros; discriminate).
  Qed.

  (* the operations of the protocol: writes to the temporary file and seven others *)
  Lemma writes_ops : forall (P : op -> Prop), (forall d, P (Write tmp d)) ->
    forall splits data, Forall P (writes tmp data splits).
  Proof.
    intros P H. induction splits as [|s r IH]; intros data; simpl.
    - destruct data; constructor; auto.
    - constructor; auto.
  Qed.

  Lemma atomic_write_ops : forall (P : op -> Prop),
    (forall d, P (Write tmp d)) -> P (Create tmp) -> P (Fsync tmp) -> P (Close tmp) -> P (Chmod tmp) ->
    P (Rename tmp tgt) -> P (Unlink tmp) -> P Other ->
    forall chmod splits flt, Forall P (atomic_write tmp tgt new chmod splits flt).
  Proof.
    intros P Hw; intros. pose proof (writes_ops P Hw) as W.
    destruct flt, chmod; unfold atomic_write, cleanup, cleanup_closed;
      repeat first [apply Forall_nil | apply Forall_cons | apply Forall_app; split | apply W]; assumption.
  Qed.

  (* the protocol only ever mentions its temporary file and its target *)
  Lemma atomic_write_mentions : forall chmod splits flt o q,
    In o (atomic_write tmp tgt new chmod splits flt) -> q <> tmp -> q <> tgt -> mentions o tgt q = false.
  Proof.
    intros chmod splits flt o q Hin Hq1 Hq2. revert o Hin. apply Forall_forall.
    apply Nat.eqb_neq in Hq1, Hq2.
    apply atomic_write_ops; intros; simpl; rewrite ?Hq1, ?Hq2; reflexivity.
  Qed.

  Lemma protocol_leaves_others : forall chmod splits flt f q, q <> tmp -> q <> tgt ->
    content (fs_run tgt (atomic_write tmp tgt new chmod splits flt) f) q = content f q.
  Proof.
    intros chmod splits flt f q H1 H2. apply run_frame. apply forallb_forall. intros o Ho.
    apply negb_true_iff. eapply atomic_write_mentions; eassumption.
  Qed.

End Safe.
