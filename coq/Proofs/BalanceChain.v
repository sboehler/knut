(* `knut balance` on two journals whose day lists are related: if every stage of the pipeline
   (Cli.balance_report: check, prices, valuate, filter, close, query) keeps the relation, the
   reports are related and the partitions equal, or both commands fail.  The relation may change
   once, at ComputePrices ([R0] before, [R1] after). *)
From Coq Require Import ZArith List Bool.
From Knut Require Import Model.Str Model.Dec Model.Date Model.Account Model.Ledger Model.Price Model.Journal
     Model.Check Model.Pipeline Model.Table Model.Report Model.Cli.
From Knut Require Import Proofs.OrderProofs Proofs.OrderCmd.
Import ListNotations.

Definition stage_rel {S} (p : processor S) (s : S) (RI RO : list day -> list day -> Prop) : Prop :=
  forall D D', RI D D' -> ceq (fun a a' => RO (snd a) (snd a')) (run_stage p s D) (run_stage p s D').

Lemma stage_rel_req {S} (p : processor S) s (RS : S -> S -> Prop) (RI RO : list day -> list day -> Prop) :
  (forall D D', RI D D' ->
     req (fun a a' => RS (fst a) (fst a') /\ RO (snd a) (snd a')) (process_days p s D) (process_days p s D')) ->
  stage_rel p s RI RO.
Proof.
  intros H D D' HD. unfold run_stage. apply ceq_of_presult.
  eapply req_impl; [|exact (H D D' HD)]. intros a a' [_ Ho]. exact Ho.
Qed.

Section Chain.
  Variables (R0 R1 : list day -> list day -> Prop) (RR : report -> report -> Prop).
  Hypothesis H_touch : forall b b' dates,
    R0 (b_days b) (b_days b') -> R0 (b_days (builder_touch b dates)) (b_days (builder_touch b' dates)).
  Hypothesis H_check : forall r, stage_rel (check_proc_current r) check_init R0 R0.
  Hypothesis H_cp : forall v, stage_rel (compute_prices_proc v) (mkCp [] None) R0 R1.
  Hypothesis H_val : forall v, stage_rel (valuate_proc v) (mkVal None None []) R1 R1.
  Hypothesis H_unvalued : forall D D', R0 D D' -> R1 D D'.
  Hypothesis H_filter : forall sp, stage_rel (filter_proc sp) tt R1 R1.
  Hypothesis H_close : forall cds, stage_rel (close_proc cds) (mkClose [] []) R1 R1.
  Hypothesis H_query : forall q D D', R1 D D' ->
    ceq (fun a a' => RR (fst a) (fst a')) (run_stage (query_proc q report_insert) new_report D)
        (run_stage (query_proc q report_insert) new_report D').

  Theorem balance_report_rel cfg X X' b b' :
    load X = COk b -> load X' = COk b' -> b_min b = b_min b' -> b_max b = b_max b' -> R0 (b_days b) (b_days b') ->
    ceq (fun a a' => RR (fst a) (fst a') /\ snd a = snd a') (balance_report cfg X) (balance_report cfg X').
  Proof.
    intros HX HX' Hmin Hmax Hd. unfold balance_report. rewrite HX, HX'.
    destruct (match bc_valuation cfg with Some v => if valid_commodity v then COk tt else CErr k_valuation v | None => COk tt end);
      cbn [cbind ceq]; try exact I.
    rewrite (cfg_partition_equiv cfg b b' Hmin Hmax).
    destruct (cfg_partition cfg b') as [part| |]; cbn [cbind ceq]; try exact I. cbv zeta.
    eapply ceq_bind.
    { apply H_check. destruct (bc_close cfg); [now apply H_touch|exact Hd]. }
    intros r1 r1' H1. eapply (ceq_bind R1).
    { destruct (bc_valuation cfg) as [v|]; [|now apply H_unvalued].
      eapply ceq_bind; [apply H_cp; exact H1|]. intros r2 r2' H2.
      eapply ceq_bind; [apply H_val; exact H2|]. intros r3 r3' H3. exact H3. }
    intros dv dv' Hv. eapply ceq_bind; [apply H_filter; exact Hv|]. intros r4 r4' H4.
    eapply (ceq_bind R1).
    { destruct (bc_close cfg); [|exact H4]. eapply ceq_bind; [apply H_close; exact H4|]. intros r5 r5' H5. exact H5. }
    intros d6 d6' H6. eapply ceq_bind; [apply H_query; exact H6|].
    intros r7 r7' H7. cbn [ceq fst snd]. split; [exact H7|reflexivity].
  Qed.
End Chain.
