(* C02, the CSV: the CSV that `knut balance --csv` prints is the CSV of the independent ledger
   computation (Spec/LedgerSpec.v ledger_csv), record by record, field by field.
   From the table theorems (layout, rows, commodity lines, numbers), Proofs/DecStringValue.v (the
   text of a decimal is a function of its value) and the CSV renderer of C17 (blank rows are
   skipped, a field is the cell's text).  The order of the account rows is a hypothesis of this
   file ([Horder]) and is discharged in Proofs/BalanceCsvOrder.v. *)
From Coq Require Import QArith List Lia Sorting.Sorted.
From Knut Require Import Model.Str Model.Dec Model.Date Model.Account Model.Ledger Model.Table Model.Report Model.Cli
     Spec.WellformedSpec Spec.LedgerSpec Spec.BalanceTableSpec Proofs.ListFacts Proofs.DecValue
     Proofs.DecStringValue Proofs.CheckLemmas Proofs.LedgerProofs Proofs.LayoutProofs
     Proofs.BalanceTableLayout Proofs.BalanceTableTree Proofs.BalanceTableCells Proofs.BalanceTableTotals
     Proofs.BalanceTableLines.
Import ListNotations.
Open Scope Q_scope.

Definition nonblank (rec : list str) : bool := existsb (fun s => match s with [] => false | _ => true end) rec.
Definition csvf (rows : list (list cell)) : list (list str) := filter nonblank (map (map csv_cell) rows).

Lemma render_csv_rows_csvf t : render_csv_rows t = csvf (t_rows t).
Proof. reflexivity. Qed.

Lemma csvf_app a b : csvf (a ++ b) = csvf a ++ csvf b.
Proof. unfold csvf. rewrite map_app, filter_app. reflexivity. Qed.

Lemma csvf_concat ls : csvf (concat ls) = concat (map csvf ls).
Proof. induction ls as [|l ls IH]; cbn [concat map]; [reflexivity|]. rewrite csvf_app, IH. reflexivity. Qed.

Lemma nonblank_repeat_nil w : nonblank (repeat [] w) = false.
Proof. induction w as [|w IH]; cbn [repeat nonblank existsb]; [reflexivity|exact IH]. Qed.

Lemma csvf_blank_row c w : csv_cell c = [] -> csvf [repeat c w] = [].
Proof. intros E. unfold csvf. cbn [map filter]. rewrite map_repeat, E, nonblank_repeat_nil. reflexivity. Qed.

Fixpoint csv_lines_from (name : str) (first : bool) (coms : list commodity) (f : commodity -> list str) : list (list str) :=
  match coms with
  | [] => []
  | c :: rest => ((if first then name else []) :: c :: f c) :: csv_lines_from name false rest f
  end.

Definition csv_block (name : str) (ncols : nat) (coms : list commodity) (f : commodity -> list str) : list (list str) :=
  match coms with
  | [] => [name :: ([] : str) :: repeat ([] : str) ncols]
  | _ => csv_lines_from name true coms f
  end.

Lemma csv_lines_from_ext name first coms f g :
  (forall c, In c coms -> f c = g c) -> csv_lines_from name first coms f = csv_lines_from name first coms g.
Proof.
  revert first. induction coms as [|c coms IH]; intros first H; cbn [csv_lines_from]; [reflexivity|].
  rewrite (H c (or_introl eq_refl)), IH; [reflexivity|]. intros c' Hc'. apply H. right. exact Hc'.
Qed.

Lemma csv_block_ext name n coms f g :
  (forall c, In c coms -> f c = g c) -> csv_block name n coms f = csv_block name n coms g.
Proof. intros H. unfold csv_block. destruct coms; [reflexivity|]. apply csv_lines_from_ext. exact H. Qed.

Lemma combine_lines name (f : commodity -> list str) : forall coms b,
  map (fun ic : bool * commodity => (if fst ic then name else []) :: snd ic :: f (snd ic))
      (combine (b :: map (fun _ => false) coms) coms) = csv_lines_from name b coms f.
Proof.
  induction coms as [|c coms IH]; intros b; [reflexivity|].
  cbn [map combine csv_lines_from fst snd]. f_equal. apply IH.
Qed.

(* the shape shared by lines_for and delta_lines *)
Lemma ledger_block name (cols : list Z) coms (f : commodity -> list str) :
  match coms with
  | [] => [name :: ([] : str) :: map (fun _ => ([] : str)) cols]
  | _ => map (fun ic : bool * commodity => (if fst ic then name else []) :: snd ic :: f (snd ic))
             (combine (true :: map (fun _ => false) coms) coms)
  end = csv_block name (length cols) coms f.
Proof.
  unfold csv_block. destruct coms as [|c0 coms]; [rewrite map_const_repeat; reflexivity|apply combine_lines].
Qed.

Lemma cells_printed diff negate es sel c cols : forall total,
  cells diff negate es sel c cols total = map to_string (cell_amounts diff negate es sel c cols total).
Proof.
  induction cols as [|col rest IH]; intros total; cbn [cells cell_amounts map]; [reflexivity|]. rewrite IH. reflexivity.
Qed.

Lemma lines_for_block diff negate es sel name cols :
  lines_for diff negate es sel name cols =
  csv_block name (length cols) (shown_commodities es sel cols)
            (fun c => map to_string (cell_amounts diff negate es sel c cols dec_nil)).
Proof.
  unfold lines_for. rewrite <- ledger_block. destruct (shown_commodities es sel cols); [reflexivity|].
  apply map_ext. intros [b x]. cbn [fst snd]. rewrite cells_printed. reflexivity.
Qed.

Lemma nums_csv nums amts : Forall2 num_is nums amts -> map csv_cell nums = map to_string amts.
Proof.
  induction 1 as [|n d nums amts Hn _ IH]; cbn [map]; [reflexivity|]. rewrite IH. f_equal.
  destruct n as [| | |x]; cbn [num_is] in Hn; try contradiction. cbn [csv_cell].
  apply to_string_value. apply dec_equal_value. exact Hn.
Qed.

Lemma nonblank_third x y (l : list str) : l <> [] -> Forall (fun s => s <> []) l -> nonblank (x :: y :: l) = true.
Proof.
  intros Hne Hall. destruct l as [|s l]; [contradiction|]. inversion Hall as [|? ? Hs _]; subst.
  unfold nonblank. cbn [existsb]. destruct s; [contradiction|]. rewrite !orb_true_r. reflexivity.
Qed.

Lemma map_to_string_nonempty l : Forall (fun s : str => s <> []) (map to_string l).
Proof. induction l as [|d l IH]; cbn [map]; constructor; [apply to_string_nonempty|exact IH]. Qed.

Lemma lines_csv name indent amts : forall coms first b,
  lines_ok name indent first coms amts b -> (forall c, In c coms -> amts c <> []) ->
  csvf b = csv_lines_from name first coms (fun c => map to_string (amts c)).
Proof.
  induction coms as [|c coms IH]; intros first b H Hne; destruct b as [|line b']; cbn [lines_ok] in H; try contradiction.
  - reflexivity.
  - destruct H as [(nums & -> & Hnums) Hrest]. cbn [csv_lines_from].
    change (csvf (?x :: b')) with (csvf ([x] ++ b')). rewrite csvf_app, (IH false b' Hrest) by (intros c' Hc'; apply Hne; right; exact Hc').
    assert (Hc : amts c <> []) by (apply Hne; left; reflexivity).
    assert (Hnb : forall x, nonblank (x :: c :: map to_string (amts c)) = true).
    { intros x. apply nonblank_third; [|apply map_to_string_nonempty]. destruct (amts c); [contradiction|discriminate]. }
    unfold csvf at 1. destruct first; cbn [map filter csv_cell]; rewrite (nums_csv _ _ Hnums), Hnb; reflexivity.
Qed.

Lemma block_csv n name indent coms amts b :
  block_ok (2 + n) name indent coms amts b -> name <> [] -> (forall c, In c coms -> amts c <> []) ->
  csvf b = csv_block name n coms (fun c => map to_string (amts c)).
Proof.
  intros H Hname Hne. unfold block_ok in H. unfold csv_block. destruct coms as [|c0 coms].
  - subst b. unfold csvf. cbn [map filter csv_cell]. replace (2 + n - 1)%nat with (S n) by lia.
    cbn [repeat map csv_cell]. rewrite map_repeat. cbn [csv_cell].
    unfold nonblank. cbn [existsb]. destruct name; [contradiction|]. reflexivity.
  - apply (lines_csv name indent amts (c0 :: coms) true b H Hne).
Qed.

Lemma insert_com_in x c : forall l, In x (insert_com c l) <-> x = c \/ In x l.
Proof.
  induction l as [|y l IH]; cbn [insert_com]; [cbn [In]; intuition congruence|].
  destruct (str_cmp c y) eqn:E.
  - apply str_cmp_eq in E. subst y. cbn [In]. intuition congruence.
  - cbn [In]. intuition congruence.
  - cbn [In]. rewrite IH. intuition congruence.
Qed.

Lemma insert_com_sorted c : forall l, coms_sorted l -> coms_sorted (insert_com c l).
Proof.
  induction l as [|y l IH]; intros Hs; cbn [insert_com]; [cbn; split; [constructor|exact I]|].
  cbn [coms_sorted] in Hs. destruct Hs as [Hy Hl].
  destruct (str_cmp c y) eqn:E.
  - cbn [coms_sorted]. split; assumption.
  - cbn [coms_sorted]. split; [|split; assumption]. constructor; [exact E|].
    rewrite Forall_forall in *. intros w Hw. exact (str_cmp_lt_trans _ _ _ E (Hy w Hw)).
  - cbn [coms_sorted]. split; [|apply IH; exact Hl].
    rewrite Forall_forall in *. intros w Hw. apply insert_com_in in Hw. destruct Hw as [->|Hw]; [|exact (Hy w Hw)].
    rewrite str_cmp_antisym, E. reflexivity.
Qed.

Definition shown_step (es : list entry) (sel : account -> bool) (cols : list Z) (l : list commodity) (e : entry) : list commodity :=
  let '(_, a, c, _) := e in
  if sel a && existsb (fun col => negb (is_zero (period_amount es sel c col))) cols then insert_com c l else l.

Lemma shown_fold es sel cols : shown_commodities es sel cols = fold_left (shown_step es sel cols) es [].
Proof. reflexivity. Qed.

Lemma shown_sorted es sel cols : coms_sorted (shown_commodities es sel cols).
Proof.
  rewrite shown_fold. apply fold_left_invariant; [|exact I]. intros l [[[col a] c] v] Hl.
  unfold shown_step. destruct (sel a && _); [apply insert_com_sorted|]; exact Hl.
Qed.

Lemma shown_step_in es sel cols l e x :
  In x (shown_step es sel cols l e) <->
  In x l \/ (x = snd (fst e) /\ sel (e_acc e) && existsb (fun col => negb (is_zero (period_amount es sel x col))) cols = true).
Proof.
  destruct e as [[[col a] c] v]. unfold shown_step, e_acc. cbn [fst snd].
  destruct (sel a && existsb (fun col0 => negb (is_zero (period_amount es sel c col0))) cols) eqn:E.
  - rewrite insert_com_in. split.
    + intros [->|H]; [right; split; [reflexivity|exact E]|left; exact H].
    + intros [H|[-> _]]; [right; exact H|left; reflexivity].
  - split; [left; assumption|]. intros [H|[-> H]]; [exact H|]. rewrite E in H. discriminate.
Qed.

Lemma period_amount_nonzero_entry es sel c col :
  ~ dvalue (period_amount es sel c col) == 0 -> exists col' a v, In (col', a, c, v) es /\ sel a = true.
Proof.
  intros Hnz.
  destruct (existsb (fun e : entry => let '(col', a, c', v) := e in (col' =? col)%Z && sel a && str_eqb c' c) es) eqn:E.
  - apply existsb_exists in E. destruct E as ([[[col' a] c'] v] & Hin & H).
    apply andb_true_iff in H. destruct H as [H H3]. apply andb_true_iff in H. destruct H as [_ H2].
    apply str_eqb_eq in H3. subst c'. exists col', a, v. split; assumption.
  - exfalso. apply Hnz. unfold period_amount. rewrite <- flat_map_concat_map, flat_map_nil; [apply dvalue_nil|].
    intros [[[col' a] c'] v] Hin.
    assert (H : (let '(col'0, a0, c'0, _) := (col', a, c', v) in (col'0 =? col)%Z && sel a0 && str_eqb c'0 c) = false).
    { destruct ((col' =? col)%Z && sel a && str_eqb c' c) eqn:E2; [|reflexivity].
      rewrite <- E. symmetry. apply existsb_exists. exists (col', a, c', v). split; [exact Hin|exact E2]. }
    cbn beta iota in H. rewrite H. reflexivity.
Qed.

Lemma shown_in es sel cols c :
  In c (shown_commodities es sel cols) <-> exists col, In col cols /\ ~ dvalue (period_amount es sel c col) == 0.
Proof.
  rewrite shown_fold, (in_fold_left_iff _ _ (shown_step_in es sel cols)). split.
  - intros [[]|(e & _ & _ & H)]. apply andb_true_iff in H. destruct H as [_ H].
    apply existsb_exists in H. destruct H as (col0 & Hin & Hnz).
    exists col0. split; [exact Hin|]. intros Hz. apply is_zero_value in Hz. rewrite Hz in Hnz. discriminate.
  - intros (col & Hin & Hnz). right.
    destruct (period_amount_nonzero_entry es sel c col Hnz) as (col' & a & v & He & Hs).
    exists (col', a, c, v). split; [exact He|]. split; [reflexivity|]. unfold e_acc. cbn [fst snd]. rewrite Hs.
    apply existsb_exists. exists col. split; [exact Hin|].
    destruct (is_zero (period_amount es sel c col)) eqn:Ez; [|reflexivity]. exfalso. apply Hnz. apply is_zero_value. exact Ez.
Qed.

Lemma union_com_in x a : forall b, In x (union_com a b) <-> In x a \/ In x b.
Proof.
  induction a as [|c a IH]; intros b; cbn [union_com]; [cbn [In]; tauto|].
  rewrite insert_com_in, IH. cbn [In]. intuition congruence.
Qed.

Lemma union_com_sorted a : forall b, coms_sorted b -> coms_sorted (union_com a b).
Proof. induction a as [|c a IH]; intros b Hb; cbn [union_com]; [exact Hb|]. apply insert_com_sorted, IH, Hb. Qed.

Lemma period_amount_filter (f : entry -> bool) sel1 sel2 es c col :
  (forall e, In e es -> if f e then sel1 (e_acc e) = sel2 (e_acc e) else sel2 (e_acc e) = false) ->
  period_amount (filter f es) sel1 c col = period_amount es sel2 c col.
Proof.
  intros H. unfold period_amount. f_equal. induction es as [|e es IH]; cbn [filter map concat]; [reflexivity|].
  pose proof (H e (or_introl eq_refl)) as He. destruct e as [[[col' a] c'] v]. unfold e_acc in He. cbn [fst snd] in He.
  assert (IH' := IH (fun e0 H0 => H e0 (or_intror H0))).
  destruct (f (col', a, c', v)); cbn [map concat].
  - rewrite He, IH'. reflexivity.
  - rewrite He, andb_false_r. cbn [andb app]. exact IH'.
Qed.

Lemma qsum_filter_split {A} (g : A -> Q) (f : A -> bool) l :
  qsum g (filter f l) + qsum g (filter (fun x => negb (f x)) l) == qsum g l.
Proof.
  induction l as [|x l IH]; cbn [filter]; [unfold qsum; cbn; ring|].
  destruct (f x); cbn [negb]; unfold qsum in *; cbn [fold_right]; rewrite <- IH; ring.
Qed.

Lemma cell_amounts_value diff negate es1 sel1 es2 sel2 c :
  (forall col, dvalue (period_amount es1 sel1 c col) == dvalue (period_amount es2 sel2 c col)) ->
  forall cols t1 t2, dvalue t1 == dvalue t2 ->
  map to_string (cell_amounts diff negate es1 sel1 c cols t1) = map to_string (cell_amounts diff negate es2 sel2 c cols t2).
Proof.
  intros H. induction cols as [|col cols IH]; intros t1 t2 Ht; cbn [cell_amounts map]; [reflexivity|]. f_equal.
  - apply to_string_value. destruct negate, diff; rewrite ?dvalue_neg, ?dvalue_add, ?Ht, ?H; reflexivity.
  - apply IH. rewrite !dvalue_add, Ht, H. reflexivity.
Qed.

Lemma coms_sorted_SS l : coms_sorted l <-> StronglySorted (fun c d => str_cmp c d = Lt) l.
Proof.
  induction l as [|c l IH]; cbn [coms_sorted]; [split; [constructor|trivial]|].
  rewrite IH. split; [intros [H1 H2]; constructor; assumption|intros H; apply StronglySorted_inv in H; tauto].
Qed.

Lemma coms_sorted_ext l1 l2 : coms_sorted l1 -> coms_sorted l2 -> (forall c, In c l1 <-> In c l2) -> l1 = l2.
Proof.
  rewrite !coms_sorted_SS. apply StronglySorted_ext.
  - intros c. rewrite str_cmp_refl. discriminate.
  - apply str_cmp_lt_trans.
Qed.

Lemma shown_commodities_eq coms dates es1 sel1 es2 sel2 :
  coms_sorted coms ->
  (forall c, In c coms <-> exists col, In col dates /\ ~ dvalue (period_amount es1 sel1 c col) == 0) ->
  (forall c col, period_amount es2 sel2 c col = period_amount es1 sel1 c col) ->
  coms = shown_commodities es2 sel2 dates.
Proof.
  intros Hs Hm Hamt. apply coms_sorted_ext; [exact Hs|apply shown_sorted|]. intros c. rewrite Hm, shown_in.
  split; intros (col & Hcol & Hnz); exists col; (split; [exact Hcol|]); [rewrite Hamt|rewrite <- Hamt]; exact Hnz.
Qed.

(* a block of the table with the commodities and numbers of (es1, sel1), as CSV: the ledger's
   lines for any (es2, sel2) with the same amounts *)
Lemma block_lines_for diff negate name indent coms dates es1 sel1 es2 sel2 b :
  name <> [] -> coms_sorted coms ->
  (forall c, In c coms <-> exists col, In col dates /\ ~ dvalue (period_amount es1 sel1 c col) == 0) ->
  block_ok (2 + length dates) name indent coms (fun c => cell_amounts diff negate es1 sel1 c dates dec_nil) b ->
  (forall c col, period_amount es2 sel2 c col = period_amount es1 sel1 c col) ->
  csvf b = lines_for diff negate es2 sel2 name dates.
Proof.
  intros Hname Hs Hm Hb Hamt. rewrite (block_csv _ _ _ _ _ _ Hb Hname).
  2: { intros c Hc. apply Hm in Hc. destruct Hc as (col & Hcol & _). destruct dates; [destruct Hcol|discriminate]. }
  rewrite lines_for_block, <- (shown_commodities_eq coms dates _ _ es2 sel2 Hs Hm Hamt).
  apply csv_block_ext. intros c _. apply cell_amounts_value; [|reflexivity]. intros col. rewrite Hamt. reflexivity.
Qed.

Section Csv.
  Variables (cfg : balance_cfg) (dl : list directive) (r : report) (part : partition).
  Hypothesis R : run_of cfg dl r part.

  Local Notation es := (ledger_entries cfg dl part).
  Local Notation rc := (balance_render_cfg cfg).
  Local Notation dates := (end_dates part).
  Local Notation al := (filter is_AL_entry es).
  Local Notation eie := (filter (fun e => negb (is_AL_entry e)) es).
  Local Notation all_sel := (fun _ : account => true).
  Local Notation side b := (if b then al else eie).
  Local Notation root b := (if b then sorted_al rc r else sorted_eie rc r).

  (* the order of the account rows (discharged in BalanceCsvOrder.v) *)
  Hypothesis Horder : forall b : bool, map l_path (flat_map tree_lines (n_children (root b))) = all_rows (side b).

  Lemma is_AL_entry_acc e : is_AL_entry e = is_AL (e_acc e).
  Proof. destruct e as [[[col a] c] v]. reflexivity. Qed.

  Lemma side_filter (b : bool) : side b = filter (fun e => Bool.eqb (is_AL_entry e) b) es.
  Proof. destruct b; apply filter_ext; intros e; destruct (is_AL_entry e); reflexivity. Qed.

  Lemma side_row_amount (b : bool) row c col : account_ok row = true -> is_AL row = b ->
    period_amount (side b) (acc_eqb row) c col = period_amount es (acc_eqb row) c col.
  Proof.
    intros Hok Hb. rewrite side_filter. apply period_amount_filter. intros e He.
    destruct (Bool.eqb (is_AL_entry e) b) eqn:E; [reflexivity|].
    destruct (acc_eqb row (e_acc e)) eqn:Ea; [|reflexivity]. exfalso.
    apply acc_eqb_name in Ea. apply acc_name_inj in Ea; [|exact Hok|exact (run_entries_ok R e He)].
    rewrite is_AL_entry_acc, <- Ea, Hb, Bool.eqb_reflx in E. discriminate.
  Qed.

  Lemma side_total_amount (b : bool) c col :
    period_amount (side b) all_sel c col = period_amount es (fun a => if b then is_AL a else negb (is_AL a)) c col.
  Proof.
    rewrite side_filter. apply period_amount_filter. intros e _. rewrite is_AL_entry_acc.
    destruct b, (is_AL (e_acc e)); reflexivity.
  Qed.

  Lemma delta_amount c col :
    dvalue (period_amount (al ++ eie) all_sel c col) == dvalue (period_amount es all_sel c col).
  Proof. rewrite !period_amount_q, qsum_app. apply qsum_filter_split. Qed.

  Lemma tw_dates : tw rc dates = (2 + length dates)%nat.
  Proof. unfold tw, draw_comms, balance_render_cfg. cbn [rc_valuation]. rewrite (run_unvalued R). reflexivity. Qed.

  Lemma row_csv (b : bool) row a : In (row, a) (account_rows rc r) -> is_AL row = b ->
    csvf (acct_lines rc dates row a) = lines_for (bc_diff cfg) (negb b) (side b) (acc_eqb row) (last_seg row) dates.
  Proof.
    intros Hin Hb. pose proof (account_row_ok _ _ _ _ R row a Hin) as Hok.
    destruct (account_lines _ _ _ _ R row a Hin) as (coms & Hs & Hm & Hblock).
    rewrite tw_dates, Hb in Hblock.
    exact (block_lines_for _ _ _ _ _ _ _ _ _ _ _ (last_account_ok row Hok) Hs Hm Hblock
             (fun c col => side_row_amount b row c col Hok Hb)).
  Qed.

  Lemma section_csv (b : bool) :
    csvf (section_rows rc dates (negb b) (n_children (root b))) =
    concat (map (fun row => lines_for (bc_diff cfg) (negb b) (side b) (acc_eqb row) (last_seg row) dates) (all_rows (side b))).
  Proof.
    assert (Hty : forall x, In x (cpaths (n_children (root b))) -> is_AL x = b).
    { destruct (run_ok R) as (_ & _ & _ & T1 & T2 & _).
      intros x Hx. destruct b; apply cpaths_sort_in in Hx; [exact (T1 x Hx)|exact (T2 x Hx)]. }
    unfold section_rows. rewrite csvf_concat, map_map.
    rewrite (map_ext _ (fun top => flat_map (fun bl => csvf (snd bl)) (node_blocks rc dates 0 (negb b) top))).
    2: { intros top. rewrite csvf_app, (csvf_blank_row CEmpty) by reflexivity. rewrite app_nil_r.
         unfold blocks_rows. rewrite csvf_concat, map_map, <- flat_map_concat_map. reflexivity. }
    rewrite <- flat_map_concat_map, <- flat_map_flat_map, (side_blocks rc r dates b (run_ok R)), flat_map_concat_map, map_map.
    rewrite <- Horder, map_map. f_equal. apply map_ext_in. intros l Hl. unfold line_block. cbn [snd].
    apply row_csv.
    - unfold account_rows. apply in_map_iff. exists l. split; [destruct l as [[s p] a]; reflexivity|].
      apply in_or_app. destruct b; [left|right]; exact Hl.
    - apply Hty. rewrite <- clines_paths. apply in_map. exact Hl.
  Qed.

  Lemma header_csv : csvf [header_cells rc dates] = [header_row dates].
  Proof.
    unfold csvf, header_cells, header_row, draw_comms, balance_render_cfg. cbn [rc_valuation]. rewrite (run_unvalued R).
    cbn [map app csv_cell filter nonblank existsb s_Account]. rewrite map_map. cbn [csv_cell]. reflexivity.
  Qed.

  Theorem csv_rows_ledger :
    exists rows, ledger_csv cfg dl = Some rows /\ render_csv_rows (render_report rc r dates) = rows.
  Proof.
    unfold ledger_csv. rewrite (run_unvalued R), (run_partition R). eexists. split; [reflexivity|].
    fold dates es. cbv zeta.
    rewrite render_csv_rows_csvf, render_report_layout. unfold report_table_rows. cbv zeta.
    destruct (totals_block _ _ _ _ R true s_TotalAL false) as (coms_al & Eal & Sal & Mal & Bal).
    destruct (totals_block _ _ _ _ R false s_TotalEIE true) as (coms_eie & Eeie & Seie & Meie & Beie).
    destruct (delta_block _ _ _ _ R coms_al coms_eie Eal Eeie) as (coms_delta & Sd & Md & Bd).
    rewrite tw_dates in Bal, Beie, Bd.
    pose proof (block_lines_for _ _ s_TotalAL _ _ _ _ _ _ _ _ ltac:(discriminate) Sal Mal Bal (side_total_amount true)) as Ta.
    pose proof (block_lines_for _ _ s_TotalEIE _ _ _ _ _ _ _ _ ltac:(discriminate) Seie Meie Beie (side_total_amount false)) as Te.
    assert (Td : csvf (line_rows rc dates 0 s_Delta false
                         (ra_plus (node_totals (total_key rc) (sorted_al rc r) []) (node_totals (total_key rc) (sorted_eie rc r) [])))
                 = delta_lines (bc_diff cfg) al eie dates).
    { rewrite (block_csv _ _ _ _ _ _ Bd); [|discriminate|].
      2: { intros c Hc. apply Md in Hc.
           destruct Hc as [Hc|Hc]; [apply Mal in Hc|apply Meie in Hc]; destruct Hc as (col & Hcol & _);
             (destruct dates; [destruct Hcol|discriminate]). }
      unfold delta_lines. cbv zeta.
      rewrite <- (shown_commodities_eq coms_al dates _ _ al all_sel Sal Mal (side_total_amount true)),
              <- (shown_commodities_eq coms_eie dates _ _ eie all_sel Seie Meie (side_total_amount false)).
      rewrite <- (coms_sorted_ext coms_delta (union_com coms_al coms_eie) Sd (union_com_sorted _ _ Seie))
        by (intros c; rewrite Md, union_com_in; reflexivity).
      rewrite <- ledger_block. destruct coms_delta; [reflexivity|].
      apply map_ext. intros [b0 x]. cbn [fst snd]. rewrite cells_printed. do 2 f_equal.
      apply cell_amounts_value; [|reflexivity]. intros col. symmetry. apply delta_amount. }
    pose proof (section_csv true) as Sa. pose proof (section_csv false) as Se. cbn [negb] in Sa, Se.
    change ([repeat CSep (tw rc dates); header_cells rc dates; repeat CSep (tw rc dates)])
      with ([repeat CSep (tw rc dates)] ++ [header_cells rc dates] ++ [repeat CSep (tw rc dates)]).
    rewrite !csvf_app, !(csvf_blank_row CSep) by reflexivity. rewrite header_csv, Sa, Ta, Se, Te, Td. cbn [app]. rewrite !app_nil_r.
    reflexivity.
  Qed.
End Csv.
