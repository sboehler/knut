(* C02, the order of the rows in the CSV: with and without --sort-alphabetically the account rows
   of the table (depth-first over the sorted report tree: top level by account type, below by
   segment name) are in the order of LedgerSpec.all_rows (insertion by row_ltb: account type,
   then the path lexicographically).  Both lists are strictly increasing for row_ltb and have the
   same members (C02_rows); a strictly increasing list is determined by its members. *)
From Coq Require Import QArith List Lia Permutation Sorting.
From Knut Require Import Model.Str Model.Dec Model.Date Model.Account Model.Ledger Model.Table Model.Report Model.Cli
     Spec.WellformedSpec Spec.LedgerSpec Spec.LedgerSyntax Spec.BalanceTableSpec Proofs.ListFacts Proofs.JournalFacts
     Proofs.DecValue Proofs.StrProofs Proofs.StableSort Proofs.MapOrderProofs Proofs.ReportSum
     Proofs.LedgerProofs Proofs.LayoutProofs Proofs.MarkToMarketMapped Proofs.BalanceTableTree
     Proofs.BalanceTableCells Proofs.BalanceCsv.
Import ListNotations.
Open Scope Z_scope.

Lemma path_cmp_eq : forall a b, path_cmp a b = Eq -> a = b.
Proof.
  induction a as [|x a IH]; intros [|y b]; cbn [path_cmp]; intros H; try reflexivity; try discriminate.
  destruct (str_cmp x y) eqn:E; try discriminate. apply str_cmp_eq in E. subst y. f_equal. apply IH. exact H.
Qed.

Lemma path_cmp_antisym : forall a b, path_cmp b a = CompOpp (path_cmp a b).
Proof.
  induction a as [|x a IH]; intros [|y b]; cbn [path_cmp]; try reflexivity.
  rewrite (str_cmp_antisym x y). destruct (str_cmp x y); cbn [CompOpp]; [apply IH|reflexivity|reflexivity].
Qed.

Lemma str_cmp_lt_irrefl a : str_cmp a a <> Lt.
Proof. rewrite str_cmp_refl. discriminate. Qed.

Lemma path_cmp_lt_trans : forall a b c, path_cmp a b = Lt -> path_cmp b c = Lt -> path_cmp a c = Lt.
Proof.
  induction a as [|x a IH]; intros [|y b] [|z c]; cbn [path_cmp]; intros H1 H2; try reflexivity; try discriminate.
  destruct (str_cmp x y) eqn:E1; try discriminate.
  - apply str_cmp_eq in E1. subst y. destruct (str_cmp x z) eqn:E2; try discriminate; [|reflexivity]. exact (IH _ _ H1 H2).
  - destruct (str_cmp y z) eqn:E2; try discriminate.
    + apply str_cmp_eq in E2. subst z. rewrite E1. reflexivity.
    + rewrite (str_cmp_lt_trans _ _ _ E1 E2). reflexivity.
Qed.

Definition rlt (a b : account) : Prop := row_ltb a b = true.

Lemma rlt_spec a b : rlt a b <-> acc_rank a < acc_rank b \/ (acc_rank a = acc_rank b /\ path_cmp a b = Lt).
Proof.
  unfold rlt, row_ltb. destruct (acc_rank a <? acc_rank b) eqn:E1; [split; [intros _; left; lia|reflexivity]|].
  destruct (acc_rank b <? acc_rank a) eqn:E2; [split; [discriminate|intros [H|[H _]]; lia]|].
  destruct (path_cmp a b); split; try discriminate; try reflexivity; try (intros _; right; split; [lia|reflexivity]);
    intros [H|[_ H]]; try lia; discriminate.
Qed.

Lemma rlt_irrefl a : ~ rlt a a.
Proof. rewrite rlt_spec. rewrite path_cmp_refl. intros [H|[_ H]]; [lia|discriminate]. Qed.

Lemma rlt_trans a b c : rlt a b -> rlt b c -> rlt a c.
Proof.
  rewrite !rlt_spec. intros [H1|[H1 P1]] [H2|[H2 P2]]; try (left; lia).
  right. split; [lia|exact (path_cmp_lt_trans _ _ _ P1 P2)].
Qed.

Lemma rlt_total a b : ~ rlt a b -> ~ rlt b a -> a = b.
Proof.
  rewrite !rlt_spec. intros H1 H2.
  assert (Hr : acc_rank a = acc_rank b) by lia.
  apply path_cmp_eq. pose proof (path_cmp_antisym a b) as Hanti.
  destruct (path_cmp a b) eqn:E; [reflexivity|exfalso; apply H1; right; split; [exact Hr|reflexivity]|].
  exfalso. apply H2. right. split; [lia|]. rewrite Hanti. reflexivity.
Qed.

Definition rsorted (l : list account) : Prop := StronglySorted rlt l.

Lemma rsorted_ext l1 l2 : rsorted l1 -> rsorted l2 -> (forall x, In x l1 <-> In x l2) -> l1 = l2.
Proof. apply StronglySorted_ext; [exact rlt_irrefl|exact rlt_trans]. Qed.

Lemma row_ltb_false a b : row_ltb a b = false <-> ~ rlt a b.
Proof. unfold rlt. destruct (row_ltb a b); split; try congruence; intros H; exfalso; apply H; reflexivity. Qed.

Lemma insert_row_in x r : forall l, In x (insert_row r l) <-> x = r \/ In x l.
Proof.
  induction l as [|y l IH]; cbn [insert_row]; [cbn [In]; intuition congruence|].
  destruct (row_ltb r y) eqn:E1; [cbn [In]; intuition congruence|].
  destruct (row_ltb y r) eqn:E2; [cbn [In]; rewrite IH; intuition congruence|].
  apply row_ltb_false in E1. apply row_ltb_false in E2. pose proof (rlt_total _ _ E1 E2) as ->. cbn [In]. intuition congruence.
Qed.

Lemma insert_row_sorted r : forall l, rsorted l -> rsorted (insert_row r l).
Proof.
  induction l as [|y l IH]; intros Hs; cbn [insert_row]; [repeat constructor|].
  inversion Hs as [|? ? Hl Hy]; subst.
  destruct (row_ltb r y) eqn:E1.
  - constructor; [exact Hs|]. constructor; [exact E1|]. rewrite Forall_forall in *. intros w Hw. exact (rlt_trans _ _ _ E1 (Hy w Hw)).
  - destruct (row_ltb y r) eqn:E2; [|exact Hs].
    constructor; [apply IH; exact Hl|]. rewrite Forall_forall in *. intros w Hw. apply insert_row_in in Hw.
    destruct Hw as [->|Hw]; [exact E2|exact (Hy w Hw)].
Qed.

Definition rows_step (l : list account) (e : entry) : list account :=
  let '(_, a, _, _) := e in fold_left (fun l r => insert_row r l) (prefixes_from [] a) l.

Lemma all_rows_fold es : all_rows es = fold_left rows_step es [].
Proof. reflexivity. Qed.

Lemma rows_step_in l e x : In x (rows_step l e) <-> In x l \/ In x (prefixes_from [] (e_acc e)).
Proof.
  destruct e as [[[col a] c] v]. unfold rows_step, e_acc. cbn [fst snd].
  rewrite (in_fold_left_iff (fun l r => insert_row r l) (fun r x => x = r)) by (intros l0 r x0; rewrite insert_row_in; tauto).
  split; [intros [H|(r & Hr & ->)]|intros [H|H]]; [left; exact H|right; exact Hr|left; exact H|right; exists x; split; [exact H|reflexivity]].
Qed.

Lemma all_rows_in x es : In x (all_rows es) <-> exists e, In e es /\ In x (prefixes_from [] (e_acc e)).
Proof.
  rewrite all_rows_fold, (in_fold_left_iff _ _ rows_step_in). cbn [In]. tauto.
Qed.

Lemma all_rows_sorted es : rsorted (all_rows es).
Proof.
  rewrite all_rows_fold. apply fold_left_invariant; [|constructor]. intros l [[[col a] c] v] Hl.
  unfold rows_step. apply fold_left_invariant; [|exact Hl]. intros l0 r0. apply insert_row_sorted.
Qed.

(* sorted for the comparator + pairwise different keys + totality on keys = strictly sorted *)
Lemma sorted_strict {A B} (lt : A -> A -> bool) (key : A -> B) l :
  sorted lt l -> NoDup (map key l) ->
  (forall x y, In x l -> In y l -> lt x y = false -> lt y x = false -> key x = key y) ->
  StronglySorted (fun x y => lt x y = true) l.
Proof.
  unfold sorted. intros Hs. induction Hs as [|a l Hl IH Ha]; intros Hnd Htot; [constructor|].
  cbn [map] in Hnd. inversion Hnd as [|? ? Hnot Hnd']; subst.
  constructor; [apply IH; [exact Hnd'|intros x y Hx Hy; apply Htot; right; assumption]|].
  rewrite Forall_forall in *. intros y Hy. destruct (lt a y) eqn:E; [reflexivity|]. exfalso. apply Hnot.
  rewrite (Htot a y (or_introl eq_refl) (or_intror Hy) E (Ha y Hy)). apply in_map. exact Hy.
Qed.

Lemma seg_sorted_nodup l : seg_sorted l -> NoDup (map n_seg l).
Proof.
  induction 1 as [|c l _ IH Hc]; cbn [map]; constructor; [|exact IH].
  intros Hin. apply in_map_iff in Hin. destruct Hin as (d & E & Hd). rewrite Forall_forall in Hc. specialize (Hc d Hd).
  unfold seg_lt in Hc. rewrite E, str_cmp_refl in Hc. discriminate.
Qed.

(* without -a an unvalued report sorts by weight, and every weight is zero *)
Lemma node_weight_false_zero n : (dvalue (node_weight false n) == 0)%Q.
Proof.
  induction n as [s p hv a ch IH] using node_ind_size. cbn [node_weight].
  assert (G : forall w, (dvalue w == 0)%Q -> (dvalue (fold_left (fun w c => add w (node_weight false c)) ch w) == 0)%Q).
  { induction IH as [|c ch Hc _ IHch]; intros w Hw; cbn [fold_left]; [exact Hw|]. apply IHch. rewrite dvalue_add, Hw, Hc. reflexivity. }
  apply G. reflexivity.
Qed.

Lemma by_weight_false_never a b : by_weight false a b = false.
Proof.
  unfold by_weight. destruct (less_than (node_weight false a) (node_weight false b)) eqn:E; [|reflexivity].
  apply less_than_value in E. rewrite !node_weight_false_zero in E. exfalso. exact (Qlt_irrefl 0 E).
Qed.

Lemma seg_sorted_map f l : (forall c, n_seg (f c) = n_seg c) -> seg_sorted l -> seg_sorted (map f l).
Proof.
  intros Hf. induction 1 as [|c l _ IH Hc]; cbn [map]; constructor; [exact IH|].
  rewrite Forall_forall in *. intros d' Hd'. apply in_map_iff in Hd'. destruct Hd' as (d & <- & Hd).
  unfold seg_lt. rewrite !Hf. exact (Hc d Hd).
Qed.

(* siblings below the top level stay in segment order, with and without -a: they are already
   sorted for the comparator (by name; or, all weights being zero, for the one that is never
   true), and the sort is stable *)
Lemma children_sorted alpha l :
  (forall c, In c l -> acc_level (n_path c) <> 1) -> seg_sorted l -> sort_by (sibling_ltb alpha false) l = l.
Proof.
  intros Hlev Hseg. destruct alpha.
  - rewrite (sort_by_ext_in (sibling_ltb true false) by_name)
      by (intros x y Hx _; exact (sibling_ltb_below true false x y (Hlev x Hx))).
    apply (sort_by_sorted_id by_name by_name_irrefl by_name_trans by_name_cotrans).
    clear Hlev. induction Hseg as [|c l _ IH H1]; constructor; [exact IH|].
    eapply Forall_impl; [|exact H1]. intros d Hd. unfold by_name, str_ltb. rewrite str_cmp_antisym, Hd. reflexivity.
  - rewrite (sort_by_ext_in (sibling_ltb false false) (fun _ _ => false)).
    2: { intros x y Hx _. rewrite (sibling_ltb_below false false x y (Hlev x Hx)). apply by_weight_false_never. }
    apply sort_by_sorted_id; [reflexivity|discriminate|discriminate|].
    clear. induction l as [|c l IH]; constructor; [exact IH|]. apply Forall_forall. reflexivity.
Qed.

Lemma node_sort_sib_sorted alpha : forall n,
  wf_node n -> n_path n <> [] -> sib_sorted n -> sib_sorted (node_sort alpha false n).
Proof.
  induction n as [s p hv a ch IH] using node_ind_size. intros Hwf Hp Hs. cbn [n_path] in Hp.
  apply sib_sorted_unfold in Hs. destruct Hs as [Hseg Hall]. apply wf_node_children in Hwf. unfold wf_children in Hwf.
  cbn [node_sort]. apply sib_sorted_unfold.
  assert (Hlev : forall c, In c (map (node_sort alpha false) ch) -> acc_level (n_path c) <> 1).
  { intros c' Hc'. apply in_map_iff in Hc'. destruct Hc' as (c & <- & Hc). rewrite node_sort_path.
    rewrite Forall_forall in Hwf. destruct (Hwf c Hc) as [E _]. rewrite E. unfold acc_level. rewrite app_length. cbn [length].
    destruct p; [contradiction|cbn [length]; lia]. }
  assert (Hseg' : seg_sorted (map (node_sort alpha false) ch)) by (apply seg_sorted_map; [intros c; apply node_sort_seg|exact Hseg]).
  rewrite (children_sorted alpha _ Hlev Hseg'). split; [exact Hseg'|].
  rewrite Forall_forall in *.
  intros c' Hc'. apply in_map_iff in Hc'. destruct Hc' as (c & <- & Hc). destruct (Hwf c Hc) as [E Hwc].
  apply (IH c Hc); [exact Hwc|rewrite E; intros H; apply app_eq_nil in H; destruct H; discriminate|exact (Hall c Hc)].
Qed.

Lemma cpaths_app a b : cpaths (a ++ b) = cpaths a ++ cpaths b.
Proof. unfold cpaths. induction a as [|c a IH]; cbn [app fold_right]; [reflexivity|]. rewrite IH, app_assoc. reflexivity. Qed.

Lemma acc_rank_prefix s t suf : acc_rank ((s :: t) ++ suf) = acc_rank [s].
Proof. reflexivity. Qed.

Lemma parse_atype_name s t : parse_atype s = Some t ->
  s = match t with Assets => s_Assets | Liabilities => s_Liabilities | Equity => s_Equity | Income => s_Income | Expenses => s_Expenses end.
Proof.
  unfold parse_atype.
  destruct (str_eqb s s_Assets) eqn:E1; [intros H; inversion H; apply str_eqb_eq; exact E1|].
  destruct (str_eqb s s_Liabilities) eqn:E2; [intros H; inversion H; apply str_eqb_eq; exact E2|].
  destruct (str_eqb s s_Equity) eqn:E3; [intros H; inversion H; apply str_eqb_eq; exact E3|].
  destruct (str_eqb s s_Income) eqn:E4; [intros H; inversion H; apply str_eqb_eq; exact E4|].
  destruct (str_eqb s s_Expenses) eqn:E5; [intros H; inversion H; apply str_eqb_eq; exact E5|discriminate].
Qed.

Lemma rank_seg_inj s1 s2 : account_ok [s1] = true -> account_ok [s2] = true -> acc_rank [s1] = acc_rank [s2] -> s1 = s2.
Proof.
  intros H1 H2 Hr. apply account_ok_cons in H1. apply account_ok_cons in H2.
  destruct H1 as ([t1 E1] & _). destruct H2 as ([t2 E2] & _).
  unfold acc_rank, acc_type in Hr. rewrite E1, E2 in Hr.
  rewrite (parse_atype_name _ _ E1), (parse_atype_name _ _ E2).
  destruct t1, t2; cbn [atype_rank] in Hr; try reflexivity; lia.
Qed.

Lemma account_ok_top s t : account_ok (s :: t) = true -> account_ok [s] = true.
Proof.
  intros H. apply account_ok_cons in H. destruct H as (H1 & H2 & _). apply account_ok_cons.
  split; [exact H1|split; [exact H2|intros x []]].
Qed.

Definition top_ok (c : node) : Prop :=
  n_path c = [n_seg c] /\ wf_node c /\ sib_sorted c /\ account_ok [n_seg c] = true.

(* inside one top-level account: the same type, lexicographic *)
Lemma top_rows_sorted c : top_ok c -> rsorted (npaths c).
Proof.
  intros (Ec & Hwc & Hsc & _). apply (StronglySorted_weaken_in plt); [|apply npaths_plt; assumption].
  intros x y Hx Hy Hlt. destruct (npaths_prefix c Hwc x Hx) as (s1 & ->). destruct (npaths_prefix c Hwc y Hy) as (s2 & ->).
  rewrite Ec in *. apply rlt_spec. right. split; [reflexivity|exact Hlt].
Qed.

(* the whole tree: top level by account type *)
Lemma root_rows_sorted alpha root :
  wf_node root -> n_path root = [] -> sib_sorted root ->
  (forall x, In x (cpaths (n_children root)) -> account_ok x = true) ->
  rsorted (cpaths (n_children (node_sort alpha false root))).
Proof.
  destruct root as [s p hv a ch]. cbn [n_path n_children]. intros Hwf -> Hs Hok.
  apply sib_sorted_unfold in Hs. destruct Hs as [Hseg Hall]. apply wf_node_children in Hwf. unfold wf_children in Hwf. cbn [app] in Hwf.
  rewrite Forall_forall in Hwf, Hall. cbn [node_sort n_children].
  set (ch' := map (node_sort alpha false) ch).
  assert (Hch' : forall c', In c' ch' -> top_ok c').
  { intros c' Hc'. apply in_map_iff in Hc'. destruct Hc' as (c & <- & Hc). destruct (Hwf c Hc) as [E Hwc].
    unfold top_ok. rewrite node_sort_path, node_sort_seg. split; [exact E|]. split; [apply node_sort_wf; exact Hwc|]. split.
    - apply node_sort_sib_sorted; [exact Hwc|rewrite E; discriminate|exact (Hall c Hc)].
    - rewrite <- E. apply Hok. rewrite cpaths_flat_map. apply in_flat_map. exists c. split; [exact Hc|apply npaths_head]. }
  rewrite (sort_by_ext_in (sibling_ltb alpha false) by_rank).
  2: { intros x y Hx Hy. apply sibling_ltb_top; [rewrite (proj1 (Hch' x Hx))|rewrite (proj1 (Hch' y Hy))]; reflexivity. }
  assert (Hperm : Permutation (sort_by by_rank ch') ch') by apply sort_by_perm.
  assert (Hin : forall c', In c' (sort_by by_rank ch') -> top_ok c') by (intros c' Hc'; exact (Hch' c' (Permutation_in _ Hperm Hc'))).
  rewrite cpaths_flat_map. apply (StronglySorted_flat_map rlt (fun x y => by_rank x y = true)).
  - (* distinct segments of account types have distinct ranks *)
    apply (sorted_strict by_rank n_seg).
    + apply sort_by_sorted; [exact by_rank_irrefl|exact by_rank_trans].
    + eapply Permutation_NoDup; [apply Permutation_map; symmetry; exact Hperm|].
      unfold ch'. rewrite map_map. rewrite (map_ext _ n_seg) by (intros c; apply node_sort_seg). apply seg_sorted_nodup. exact Hseg.
    + intros x y Hx Hy H1 H2. destruct (Hin x Hx) as (Ex & _ & _ & Okx). destruct (Hin y Hy) as (Ey & _ & _ & Oky).
      unfold by_rank, top_ltb in H1, H2. rewrite Ex, Ey in H1, H2. apply rank_seg_inj; [exact Okx|exact Oky|lia].
  - intros c Hc. apply top_rows_sorted, Hin, Hc.
  - intros c d x y Hc Hd Hlt Hx Hy. destruct (Hin c Hc) as (Ec & Hwc & _). destruct (Hin d Hd) as (Ed & Hwd & _).
    destruct (npaths_prefix c Hwc x Hx) as (s1 & ->). destruct (npaths_prefix d Hwd y Hy) as (s2 & ->).
    unfold by_rank, top_ltb in Hlt. rewrite Ec, Ed in *. apply Z.ltb_lt in Hlt. apply rlt_spec. left. exact Hlt.
Qed.

Section Order.
  Variables (cfg : balance_cfg) (dl : list directive) (r : report) (part : partition).
  Hypothesis R : run_of cfg dl r part.

  Local Notation es := (ledger_entries cfg dl part).
  Local Notation rc := (balance_render_cfg cfg).

  (* both lists are strictly increasing for row_ltb and have the same members *)
  Lemma rows_order (b : bool) :
    map l_path (flat_map tree_lines (n_children (if b then sorted_al rc r else sorted_eie rc r))) =
    all_rows (if b then filter is_AL_entry es else filter (fun e => negb (is_AL_entry e)) es).
  Proof.
    destruct (run_ok R) as ((W1 & W2 & P1 & P2) & S1 & S2 & T1 & T2 & _).
    pose proof (run_rows_ok _ _ _ _ R) as Hok.
    rewrite clines_paths. apply rsorted_ext.
    - unfold sorted_al, sorted_eie, balance_render_cfg. cbn [rc_alpha rc_valuation]. rewrite (run_unvalued R).
      destruct b; apply root_rows_sorted; try assumption; intros x Hx; apply Hok; unfold rows; apply in_or_app; [left|right]; exact Hx.
    - apply all_rows_sorted.
    - intros x. rewrite all_rows_in.
      assert (Hside : In x (cpaths (n_children (if b then sorted_al rc r else sorted_eie rc r))) <->
                      In x (rows r) /\ is_AL x = b).
      { destruct b; unfold sorted_al, sorted_eie; rewrite cpaths_sort_in; unfold rows; rewrite in_app_iff; split.
        - intros H. split; [left; exact H|exact (T1 x H)].
        - intros [[H|H] E]; [exact H|rewrite (T2 x H) in E; discriminate].
        - intros H. split; [right; exact H|exact (T2 x H)].
        - intros [[H|H] E]; [rewrite (T1 x H) in E; discriminate|exact H]. }
      assert (Hty : forall e, In x (prefixes_from [] (e_acc e)) -> is_AL_entry e = is_AL x).
      { intros [[[col a] c] v] Hx. symmetry. exact (prefixes_from_type _ _ Hx). }
      rewrite Hside, (run_rows R). split.
      + intros [(e & He & Hx) Hb]. exists e. split; [|exact Hx].
        destruct b; apply filter_In; (split; [exact He|]); rewrite (Hty e Hx), Hb; reflexivity.
      + intros (e & He & Hx). rewrite <- (Hty e Hx).
        destruct b; apply filter_In in He; destruct He as [H1 H2]; (split; [exists e; split; assumption|]);
          [exact H2|destruct (is_AL_entry e); [discriminate|reflexivity]].
  Qed.
End Order.

Theorem tree_rows_order cfg ds r part dl :
  bc_valuation cfg = None ->
  balance_report cfg ds = COk (r, part) ->
  parse_directives ds = MOk dl ->
  postings_syntactic dl ->
  forall b : bool,
  map l_path (flat_map tree_lines (n_children (if b then sorted_al (balance_render_cfg cfg) r else sorted_eie (balance_render_cfg cfg) r))) =
  all_rows (if b then filter is_AL_entry (ledger_entries cfg dl part)
            else filter (fun e => negb (is_AL_entry e)) (ledger_entries cfg dl part)).
Proof. intros Hv Hrun Hp Hsyn. exact (rows_order _ _ _ _ (balance_run _ _ _ _ _ Hv Hrun Hp Hsyn)). Qed.

Theorem csv_rows_are_ledger_rows cfg ds r part dl :
  bc_valuation cfg = None ->
  balance_report cfg ds = COk (r, part) ->
  parse_directives ds = MOk dl ->
  postings_syntactic dl ->
  exists rows, ledger_csv cfg dl = Some rows /\
    render_csv_rows (render_report (balance_render_cfg cfg) r (end_dates part)) = rows.
Proof.
  intros Hv Hrun Hp Hsyn. pose proof (balance_run _ _ _ _ _ Hv Hrun Hp Hsyn) as R.
  exact (csv_rows_ledger _ _ _ _ R (rows_order _ _ _ _ R)).
Qed.

