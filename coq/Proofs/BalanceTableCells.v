(* C02, table level: what block of lines some amounts produce ([amounts_block]: one line
   per commodity with a non-zero amount, ascending, the numbers those of the ledger computation),
   what the table theorems use of an unvalued balance run ([run_of]), and from the two the block
   of every account ([account_block]), from which C02_table_cells and the theorems on lines and CSV follow. *)
From Coq Require Import QArith List Permutation.
From Knut Require Import Model.Str Model.Dec Model.Date Model.Account Model.Ledger Model.Table Model.Report Model.Cli
     Spec.WellformedSpec Spec.LedgerSpec Spec.LedgerSyntax Spec.BalanceTableSpec Proofs.ListFacts
     Proofs.DecValue Proofs.CheckLemmas Proofs.ReportSum Proofs.Conservation Proofs.LedgerProofs
     Proofs.CloseProofs Proofs.LayoutProofs Proofs.MarkToMarketMapped
     Proofs.BalanceTableTree Proofs.BalanceTableDates.
Import ListNotations.
Open Scope Q_scope.

Definition line_term (row : account) (k : rkey) (l : str * account * ramounts) : Q :=
  if acc_eqb (l_path l) row then esum idk k (l_amts l) else 0.

Lemma psum_lines row k n : LedgerProofs.psum row k n == qsum (line_term row k) (tree_lines n).
Proof. apply tree_sum_lines. reflexivity. Qed.

Lemma pcsum_lines row k ch : pcsum row k ch == qsum (line_term row k) (flat_map tree_lines ch).
Proof.
  apply (children_sum_lines (line_term row k) (LedgerProofs.psum row k)). apply Forall_forall. intros c _. apply psum_lines.
Qed.

Lemma qsum_unique k (L : list (str * account * ramounts)) l0 :
  In l0 L -> NoDup (map l_path L) ->
  (forall l, In l L -> acc_eqb (l_path l) (l_path l0) = true -> l_path l = l_path l0) ->
  qsum (line_term (l_path l0) k) L == esum idk k (l_amts l0).
Proof.
  induction L as [|l L IH]; intros Hin Hnd Hinj; [destruct Hin|].
  cbn [map] in Hnd. inversion Hnd as [|? ? Hnot Hnd']; subst.
  unfold qsum. cbn [fold_right]. fold (qsum (line_term (l_path l0) k) L).
  destruct Hin as [->|Hin].
  - unfold line_term at 1. rewrite acc_eqb_refl.
    rewrite (qsum_zero (line_term (l_path l0) k) L); [ring|].
    intros l Hl. unfold line_term. destruct (acc_eqb (l_path l) (l_path l0)) eqn:E; [|reflexivity].
    exfalso. apply Hnot. rewrite <- (Hinj l (or_intror Hl) E). apply in_map. exact Hl.
  - unfold line_term at 1. destruct (acc_eqb (l_path l) (l_path l0)) eqn:E.
    + exfalso. apply Hnot. rewrite (Hinj l (or_introl eq_refl) E). apply in_map. exact Hin.
    + rewrite IH; [ring|exact Hin|exact Hnd'|]. intros l' Hl'. apply Hinj. right. exact Hl'.
Qed.

Lemma acc_eqb_nil_ok row : account_ok row = true -> acc_eqb [] row = false.
Proof.
  intros H. destruct row as [|s t]; [discriminate|]. apply account_ok_cons in H. destruct H as [[ty Hty] _].
  unfold acc_eqb, str_eqb, acc_name. destruct s as [|x s]; [discriminate|].
  destruct t; cbn [join app str_cmp]; reflexivity.
Qed.

Lemma rcell_node r s p a k :
  report_ok r -> (forall x, In x (rows r) -> account_ok x = true) ->
  In (s, p, a) (flat_map tree_lines (n_children (r_al r)) ++ flat_map tree_lines (n_children (r_eie r))) ->
  rcell p k r == esum idk k a.
Proof.
  intros Hok Hacc Hin. pose proof (rows_nodup r Hok) as Hnd.
  destruct Hok as ((W1 & W2 & P1 & P2) & _).
  assert (Hp : In p (rows r)).
  { unfold rows. rewrite <- !clines_paths, <- map_app. change p with (l_path (s, p, a)). apply in_map. exact Hin. }
  pose proof (acc_eqb_nil_ok p (Hacc p Hp)) as Hnil.
  unfold rows in *. unfold rcell. destruct (r_al r) as [s1 p1 hv1 a1 ch1], (r_eie r) as [s2 p2 hv2 a2 ch2].
  cbn [n_path n_children] in *. subst p1 p2. rewrite !LedgerProofs.psum_unfold, Hnil, !pcsum_lines.
  rewrite !Qplus_0_l, <- qsum_app.
  change p with (l_path (s, p, a)) at 1. change a with (l_amts (s, p, a)).
  apply qsum_unique; [exact Hin| |].
  - rewrite map_app, !clines_paths. exact Hnd.
  - intros l Hl E. apply acc_name_inj; [| |apply acc_eqb_name; exact E].
    + apply Hacc. rewrite <- !clines_paths, <- map_app. apply in_map. exact Hl.
    + exact (Hacc p Hp).
Qed.

Lemma prefix_account_ok a x : account_ok a = true -> In x (prefixes_from [] a) -> account_ok x = true.
Proof.
  intros Ha Hx. destruct (prefixes_from_prefix _ _ _ Hx) as (y & suf1 & suf2 & -> & E). cbn [app] in *. subst a.
  apply account_ok_cons in Ha. destruct Ha as (H1 & H2 & H3). apply account_ok_cons.
  split; [exact H1|split; [exact H2|]]. intros z Hz. apply H3. apply in_or_app. left. exact Hz.
Qed.

Lemma user_entries_acc sp ps posts col a c v :
  In (col, a, c, v) (user_entries sp ps posts) -> exists d p, In (d, p) posts /\ a = p_acc p.
Proof.
  unfold user_entries. intros H. apply in_concat in H. destruct H as (l & Hl & H).
  apply in_map_iff in Hl. destruct Hl as ([d p] & <- & Hdp).
  destruct ((p_start sp <=? d)%Z && (d <=? p_end sp)%Z); [|destruct H].
  destruct (column_for ps d); [|destruct H]. destruct H as [H|[]]. inversion H; subst.
  exists d, p. split; [exact Hdp|reflexivity].
Qed.

Lemma closing_entries_acc posts keys : forall ps prev col a c v,
  In (col, a, c, v) (closing_entries posts keys prev ps) -> a = [s_Equity; s_Equity] \/ exists k, In k keys /\ a = fst k.
Proof.
  induction ps as [|p ps IH]; intros prev col a c v H; cbn [closing_entries] in H; [destruct H|].
  apply in_app_or in H. destruct H as [H|H]; [|exact (IH _ _ _ _ _ H)].
  apply in_concat in H. destruct H as (l & Hl & H). apply in_map_iff in Hl. destruct Hl as (k & <- & Hk).
  destruct (is_zero (sum_between posts k prev (p_start p - 1))); [destruct H|].
  destruct H as [H|[H|[]]]; inversion H; subst; [right; exists k; split; [exact Hk|reflexivity]|left; reflexivity].
Qed.

Lemma add_key_in k l x : In x (add_key k l) -> x = k \/ In x l.
Proof.
  rewrite add_key_spec. destruct (existsb (keq k) l); [right; assumption|].
  intros H. apply in_app_or in H. destruct H as [H|[<-|[]]]; [right; exact H|left; reflexivity].
Qed.

Lemma closable_keys_acc sp posts k : In k (closable_keys sp posts) -> exists d p, In (d, p) posts /\ fst k = p_acc p.
Proof.
  unfold closable_keys.
  assert (G : forall l, In k (fold_left (fun l (dp : Z * posting) => let '(d, p) := dp in
               if (p_start sp <=? d)%Z && (d <=? p_end sp)%Z && closable (p_acc p) then add_key (p_acc p, p_com p) l else l) posts l) ->
             In k l \/ exists d p, In (d, p) posts /\ fst k = p_acc p).
  { induction posts as [|[d p] posts IH]; intros l H; cbn [fold_left] in H; [left; exact H|].
    destruct (IH _ H) as [H1|(d' & p' & Hin & E)].
    - destruct ((p_start sp <=? d)%Z && (d <=? p_end sp)%Z && closable (p_acc p)); [|left; exact H1].
      apply add_key_in in H1. destruct H1 as [->|H1]; [right; exists d, p; split; [left; reflexivity|reflexivity]|left; exact H1].
    - right. exists d', p'. split; [right; exact Hin|exact E]. }
  intros H. destruct (G [] H) as [[]|H']; exact H'.
Qed.

Lemma mapped_entries_acc cfg es col a c v :
  In (col, a, c, v) (mapped_entries cfg es) ->
  exists col0 a0 c0 v0, In (col0, a0, c0, v0) es /\ shorten (bc_mapping cfg) (remap (bc_remap cfg) a0) = ShAcc a.
Proof.
  unfold mapped_entries. intros H. apply in_concat in H. destruct H as (l & Hl & H).
  apply in_map_iff in Hl. destruct Hl as ([[[col0 a0] c0] v0] & <- & Hin).
  destruct (cfg_where cfg a0 c0); [|destruct H].
  destruct (shorten (bc_mapping cfg) (remap (bc_remap cfg) a0)) as [a'| |] eqn:E; [|destruct H|destruct H].
  destruct H as [H|[]]. injection H as E1 E2 E3 E4. subst col0 a' c0 v0. exists col, a0, c, v. split; [exact Hin|exact E].
Qed.

Definition e_acc (e : entry) : account := snd (fst (fst e)).

Lemma ledger_entry_account_ok cfg dl part e :
  postings_syntactic dl -> In e (ledger_entries cfg dl part) -> account_ok (e_acc e) = true.
Proof.
  destruct e as [[[col a] c] v]. intros Hsyn He. unfold ledger_entries in He.
  apply mapped_entries_acc in He. destruct He as (col0 & a0 & c0 & v0 & Hin & Hsh).
  assert (Ha0 : account_ok a0 = true).
  { apply in_app_or in Hin. destruct Hin as [Hin|Hin].
    - apply user_entries_acc in Hin. destruct Hin as (d & p & Hdp & ->). exact (Hsyn d p Hdp).
    - destruct (bc_close cfg); [|destruct Hin].
      apply closing_entries_acc in Hin. destruct Hin as [->|(k & Hk & ->)]; [exact account_ok_equity|].
      apply closable_keys_acc in Hk. destruct Hk as (d & p & Hdp & ->). exact (Hsyn d p Hdp). }
  destruct (remap_ok (bc_remap cfg) a0 Ha0) as [H1 _].
  exact (proj1 (shorten_ok _ _ _ H1 Hsh)).
Qed.

Lemma insert_ocom_in x c : forall l, In x (insert_ocom c l) <-> x = c \/ In x l.
Proof.
  induction l as [|y l IH]; cbn [insert_ocom]; [cbn [In]; intuition congruence|].
  destruct c as [a|], y as [b|].
  - destruct (str_cmp a b) eqn:E.
    + apply str_cmp_eq in E. subst b. cbn [In]. intuition congruence.
    + cbn [In]. intuition congruence.
    + cbn [In]. rewrite IH. intuition congruence.
  - cbn [In]. rewrite IH. intuition congruence.
  - cbn [In]. intuition congruence.
  - cbn [In]. intuition congruence.
Qed.

Lemma ra_commodities_in oc m : In oc (ra_commodities m) <-> exists kv, In kv m /\ snd (fst kv) = oc.
Proof.
  unfold ra_commodities.
  rewrite (in_fold_left_iff _ (fun kv x => x = snd (fst kv))) by (intros l kv x; rewrite insert_ocom_in; tauto).
  split; [intros [[]|(kv & H1 & H2)]|intros (kv & H1 & H2); right]; exists kv; (split; [exact H1|symmetry; exact H2]).
Qed.

Lemma ra_get_in m k v : ra_get m k = Some v -> In (k, v) m.
Proof.
  induction m as [|[k0 v0] m IH]; cbn [ra_get]; [discriminate|].
  destruct (rkey_eqb k k0) eqn:E; [|intros H; right; exact (IH H)].
  intros H. inversion H; subst. apply rkey_eqb_eq in E. subst. left. reflexivity.
Qed.

Lemma ra_get_unique m k v : ra_unique m -> In (k, v) m -> ra_get m k = Some v.
Proof.
  induction 1 as [|k0 v0 m Ha Hu IH]; intros Hin; [destruct Hin|]. cbn [ra_get].
  destruct Hin as [Hin|Hin].
  - inversion Hin; subst. rewrite rkey_eqb_refl. reflexivity.
  - destruct (rkey_eqb k k0) eqn:E; [|exact (IH Hin)].
    apply rkey_eqb_eq in E. subst k0. exfalso. unfold key_absent in Ha. rewrite Forall_forall in Ha.
    exact (Ha (k, v) Hin eq_refl).
Qed.

Definition no_zeros (m : ramounts) : Prop := Forall (fun kv : rkey * dec => is_zero (snd kv) = false) m.

Lemma sum_into_no_zeros dest src f : no_zeros (ra_sum_into dest src f).
Proof.
  unfold no_zeros, ra_sum_into. apply Forall_forall. intros kv H. apply filter_In in H. destruct H as [_ H].
  destruct (is_zero (snd kv)); [discriminate|reflexivity].
Qed.

Lemma commodities_nonzero m oc : ra_unique m -> no_zeros m ->
  (In oc (ra_commodities m) <-> exists d, ~ dvalue (ra_get0 m (d, oc)) == 0).
Proof.
  intros Hu Hnz. rewrite ra_commodities_in. split.
  - intros ([[d oc'] v] & Hin & E). cbn [fst snd] in E. subst oc'. exists d.
    unfold ra_get0. rewrite (ra_get_unique _ _ _ Hu Hin).
    unfold no_zeros in Hnz. rewrite Forall_forall in Hnz. specialize (Hnz _ Hin). cbn [snd] in Hnz.
    intros Hz. apply is_zero_value in Hz. congruence.
  - intros (d & Hd). unfold ra_get0 in Hd.
    destruct (ra_get m (d, oc)) as [v|] eqn:E.
    + exists ((d, oc), v). split; [apply ra_get_in; exact E|reflexivity].
    + exfalso. apply Hd. apply dvalue_nil.
Qed.

Lemma esum_ext f g k m : (forall x, f x = g x) -> esum f k m = esum g k m.
Proof.
  intros H. induction m as [|[k0 v0] m IH]; cbn [esum]; [reflexivity|]. unfold contrib. rewrite H, IH. reflexivity.
Qed.

Lemma collapse_key_true k : collapse_key true k = k.
Proof. destruct k. reflexivity. Qed.

Lemma shown_vals_value rc p a k :
  rc_valuation rc = None -> dvalue (ra_get0 (shown_vals rc p a) k) == esum idk k a.
Proof.
  intros Hv. unfold shown_vals, show_of. rewrite Hv.
  rewrite ra_get0_esum by (apply sum_into_unique; constructor).
  rewrite esum_sum_into. cbn [esum]. rewrite Qplus_0_l.
  rewrite (esum_ext (fun k0 => idk (collapse_key true k0)) idk); [reflexivity|].
  intros x. unfold idk. apply collapse_key_true.
Qed.

Lemma num_is_value n d : num_is (CNum n) d <-> dvalue n == dvalue d.
Proof. cbn [num_is]. apply dec_equal_value. Qed.

Lemma row_numbers_amounts diff neg_ vals oc es sel c :
  (forall col, dvalue (ra_get0 vals (Some col, oc)) == dvalue (period_amount es sel c col)) ->
  forall dates total total', dvalue total == dvalue total' ->
  Forall2 num_is (row_numbers diff neg_ vals oc dates total) (cell_amounts diff neg_ es sel c dates total').
Proof.
  intros Hv. induction dates as [|d dates IH]; intros total total' Ht; cbn [row_numbers cell_amounts]; constructor.
  - apply num_is_value. destruct neg_, diff; rewrite ?dvalue_neg, ?dvalue_add, ?Ht, ?Hv; reflexivity.
  - apply IH. rewrite !dvalue_add, Ht, Hv. reflexivity.
Qed.

Lemma render_rows_lines_ok rc dates indent name neg_ vals amts :
  rc_valuation rc = None ->
  forall coms first,
  (forall c, In c coms -> Forall2 num_is (row_numbers (rc_diff rc) neg_ vals (Some c) dates dec_nil) (amts c)) ->
  lines_ok name indent first coms amts (render_rows rc dates indent name neg_ vals (map Some coms) first).
Proof.
  intros Hv. induction coms as [|c coms IH]; intros first H; cbn [map render_rows lines_ok]; [exact I|].
  split.
  - eexists. split; [|apply H; left; reflexivity]. unfold draw_comms. rewrite Hv. reflexivity.
  - apply IH. intros c' Hc'. apply H. right. exact Hc'.
Qed.

Definition ocom_lt (a b : option commodity) : Prop :=
  match a, b with
  | None, Some _ => True
  | Some x, Some y => str_cmp x y = Lt
  | _, _ => False
  end.

Fixpoint ocoms_sorted (l : list (option commodity)) : Prop :=
  match l with [] => True | c :: l' => Forall (ocom_lt c) l' /\ ocoms_sorted l' end.

Lemma ocom_lt_trans a b c : ocom_lt a b -> ocom_lt b c -> ocom_lt a c.
Proof.
  destruct a as [x|], b as [y|], c as [z|]; cbn [ocom_lt]; try tauto. apply str_cmp_lt_trans.
Qed.

Lemma insert_ocom_sorted c : forall l, ocoms_sorted l -> ocoms_sorted (insert_ocom c l).
Proof.
  induction l as [|y l IH]; intros Hs; cbn [insert_ocom]; [cbn; split; [constructor|exact I]|].
  cbn [ocoms_sorted] in Hs. destruct Hs as [Hy Hl].
  assert (Hlt : forall z, ocom_lt z y -> ocoms_sorted (z :: y :: l)).
  { intros z Hz. cbn [ocoms_sorted]. split; [|split; assumption]. constructor; [exact Hz|].
    rewrite Forall_forall in *. intros w Hw. exact (ocom_lt_trans _ _ _ Hz (Hy w Hw)). }
  assert (Hgt : ocom_lt y c -> ocoms_sorted (y :: insert_ocom c l)).
  { intros Hc. cbn [ocoms_sorted]. split; [|apply IH; exact Hl].
    rewrite Forall_forall in *. intros w Hw. apply insert_ocom_in in Hw. destruct Hw as [->|Hw]; [exact Hc|exact (Hy w Hw)]. }
  destruct c as [a|], y as [b|].
  - destruct (str_cmp a b) eqn:E.
    + cbn [ocoms_sorted]. split; assumption.
    + apply Hlt. exact E.
    + apply Hgt. cbn [ocom_lt]. rewrite str_cmp_antisym, E. reflexivity.
  - apply Hgt. exact I.
  - apply Hlt. exact I.
  - cbn [ocoms_sorted]. split; assumption.
Qed.

Lemma ra_commodities_sorted m : ocoms_sorted (ra_commodities m).
Proof. unfold ra_commodities. apply fold_left_invariant; [intros l kv; apply insert_ocom_sorted|exact I]. Qed.

Lemma somes_sorted coms : ocoms_sorted (map Some coms) -> coms_sorted coms.
Proof.
  induction coms as [|c coms IH]; cbn [map ocoms_sorted coms_sorted]; [trivial|].
  intros [H1 H2]. split; [|exact (IH H2)]. rewrite Forall_forall in *. intros d Hd. exact (H1 (Some d) (in_map Some _ _ Hd)).
Qed.

Lemma all_somes (l : list (option commodity)) : ~ In None l -> exists coms, l = map Some coms.
Proof.
  induction l as [|[c|] l IH]; intros H.
  - exists []. reflexivity.
  - destruct IH as (coms & ->); [intros Hn; apply H; right; exact Hn|]. exists (c :: coms). reflexivity.
  - exfalso. apply H. left. reflexivity.
Qed.

Lemma in_map_Some {A} (x : A) l : In (Some x) (map Some l) <-> In x l.
Proof.
  split; [|apply in_map]. intros H. apply in_map_iff in H. destruct H as (y & E & Hy). injection E as ->. exact Hy.
Qed.

Lemma commodities_list m : ~ In None (ra_commodities m) ->
  exists coms, ra_commodities m = map Some coms /\ coms_sorted coms.
Proof.
  intros Hn. destruct (all_somes _ Hn) as (coms & Hcoms). exists coms. split; [exact Hcoms|].
  apply somes_sorted. rewrite <- Hcoms. apply ra_commodities_sorted.
Qed.

Lemma line_rows_block rc dates indent name neg_ vals coms amts :
  rc_valuation rc = None -> ra_commodities vals = map Some coms ->
  (forall c, In c coms -> Forall2 num_is (row_numbers (rc_diff rc) neg_ vals (Some c) dates dec_nil) (amts c)) ->
  block_ok (tw rc dates) name indent coms amts (line_rows rc dates indent name neg_ vals).
Proof.
  intros Hv Hcoms Hnum. unfold line_rows, block_ok. destruct vals as [|kv vals'] eqn:Evals.
  - destruct coms; [reflexivity|discriminate Hcoms].
  - destruct coms as [|c0 coms'] eqn:Ecoms.
    + exfalso. assert (Hin0 : In (snd (fst kv)) (ra_commodities (kv :: vals'))).
      { apply ra_commodities_in. exists kv. split; [left; reflexivity|reflexivity]. }
      rewrite Hcoms in Hin0. destruct Hin0.
    + rewrite Hcoms. apply render_rows_lines_ok; [exact Hv|].
      intros c Hc. apply Hnum. exact Hc.
Qed.

(* Amounts vals without zeros whose values are given by V, where V is zero under the nil commodity
   and under (column, commodity) the ledger's period amount: the lines are one per commodity with
   a non-zero value, ascending, and carry the ledger's numbers.  Used with V = the cell of an
   account row and V = the sum over a tree. *)
Lemma amounts_block rc dates indent name neg_ vals (V : rkey -> Q) es sel :
  rc_valuation rc = None -> ra_unique vals -> no_zeros vals ->
  (forall k, dvalue (ra_get0 vals k) == V k) ->
  (forall d, V (d, None) == 0) ->
  (forall c col, V (Some col, Some c) == dvalue (period_amount es sel c col)) ->
  exists coms,
    ra_commodities vals = map Some coms /\
    coms_sorted coms /\
    (forall c, In c coms <-> exists od, ~ V (od, Some c) == 0) /\
    block_ok (tw rc dates) name indent coms
             (fun c => cell_amounts (rc_diff rc) neg_ es sel c dates dec_nil)
             (line_rows rc dates indent name neg_ vals).
Proof.
  intros Hv Hu Hnz Hval Hnone Hcol.
  assert (Hmem : forall oc, In oc (ra_commodities vals) <-> exists d, ~ V (d, oc) == 0).
  { intros oc. rewrite (commodities_nonzero _ _ Hu Hnz).
    split; intros (d & Hd); exists d; [rewrite <- Hval|rewrite Hval]; exact Hd. }
  destruct (commodities_list vals) as (coms & Ecoms & Hs).
  { intros Hn. apply Hmem in Hn. destruct Hn as (d & Hd). exact (Hd (Hnone d)). }
  exists coms. split; [exact Ecoms|]. split; [exact Hs|]. split; [intros c; rewrite <- in_map_Some, <- Ecoms; apply Hmem|].
  apply line_rows_block; [exact Hv|exact Ecoms|]. intros c _.
  apply row_numbers_amounts; [|reflexivity]. intros col. rewrite Hval. apply Hcol.
Qed.

Lemma last_in {A} (x : A) l d : In (last (x :: l) d) (x :: l).
Proof. revert x. induction l as [|y l IH]; intros x; [left; reflexivity|]. right. apply IH. Qed.

Lemma last_account_ok row : account_ok row = true -> last row [] <> [].
Proof.
  intros H. destruct row as [|s t]; [discriminate|]. apply account_ok_cons in H. destruct H as ([ty Hty] & _ & Ht).
  destruct t as [|y t']; [cbn [last]; intros ->; discriminate|].
  exact (proj1 (Ht _ (last_in y t' []))).
Qed.

(* r is the report of an unvalued balance run over the journal dl, shown over the periods of part:
   all that the theorems about the table use of the run *)
Record run_of (cfg : balance_cfg) (dl : list directive) (r : report) (part : partition) : Prop := {
  run_unvalued : bc_valuation cfg = None;
  run_partition :
    new_partition (clip (mkPeriod (bc_from cfg) (bc_to cfg)) (journal_period dl)) (bc_interval cfg) (bc_last cfg) = POk part;
  run_ok : report_ok r;
  run_al_root : n_amts (r_al r) = [];
  run_keys : keys_within (col_key part) r;
  run_cells : forall row c col,
    rcell row (Some col, Some c) r == dvalue (period_amount (ledger_entries cfg dl part) (acc_eqb row) c col);
  run_rows : forall x,
    In x (rows r) <-> exists e, In e (ledger_entries cfg dl part) /\ In x (prefixes_from [] (e_acc e));
  run_entries_ok : forall e, In e (ledger_entries cfg dl part) -> account_ok (e_acc e) = true }.
Arguments run_unvalued {cfg dl r part}.
Arguments run_partition {cfg dl r part}.
Arguments run_ok {cfg dl r part}.
Arguments run_al_root {cfg dl r part}.
Arguments run_keys {cfg dl r part}.
Arguments run_cells {cfg dl r part}.
Arguments run_rows {cfg dl r part}.
Arguments run_entries_ok {cfg dl r part}.

Lemma al_root_empty cfg ds r part : balance_report cfg ds = COk (r, part) -> n_amts (r_al r) = [].
Proof.
  intros H. destruct (balance_report_query _ _ _ _ H) as (days & days' & Hq).
  refine (query_days_inv (balance_query cfg part) (fun r => n_amts (r_al r) = []) _ days new_report r days' eq_refl Hq).
  intros r0 d a c v H0. unfold report_insert. destruct (is_AL a) eqn:Ea; cbn [r_al]; [|exact H0].
  destruct a as [|h t]; [discriminate|]. destruct (r_al r0) as [s p hv am ch]. cbn [n_amts] in *. exact H0.
Qed.

Lemma balance_run cfg ds r part dl :
  bc_valuation cfg = None -> balance_report cfg ds = COk (r, part) ->
  parse_directives ds = MOk dl -> postings_syntactic dl ->
  run_of cfg dl r part.
Proof.
  intros Hv Hrun Hp Hsyn.
  destruct (report_cells cfg ds r part Hv Hrun) as (dl' & Hp' & Hpart & Hcells). rewrite Hp in Hp'. injection Hp' as <-.
  destruct (report_rows cfg ds r part Hv Hrun) as (dl' & Hp' & Hrows). rewrite Hp in Hp'. injection Hp' as <-.
  constructor; [exact Hv|exact Hpart|exact (balance_report_ok _ _ _ _ Hrun)|exact (al_root_empty _ _ _ _ Hrun)|
                exact (report_dates _ _ _ _ Hv Hrun)|exact (Hcells (fun _ => Hsyn))| |].
  - intros x. rewrite (Hrows (fun _ => Hsyn) x). unfold ledger_row. rewrite Hpart. fold (ledger_entries cfg dl part).
    split; intros ([[[col a] c] v] & He & Hx); exists (col, a, c, v); (split; [exact He|exact Hx]).
  - intros e. apply ledger_entry_account_ok. exact Hsyn.
Qed.

Section Run.
  Variables (cfg : balance_cfg) (dl : list directive) (r : report) (part : partition).
  Hypothesis R : run_of cfg dl r part.

  Local Notation es := (ledger_entries cfg dl part).
  Local Notation rc := (balance_render_cfg cfg).
  Local Notation dates := (end_dates part).

  Lemma run_rows_ok x : In x (rows r) -> account_ok x = true.
  Proof.
    intros Hx. apply (run_rows R) in Hx. destruct Hx as (e & He & Hx).
    exact (prefix_account_ok _ x (run_entries_ok R e He) Hx).
  Qed.

  Lemma account_rows_lines row a :
    In (row, a) (account_rows rc r) ->
    exists s, In (s, row, a) (flat_map tree_lines (n_children (r_al r)) ++ flat_map tree_lines (n_children (r_eie r))).
  Proof.
    unfold account_rows. intros H. apply in_map_iff in H. destruct H as ([[s p] a'] & E & H). cbn [fst snd] in E.
    inversion E; subst. exists s. apply in_app_or in H. apply in_or_app.
    destruct H as [H|H]; [left|right]; eapply Permutation_in; try exact H; apply clines_sort.
  Qed.

  Lemma account_row_ok row a : In (row, a) (account_rows rc r) -> account_ok row = true.
  Proof.
    intros Hin. apply run_rows_ok. eapply Permutation_in; [apply account_rows_paths|]. exact (in_map fst _ _ Hin).
  Qed.

  Lemma account_block row a : In (row, a) (account_rows rc r) ->
    exists coms,
      coms_sorted coms /\
      (forall c, In c coms <-> exists od, ~ rcell row (od, Some c) r == 0) /\
      block_ok (tw rc dates) (last row []) (name_indent row) coms
               (fun c => cell_amounts (bc_diff cfg) (negb (is_AL row)) es (acc_eqb row) c dates dec_nil)
               (acct_lines rc dates row a).
  Proof.
    intros Hin. destruct (account_rows_lines row a Hin) as (s & Hline).
    pose proof (last_account_ok row (account_row_ok row a Hin)) as Hlast.
    unfold acct_lines. destruct (last row []) as [|x0 s0] eqn:El; [contradiction|]. rewrite <- El.
    destruct (amounts_block rc dates (name_indent row) (last row []) (negb (is_AL row)) (shown_vals rc row a)
                (fun k => rcell row k r) es (acc_eqb row)) as (coms & _ & H); [| | | | | |exists coms; exact H].
    - exact (run_unvalued R).
    - apply sum_into_unique. constructor.
    - apply sum_into_no_zeros.
    - intros k. rewrite (shown_vals_value rc row a k (run_unvalued R)). symmetry.
      exact (rcell_node r s row a k (run_ok R) run_rows_ok Hline).
    - intros d. destruct (run_ok R) as (_ & _ & _ & _ & _ & Hz). apply Hz.
    - apply (run_cells R).
  Qed.
End Run.
