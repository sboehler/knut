(* C02, table level: under which DATES the report stores amounts.
   Every amount of an unvalued balance report is stored under the end date of a shown period:
   never under the zero date (Partition.Align returns the zero time for a date after the last
   period), never under another date.  For --close this needs the dates of what the close stage
   emits: CloseAccounts only appends, on a day that is a period start, transactions dated on that
   day ([close_days_dates]); a period start is aligned to the end of its own period.
   Consequences ([report_dates]): a cell under the zero date or under a date that is not a column
   is zero -- per account row ([rcell]) and per tree ([tsum], for the total lines). *)
From Coq Require Import QArith List Lia.
From Knut Require Import Model.Dec Model.Date Model.Account Model.Ledger Model.Journal Model.Check Model.Pipeline Model.Report
     Model.Cli Proofs.JournalFacts Proofs.ReportSum Proofs.Conservation Proofs.LedgerProofs Proofs.CloseProofs
     Proofs.LayoutProofs Proofs.BalanceTableTree.
Import ListNotations.
Open Scope Q_scope.

Lemma closing_txns_dates date vs : forall m, Forall (fun t => t_date t = date) (closing_txns date m vs).
Proof.
  induction m as [|[k0 [[a c] qy]] m IH]; cbn [closing_txns]; [constructor|].
  destruct (is_zero qy && is_zero (match pos_get vs a c with Some x => x | None => dec_nil end)); [exact IH|].
  constructor; [reflexivity|exact IH].
Qed.

Lemma close_fold_txns_id cds ts s s' ts' : fold_txns (close_proc cds) s ts = ROk (s', ts') -> ts' = ts.
Proof.
  apply fold_txns_id. intros f s0 t x s1 x1 Hf H. cbn [close_proc pr_posting] in Hf. injection Hf as <-.
  unfold close_posting in H. destruct (is_AL (p_acc x) || acc_eqb (p_acc x) equity_account); inversion H; reflexivity.
Qed.

(* one day: the day is returned as it is, or -- on a closing day -- with closing transactions of
   that date appended.  No hypothesis on the state or the postings. *)
Lemma close_day_shape cds s d s' d' :
  process_day (close_proc cds) s d = ROk (s', d') ->
  d' = (if existsb (Z.eqb (d_date d)) cds
        then set_txns d (d_txns d ++ closing_txns (d_date d) (c_qty s) (c_val s)) else d).
Proof.
  intros H. destruct (process_day_ok _ _ _ _ _ H) as (s1 & d1 & s2 & s3 & s4 & ts & s5 & s6 & E1 & _ & _ & E4 & _ & _ & E7).
  cbn [close_proc pr_day_start pr_day_end cb_day] in E1, E7. injection E7 as _ <-.
  rewrite (close_fold_txns_id _ _ _ _ _ E4), day_rebuild.
  unfold close_day_start in E1. destruct (existsb (Z.eqb (d_date d)) cds); injection E1 as _ <-; reflexivity.
Qed.

(* THE CLOSE-STAGE DATE LEMMA: a dated posting that leaves the close stage either entered it, or
   is dated on one of the closing days (the period starts) *)
Lemma close_days_dates cds : forall ds s s' ds',
  process_days (close_proc cds) s ds = ROk (s', ds') ->
  forall dp, In dp (days_postings ds') -> In dp (days_postings ds) \/ In (fst dp) cds.
Proof.
  induction ds as [|d ds IH]; intros s s' ds' H dp Hin.
  - inversion H; subst. destruct Hin.
  - apply process_days_cons_ok in H. destruct H as (s1 & d1 & ds2 & E1 & E2 & ->).
    unfold days_postings in Hin |- *. cbn [map concat] in Hin |- *. apply in_app_or in Hin.
    destruct Hin as [Hin|Hin].
    + pose proof (close_day_shape _ _ _ _ _ E1) as Hd1.
      destruct (existsb (Z.eqb (d_date d)) cds) eqn:Ecl; subst d1.
      * rewrite day_postings_txns in Hin. cbn [set_txns d_txns] in Hin. rewrite txns_postings_app in Hin.
        apply in_app_or in Hin. destruct Hin as [Hin|Hin].
        -- left. apply in_or_app. left. exact Hin.
        -- right. apply existsb_exists in Ecl. destruct Ecl as (x & Hx & Ex). apply Z.eqb_eq in Ex. subst x.
           unfold txns_postings in Hin. apply in_concat in Hin. destruct Hin as (l & Hl & Hin).
           apply in_map_iff in Hl. destruct Hl as (t & <- & Ht). apply in_map_iff in Hin. destruct Hin as (p0 & <- & _).
           cbn [fst]. pose proof (closing_txns_dates (d_date d) (c_val s) (c_qty s)) as Hall.
           rewrite Forall_forall in Hall. rewrite (Hall t Ht). exact Hx.
      * left. apply in_or_app. left. exact Hin.
    + destruct (IH _ _ _ E2 dp Hin) as [H1|H1]; [left; apply in_or_app; right; exact H1|right; exact H1].
Qed.

Lemma align_list_in ps d e : align_list ps d = Some e -> In e (map p_end ps).
Proof.
  induction ps as [|p ps IH]; cbn [align_list map]; [discriminate|].
  destruct (negb (p_end p <? d)%Z); [intros H; inversion H; left; reflexivity|intros H; right; exact (IH H)].
Qed.

Lemma align_list_some ps d p : In p ps -> (d <= p_end p)%Z -> align_list ps d <> None.
Proof.
  induction ps as [|q ps IH]; intros Hin Hle; [destruct Hin|]. cbn [align_list].
  destruct (p_end q <? d)%Z eqn:E; cbn [negb]; [|discriminate].
  destruct Hin as [->|Hin]; [lia|exact (IH Hin Hle)].
Qed.

(* the dates the report may use as keys *)
Definition col_date (part : partition) (od : option Z) : Prop := exists e, od = Some e /\ In e (end_dates part).

Lemma align_col_date part d : Date.align part d <> None -> col_date part (Date.align part d).
Proof.
  unfold Date.align, col_date, end_dates. destruct (align_list (periods part) d) as [e|] eqn:E; [|congruence].
  intros _. exists e. split; [reflexivity|exact (align_list_in _ _ _ E)].
Qed.

(* a date inside the span, or a period start, is aligned to a column *)
Lemma align_in_span part d : part_facts part -> in_span (span part) d = true -> col_date part (Date.align part d).
Proof.
  intros [_ Htiles] Hsp. apply align_col_date. unfold in_span in Hsp.
  assert (Hd : (p_start (span part) <= d <= p_end (span part))%Z) by lia.
  destruct (Htiles ltac:(lia)) as [Ht _].
  unfold Date.align. rewrite align_list_column_for. exact (column_some _ _ _ _ Ht (proj2 Hd)).
Qed.

Lemma align_start part d : part_facts part -> (p_start (span part) <= p_end (span part))%Z ->
  In d (start_dates part) -> col_date part (Date.align part d).
Proof.
  intros [_ Htiles] Hle Hin. apply align_col_date.
  destruct (Htiles Hle) as [Ht _]. destruct (tiles_facts _ _ _ Ht) as [_ Hb].
  unfold start_dates in Hin. apply in_map_iff in Hin. destruct Hin as (p & <- & Hp).
  rewrite Forall_forall in Hb. specialize (Hb _ Hp).
  unfold Date.align. apply (align_list_some _ _ p Hp). lia.
Qed.

(* nothing is stored outside the keys K: per row and per tree *)
Definition keys_within (K : rkey -> Prop) (r : report) : Prop :=
  wf_report r /\
  forall k, ~ K k ->
    (forall row, rcell row k r == 0) /\ tsum idk k (r_al r) == 0 /\ tsum idk k (r_eie r) == 0.

Lemma keys_within_new (K : rkey -> Prop) : keys_within K new_report.
Proof.
  split; [exact wf_new_report|]. intros k _. split; [intros row; apply rcell_new|].
  unfold new_report, empty_root. cbn [r_al r_eie]. rewrite tsum_unfold. unfold csum. cbn [esum fold_right]. split; ring.
Qed.

Lemma keys_within_insert (K : rkey -> Prop) r d a c v : K (d, Some c) -> keys_within K r -> keys_within K (report_insert r d a c v).
Proof.
  intros Hd [Hwf H]. split; [exact (proj2 (rcell_insert [] (None, None) r d a c v Hwf))|].
  intros k Hk. destruct (H k Hk) as (H1 & H2 & H3).
  assert (Hne : rkey_eqb (d, Some c) k = false).
  { destruct (rkey_eqb (d, Some c) k) eqn:E; [|reflexivity]. apply rkey_eqb_eq in E. subst k. contradiction. }
  split; [|split].
  - intros row. rewrite (proj1 (rcell_insert row k r d a c v Hwf)), H1.
    unfold delta_at, contrib. change (idk (d, Some c)) with (d, Some c). rewrite Hne. destruct (acc_eqb a row); ring.
  - unfold report_insert. destruct (is_AL a); cbn [r_al]; [|exact H2].
    rewrite tsum_node_insert by lia. rewrite H2. unfold contrib. change (idk (d, Some c)) with (d, Some c). rewrite Hne. ring.
  - unfold report_insert. destruct (is_AL a); cbn [r_eie]; [exact H3|].
    rewrite tsum_node_insert by lia. rewrite H3. unfold contrib. change (idk (d, Some c)) with (d, Some c). rewrite Hne. ring.
Qed.

(* the keys of a balance report: the end date of a shown period and a commodity *)
Definition col_key (part : partition) (k : rkey) : Prop := col_date part (fst k) /\ snd k <> None.

Lemma col_key_ins part d (c : commodity) : col_date part d -> col_key part (d, Some c).
Proof. intros H. split; [exact H|cbn [snd]; discriminate]. Qed.

(* an empty span: nothing passes the filter, so nothing is ever closed *)
Lemma close_empty_span cds sp : (forall d, in_span sp d = false) ->
  forall ds s s' ds', c_qty s = [] ->
  process_days (close_proc cds) s (map (filt sp) ds) = ROk (s', ds') -> days_postings ds' = [].
Proof.
  intros Hempty. induction ds as [|d0 ds IH]; intros s s' ds' Hs Hrun; cbn [map] in Hrun.
  - inversion Hrun; subst. reflexivity.
  - apply process_days_cons_ok in Hrun. destruct Hrun as (sa & da & db & Ea & Eb & ->).
    assert (Hf : filt sp d0 = set_txns d0 []).
    { unfold filt. rewrite period_contains_in_span, Hempty. reflexivity. }
    rewrite Hf in Ea. pose proof (close_day_shape _ _ _ _ _ Ea) as Hda.
    cbn [set_txns d_date d_txns] in Hda. rewrite Hs in Hda. cbn [closing_txns app] in Hda.
    assert (Hda' : day_postings da = []) by (destruct (existsb _ _) in Hda; subst da; reflexivity).
    assert (Hsa : c_qty sa = []).
    { destruct (process_day_ok _ _ _ _ _ Ea) as (s1 & d1 & s2 & s3 & s4 & ts & s5 & s6 & E1 & E2 & E3 & E4 & E5 & E6 & E7).
      rewrite (fold_asserts_none (close_proc cds) _ _ eq_refl) in E5.
      cbn [close_proc pr_day_start pr_price pr_open pr_close pr_day_end cb_day cb_each] in E1, E2, E3, E6, E7.
      injection E2 as <-. injection E3 as <-. injection E5 as <-. injection E6 as <-. injection E7 as <- _.
      unfold close_day_start in E1. cbn [set_txns d_date d_txns] in E1. rewrite Hs in E1. cbn [closing_txns app] in E1.
      destruct (existsb _ _) in E1; injection E1 as <- <-; cbn [set_txns d_txns fold_txns] in E4; injection E4 as <- _; exact Hs. }
    unfold days_postings. cbn [map concat]. rewrite Hda'. cbn [app]. exact (IH _ _ _ Hsa Eb).
Qed.

(* every amount of the report is stored under the end date of a shown period: the postings that
   reach the query are dated inside the span, or on a period start *)
Theorem report_dates cfg ds r part :
  bc_valuation cfg = None ->
  balance_report cfg ds = COk (r, part) ->
  keys_within (col_key part) r.
Proof.
  intros Hv H. destruct (unvalued_stages _ _ _ _ Hv H) as (dl & days & days' & _ & Epart & Hdays & Hrun).
  pose proof (partition_facts _ _ _ _ Epart) as Hpf.
  refine (query_days_dated (balance_query cfg part) (col_date part) (keys_within (col_key part))
            (fun r0 d a c v Hd => keys_within_insert (col_key part) r0 d a c v (col_key_ins part d c Hd))
            days new_report r days' _ (keys_within_new _) Hrun).
  intros dp Hin. cbn [balance_query q_date].
  assert (Hfilt : forall b, days_dated (b_days b) -> In dp (days_postings (map (filt (span part)) (b_days b))) ->
                            col_date part (Date.align part (fst dp))).
  { intros b Hb Hdp. apply (align_in_span part _ Hpf). exact (proj2 (proj1 (filt_in_iff _ _ _ Hb) Hdp)). }
  destruct (bc_close cfg).
  - destruct Hdays as (s & Hclose).
    destruct (close_days_dates _ _ _ _ _ Hclose dp Hin) as [H1|H1].
    + exact (Hfilt _ (builder_touch_dated _ _ (builder_of_dated dl)) H1).
    + destruct (Z_le_gt_dec (p_start (span part)) (p_end (span part))) as [Hle|Hgt]; [exact (align_start part _ Hpf Hle H1)|].
      exfalso. assert (Hempty : forall d, in_span (span part) d = false) by (intros d; unfold in_span; lia).
      rewrite (close_empty_span _ _ Hempty _ (mkClose [] []) _ _ eq_refl Hclose) in Hin. destruct Hin.
  - subst days. exact (Hfilt _ (builder_of_dated dl) Hin).
Qed.

(* the two consequences used below: a cell under the zero date, or under a date that is not a
   column, or under the nil commodity, is zero *)
Lemma col_key_some part col c : In col (end_dates part) -> col_key part (Some col, Some c).
Proof. intros H. split; [exists col; split; [reflexivity|exact H]|discriminate]. Qed.

Lemma col_key_inv part k : col_key part k -> exists col c, k = (Some col, Some c) /\ In col (end_dates part).
Proof.
  destruct k as [od oc]. intros [(e & E & He) Hc]. cbn [fst snd] in *. subst od. destruct oc as [c|]; [|congruence].
  exists e, c. split; [reflexivity|exact He].
Qed.

Lemma classic_col_key part k : col_key part k \/ ~ col_key part k.
Proof.
  destruct k as [[e|] [c|]].
  - destruct (in_dec Z.eq_dec e (end_dates part)) as [H|H]; [left; apply col_key_some; exact H|right].
    intros Hk. destruct (col_key_inv _ _ Hk) as (col & c' & E & Hin). inversion E; subst. contradiction.
  - right. intros [_ H]. apply H. reflexivity.
  - right. intros [(e & E & _) _]. discriminate E.
  - right. intros [_ H]. apply H. reflexivity.
Qed.
