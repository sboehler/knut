(* The width that Spec.BalanceTableSpec gives the balance table is the one ReportTableProofs
   computes; the proof that the rows of render_report are report_table_rows
   (render_report_layout) is in Proofs/ReportTableProofs.v, which this file re-exports. *)
From Coq Require Import ZArith List.
From Knut Require Import Model.Report Spec.BalanceTableSpec.
From Knut Require Export Proofs.ReportTableProofs.

Lemma tw_report_width rc dates : tw rc dates = report_width rc dates.
Proof. reflexivity. Qed.
