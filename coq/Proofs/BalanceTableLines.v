(* C02, table level: WHICH commodity lines an account block and the three total rows list.
   The renderer lists a commodity for every key (date, commodity) that is left after the zero
   amounts have been dropped -- whatever the date.  With Proofs/BalanceTableDates.v (every key of
   the report is the end date of a shown period) this is exactly: the ledger has a non-zero
   period amount of that commodity in some COLUMN of the table.
     account_lines        account blocks, both directions (C02_commodity_line_iff)
     totals_block         Total (A+L), Total (E+I+E): the same over all A/L / all other accounts;
     delta_block          Delta: the union of the two lists (Amounts.Plus drops nothing), even
                          where its numbers are zero. *)
From Coq Require Import QArith List.
From Knut Require Import Model.Date Model.Account Model.Ledger Model.Report Model.Cli Spec.LedgerSpec Spec.LedgerSyntax
     Spec.BalanceTableSpec Proofs.DecValue Proofs.ReportSum Proofs.Conservation Proofs.LedgerProofs
     Proofs.BalanceTableTree Proofs.BalanceTableCells Proofs.BalanceTableTotals Proofs.BalanceTableDates.
Import ListNotations.
Open Scope Q_scope.

(* the keys of Amounts.Plus: those of both sides *)
Lemma ra_add_keys m k0 v k : In k (map fst (ra_add m k0 v)) <-> k = k0 \/ In k (map fst m).
Proof.
  induction m as [|[k1 v1] m IH]; cbn [ra_add map fst In]; [intuition congruence|].
  destruct (rkey_eqb k0 k1) eqn:E; cbn [map fst In].
  - apply rkey_eqb_eq in E. subst k1. intuition congruence.
  - rewrite IH. intuition congruence.
Qed.

Lemma ra_plus_keys a b k : In k (map fst (ra_plus a b)) <-> In k (map fst a) \/ In k (map fst b).
Proof.
  unfold ra_plus. revert a. induction b as [|[k1 v1] b IH]; intros a; cbn [fold_left map fst In]; [tauto|].
  rewrite IH, ra_add_keys. intuition congruence.
Qed.

Lemma ra_commodities_keys m oc : In oc (ra_commodities m) <-> exists d, In (d, oc) (map fst m).
Proof.
  rewrite ra_commodities_in. split.
  - intros ([[d oc'] v] & Hin & E). cbn [fst snd] in E. subst oc'. exists d.
    apply in_map_iff. exists ((d, oc), v). split; [reflexivity|exact Hin].
  - intros (d & Hin). apply in_map_iff in Hin. destruct Hin as ([k v] & E & Hin). cbn [fst] in E. subst k.
    exists ((d, oc), v). split; [exact Hin|reflexivity].
Qed.

Lemma ra_plus_commodities a b oc :
  In oc (ra_commodities (ra_plus a b)) <-> In oc (ra_commodities a) \/ In oc (ra_commodities b).
Proof.
  rewrite !ra_commodities_keys. split.
  - intros (d & H). apply ra_plus_keys in H. destruct H as [H|H]; [left|right]; exists d; exact H.
  - intros [(d & H)|(d & H)]; exists d; apply ra_plus_keys; [left|right]; exact H.
Qed.

Lemma node_totals_no_zeros f n acc : no_zeros (node_totals f n acc).
Proof. destruct n. cbn [node_totals]. apply sum_into_no_zeros. Qed.

(* values V that vanish outside the keys (column, commodity) and are the amounts A there *)
Lemma nonzero_in_columns part (V : rkey -> Q) (A : commodity -> Z -> Q) c :
  (forall k, ~ col_key part k -> V k == 0) ->
  (forall col, V (Some col, Some c) == A c col) ->
  ((exists od, ~ V (od, Some c) == 0) <-> exists col, In col (end_dates part) /\ ~ A c col == 0).
Proof.
  intros Hzero Hcol. split.
  - intros (od & Hnz).
    destruct (classic_col_key part (od, Some c)) as [Hk|Hk]; [|exfalso; exact (Hnz (Hzero _ Hk))].
    destruct (col_key_inv _ _ Hk) as (col & c' & E & Hin). inversion E; subst od c'.
    exists col. split; [exact Hin|]. rewrite <- Hcol. exact Hnz.
  - intros (col & _ & Hnz). exists (Some col). rewrite Hcol. exact Hnz.
Qed.

Section Lines.
  Variables (cfg : balance_cfg) (dl : list directive) (r : report) (part : partition).
  Hypothesis R : run_of cfg dl r part.

  Local Notation es := (ledger_entries cfg dl part).
  Local Notation rc := (balance_render_cfg cfg).
  Local Notation dates := (end_dates part).
  Local Notation totals al := (node_totals (total_key rc) (if al then sorted_al rc r else sorted_eie rc r) []).
  Local Notation sel al := (fun a => if al then is_AL a else negb (is_AL a)).

  Lemma account_lines row a : In (row, a) (account_rows rc r) ->
    exists coms,
      coms_sorted coms /\
      (forall c, In c coms <-> exists col, In col dates /\ ~ dvalue (period_amount es (acc_eqb row) c col) == 0) /\
      block_ok (tw rc dates) (last row []) (name_indent row) coms
               (fun c => cell_amounts (bc_diff cfg) (negb (is_AL row)) es (acc_eqb row) c dates dec_nil)
               (acct_lines rc dates row a).
  Proof.
    intros Hin. destruct (account_block _ _ _ _ R row a Hin) as (coms & Hs & Hm & Hb). exists coms.
    split; [exact Hs|]. split; [|exact Hb]. intros c. rewrite Hm.
    apply (nonzero_in_columns part (fun k => rcell row k r) (fun c col => dvalue (period_amount es (acc_eqb row) c col))).
    - intros k Hk. exact (proj1 (proj2 (run_keys R) k Hk) row).
    - intros col. apply (run_cells R).
  Qed.

  (* a total row, whatever its name and sign: the sums over the tree laid out by amounts_block *)
  Lemma totals_block (al : bool) name neg_ :
    exists coms,
      ra_commodities (totals al) = map Some coms /\
      coms_sorted coms /\
      (forall c, In c coms <-> exists col, In col dates /\ ~ dvalue (period_amount es (sel al) c col) == 0) /\
      block_ok (tw rc dates) name 0 coms
               (fun c => cell_amounts (bc_diff cfg) neg_ es (sel al) c dates dec_nil)
               (line_rows rc dates 0 name neg_ (totals al)).
  Proof.
    assert (Hzero : forall k, ~ col_key part k -> tsum idk k (if al then r_al r else r_eie r) == 0).
    { intros k Hk. destruct (proj2 (run_keys R) k Hk) as (_ & H2 & H3). destruct al; assumption. }
    destruct (amounts_block rc dates 0 name neg_ (totals al) (fun k => tsum idk k (if al then r_al r else r_eie r)) es (sel al))
      as (coms & E & Hs & Hm & Hb).
    - exact (run_unvalued R).
    - apply node_totals_unique. constructor.
    - apply node_totals_no_zeros.
    - intros k. apply (totals_value_key _ _ _ _ R).
    - intros d. apply Hzero. intros [_ H]. apply H. reflexivity.
    - intros c col. apply (tree_total _ _ _ _ R).
    - exists coms. split; [exact E|]. split; [exact Hs|]. split; [|exact Hb]. intros c. rewrite Hm.
      apply (nonzero_in_columns part (fun k => tsum idk k (if al then r_al r else r_eie r))
               (fun c col => dvalue (period_amount es (sel al) c col))); [exact Hzero|].
      intros col. apply (tree_total _ _ _ _ R).
  Qed.

  (* Delta: Amounts.Plus drops nothing, so the union of the two lists, even where its numbers are zero *)
  Lemma delta_block coms_al coms_eie :
    ra_commodities (totals true) = map Some coms_al -> ra_commodities (totals false) = map Some coms_eie ->
    exists coms,
      coms_sorted coms /\
      (forall c, In c coms <-> In c coms_al \/ In c coms_eie) /\
      block_ok (tw rc dates) s_Delta 0 coms
               (fun c => cell_amounts (bc_diff cfg) false es (fun _ => true) c dates dec_nil)
               (line_rows rc dates 0 s_Delta false (ra_plus (totals true) (totals false))).
  Proof.
    intros Eal Eeie.
    assert (Hm : forall oc, In oc (ra_commodities (ra_plus (totals true) (totals false))) <->
                            In oc (map Some coms_al) \/ In oc (map Some coms_eie)).
    { intros oc. rewrite ra_plus_commodities, Eal, Eeie. reflexivity. }
    destruct (commodities_list (ra_plus (totals true) (totals false))) as (coms & E & Hs).
    { rewrite Hm. intros [H|H]; apply in_map_iff in H; destruct H as (c & Ec & _); discriminate. }
    exists coms. split; [exact Hs|]. split.
    - intros c. rewrite <- (in_map_Some c coms), <- (in_map_Some c coms_al), <- (in_map_Some c coms_eie), <- E. apply Hm.
    - apply line_rows_block; [exact (run_unvalued R)|exact E|]. intros c _.
      apply row_numbers_amounts; [|reflexivity]. intros col. apply (delta_value _ _ _ _ R).
  Qed.
End Lines.
