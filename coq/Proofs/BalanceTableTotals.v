(* C02, table level: the numbers of the Total (A+L), Total (E+I+E) and Delta lines
   against the ledger computation: the period amounts summed over all A/L accounts, over all
   other accounts, over all accounts. *)
From Coq Require Import QArith List.
From Knut Require Import Model.Str Model.Date Model.Account Model.Ledger Model.Report Model.Cli Spec.WellformedSpec
     Spec.LedgerSpec Spec.LedgerSyntax Spec.BalanceTableSpec Proofs.DecValue Proofs.CheckLemmas
     Proofs.ReportSum Proofs.Conservation Proofs.LedgerProofs Proofs.CloseProofs Proofs.LayoutProofs
     Proofs.MarkToMarketMapped Proofs.ListFacts Proofs.BalanceTableTree Proofs.BalanceTableCells.
Import ListNotations.
Open Scope Q_scope.

Definition ev (sel : account -> bool) (c : commodity) (col : Z) (e : entry) : Q :=
  let '(col', a, c', v) := e in if (col' =? col)%Z && sel a && str_eqb c' c then dvalue v else 0.

Lemma period_amount_q es sel c col : dvalue (period_amount es sel c col) == qsum (ev sel c col) es.
Proof.
  unfold period_amount. rewrite dvalue_dsum, qsum_concat_map. apply qsum_ext.
  intros [[[col' a] c'] v] _. unfold ev.
  destruct ((col' =? col)%Z && sel a && str_eqb c' c); unfold qsum; cbn [fold_right]; ring.
Qed.

Lemma tsum_lines f k n : tsum f k n == qsum (fun l => esum f k (l_amts l)) (tree_lines n).
Proof. apply (tree_sum_lines (fun l => esum f k (l_amts l)) (tsum f k)). reflexivity. Qed.

Lemma prefixes_from_self : forall rest acc, rest <> [] -> In (acc ++ rest) (prefixes_from acc rest).
Proof.
  induction rest as [|s t IH]; intros acc Hne; [contradiction|]. cbn [prefixes_from].
  destruct t as [|s' t']; [left; reflexivity|]. right.
  replace (acc ++ s :: s' :: t') with ((acc ++ [s]) ++ s' :: t') by (rewrite <- app_assoc; reflexivity).
  apply IH. discriminate.
Qed.

Lemma pick (P : list account) a v :
  NoDup P -> (forall x, In x P -> account_ok x = true) -> account_ok a = true ->
  (In a P -> qsum (fun p => if acc_eqb a p then v else 0) P == v) /\
  (~ In a P -> qsum (fun p => if acc_eqb a p then v else 0) P == 0).
Proof.
  intros Hnd Hok Ha. split; [apply sum_pick_in; assumption|].
  intros Hn. apply qsum_zero. intros p Hp0. destruct (acc_eqb a p) eqn:E; [|reflexivity]. exfalso. apply Hn.
  apply acc_eqb_name in E. apply acc_name_inj in E; [subst; exact Hp0|exact Ha|exact (Hok p Hp0)].
Qed.

Section Totals.
  Variables (cfg : balance_cfg) (dl : list directive) (r : report) (part : partition).
  Hypothesis R : run_of cfg dl r part.

  Local Notation es := (ledger_entries cfg dl part).
  Local Notation rc := (balance_render_cfg cfg).
  Local Notation rows_ok := (run_rows_ok cfg dl r part R).

  Lemma entry_is_row e : In e es -> In (e_acc e) (rows r).
  Proof.
    intros He. apply (run_rows R). exists e. split; [exact He|].
    apply (prefixes_from_self (e_acc e) []). intros E. pose proof (run_entries_ok R e He) as Hok. rewrite E in Hok. discriminate.
  Qed.

  (* summing the cells of a set of distinct rows P: every entry counts once iff its account is in P *)
  Lemma rows_sum (P : list account) c col :
    qsum (fun p => dvalue (period_amount es (acc_eqb p) c col)) P ==
    qsum (fun e : entry => let '(col', a, c', v) := e in
            if (col' =? col)%Z && str_eqb c' c then qsum (fun p => if acc_eqb a p then dvalue v else 0) P else 0) es.
  Proof.
    rewrite (qsum_ext _ (fun p => qsum (fun e => ev (acc_eqb p) c col e) es)) by (intros p _; apply period_amount_q).
    rewrite qsum_swap. apply qsum_ext. intros [[[col' a] c'] v] _. unfold ev.
    destruct ((col' =? col)%Z) eqn:E1, (str_eqb c' c) eqn:E2; cbn [andb].
    - apply qsum_ext. intros p _. rewrite (acc_eqb_sym p a), andb_true_r. reflexivity.
    - rewrite qsum_zero; [reflexivity|]. intros p _. rewrite andb_false_r. reflexivity.
    - apply qsum_zero. intros; reflexivity.
    - apply qsum_zero. intros; reflexivity.
  Qed.

  Lemma children_total (al : bool) c col :
    qsum (fun l => esum idk (Some col, Some c) (l_amts l))
         (flat_map tree_lines (n_children (if al then r_al r else r_eie r)))
    == dvalue (period_amount es (fun a => if al then is_AL a else negb (is_AL a)) c col).
  Proof.
    set (root := if al then r_al r else r_eie r).
    assert (Hsub : forall x, In x (cpaths (n_children root)) -> In x (rows r)).
    { intros x Hx. unfold rows. apply in_or_app. destruct al; [left|right]; exact Hx. }
    rewrite (qsum_ext _ (fun l => dvalue (period_amount es (acc_eqb (l_path l)) c col))).
    2: { intros [[s p] a] Hl. unfold l_amts, l_path. cbn [fst snd]. rewrite <- (run_cells R). symmetry.
         apply (rcell_node r s p a _ (run_ok R) rows_ok). apply in_or_app. destruct al; [left|right]; exact Hl. }
    rewrite <- (qsum_map (fun p => dvalue (period_amount es (acc_eqb p) c col)) l_path), clines_paths.
    assert (Hnd : NoDup (cpaths (n_children root))).
    { pose proof (NoDup_app_inv _ _ (rows_nodup r (run_ok R))) as Hnd. destruct al; apply Hnd. }
    assert (HokP : forall x, In x (cpaths (n_children root)) -> account_ok x = true) by (intros x Hx; apply rows_ok, Hsub, Hx).
    rewrite rows_sum, period_amount_q.
    apply qsum_ext. intros [[[col' a] c'] v] He. unfold ev.
    pose proof (entry_is_row _ He) as Hrow. pose proof (run_entries_ok R _ He) as Hoka. unfold e_acc in Hrow, Hoka. cbn [fst snd] in Hrow, Hoka.
    destruct (pick (cpaths (n_children root)) a (dvalue v) Hnd HokP Hoka) as [Pin Pout].
    destruct (run_ok R) as (_ & _ & _ & T1 & T2 & _).
    destruct ((col' =? col)%Z), (str_eqb c' c); cbn [andb]; rewrite ?andb_false_r; try reflexivity.
    rewrite andb_true_r. unfold rows in Hrow. apply in_app_or in Hrow.
    destruct al; cbn [root] in *.
    - destruct (is_AL a) eqn:Ea.
      + apply Pin. destruct Hrow as [H|H]; [exact H|]. rewrite (T2 a H) in Ea. discriminate.
      + apply Pout. intros H. rewrite (T1 a H) in Ea. discriminate.
    - destruct (is_AL a) eqn:Ea; cbn [negb].
      + apply Pout. intros H. rewrite (T2 a H) in Ea. discriminate.
      + apply Pin. destruct Hrow as [H|H]; [|exact H]. rewrite (T1 a H) in Ea. discriminate.
  Qed.

  Lemma nil_lines_zero k ch : (forall x, In x (cpaths ch) -> In x (rows r)) -> qsum (line_term [] k) (flat_map tree_lines ch) == 0.
  Proof.
    intros Hsub. apply qsum_zero. intros l Hl. unfold line_term. rewrite acc_eqb_sym, acc_eqb_nil_ok; [reflexivity|].
    apply rows_ok, Hsub. rewrite <- clines_paths. apply in_map. exact Hl.
  Qed.

  (* nothing of a period column is stored in the roots *)
  Lemma eie_root_zero c col : esum idk (Some col, Some c) (n_amts (r_eie r)) == 0.
  Proof.
    pose proof (run_cells R [] c col) as H.
    assert (Hz : dvalue (period_amount es (acc_eqb []) c col) == 0).
    { rewrite period_amount_q. apply qsum_zero. intros [[[col' a] c'] v] He. unfold ev.
      rewrite (acc_eqb_nil_ok a (run_entries_ok R _ He)), andb_false_r. reflexivity. }
    rewrite Hz in H. pose proof (run_al_root R) as Hal.
    destruct (run_ok R) as ((W1 & W2 & P1 & P2) & _).
    unfold rcell in H. pose proof nil_lines_zero as Hnil. unfold rows in Hnil.
    destruct (r_al r) as [s1 p1 hv1 a1 ch1], (r_eie r) as [s2 p2 hv2 a2 ch2]. cbn [n_path n_amts n_children] in *. subst p1 p2 a1.
    rewrite !LedgerProofs.psum_unfold, !pcsum_lines in H. rewrite acc_eqb_refl in H. cbn [esum] in H.
    rewrite !Hnil in H by (intros x Hx; apply in_or_app; tauto).
    rewrite <- H. ring.
  Qed.

  Lemma tree_total (al : bool) c col :
    tsum idk (Some col, Some c) (if al then r_al r else r_eie r)
    == dvalue (period_amount es (fun a => if al then is_AL a else negb (is_AL a)) c col).
  Proof.
    rewrite tsum_lines, <- (children_total al c col).
    pose proof (run_al_root R) as Hal. pose proof (eie_root_zero c col) as He.
    destruct al.
    - destruct (r_al r) as [s1 p1 hv1 a1 ch1]. cbn [n_amts n_children tree_lines] in *. subst a1.
      unfold qsum at 1. cbn [fold_right]. unfold l_amts at 1. cbn [snd esum]. unfold qsum. ring.
    - destruct (r_eie r) as [s2 p2 hv2 a2 ch2]. cbn [n_amts n_children tree_lines] in *.
      unfold qsum at 1. cbn [fold_right]. unfold l_amts at 1. cbn [snd]. rewrite He. unfold qsum. ring.
  Qed.

  Local Notation totals al := (node_totals (total_key rc) (if al then sorted_al rc r else sorted_eie rc r) []).

  Lemma totals_value_key (al : bool) k :
    dvalue (ra_get0 (totals al) k) == tsum idk k (if al then r_al r else r_eie r).
  Proof.
    rewrite ra_get0_esum by (apply node_totals_unique; constructor).
    rewrite esum_node_totals. cbn [esum]. rewrite Qplus_0_l.
    assert (Hext : forall n, tsum (fun k0 => idk (total_key rc k0)) k n == tsum idk k n).
    { intros n. rewrite !tsum_lines. apply qsum_ext. intros l _. unfold total_key, balance_render_cfg. cbn [rc_valuation].
      rewrite (run_unvalued R). cbn [negb].
      rewrite (esum_ext (fun k0 => idk (collapse_key true k0)) idk); [reflexivity|]. intros x. unfold idk. apply collapse_key_true. }
    rewrite Hext. destruct al; unfold sorted_al, sorted_eie; apply tsum_node_sort.
  Qed.

  Lemma totals_value (al : bool) c col :
    dvalue (ra_get0 (totals al) (Some col, Some c))
    == dvalue (period_amount es (fun a => if al then is_AL a else negb (is_AL a)) c col).
  Proof. rewrite totals_value_key. apply tree_total. Qed.

  Lemma delta_value c col :
    dvalue (ra_get0 (ra_plus (totals true) (totals false)) (Some col, Some c))
    == dvalue (period_amount es (fun _ => true) c col).
  Proof.
    rewrite ra_get0_esum by (apply ra_plus_unique, node_totals_unique; constructor).
    rewrite esum_plus, <- !ra_get0_esum by (apply node_totals_unique; constructor).
    rewrite (totals_value true c col), (totals_value false c col), !period_amount_q, <- qsum_plus.
    apply qsum_ext. intros [[[col' a] c'] v] _. unfold ev.
    destruct ((col' =? col)%Z), (str_eqb c' c), (is_AL a); cbn [andb negb]; ring.
  Qed.
End Totals.

