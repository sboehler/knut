(* C02, table level: the shape of the report trees that the query stage builds.
   Siblings are strictly ordered by segment, paths extend the parent's path, the A/L tree holds
   A/L accounts only and the other tree none, no amount is stored under the nil commodity.
   Hence: the node paths are pairwise distinct, the account blocks of the table are one per
   node, in the order of the sorted trees, a permutation of LayoutProofs.rows. *)
From Coq Require Import QArith List Lia Permutation Sorting.Sorted.
From Knut Require Import Model.Str Model.Date Model.Account Model.Ledger Model.Journal Model.Check Model.Pipeline Model.Table
     Model.Report Model.Cli Spec.LedgerSpec Spec.BalanceTableSpec Proofs.ListFacts Proofs.StrProofs Proofs.JournalFacts
     Proofs.ReportSum Proofs.Conservation Proofs.LedgerProofs Proofs.CloseProofs Proofs.LayoutProofs.
Import ListNotations.
Open Scope Q_scope.

Lemma cpaths_flat_map ch : cpaths ch = flat_map npaths ch.
Proof. induction ch as [|c ch IH]; cbn [flat_map]; [reflexivity|]. unfold cpaths in *. cbn [fold_right]. rewrite IH. reflexivity. Qed.

Definition l_seg (l : str * account * ramounts) : str := fst (fst l).
Definition l_path (l : str * account * ramounts) : account := snd (fst l).
Definition l_amts (l : str * account * ramounts) : ramounts := snd l.

Lemma tree_lines_paths n : map l_path (tree_lines n) = npaths n.
Proof.
  induction n as [s p hv a ch IH] using node_ind_size. cbn [tree_lines map]. rewrite npaths_unfold.
  unfold l_path at 1. cbn [fst snd]. f_equal. rewrite cpaths_flat_map, map_flat_map.
  apply flat_map_ext_in. intros c Hc. rewrite Forall_forall in IH. exact (IH c Hc).
Qed.

Lemma clines_paths ch : map l_path (flat_map tree_lines ch) = cpaths ch.
Proof.
  rewrite cpaths_flat_map, map_flat_map. apply flat_map_ext_in. intros c _. apply tree_lines_paths.
Qed.

Lemma tree_lines_sort alpha valued n : Permutation (tree_lines (node_sort alpha valued n)) (tree_lines n).
Proof.
  induction n as [s p hv a ch IH] using node_ind_size. cbn [node_sort tree_lines]. apply perm_skip.
  eapply Permutation_trans; [apply Permutation_flat_map, sort_by_perm|].
  induction IH as [|c ch Hc _ IHch]; cbn [map flat_map]; [constructor|].
  apply Permutation_app; assumption.
Qed.

Lemma clines_sort alpha valued n :
  Permutation (flat_map tree_lines (n_children (node_sort alpha valued n))) (flat_map tree_lines (n_children n)).
Proof.
  pose proof (tree_lines_sort alpha valued n) as H. destruct n as [s p hv a ch].
  cbn [node_sort tree_lines n_children] in *. apply Permutation_cons_inv in H. exact H.
Qed.

Section TreeSum.
  Variable g : str * account * ramounts -> Q.
  Variable F : node -> Q.
  Hypothesis F_unfold : forall s p hv a ch,
    F (Node s p hv a ch) = g (s, p, a) + fold_right (fun c acc => F c + acc) 0 ch.

  Lemma children_sum_lines ch :
    Forall (fun c => F c == qsum g (tree_lines c)) ch ->
    fold_right (fun c acc => F c + acc) 0 ch == qsum g (flat_map tree_lines ch).
  Proof.
    induction 1 as [|c ch Hc _ IH]; cbn [fold_right flat_map]; [reflexivity|]. rewrite qsum_app, Hc, IH. reflexivity.
  Qed.

  Lemma tree_sum_lines n : F n == qsum g (tree_lines n).
  Proof.
    induction n as [s p hv a ch IH] using node_ind_size. rewrite F_unfold, (children_sum_lines ch IH). reflexivity.
  Qed.
End TreeSum.

Definition seg_lt (c d : node) : Prop := str_cmp (n_seg c) (n_seg d) = Lt.
Definition seg_sorted : list node -> Prop := StronglySorted seg_lt.

Fixpoint sib_sorted (n : node) : Prop :=
  match n with
  | Node _ _ _ _ ch =>
    seg_sorted ch /\
    (fix go (l : list node) : Prop := match l with [] => True | c :: l' => sib_sorted c /\ go l' end) ch
  end.

Lemma sib_sorted_unfold s p hv a ch : sib_sorted (Node s p hv a ch) <-> seg_sorted ch /\ Forall sib_sorted ch.
Proof.
  cbn [sib_sorted]. apply and_iff_compat_l.
  induction ch as [|c ch IH]; [split; [constructor|trivial]|].
  split.
  - intros [H1 H2]. constructor; [exact H1|apply IH; exact H2].
  - intros H. inversion H as [|? ? H1 H2]; subst. split; [exact H1|apply IH; exact H2].
Qed.

Lemma children_insert_forall_seg (Q : str -> Prop) rec h path l :
  (forall c, n_seg (rec c) = n_seg c) -> Q h ->
  Forall (fun d => Q (n_seg d)) l -> Forall (fun d => Q (n_seg d)) (children_insert rec h path l).
Proof.
  intros Hseg Hh. induction 1 as [|c l Hc Hl IH]; cbn [children_insert].
  - constructor; [rewrite Hseg; exact Hh|constructor].
  - destruct (str_cmp h (n_seg c)).
    + constructor; [rewrite Hseg; exact Hc|exact Hl].
    + constructor; [rewrite Hseg; exact Hh|constructor; assumption].
    + constructor; [exact Hc|exact IH].
Qed.

Lemma children_insert_sorted rec h path l :
  (forall c, n_seg (rec c) = n_seg c) -> (forall c, sib_sorted c -> sib_sorted (rec c)) ->
  seg_sorted l -> Forall sib_sorted l ->
  seg_sorted (children_insert rec h path l) /\ Forall sib_sorted (children_insert rec h path l).
Proof.
  intros Hseg Hrec.
  assert (Hnew : sib_sorted (rec (Node h path false [] []))).
  { apply Hrec. apply sib_sorted_unfold. split; constructor. }
  induction l as [|c l IH]; intros Hs Hf; cbn [children_insert].
  - split; [repeat constructor|constructor; [exact Hnew|constructor]].
  - destruct (StronglySorted_inv Hs) as [Hl Hc]. inversion Hf as [|? ? Hfc Hfl]; subst.
    destruct (str_cmp h (n_seg c)) eqn:E.
    + split; [|constructor; [apply Hrec; exact Hfc|exact Hfl]].
      constructor; [exact Hl|]. unfold seg_lt. rewrite Hseg. exact Hc.
    + split; [|constructor; [exact Hnew|exact Hf]].
      constructor; [exact Hs|]. unfold seg_lt. rewrite Hseg. cbn [n_seg].
      constructor; [exact E|]. rewrite Forall_forall in *. intros d Hd. exact (str_cmp_lt_trans _ _ _ E (Hc d Hd)).
    + destruct (IH Hl Hfl) as [IH1 IH2]. split; [|constructor; assumption].
      constructor; [exact IH1|].
      apply (children_insert_forall_seg (fun x => str_cmp (n_seg c) x = Lt)); [exact Hseg| |exact Hc].
      rewrite str_cmp_antisym, E. reflexivity.
Qed.

Lemma node_insert_seg k v fuel prefix rest n : n_seg (node_insert fuel prefix rest k v n) = n_seg n.
Proof. destruct n as [s p hv a ch], rest, fuel; reflexivity. Qed.

Lemma node_insert_sorted k v : forall fuel prefix rest n,
  sib_sorted n -> sib_sorted (node_insert fuel prefix rest k v n).
Proof.
  induction fuel as [|fu IH]; intros prefix rest [s p hv a ch] Hs.
  - destruct rest; cbn [node_insert]; [|exact Hs]. apply sib_sorted_unfold. apply sib_sorted_unfold in Hs. exact Hs.
  - destruct rest as [|h tail]; cbn [node_insert].
    + apply sib_sorted_unfold. apply sib_sorted_unfold in Hs. exact Hs.
    + apply sib_sorted_unfold in Hs. destruct Hs as [H1 H2]. apply sib_sorted_unfold.
      apply children_insert_sorted; [intros c; apply node_insert_seg|intros c Hc; apply IH; exact Hc|exact H1|exact H2].
Qed.

Lemma prefixes_from_prefix : forall rest acc x, In x (prefixes_from acc rest) ->
  exists y suf1 suf2, x = acc ++ y :: suf1 /\ acc ++ rest = x ++ suf2.
Proof.
  induction rest as [|s t IH]; intros acc x H; cbn [prefixes_from] in H; [destruct H|].
  destruct H as [<-|H].
  - exists s, [], t. split; [reflexivity|]. rewrite <- app_assoc. reflexivity.
  - destruct (IH _ _ H) as (y & suf1 & suf2 & -> & E). rewrite <- !app_assoc in *. cbn [app] in *.
    exists s, (y :: suf1), suf2. split; [reflexivity|]. rewrite <- app_assoc. exact E.
Qed.

Lemma prefixes_from_type a x : In x (prefixes_from [] a) -> is_AL x = is_AL a.
Proof.
  destruct a as [|s t]; cbn [prefixes_from]; [intros []|].
  intros [<-|H]; [reflexivity|]. destruct (prefixes_from_prefix _ _ _ H) as (y & suf & _ & -> & _). reflexivity.
Qed.

Definition report_ok (r : report) : Prop :=
  wf_report r /\ sib_sorted (r_al r) /\ sib_sorted (r_eie r) /\
  (forall x, In x (cpaths (n_children (r_al r))) -> is_AL x = true) /\
  (forall x, In x (cpaths (n_children (r_eie r))) -> is_AL x = false) /\
  (forall row d, rcell row (d, None) r == 0).

Lemma report_ok_new : report_ok new_report.
Proof.
  split; [exact wf_new_report|]. unfold new_report, empty_root. cbn [r_al r_eie n_children].
  split; [split; [constructor|exact I]|]. split; [split; [constructor|exact I]|].
  split; [intros x []|]. split; [intros x []|]. intros row d. apply rcell_new.
Qed.

Lemma report_ok_insert r date a c v : report_ok r -> report_ok (report_insert r date a c v).
Proof.
  intros (Hwf & S1 & S2 & T1 & T2 & Hn).
  destruct (rcell_insert [] (None, None) r date a c v Hwf) as [_ Hwf'].
  split; [exact Hwf'|].
  destruct Hwf as (W1 & W2 & P1 & P2).
  assert (Hcell : forall row d, rcell row (d, None) (report_insert r date a c v) == 0).
  { intros row d. destruct (rcell_insert row (d, None) r date a c v (conj W1 (conj W2 (conj P1 P2)))) as [-> _].
    rewrite Hn. unfold delta_at, contrib, idk, rkey_eqb. cbn [fst snd ocom_eqb]. rewrite andb_false_r.
    destruct (acc_eqb a row); ring. }
  unfold report_insert in *. destruct (is_AL a) eqn:Ea; cbn [r_al r_eie] in *.
  - split; [apply node_insert_sorted; exact S1|]. split; [exact S2|]. split; [|split; [exact T2|exact Hcell]].
    intros x Hx. apply (cpaths_root_insert (date, Some c) v a (r_al r) P1 W1) in Hx.
    destruct Hx as [Hx|Hx]; [exact (T1 x Hx)|]. rewrite (prefixes_from_type _ _ Hx). exact Ea.
  - split; [exact S1|]. split; [apply node_insert_sorted; exact S2|]. split; [exact T1|]. split; [|exact Hcell].
    intros x Hx. apply (cpaths_root_insert (date, Some c) v a (r_eie r) P2 W2) in Hx.
    destruct Hx as [Hx|Hx]; [exact (T2 x Hx)|]. rewrite (prefixes_from_type _ _ Hx). exact Ea.
Qed.

(* a property of reports that report_insert preserves, for the dates D that the query passes to
   it, holds of what the query stage returns *)
Section QueryDated.
  Variable q : query.
  Variable D : option Z -> Prop.
  Variable P : report -> Prop.
  Hypothesis Pins : forall r d a c v, D d -> P r -> P (report_insert r d a c v).

  Lemma query_days_dated ds r r' ds' :
    (forall dp, In dp (days_postings ds) -> D (q_date q (fst dp))) ->
    P r -> process_days (query_proc q report_insert) r ds = ROk (r', ds') -> P r'.
  Proof.
    intros Hds HP H.
    refine (proj2 (process_days_trace _ _
              (fun done r1 => (forall dp, In dp done -> D (q_date q (fst dp))) -> P r1)
              (query_proc_posting_only q report_insert) _ ds [] r r' ds' (fun _ => HP) H) Hds).
    intros done r1 t p r2 p' HI E. unfold query_posting in E.
    assert (Hp : (forall dp, In dp (done ++ [(t_date t, p)]) -> D (q_date q (fst dp))) ->
                 P r1 /\ D (q_date q (t_date t))).
    { intros Hd. split; [apply HI; intros dp Hin; apply Hd, in_or_app; left; exact Hin|].
      apply (Hd (t_date t, p)), in_or_app. right. left. reflexivity. }
    destruct (q_where q (p_acc p) (p_com p)); [|injection E as <- <-; split; [reflexivity|intros Hd; apply Hp, Hd]].
    destruct (q_account q (p_acc p)) as [a| |]; try discriminate; injection E as <- <-; (split; [reflexivity|]);
      intros Hd; destruct (Hp Hd) as [HP1 HD]; [apply Pins; assumption|exact HP1].
  Qed.
End QueryDated.

Lemma query_days_inv q (P : report -> Prop) :
  (forall r d a c v, P r -> P (report_insert r d a c v)) ->
  forall ds r r' ds', P r -> process_days (query_proc q report_insert) r ds = ROk (r', ds') -> P r'.
Proof.
  intros Pins ds r r' ds'.
  exact (query_days_dated q (fun _ => True) P (fun r0 d a c v _ => Pins r0 d a c v) ds r r' ds' (fun _ _ => I)).
Qed.

Lemma balance_report_query cfg ds r part :
  balance_report cfg ds = COk (r, part) ->
  exists days days', process_days (query_proc (balance_query cfg part) report_insert) new_report days = ROk (r, days').
Proof.
  intros H. destruct (balance_report_stages _ _ _ _ H) as (dl & s1 & d1 & d3 & s4 & d4 & d5 & d6 & _ & _ & _ & _ & _ & _ & E6).
  exists d5, d6. exact E6.
Qed.

Lemma balance_report_parsed cfg ds r part :
  balance_report cfg ds = COk (r, part) -> exists dl, parse_directives ds = MOk dl.
Proof.
  intros H. destruct (balance_report_stages _ _ _ _ H) as (dl & s1 & d1 & d3 & s4 & d4 & d5 & d6 & Ep & _). eauto.
Qed.

Theorem balance_report_ok cfg ds r part : balance_report cfg ds = COk (r, part) -> report_ok r.
Proof.
  intros H. destruct (balance_report_query _ _ _ _ H) as (days & days' & Hq).
  exact (query_days_inv _ report_ok report_ok_insert _ _ _ _ report_ok_new Hq).
Qed.

Lemma path_cmp_refl a : path_cmp a a = Eq.
Proof. induction a as [|x a IH]; cbn [path_cmp]; [reflexivity|]. rewrite str_cmp_refl. exact IH. Qed.

Lemma path_cmp_prefix p : forall suf, suf <> [] -> path_cmp p (p ++ suf) = Lt.
Proof.
  induction p as [|x p IH]; intros suf Hne; cbn [app path_cmp].
  - destruct suf; [contradiction|reflexivity].
  - rewrite str_cmp_refl. apply IH. exact Hne.
Qed.

Lemma path_cmp_diverge p a b s1 s2 : str_cmp a b = Lt -> path_cmp (p ++ a :: s1) (p ++ b :: s2) = Lt.
Proof.
  intros H. induction p as [|x p IH]; cbn [app path_cmp]; [rewrite H; reflexivity|]. rewrite str_cmp_refl. exact IH.
Qed.

Definition plt (a b : account) : Prop := path_cmp a b = Lt.

Lemma npaths_prefix n : wf_node n -> forall x, In x (npaths n) -> exists suf, x = n_path n ++ suf.
Proof.
  induction n as [s p hv a ch IH] using node_ind_size. intros Hwf x Hx.
  apply wf_node_children in Hwf. rewrite npaths_unfold in Hx. cbn [n_path].
  destruct Hx as [<-|Hx]; [exists []; symmetry; apply app_nil_r|].
  rewrite cpaths_flat_map in Hx. apply in_flat_map in Hx. destruct Hx as (c & Hc & Hx).
  rewrite Forall_forall in IH. unfold wf_children in Hwf. rewrite Forall_forall in Hwf.
  destruct (Hwf c Hc) as [Hp Hwc]. destruct (IH c Hc Hwc x Hx) as (suf & ->).
  rewrite Hp, <- app_assoc. eexists. reflexivity.
Qed.

Lemma npaths_plt : forall n, wf_node n -> sib_sorted n -> StronglySorted plt (npaths n).
Proof.
  induction n as [s p hv a ch IH] using node_ind_size. intros Hwf Hs.
  apply sib_sorted_unfold in Hs. destruct Hs as [Hseg Hall]. pose proof Hwf as Hwf0. apply wf_node_children in Hwf. unfold wf_children in Hwf.
  rewrite npaths_unfold. constructor.
  - (* the children, one after the other *)
    clear Hwf0. rewrite Forall_forall in IH, Hwf, Hall. rewrite cpaths_flat_map.
    apply (StronglySorted_flat_map plt seg_lt); [exact Hseg| |].
    + intros c Hc. apply (IH c Hc); [apply Hwf, Hc|apply Hall, Hc].
    + intros c d x y Hc Hd Hlt Hx Hy. destruct (Hwf c Hc) as [Ec Hwc]. destruct (Hwf d Hd) as [Ed Hwd].
      destruct (npaths_prefix c Hwc x Hx) as (s1 & ->). destruct (npaths_prefix d Hwd y Hy) as (s2 & ->).
      rewrite Ec, Ed, <- !app_assoc. cbn [app]. apply path_cmp_diverge. exact Hlt.
  - rewrite Forall_forall. intros y Hy. rewrite cpaths_flat_map in Hy. apply in_flat_map in Hy. destruct Hy as (d & Hd & Hy).
    rewrite Forall_forall in Hwf. destruct (Hwf d Hd) as [Ed Hwd]. destruct (npaths_prefix d Hwd y Hy) as (s2 & ->).
    rewrite Ed, <- app_assoc. apply path_cmp_prefix. cbn [app]. discriminate.
Qed.

Lemma npaths_nodup n : wf_node n -> sib_sorted n -> NoDup (npaths n).
Proof.
  intros Hwf Hs. apply (StronglySorted_NoDup plt); [|apply npaths_plt; assumption].
  intros a H. unfold plt in H. rewrite path_cmp_refl in H. discriminate.
Qed.

Theorem rows_nodup r : report_ok r -> NoDup (rows r).
Proof.
  intros ((W1 & W2 & P1 & P2) & S1 & S2 & T1 & T2 & _). unfold rows.
  pose proof (npaths_nodup _ W1 S1) as N1. pose proof (npaths_nodup _ W2 S2) as N2.
  destruct (r_al r) as [s1 p1 hv1 a1 ch1], (r_eie r) as [s2 p2 hv2 a2 ch2].
  rewrite npaths_unfold in N1, N2. cbn [n_children] in *.
  apply NoDup_app_intro; [inversion N1; assumption|inversion N2; assumption|].
  intros x H1 H2. pose proof (T1 x H1) as E1. pose proof (T2 x H2) as E2. congruence.
Qed.

Lemma account_rows_paths rc r : Permutation (map fst (account_rows rc r)) (rows r).
Proof.
  unfold account_rows, rows, sorted_al, sorted_eie. rewrite map_map. cbn [fst].
  change (fun x : str * account * ramounts => snd (fst x)) with l_path.
  rewrite map_app. apply Permutation_app.
  - rewrite <- clines_paths. apply Permutation_map. apply clines_sort.
  - rewrite <- clines_paths. apply Permutation_map. apply clines_sort.
Qed.

Definition line_block (rc : render_cfg) (dates : list Z) (l : str * account * ramounts) : account * list (list cell) :=
  (l_path l, acct_lines rc dates (l_path l) (l_amts l)).

(* lines of a well-formed subtree: the segment is the last element of the path *)
Lemma node_blocks_lines rc dates neg_ : forall n indent,
  wf_node n -> n_path n <> [] -> n_seg n = last (n_path n) [] -> indent = name_indent (n_path n) ->
  (forall x, In x (npaths n) -> negb (is_AL x) = neg_) ->
  node_blocks rc dates indent neg_ n = map (line_block rc dates) (tree_lines n).
Proof.
  induction n as [s p hv a ch IH] using node_ind_size. intros indent Hwf Hne Hseg Hind Hty.
  cbn [n_path n_seg] in *. cbn [node_blocks tree_lines map]. f_equal.
  - unfold line_block, l_path, l_amts, acct_lines. cbn [fst snd]. f_equal.
    rewrite <- Hseg, <- Hind, (Hty p (or_introl eq_refl)). reflexivity.
  - rewrite map_flat_map. apply flat_map_ext_in. intros c Hc.
    apply wf_node_children in Hwf. unfold wf_children in Hwf. rewrite Forall_forall in Hwf, IH.
    destruct (Hwf c Hc) as [Hp Hwc].
    apply (IH c Hc); [exact Hwc| | | |].
    + rewrite Hp. intros E. apply app_eq_nil in E. destruct E; discriminate.
    + rewrite Hp. symmetry. apply last_last.
    + rewrite Hp, Hind. unfold name_indent. rewrite app_length. cbn [length]. lia.
    + intros x Hx. apply Hty. rewrite npaths_unfold. right. rewrite cpaths_flat_map. apply in_flat_map. exists c. split; assumption.
Qed.

Lemma top_blocks_lines rc dates neg_ root :
  wf_node root -> n_path root = [] ->
  (forall x, In x (cpaths (n_children root)) -> negb (is_AL x) = neg_) ->
  flat_map (node_blocks rc dates 0 neg_) (n_children root) = map (line_block rc dates) (flat_map tree_lines (n_children root)).
Proof.
  intros Hwf Hp Hty. destruct root as [s p hv a ch]. cbn [n_path n_children] in *. subst p.
  apply wf_node_children in Hwf. unfold wf_children in Hwf. rewrite Forall_forall in Hwf.
  rewrite map_flat_map. apply flat_map_ext_in. intros c Hc. destruct (Hwf c Hc) as [Hpc Hwc]. cbn [app] in Hpc.
  apply node_blocks_lines; [exact Hwc|rewrite Hpc; discriminate|rewrite Hpc; reflexivity|rewrite Hpc; reflexivity|].
  intros x Hx. apply Hty. rewrite cpaths_flat_map. apply in_flat_map. exists c. split; assumption.
Qed.

Lemma node_sort_path alpha valued n : n_path (node_sort alpha valued n) = n_path n.
Proof. destruct n; reflexivity. Qed.
Lemma node_sort_seg alpha valued n : n_seg (node_sort alpha valued n) = n_seg n.
Proof. destruct n; reflexivity. Qed.

Lemma node_sort_wf alpha valued n : wf_node n -> wf_node (node_sort alpha valued n).
Proof.
  induction n as [s p hv a ch IH] using node_ind_size. intros Hwf.
  apply wf_node_children in Hwf. cbn [node_sort]. apply wf_node_children.
  unfold wf_children in *. eapply Permutation_Forall; [symmetry; apply sort_by_perm|].
  rewrite Forall_forall in *. intros c' Hc'. apply in_map_iff in Hc'. destruct Hc' as (c & <- & Hc).
  destruct (Hwf c Hc) as [Hp Hwc]. rewrite node_sort_path, node_sort_seg. split; [exact Hp|apply IH; assumption].
Qed.

Lemma cpaths_sort_in alpha valued n x :
  In x (cpaths (n_children (node_sort alpha valued n))) <-> In x (cpaths (n_children n)).
Proof.
  rewrite <- !clines_paths. split; apply Permutation_in; apply Permutation_map;
    [apply clines_sort|symmetry; apply clines_sort].
Qed.

Lemma side_blocks rc r dates (b : bool) :
  report_ok r ->
  flat_map (node_blocks rc dates 0 (negb b)) (n_children (if b then sorted_al rc r else sorted_eie rc r)) =
  map (line_block rc dates) (flat_map tree_lines (n_children (if b then sorted_al rc r else sorted_eie rc r))).
Proof.
  intros ((W1 & W2 & P1 & P2) & _ & _ & T1 & T2 & _). apply top_blocks_lines.
  - destruct b; apply node_sort_wf; assumption.
  - unfold sorted_al, sorted_eie. destruct b; rewrite node_sort_path; assumption.
  - intros x Hx. destruct b; apply cpaths_sort_in in Hx; [rewrite (T1 x Hx)|rewrite (T2 x Hx)]; reflexivity.
Qed.

Theorem account_blocks_rows rc r dates :
  report_ok r ->
  account_blocks rc r dates = map (fun pa => (fst pa, acct_lines rc dates (fst pa) (snd pa))) (account_rows rc r).
Proof.
  intros Hok. unfold account_blocks, account_rows. rewrite map_map, map_app. cbn [fst snd].
  change (fun x : str * account * ramounts => (snd (fst x), acct_lines rc dates (snd (fst x)) (snd x))) with (line_block rc dates).
  f_equal; [exact (side_blocks rc r dates true Hok)|exact (side_blocks rc r dates false Hok)].
Qed.
