(* C16: complete_check (Spec/BeancountSpec.v) finds nothing on the model's items.
   A transaction is identified in the text by its key (date, description, accounts of its postings),
   which no stage changes (txn_sim).  The keys of the emitted transactions are, up to order, the keys
   of the journal's transactions (after accrual expansion) followed by the keys of Valuate's
   adjustments (Proofs/TranscodeAdjust.v transcode_days_val); remove_all takes the former out one by
   one (no lost-transaction); what remains are keys of adjustments -- adjustment_key accepts each
   (no spurious-transaction) -- with pairwise different (date, description): the days' dates are
   strictly ascending and the descriptions of one day are pairwise different (no
   duplicated-adjustment). *)
From Coq Require Import ZArith List Bool Lia Sorted Permutation.
From Knut Require Import Proofs.ListFacts Model.Str Model.Dec Model.Date Model.Account Model.Ledger Model.Journal
     Model.Pipeline Model.Cli Model.Beancount Model.CliTranscode
     Spec.WellformedSpec Spec.LedgerSyntax Spec.BeancountSpec Spec.BeancountErase Spec.BeancountLex Spec.BeancountAdjLex
     Proofs.StrProofs Proofs.CheckLemmas Proofs.BeancountProofs Proofs.BeancountRead
     Proofs.TranscodeAdjust Proofs.BeancountKnownShape.
Import ListNotations.
Open Scope bool_scope.
Open Scope Z_scope.

Definition txn_key (t : txn) : tkey := (t_date t, t_desc t, map (fun p => acc_name (p_acc p)) (t_postings t)).

Lemma directive_keys_txns ds : directive_keys ds = map txn_key (directive_txns ds).
Proof.
  unfold directive_keys, directive_txns. induction ds as [|d ds IH]; [reflexivity|].
  cbn [flat_map]. rewrite IH, map_app. destruct d; reflexivity.
Qed.

Lemma entry_keys_txns v es : entry_keys (erase_entries v es) = map txn_key (entry_txns es).
Proof.
  unfold entry_keys, erase_entries, entry_txns. induction es as [|e es IH]; [reflexivity|].
  cbn [map flat_map]. rewrite IH, map_app. destruct e as [d a|d a|t]; cbn [erase_entry app map]; try reflexivity.
  unfold txn_key. rewrite map_map. reflexivity.
Qed.

Lemma postings_sim_accs ps ps' : Forall2 posting_sim ps ps' ->
  map (fun p => acc_name (p_acc p)) ps' = map (fun p => acc_name (p_acc p)) ps.
Proof. induction 1 as [|x y l m (Ha & _) _ IH]; [reflexivity|]. cbn [map]. rewrite Ha, IH. reflexivity. Qed.

Lemma txn_sim_key t t' : txn_sim t t' -> txn_key t' = txn_key t.
Proof. intros (H1 & H2 & _ & H4). unfold txn_key. rewrite H1, H2, (postings_sim_accs _ _ H4). reflexivity. Qed.

Lemma txns_sim_keys l m : Forall2 txn_sim l m -> map txn_key m = map txn_key l.
Proof. induction 1 as [|x y l m Hxy _ IH]; [reflexivity|]. cbn [map]. rewrite (txn_sim_key _ _ Hxy), IH. reflexivity. Qed.

Lemma strs_eqb_eq a b : strs_eqb a b = true <-> a = b.
Proof.
  revert b. induction a as [|x a IH]; intros [|y b]; cbn [strs_eqb]; try (split; [discriminate|discriminate]); [tauto|].
  rewrite andb_true_iff, StrProofs.str_eqb_eq, IH. split; [intros [-> ->]; reflexivity|intros E; inversion E; auto].
Qed.

Lemma tkey_eqb_eq x y : tkey_eqb x y = true <-> x = y.
Proof.
  destruct x as [[d s] l], y as [[d' s'] l']. unfold tkey_eqb. cbn [fst snd].
  rewrite !andb_true_iff, Z.eqb_eq, StrProofs.str_eqb_eq, strs_eqb_eq.
  split; [intros [[-> ->] ->]; reflexivity|intros E; inversion E; auto].
Qed.

Lemma remove_one_in k l : In k l -> exists l', remove_one k l = Some l' /\ Permutation l (k :: l').
Proof.
  induction l as [|x rest IH]; intros Hin; [destruct Hin|]. cbn [remove_one].
  destruct (tkey_eqb k x) eqn:E.
  - apply tkey_eqb_eq in E. subst x. exists rest. split; [reflexivity|apply Permutation_refl].
  - assert (Hrest : In k rest).
    { destruct Hin as [->|Hin]; [|exact Hin]. assert (E' : tkey_eqb k k = true) by (apply tkey_eqb_eq; reflexivity). congruence. }
    destruct (IH Hrest) as (r & -> & Hp). exists (x :: r). split; [reflexivity|].
    eapply Permutation_trans; [apply perm_skip; exact Hp|apply perm_swap].
Qed.

Lemma remove_all_perm user : forall emitted rest, Permutation emitted (user ++ rest) ->
  exists r, remove_all user emitted = ([], r) /\ Permutation r rest.
Proof.
  induction user as [|k user IH]; intros emitted rest Hp; cbn [remove_all].
  - exists emitted. split; [reflexivity|exact Hp].
  - assert (Hin : In k emitted) by (apply (Permutation_in _ (Permutation_sym Hp)); left; reflexivity).
    destruct (remove_one_in k emitted Hin) as (e' & -> & Hp').
    apply IH. apply (Permutation_cons_inv (a := k)). eapply Permutation_trans; [symmetry; exact Hp'|exact Hp].
Qed.

Definition key_dd (k : tkey) : Z * str := (fst (fst k), snd (fst k)).

Lemma check_remainder_nil l :
  Forall (fun k => adjustment_key k = true) l -> NoDup (map key_dd l) -> check_remainder l = [].
Proof.
  induction l as [|k rest IH]; intros Ha Hn; [reflexivity|]. cbn [check_remainder].
  inversion Ha as [|? ? Hk Hrest]; subst. cbn [map] in Hn. inversion Hn as [|? ? Hnot Hn']; subst.
  rewrite Hk, (IH Hrest Hn'), app_nil_r.
  destruct (existsb (fun k' => (fst (fst k) =? fst (fst k')) && str_eqb (snd (fst k)) (snd (fst k'))) rest) eqn:E; [|reflexivity].
  exfalso. apply existsb_exists in E. destruct E as (k' & Hin & E). apply andb_true_iff in E. destruct E as [E1 E2].
  apply Z.eqb_eq in E1. apply StrProofs.str_eqb_eq in E2. apply Hnot. apply in_map_iff. exists k'. split; [|exact Hin].
  unfold key_dd. rewrite E1, E2. reflexivity.
Qed.

Lemma adjustment_key_lex dt t : adjustment_lex dt t -> adjustment_key (txn_key t) = true.
Proof.
  intros (c & a & gain & HAL & Hok & Hc & _ & Hs & Hp). unfold adjustment_key, txn_key. cbn [fst snd].
  rewrite Hs, (adjusted_account_s_adjust c a Hc), (is_al_name_acc a HAL Hok), (valuation_name_acc a Hok). cbn [andb].
  rewrite (postings_sim_accs _ _ Hp).
  destruct (pair_build_shape (valuation_account_for a) a c dec_nil gain) as (p1 & p2 & -> & _ & _ & HA).
  cbn [map]. destruct HA as [(-> & ->)|(-> & ->)]; cbn [strs_eqb]; rewrite !StrProofs.str_eqb_refl; cbn [andb orb];
    [apply orb_true_r|reflexivity].
Qed.


Definition txn_dd (t : txn) : Z * str := (t_date t, t_desc t).

Lemma nodup_dd dt ts : Forall (fun t => t_date t = dt) ts -> NoDup (map t_desc ts) -> NoDup (map txn_dd ts).
Proof.
  induction ts as [|t ts IH]; intros Hd Hn; [constructor|]. cbn [map] in *.
  inversion Hd as [|? ? Ht Hd']; subst. inversion Hn as [|? ? Hx Hn']; subst. constructor; [|apply IH; assumption].
  intros Hin. apply Hx. apply in_map_iff in Hin. destruct Hin as (t' & E & Hin). apply in_map_iff. exists t'.
  split; [|exact Hin]. unfold txn_dd in E. inversion E. reflexivity.
Qed.

Lemma val_days_adjs d3 days : Forall2 val_day_rel d3 days -> Sorted Z.lt (dates d3) ->
  exists adjs, Permutation (map txn_key (all_txns days)) (map txn_key (all_txns d3) ++ map txn_key adjs) /\
    Forall (fun t => adjustment_lex (t_date t) t /\ In (t_date t) (dates d3)) adjs /\
    NoDup (map txn_dd adjs).
Proof.
  induction 1 as [|d d' l l' Hdd _ IH]; intros Hs.
  - exists []. split; [apply Permutation_refl|]. split; constructor.
  - unfold dates in Hs. cbn [map] in Hs. pose proof (Sorted_extends Z.lt_trans Hs) as Hlt.
    inversion Hs as [|? ? Hs' _]; subst. destruct (IH Hs') as (A & P1 & P2 & P3).
    destruct Hdd as (Hdate & ts & Hsim & Hadj & Hnd).
    assert (Hdates : Forall (fun t => t_date t = d_date d) ts).
    { eapply Forall_impl; [|exact Hadj]. intros t (c & a & g & _ & _ & _ & Hd & _). exact Hd. }
    exists (ts ++ A). split; [|split].
    + rewrite !all_txns_cons, !map_app, (txns_sim_keys _ _ Hsim), map_app, P1, <- !app_assoc.
      apply Permutation_app_head. rewrite !app_assoc. apply Permutation_app_tail. apply Permutation_app_comm.
    + apply Forall_app. split.
      * rewrite Forall_forall in Hadj, Hdates |- *. intros t Ht. rewrite (Hdates t Ht).
        split; [apply Hadj; exact Ht|left; reflexivity].
      * eapply Forall_impl; [|exact P2]. intros t [H1 H2]. split; [exact H1|right; exact H2].
    + rewrite map_app. apply NoDup_app_intro; [exact (nodup_dd _ _ Hdates Hnd)|exact P3|].
      intros x Hx1 Hx2. apply in_map_iff in Hx1. destruct Hx1 as (t1 & <- & Ht1).
      apply in_map_iff in Hx2. destruct Hx2 as (t2 & E & Ht2).
      rewrite Forall_forall in Hdates, P2, Hlt. destruct (P2 t2 Ht2) as [_ Hin2].
      unfold txn_dd in E. inversion E as [[E1 E2]]. rewrite (Hdates t1 Ht1) in E1.
      specialize (Hlt _ Hin2). fold (dates l) in Hin2. lia.
Qed.

Lemma days_no_extra_keys l l' : Forall2 (day_step no_extra) l l' ->
  Permutation (map txn_key (all_txns l')) (map txn_key (all_txns l)).
Proof.
  intros H.
  destruct (days_step_complete no_extra l l' (fun dt t t' _ (F : no_extra dt t) => match F with end) H) as (U & A & P1 & P2 & P3).
  assert (EA : A = []).
  { destruct A as [|t A]; [reflexivity|]. inversion P3 as [|? ? (dt & []) _]. }
  subst A. rewrite app_nil_r in P1. rewrite <- (txns_sim_keys _ _ P2). apply Permutation_map. exact P1.
Qed.

Theorem complete_check_model l v sds dl days :
  parse_directives sds = MOk dl -> journal_adj_lex_b dl = true -> transcode_days l v sds = COk days ->
  complete_check sds (erase_entries v (transcode_entries days [])) = [].
Proof.
  intros Hp Hadj H. unfold complete_check. rewrite Hp.
  destruct (transcode_days_val l v sds dl days Hp Hadj H) as (d3 & F & R & _).
  assert (Hs3 : Sorted Z.lt (dates d3)).
  { rewrite (days_step_dates _ _ _ F). apply builder_of_sorted. }
  destruct (val_days_adjs d3 days R Hs3) as (A & P1 & P2 & P3).
  assert (Hperm : Permutation (entry_keys (erase_entries v (transcode_entries days [])))
                              (directive_keys dl ++ map txn_key A)).
  { rewrite entry_keys_txns, directive_keys_txns.
    eapply Permutation_trans; [apply Permutation_map; apply transcode_entries_perm|].
    eapply Permutation_trans; [exact P1|]. apply Permutation_app_tail.
    eapply Permutation_trans; [exact (days_no_extra_keys _ _ F)|]. apply Permutation_map. apply builder_of_txns. }
  destruct (remove_all_perm _ _ _ Hperm) as (r & -> & Hr). cbn [app].
  apply check_remainder_nil.
  - eapply Permutation_Forall; [symmetry; exact Hr|]. apply Forall_forall. intros k Hk.
    apply in_map_iff in Hk. destruct Hk as (t & <- & Ht). rewrite Forall_forall in P2.
    destruct (P2 t Ht) as [Hl _]. eapply adjustment_key_lex; exact Hl.
  - eapply Permutation_NoDup; [apply Permutation_map; symmetry; exact Hr|]. rewrite map_map. exact P3.
Qed.
