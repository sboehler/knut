(* C16: the side conditions of the verdict theorem, from the INPUT.
   [input_lex ss] (Proofs/PrintLexInput.v, the hypothesis of C09) says of the syntax-level directives
   what knut's parser guarantees: years 0..9999, account segments and commodities non-empty runs of
   letters and digits, descriptions valid UTF-8 without a double quote.  Then every model directive
   (after accrual expansion) satisfies PrintLex.mdir_lex ([parse_lex]) and its postings come in pairs
   ([parsed_dir_ok]), hence the byte-level conditions of C16 hold of the parsed journal:
   Spec/BeancountLex.v journal_lex_b (what the reader/writer round trip needs) and
   Spec/BeancountAdjLex.v journal_adj_lex_b (syntactic accounts, commodities without space). *)
From Coq Require Import ZArith List Bool Lia.
From Knut Require Import Model.Bytes Model.Utf8 Model.UnicodeTables Model.Scanner Model.Parser.
From Knut Require Import Model.Str Model.Dec Model.Date Model.Account Model.Ledger Model.Journal Model.JPrinter.
From Knut Require Import Spec.WellformedSpec Spec.LedgerSpec Spec.BeancountLex Spec.BeancountAdjLex.
From Knut Require Import Proofs.ScannerProofs Proofs.RoundTripBase Proofs.RoundTripLeaf
     Proofs.PrintProofs Proofs.PrintRequant Proofs.PrintNormal Proofs.PrintSem Proofs.PrintLex Proofs.PrintLexInput
     Proofs.BeancountRead.
Import ListNotations.
Open Scope bool_scope.
Open Scope Z_scope.

Lemma ualnum_32 : ualnum 32 = false. Proof. vm_compute. reflexivity. Qed.
Lemma ualnum_10 : ualnum 10 = false. Proof. vm_compute. reflexivity. Qed.
Lemma ualnum_34 : ualnum 34 = false. Proof. vm_compute. reflexivity. Qed.

Lemma alnum_no_byte z s : 0 <= z < 128 -> ualnum z = false -> ucls ualnum s -> no_byte z s = true.
Proof. intros Hz Hu Hc. apply no_byte_iff. exact (cls_no_ascii _ z s Hz Hu Hc). Qed.

Lemma seg_lex_bytes s : seg_lex s -> seg_lex_b s = true.
Proof.
  intros (Hc & _). unfold seg_lex_b.
  rewrite (alnum_no_byte 32 s ltac:(lia) ualnum_32 Hc), (alnum_no_byte 10 s ltac:(lia) ualnum_10 Hc),
          (alnum_no_byte 34 s ltac:(lia) ualnum_34 Hc). reflexivity.
Qed.

Lemma acc_lex_bytes a : PrintLex.acc_lex a -> acc_lex_b a = true.
Proof.
  intros (Hne & Hseg & _). unfold acc_lex_b. destruct a as [|s rest]; [congruence|].
  inversion Hseg as [|? ? Hs Hrest]; subst. apply andb_true_iff. split.
  - destruct Hs as (_ & Hs). destruct s; [congruence|reflexivity].
  - apply forallb_forall. intros x Hx. apply seg_lex_bytes. rewrite Forall_forall in Hseg. exact (Hseg x Hx).
Qed.

Lemma com_lex_bytes c : com_lex c -> com_lex_b c = true /\ no_byte 32 c = true.
Proof.
  intros (Hc & _). unfold com_lex_b. split.
  - exact (alnum_no_byte 34 c ltac:(lia) ualnum_34 Hc).
  - exact (alnum_no_byte 32 c ltac:(lia) ualnum_32 Hc).
Qed.

Lemma date_lex_bytes d : date_printable d -> date_lex_b d = true.
Proof. unfold date_printable, date_lex_b. intros [H1 H2]. apply andb_true_iff. split; apply Z.leb_le; assumption. Qed.

Lemma notquote_34 : RoundTripLeaf.notquote 34 = false. Proof. reflexivity. Qed.

Lemma desc_lex_bytes s : ucls RoundTripLeaf.notquote s -> desc_lex_b s = true.
Proof. intros H. unfold desc_lex_b. apply no_byte_iff. exact (cls_no_ascii _ 34 s ltac:(lia) notquote_34 H). Qed.

Lemma canonical_all_lex_com ps : PrintProofs.canonical ps -> Forall posting_lex (odd_postings ps) ->
  Forall (fun p => PrintLex.acc_lex (p_acc p) /\ com_lex (p_com p)) ps.
Proof.
  induction 1 as [|p1 p2 rest (H1 & _) Hr IH]; intros H; [constructor|].
  cbn [odd_postings] in H. inversion H as [|? ? (La & Lo & Lc) H']; subst.
  constructor; [cbn [p_acc p_com]; split; assumption|]. constructor; [split; assumption|now apply IH].
Qed.

Lemma txn_postings_lex t : mdir_lex (DTxn t) -> dir_ok (DTxn t) ->
  Forall (fun p => PrintLex.acc_lex (p_acc p) /\ com_lex (p_com p)) (t_postings t).
Proof.
  intros (_ & _ & _ & HF & _) Hok. exact (canonical_all_lex_com _ (dir_ok_txn_canonical t Hok) HF).
Qed.

Lemma directive_lex_bytes d : mdir_lex d -> dir_ok d -> directive_lex_b d = true.
Proof.
  destruct d as [dt c p t|dt a|dt a|dt bs|t]; intros HL Hok; cbn [directive_lex_b].
  - apply date_lex_bytes. exact (proj1 HL).
  - destruct HL as [Hd Ha]. rewrite (date_lex_bytes _ Hd), (acc_lex_bytes _ Ha). reflexivity.
  - destruct HL as [Hd Ha]. rewrite (date_lex_bytes _ Hd), (acc_lex_bytes _ Ha). reflexivity.
  - apply date_lex_bytes. exact (proj1 HL).
  - pose proof (txn_postings_lex t HL Hok) as Hps. destruct HL as (Hd & Hq & _).
    unfold txn_lex_b. rewrite (date_lex_bytes _ Hd), (desc_lex_bytes _ Hq). cbn [andb].
    apply forallb_forall. intros p Hp. rewrite Forall_forall in Hps. destruct (Hps p Hp) as [La Lc].
    unfold posting_lex_b. rewrite (acc_lex_bytes _ La), (proj1 (com_lex_bytes _ Lc)). reflexivity.
Qed.

Lemma in_flat_postings dl d p : In (d, p) (flat_postings dl) -> exists t, In (DTxn t) dl /\ In p (t_postings t).
Proof.
  unfold flat_postings. intros H. apply in_concat in H. destruct H as (l & Hl & Hin).
  apply in_map_iff in Hl. destruct Hl as (x & <- & Hx).
  destruct x as [? ? ? ?|? ?|? ?|? ?|t]; try (destruct Hin).
  apply in_map_iff in Hin. destruct Hin as (p' & E & Hp'). inversion E; subst. exists t. split; assumption.
Qed.

Theorem input_lex_journal ss dl : input_lex ss -> parse_directives ss = MOk dl ->
  journal_lex_b dl = true /\ journal_adj_lex_b dl = true.
Proof.
  intros HL Hp. pose proof (parse_lex ss dl HL Hp) as HF. pose proof (parsed_dir_ok ss dl Hp) as Hok.
  rewrite Forall_forall in HF, Hok. split.
  - unfold journal_lex_b. apply forallb_forall. intros d Hd. exact (directive_lex_bytes d (HF d Hd) (Hok d Hd)).
  - unfold journal_adj_lex_b. apply forallb_forall. intros [d p] Hin. cbn [snd].
    destruct (in_flat_postings dl d p Hin) as (t & Ht & Hpt).
    pose proof (txn_postings_lex t (HF _ Ht) (Hok _ Ht)) as Hps. rewrite Forall_forall in Hps.
    destruct (Hps p Hpt) as [La Lc]. unfold posting_adj_lex_b.
    rewrite (account_ok_lex _ La), (proj2 (com_lex_bytes _ Lc)). reflexivity.
Qed.
