(* C16: every violation beancount_check raises on the model's items has the known shape (F16/F16b).
   Proofs/BeancountVerdictOpen.v shows where the violations come from: a posting of a value adjustment
   on an account that is not an asset or liability account.  Here: check_posting classifies it.
   The description "Adjust value of C in account A" is read back by the verdict's adjusted_account
   (C up to the first space: C has no space; A the rest), A is an asset/liability name, the posting's
   account is Income:<rest of A> = valuation_name A (the first segment of A has no colon), and A has
   an open directive in force (C16_adjusted_account_open: Valuate books an adjustment only for a
   position that Check saw).  Needs Spec/BeancountAdjLex.v journal_adj_lex_b on the journal. *)
From Coq Require Import ZArith List Bool Lia Sorted Permutation.
From Knut Require Import Model.Str Model.Dec Model.Date Model.Account Model.Ledger Model.Journal
     Model.Pipeline Model.Cli Model.Beancount Model.CliTranscode
     Spec.WellformedSpec Spec.LedgerSyntax Spec.BeancountSpec Spec.BeancountErase Spec.BeancountLex Spec.BeancountAdjLex
     Proofs.StrProofs Proofs.CheckLemmas Proofs.BeancountProofs Proofs.TranscodeOpenAL Proofs.BeancountRead
     Proofs.BeancountVerdict Proofs.BeancountLexDays Proofs.BeancountVerdictOpen Proofs.TranscodeAdjust.
Import ListNotations.
Open Scope bool_scope.
Open Scope Z_scope.

Lemma drop_until_app c x s : ~ In c x -> drop_until c (x ++ s) = drop_until c s.
Proof.
  induction x as [|y x IH]; intros H; cbn [app drop_until]; [reflexivity|].
  destruct (y =? c) eqn:E; [apply Z.eqb_eq in E; exfalso; apply H; left; exact E|].
  apply IH. intros Hin. apply H. right. exact Hin.
Qed.

Lemma take_until_app c x s : ~ In c x -> take_until c (x ++ s) = x ++ take_until c s.
Proof.
  induction x as [|y x IH]; intros H; cbn [app take_until]; [reflexivity|].
  destruct (y =? c) eqn:E; [apply Z.eqb_eq in E; exfalso; apply H; left; exact E|].
  f_equal. apply IH. intros Hin. apply H. right. exact Hin.
Qed.

Lemma adjusted_account_s_adjust c a : no_byte 32 c = true -> adjusted_account (s_adjust c a) = Some (acc_name a).
Proof.
  intros Hc. apply no_byte_iff in Hc. unfold adjusted_account, s_adjust.
  change [65;100;106;117;115;116;32;118;97;108;117;101;32;111;102;32] with s_adjust_prefix.
  rewrite strip_prefix_app.
  change ([32;105;110;32;97;99;99;111;117;110;116;32] ++ acc_name a) with (32 :: (s_in_account ++ acc_name a)).
  rewrite (drop_until_app 32 c _ Hc). cbn [drop_until Z.eqb Pos.eqb]. apply strip_prefix_app.
Qed.

Lemma acc_name_cons (s : str) (rest : list str) : acc_name (s :: rest) = s ++ match rest with [] => [] | _ => colon :: acc_name rest end.
Proof. unfold acc_name. destruct rest as [|x r]; [cbn [join]; rewrite app_nil_r; reflexivity|reflexivity]. Qed.

Lemma take_until_name (s : str) (rest : list str) : ~ In colon s -> take_until 58 (acc_name (s :: rest)) = s.
Proof.
  intros H. rewrite acc_name_cons, (take_until_app 58 s _ H). destruct rest; cbn [take_until]; [|rewrite Z.eqb_refl]; apply app_nil_r.
Qed.

Lemma drop_until_name (s : str) (rest : list str) : ~ In colon s ->
  drop_until 58 (acc_name (s :: rest)) = match rest with [] => [] | _ => colon :: acc_name rest end.
Proof.
  intros H. rewrite acc_name_cons, (drop_until_app 58 s _ H). destruct rest; cbn [drop_until]; [|rewrite Z.eqb_refl]; reflexivity.
Qed.

Lemma is_AL_first a : is_AL a = true -> exists s rest, a = s :: rest /\ (str_eqb s s_Assets || str_eqb s s_Liabilities) = true.
Proof.
  unfold is_AL, acc_type. destruct a as [|s rest]; [discriminate|]. intros H. exists s, rest. split; [reflexivity|].
  unfold parse_atype in H. destruct (str_eqb s s_Assets); [reflexivity|].
  destruct (str_eqb s s_Liabilities); [reflexivity|].
  destruct (str_eqb s s_Equity); [discriminate|]. destruct (str_eqb s s_Income); [discriminate|].
  destruct (str_eqb s s_Expenses); discriminate.
Qed.

Lemma account_ok_first (s : str) (rest : list str) : account_ok (s :: rest) = true -> ~ In colon s.
Proof. intros H. apply account_ok_segs in H. destruct H as (_ & _ & H). apply H. left. reflexivity. Qed.

Lemma is_al_name_acc a : is_AL a = true -> account_ok a = true -> is_al_name (acc_name a) = true.
Proof.
  intros HAL Hok. destruct (is_AL_first a HAL) as (s & rest & -> & Hs).
  unfold is_al_name. cbv zeta. rewrite (take_until_name s rest (account_ok_first s rest Hok)). exact Hs.
Qed.

Lemma valuation_name_acc a : account_ok a = true -> valuation_name (acc_name a) = acc_name (valuation_account_for a).
Proof.
  intros Hok. destruct a as [|s rest]; [discriminate|].
  unfold valuation_name, valuation_account_for. cbn [tl].
  rewrite (drop_until_name s rest (account_ok_first s rest Hok)), acc_name_cons. reflexivity.
Qed.

Lemma mem_map_fst a (l : list (str * Z)) : mem a (map fst l) = existsb (fun x => str_eqb a (fst x)) l.
Proof. unfold mem. induction l as [|x l IH]; [reflexivity|]. cbn [map existsb]. rewrite IH. reflexivity. Qed.

(* the verdict's test for "posting of a value adjustment to the valuation account of an opened A/L account" *)
Lemma valuation_posting_adjust st c a :
  is_AL a = true -> account_ok a = true -> no_byte 32 c = true ->
  mem (acc_name a) (map fst (st_open st)) = true ->
  valuation_posting st (s_adjust c a) (acc_name (valuation_account_for a)) = true.
Proof.
  intros HAL Hok Hc Hopen. unfold valuation_posting. rewrite (adjusted_account_s_adjust c a Hc).
  rewrite (is_al_name_acc a HAL Hok), (valuation_name_acc a Hok), str_eqb_refl, <- mem_map_fst, Hopen. reflexivity.
Qed.

Lemma is_AL_valuation a : is_AL (valuation_account_for a) = false.
Proof. reflexivity. Qed.

Lemma adjustment_lex_postings dt t : adjustment_lex dt t ->
  exists c a, is_AL a = true /\ account_ok a = true /\ no_byte 32 c = true /\ t_desc t = s_adjust c a /\
    (exists q, In q (t_postings t) /\ p_acc q = a) /\
    (forall p, In p (t_postings t) -> p_acc p = a \/ p_acc p = valuation_account_for a).
Proof.
  intros (c & a & gain & HAL & Hok & Hc & _ & Hs & Hp). exists c, a.
  destruct (pair_build_shape (valuation_account_for a) a c dec_nil gain) as (p1 & p2 & E & _ & _ & HA).
  rewrite E in Hp. inversion Hp as [|x1 y1 l1 l1' S1 Hp1 E1 E2]. inversion Hp1 as [|x2 y2 l2 l2' S2 Hp2 E3 E4].
  inversion Hp2 as [E5 E6|].
  destruct S1 as (A1 & _). destruct S2 as (A2 & _).
  repeat split; try assumption.
  - destruct HA as [(_ & HA)|(HA & _)].
    + exists y2. split; [right; left; reflexivity|congruence].
    + exists y1. split; [left; reflexivity|congruence].
  - intros p [<-|[<-|[]]]; [rewrite A1|rewrite A2]; destruct HA as [(H1 & H2)|(H1 & H2)]; rewrite ?H1, ?H2; auto.
Qed.

Definition known_violation (x : violation) : Prop :=
  v_known_shape x = true /\ (v_kind x = k_unopened_val \/ v_kind x = k_closed_val).

Theorem beancount_check_known l v sds dl days :
  parse_directives sds = MOk dl -> journal_lex_b dl = true -> journal_adj_lex_b dl = true ->
  transcode_days l v sds = COk days ->
  Forall known_violation (beancount_check v (erase_entries v (transcode_entries days []))).
Proof.
  intros Hp Hj Hadj H. pose proof (journal_adj_lex_syntactic dl Hadj) as Hsyn.
  apply Forall_forall. intros x Hx.
  destruct (model_violation_origin l v sds dl days x Hp Hj H Hx) as (pre & t & post & p & Hsplit & Hp_in & Hin & Hm).
  pose proof (transcode_open_before_use l v sds days pre t post H Hsplit) as Hobu.
  pose proof (transcode_AL_open_before_use l v sds dl days pre t post Hp Hsyn H Hsplit) as Hal.
  rewrite Forall_forall in Hal. set (st := state_after (erase_entries v pre)) in *.
  (* the transaction is a value adjustment, for a good position *)
  assert (Hweak : adjustment (t_date t) t).
  { destruct Hobu as [Hadj'|Hall]; [exact Hadj'|]. rewrite Forall_forall in Hall. rewrite (Hall p Hp_in) in Hm. discriminate. }
  assert (Hgood : txn_good t).
  { apply (transcode_txn_good l v sds dl days t Hp Hadj H).
    apply (Permutation_in _ (transcode_entries_perm days [])). rewrite Hsplit, entry_txns_app. apply in_or_app. right.
    left. reflexivity. }
  destruct (adjustment_lex_postings _ _ (adjustment_strong _ _ Hweak Hgood))
    as (c & a & HAL & Hok & Hc & Hdesc & (q & Hq_in & Hq_acc) & Haccs).
  (* the posting is the one on the valuation account *)
  assert (Hpa : p_acc p = valuation_account_for a).
  { destruct (Haccs p Hp_in) as [E|E]; [|exact E]. rewrite (Hal p Hp_in) in Hm; [discriminate|rewrite E; exact HAL]. }
  (* the adjusted account is open *)
  assert (Hopen : mem (acc_name a) (map fst (st_open st)) = true).
  { rewrite <- Hq_acc. apply (Hal q Hq_in). rewrite Hq_acc. exact HAL. }
  unfold check_posting, erase_posting, account_of in Hin. cbn [fst] in Hin.
  rewrite Hpa, Hdesc, (valuation_posting_adjust st c a HAL Hok Hc Hopen) in Hin.
  destruct (mem_dated (acc_name (valuation_account_for a)) (t_date t) (st_open st)); [destruct Hin|].
  destruct Hin as [<-|[]]. unfold known_violation. cbn [v_known_shape v_kind]. split; [reflexivity|].
  destruct (mem (acc_name (valuation_account_for a)) (st_closed st)); [right|left]; reflexivity.
Qed.
