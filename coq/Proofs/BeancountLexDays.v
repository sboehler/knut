(* C16: the items `knut transcode` emits satisfy the lexical side conditions of the reader/writer
   round trip (Spec/BeancountLex.v entries_lex_b) whenever the journal's directives do
   (journal_lex_b: years 0000..9999, account segments without space, newline and double quote,
   the first one not empty, descriptions and commodities without double quote).

   In order: names of lexical accounts, the valuation account and posting pairs; the builder's
   days; Sort, ComputePrices, Check (day_step) and Valuate (with the invariant that every position
   held comes from a lexical posting: the adjustments are built from positions);
   beancount.Transcode, the emitted items. *)
From Coq Require Import ZArith List Bool Lia Permutation.
From Knut Require Import Model.Str Model.Dec Model.Date Model.Account Model.Ledger Model.Price
     Model.Journal Model.Check Model.Pipeline Model.Cli Model.Beancount Model.CliTranscode
     Spec.BeancountLex
     Proofs.StrProofs Proofs.CheckLemmas Proofs.JournalFacts Proofs.BeancountProofs Proofs.BeancountRead.
Import ListNotations.
Open Scope bool_scope.
Open Scope Z_scope.

Definition acc_lex (a : account) : Prop := acc_lex_b a = true.
Definition txn_lex (t : txn) : Prop := txn_lex_b t = true.
Definition entry_lex (e : bentry) : Prop := entry_lex_b e = true.

Definition day_lex (d : day) : Prop :=
  date_lex_b (d_date d) = true /\ Forall acc_lex (d_opens d) /\ Forall acc_lex (d_closes d) /\
  Forall txn_lex (d_txns d).

Lemma join_colon_no c (a : list str) : c <> colon -> (forall s, In s a -> ~ In c s) -> ~ In c (join [colon] a).
Proof.
  intros Hc. induction a as [|x rest IH]; intros Ha; [intros []|].
  destruct rest as [|y rest'].
  - cbn [join]. apply Ha. left. reflexivity.
  - change (join [colon] (x :: y :: rest')) with (x ++ [colon] ++ join [colon] (y :: rest')).
    rewrite !not_in_app_iff. repeat split.
    + apply Ha. left. reflexivity.
    + cbn [In]. intros [H|[]]. congruence.
    + apply IH. intros s Hs. apply Ha. right. exact Hs.
Qed.

Lemma seg_lex_spec s : seg_lex_b s = true -> ~ In 32 s /\ ~ In 10 s /\ ~ In 34 s.
Proof. unfold seg_lex_b. rewrite !andb_true_iff, !no_byte_iff. tauto. Qed.

Lemma acc_lex_name a : acc_lex a -> name_lex_b (acc_name a) = true.
Proof.
  unfold acc_lex, acc_lex_b. rewrite andb_true_iff. intros [Hne Hseg].
  rewrite forallb_forall in Hseg.
  unfold name_lex_b, acc_name. rewrite !andb_true_iff, !no_byte_iff. repeat split.
  - destruct a as [|x rest]; [discriminate|]. destruct x as [|b x]; [discriminate|].
    destruct rest; reflexivity.
  - apply join_colon_no; [discriminate|]. intros s Hs. apply (seg_lex_spec s (Hseg s Hs)).
  - apply join_colon_no; [discriminate|]. intros s Hs. apply (seg_lex_spec s (Hseg s Hs)).
  - apply join_colon_no; [discriminate|]. intros s Hs. apply (seg_lex_spec s (Hseg s Hs)).
Qed.

Lemma valuation_account_lex a : acc_lex a -> acc_lex (valuation_account_for a).
Proof.
  unfold acc_lex, acc_lex_b, valuation_account_for. rewrite andb_true_iff. intros [_ Hseg].
  destruct a as [|x rest]; cbn [tl forallb] in *; [reflexivity|].
  apply andb_true_iff in Hseg. destruct Hseg as [_ Hrest]. rewrite Hrest. reflexivity.
Qed.

Lemma pair_build_lex cr db c q x : acc_lex cr -> acc_lex db -> com_lex_b c = true ->
  forallb posting_lex_b (pair_build cr db c q x) = true.
Proof.
  unfold acc_lex. intros H1 H2 H3. unfold pair_build.
  destruct (is_neg q || is_zero q && is_neg x); cbn [forallb posting_lex_b p_acc p_com]; unfold posting_lex_b;
    cbn [p_acc p_com]; rewrite H1, H2, H3; reflexivity.
Qed.

Lemma posting_sim_lex p p' : posting_sim p p' -> posting_lex_b p = true -> posting_lex_b p' = true.
Proof. unfold posting_lex_b. intros (H1 & _ & H3 & _). rewrite H1, H3. exact (fun H => H). Qed.

Lemma postings_sim_lex ps ps' : Forall2 posting_sim ps ps' -> forallb posting_lex_b ps = true -> forallb posting_lex_b ps' = true.
Proof.
  induction 1 as [|p p' ps ps' Hp _ IH]; [reflexivity|]. cbn [forallb]. rewrite !andb_true_iff.
  intros [H1 H2]. split; [eapply posting_sim_lex; eauto|auto].
Qed.

Lemma txn_sim_lex t t' : txn_sim t t' -> txn_lex t -> txn_lex t'.
Proof.
  unfold txn_lex, txn_lex_b. intros (H1 & H2 & _ & H4). rewrite H1, H2, !andb_true_iff.
  intros [[A B] C]. repeat split; try assumption. eapply postings_sim_lex; eauto.
Qed.

Lemma upd_day_lex days dt f : date_lex_b dt = true -> Forall day_lex days ->
  (forall x, day_lex x -> day_lex (f x)) -> Forall day_lex (upd_day days dt f).
Proof.
  intros Hd H Hf. apply upd_day_Forall; [exact H|]. intros x [Hx| ->] _; apply Hf; [exact Hx|].
  repeat split; try constructor. exact Hd.
Qed.

Lemma builder_add_lex b d : directive_lex_b d = true ->
  Forall day_lex (b_days b) -> Forall day_lex (b_days (builder_add b d)).
Proof.
  intros Hd H.
  destruct d as [dt c p t|dt a|dt a|dt bs|t]; cbn [directive_lex_b builder_add b_days] in *.
  - apply upd_day_lex; [exact Hd|exact H|]. intros x Hx. exact Hx.
  - apply andb_true_iff in Hd. destruct Hd as [Hd Ha]. apply upd_day_lex; [exact Hd|exact H|].
    intros x (L1 & L2 & L3 & L4). repeat split; try assumption.
    apply Forall_app. split; [exact L2|]. repeat constructor. exact Ha.
  - apply andb_true_iff in Hd. destruct Hd as [Hd Ha]. apply upd_day_lex; [exact Hd|exact H|].
    intros x (L1 & L2 & L3 & L4). repeat split; try assumption.
    apply Forall_app. split; [exact L3|]. repeat constructor. exact Ha.
  - apply upd_day_lex; [exact Hd|exact H|]. intros x Hx. exact Hx.
  - apply upd_day_lex; [unfold txn_lex_b in Hd; rewrite !andb_true_iff in Hd; tauto|exact H|].
    intros x (L1 & L2 & L3 & L4). repeat split; try assumption.
    apply Forall_app. split; [exact L4|]. repeat constructor. exact Hd.
Qed.

Lemma builder_of_lex ds : journal_lex_b ds = true -> Forall day_lex (b_days (builder_of ds)).
Proof.
  unfold journal_lex_b. rewrite forallb_forall. intros H.
  apply (builder_of_ind (fun b => Forall day_lex (b_days b))); [constructor|].
  intros b d Hd. apply builder_add_lex. exact (H d Hd).
Qed.

Lemma day_step_lex (Q : Z -> txn -> Prop) d d' :
  (forall t, Q (d_date d) t -> txn_lex t) -> day_step Q d d' -> day_lex d -> day_lex d'.
Proof.
  intros HQ Hdd (L1 & L2 & L3 & L4). pose proof Hdd as (H1 & H2 & H3 & _).
  unfold day_lex. rewrite H1, H2, H3. repeat split; try assumption.
  exact (day_step_Forall Q txn_lex d d' txn_sim_lex HQ Hdd L4).
Qed.

Lemma days_step_no_extra_lex l l' : Forall2 (day_step no_extra) l l' -> Forall day_lex l -> Forall day_lex l'.
Proof.
  induction 1 as [|d d' l l' Hdd _ IH]; intros Hl; [constructor|].
  inversion Hl; subst. constructor; [|auto].
  eapply day_step_lex; [|exact Hdd|assumption]. intros t [].
Qed.


Definition pos_lex (m : positions) : Prop :=
  forall k a c q, In (k, (a, c, q)) m -> acc_lex a /\ com_lex_b c = true.

Lemma pos_add_lex m a c q : pos_lex m -> acc_lex a -> com_lex_b c = true -> pos_lex (pos_add m a c q).
Proof.
  intros Hm Ha Hc k a' c' q' Hin. unfold pos_add in Hin. apply sm_put_in in Hin.
  destruct Hin as [E|Hin]; [|eapply Hm; eauto]. inversion E; subst. split; assumption.
Qed.

Lemma s_adjust_lex c a : com_lex_b c = true -> acc_lex a -> desc_lex_b (s_adjust c a) = true.
Proof.
  intros Hc Ha. apply acc_lex_name in Ha. apply name_lex_spec in Ha. destruct Ha as (_ & _ & _ & H34).
  unfold com_lex_b in Hc. apply no_byte_iff in Hc.
  unfold desc_lex_b, s_adjust. apply no_byte_iff. rewrite !not_in_app_iff. repeat split; try assumption;
    cbn [In]; intros H; repeat (destruct H as [H|H]; [discriminate|]); exact H.
Qed.

Lemma val_adjustments_lex v date prev cur pos ts :
  val_adjustments v date prev cur pos = ROk ts -> date_lex_b date = true -> pos_lex pos -> Forall txn_lex ts.
Proof.
  intros H Hd Hp. eapply Forall_impl; [|exact (val_adjustments_in _ v date prev cur pos Hp ts H)].
  intros t (a & c & gain & [Ha Hc] & _ & ->).
  unfold txn_lex, txn_lex_b. cbn [t_date t_desc t_postings]. rewrite Hd, (s_adjust_lex c a Hc Ha).
  rewrite pair_build_lex; [reflexivity|apply valuation_account_lex; exact Ha|exact Ha|exact Hc].
Qed.

(* Valuate changes values only (txn_sim), so a transaction stays lexical; what has to be carried
   from posting to posting is that the positions held come from lexical postings *)
Lemma val_posting_pos v s t p s' p' : val_posting v s t p = ROk (s', p') ->
  pos_lex (v_qty s) -> posting_lex_b p = true -> pos_lex (v_qty s').
Proof.
  intros H Hs Hp. unfold val_posting in H.
  destruct (is_zero (p_qty p)); [inversion H; subst; exact Hs|].
  assert (Hs1 : pos_lex (v_qty (if is_AL (p_acc p)
                                then mkVal (v_prev s) (v_cur s) (pos_add (v_qty s) (p_acc p) (p_com p) (p_qty p)) else s))).
  { destruct (is_AL (p_acc p)); [|exact Hs]. cbn [v_qty]. unfold posting_lex_b in Hp.
    apply andb_true_iff in Hp. destruct Hp as [Ha Hc]. apply pos_add_lex; assumption. }
  destruct (str_eqb v (p_com p)); [inversion H; subst; exact Hs1|].
  destruct (v_cur s); try discriminate.
  destruct (np_valuate n (p_com p) (p_qty p)); try discriminate.
  inversion H; subst; exact Hs1.
Qed.

Lemma val_fold_postings_pos v t ps : forall s s' ps',
  fold_postings (val_posting v) t s ps = ROk (s', ps') -> pos_lex (v_qty s) -> forallb posting_lex_b ps = true ->
  pos_lex (v_qty s').
Proof.
  induction ps as [|x ps IH]; intros s s' ps' H Hs Hp.
  - inversion H; subst. exact Hs.
  - cbn [forallb] in Hp. apply andb_true_iff in Hp. destruct Hp as [Hx Hps].
    apply fold_postings_cons_ok in H. destruct H as (s1 & x' & r & E1 & E2 & _).
    exact (IH _ _ _ E2 (val_posting_pos _ _ _ _ _ _ E1 Hs Hx) Hps).
Qed.

Lemma val_fold_txns_pos v ts : forall s s' ts',
  fold_txns (valuate_proc v) s ts = ROk (s', ts') -> pos_lex (v_qty s) -> Forall txn_lex ts -> pos_lex (v_qty s').
Proof.
  induction ts as [|t ts IH]; intros s s' ts' H Hs Hts.
  - inversion H; subst. exact Hs.
  - inversion Hts as [|? ? Ht Hrest]; subst.
    destruct (fold_txns_cons (valuate_proc v) (val_posting v) _ _ _ _ _ eq_refl eq_refl H) as (s2 & ps' & r & E2 & E3 & _).
    unfold txn_lex, txn_lex_b in Ht. apply andb_true_iff in Ht. destruct Ht as [_ Hp].
    exact (IH _ _ _ E3 (val_fold_postings_pos _ _ _ _ _ _ E2 Hs Hp) Hrest).
Qed.

Lemma val_fold_asserts v l : forall s, fold_asserts (valuate_proc v) s l = ROk s.
Proof. intros s. apply fold_asserts_none. reflexivity. Qed.

Lemma val_process_day_lex v s d s' d' : process_day (valuate_proc v) s d = ROk (s', d') ->
  pos_lex (v_qty s) -> day_lex d -> pos_lex (v_qty s') /\ day_lex d'.
Proof.
  intros H Hs (L1 & L2 & L3 & L4). apply process_day_ok in H.
  destruct H as (s1 & d1 & s2 & s3 & s4 & ts & s5 & s6 & E1 & E2 & E3 & E4 & E5 & E6 & E7).
  cbn [valuate_proc pr_day_start pr_price pr_open pr_close pr_day_end] in E1, E2, E3, E6, E7.
  inversion E2; subst s2. inversion E3; subst s3. rewrite val_fold_asserts in E5. inversion E5; subst s5.
  inversion E6; subst s6. unfold val_day_end in E7. inversion E7; subst s' d'.
  unfold val_day_start in E1. apply rbind_ok in E1. destruct E1 as (adj & E0 & E1). inversion E1; subst s1 d1.
  cbn [set_txns d_txns] in E4.
  assert (Hin : Forall txn_lex (d_txns d ++ adj)).
  { apply Forall_app. split; [exact L4|exact (val_adjustments_lex _ _ _ _ _ _ E0 L1 Hs)]. }
  split; [exact (val_fold_txns_pos _ _ _ _ _ E4 Hs Hin)|].
  unfold day_lex. cbn [set_txns d_date d_opens d_closes d_txns]. repeat split; try assumption.
  refine (Forall2_Forall_r _ _ _ _ _ txn_sim_lex (fold_txns_sim (valuate_proc v) _ _ _ _ _ E4) Hin).
  intros f s0 t x s1 x' Hf Hx. cbn [valuate_proc pr_posting] in Hf. injection Hf as <-. exact (val_posting_sim _ _ _ _ _ _ Hx).
Qed.

Lemma val_process_days_lex v ds : forall s s' ds', process_days (valuate_proc v) s ds = ROk (s', ds') ->
  pos_lex (v_qty s) -> Forall day_lex ds -> Forall day_lex ds'.
Proof.
  induction ds as [|d ds IH]; intros s s' ds' H Hs Hds.
  - inversion H; subst. constructor.
  - inversion Hds as [|? ? Hd Hrest]; subst.
    apply process_days_cons_ok in H. destruct H as (s1 & d1 & r & E1 & E2 & ->).
    destruct (val_process_day_lex _ _ _ _ _ E1 Hs Hd) as [Hs1 Hd1].
    constructor; [exact Hd1|]. eapply IH; eauto.
Qed.

Lemma transcode_days_day_lex l v sds dl days :
  parse_directives sds = MOk dl -> journal_lex_b dl = true -> transcode_days l v sds = COk days ->
  Forall day_lex days.
Proof.
  intros Hp Hj H. destruct (transcode_days_before_valuate _ _ _ _ H) as (ds & d3 & s4 & E0 & F & E4).
  rewrite Hp in E0. injection E0 as <-.
  eapply val_process_days_lex; [exact E4|intros k a c q []|].
  eapply days_step_no_extra_lex; [exact F|]. apply builder_of_lex. exact Hj.
Qed.

Lemma txn_entry_lex t : txn_lex t -> entry_lex (BTxn t).
Proof.
  unfold txn_lex, txn_lex_b, entry_lex, entry_lex_b. rewrite !andb_true_iff. intros [[Hd Hs] Hp].
  repeat split; try assumption. rewrite forallb_forall in *. intros p Hin.
  specialize (Hp p Hin). unfold posting_lex_b in Hp. apply andb_true_iff in Hp. apply acc_lex_name. apply Hp.
Qed.

Lemma open_entry_lex d a : date_lex_b d = true -> acc_lex a -> entry_lex (BOpen d a).
Proof. intros Hd Ha. unfold entry_lex, entry_lex_b. rewrite Hd, (acc_lex_name a Ha). reflexivity. Qed.

Lemma close_entry_lex d a : date_lex_b d = true -> acc_lex a -> entry_lex (BClose d a).
Proof. intros Hd Ha. unfold entry_lex, entry_lex_b. rewrite Hd, (acc_lex_name a Ha). reflexivity. Qed.

Lemma posting_acc_lex p : posting_lex_b p = true -> acc_lex (p_acc p).
Proof. unfold posting_lex_b. rewrite andb_true_iff. intros [H _]. exact H. Qed.

Lemma transcode_day_lex d seen : day_lex d -> Forall entry_lex (fst (transcode_day d seen)).
Proof.
  intros (L1 & L2 & L3 & L4). rewrite Forall_forall in L2, L3, L4. apply Forall_forall. intros e He.
  destruct (transcode_day_in d seen e He) as [(a & Ha & ->)|[(t & p & Ht & Hp & ->)|[(t & Ht & ->)|(a & Ha & ->)]]].
  - apply open_entry_lex; auto.
  - specialize (L4 t Ht). unfold txn_lex, txn_lex_b in L4. rewrite !andb_true_iff, forallb_forall in L4.
    destruct L4 as [[Hd _] Hps]. apply open_entry_lex; [exact Hd|]. apply posting_acc_lex. exact (Hps p Hp).
  - apply txn_entry_lex. auto.
  - apply close_entry_lex; auto.
Qed.

Lemma transcode_entries_lex days : Forall day_lex days -> forall seen, Forall entry_lex (transcode_entries days seen).
Proof.
  intros H seen. rewrite Forall_forall in H. apply Forall_forall. intros e He.
  destruct (transcode_entries_in days seen e He) as (d & seen' & Hd & He').
  pose proof (transcode_day_lex d seen' (H d Hd)) as H1. rewrite Forall_forall in H1. exact (H1 e He').
Qed.

Theorem transcode_days_entries_lex l v sds dl days :
  parse_directives sds = MOk dl -> journal_lex_b dl = true -> transcode_days l v sds = COk days ->
  entries_lex_b (transcode_entries days []) = true.
Proof.
  intros Hp Hj H. unfold entries_lex_b. apply forallb_forall. apply Forall_forall.
  apply transcode_entries_lex. eapply transcode_days_day_lex; eauto.
Qed.
