(* C16: the verdict of the check on the text the model writes.
   Assembles Proofs/BeancountVerdict.v (the verdict on the model's text is the verdict of the three
   clauses on the erased items), Proofs/TranscodeMtmSum.v (mtm_check finds nothing),
   Proofs/BeancountKnownShape.v (every violation of beancount_check has the known shape F16/F16b),
   Proofs/BeancountComplete.v (complete_check finds nothing) and Proofs/BeancountInputLex.v (the side
   conditions hold of every journal the parser can produce). *)
From Coq Require Import ZArith List Bool Lia.
From Knut Require Import Model.Str Model.Dec Model.Date Model.Account Model.Ledger Model.Journal
     Model.Cli Model.Beancount Model.CliTranscode
     Spec.WellformedSpec Spec.LedgerSyntax Spec.BeancountSpec Spec.BeancountErase Spec.BeancountMtmSpec
     Spec.BeancountLex Spec.BeancountAdjLex
     Proofs.BeancountProofs Proofs.BeancountRead Proofs.BeancountVerdict Proofs.BeancountLexDays
     Proofs.TranscodeMtmSum Proofs.TranscodeAdjust Proofs.BeancountKnownShape Proofs.BeancountComplete
     Proofs.RoundTripBase Proofs.PrintLex Proofs.PrintLexInput Proofs.BeancountInputLex.
Import ListNotations.
Open Scope bool_scope.
Open Scope Z_scope.

Theorem model_violations_known l v sds dl days :
  parse_directives sds = MOk dl -> journal_lex_b dl = true -> journal_adj_lex_b dl = true ->
  transcode_days l v sds = COk days ->
  let es := erase_entries v (transcode_entries days []) in
  Forall known_violation (beancount_check v es ++ complete_check sds es ++ mtm_check dl v es).
Proof.
  intros Hp Hj Hadj H es.
  pose proof (transcode_mtm_check l v sds dl days Hp (journal_adj_lex_syntactic dl Hadj) H) as Hm. fold es in Hm.
  pose proof (complete_check_model l v sds dl days Hp Hadj H) as Hc. fold es in Hc.
  rewrite Hm, Hc. cbn [app]. rewrite app_nil_r. exact (beancount_check_known l v sds dl days Hp Hj Hadj H).
Qed.

Definition known_verdict (s : str) : Prop :=
  s = s_ok \/ exists x, known_violation x /\ s = render_violation x.

Lemma verdict_of_known vs : Forall known_violation vs -> known_verdict (verdict_of vs).
Proof.
  intros H. unfold verdict_of.
  assert (E : filter (fun x => negb (v_known_shape x)) vs = []).
  { induction H as [|x vs (Hx & _) _ IH]; [reflexivity|]. cbn [filter]. rewrite Hx. exact IH. }
  rewrite E. destruct H as [|x vs Hx _]; [left; reflexivity|right]. exists x. split; [exact Hx|reflexivity].
Qed.

Theorem model_verdict_parsed l v sds dl days :
  parse_directives sds = MOk dl -> journal_lex_b dl = true -> journal_adj_lex_b dl = true ->
  commodity_lex_b v = true -> transcode_days l v sds = COk days ->
  known_verdict (c16_verdict_mtm sds v (transcode days v)).
Proof.
  intros Hp Hj Hadj Hv H.
  rewrite (verdict_on_model_text sds v days Hv (transcode_days_entries_lex l v sds dl days Hp Hj H)).
  unfold c16_violations. rewrite Hp. apply verdict_of_known.
  exact (model_violations_known l v sds dl days Hp Hj Hadj H).
Qed.

Lemma transcode_days_parsed l v sds days : transcode_days l v sds = COk days -> exists dl, parse_directives sds = MOk dl.
Proof. intros H. destruct (transcode_days_step _ _ _ _ H) as (dl & E & _). exists dl. exact E. Qed.

Theorem model_verdict l v sds days :
  input_lex sds -> commodity_lex_b v = true -> transcode_days l v sds = COk days ->
  known_verdict (c16_verdict_mtm sds v (transcode days v)).
Proof.
  intros HL Hv H. destruct (transcode_days_parsed l v sds days H) as (dl & Hp).
  destruct (input_lex_journal sds dl HL Hp) as [Hj Hadj].
  exact (model_verdict_parsed l v sds dl days Hp Hj Hadj Hv H).
Qed.

(* a valuation commodity of the parser's shape (a non-empty run of letters and digits) can be written
   and read back *)
Lemma com_lex_commodity v : com_lex v -> commodity_lex_b v = true.
Proof.
  intros (Hc & Hne). unfold commodity_lex_b.
  rewrite (alnum_no_byte 10 v ltac:(lia) ualnum_10 Hc), (alnum_no_byte 34 v ltac:(lia) ualnum_34 Hc). cbn [andb].
  inversion Hc as [|c b x Hch Hp Hx E]; [congruence|].
  destruct (chunk_shape c b Hch) as (b0 & bt & -> & Hcont & _).
  cbn [app strip_non_alphanum]. destruct (is_ascii_letter b0); [reflexivity|].
  replace (is_continuation b0) with false by (symmetry; exact Hcont). reflexivity.
Qed.

(* the command: `knut transcode -v V FILE` on a journal and a commodity of the parser's shape *)
Theorem model_verdict_cmd l v sds text :
  input_lex sds -> com_lex v -> transcode_cmd l (Some v) sds = COk text ->
  known_verdict (c16_verdict_mtm sds v text).
Proof.
  intros HL Hv H. pose proof (com_lex_commodity v Hv) as Hvl.
  destruct v as [|c v]; [destruct Hv as (_ & Hv); congruence|].
  destruct (transcode_cmd_text l c v sds text H) as (days & E & ->).
  exact (model_verdict l (c :: v) sds days HL Hvl E).
Qed.
