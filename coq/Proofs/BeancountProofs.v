(* Proofs for C16: what beancount.Transcode emits, in terms of the days the pipeline hands to it.
   In order: the emitted transactions are exactly the days' transactions (sorted per day), and a
   transaction made of posting pairs sums to zero under exact decimal addition; how a pipeline
   stage relates the days it reads to the days it writes (dates, opens and closes untouched;
   transactions rewritten posting by posting, permuted, extended); the builder keeps the days
   strictly ascending and loses no transaction; the four stages of `knut transcode`; chronological
   order of the emitted entries; the checker's open-set invariant carried to the emitted entries. *)
From Coq Require Import ZArith List Bool Lia Permutation Sorted.
From Knut Require Import Proofs.ListFacts Model.Str Model.Dec Model.Date Model.Account Model.Ledger Model.Price
     Model.Journal Model.Check Model.Pipeline Model.Cli Model.Beancount Model.CliTranscode
     Proofs.DecProofs Proofs.StrProofs Proofs.PairProofs Proofs.StageRun Spec.BeancountSpec Spec.BeancountErase.
Import ListNotations.
Open Scope bool_scope.
Open Scope Z_scope.

Definition entry_txns (es : list bentry) : list txn :=
  flat_map (fun e => match e with BTxn t => [t] | _ => [] end) es.

Definition is_bopen (e : bentry) : Prop := match e with BOpen _ _ => True | _ => False end.

Lemma entry_txns_app a b : entry_txns (a ++ b) = entry_txns a ++ entry_txns b.
Proof. unfold entry_txns. apply flat_map_app. Qed.

Lemma entry_txns_opens es : Forall is_bopen es -> entry_txns es = [].
Proof.
  induction 1 as [|e es He _ IH]; [reflexivity|]. destruct e; try contradiction. exact IH.
Qed.

Lemma entry_txns_map_open d l : entry_txns (map (BOpen d) l) = [].
Proof. induction l; [reflexivity|assumption]. Qed.

Lemma entry_txns_map_close d l : entry_txns (map (BClose d) l) = [].
Proof. induction l; [reflexivity|assumption]. Qed.

Lemma entry_txns_map_txn l : entry_txns (map BTxn l) = l.
Proof. induction l as [|t l IH]; [reflexivity|]. cbn. f_equal. exact IH. Qed.

Lemma val_opens_postings_in date ps : forall seen e, In e (fst (val_opens_postings date ps seen)) ->
  exists p, In p ps /\ e = BOpen date (p_acc p).
Proof.
  induction ps as [|p ps IH]; intros seen e; cbn [val_opens_postings]; [intros []|].
  destruct (is_prefix s_equity_valuation (acc_name (p_acc p)) && negb (existsb (acc_eqb (p_acc p)) seen)).
  - specialize (IH (p_acc p :: seen) e). destruct (val_opens_postings date ps (p_acc p :: seen)) as [es s'].
    cbn [fst In] in *. intros [<-|H]; [exists p; split; [left|]; reflexivity|].
    destruct (IH H) as (q & Hq & ->). exists q. split; [right; exact Hq|reflexivity].
  - intros H. destruct (IH seen e H) as (q & Hq & ->). exists q. split; [right; exact Hq|reflexivity].
Qed.

Lemma val_opens_txns_in ts : forall seen e, In e (fst (val_opens_txns ts seen)) ->
  exists t p, In t ts /\ In p (t_postings t) /\ e = BOpen (t_date t) (p_acc p).
Proof.
  induction ts as [|t ts IH]; intros seen e; cbn [val_opens_txns]; [intros []|].
  pose proof (val_opens_postings_in (t_date t) (t_postings t) seen e) as H1.
  destruct (val_opens_postings (t_date t) (t_postings t) seen) as [e1 s1].
  specialize (IH s1 e). destruct (val_opens_txns ts s1) as [e2 s2]. cbn [fst] in *.
  intros H. apply in_app_or in H. destruct H as [H|H].
  - destruct (H1 H) as (p & Hp & ->). exists t, p. repeat split; [left; reflexivity|exact Hp].
  - destruct (IH H) as (t' & p & Ht & Hp & ->). exists t', p. repeat split; [right; exact Ht|exact Hp].
Qed.

Lemma val_opens_txns_opens ts seen : Forall is_bopen (fst (val_opens_txns ts seen)).
Proof. apply Forall_forall. intros e He. destruct (val_opens_txns_in _ _ _ He) as (t & p & _ & _ & ->). exact I. Qed.

Lemma transcode_day_in d seen e : In e (fst (transcode_day d seen)) ->
  (exists a, In a (d_opens d) /\ e = BOpen (d_date d) a) \/
  (exists t p, In t (d_txns d) /\ In p (t_postings t) /\ e = BOpen (t_date t) (p_acc p)) \/
  (exists t, In t (d_txns d) /\ e = BTxn t) \/
  (exists a, In a (d_closes d) /\ e = BClose (d_date d) a).
Proof.
  unfold transcode_day.
  pose proof (val_opens_txns_in (sort_by txn_ltb (d_txns d)) seen e) as Hv.
  destruct (val_opens_txns (sort_by txn_ltb (d_txns d)) seen) as [vo s']. cbn [fst] in *.
  assert (Hs : forall t, In t (sort_by txn_ltb (d_txns d)) -> In t (d_txns d))
    by (intros t; apply Permutation_in, sort_by_perm).
  rewrite !in_app_iff, !in_map_iff. intros [(a & <- & Ha)|[H|[(t & <- & Ht)|(a & <- & Ha)]]].
  - left. exists a. auto.
  - right. left. destruct (Hv H) as (t & p & Ht & Hp & ->). exists t, p. auto.
  - right. right. left. exists t. auto.
  - right. right. right. exists a. auto.
Qed.

Lemma transcode_entries_in days : forall seen e, In e (transcode_entries days seen) ->
  exists d seen', In d days /\ In e (fst (transcode_day d seen')).
Proof.
  induction days as [|d days IH]; intros seen e; cbn [transcode_entries]; [intros []|].
  destruct (transcode_day d seen) as [es s'] eqn:E. intros H. apply in_app_or in H. destruct H as [H|H].
  - exists d, seen. rewrite E. split; [left; reflexivity|exact H].
  - destruct (IH s' e H) as (d' & seen' & Hd & He). exists d', seen'. split; [right; exact Hd|exact He].
Qed.

Lemma transcode_day_txns d seen : entry_txns (fst (transcode_day d seen)) = sort_by txn_ltb (d_txns d).
Proof.
  unfold transcode_day.
  pose proof (val_opens_txns_opens (sort_by txn_ltb (d_txns d)) seen) as H.
  destruct (val_opens_txns (sort_by txn_ltb (d_txns d)) seen) as [vo s']. cbn [fst] in *.
  rewrite !entry_txns_app, entry_txns_map_open, (entry_txns_opens vo H), entry_txns_map_txn, entry_txns_map_close.
  cbn [app]. apply app_nil_r.
Qed.

Lemma transcode_entries_txns days seen :
  entry_txns (transcode_entries days seen) = concat (map (fun d => sort_by txn_ltb (d_txns d)) days).
Proof.
  revert seen. induction days as [|d days IH]; intros seen; cbn [transcode_entries map concat]; [reflexivity|].
  pose proof (transcode_day_txns d seen) as H.
  destruct (transcode_day d seen) as [es s']. cbn [fst] in H.
  rewrite entry_txns_app, H, IH. reflexivity.
Qed.

Definition all_txns (days : list day) : list txn := concat (map d_txns days).

(* nothing lost, nothing duplicated by Transcode itself *)
Lemma transcode_entries_perm days seen : Permutation (entry_txns (transcode_entries days seen)) (all_txns days).
Proof.
  rewrite transcode_entries_txns. unfold all_txns.
  induction days as [|d days IH]; cbn [map concat]; [constructor|].
  apply Permutation_app; [apply sort_by_perm|exact IH].
Qed.

Lemma in_all_txns t days : In t (all_txns days) -> exists d, In d days /\ In t (d_txns d).
Proof.
  unfold all_txns. intros H. apply in_concat in H. destruct H as (l & Hl & Ht).
  apply in_map_iff in Hl. destruct Hl as (d & <- & Hd). eauto.
Qed.


Lemma is_zero_add_r a b : is_zero b = true -> is_zero (add a b) = is_zero a.
Proof. intros H. rewrite add_comm. apply is_zero_add_l. exact H. Qed.

Lemma paired_sum_zero ps : paired ps ->
  forall a, is_zero (fold_left (fun acc p => add acc (p_val p)) ps a) = is_zero a.
Proof.
  induction 1 as [|p p' rest Hpp _ IH]; intros a; cbn [fold_left]; [reflexivity|].
  rewrite IH. destruct Hpp as (_ & _ & Hv). rewrite Hv, add_assoc.
  apply is_zero_add_r. rewrite add_comm. apply add_neg_zero.
Qed.

Lemma sum_amounts_erase v ps a :
  fold_left (fun acc x => add acc (amount_of x)) (map (erase_posting v) ps) a
  = fold_left (fun acc p => add acc (p_val p)) ps a.
Proof. revert a. induction ps as [|p ps IH]; intros a; cbn [map fold_left]; [reflexivity|apply IH]. Qed.

Lemma txn_ok_balanced v t : txn_ok t -> txn_balanced_b (map (erase_posting v) (t_postings t)) = true.
Proof.
  intros H. unfold txn_balanced_b, sum_amounts. rewrite sum_amounts_erase, (paired_sum_zero _ H). reflexivity.
Qed.

Lemma entries_balanced v days seen :
  Forall day_ok days -> Forall entry_balanced (erase_entries v (transcode_entries days seen)).
Proof.
  intros Hd. unfold erase_entries. apply Forall_forall. intros e He.
  apply in_map_iff in He. destruct He as (b & <- & Hb).
  destruct b as [dt a|dt a|t]; cbn [erase_entry entry_balanced]; try exact I.
  apply txn_ok_balanced.
  assert (Ht : In t (entry_txns (transcode_entries days seen))).
  { unfold entry_txns. apply in_flat_map. exists (BTxn t). split; [exact Hb|left; reflexivity]. }
  apply (Permutation_in _ (transcode_entries_perm days seen)) in Ht.
  apply in_all_txns in Ht. destruct Ht as (d & Hd1 & Hd2).
  rewrite Forall_forall in Hd. specialize (Hd d Hd1). unfold day_ok in Hd. rewrite Forall_forall in Hd. auto.
Qed.

(* a posting callback may rewrite the value only *)
Definition posting_sim (p p' : posting) : Prop :=
  p_acc p' = p_acc p /\ p_other p' = p_other p /\ p_com p' = p_com p /\ p_qty p' = p_qty p.

Definition txn_sim (t t' : txn) : Prop :=
  t_date t' = t_date t /\ t_desc t' = t_desc t /\ t_targets t' = t_targets t /\
  Forall2 posting_sim (t_postings t) (t_postings t').

Lemma posting_sim_refl p : posting_sim p p.
Proof. repeat split. Qed.

Lemma posting_sim_trans a b c : posting_sim a b -> posting_sim b c -> posting_sim a c.
Proof. unfold posting_sim. intros (H1 & H2 & H3 & H4) (H5 & H6 & H7 & H8). repeat split; congruence. Qed.

Lemma Forall2_trans {A} (R : A -> A -> Prop) : (forall x y z, R x y -> R y z -> R x z) ->
  forall l1 l2 l3, Forall2 R l1 l2 -> Forall2 R l2 l3 -> Forall2 R l1 l3.
Proof.
  intros Ht l1 l2 l3 H12. revert l3. induction H12 as [|x y l1 l2 Hxy _ IH]; intros l3 H23; inversion H23; subst; constructor; eauto.
Qed.

Lemma txn_sim_refl t : txn_sim t t.
Proof. repeat split. apply Forall2_refl. exact posting_sim_refl. Qed.

Lemma txn_sim_trans a b c : txn_sim a b -> txn_sim b c -> txn_sim a c.
Proof.
  unfold txn_sim. intros (H1 & H2 & H3 & H4) (H5 & H6 & H7 & H8). repeat split; try congruence.
  eapply Forall2_trans; [exact posting_sim_trans|exact H4|exact H8].
Qed.

(* what a stage does to a day: date, opens, closes are kept; the transactions are those of the
   input day plus [extra] ones (each satisfying Q at the day's date), rewritten posting by
   posting, in some order *)
Definition day_step (Q : Z -> txn -> Prop) (d d' : day) : Prop :=
  d_date d' = d_date d /\ d_opens d' = d_opens d /\ d_closes d' = d_closes d /\
  exists extra mid, Forall (Q (d_date d)) extra /\ Forall2 txn_sim (d_txns d ++ extra) mid /\
                    Permutation mid (d_txns d').

Lemma day_step_mono (Q Q' : Z -> txn -> Prop) d d' :
  (forall dt t, Q dt t -> Q' dt t) -> day_step Q d d' -> day_step Q' d d'.
Proof.
  intros HQ (H1 & H2 & H3 & extra & mid & He & Hs & Hp). repeat split; try assumption.
  exists extra, mid. repeat split; try assumption. eapply Forall_impl; [|exact He]. intros; apply HQ; assumption.
Qed.

Lemma day_step_trans (Q : Z -> txn -> Prop) a b c :
  day_step Q a b -> day_step Q b c -> day_step Q a c.
Proof.
  intros (A1 & A2 & A3 & e1 & m1 & He1 & Hs1 & Hp1) (B1 & B2 & B3 & e2 & m2 & He2 & Hs2 & Hp2).
  repeat split; try congruence.
  (* b's transactions are a permutation of m1: move the second simulation along it *)
  assert (Hp : Permutation (d_txns b ++ e2) (m1 ++ e2)) by (apply Permutation_app_tail; symmetry; exact Hp1).
  destruct (Permutation_Forall2 Hp Hs2) as (m2' & Hp2' & Hs2').
  apply Forall2_app_inv_l in Hs2'. destruct Hs2' as (u & w & Hu & Hw & ->).
  exists (e1 ++ e2), (u ++ w). repeat split.
  - apply Forall_app. split; [exact He1|]. rewrite <- A1. exact He2.
  - rewrite app_assoc. apply Forall2_app; [|exact Hw].
    eapply Forall2_trans; [exact txn_sim_trans|exact Hs1|exact Hu].
  - rewrite <- Hp2'. exact Hp2.
Qed.

Lemma days_step_trans (Q : Z -> txn -> Prop) l1 l2 : Forall2 (day_step Q) l1 l2 ->
  forall l3, Forall2 (day_step Q) l2 l3 -> Forall2 (day_step Q) l1 l3.
Proof.
  induction 1 as [|a b l1 l2 Hab _ IH]; intros l3 H23; inversion H23; subst; constructor.
  - eapply day_step_trans; eauto.
  - apply IH. assumption.
Qed.

Section StageRel.
  Context {S : Type} (p : processor S) (Q : Z -> txn -> Prop).
  Hypothesis day_start_rel : forall f s d s' d', pr_day_start p = Some f -> f s d = ROk (s', d') ->
      d_date d' = d_date d /\ d_opens d' = d_opens d /\ d_closes d' = d_closes d /\
      exists extra, d_txns d' = d_txns d ++ extra /\ Forall (Q (d_date d)) extra.
  Hypothesis day_end_rel : forall f s d s' d', pr_day_end p = Some f -> f s d = ROk (s', d') ->
      d_date d' = d_date d /\ d_opens d' = d_opens d /\ d_closes d' = d_closes d /\
      Permutation (d_txns d) (d_txns d').
  Hypothesis posting_rel : forall f s t x s' x', pr_posting p = Some f -> f s t x = ROk (s', x') -> posting_sim x x'.

  Lemma fold_postings_sim f t : pr_posting p = Some f ->
    forall ps s s' ps', fold_postings f t s ps = ROk (s', ps') -> Forall2 posting_sim ps ps'.
  Proof.
    intros Hf ps s s' ps' H. rewrite fold_postings_fold_map in H.
    exact (fold_map_rel _ posting_sim ps (fun s x s' x' _ E => posting_rel f s t x s' x' Hf E) _ _ _ H).
  Qed.

  Lemma fold_txns_sim ts : forall s s' ts', fold_txns p s ts = ROk (s', ts') -> Forall2 txn_sim ts ts'.
  Proof.
    intros s s' ts' H. rewrite fold_txns_fold_map in H. refine (fold_map_rel _ txn_sim ts _ _ _ _ H).
    intros s0 t s1 t' _ E. apply process_txn_ok in E. destruct E as (s2 & _ & E).
    destruct (opt_dec (pr_posting p)) as [[f Ef]|Ef]; rewrite Ef in E.
    - destruct E as (ps & E & ->). repeat split. exact (fold_postings_sim f t Ef _ _ _ _ E).
    - destruct E as [_ ->]. apply txn_sim_refl.
  Qed.

  Lemma process_day_step s d s' d' : process_day p s d = ROk (s', d') -> day_step Q d d'.
  Proof.
    intros H. apply process_day_ok in H. destruct H as (s1 & d1 & s2 & s3 & s4 & ts' & s5 & s6 & E1 & _ & _ & E4 & _ & _ & E7).
    assert (H1 : d_date d1 = d_date d /\ d_opens d1 = d_opens d /\ d_closes d1 = d_closes d /\
                 exists extra, d_txns d1 = d_txns d ++ extra /\ Forall (Q (d_date d)) extra).
    { destruct (opt_dec (pr_day_start p)) as [[f Ef]|Ef]; rewrite Ef in E1; [exact (day_start_rel _ _ _ _ _ Ef E1)|].
      injection E1 as _ <-. repeat split. exists []. rewrite app_nil_r. split; [reflexivity|constructor]. }
    destruct H1 as (D1 & D2 & D3 & extra & D4 & D5).
    assert (H2 : d_date d' = d_date d1 /\ d_opens d' = d_opens d1 /\ d_closes d' = d_closes d1 /\
                 Permutation ts' (d_txns d')).
    { destruct (opt_dec (pr_day_end p)) as [[f Ef]|Ef]; rewrite Ef in E7; [exact (day_end_rel _ _ _ _ _ Ef E7)|].
      injection E7 as _ <-. repeat split. apply Permutation_refl. }
    destruct H2 as (F1 & F2 & F3 & F4).
    repeat split; try congruence.
    exists extra, ts'. repeat split; [exact D5| |exact F4]. rewrite <- D4. exact (fold_txns_sim _ _ _ _ E4).
  Qed.

  Lemma process_days_step ds : forall s s' ds', process_days p s ds = ROk (s', ds') -> Forall2 (day_step Q) ds ds'.
  Proof.
    intros s s' ds' H. rewrite process_days_fold_map in H.
    exact (fold_map_rel _ (day_step Q) ds (fun s d s' d' _ E => process_day_step s d s' d' E) _ _ _ H).
  Qed.
End StageRel.

Definition dates (days : list day) : list Z := map d_date days.

Lemma upd_day_sorted days d f :
  (forall x, d_date (f x) = d_date x) ->
  Sorted Z.lt (dates days) ->
  Sorted Z.lt (dates (upd_day days d f)) /\
  (forall lo, HdRel Z.lt lo (dates days) -> lo < d -> HdRel Z.lt lo (dates (upd_day days d f))).
Proof.
  intros Hf. induction days as [|x rest IH]; intros Hs; cbn [upd_day].
  - unfold dates. cbn [map]. rewrite Hf. cbn [empty_day d_date].
    split; [repeat constructor|intros; constructor; assumption].
  - inversion Hs as [|? ? Hs' Hhd]; subst.
    destruct (d =? d_date x) eqn:E1.
    + unfold dates in *. cbn [map]. rewrite Hf.
      split; [constructor; assumption|intros lo Hlo _; inversion Hlo; constructor; assumption].
    + apply Z.eqb_neq in E1. destruct (d <? d_date x) eqn:E2.
      * apply Z.ltb_lt in E2. unfold dates in *. cbn [map]. rewrite Hf. cbn [empty_day d_date]. split.
        -- constructor; [exact Hs|constructor; exact E2].
        -- intros; constructor; assumption.
      * apply Z.ltb_ge in E2. destruct (IH Hs') as [I1 I2]. unfold dates in *. cbn [map]. split.
        -- constructor; [exact I1|apply I2; [exact Hhd|lia]].
        -- intros lo Hlo _. inversion Hlo; constructor; assumption.
Qed.

Lemma builder_of_ind (P : builder -> Prop) ds :
  P new_builder -> (forall b d, In d ds -> P b -> P (builder_add b d)) -> P (builder_of ds).
Proof.
  unfold builder_of. generalize new_builder. induction ds as [|d ds IH]; intros b Hb Hstep; cbn [fold_left]; [exact Hb|].
  apply IH; [apply Hstep; [left; reflexivity|exact Hb]|]. intros b' d' Hd'. apply Hstep. right. exact Hd'.
Qed.

Lemma builder_add_sorted b d : Sorted Z.lt (dates (b_days b)) -> Sorted Z.lt (dates (b_days (builder_add b d))).
Proof.
  intros H. destruct d; cbn [builder_add b_days]; apply upd_day_sorted; try exact H; intros x; reflexivity.
Qed.

Lemma builder_of_sorted ds : Sorted Z.lt (dates (b_days (builder_of ds))).
Proof.
  apply (builder_of_ind (fun b => Sorted Z.lt (dates (b_days b)))); [constructor|].
  intros b d _. apply builder_add_sorted.
Qed.

Lemma upd_day_Forall (P : day -> Prop) days d f :
  Forall P days -> (forall x, P x \/ x = empty_day d -> d_date x = d -> P (f x)) -> Forall P (upd_day days d f).
Proof.
  intros Hd Hf. induction Hd as [|x rest Hx Hrest IH]; cbn [upd_day].
  - constructor; [apply Hf; [right; reflexivity|reflexivity]|constructor].
  - destruct (d =? d_date x) eqn:E1.
    + apply Z.eqb_eq in E1. constructor; [apply Hf; [left; exact Hx|symmetry; exact E1]|exact Hrest].
    + destruct (d <? d_date x); constructor; auto;
        try (apply Hf; [right; reflexivity|reflexivity]).
Qed.

(* every transaction of a day carries the day's date *)
Definition day_dates_ok (d : day) : Prop := Forall (fun t => t_date t = d_date d) (d_txns d).

Lemma builder_add_dates_ok b d : Forall day_dates_ok (b_days b) -> Forall day_dates_ok (b_days (builder_add b d)).
Proof.
  intros H. destruct d; cbn [builder_add b_days]; apply upd_day_Forall; try exact H; intros x Hx Hdt;
    (assert (Hx' : day_dates_ok x) by (destruct Hx as [Hx| ->]; [exact Hx|constructor])); try exact Hx'.
  unfold day_dates_ok in *. cbn [add_txn_day d_date d_txns]. apply Forall_app. split; [exact Hx'|].
  repeat constructor. symmetry. exact Hdt.
Qed.

Lemma builder_of_dates_ok ds : Forall day_dates_ok (b_days (builder_of ds)).
Proof.
  apply (builder_of_ind (fun b => Forall day_dates_ok (b_days b))); [constructor|].
  intros b d _. apply builder_add_dates_ok.
Qed.

Definition directive_txns (ds : list directive) : list txn :=
  flat_map (fun d => match d with DTxn t => [t] | _ => [] end) ds.

Lemma upd_day_txns days d f extra :
  (forall x, d_txns (f x) = d_txns x ++ extra) ->
  Permutation (all_txns (upd_day days d f)) (all_txns days ++ extra).
Proof.
  intros Hf. unfold all_txns. induction days as [|x rest IH]; cbn [upd_day map concat].
  - rewrite Hf. cbn [empty_day d_txns app]. rewrite app_nil_r. apply Permutation_refl.
  - destruct (d =? d_date x).
    + cbn [map concat]. rewrite Hf, <- !app_assoc. apply Permutation_app_head. apply Permutation_app_comm.
    + destruct (d <? d_date x).
      * cbn [map concat]. rewrite Hf. cbn [empty_day d_txns app]. apply Permutation_app_comm.
      * cbn [map concat]. rewrite <- app_assoc. apply Permutation_app_head. exact IH.
Qed.

Lemma builder_add_txns b d :
  Permutation (all_txns (b_days (builder_add b d))) (all_txns (b_days b) ++ directive_txns [d]).
Proof.
  destruct d; cbn [builder_add b_days directive_txns flat_map app]; apply upd_day_txns; intros x;
    cbn [d_txns add_txn_day]; rewrite ?app_nil_r; reflexivity.
Qed.

Lemma directive_txns_app a b : directive_txns (a ++ b) = directive_txns a ++ directive_txns b.
Proof. unfold directive_txns. apply flat_map_app. Qed.

Lemma builder_of_txns ds : Permutation (all_txns (b_days (builder_of ds))) (directive_txns ds).
Proof.
  unfold builder_of.
  assert (H : forall b, Permutation (all_txns (b_days (fold_left builder_add ds b))) (all_txns (b_days b) ++ directive_txns ds)).
  { induction ds as [|d ds IH]; intros b; cbn [fold_left].
    - cbn. rewrite app_nil_r. apply Permutation_refl.
    - rewrite IH. change (d :: ds) with ([d] ++ ds). rewrite directive_txns_app, app_assoc.
      apply Permutation_app_tail. apply builder_add_txns. }
  apply (H new_builder).
Qed.


Lemma Forall2_Forall_r {A B} (R : A -> B -> Prop) (P : A -> Prop) (P' : B -> Prop) l m :
  (forall x y, R x y -> P x -> P' y) -> Forall2 R l m -> Forall P l -> Forall P' m.
Proof.
  intros HR H. induction H as [|x y l m Hxy _ IH]; intros Hl; [constructor|].
  inversion Hl; subst. constructor; eauto.
Qed.

Lemma day_step_Forall (Q : Z -> txn -> Prop) (P : txn -> Prop) d d' :
  (forall t t', txn_sim t t' -> P t -> P t') -> (forall t, Q (d_date d) t -> P t) ->
  day_step Q d d' -> Forall P (d_txns d) -> Forall P (d_txns d').
Proof.
  intros Hsim HQ (_ & _ & _ & extra & mid & He & Hs & Hp) Hd.
  eapply Permutation_Forall; [exact Hp|]. eapply Forall2_Forall_r; [exact Hsim|exact Hs|].
  apply Forall_app. split; [exact Hd|]. eapply Forall_impl; [exact HQ|exact He].
Qed.

Lemma day_step_dates_ok (Q : Z -> txn -> Prop) d d' :
  (forall dt t, Q dt t -> t_date t = dt) -> day_step Q d d' -> day_dates_ok d -> day_dates_ok d'.
Proof.
  intros HQ Hdd Hd. unfold day_dates_ok. rewrite (proj1 Hdd).
  apply (day_step_Forall Q _ d d'); [|apply HQ|exact Hdd|exact Hd].
  intros t t' (Ht & _) H. rewrite Ht. exact H.
Qed.

Lemma days_step_dates (Q : Z -> txn -> Prop) l l' : Forall2 (day_step Q) l l' -> dates l' = dates l.
Proof.
  induction 1 as [|d d' l l' (H1 & _) _ IH]; [reflexivity|]. unfold dates in *. cbn [map]. rewrite H1, IH. reflexivity.
Qed.

Lemma days_step_dates_ok (Q : Z -> txn -> Prop) l l' :
  (forall dt t, Q dt t -> t_date t = dt) -> Forall2 (day_step Q) l l' -> Forall day_dates_ok l -> Forall day_dates_ok l'.
Proof.
  intros HQ H. induction H as [|d d' l l' Hdd _ IH]; intros Hl; [constructor|].
  inversion Hl; subst. constructor; [eapply day_step_dates_ok; eauto|auto].
Qed.

Definition no_extra : Z -> txn -> Prop := fun _ _ => False.

(* a value adjustment as Valuate creates it (up to the values, which txn_sim does not track):
   dated dt, described "Adjust value of C in account A" for an asset or liability account A,
   posting to A and to A's valuation account *)
Definition adjustment (dt : Z) (t : txn) : Prop :=
  exists c a gain, is_AL a = true /\ t_date t = dt /\ t_desc t = s_adjust c a /\
    Forall2 posting_sim (pair_build (valuation_account_for a) a c dec_nil gain) (t_postings t).

Lemma adjustment_sim dt t t' : txn_sim t t' -> adjustment dt t -> adjustment dt t'.
Proof.
  intros (H1 & H2 & _ & H4) (c & a & gain & Ha & Hd & Hs & Hp). exists c, a, gain.
  repeat split; try congruence. eapply Forall2_trans; [exact posting_sim_trans|exact Hp|exact H4].
Qed.

Lemma adjustment_date dt t : adjustment dt t -> t_date t = dt.
Proof. intros (c & a & gain & _ & Hd & _). exact Hd. Qed.

Lemma sort_stage_step s ds s' ds' :
  process_days sort_proc s ds = ROk (s', ds') -> Forall2 (day_step no_extra) ds ds'.
Proof.
  refine (process_days_step sort_proc no_extra _ _ _ ds s s' ds');
    cbn [sort_proc pr_day_start pr_day_end pr_posting]; try discriminate.
  intros f s0 d s1 d1 Hf H. injection Hf as <-. inversion H; subst. cbn [set_txns d_date d_opens d_closes d_txns].
  repeat split. symmetry. apply sort_by_perm.
Qed.

Lemma prices_stage_step v s ds s' ds' :
  process_days (compute_prices_proc v) s ds = ROk (s', ds') -> Forall2 (day_step no_extra) ds ds'.
Proof.
  refine (process_days_step (compute_prices_proc v) no_extra _ _ _ ds s s' ds');
    cbn [compute_prices_proc pr_day_start pr_day_end pr_posting]; try discriminate.
  intros f s0 d s1 d1 Hf H. injection Hf as <-. unfold cp_day_end in H.
  destruct (d_prices d).
  - inversion H; subst. cbn [set_normalized d_date d_opens d_closes d_txns]. repeat split. apply Permutation_refl.
  - destruct (normalize (cp_prices s0) v); try discriminate.
    inversion H; subst. cbn [set_normalized d_date d_opens d_closes d_txns]. repeat split. apply Permutation_refl.
Qed.

Lemma check_stage_step l s ds s' ds' :
  process_days (check_proc l) s ds = ROk (s', ds') -> Forall2 (day_step no_extra) ds ds'.
Proof.
  refine (process_days_step (check_proc l) no_extra _ _ _ ds s s' ds');
    cbn [check_proc pr_day_start pr_day_end pr_posting]; try discriminate.
  intros f s0 t x s1 x' Hf H. injection Hf as <-. unfold ck_posting_cb in H.
  destruct (negb (is_open s0 (p_acc x))); try discriminate.
  destruct (is_AL (p_acc x)); inversion H; subst; apply posting_sim_refl.
Qed.

(* [G]: whatever is known of the positions Valuate holds *)
Lemma adj_run_in (G : account -> commodity -> Prop) v date prev cur pos ts :
  (forall k a c q, In (k, (a, c, q)) pos -> G a c) -> adj_run v date prev cur pos ts ->
  Forall (fun t => exists a c gain, G a c /\ is_AL a = true /\
            t = mkTxn date (s_adjust c a) (pair_build (valuation_account_for a) a c dec_nil gain) (Some [c])) ts.
Proof.
  intros HG H.
  induction H as [|k a c q rest ts _ _ IH|k a c q pp cp rest ts _ _ _ _ _ _ _ IH|k a c q pp cp rest ts _ EAL _ _ _ _ _ IH];
    try specialize (IH (fun k' a' c' q' Hin => HG k' a' c' q' (or_intror Hin))); [constructor|exact IH|exact IH|].
  constructor; [|exact IH]. exists a, c, (multiply (sub cp pp) q).
  repeat split; [exact (HG k a c q (or_introl eq_refl))|exact EAL].
Qed.

Lemma val_adjustments_in (G : account -> commodity -> Prop) v date prev cur pos :
  (forall k a c q, In (k, (a, c, q)) pos -> G a c) ->
  forall ts, val_adjustments v date prev cur pos = ROk ts ->
  Forall (fun t => exists a c gain, G a c /\ is_AL a = true /\
            t = mkTxn date (s_adjust c a) (pair_build (valuation_account_for a) a c dec_nil gain) (Some [c])) ts.
Proof. intros HG ts H. exact (adj_run_in G v date prev cur pos ts HG (val_adjustments_run _ _ _ _ _ _ H)). Qed.

Lemma val_adjustments_adjust v date prev cur pos ts :
  val_adjustments v date prev cur pos = ROk ts -> Forall (adjustment date) ts.
Proof.
  intros H. eapply Forall_impl; [|exact (val_adjustments_in (fun _ _ => True) v date prev cur pos (fun _ _ _ _ _ => I) ts H)].
  intros t (a & c & gain & _ & HAL & ->). exists c, a, gain. cbn [t_date t_desc t_postings]. repeat split; [exact HAL|].
  apply Forall2_refl. exact posting_sim_refl.
Qed.

Lemma val_posting_sim v s t p s' p' : val_posting v s t p = ROk (s', p') -> posting_sim p p'.
Proof.
  unfold val_posting. intros H.
  destruct (is_zero (p_qty p)); [inversion H; subst; apply posting_sim_refl|].
  destruct (str_eqb v (p_com p)); [inversion H; subst; repeat split|].
  destruct (v_cur s); try discriminate.
  destruct (np_valuate n (p_com p) (p_qty p)); try discriminate.
  inversion H; subst; repeat split.
Qed.

Lemma valuate_stage_step v s ds s' ds' :
  process_days (valuate_proc v) s ds = ROk (s', ds') -> Forall2 (day_step adjustment) ds ds'.
Proof.
  refine (process_days_step (valuate_proc v) adjustment _ _ _ ds s s' ds');
    cbn [valuate_proc pr_day_start pr_day_end pr_posting].
  - intros f s0 d s1 d1 Hf H. injection Hf as <-. unfold val_day_start in H.
    destruct (val_adjustments v (d_date d) (v_prev s0) (d_normalized d) (v_qty s0)) as [ts| |] eqn:E; try discriminate.
    cbn [rbind] in H. inversion H; subst. cbn [set_txns d_date d_opens d_closes d_txns]. repeat split.
    exists ts. split; [reflexivity|]. eapply val_adjustments_adjust; eauto.
  - intros f s0 d s1 d1 Hf H. injection Hf as <-. unfold val_day_end in H. inversion H; subst.
    repeat split. apply Permutation_refl.
  - intros f s0 t x s1 x' Hf H. injection Hf as <-. eapply val_posting_sim; eauto.
Qed.

Lemma no_extra_adjustment dt t : no_extra dt t -> adjustment dt t.
Proof. intros []. Qed.

Lemma days_step_mono (Q Q' : Z -> txn -> Prop) l l' :
  (forall dt t, Q dt t -> Q' dt t) -> Forall2 (day_step Q) l l' -> Forall2 (day_step Q') l l'.
Proof. intros HQ H. induction H; constructor; [eapply day_step_mono; eauto|assumption]. Qed.

Lemma transcode_days_inv l v sds days :
  transcode_days l v sds = COk days ->
  exists ds d1 d2 d3 s1 s2 s3 s4,
    parse_directives sds = MOk ds /\
    process_days sort_proc tt (b_days (builder_of ds)) = ROk (s1, d1) /\
    process_days (compute_prices_proc v) (mkCp [] None) d1 = ROk (s2, d2) /\
    process_days (check_proc l) check_init d2 = ROk (s3, d3) /\
    process_days (valuate_proc v) (mkVal None None []) d3 = ROk (s4, days).
Proof.
  unfold transcode_days, load, transcode_stages, run_stage. intros H.
  destruct (parse_directives sds) as [ds| |] eqn:E0; try discriminate. cbn [of_mresult cbind] in H.
  destruct (process_days sort_proc tt (b_days (builder_of ds))) as [[s1 d1]| |] eqn:E1; try discriminate.
  cbn [of_presult cbind snd] in H.
  destruct (process_days (compute_prices_proc v) (mkCp [] None) d1) as [[s2 d2]| |] eqn:E2; try discriminate.
  cbn [of_presult cbind snd] in H.
  destruct (process_days (check_proc l) check_init d2) as [[s3 d3]| |] eqn:E3; try discriminate.
  cbn [of_presult cbind snd] in H.
  destruct (process_days (valuate_proc v) (mkVal None None []) d3) as [[s4 d4]| |] eqn:E4; try discriminate.
  cbn [of_presult cbind snd] in H. inversion H; subst.
  exists ds, d1, d2, d3, s1, s2, s3, s4. repeat split; assumption.
Qed.

Lemma transcode_cmd_text l c v sds text : transcode_cmd l (Some (c :: v)) sds = COk text ->
  exists days, transcode_days l (c :: v) sds = COk days /\ text = transcode days (c :: v).
Proof.
  intros H. unfold transcode_cmd, valuation_flag in H. cbn [valid_commodity cbind] in H.
  destruct (transcode_days l (c :: v) sds) as [days| |]; try discriminate. cbn [cbind] in H.
  inversion H. exists days. split; reflexivity.
Qed.

Lemma sort_stage_ok s ds s' ds' :
  Forall day_ok ds -> process_days sort_proc s ds = ROk (s', ds') -> Forall day_ok ds'.
Proof.
  apply (id_stage_pairs (P:=paired) sort_proc); cbn [sort_proc pr_day_start pr_day_end pr_posting]; try discriminate.
  intros f s0 d s1 d1 [= <-] [= _ <-] Hok. exact (Permutation_Forall (Permutation_sym (sort_by_perm _ _)) Hok).
Qed.

Lemma transcode_days_ok l v sds days : transcode_days l v sds = COk days -> Forall day_ok days.
Proof.
  intros H. apply transcode_days_inv in H.
  destruct H as (ds & d1 & d2 & d3 & s1 & s2 & s3 & s4 & E0 & E1 & E2 & E3 & E4).
  eapply valuate_stage_ok; [|exact E4]. eapply check_stage_ok; [|exact E3].
  eapply prices_stage_ok; [|exact E2]. eapply sort_stage_ok; [|exact E1].
  apply builder_of_ok. eapply parse_directives_ok. exact E0.
Qed.

(* Sort, ComputePrices and Check add no transaction; what they hand to Valuate *)
Lemma transcode_days_before_valuate l v sds days :
  transcode_days l v sds = COk days ->
  exists ds d3 s4, parse_directives sds = MOk ds /\ Forall2 (day_step no_extra) (b_days (builder_of ds)) d3 /\
    process_days (valuate_proc v) (mkVal None None []) d3 = ROk (s4, days).
Proof.
  intros H. apply transcode_days_inv in H.
  destruct H as (ds & d1 & d2 & d3 & s1 & s2 & s3 & s4 & E0 & E1 & E2 & E3 & E4).
  exists ds, d3, s4. repeat split; try assumption.
  eapply days_step_trans; [exact (sort_stage_step _ _ _ _ E1)|].
  eapply days_step_trans; [exact (prices_stage_step _ _ _ _ _ E2)|exact (check_stage_step _ _ _ _ _ E3)].
Qed.

Lemma transcode_days_step l v sds days :
  transcode_days l v sds = COk days ->
  exists ds, parse_directives sds = MOk ds /\ Forall2 (day_step adjustment) (b_days (builder_of ds)) days.
Proof.
  intros H. destruct (transcode_days_before_valuate _ _ _ _ H) as (ds & d3 & s4 & E0 & F & E4).
  exists ds. split; [exact E0|].
  eapply days_step_trans; [exact (days_step_mono _ _ _ _ no_extra_adjustment F)|exact (valuate_stage_step _ _ _ _ _ E4)].
Qed.

(* completeness: the transactions handed to Transcode are the journal's transactions
   (rewritten posting by posting: values filled in) plus value adjustments *)

Lemma all_txns_cons d l : all_txns (d :: l) = d_txns d ++ all_txns l.
Proof. reflexivity. Qed.

Lemma days_step_complete (Q : Z -> txn -> Prop) l l' :
  (forall dt t t', txn_sim t t' -> Q dt t -> Q dt t') ->
  Forall2 (day_step Q) l l' ->
  exists users adjs, Permutation (all_txns l') (users ++ adjs) /\ Forall2 txn_sim (all_txns l) users /\
                     Forall (fun t => exists dt, Q dt t) adjs.
Proof.
  intros HQ H. induction H as [|d d' l l' Hdd _ IH].
  - exists [], []. repeat split; constructor.
  - destruct IH as (U & A & IH1 & IH2 & IH3).
    destruct Hdd as (_ & _ & _ & extra & mid & He & Hs & Hp).
    apply Forall2_app_inv_l in Hs. destruct Hs as (mu & me & Hmu & Hme & ->).
    exists (mu ++ U), (me ++ A). repeat split.
    + rewrite !all_txns_cons, <- Hp, IH1, <- !app_assoc. apply Permutation_app_head.
      rewrite !app_assoc. apply Permutation_app_tail. apply Permutation_app_comm.
    + rewrite all_txns_cons. apply Forall2_app; assumption.
    + apply Forall_app. split; [|exact IH3].
      eapply Forall2_Forall_r; [|exact Hme|exact He].
      intros x y Hxy Hx. exists (d_date d). eapply HQ; eauto.
Qed.

Lemma transcode_complete l v sds days :
  transcode_days l v sds = COk days ->
  exists ds users adjs,
    parse_directives sds = MOk ds /\
    Permutation (entry_txns (transcode_entries days [])) (users ++ adjs) /\
    (exists orig, Permutation orig (directive_txns ds) /\ Forall2 txn_sim orig users) /\
    Forall (fun t => adjustment (t_date t) t) adjs.
Proof.
  intros H. destruct (transcode_days_step _ _ _ _ H) as (ds & E0 & Hstep).
  destruct (days_step_complete adjustment _ _ (fun dt t t' => adjustment_sim dt t t') Hstep) as (U & A & P1 & P2 & P3).
  exists ds, U, A. repeat split.
  - exact E0.
  - rewrite (transcode_entries_perm days []). exact P1.
  - exists (all_txns (b_days (builder_of ds))). split; [apply builder_of_txns|exact P2].
  - eapply Forall_impl; [|exact P3]. intros t (dt & Ht). rewrite (adjustment_date _ _ Ht). exact Ht.
Qed.


Definition bentry_date (e : bentry) : Z :=
  match e with BOpen d _ => d | BClose d _ => d | BTxn t => t_date t end.

Lemma erase_entries_dates v es : map entry_date (erase_entries v es) = map bentry_date es.
Proof.
  unfold erase_entries. rewrite map_map. apply map_ext. intros [d a|d a|t]; reflexivity.
Qed.

Lemma transcode_day_dates d seen :
  day_dates_ok d -> Forall (fun e => bentry_date e = d_date d) (fst (transcode_day d seen)).
Proof.
  intros Hd. unfold day_dates_ok in Hd. rewrite Forall_forall in Hd. apply Forall_forall. intros e He.
  destruct (transcode_day_in d seen e He) as [(a & _ & ->)|[(t & p & Ht & _ & ->)|[(t & Ht & ->)|(a & _ & ->)]]];
    cbn [bentry_date]; auto.
Qed.

Lemma transcode_entries_dates_in days seen :
  Forall day_dates_ok days ->
  Forall (fun e => In (bentry_date e) (dates days)) (transcode_entries days seen).
Proof.
  intros H. rewrite Forall_forall in H. apply Forall_forall. intros e He.
  destruct (transcode_entries_in days seen e He) as (d & seen' & Hd & He').
  pose proof (transcode_day_dates d seen' (H d Hd)) as H1. rewrite Forall_forall in H1. rewrite (H1 e He').
  apply in_map. exact Hd.
Qed.

Lemma constant_sorted c l : Forall (fun x => x = c) l -> StronglySorted Z.le l.
Proof.
  induction 1 as [|x l Hx Hl IH]; constructor; [exact IH|].
  subst. eapply Forall_impl; [|exact Hl]. intros y ->. apply Z.le_refl.
Qed.

Lemma transcode_entries_sorted days seen :
  Sorted Z.lt (dates days) -> Forall day_dates_ok days ->
  StronglySorted Z.le (map bentry_date (transcode_entries days seen)).
Proof.
  intros Hs Hd. revert seen. induction Hd as [|d days Hd Hrest IH]; intros seen; cbn [transcode_entries]; [constructor|].
  unfold dates in Hs. cbn [map] in Hs. pose proof (Sorted_extends Z.lt_trans Hs) as Hlt.
  apply Sorted_inv in Hs. destruct Hs as [Hs _].
  pose proof (transcode_day_dates d seen Hd) as H1. destruct (transcode_day d seen) as [es s']. cbn [fst] in H1.
  apply (proj2 (Forall_map bentry_date (fun x => x = d_date d) es)) in H1.
  pose proof (proj2 (Forall_map bentry_date (fun y => In y (dates days)) _) (transcode_entries_dates_in days s' Hrest)) as H2.
  rewrite map_app. apply StronglySorted_app; [exact (constant_sorted _ _ H1)|exact (IH Hs s')|].
  intros x y Hx Hy. rewrite Forall_forall in H1, H2, Hlt. rewrite (H1 x Hx). apply Z.lt_le_incl, Hlt, H2, Hy.
Qed.

Lemma transcode_days_dates l v sds days :
  transcode_days l v sds = COk days -> Sorted Z.lt (dates days) /\ Forall day_dates_ok days.
Proof.
  intros H. destruct (transcode_days_step _ _ _ _ H) as (ds & _ & Hstep). split.
  - rewrite (days_step_dates _ _ _ Hstep). apply builder_of_sorted.
  - eapply days_step_dates_ok; [exact adjustment_date|exact Hstep|apply builder_of_dates_ok].
Qed.

Lemma transcode_chronological l v sds days :
  transcode_days l v sds = COk days ->
  StronglySorted Z.le (map entry_date (erase_entries v (transcode_entries days []))).
Proof.
  intros H. destruct (transcode_days_dates _ _ _ _ H) as [H1 H2].
  rewrite erase_entries_dates. apply transcode_entries_sorted; assumption.
Qed.


Definition is_open_in (o : list account) (a : account) : bool := existsb (acc_eqb a) o.

Definition opens_after (o : list account) (d : day) : list account :=
  fold_left (fun o a => a :: o) (d_opens d) o.
Definition closes_after (o : list account) (d : day) : list account :=
  fold_left (fun o a => filter (fun x => negb (acc_eqb a x)) o) (d_closes d) o.

Definition txn_open (o : list account) (t : txn) : Prop :=
  Forall (fun p => is_open_in o (p_acc p) = true) (t_postings t).

(* every transaction of every day posts to accounts that are open after the day's openings
   (and before its closings) -- except the transactions satisfying Q *)
Fixpoint days_checked (Q : Z -> txn -> Prop) (o : list account) (days : list day) : Prop :=
  match days with
  | [] => True
  | d :: rest => Forall (fun t => Q (d_date d) t \/ txn_open (opens_after o d) t) (d_txns d) /\
                 days_checked Q (closes_after (opens_after o d) d) rest
  end.

Lemma ck_opens_fold l : forall s s', fold_res ck_open_cb s l = ROk s' ->
  ck_open s' = fold_left (fun o a => a :: o) l (ck_open s).
Proof.
  induction l as [|a l IH]; intros s s' H; [inversion H; reflexivity|].
  apply fold_res_cons_ok in H. destruct H as (s1 & E & H). cbn [fold_left]. rewrite (IH _ _ H).
  unfold ck_open_cb in E. destruct (is_open s a); try discriminate. inversion E; subst. reflexivity.
Qed.

Lemma ck_closes_fold l : forall s s', fold_res ck_close_cb s l = ROk s' ->
  ck_open s' = fold_left (fun o a => filter (fun x => negb (acc_eqb a x)) o) l (ck_open s).
Proof.
  induction l as [|a l IH]; intros s s' H; [inversion H; reflexivity|].
  apply fold_res_cons_ok in H. destruct H as (s1 & E & H). cbn [fold_left]. rewrite (IH _ _ H).
  unfold ck_close_cb in E. destruct (close_positions (ck_qty s) a); try discriminate.
  destruct (negb (is_open s a)); try discriminate. inversion E; subst. reflexivity.
Qed.

Lemma ck_postings_open t ps : forall s s' ps', fold_postings ck_posting_cb t s ps = ROk (s', ps') ->
  ck_open s' = ck_open s /\ Forall (fun p => is_open_in (ck_open s) (p_acc p) = true) ps.
Proof.
  induction ps as [|x ps IH]; intros s s' ps' H.
  - inversion H; subst. split; [reflexivity|constructor].
  - apply fold_postings_cons_ok in H. destruct H as (s1 & x' & r & E1 & E2 & _). destruct (IH _ _ _ E2) as [I1 I2].
    unfold ck_posting_cb in E1. destruct (is_open s (p_acc x)) eqn:Eo; cbn [negb] in E1; try discriminate.
    assert (Hs1 : ck_open s1 = ck_open s) by (destruct (is_AL (p_acc x)); inversion E1; subst; reflexivity).
    rewrite Hs1 in *. split; [exact I1|]. constructor; [exact Eo|exact I2].
Qed.

Lemma ck_txns_open l ts : forall s s' ts', fold_txns (check_proc l) s ts = ROk (s', ts') ->
  ck_open s' = ck_open s /\ Forall (txn_open (ck_open s)) ts.
Proof.
  induction ts as [|t ts IH]; intros s s' ts' H.
  - inversion H; subst. split; [reflexivity|constructor].
  - destruct (fold_txns_cons (check_proc l) ck_posting_cb _ _ _ _ _ eq_refl eq_refl H) as (s2 & ps' & r & E2 & E3 & _).
    destruct (ck_postings_open _ _ _ _ _ E2) as [P1 P2]. destruct (IH _ _ _ E3) as [I1 I2].
    rewrite P1 in *. split; [exact I1|]. constructor; [exact P2|exact I2].
Qed.

Lemma ck_balances_open l a bs : forall s s', fold_res (fun s b => ck_balance_cb l s a b) s bs = ROk s' -> s' = s.
Proof.
  induction bs as [|b bs IH]; intros s s' H; [inversion H; reflexivity|].
  apply fold_res_cons_ok in H. destruct H as (s1 & E & H).
  assert (s1 = s).
  { unfold ck_balance_cb in E. destruct (negb (is_open s (bal_acc b))); try discriminate.
    destruct (pos_get (ck_qty s) (bal_acc b) (bal_com b)).
    - destruct (dec_equal d (bal_qty b)); inversion E; reflexivity.
    - destruct (l && dec_equal dec_nil (bal_qty b)); inversion E; reflexivity. }
  subst. apply IH. exact H.
Qed.

Lemma ck_asserts_open l asserts : forall s s', fold_asserts (check_proc l) s asserts = ROk s' -> s' = s.
Proof.
  induction asserts as [|a rest IH]; intros s s' H; [inversion H; reflexivity|].
  apply fold_asserts_cons_ok in H. destruct H as (s1 & E & H). cbn [check_proc pr_balance] in E.
  apply ck_balances_open in E. subst. apply IH. exact H.
Qed.

Lemma check_day_checked l s d s' d' : process_day (check_proc l) s d = ROk (s', d') ->
  Forall (txn_open (opens_after (ck_open s) d)) (d_txns d) /\
  ck_open s' = closes_after (opens_after (ck_open s) d) d.
Proof.
  intros H. apply process_day_ok in H. destruct H as (s1 & d1 & s2 & s3 & s4 & ts & s5 & s6 & E1 & E2 & E3 & E4 & E5 & E6 & E7).
  cbn [check_proc pr_day_start pr_price pr_open pr_close pr_day_end] in E1, E2, E3, E6, E7.
  inversion E1; subst s1 d1. inversion E2; subst s2. inversion E7; subst s6.
  apply ck_opens_fold in E3. destruct (ck_txns_open _ _ _ _ _ E4) as [T1 T2]. apply ck_asserts_open in E5. subst s5.
  apply ck_closes_fold in E6. unfold opens_after, closes_after. rewrite <- E3. split; [exact T2|].
  rewrite E6, T1. reflexivity.
Qed.

Lemma check_days_checked l ds : forall s s' ds', process_days (check_proc l) s ds = ROk (s', ds') ->
  days_checked no_extra (ck_open s) ds.
Proof.
  induction ds as [|d ds IH]; intros s s' ds' H; cbn [days_checked]; [exact I|].
  apply process_days_cons_ok in H. destruct H as (s1 & d1 & r & E1 & E2 & _).
  destruct (check_day_checked _ _ _ _ _ E1) as [C1 C2]. split.
  - eapply Forall_impl; [|exact C1]. intros t Ht. right. exact Ht.
  - rewrite <- C2. eapply IH. exact E2.
Qed.


Lemma txn_open_sim o t t' : txn_sim t t' -> txn_open o t -> txn_open o t'.
Proof.
  intros (_ & _ & _ & H) Ht. unfold txn_open in *.
  eapply Forall2_Forall_r; [|exact H|exact Ht]. intros x y (Hxy & _) Hx. cbn beta in *. rewrite Hxy. exact Hx.
Qed.

Lemma days_checked_mono (Q Q' : Z -> txn -> Prop) : (forall dt t, Q dt t -> Q' dt t) ->
  forall days o, days_checked Q o days -> days_checked Q' o days.
Proof.
  intros HQ. induction days as [|d days IH]; intros o H; cbn [days_checked] in *; [exact I|].
  destruct H as [H1 H2]. split; [|apply IH; exact H2].
  eapply Forall_impl; [|exact H1]. intros t [Ht|Ht]; [left; apply HQ; exact Ht|right; exact Ht].
Qed.

Lemma days_checked_step (Q : Z -> txn -> Prop) l l' :
  (forall dt t t', txn_sim t t' -> Q dt t -> Q dt t') ->
  Forall2 (day_step Q) l l' -> forall o, days_checked Q o l -> days_checked Q o l'.
Proof.
  intros HQ H. induction H as [|d d' l l' Hdd _ IH]; intros o Hc; cbn [days_checked] in *; [exact I|].
  destruct Hc as [C1 C2]. pose proof Hdd as (D1 & D2 & D3 & _).
  assert (Ho : opens_after o d' = opens_after o d) by (unfold opens_after; rewrite D2; reflexivity).
  assert (Hcl : closes_after (opens_after o d') d' = closes_after (opens_after o d) d)
    by (rewrite Ho; unfold closes_after; rewrite D3; reflexivity).
  rewrite Hcl, Ho, D1. split; [|apply IH; exact C2].
  apply (day_step_Forall Q _ d d'); [| |exact Hdd|exact C1].
  - intros x y Hxy [Hx|Hx]; [left; eapply HQ; eauto|right; eapply txn_open_sim; eauto].
  - intros t Ht. left. exact Ht.
Qed.

Lemma transcode_days_checked l v sds days :
  transcode_days l v sds = COk days -> days_checked adjustment [] days.
Proof.
  intros H. apply transcode_days_inv in H.
  destruct H as (ds & d1 & d2 & d3 & s1 & s2 & s3 & s4 & E0 & E1 & E2 & E3 & E4).
  pose proof (check_days_checked _ _ _ _ _ E3) as Hc. cbn [check_init ck_open] in Hc.
  apply (days_checked_mono _ _ no_extra_adjustment) in Hc.
  apply check_stage_step in E3. apply valuate_stage_step in E4.
  pose proof (days_step_mono _ _ _ _ no_extra_adjustment E3) as F3.
  eapply days_checked_step; [exact adjustment_sim| |exact Hc].
  eapply days_step_trans; [exact F3|exact E4].
Qed.


(* every account of the checker's open set has an open directive in force in the reader's state *)
Definition covers (o : list account) (so : list (str * Z)) : Prop :=
  forall a, is_open_in o a = true -> mem (acc_name a) (map fst so) = true.

Lemma mem_in a l : mem a l = true <-> In a l.
Proof.
  unfold mem. rewrite existsb_exists. split.
  - intros (x & Hx & E). apply str_eqb_eq in E. subst. exact Hx.
  - intros H. exists a. split; [exact H|apply str_eqb_refl].
Qed.

Lemma covers_open o so a d : covers o so -> covers (a :: o) ((acc_name a, d) :: so).
Proof.
  intros H x Hx. unfold is_open_in in Hx. cbn [existsb] in Hx. apply orb_true_iff in Hx.
  apply mem_in. cbn [map fst]. destruct Hx as [Hx|Hx].
  - left. unfold acc_eqb in Hx. apply str_eqb_eq in Hx. symmetry. exact Hx.
  - right. apply mem_in. apply H. exact Hx.
Qed.

Lemma covers_more o so x : covers o so -> covers o (x :: so).
Proof. intros H a Ha. apply mem_in. right. apply mem_in. apply H. exact Ha. Qed.

Lemma covers_close o so a : covers o so ->
  covers (filter (fun x => negb (acc_eqb a x)) o) (filter (fun x => negb (str_eqb (acc_name a) (fst x))) so).
Proof.
  intros H x Hx. unfold is_open_in in Hx. apply existsb_exists in Hx. destruct Hx as (y & Hy & Exy).
  apply filter_In in Hy. destruct Hy as [Hy Hay].
  assert (Hxo : is_open_in o x = true) by (unfold is_open_in; apply existsb_exists; exists y; split; assumption).
  apply H in Hxo. apply mem_in in Hxo. apply in_map_iff in Hxo. destruct Hxo as ([n dn] & Hn & Hin). cbn [fst] in Hn. subst n.
  apply mem_in. apply in_map_iff. exists (acc_name x, dn). split; [reflexivity|].
  apply filter_In. split; [exact Hin|]. cbn [fst].
  unfold acc_eqb in *. apply str_eqb_eq in Exy. rewrite Exy. exact Hay.
Qed.

Definition bfold (v : commodity) (st : bstate) (es : list bentry) : bstate :=
  fold_left next_state (erase_entries v es) st.

(* each emitted item paired with the reader's state just before it *)
Fixpoint bscan (v : commodity) (st : bstate) (es : list bentry) : list (bstate * bentry) :=
  match es with
  | [] => []
  | e :: r => (st, e) :: bscan v (next_state st (erase_entry v e)) r
  end.

Lemma bfold_app v st a b : bfold v st (a ++ b) = bfold v (bfold v st a) b.
Proof. unfold bfold, erase_entries. rewrite map_app. apply fold_left_app. Qed.

Lemma bscan_app v a : forall st b, bscan v st (a ++ b) = bscan v st a ++ bscan v (bfold v st a) b.
Proof.
  induction a as [|e a IH]; intros st b; cbn [app bscan]; [reflexivity|].
  rewrite IH. reflexivity.
Qed.

Lemma bscan_split v pre e post : forall st, In (bfold v st pre, e) (bscan v st (pre ++ e :: post)).
Proof.
  induction pre as [|x pre IH]; intros st; cbn [app bscan].
  - left. reflexivity.
  - right. apply IH.
Qed.

Definition entry_open_ok (Q : Z -> txn -> Prop) (x : bstate * bentry) : Prop :=
  match snd x with
  | BTxn t => (exists dt, Q dt t) \/
              Forall (fun p => mem (acc_name (p_acc p)) (map fst (st_open (fst x))) = true) (t_postings t)
  | _ => True
  end.

Lemma scan_opens Q v d l : forall o st, covers o (st_open st) ->
  Forall (entry_open_ok Q) (bscan v st (map (BOpen d) l)) /\
  covers (fold_left (fun o a => a :: o) l o) (st_open (bfold v st (map (BOpen d) l))).
Proof.
  induction l as [|a l IH]; intros o st Hc; cbn [map bscan fold_left].
  - split; [constructor|exact Hc].
  - destruct (IH (a :: o) (next_state st (erase_entry v (BOpen d a)))) as [I1 I2].
    { cbn [erase_entry next_state st_open]. apply covers_open. exact Hc. }
    split; [constructor; [exact I|exact I1]|exact I2].
Qed.

(* openings emitted by Transcode itself only add *)
Lemma scan_more_opens Q v es : Forall is_bopen es -> forall o st, covers o (st_open st) ->
  Forall (entry_open_ok Q) (bscan v st es) /\ covers o (st_open (bfold v st es)).
Proof.
  induction 1 as [|e es He _ IH]; intros o st Hc; cbn [bscan].
  - split; [constructor|exact Hc].
  - destruct e as [d a|d a|t]; try contradiction.
    destruct (IH o (next_state st (erase_entry v (BOpen d a)))) as [I1 I2].
    { cbn [erase_entry next_state st_open]. apply covers_more. exact Hc. }
    split; [constructor; [exact I|exact I1]|exact I2].
Qed.

(* the day's transactions: the state's open set is not touched *)
Lemma scan_txns (Q : Z -> txn -> Prop) v dt o ts : forall st, covers o (st_open st) ->
  Forall (fun t => Q dt t \/ txn_open o t) ts ->
  Forall (entry_open_ok Q) (bscan v st (map BTxn ts)) /\ st_open (bfold v st (map BTxn ts)) = st_open st.
Proof.
  induction ts as [|t ts IH]; intros st Hc Hts; cbn [map bscan].
  - split; [constructor|reflexivity].
  - inversion Hts as [|? ? Ht Hrest]; subst.
    destruct (IH (next_state st (erase_entry v (BTxn t)))) as [I1 I2]; [exact Hc|exact Hrest|].
    split; [|exact I2]. constructor; [|exact I1].
    unfold entry_open_ok. cbn [snd fst]. destruct Ht as [Ht|Ht]; [left; exists dt; exact Ht|right].
    unfold txn_open in Ht. eapply Forall_impl; [|exact Ht]. intros p Hp. apply Hc. exact Hp.
Qed.

Lemma scan_closes Q v d l : forall o st, covers o (st_open st) ->
  Forall (entry_open_ok Q) (bscan v st (map (BClose d) l)) /\
  covers (fold_left (fun o a => filter (fun x => negb (acc_eqb a x)) o) l o) (st_open (bfold v st (map (BClose d) l))).
Proof.
  induction l as [|a l IH]; intros o st Hc; cbn [map bscan fold_left].
  - split; [constructor|exact Hc].
  - destruct (IH (filter (fun x => negb (acc_eqb a x)) o) (next_state st (erase_entry v (BClose d a)))) as [I1 I2].
    { cbn [erase_entry next_state st_open]. apply covers_close. exact Hc. }
    split; [constructor; [exact I|exact I1]|exact I2].
Qed.

Lemma scan_entries (Q : Z -> txn -> Prop) v days : forall seen o st,
  days_checked Q o days -> covers o (st_open st) ->
  Forall (entry_open_ok Q) (bscan v st (transcode_entries days seen)).
Proof.
  induction days as [|d days IH]; intros seen o st Hd Hc; cbn [transcode_entries]; [constructor|].
  cbn [days_checked] in Hd. destruct Hd as [Hd1 Hd2].
  unfold transcode_day.
  pose proof (val_opens_txns_opens (sort_by txn_ltb (d_txns d)) seen) as Hvo.
  destruct (val_opens_txns (sort_by txn_ltb (d_txns d)) seen) as [vo seen']. cbn [fst] in Hvo.
  destruct (scan_opens Q v (d_date d) (d_opens d) o st Hc) as [A1 A2].
  destruct (scan_more_opens Q v vo Hvo _ _ A2) as [B1 B2].
  destruct (scan_txns Q v (d_date d) _ (sort_by txn_ltb (d_txns d)) _ B2) as [C1 C2].
  { eapply Permutation_Forall; [symmetry; apply sort_by_perm|exact Hd1]. }
  rewrite <- C2 in B2. destruct (scan_closes Q v (d_date d) (d_closes d) _ _ B2) as [D1 D2].
  rewrite <- !app_assoc, !bscan_app. repeat (apply Forall_app; split); try assumption.
  exact (IH _ _ _ Hd2 D2).
Qed.

Lemma transcode_open_before_use l v sds days pre t post :
  transcode_days l v sds = COk days ->
  transcode_entries days [] = pre ++ BTxn t :: post ->
  adjustment (t_date t) t \/
  Forall (fun p => mem (acc_name (p_acc p)) (map fst (st_open (state_after (erase_entries v pre)))) = true)
         (t_postings t).
Proof.
  intros H Hsplit. pose proof (transcode_days_checked _ _ _ _ H) as Hc.
  assert (Hcov : covers [] (st_open bst_init)) by (intros a Ha; discriminate).
  pose proof (scan_entries adjustment v days [] [] bst_init Hc Hcov) as Hs.
  rewrite Hsplit in Hs. rewrite Forall_forall in Hs.
  specialize (Hs _ (bscan_split v pre (BTxn t) post bst_init)).
  unfold entry_open_ok in Hs. cbn [snd fst] in Hs. destruct Hs as [(dt & Hs)|Hs].
  - left. rewrite (adjustment_date _ _ Hs). exact Hs.
  - right. exact Hs.
Qed.
