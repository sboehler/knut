(* C16: the reader of Spec/BeancountSpec.v gives back, from the text Model/Beancount.v writes, the
   valuation commodity and the erased items -- with every amount as it is after a trip through its
   text (DecNormalForm.reread: Decimal.String drops trailing zeros and expands a positive exponent,
   so 1.0 comes back as 1 and 5e2 as 500; the value is the same, the record is not).

   In order: the line splitter on texts made of plain segments and quoted strings; the lines of an
   item, and that they are such texts; read_line on each kind of line; read_lines on the lines of
   an item and of a list of items, and read_ledger. *)
From Coq Require Import ZArith List Bool Lia.
From Knut Require Import Model.Str Model.Dec Model.Date Model.Account Model.Ledger Model.Journal
     Model.Report Model.JPrinter Model.Beancount
     Spec.BeancountSpec Spec.BeancountErase Spec.BeancountLex
     Proofs.StrProofs Proofs.CalendarSweep Proofs.CalendarProofs Proofs.DecStringProofs Proofs.DecNormalForm Proofs.PrintProofs.
Import ListNotations.
Open Scope bool_scope.
Open Scope Z_scope.

Definition reread_sposting (x : str * dec * str) : str * dec * str :=
  (account_of x, reread (amount_of x), commodity_of x).

Definition reread_entry (e : sentry) : sentry :=
  match e with
  | ETxn d s ps => ETxn d s (map reread_sposting ps)
  | _ => e
  end.

Definition reread_entries (es : list sentry) : list sentry := map reread_entry es.

Lemma no_byte_iff c s : no_byte c s = true <-> ~ In c s.
Proof.
  unfold no_byte. rewrite negb_true_iff. split.
  - intros H Hin. assert (E : existsb (Z.eqb c) s = true).
    { apply existsb_exists. exists c. split; [exact Hin|apply Z.eqb_refl]. }
    congruence.
  - intros H. destruct (existsb (Z.eqb c) s) eqn:E; [|reflexivity].
    apply existsb_exists in E. destruct E as (x & Hx & Hc). apply Z.eqb_eq in Hc. subst. contradiction.
Qed.

Lemma not_in_app_iff {A} (x : A) a b : ~ In x (a ++ b) <-> ~ In x a /\ ~ In x b.
Proof. rewrite in_app_iff. tauto. Qed.

Lemma not_in_cons_iff {A} (x y : A) l : ~ In x (y :: l) <-> y <> x /\ ~ In x l.
Proof. cbn [In]. tauto. Qed.

(* a piece of text that leaves the splitter outside a string and adds no line break *)
Definition seg_ok (x : str) : Prop :=
  forall s cur, split_lines_aux (x ++ s) cur false = split_lines_aux s (rev x ++ cur) false.

Lemma seg_ok_nil : seg_ok [].
Proof. intros s cur. reflexivity. Qed.

Lemma seg_ok_app x y : seg_ok x -> seg_ok y -> seg_ok (x ++ y).
Proof.
  intros Hx Hy s cur. rewrite <- app_assoc, Hx, Hy, rev_app_distr, <- app_assoc. reflexivity.
Qed.

Lemma seg_ok_plain x : ~ In 10 x -> ~ In 34 x -> seg_ok x.
Proof.
  induction x as [|c x IH]; intros H10 H34 s cur; [reflexivity|].
  apply not_in_cons_iff in H10. apply not_in_cons_iff in H34. destruct H10 as [N10 H10]. destruct H34 as [N34 H34].
  cbn [app split_lines_aux].
  destruct (Z.eqb_spec c 10) as [E|_]; [contradiction|]. cbn [andb].
  destruct (Z.eqb_spec c 34) as [E|_]; [contradiction|].
  rewrite (IH H10 H34). cbn [rev]. rewrite <- app_assoc. reflexivity.
Qed.

Lemma split_inq x : ~ In 34 x -> forall s cur,
  split_lines_aux (x ++ s) cur true = split_lines_aux s (rev x ++ cur) true.
Proof.
  induction x as [|c x IH]; intros H34 s cur; [reflexivity|].
  apply not_in_cons_iff in H34. destruct H34 as [N34 H34].
  cbn [app split_lines_aux]. rewrite andb_false_r.
  destruct (Z.eqb_spec c 34) as [E|_]; [contradiction|].
  rewrite (IH H34). cbn [rev]. rewrite <- app_assoc. reflexivity.
Qed.

(* a string between double quotes; newlines inside do not count *)
Lemma seg_ok_quoted d : ~ In 34 d -> seg_ok (34 :: d ++ [34]).
Proof.
  intros H34 s cur. cbn [app split_lines_aux andb Z.eqb negb]. cbn [Pos.eqb].
  rewrite <- app_assoc, (split_inq d H34). cbn [app split_lines_aux Z.eqb Pos.eqb andb negb].
  cbn [rev]. rewrite rev_app_distr. cbn [rev app]. rewrite <- !app_assoc. reflexivity.
Qed.

Lemma split_line_end l : seg_ok l -> forall s,
  split_lines_aux (l ++ 10 :: s) [] false = l :: split_lines_aux s [] false.
Proof.
  intros Hl s. rewrite Hl. cbn [split_lines_aux Z.eqb Pos.eqb andb negb]. rewrite app_nil_r, rev_involutive. reflexivity.
Qed.

Definition unlines (ls : list str) : str := concat (map (fun l => l ++ [10]) ls).

Lemma unlines_app a b : unlines (a ++ b) = unlines a ++ unlines b.
Proof. unfold unlines. rewrite map_app, concat_app. reflexivity. Qed.

Lemma unlines_cons l ls : unlines (l :: ls) = l ++ 10 :: unlines ls.
Proof. unfold unlines. cbn [map concat]. rewrite <- app_assoc. reflexivity. Qed.

Lemma split_unlines ls : Forall seg_ok ls -> forall s,
  split_lines_aux (unlines ls ++ s) [] false = ls ++ split_lines_aux s [] false.
Proof.
  induction 1 as [|l ls Hl _ IH]; intros s; [reflexivity|].
  rewrite unlines_cons, <- app_assoc. cbn [app]. rewrite (split_line_end l Hl), IH. reflexivity.
Qed.

Definition posting_line (v : commodity) (p : posting) : str :=
  [32;32] ++ acc_name (p_acc p) ++ [32] ++ to_string (p_val p) ++ [32] ++ strip_non_alphanum v.

Definition head_line (t : txn) : str := format_date (t_date t) ++ [32;42;32] ++ 34 :: t_desc t ++ [34].

Definition entry_lines (v : commodity) (e : bentry) : list str :=
  match e with
  | BOpen d a => [print_open d a; []]
  | BClose d a => [print_close d a; []]
  | BTxn t => head_line t :: map (posting_line v) (t_postings t) ++ [[]]
  end.

Lemma postings_lines v ps : concat (map (write_posting v) ps) = unlines (map (posting_line v) ps).
Proof.
  induction ps as [|p ps IH]; [reflexivity|].
  cbn [map concat]. rewrite unlines_cons, IH. unfold write_posting, posting_line.
  rewrite <- !app_assoc. reflexivity.
Qed.

Lemma write_entry_lines v e : write_entry v e = unlines (entry_lines v e).
Proof.
  destruct e as [d a|d a|t]; cbn [write_entry entry_lines]; rewrite unlines_cons; [reflexivity..|].
  unfold write_trx, head_line. rewrite unlines_app, postings_lines, <- !app_assoc. cbn [app]. rewrite <- app_assoc. reflexivity.
Qed.

Lemma write_entries_lines v es : concat (map (write_entry v) es) = unlines (flat_map (entry_lines v) es).
Proof.
  induction es as [|e es IH]; [reflexivity|].
  cbn [map concat flat_map]. rewrite unlines_app, IH, write_entry_lines. reflexivity.
Qed.

Lemma format_date_chars d : date_lex_b d = true ->
  Forall (fun c => c = 45 \/ 48 <= c <= 57) (format_date d).
Proof.
  unfold date_lex_b, year_of. rewrite andb_true_iff, !Z.leb_le. intros Hy.
  pose proof (civil_valid d) as Hv. unfold format_date. destruct (civil d) as [[y m] dd]. cbn [fst] in Hy.
  cbn [valid_civil] in Hv. destruct Hv as (Hm & Hd). pose proof (dim_pos y m) as Hdim.
  unfold four_digits, two_digits. cbn [app].
  repeat (apply Forall_cons; [first [left; reflexivity|right; Z.div_mod_to_equations; lia]|]). apply Forall_nil.
Qed.

Lemma format_date_no c d : date_lex_b d = true -> c < 45 -> ~ In c (format_date d).
Proof.
  intros Hd Hc Hin. pose proof (format_date_chars d Hd) as H. rewrite Forall_forall in H.
  specialize (H c Hin). lia.
Qed.

Lemma to_string_no c d : c < 45 -> ~ In c (to_string d).
Proof.
  intros Hc Hin. apply to_string_gen_chars in Hin. unfold is_digit in Hin.
  destruct Hin as [H|[H|H]]; [apply andb_true_iff in H; destruct H as [H _]; apply Z.leb_le in H|..]; lia.
Qed.

Lemma strip_chars v c : In c (strip_non_alphanum v) -> 65 <= c.
Proof.
  induction v as [|b v IH]; cbn [strip_non_alphanum]; [intros []|].
  destruct (is_ascii_letter b) eqn:E.
  - intros [<-|H]; [|exact (IH H)]. unfold is_ascii_letter in E.
    apply orb_true_iff in E. destruct E as [E|E]; apply andb_true_iff in E; destruct E as [E _]; apply Z.leb_le in E; lia.
  - destruct (is_continuation b); [exact IH|]. intros [<-|H]; [lia|exact (IH H)].
Qed.

Lemma strip_no v c : c < 65 -> ~ In c (strip_non_alphanum v).
Proof. intros Hc Hin. apply strip_chars in Hin. lia. Qed.

Lemma name_lex_spec s : name_lex_b s = true -> s <> [] /\ ~ In 32 s /\ ~ In 10 s /\ ~ In 34 s.
Proof.
  unfold name_lex_b. rewrite !andb_true_iff, !no_byte_iff, negb_true_iff. intros [[[H0 H1] H2] H3].
  repeat split; try assumption. intros ->. discriminate.
Qed.

Lemma seg_ok_cons c x : c <> 10 -> c <> 34 -> seg_ok x -> seg_ok (c :: x).
Proof.
  intros H10 H34 Hx. change (c :: x) with ([c] ++ x). apply seg_ok_app; [|exact Hx].
  apply seg_ok_plain; cbn [In]; intros [H|[]]; congruence.
Qed.

Lemma seg_ok_date d : date_lex_b d = true -> seg_ok (format_date d).
Proof. intros H. apply seg_ok_plain; apply format_date_no; try assumption; lia. Qed.

Lemma seg_ok_name s : name_lex_b s = true -> seg_ok s.
Proof. intros H. apply name_lex_spec in H. apply seg_ok_plain; tauto. Qed.

Lemma seg_ok_to_string q : seg_ok (to_string q).
Proof. apply seg_ok_plain; apply to_string_no; lia. Qed.

Lemma seg_ok_strip v : seg_ok (strip_non_alphanum v).
Proof. apply seg_ok_plain; apply strip_no; lia. Qed.

(* a line is put together from these; a literal byte is neither newline nor quote by
   [discriminate], a literal string between quotes has no quote by evaluation *)
Create HintDb seg discriminated.
#[local] Hint Resolve seg_ok_nil seg_ok_app seg_ok_cons seg_ok_quoted seg_ok_date seg_ok_name
  seg_ok_to_string seg_ok_strip : seg.
#[local] Hint Extern 0 (_ <> _) => discriminate : seg.
#[local] Hint Extern 1 (~ In _ _) => apply no_byte_iff; reflexivity : seg.

Lemma entry_lines_ok v e : entry_lex_b e = true -> Forall seg_ok (entry_lines v e).
Proof.
  destruct e as [d a|d a|t]; cbn [entry_lex_b entry_lines]; rewrite ?andb_true_iff.
  - intros [Hd Ha]. repeat constructor. unfold print_open, s_open. auto 10 with seg.
  - intros [Hd Ha]. repeat constructor. unfold print_close, s_close. auto 10 with seg.
  - intros [[Hd Hs] Hp]. apply no_byte_iff in Hs. constructor; [unfold head_line; auto 10 with seg|].
    apply Forall_app. split; [|repeat constructor].
    rewrite forallb_forall in Hp. apply Forall_forall. intros l Hl. apply in_map_iff in Hl.
    destruct Hl as (p & <- & Hin). specialize (Hp p Hin). unfold posting_line. auto 10 with seg.
Qed.

Lemma entries_lines_ok v es : entries_lex_b es = true -> Forall seg_ok (flat_map (entry_lines v) es).
Proof.
  unfold entries_lex_b. induction es as [|e es IH]; cbn [forallb flat_map]; [constructor|].
  rewrite andb_true_iff. intros [He Hes]. apply Forall_app. split; [apply entry_lines_ok; exact He|apply IH; exact Hes].
Qed.

Definition option_line (v : commodity) : str := s_option ++ v ++ [34].

Lemma seg_ok_option v : ~ In 34 v -> seg_ok (option_line v).
Proof.
  intros Hv.
  change (option_line v) with
    ([111;112;116;105;111;110;32] ++
     (34 :: [111;112;101;114;97;116;105;110;103;95;99;117;114;114;101;110;99;121] ++ [34]) ++
     [32] ++ (34 :: v ++ [34])).
  auto 12 with seg.
Qed.

Definition ledger_text (v : commodity) (es : list bentry) : str :=
  s_option ++ v ++ [34;10;10] ++ concat (map (write_entry v) es).

Lemma ledger_text_lines v es :
  ledger_text v es = unlines (option_line v :: [] :: flat_map (entry_lines v) es).
Proof.
  unfold ledger_text, option_line. rewrite write_entries_lines, !unlines_cons, <- !app_assoc. reflexivity.
Qed.

Lemma split_ledger_text v es : ~ In 34 v -> entries_lex_b es = true ->
  split_lines (ledger_text v es) = option_line v :: [] :: flat_map (entry_lines v) es ++ [[]].
Proof.
  intros Hv Hes. rewrite ledger_text_lines. unfold split_lines.
  rewrite <- (app_nil_r (unlines _)). rewrite split_unlines.
  - reflexivity.
  - apply Forall_cons; [apply seg_ok_option; exact Hv|]. apply Forall_cons; [apply seg_ok_nil|].
    apply entries_lines_ok. exact Hes.
Qed.

Lemma strip_prefix_app p s : strip_prefix p (p ++ s) = Some s.
Proof. induction p as [|x p IH]; [destruct s; reflexivity|]. cbn [app strip_prefix]. rewrite Z.eqb_refl. exact IH. Qed.

Lemma strip_last_quote_app s : strip_last_quote (s ++ [34]) = Some s.
Proof. unfold strip_last_quote. rewrite rev_app_distr. cbn [rev app]. rewrite rev_involutive. reflexivity. Qed.

Lemma read_format_date d rest : date_lex_b d = true -> read_date (format_date d ++ rest) = Some (d, rest).
Proof.
  unfold date_lex_b, year_of. rewrite andb_true_iff, !Z.leb_le. intros Hy.
  pose proof (civil_valid d) as Hv. pose proof (of_civil_civil d) as Ho.
  unfold format_date. destruct (civil d) as [[y m] dd]. cbn [fst] in Hy. cbn [valid_civil] in Hv.
  destruct Hv as (Hm & Hd). pose proof (dim_pos y m) as Hdim.
  destruct (four_digits_spec y Hy) as (y1 & y2 & y3 & y4 & -> & Y1 & Y2 & Y3 & Y4 & Ey).
  destruct (two_digits_spec m ltac:(lia)) as (m1 & m2 & -> & M1 & M2 & Em).
  destruct (two_digits_spec dd ltac:(lia)) as (d1 & d2' & -> & D1 & D2 & Ed).
  cbn [app]. unfold read_date. cbn [forallb]. rewrite Y1, Y2, Y3, Y4, M1, M2, D1, D2. cbn [andb]. unfold d2.
  replace (((y1 - 48) * 10 + (y2 - 48)) * 100 + ((y3 - 48) * 10 + (y4 - 48))) with y by lia.
  replace ((m1 - 48) * 10 + (m2 - 48)) with m by lia. replace ((d1 - 48) * 10 + (d2' - 48)) with dd by lia.
  unfold parse_ymd. rewrite !(proj2 (Z.leb_le _ _)) by lia.
  cbn [andb]. rewrite Ho. reflexivity.
Qed.

Lemma format_date_head d : date_lex_b d = true -> exists c t, format_date d = c :: t /\ c <> 32.
Proof.
  intros Hd. pose proof (format_date_chars d Hd) as H. unfold format_date in *.
  destruct (civil d) as [[y m] dd]. unfold four_digits in *. cbn [app] in *.
  eexists. eexists. split; [reflexivity|]. apply Forall_inv in H. cbn beta in H. lia.
Qed.

(* what read_line does with the rest of a line that starts with a date *)
Definition dated_line (d : Z) (rest : str) : line :=
  match strip_prefix s_kw_open rest with
  | Some a => if no_space a then LOpen d a else LBad
  | None =>
    match strip_prefix s_kw_close rest with
    | Some a => if no_space a then LClose d a else LBad
    | None =>
      match strip_prefix s_kw_txn rest with
      | Some r => match strip_last_quote r with Some desc => LTxn d desc | None => LBad end
      | None => LBad
      end
    end
  end.

Lemma read_line_dated d rest : date_lex_b d = true -> read_line (format_date d ++ rest) = dated_line d rest.
Proof.
  intros Hd. pose proof (read_format_date d rest Hd) as Hr.
  destruct (format_date_head d Hd) as (c & t & E & Hc). rewrite E in *. cbn [app] in *.
  assert (Hl : read_line (c :: t ++ rest) =
               match read_date (c :: t ++ rest) with Some (d, rest) => dated_line d rest | None => LBad end).
  { unfold read_line. destruct c as [|p|p]; try reflexivity.
    do 6 (destruct p as [p|p|]; try reflexivity). exfalso. apply Hc. reflexivity. }
  rewrite Hl, Hr. reflexivity.
Qed.

Lemma no_space_name s : name_lex_b s = true -> no_space s = true.
Proof.
  intros H. apply name_lex_spec in H. destruct H as (Hne & H32 & _). unfold no_space.
  apply no_byte_iff in H32. unfold no_byte in H32. rewrite H32. destruct s; [congruence|reflexivity].
Qed.

Lemma read_line_open d a : date_lex_b d = true -> name_lex_b (acc_name a) = true ->
  read_line (print_open d a) = LOpen d (acc_name a).
Proof.
  intros Hd Ha. unfold print_open. rewrite (read_line_dated d _ Hd). unfold dated_line.
  change s_open with s_kw_open. rewrite strip_prefix_app, (no_space_name _ Ha). reflexivity.
Qed.

Lemma read_line_close d a : date_lex_b d = true -> name_lex_b (acc_name a) = true ->
  read_line (print_close d a) = LClose d (acc_name a).
Proof.
  intros Hd Ha. unfold print_close. rewrite (read_line_dated d _ Hd). unfold dated_line.
  change (strip_prefix s_kw_open (s_close ++ acc_name a)) with (@None str).
  change s_close with s_kw_close. rewrite strip_prefix_app, (no_space_name _ Ha). reflexivity.
Qed.

Lemma read_line_head t : date_lex_b (t_date t) = true -> read_line (head_line t) = LTxn (t_date t) (t_desc t).
Proof.
  intros Hd. unfold head_line. rewrite (read_line_dated _ _ Hd). unfold dated_line.
  change ([32;42;32] ++ 34 :: t_desc t ++ [34]) with (s_kw_txn ++ t_desc t ++ [34]).
  change (strip_prefix s_kw_open (s_kw_txn ++ t_desc t ++ [34])) with (@None str).
  change (strip_prefix s_kw_close (s_kw_txn ++ t_desc t ++ [34])) with (@None str).
  rewrite strip_prefix_app, strip_last_quote_app. reflexivity.
Qed.

Lemma split_on_aux_run c x : ~ In c x -> forall s cur,
  split_on_aux c (x ++ s) cur = split_on_aux c s (rev x ++ cur).
Proof.
  induction x as [|b x IH]; intros Hx s cur; [reflexivity|].
  apply not_in_cons_iff in Hx. destruct Hx as [Hb Hx]. cbn [app split_on_aux].
  destruct (Z.eqb_spec b c) as [E|_]; [contradiction|].
  rewrite (IH Hx). cbn [rev]. rewrite <- app_assoc. reflexivity.
Qed.

Lemma split_on_three a q c : ~ In 32 a -> ~ In 32 q -> ~ In 32 c ->
  split_on 32 (a ++ [32] ++ q ++ [32] ++ c) = [a; q; c].
Proof.
  intros Ha Hq Hc. unfold split_on.
  rewrite (split_on_aux_run 32 a Ha). cbn [app split_on_aux Z.eqb Pos.eqb]. rewrite app_nil_r, rev_involutive.
  rewrite (split_on_aux_run 32 q Hq). cbn [app split_on_aux Z.eqb Pos.eqb]. rewrite app_nil_r, rev_involutive.
  rewrite <- (app_nil_r c) at 1. rewrite (split_on_aux_run 32 c Hc). cbn [split_on_aux].
  rewrite app_nil_r, rev_involutive. reflexivity.
Qed.

Lemma no_space_strip v : strip_non_alphanum v <> [] -> no_space (strip_non_alphanum v) = true.
Proof.
  intros Hne. unfold no_space.
  assert (H : existsb (Z.eqb 32) (strip_non_alphanum v) = false).
  { pose proof (proj2 (no_byte_iff 32 (strip_non_alphanum v)) (strip_no v 32 ltac:(lia))) as H.
    unfold no_byte in H. apply negb_true_iff in H. exact H. }
  rewrite H. destruct (strip_non_alphanum v); [congruence|reflexivity].
Qed.

Lemma read_line_posting v p : strip_non_alphanum v <> [] -> name_lex_b (acc_name (p_acc p)) = true ->
  read_line (posting_line v p) = LPosting (acc_name (p_acc p)) (reread (p_val p)) (strip_non_alphanum v).
Proof.
  intros Hv Ha. pose proof (no_space_name _ Ha) as Hns. apply name_lex_spec in Ha. destruct Ha as (_ & H32 & _).
  unfold posting_line. cbn [app]. unfold read_line.
  change (acc_name (p_acc p) ++ 32 :: to_string (p_val p) ++ 32 :: strip_non_alphanum v)
    with (acc_name (p_acc p) ++ [32] ++ to_string (p_val p) ++ [32] ++ strip_non_alphanum v).
  rewrite split_on_three; [|exact H32|apply to_string_no; lia|apply strip_no; lia].
  rewrite (proj1 (reread_spec (p_val p))), Hns, (no_space_strip v Hv). reflexivity.
Qed.

Lemma read_lines_postings v d desc ps : strip_non_alphanum v <> [] ->
  forallb (fun p => name_lex_b (acc_name (p_acc p))) ps = true ->
  forall rest cur acc,
  read_lines (map (posting_line v) ps ++ rest) (Some (d, desc, cur)) acc =
  read_lines rest (Some (d, desc, rev (map reread_sposting (map (erase_posting v) ps)) ++ cur)) acc.
Proof.
  intros Hv. induction ps as [|p ps IH]; intros Hp rest cur acc; [reflexivity|].
  cbn [forallb] in Hp. apply andb_true_iff in Hp. destruct Hp as [Hp Hps].
  cbn [map app read_lines]. rewrite (read_line_posting v p Hv Hp). rewrite (IH Hps).
  cbn [rev]. rewrite <- app_assoc. reflexivity.
Qed.

Lemma read_lines_entry v e : strip_non_alphanum v <> [] -> entry_lex_b e = true -> forall rest acc,
  read_lines (entry_lines v e ++ rest) None acc = read_lines rest None (reread_entry (erase_entry v e) :: acc).
Proof.
  intros Hv. destruct e as [d a|d a|t]; cbn [entry_lex_b entry_lines erase_entry reread_entry]; rewrite ?andb_true_iff.
  - intros [Hd Ha] rest acc. cbn [app read_lines]. rewrite (read_line_open d a Hd Ha). reflexivity.
  - intros [Hd Ha] rest acc. cbn [app read_lines]. rewrite (read_line_close d a Hd Ha). reflexivity.
  - intros [[Hd Hs] Hp] rest acc. cbn [app read_lines]. rewrite (read_line_head t Hd).
    rewrite <- app_assoc, (read_lines_postings v _ _ _ Hv Hp). cbn [app read_lines read_line].
    rewrite app_nil_r, rev_involutive. reflexivity.
Qed.

Lemma read_lines_entries v es : strip_non_alphanum v <> [] -> entries_lex_b es = true -> forall rest acc,
  read_lines (flat_map (entry_lines v) es ++ rest) None acc =
  read_lines rest None (rev (reread_entries (erase_entries v es)) ++ acc).
Proof.
  intros Hv. unfold entries_lex_b. induction es as [|e es IH]; intros Hes rest acc; [reflexivity|].
  cbn [forallb] in Hes. apply andb_true_iff in Hes. destruct Hes as [He Hes].
  cbn [flat_map]. rewrite <- app_assoc, (read_lines_entry v e Hv He), (IH Hes).
  unfold reread_entries, erase_entries. cbn [map rev]. rewrite <- app_assoc. reflexivity.
Qed.

Lemma commodity_lex_spec v : commodity_lex_b v = true -> ~ In 10 v /\ ~ In 34 v /\ strip_non_alphanum v <> [].
Proof.
  unfold commodity_lex_b. rewrite !andb_true_iff, !no_byte_iff, negb_true_iff. intros [[H1 H2] H3].
  repeat split; try assumption. intros E. rewrite E in H3. discriminate.
Qed.

Theorem read_ledger_text v es : commodity_lex_b v = true -> entries_lex_b es = true ->
  read_ledger (ledger_text v es) = Some (v, reread_entries (erase_entries v es)).
Proof.
  intros Hv Hes. apply commodity_lex_spec in Hv. destruct Hv as (_ & H34 & Hne).
  unfold read_ledger. rewrite (split_ledger_text v es H34 Hes).
  unfold option_line. change s_kw_option with s_option. rewrite strip_prefix_app, strip_last_quote_app.
  cbn [read_lines read_line]. rewrite (read_lines_entries v es Hne Hes). cbn [read_lines read_line].
  rewrite app_nil_r, rev_involutive. reflexivity.
Qed.

Lemma transcode_is_ledger_text days v : transcode days v = ledger_text v (transcode_entries days []).
Proof. reflexivity. Qed.

(* what the reader returns equals the erased items as text: the comparison of
   Spec/BeancountErase.v (amounts through Decimal.String) cannot tell q from reread q *)
Lemma sposting_eqb_reread x : sposting_eqb (reread_sposting x) x = true.
Proof.
  unfold sposting_eqb, reread_sposting, account_of, amount_of, commodity_of. cbn [fst snd].
  rewrite to_string_reread, !str_eqb_refl. reflexivity.
Qed.

Lemma sentry_eqb_reread e : sentry_eqb (reread_entry e) e = true.
Proof.
  destruct e as [d a|d a|d s ps]; cbn [reread_entry sentry_eqb]; rewrite ?Z.eqb_refl, ?str_eqb_refl; try reflexivity.
  cbn [andb]. induction ps as [|x ps IH]; [reflexivity|]. cbn [map list_eqb]. rewrite sposting_eqb_reread, IH. reflexivity.
Qed.

Lemma list_eqb_reread es : list_eqb sentry_eqb (reread_entries es) es = true.
Proof.
  induction es as [|e es IH]; [reflexivity|]. unfold reread_entries. cbn [map list_eqb].
  fold (reread_entries es). rewrite sentry_eqb_reread, IH. reflexivity.
Qed.

Theorem roundtrip_b_true v days : commodity_lex_b v = true -> entries_lex_b (transcode_entries days []) = true ->
  roundtrip_b v days = true.
Proof.
  intros Hv Hes. unfold roundtrip_b. rewrite transcode_is_ledger_text, (read_ledger_text v _ Hv Hes).
  rewrite str_eqb_refl, list_eqb_reread. reflexivity.
Qed.
