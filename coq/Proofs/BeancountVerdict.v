(* C16: the executable verdict does not see the difference between an amount and the amount as it
   is after a trip through its text (reread): every clause looks at values, never at the
   coefficient/exponent pair.  Hence the verdict on the model's own text is the verdict on the
   erased items.

   In order: reread keeps the value, and greater_than, is_zero, within_bound depend on values
   only; beancount_check, complete_check, mtm_check on reread entries; the verdict on the model's
   text; what the order and commodity clauses of beancount_check need of the model's items, and
   the kinds of violation that are left. *)
From Coq Require Import ZArith QArith Qabs List Bool Lia.
From Knut Require Import Proofs.ListFacts Model.Str Model.Dec Model.Date Model.Account Model.Ledger Model.Journal
     Model.Cli Model.Beancount Model.CliTranscode
     Spec.TableSpec Spec.ValuationSpec Spec.BeancountSpec Spec.BeancountErase Spec.BeancountMtmSpec Spec.BeancountLex
     Proofs.DecProofs Proofs.DecValue Proofs.DecNormalForm Proofs.MarkToMarketSteps Proofs.TranscodeMtmSum
     Proofs.BeancountRead.
Import ListNotations.

Open Scope Q_scope.

Lemma dec_eqv_value a b : dec_eqv a b -> dvalue a == dvalue b.
Proof.
  unfold dec_eqv, coef_at. intros H. set (m := Z.min (ex a) (ex b)) in *.
  rewrite <- (scale_to_value a m), <- (scale_to_value b m) by (unfold m; lia).
  unfold scale_to, pow10. rewrite H. reflexivity.
Qed.

Lemma reread_value q : dvalue (reread q) == dvalue q.
Proof. apply dec_eqv_value. apply reread_eqv. Qed.

Lemma greater_than_compat x x' y : dvalue x == dvalue x' -> greater_than x y = greater_than x' y.
Proof. intros E. apply eq_iff_eq_true. rewrite !greater_than_value, E. reflexivity. Qed.

Lemma within_bound_compat o o' e n : dvalue o == dvalue o' -> within_bound o e n = within_bound o' e n.
Proof.
  intros E. unfold within_bound. f_equal. apply greater_than_compat.
  rewrite !dvalue_dabs, !dvalue_sub, E. reflexivity.
Qed.

Lemma is_zero_compat x y : dvalue x == dvalue y -> is_zero x = is_zero y.
Proof. intros E. apply eq_iff_eq_true. rewrite !is_zero_value, E. reflexivity. Qed.

Lemma account_of_reread x : account_of (reread_sposting x) = account_of x.
Proof. reflexivity. Qed.
Lemma commodity_of_reread x : commodity_of (reread_sposting x) = commodity_of x.
Proof. reflexivity. Qed.
Lemma amount_of_reread x : amount_of (reread_sposting x) = reread (amount_of x).
Proof. reflexivity. Qed.

Lemma fold_value_compat {A} (f : dec -> A -> dec) (h : A -> A) :
  (forall a a' x, dvalue a == dvalue a' -> dvalue (f a (h x)) == dvalue (f a' x)) ->
  forall l a a', dvalue a == dvalue a' -> dvalue (fold_left f (map h l) a) == dvalue (fold_left f l a').
Proof.
  intros Hf. induction l as [|x l IH]; intros a a' E; cbn [map fold_left]; [exact E|].
  apply IH. apply Hf. exact E.
Qed.

Lemma sum_amounts_reread ps : forall a a', dvalue a == dvalue a' ->
  dvalue (fold_left (fun acc x => add acc (amount_of x)) (map reread_sposting ps) a)
  == dvalue (fold_left (fun acc x => add acc (amount_of x)) ps a').
Proof.
  apply fold_value_compat. intros a a' x E. rewrite !dvalue_add, amount_of_reread, reread_value, E. reflexivity.
Qed.

Lemma txn_balanced_reread ps : txn_balanced_b (map reread_sposting ps) = txn_balanced_b ps.
Proof. unfold txn_balanced_b, sum_amounts. apply is_zero_compat. apply sum_amounts_reread. reflexivity. Qed.

Lemma entry_date_reread e : entry_date (reread_entry e) = entry_date e.
Proof. destruct e; reflexivity. Qed.
Lemma entry_label_reread e : entry_label (reread_entry e) = entry_label e.
Proof. destruct e; reflexivity. Qed.

Lemma next_state_reread st e : next_state st (reread_entry e) = next_state st e.
Proof. destruct e; reflexivity. Qed.

Lemma forallb_map {A B} (f : B -> bool) (g : A -> B) l : forallb f (map g l) = forallb (fun x => f (g x)) l.
Proof. induction l as [|x l IH]; [reflexivity|]. cbn [map forallb]. rewrite IH. reflexivity. Qed.

Lemma check_entry_reread v st e : check_entry v st (reread_entry e) = check_entry v st e.
Proof.
  unfold check_entry. rewrite entry_date_reread, entry_label_reread, next_state_reread.
  destruct e as [d a|d a|d desc ps]; cbn [reread_entry]; try reflexivity.
  rewrite txn_balanced_reread, forallb_map, flat_map_map. reflexivity.
Qed.

Lemma check_entries_reread v es : forall st, check_entries v st (reread_entries es) = check_entries v st es.
Proof.
  induction es as [|e es IH]; intros st; [reflexivity|].
  unfold reread_entries. cbn [map check_entries]. fold (reread_entries es).
  rewrite check_entry_reread. destruct (check_entry v st e) as [vs st']. rewrite IH. reflexivity.
Qed.

Lemma beancount_check_reread v es : beancount_check v (reread_entries es) = beancount_check v es.
Proof. apply check_entries_reread. Qed.

Lemma entry_keys_reread es : entry_keys (reread_entries es) = entry_keys es.
Proof.
  unfold entry_keys, reread_entries. rewrite flat_map_map. apply flat_map_ext. intros e.
  destruct e as [d a|d a|d desc ps]; cbn [reread_entry]; try reflexivity.
  rewrite map_map. reflexivity.
Qed.

Lemma complete_check_reread sds es : complete_check sds (reread_entries es) = complete_check sds es.
Proof. unfold complete_check. rewrite entry_keys_reread. reflexivity. Qed.

Lemma posting_total_reread name ps : forall a a', dvalue a == dvalue a' ->
  dvalue (fold_left (fun a x => if str_eqb (account_of x) name then add a (amount_of x) else a) (map reread_sposting ps) a)
  == dvalue (fold_left (fun a x => if str_eqb (account_of x) name then add a (amount_of x) else a) ps a').
Proof.
  apply fold_value_compat. intros a a' x E. rewrite account_of_reread.
  destruct (str_eqb (account_of x) name); [|exact E].
  rewrite !dvalue_add, amount_of_reread, reread_value, E. reflexivity.
Qed.

Lemma ledger_total_reread es name : dvalue (ledger_total (reread_entries es) name) == dvalue (ledger_total es name).
Proof.
  unfold ledger_total, reread_entries. apply fold_value_compat; [|reflexivity]. intros a a' e E.
  destruct e as [d b|d b|d desc ps]; cbn [reread_entry]; try exact E. apply posting_total_reread. exact E.
Qed.

Lemma mtm_check_reread dl V es : mtm_check dl V (reread_entries es) = mtm_check dl V es.
Proof.
  unfold mtm_check. apply flat_map_ext. intros a.
  destruct (market_value dl V a (last_date dl)) as [e|]; [|reflexivity].
  rewrite (within_bound_compat _ _ e _ (ledger_total_reread es (acc_name a))). reflexivity.
Qed.

Open Scope Z_scope.

(* the three clauses of c16_verdict_mtm on a list of entries *)
Definition c16_violations (sds : list sdirective) (V : commodity) (es : list sentry) : list violation :=
  beancount_check V es ++ complete_check sds es ++
  match parse_directives sds with MOk dl => mtm_check dl V es | _ => [] end.

Lemma c16_violations_reread sds V es : c16_violations sds V (reread_entries es) = c16_violations sds V es.
Proof.
  unfold c16_violations. rewrite beancount_check_reread, complete_check_reread.
  destruct (parse_directives sds); try reflexivity. rewrite mtm_check_reread. reflexivity.
Qed.

Theorem verdict_on_ledger_text sds v es : commodity_lex_b v = true -> entries_lex_b es = true ->
  c16_verdict_mtm sds v (ledger_text v es) = verdict_of (c16_violations sds v (erase_entries v es)).
Proof.
  intros Hv Hes. unfold c16_verdict_mtm. rewrite (read_ledger_text v es Hv Hes).
  fold (c16_violations sds v (reread_entries (erase_entries v es))). rewrite c16_violations_reread. reflexivity.
Qed.

Theorem verdict_on_model_text sds v days : commodity_lex_b v = true ->
  entries_lex_b (transcode_entries days []) = true ->
  c16_verdict_mtm sds v (transcode days v)
  = verdict_of (c16_violations sds v (erase_entries v (transcode_entries days []))).
Proof. intros Hv Hes. rewrite transcode_is_ledger_text. apply verdict_on_ledger_text; assumption. Qed.

(* what the order and commodity clauses of beancount_check need of the model's items, and the kinds
   of violation that are left: those check_posting raises (an account without an open directive in
   force) *)
From Knut Require Import Proofs.CalendarSweep Proofs.CalendarProofs Proofs.DateProofs.

Definition posting_kind (x : violation) : Prop :=
  v_kind x = k_unopened \/ v_kind x = k_use_after_close \/ v_kind x = k_unopened_val \/ v_kind x = k_closed_val.

Lemma check_posting_kind st date desc x : Forall posting_kind (check_posting st date desc x).
Proof.
  unfold check_posting. destruct (mem_dated (account_of x) date (st_open st)); [constructor|].
  destruct (valuation_posting st desc (account_of x)).
  - constructor; [|constructor]. unfold posting_kind. cbn [v_kind].
    destruct (mem (account_of x) (st_closed st)); auto.
  - destruct (mem (account_of x) (st_closed st)); (constructor; [|constructor]); unfold posting_kind; cbn [v_kind]; auto.
Qed.

Definition entry_commodity_ok (v : str) (e : sentry) : Prop :=
  match e with ETxn _ _ ps => forallb (fun x => commodity_ok v (commodity_of x)) ps = true | _ => True end.

Lemma all_ascii_strip v : all_ascii_letters (strip_non_alphanum v) = true.
Proof.
  induction v as [|b v IH]; [reflexivity|]. cbn [strip_non_alphanum].
  destruct (is_ascii_letter b) eqn:E; [cbn [all_ascii_letters forallb]; unfold is_ascii_letter in E; rewrite E; exact IH|].
  destruct (is_continuation b); [exact IH|]. cbn [all_ascii_letters forallb]. exact IH.
Qed.

Lemma strip_letters v : all_ascii_letters v = true -> strip_non_alphanum v = v.
Proof.
  induction v as [|b v IH]; [reflexivity|]. cbn [all_ascii_letters forallb]. rewrite andb_true_iff. intros [Hb Hv].
  cbn [strip_non_alphanum]. unfold is_ascii_letter. rewrite Hb. f_equal. apply IH. exact Hv.
Qed.

Lemma strip_length v : (length (strip_non_alphanum v) <= length v)%nat.
Proof.
  induction v as [|b v IH]; [reflexivity|]. cbn [strip_non_alphanum].
  destruct (is_ascii_letter b); [cbn [length]; lia|]. destruct (is_continuation b); cbn [length]; lia.
Qed.

Lemma commodity_ok_strip v : commodity_ok v (strip_non_alphanum v) = true.
Proof.
  unfold commodity_ok. destruct (all_ascii_letters v) eqn:E.
  - rewrite (strip_letters v E). apply StrProofs.str_eqb_refl.
  - rewrite all_ascii_strip. cbn [andb]. apply Z.leb_le. pose proof (strip_length v). lia.
Qed.

Lemma erased_commodity_ok v es : Forall (entry_commodity_ok v) (erase_entries v es).
Proof.
  unfold erase_entries. apply Forall_forall. intros e He. apply in_map_iff in He. destruct He as (b & <- & _).
  destruct b as [d a|d a|t]; cbn [erase_entry entry_commodity_ok]; try exact I.
  apply forallb_forall. intros x Hx. apply in_map_iff in Hx. destruct Hx as (p & <- & _).
  unfold erase_posting, commodity_of. cbn [snd]. apply commodity_ok_strip.
Qed.

(* the least date of the years 0000..9999 *)
Lemma date_lex_min d : date_lex_b d = true -> min_date <= d.
Proof.
  unfold date_lex_b, min_date. rewrite andb_true_iff, Z.leb_le. intros [Hy _].
  destruct (Z_le_gt_dec (-366) d) as [H|H]; [exact H|exfalso].
  assert (Hle : d <= -367) by lia. pose proof (civil_le_mono d (-367) Hle) as Hc.
  unfold year_of in Hy. change (civil (-367)) with (-1, 12, 31) in Hc.
  destruct (civil d) as [[y m] dd]. cbn [fst] in Hy. destruct Hc as [Hc|Hc].
  - inversion Hc. lia.
  - cbn [lex_lt] in Hc. lia.
Qed.

Lemma entries_lex_min v es : entries_lex_b es = true -> Forall (fun e => min_date <= entry_date e) (erase_entries v es).
Proof.
  unfold entries_lex_b, erase_entries. rewrite forallb_forall. intros H. apply Forall_forall. intros e He.
  apply in_map_iff in He. destruct He as (b & <- & Hb). specialize (H b Hb).
  destruct b as [d a|d a|t]; cbn [entry_lex_b erase_entry entry_date] in *; rewrite ?andb_true_iff in H;
    apply date_lex_min; tauto.
Qed.
