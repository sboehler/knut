(* C16: where the violations of beancount_check on the model's items come from.  With
   C16_chronological, C16_balanced, C16_open_before_use and C16_adjusted_account_open: every
   violation is a posting violation (no open directive in force) raised by a posting of a VALUE
   ADJUSTMENT on an account that is not an asset or liability account -- the Income:... account of
   F16/F16b.  (That check_posting then classifies it as the known shape, and that complete_check
   finds nothing, is not proved here.) *)
From Coq Require Import ZArith List Bool Lia Sorted.
From Knut Require Import Model.Str Model.Dec Model.Date Model.Account Model.Ledger Model.Journal
     Model.Cli Model.Beancount Model.CliTranscode
     Spec.LedgerSyntax Spec.BeancountSpec Spec.BeancountErase Spec.BeancountLex
     Proofs.BeancountProofs Proofs.TranscodeOpenAL Proofs.BeancountRead Proofs.BeancountVerdict
     Proofs.BeancountLexDays.
Import ListNotations.
Open Scope bool_scope.
Open Scope Z_scope.

(* a violation belongs to one entry, checked in the state after the entries before it *)
Lemma check_entries_in v es : forall st x, In x (check_entries v st es) ->
  exists pre e post, es = pre ++ e :: post /\ In x (fst (check_entry v (fold_left next_state pre st) e)).
Proof.
  induction es as [|e es IH]; intros st x Hx; cbn [check_entries] in Hx; [destruct Hx|].
  destruct (check_entry v st e) as [vs st'] eqn:E.
  assert (Est : st' = next_state st e) by (unfold check_entry in E; inversion E; reflexivity).
  apply in_app_or in Hx. destruct Hx as [Hx|Hx].
  - exists [], e, es. split; [reflexivity|]. cbn [fold_left]. rewrite E. exact Hx.
  - destruct (IH st' x Hx) as (pre & e' & post & -> & Hin). exists (e :: pre), e', post.
    split; [reflexivity|]. cbn [fold_left]. rewrite <- Est. exact Hin.
Qed.

(* the open directives in force are dated on or before the last entry *)
Definition open_dates_ok (st : bstate) : Prop := forall a d, In (a, d) (st_open st) -> d <= st_last st.

Lemma next_state_dates_ok st e : open_dates_ok st -> open_dates_ok (next_state st e).
Proof.
  intros H a d Hin. destruct e as [d' a'|d' a'|d' desc ps]; cbn [next_state st_open st_last entry_date] in *.
  - destruct Hin as [E|Hin]; [inversion E; subst; lia|]. specialize (H a d Hin). lia.
  - apply filter_In in Hin. destruct Hin as [Hin _]. specialize (H a d Hin). lia.
  - specialize (H a d Hin). lia.
Qed.

Lemma fold_dates_ok es : forall st, open_dates_ok st -> open_dates_ok (fold_left next_state es st).
Proof. induction es as [|e es IH]; intros st H; [exact H|]. cbn [fold_left]. apply IH. apply next_state_dates_ok. exact H. Qed.

Lemma st_last_next st e : st_last (next_state st e) = Z.max (entry_date e) (st_last st).
Proof. destruct e; reflexivity. Qed.

Lemma fold_last_le D es : forall st, st_last st <= D -> Forall (fun e => entry_date e <= D) es ->
  st_last (fold_left next_state es st) <= D.
Proof.
  induction es as [|e es IH]; intros st Hst Hes; [exact Hst|]. inversion Hes; subst. cbn [fold_left]. apply IH; [|assumption].
  rewrite st_last_next. lia.
Qed.

Lemma sorted_app_le l1 x l2 : StronglySorted Z.le (l1 ++ x :: l2) -> Forall (fun y => y <= x) l1.
Proof.
  induction l1 as [|y l1 IH]; intros H; [constructor|]. cbn [app] in H. inversion H as [|? ? H1 H2]; subst.
  constructor; [|apply IH; exact H1]. rewrite Forall_forall in H2. apply H2. apply in_or_app. right. left. reflexivity.
Qed.

Lemma mem_dated_of_mem a date (l : list (str * Z)) : mem a (map fst l) = true ->
  (forall a' d', In (a', d') l -> d' <= date) -> mem_dated a date l = true.
Proof.
  unfold mem. induction l as [|[a' d'] l IH]; cbn [map existsb mem_dated fst]; [discriminate|].
  intros H Hd. apply orb_true_iff in H. apply orb_true_iff. destruct H as [H|H].
  - left. rewrite H. cbn [andb]. apply Z.leb_le. apply (Hd a' d'). left. reflexivity.
  - right. apply IH; [exact H|]. intros a2 d2 Hin. apply (Hd a2 d2). right. exact Hin.
Qed.

Lemma check_posting_open st d desc sp : open_dates_ok st -> st_last st <= d ->
  mem (account_of sp) (map fst (st_open st)) = true -> check_posting st d desc sp = [].
Proof.
  intros Hok Hl Hm. unfold check_posting. rewrite (mem_dated_of_mem _ d _ Hm); [reflexivity|].
  intros a' d' H. specialize (Hok a' d' H). lia.
Qed.

Lemma check_posting_detail st d desc sp x : In x (check_posting st d desc sp) -> v_detail x = account_of sp.
Proof.
  unfold check_posting. destruct (mem_dated (account_of sp) d (st_open st)); [intros []|].
  destruct (valuation_posting st desc (account_of sp)); [|destruct (mem (account_of sp) (st_closed st))];
    intros [<-|[]]; reflexivity.
Qed.

Lemma check_entries_origin v es st x :
  StronglySorted Z.le (map entry_date es) -> Forall (fun e => st_last st <= entry_date e) es ->
  Forall entry_balanced es -> Forall (entry_commodity_ok v) es ->
  In x (check_entries v st es) ->
  exists pre d desc ps post sp, es = pre ++ ETxn d desc ps :: post /\ In sp ps /\
    st_last (fold_left next_state pre st) <= d /\
    In x (check_posting (fold_left next_state pre st) d desc sp).
Proof.
  intros Hs Hl Hb Hc Hx. apply check_entries_in in Hx. destruct Hx as (pre & e & post & -> & Hin).
  rewrite map_app in Hs. cbn [map] in Hs. apply sorted_app_le in Hs.
  assert (Hlast : st_last (fold_left next_state pre st) <= entry_date e).
  { apply fold_last_le; [exact (Forall_elt _ _ _ Hl)|].
    rewrite Forall_forall in Hs |- *. intros e' He'. apply Hs. apply in_map. exact He'. }
  apply Forall_elt in Hb. apply Forall_elt in Hc.
  unfold check_entry in Hin. cbn [fst] in Hin.
  rewrite (proj2 (Z.ltb_ge _ _) Hlast) in Hin. cbn [app] in Hin.
  destruct e as [d a|d a|d desc ps]; try (destruct Hin).
  cbn [entry_balanced] in Hb. cbn [entry_commodity_ok] in Hc. rewrite Hb, Hc in Hin. cbn [app] in Hin.
  apply in_flat_map in Hin. destruct Hin as (sp & Hsp & Hin). exists pre, d, desc, ps, post, sp. auto.
Qed.

Lemma model_violation_origin l v sds dl days x :
  parse_directives sds = MOk dl -> journal_lex_b dl = true -> transcode_days l v sds = COk days ->
  In x (beancount_check v (erase_entries v (transcode_entries days []))) ->
  exists pre t post p, transcode_entries days [] = pre ++ BTxn t :: post /\ In p (t_postings t) /\
    In x (check_posting (state_after (erase_entries v pre)) (t_date t) (t_desc t) (erase_posting v p)) /\
    mem (acc_name (p_acc p)) (map fst (st_open (state_after (erase_entries v pre)))) = false.
Proof.
  intros Hp Hj H Hx. unfold beancount_check in Hx.
  apply check_entries_origin in Hx;
    [|exact (transcode_chronological l v sds days H)
     |exact (entries_lex_min v _ (transcode_days_entries_lex l v sds dl days Hp Hj H))
     |exact (entries_balanced v days [] (transcode_days_ok _ _ _ _ H))
     |apply erased_commodity_ok].
  destruct Hx as (pre & d & desc & ps & post & sp & Hsplit & Hsp & Hlast & Hin).
  unfold erase_entries in Hsplit. apply map_eq_app in Hsplit. destruct Hsplit as (bpre & brest & Hb & <- & Erest).
  apply map_eq_cons in Erest. destruct Erest as ([d' a|d' a|t] & bpost & -> & Ee & _); try discriminate.
  cbn [erase_entry] in Ee. injection Ee as <- <- <-.
  apply in_map_iff in Hsp. destruct Hsp as (p & <- & Hp_in).
  exists bpre, t, bpost, p. repeat split; try assumption.
  destruct (mem (acc_name (p_acc p)) (map fst (st_open (state_after (erase_entries v bpre))))) eqn:Hm; [|reflexivity].
  rewrite check_posting_open in Hin; [destruct Hin|apply fold_dates_ok; intros a0 d0 []|exact Hlast|exact Hm].
Qed.

Definition adjustment_income_posting (v : commodity) (days : list day) (x : violation) : Prop :=
  exists pre t post p,
    transcode_entries days [] = pre ++ BTxn t :: post /\ adjustment (t_date t) t /\
    In p (t_postings t) /\ is_AL (p_acc p) = false /\ v_detail x = acc_name (p_acc p).

Theorem beancount_check_model l v sds dl days :
  parse_directives sds = MOk dl -> postings_syntactic dl -> journal_lex_b dl = true ->
  transcode_days l v sds = COk days ->
  Forall (fun x => posting_kind x /\ adjustment_income_posting v days x)
         (beancount_check v (erase_entries v (transcode_entries days []))).
Proof.
  intros Hp Hsyn Hj H. apply Forall_forall. intros x Hx.
  destruct (model_violation_origin l v sds dl days x Hp Hj H Hx) as (pre & t & post & p & Hsplit & Hp_in & Hin & Hm).
  split; [exact (proj1 (Forall_forall _ _) (check_posting_kind _ _ _ _) x Hin)|].
  pose proof (transcode_open_before_use l v sds days pre t post H Hsplit) as Hobu.
  pose proof (transcode_AL_open_before_use l v sds dl days pre t post Hp Hsyn H Hsplit) as Hal.
  rewrite Forall_forall in Hal. specialize (Hal p Hp_in).
  exists pre, t, post, p. repeat split; try assumption.
  - destruct Hobu as [Hadj|Hall]; [exact Hadj|]. rewrite Forall_forall in Hall. rewrite (Hall p Hp_in) in Hm. discriminate.
  - destruct (is_AL (p_acc p)); [rewrite Hal in Hm by reflexivity; discriminate|reflexivity].
  - exact (check_posting_detail _ _ _ _ _ Hin).
Qed.
