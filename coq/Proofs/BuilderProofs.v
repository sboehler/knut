(* journal.Builder (Model/Journal.v [builder_of]) groups and orders as the specification says:
   the days are strictly ascending by date, the dates are exactly the dates of the directives,
   and each day's five lists are the sublists of the input of that date and kind, in input
   order.  Hence the days, flattened, are the canonical sequence of Spec/WellformedSpec.v. *)
From Coq Require Import ZArith List Bool Lia Sorting.Sorted.
From Knut Require Import Model.Str Model.Dec Model.Account Model.Ledger Model.Price Model.Journal
     Spec.WellformedSpec.
Import ListNotations.
Open Scope bool_scope.
Open Scope Z_scope.

Lemma insert_date_in x y l : In x (insert_date y l) <-> x = y \/ In x l.
Proof.
  induction l as [|z l IH]; cbn.
  - split; intros [H|H]; auto.
  - destruct (y =? z) eqn:E1.
    + apply Z.eqb_eq in E1. subst z. cbn. split; [tauto|]. intros [H|H]; [left; symmetry; exact H|exact H].
    + destruct (y <? z) eqn:E2; cbn.
      * split; [intros [H|H]; [left; symmetry; exact H|right; exact H]|intros [H|H]; [left; symmetry; exact H|right; exact H]].
      * rewrite IH. tauto.
Qed.

Lemma insert_date_sorted x l : StronglySorted Z.lt l -> StronglySorted Z.lt (insert_date x l).
Proof.
  induction l as [|z l IH]; cbn; intros Hs.
  - constructor; constructor.
  - inversion Hs as [|y l' Hs' Hall]; subst.
    destruct (x =? z) eqn:E1; [exact Hs|].
    destruct (x <? z) eqn:E2.
    + constructor; [exact Hs|]. constructor; [lia|].
      rewrite Forall_forall in *. intros y Hy. specialize (Hall y Hy). lia.
    + constructor; [apply IH; exact Hs'|].
      rewrite Forall_forall in *. intros y Hy. apply insert_date_in in Hy. destruct Hy as [Hy|Hy].
      * subst y. apply Z.eqb_neq in E1. lia.
      * apply Hall. exact Hy.
Qed.

Lemma dates_snoc ds d : dates (ds ++ [d]) = insert_date (ddate d) (dates ds).
Proof. unfold dates. rewrite fold_left_app. reflexivity. Qed.

Lemma dates_sorted ds : StronglySorted Z.lt (dates ds).
Proof.
  induction ds as [|d ds IH] using rev_ind; [constructor|].
  rewrite dates_snoc. apply insert_date_sorted. exact IH.
Qed.

Lemma dates_in ds x : In x (dates ds) <-> In x (map ddate ds).
Proof.
  induction ds as [|d ds IH] using rev_ind; [reflexivity|].
  rewrite dates_snoc, insert_date_in, map_app, in_app_iff, IH. cbn. intuition.
Qed.

(* a strictly ascending list is determined by its members *)
Lemma sorted_unique (l1 l2 : list Z) :
  StronglySorted Z.lt l1 -> StronglySorted Z.lt l2 -> (forall x, In x l1 <-> In x l2) -> l1 = l2.
Proof.
  revert l2. induction l1 as [|a l1 IH]; intros [|b l2] S1 S2 H.
  - reflexivity.
  - exfalso. apply (H b). left. reflexivity.
  - exfalso. apply (H a). left. reflexivity.
  - inversion S1 as [|? ? S1' A1]; inversion S2 as [|? ? S2' A2]; subst.
    rewrite Forall_forall in A1, A2.
    assert (a = b).
    { destruct (proj1 (H a) (or_introl eq_refl)) as [E|E]; [symmetry; exact E|].
      destruct (proj2 (H b) (or_introl eq_refl)) as [E'|E']; [exact E'|].
      specialize (A1 _ E'). specialize (A2 _ E). lia. }
    subst b. f_equal. apply IH; try assumption.
    intros x. split; intros Hx.
    + destruct (proj1 (H x) (or_intror Hx)) as [E|E]; [|exact E]. subst x. specialize (A1 _ Hx). lia.
    + destruct (proj2 (H x) (or_intror Hx)) as [E|E]; [|exact E]. subst x. specialize (A2 _ Hx). lia.
Qed.

Lemma sel_snoc ds d dt k :
  sel (ds ++ [d]) dt k = sel ds dt k ++ (if (ddate d =? dt) && (dkind d =? k) then [d] else []).
Proof. unfold sel. rewrite filter_app. reflexivity. Qed.

Lemma sel_nil ds dt k : ~ In dt (map ddate ds) -> sel ds dt k = [].
Proof.
  intros H. unfold sel. induction ds as [|d ds IH]; cbn; [reflexivity|].
  cbn in H. destruct (ddate d =? dt) eqn:E.
  - apply Z.eqb_eq in E. exfalso. apply H. left. exact E.
  - cbn. apply IH. tauto.
Qed.

Lemma sel_in ds dt k d : In d (sel ds dt k) -> In d ds /\ ddate d = dt /\ dkind d = k.
Proof.
  unfold sel. rewrite filter_In. intros [H1 H2]. apply andb_true_iff in H2.
  destruct H2 as [H2 H3]. apply Z.eqb_eq in H2. apply Z.eqb_eq in H3. tauto.
Qed.

Definition price_directive (dt : Z) (p : commodity * dec * commodity) : directive :=
  DPrice dt (fst (fst p)) (snd (fst p)) (snd p).

(* the day's five lists are the input's directives of that date, kind by kind, in input order *)
Definition day_matches (ds : list directive) (x : day) : Prop :=
  map (price_directive (d_date x)) (d_prices x) = sel ds (d_date x) 0 /\
  map (DOpen (d_date x)) (d_opens x) = sel ds (d_date x) 1 /\
  map DTxn (d_txns x) = sel ds (d_date x) 2 /\
  map (DAssert (d_date x)) (d_asserts x) = sel ds (d_date x) 3 /\
  map (DClose (d_date x)) (d_closes x) = sel ds (d_date x) 4.

Definition day_directives (x : day) : list directive :=
  map (price_directive (d_date x)) (d_prices x) ++ map (DOpen (d_date x)) (d_opens x) ++
  map DTxn (d_txns x) ++ map (DAssert (d_date x)) (d_asserts x) ++ map (DClose (d_date x)) (d_closes x).

(* what Builder.Add does to the day of the directive *)
Definition add_to_day (d : directive) (x : day) : day :=
  match d with
  | DPrice _ c p t => mkDay (d_date x) (d_prices x ++ [(c, p, t)]) (d_opens x) (d_txns x) (d_asserts x) (d_closes x) (d_normalized x)
  | DOpen _ a => mkDay (d_date x) (d_prices x) (d_opens x ++ [a]) (d_txns x) (d_asserts x) (d_closes x) (d_normalized x)
  | DTxn t => add_txn_day t x
  | DAssert _ bs => mkDay (d_date x) (d_prices x) (d_opens x) (d_txns x) (d_asserts x ++ [bs]) (d_closes x) (d_normalized x)
  | DClose _ a => mkDay (d_date x) (d_prices x) (d_opens x) (d_txns x) (d_asserts x) (d_closes x ++ [a]) (d_normalized x)
  end.

Lemma builder_add_days b d : b_days (builder_add b d) = upd_day (b_days b) (ddate d) (add_to_day d).
Proof. destruct d; reflexivity. Qed.

Lemma add_to_day_date d x : d_date (add_to_day d x) = d_date x.
Proof. destruct d; reflexivity. Qed.

Lemma upd_day_dates days dt f :
  (forall x, d_date (f x) = d_date x) ->
  map d_date (upd_day days dt f) = insert_date dt (map d_date days).
Proof.
  intros Hf. induction days as [|x days IH]; cbn.
  - rewrite Hf. reflexivity.
  - destruct (dt =? d_date x) eqn:E1; cbn.
    + rewrite Hf. reflexivity.
    + destruct (dt <? d_date x) eqn:E2; cbn.
      * rewrite Hf. reflexivity.
      * rewrite IH. reflexivity.
Qed.

(* proof rule for a property of all days after Builder.Day(dt) has been modified by f *)
Lemma upd_day_rule (P Q : day -> Prop) days dt f :
  StronglySorted Z.lt (map d_date days) ->
  (forall y, In y days -> P y) ->
  (forall y, d_date y <> dt -> P y -> Q y) ->
  (forall x, d_date x = dt -> P x -> Q (f x)) ->
  (~ In dt (map d_date days) -> Q (f (empty_day dt))) ->
  forall y, In y (upd_day days dt f) -> Q y.
Proof.
  intros Hs HP Hother Hsame Hnew.
  induction days as [|x days IH]; cbn.
  - intros y [H|[]]. subst y. apply Hnew. intros [].
  - cbn in Hs. inversion Hs as [|? ? Hs' Hall]; subst. rewrite Forall_forall in Hall.
    destruct (dt =? d_date x) eqn:E1.
    + apply Z.eqb_eq in E1. intros y [H|H].
      * subst y. apply Hsame; [symmetry; exact E1|apply HP; left; reflexivity].
      * apply Hother; [|apply HP; right; exact H].
        specialize (Hall (d_date y) (in_map d_date _ _ H)). lia.
    + apply Z.eqb_neq in E1. destruct (dt <? d_date x) eqn:E2.
      * apply Z.ltb_lt in E2. intros y [H|H].
        -- subst y. apply Hnew. cbn. intros [H|H]; [lia|]. specialize (Hall _ H). lia.
        -- apply Hother; [|apply HP; exact H].
           destruct H as [H|H]; [subst y; lia|]. specialize (Hall (d_date y) (in_map d_date _ _ H)). lia.
      * intros y [H|H].
        -- subst y. apply Hother; [lia|apply HP; left; reflexivity].
        -- apply IH; try assumption.
           ++ intros z Hz. apply HP. right. exact Hz.
           ++ intros Hn. apply Hnew. cbn. intros [H1|H1]; [lia|contradiction].
Qed.

Lemma day_matches_other ds d y : d_date y <> ddate d -> day_matches ds y -> day_matches (ds ++ [d]) y.
Proof.
  intros Hne [H0 [H1 [H2 [H3 H4]]]]. unfold day_matches. rewrite !sel_snoc.
  replace (ddate d =? d_date y) with false by (symmetry; apply Z.eqb_neq; congruence).
  cbn [andb]. rewrite !app_nil_r. tauto.
Qed.

Lemma day_matches_same ds d x : d_date x = ddate d -> day_matches ds x -> day_matches (ds ++ [d]) (add_to_day d x).
Proof.
  intros He [H0 [H1 [H2 [H3 H4]]]]. unfold day_matches. rewrite add_to_day_date. rewrite !sel_snoc.
  rewrite <- He. rewrite Z.eqb_refl. cbn [andb].
  destruct d as [dt c p t|dt a|dt a|dt bs|t]; cbn [ddate] in He; cbn [dkind add_to_day add_txn_day d_prices d_opens d_txns d_asserts d_closes d_date];
    rewrite ?map_app; cbn [map Z.eqb Pos.eqb app]; rewrite ?app_nil_r;
    rewrite ?H0, ?H1, ?H2, ?H3, ?H4; repeat split; try reflexivity.
  - unfold price_directive. cbn [fst snd]. rewrite He. reflexivity.
  - rewrite He. reflexivity.
  - rewrite He. reflexivity.
  - rewrite He. reflexivity.
Qed.

Lemma day_matches_empty ds dt : ~ In dt (map ddate ds) -> day_matches ds (empty_day dt).
Proof.
  intros H. unfold day_matches, empty_day. cbn [d_date d_prices d_opens d_txns d_asserts d_closes map].
  rewrite !sel_nil by exact H. tauto.
Qed.

Lemma builder_of_snoc ds d : builder_of (ds ++ [d]) = builder_add (builder_of ds) d.
Proof. unfold builder_of. rewrite fold_left_app. reflexivity. Qed.

Theorem builder_canonical ds :
  let days := b_days (builder_of ds) in
  StronglySorted Z.lt (map d_date days) /\
  map d_date days = dates ds /\
  (forall dt, In dt (map d_date days) <-> In dt (map ddate ds)) /\
  (forall x, In x days -> day_matches ds x).
Proof.
  cbn zeta.
  assert (H : map d_date (b_days (builder_of ds)) = dates ds /\
              forall x, In x (b_days (builder_of ds)) -> day_matches ds x).
  { induction ds as [|d ds IH] using rev_ind.
    - split; [reflexivity|intros x []].
    - destruct IH as [IH1 IH2].
      rewrite builder_of_snoc, builder_add_days. split.
      + rewrite upd_day_dates by apply add_to_day_date. rewrite IH1, dates_snoc. reflexivity.
      + apply (upd_day_rule (day_matches ds) (day_matches (ds ++ [d]))).
        * rewrite IH1. apply dates_sorted.
        * exact IH2.
        * intros y Hy. apply day_matches_other. exact Hy.
        * intros x Hx. apply day_matches_same. exact Hx.
        * intros Hn. apply day_matches_same; [reflexivity|].
          apply day_matches_empty. rewrite IH1 in Hn. rewrite <- dates_in. exact Hn. }
  destruct H as [H1 H2]. split; [rewrite H1; apply dates_sorted|].
  split; [exact H1|]. split; [|exact H2].
  intros dt. rewrite H1. apply dates_in.
Qed.

(* the days, flattened, are the canonical sequence *)
Lemma day_directives_of_day ds x : day_matches ds x -> day_directives x = of_day ds (d_date x).
Proof.
  intros [H0 [H1 [H2 [H3 H4]]]]. unfold day_directives, of_day.
  rewrite H0, H1, H2, H3, H4. reflexivity.
Qed.

Lemma flat_days_of_day ds days :
  (forall x, In x days -> day_matches ds x) ->
  flat_map day_directives days = flat_map (of_day ds) (map d_date days).
Proof.
  induction days as [|x days IH]; intros Hm; [reflexivity|].
  cbn [flat_map map]. rewrite (day_directives_of_day ds x) by (apply Hm; left; reflexivity).
  f_equal. apply IH. intros y Hy. apply Hm. right. exact Hy.
Qed.

Lemma builder_flat_canonical ds : flat_map day_directives (b_days (builder_of ds)) = canonical ds.
Proof.
  destruct (builder_canonical ds) as [_ [Hd [_ Hm]]]. cbn zeta in *.
  unfold canonical. rewrite <- Hd. apply flat_days_of_day. exact Hm.
Qed.

Lemma canonical_incl ds d : In d (canonical ds) -> In d ds.
Proof.
  unfold canonical. rewrite in_flat_map. intros [dt [_ H]]. unfold of_day in H.
  repeat (apply in_app_or in H; destruct H as [H|H]); apply sel_in in H; tauto.
Qed.

(* [dates] is the strictly ascending list of the dates that occur, and the only one *)
Lemma dates_spec ds :
  StronglySorted Z.lt (dates ds) /\ (forall x, In x (dates ds) <-> In x (map ddate ds)) /\
  (forall l, StronglySorted Z.lt l -> (forall x, In x l <-> In x (map ddate ds)) -> l = dates ds).
Proof.
  split; [apply dates_sorted|]. split; [apply dates_in|].
  intros l Hs Hl. apply sorted_unique; [exact Hs|apply dates_sorted|].
  intros x. rewrite Hl, dates_in. reflexivity.
Qed.
