(* What ParseDirective (accrual expansion included) creates: the postings of every transaction are
   pair_build blocks without values ([built]).  One induction through Model/Ledger.v
   postings_create, txn_create and parse_directives; what is true of pair_build and kept by
   concatenation is true of every journal as loaded (pairs: Proofs/PairProofs.v built_pairs; zero
   values: built_val_zero).  The day builder moves transactions only (Proofs/JournalFacts.v
   builder_of_txns). *)
From Coq Require Import ZArith List Bool.
From Knut Require Import Model.Str Model.Dec Model.Date Model.Account Model.Ledger Model.Journal Proofs.JournalFacts.
Import ListNotations.
Open Scope bool_scope.
Open Scope Z_scope.

Inductive built : list posting -> Prop :=
| built_nil : built []
| built_app cr db com q rest : built rest -> built (pair_build cr db com q dec_nil ++ rest).

Definition txn_built (t : txn) : Prop := built (t_postings t).

Lemma built_one cr db com q : built (pair_build cr db com q dec_nil).
Proof. rewrite <- app_nil_r. repeat constructor. Qed.

Lemma postings_create_built bs ps : postings_create bs = MOk ps -> built ps.
Proof.
  revert ps. induction bs as [|b bs IH]; intros ps H; cbn in H.
  - inversion H. constructor.
  - destruct (check_account (b_credit b)); try discriminate. cbn in H.
    destruct (check_account (b_debit b)); try discriminate. cbn in H.
    destruct (postings_create bs) as [ps'| |]; try discriminate. cbn in H. inversion H.
    constructor. apply IH. reflexivity.
Qed.

Lemma accrual_parts_built desc tg acc p amount rem n i ends :
  Forall txn_built (accrual_parts desc tg acc p amount rem n i ends).
Proof.
  revert i. induction ends as [|dt rest IH]; intros i; cbn [accrual_parts]; constructor; [apply built_one|apply IH].
Qed.

Lemma expand_posting_built rebook t ac p l : expand_posting_gen rebook t ac p = MOk l -> Forall txn_built l.
Proof.
  unfold expand_posting_gen. intros H.
  assert (H1 : Forall txn_built (if rebook (p_acc p)
    then [mkTxn (t_date t) (t_desc t) (pair_build (ac_account ac) (p_acc p) (p_com p) (p_qty p) dec_nil) (t_targets t)]
    else [])).
  { destruct (rebook (p_acc p)); repeat constructor. apply built_one. }
  destruct (is_IE (p_acc p)).
  - destruct (new_partition _ _ _); try discriminate.
    destruct (quo_rem _ _ _) as [[amount rem]|]; try discriminate.
    inversion H. apply Forall_app. split; [exact H1|apply accrual_parts_built].
  - inversion H; subst. exact H1.
Qed.

Lemma expand_postings_built rebook t ac ps l : expand_postings_gen rebook t ac ps = MOk l -> Forall txn_built l.
Proof.
  revert l. induction ps as [|p ps IH]; intros l H; cbn in H.
  - inversion H. constructor.
  - destruct (expand_posting_gen rebook t ac p) as [l1| |] eqn:E1; try discriminate. cbn in H.
    destruct (expand_postings_gen rebook t ac ps) as [l2| |] eqn:E2; try discriminate. cbn in H. inversion H.
    apply Forall_app. split; [eapply expand_posting_built; eauto|apply IH; reflexivity].
Qed.

Lemma txn_create_gen_built rebook s l : txn_create_gen rebook s = MOk l -> Forall txn_built l.
Proof.
  unfold txn_create_gen. intros H.
  destruct (postings_create (st_bookings s)) as [ps| |] eqn:E; try discriminate. cbn in H.
  destruct (st_accrual s) as [ac|].
  - unfold expand_gen in H. destruct (check_account (ac_account ac)); try discriminate. cbn in H.
    eapply expand_postings_built; eauto.
  - inversion H. repeat constructor. eapply postings_create_built; eauto.
Qed.

Lemma parse_directive_built s l : parse_directive s = MOk l -> Forall (on_txn txn_built) l.
Proof.
  destruct s; cbn; intros H.
  - inversion H. repeat constructor.
  - destruct (check_account acc); try discriminate. inversion H. repeat constructor.
  - destruct (check_account acc); try discriminate. inversion H. repeat constructor.
  - destruct (check_balances bals); try discriminate. inversion H. repeat constructor.
  - destruct (txn_create t) as [ts| |] eqn:E; try discriminate. cbn in H. inversion H.
    apply txn_create_gen_built in E. clear - E. induction E; constructor; auto.
  - inversion H. constructor.
Qed.

Lemma parse_directives_built l ds : parse_directives l = MOk ds -> Forall (on_txn txn_built) ds.
Proof.
  revert ds. induction l as [|s l IH]; intros ds H; cbn in H.
  - inversion H. constructor.
  - destruct (parse_directive s) as [d1| |] eqn:E1; try discriminate. cbn in H.
    destruct (parse_directives l) as [d2| |] eqn:E2; try discriminate. cbn in H. inversion H.
    apply Forall_app. split; [eapply parse_directive_built; eauto|apply IH; reflexivity].
Qed.

Lemma built_val_zero l : built l -> Forall (fun p => is_zero (p_val p) = true) l.
Proof.
  induction 1 as [|cr db com q rest _ IH]; [constructor|]. apply Forall_app. split; [|exact IH].
  unfold pair_build. destruct (is_neg q || is_zero q && is_neg dec_nil); repeat constructor.
Qed.
