(* Calendar facts for every day, from the March coordinates of CalendarSweep.v. *)
From Coq Require Import ZArith List Bool Lia.
From Knut Require Import Model.Date Proofs.CalendarSweep.
Import ListNotations.
Open Scope bool_scope.
Open Scope Z_scope.

Lemma dim_pos y m : 28 <= days_in_month y m <= 31.
Proof.
  unfold days_in_month.
  destruct (m =? 2); [destruct (is_leap y)|destruct ((m =? 4) || (m =? 6) || (m =? 9) || (m =? 11))]; lia.
Qed.

Lemma civil_valid d : valid_civil (civil d).
Proof.
  destruct (day_march d) as (era & yoe & mp & dd & Hok & ->).
  rewrite civil_march by exact Hok. destruct Hok as (Hy & Hm & Hd).
  unfold valid_civil. rewrite <- mlen_dim by assumption.
  split; [unfold march_month; destruct (mp <? 10) eqn:E; lia|exact Hd].
Qed.

Lemma of_civil_civil d : let '(y, m, dd) := civil d in of_civil y m dd = d.
Proof.
  destruct (day_march d) as (era & yoe & mp & dd & Hok & ->).
  rewrite civil_march by exact Hok. apply of_civil_march; apply Hok.
Qed.

Lemma civil_of_civil y m dd : valid_civil (y, m, dd) -> civil (of_civil y m dd) = (y, m, dd).
Proof.
  intros Hv. destruct (triple_march y m dd Hv) as (era & yoe & mp & Hok & -> & ->).
  rewrite of_civil_march by apply Hok. apply civil_march, Hok.
Qed.

(* of_civil is linear in the day-of-month argument *)
Lemma of_civil_day y m dd : of_civil y m dd = of_civil y m 1 + (dd - 1).
Proof. unfold of_civil. destruct (m <=? 2); destruct (2 <? m); ring. Qed.

(* day number of 1 March of year y, plus 306 *)
Definition ystart (y : Z) : Z := y / 400 * ERA + dby (y - y / 400 * 400).

Lemma of_civil_ystart y m dd :
  of_civil y m dd = ystart (if m <=? 2 then y - 1 else y) + dbm (if 2 <? m then m - 3 else m + 9) + dd - 307.
Proof. unfold of_civil, ystart, dby, dbm, ERA. cbv zeta. ring. Qed.

Lemma ystart_succ y : ystart (y + 1) = ystart y + if is_leap (y + 1) then 366 else 365.
Proof.
  unfold is_leap, ystart, dby, ERA.
  destruct (Z.eqb_spec ((y + 1) mod 4) 0), (Z.eqb_spec ((y + 1) mod 100) 0), (Z.eqb_spec ((y + 1) mod 400) 0);
    cbn [negb andb orb]; divlia.
Qed.

Lemma of_civil_month_end y m : 1 <= m <= 12 ->
  of_civil y m (days_in_month y m) + 1 = if m <? 12 then of_civil y (m + 1) 1 else of_civil (y + 1) 1 1.
Proof.
  intros Hm. rewrite !of_civil_ystart. pose proof (ystart_succ (y - 1)) as Hs.
  replace (y - 1 + 1) with y in Hs by ring. replace (y + 1 - 1) with y by ring.
  assert (C : m = 1 \/ m = 2 \/ m = 3 \/ m = 4 \/ m = 5 \/ m = 6 \/ m = 7 \/ m = 8 \/ m = 9 \/ m = 10 \/ m = 11 \/ m = 12) by lia.
  destruct C as [->|[->|[->|[->|[->|[->|[->|[->|[->|[->|[->| ->]]]]]]]]]]]; cbn; try lia.
  all: destruct (is_leap y); lia.
Qed.

Lemma civil_succ d : civil (d + 1) = next_civil (civil d).
Proof.
  pose proof (civil_valid d) as Hv. pose proof (of_civil_civil d) as Ho.
  destruct (civil d) as [[y m] dd]. destruct Hv as [Hm Hd]. subst d.
  unfold next_civil. pose proof (dim_pos y m). pose proof (of_civil_month_end y m Hm) as He.
  destruct (dd <? days_in_month y m) eqn:E1.
  - rewrite (of_civil_day y m dd). replace (of_civil y m 1 + (dd - 1) + 1) with (of_civil y m 1 + (dd + 1 - 1)) by ring.
    rewrite <- of_civil_day. apply civil_of_civil. unfold valid_civil. lia.
  - replace dd with (days_in_month y m) by lia. rewrite He.
    destruct (m <? 12) eqn:E2; apply civil_of_civil; unfold valid_civil.
    + pose proof (dim_pos y (m + 1)). lia.
    + pose proof (dim_pos (y + 1) 1). lia.
Qed.

Definition lex_lt (a b : Z * Z * Z) : Prop :=
  let '(y1, m1, d1) := a in let '(y2, m2, d2) := b in
  y1 < y2 \/ (y1 = y2 /\ (m1 < m2 \/ (m1 = m2 /\ d1 < d2))).

Lemma lex_lt_trans a b c : lex_lt a b -> lex_lt b c -> lex_lt a c.
Proof. destruct a as [[? ?] ?], b as [[? ?] ?], c as [[? ?] ?]; cbn; lia. Qed.

Lemma lex_lt_irrefl a : ~ lex_lt a a.
Proof. destruct a as [[? ?] ?]; cbn; lia. Qed.

Lemma next_civil_lt t : valid_civil t -> lex_lt t (next_civil t).
Proof.
  destruct t as [[y m] dd]; unfold valid_civil, next_civil. intros [Hm Hd].
  destruct (dd <? days_in_month y m) eqn:E1; [unfold lex_lt; lia|].
  destruct (m <? 12) eqn:E2; unfold lex_lt; lia.
Qed.

Lemma civil_lt_mono d1 d2 : d1 < d2 -> lex_lt (civil d1) (civil d2).
Proof.
  intros H. replace d2 with (d1 + 1 + (d2 - d1 - 1)) by ring.
  assert (Hk : 0 <= d2 - d1 - 1) by lia.
  generalize dependent (d2 - d1 - 1). intros k Hk.
  pattern k. apply natlike_ind; [| |exact Hk].
  - rewrite Z.add_0_r, civil_succ. apply next_civil_lt, civil_valid.
  - intros x Hx IH. replace (d1 + 1 + Z.succ x) with (d1 + 1 + x + 1) by lia.
    eapply lex_lt_trans; [exact IH|]. rewrite (civil_succ (d1 + 1 + x)).
    apply next_civil_lt, civil_valid.
Qed.

Lemma civil_le_mono_inv d1 d2 : lex_lt (civil d1) (civil d2) -> d1 < d2.
Proof.
  intros H. destruct (Z_lt_ge_dec d1 d2) as [|Hge]; [assumption|exfalso].
  destruct (Z.eq_dec d1 d2) as [->|Hne]; [eapply lex_lt_irrefl; eauto|].
  assert (Hlt : d2 < d1) by lia. apply civil_lt_mono in Hlt.
  eapply lex_lt_irrefl. eapply lex_lt_trans; eauto.
Qed.

Lemma go_date_valid_month y m dd : 1 <= m <= 12 -> go_date y m dd = of_civil y m 1 + (dd - 1).
Proof.
  intros Hm. unfold go_date.
  replace ((m - 1) / 12) with 0 by (symmetry; apply Z.div_small; lia).
  rewrite Z.mod_small by lia. f_equal. f_equal; ring.
Qed.

Lemma add_date_days d k : add_date d 0 0 k = d + k.
Proof.
  unfold add_date. pose proof (civil_valid d) as Hv. pose proof (of_civil_civil d) as Ho.
  destruct (civil d) as [[y m] dd]. unfold valid_civil in Hv.
  rewrite !Z.add_0_r, go_date_valid_month by lia.
  rewrite of_civil_day in Ho. lia.
Qed.

Lemma year_month_day d : civil d = (year_of d, month_of d, day_of d).
Proof. unfold year_of, month_of, day_of. destruct (civil d) as [[? ?] ?]. reflexivity. Qed.

Lemma month_range d : 1 <= month_of d <= 12.
Proof. pose proof (civil_valid d) as H. rewrite year_month_day in H. unfold valid_civil in H. lia. Qed.

Lemma day_range d : 1 <= day_of d <= days_in_month (year_of d) (month_of d).
Proof. pose proof (civil_valid d) as H. rewrite year_month_day in H. unfold valid_civil in H. lia. Qed.

Lemma month_start_eq d : of_civil (year_of d) (month_of d) 1 = d - (day_of d - 1).
Proof.
  pose proof (of_civil_civil d) as H. rewrite year_month_day in H.
  rewrite of_civil_day in H. lia.
Qed.
