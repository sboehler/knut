(* Calendar arithmetic for Model/Date.v: civil and of_civil (H. Hinnant's civil_from_days and
   days_from_civil) are inverse bijections between day numbers and valid (year, month, day) triples.
   Both count in "March coordinates": the 400-year era (146097 days, starting on 1 March of a year
   divisible by 400), the year of the era, the month counted from March (so that February, with
   its leap day, comes last), the day of the month.  Every day number has valid March coordinates
   (day_march), so has every valid triple (triple_march), and each of the two functions is a
   closed formula in them (civil_march, of_civil_march).  The divisions are by constants, so each
   step is linear integer arithmetic. *)
From Coq Require Import ZArith List Bool Lia.
From Knut Require Import Model.Date.
Import ListNotations.
Open Scope bool_scope.
Open Scope Z_scope.

Definition ERA : Z := 146097.

Definition shift_y (t : Z * Z * Z) (k : Z) : Z * Z * Z :=
  let '(y, m, dd) := t in (y + 400 * k, m, dd).

Definition next_civil (t : Z * Z * Z) : Z * Z * Z :=
  let '(y, m, dd) := t in
  if dd <? days_in_month y m then (y, m, dd + 1)
  else if m <? 12 then (y, m + 1, 1) else (y + 1, 1, 1).

Definition valid_civil (t : Z * Z * Z) : Prop :=
  let '(y, m, dd) := t in 1 <= m <= 12 /\ 1 <= dd <= days_in_month y m.

Definition valid_civil_b (t : Z * Z * Z) : bool :=
  let '(y, m, dd) := t in
  (1 <=? m) && (m <=? 12) && (1 <=? dd) && (dd <=? days_in_month y m).

Lemma valid_civil_b_iff t : valid_civil_b t = true <-> valid_civil t.
Proof.
  destruct t as [[y m] dd]; cbn.
  rewrite !andb_true_iff, !Z.leb_le. tauto.
Qed.


(* lia after naming every quotient and remainder by a constant *)
Ltac divlia := Z.div_mod_to_equations; lia.

(* days of an era before its year y (0..399; the era's 400th leap day is its last day), and days
   of a March-based year before its month mp (0 = March .. 11 = February) *)
Definition dby (y : Z) : Z := 365 * y + y / 4 - y / 100.
Definition dbm (mp : Z) : Z := (153 * mp + 2) / 5.
Definition march_month (mp : Z) : Z := if mp <? 10 then mp + 3 else mp - 9.
Definition march_year (era yoe mp : Z) : Z := yoe + era * 400 + (if mp <? 10 then 0 else 1).
(* day 0 is 0001-01-01, 306 days after 1 March of year 0 *)
Definition march_day (era yoe mp dd : Z) : Z := era * ERA + dby yoe + dbm mp + dd - 307.
(* February takes what is left of its year *)
Definition mlen (yoe mp : Z) : Z :=
  if mp =? 11 then dby (yoe + 1) + (yoe + 1) / 400 - dby yoe - dbm 11 else dbm (mp + 1) - dbm mp.
Definition march_ok (yoe mp dd : Z) : Prop :=
  0 <= yoe < 400 /\ 0 <= mp <= 11 /\ 1 <= dd <= mlen yoe mp.

Lemma civil_march era yoe mp dd : march_ok yoe mp dd ->
  civil (march_day era yoe mp dd) = (march_year era yoe mp, march_month mp, dd).
Proof.
  intros (Hy & Hm & Hd). unfold civil. cbv zeta.
  set (doy := dbm mp + dd - 1). set (doe := dby yoe + doy).
  assert (Hdoy : dbm mp <= doy < dbm (mp + 1) /\ doy < dby (yoe + 1) + (yoe + 1) / 400 - dby yoe).
  { unfold mlen in Hd. subst doy. destruct (mp =? 11) eqn:E; [apply Z.eqb_eq in E; subst mp|apply Z.eqb_neq in E]; unfold dbm, dby in *; divlia. }
  assert (Hdoe : 0 <= doe < ERA).
  { subst doe. unfold dby, dbm, ERA in *. divlia. }
  replace (march_day era yoe mp dd + 306) with (doe + era * ERA) by (unfold march_day, doe, doy; ring).
  unfold ERA in *.
  rewrite Z.div_add, (Z.div_small doe) by lia.
  replace (doe + era * 146097 - (0 + era) * 146097) with doe by ring.
  assert (Ey : (doe - doe / 1460 + doe / 36524 - doe / 146096) / 365 = yoe).
  { subst doe. unfold dby, dbm in *. divlia. }
  rewrite Ey.
  replace (doe - (365 * yoe + yoe / 4 - yoe / 100)) with doy by (unfold doe, dby; ring).
  assert (Em : (5 * doy + 2) / 153 = mp).
  { unfold dbm in *. divlia. }
  rewrite Em. unfold march_year, march_month, doy, dbm.
  destruct (mp <? 10) eqn:E.
  - replace (mp + 3 <=? 2) with false by lia. apply (f_equal2 pair); [apply (f_equal2 pair)|]; ring.
  - replace (mp - 9 <=? 2) with true by lia. apply (f_equal2 pair); [apply (f_equal2 pair)|]; ring.
Qed.

Lemma of_civil_march era yoe mp dd : 0 <= yoe < 400 -> 0 <= mp <= 11 ->
  of_civil (march_year era yoe mp) (march_month mp) dd = march_day era yoe mp dd.
Proof.
  intros Hy Hm. unfold of_civil, march_year, march_month, march_day, ERA, dby, dbm. cbv zeta.
  destruct (mp <? 10) eqn:E.
  - replace (mp + 3 <=? 2) with false by lia. replace (2 <? mp + 3) with true by lia.
    replace ((yoe + era * 400 + 0) / 400) with era by divlia.
    replace (mp + 3 - 3) with mp by ring.
    replace (yoe + era * 400 + 0 - era * 400) with yoe by ring. ring.
  - replace (mp - 9 <=? 2) with true by lia. replace (2 <? mp - 9) with false by lia.
    replace ((yoe + era * 400 + 1 - 1) / 400) with era by divlia.
    replace (mp - 9 + 9) with mp by ring.
    replace (yoe + era * 400 + 1 - 1 - era * 400) with yoe by ring. ring.
Qed.

Lemma mlen_dim era yoe mp : 0 <= yoe < 400 -> 0 <= mp <= 11 ->
  mlen yoe mp = days_in_month (march_year era yoe mp) (march_month mp).
Proof.
  intros Hy Hm.
  assert (C : mp = 0 \/ mp = 1 \/ mp = 2 \/ mp = 3 \/ mp = 4 \/ mp = 5 \/ mp = 6 \/ mp = 7 \/ mp = 8 \/ mp = 9 \/ mp = 10 \/ mp = 11) by lia.
  destruct C as [->|[->|[->|[->|[->|[->|[->|[->|[->|[->|[->| ->]]]]]]]]]]]; try reflexivity.
  change (mlen yoe 11) with (dby (yoe + 1) + (yoe + 1) / 400 - dby yoe - 337).
  change (march_month 11) with 2. change (march_year era yoe 11) with (yoe + era * 400 + 1).
  unfold days_in_month, is_leap. change (2 =? 2) with true. cbv iota.
  set (y := yoe + era * 400 + 1).
  destruct (Z.eqb_spec (y mod 4) 0), (Z.eqb_spec (y mod 100) 0), (Z.eqb_spec (y mod 400) 0);
  cbn [negb andb orb]; subst y; unfold dby; divlia.
Qed.

Lemma day_march d : exists era yoe mp dd, march_ok yoe mp dd /\ d = march_day era yoe mp dd.
Proof.
  set (era := (d + 306) / ERA). set (doe := d + 306 - era * ERA).
  assert (Hdoe : 0 <= doe < ERA) by (subst doe era; unfold ERA; divlia).
  set (yoe := (doe - doe / 1460 + doe / 36524 - doe / 146096) / 365).
  assert (Hy : 0 <= yoe < 400 /\ dby yoe <= doe < dby (yoe + 1) + (yoe + 1) / 400).
  { subst yoe. unfold ERA, dby in *. divlia. }
  set (doy := doe - dby yoe). set (mp := (5 * doy + 2) / 153).
  assert (Hm : 0 <= mp <= 11 /\ dbm mp <= doy < dbm (mp + 1)).
  { subst mp doy. unfold dbm, dby in *. divlia. }
  exists era, yoe, mp, (doy - dbm mp + 1). split.
  - split; [lia|split; [lia|]]. unfold mlen. destruct (Z.eqb_spec mp 11) as [E|_]; [rewrite E in *|]; subst doy; lia.
  - unfold march_day. subst doy doe. ring.
Qed.

Lemma triple_march y m dd : valid_civil (y, m, dd) ->
  exists era yoe mp, march_ok yoe mp dd /\ y = march_year era yoe mp /\ m = march_month mp.
Proof.
  intros [Hm Hd].
  set (mp := if m <=? 2 then m + 9 else m - 3). set (y' := if m <=? 2 then y - 1 else y).
  exists (y' / 400), (y' mod 400), mp.
  assert (Hmp : 0 <= mp <= 11) by (subst mp; destruct (m <=? 2) eqn:E; lia).
  assert (Hyoe : 0 <= y' mod 400 < 400) by (apply Z.mod_pos_bound; lia).
  assert (Ey : y = march_year (y' / 400) (y' mod 400) mp).
  { unfold march_year. subst mp y'. destruct (m <=? 2) eqn:E.
    - replace (m + 9 <? 10) with false by lia. divlia.
    - replace (m - 3 <? 10) with true by lia. divlia. }
  assert (Em : m = march_month mp).
  { unfold march_month. subst mp. destruct (m <=? 2) eqn:E.
    - replace (m + 9 <? 10) with false by lia. ring.
    - replace (m - 3 <? 10) with true by lia. ring. }
  split; [|split; assumption].
  split; [assumption|split; [assumption|]].
  rewrite (mlen_dim (y' / 400)), <- Ey, <- Em by assumption. exact Hd.
Qed.

(* civil, of_civil, is_leap and days_in_month repeat with the 400-year era *)

Lemma civil_period d k : civil (d + ERA * k) = shift_y (civil d) k.
Proof.
  destruct (day_march d) as (era & yoe & mp & dd & Hok & ->).
  replace (march_day era yoe mp dd + ERA * k) with (march_day (era + k) yoe mp dd) by (unfold march_day; ring).
  rewrite !civil_march by exact Hok. unfold shift_y, march_year. f_equal. f_equal. ring.
Qed.

Lemma of_civil_period y m dd k : of_civil (y + 400 * k) m dd = of_civil y m dd + ERA * k.
Proof.
  unfold of_civil, ERA. cbv zeta.
  destruct (m <=? 2).
  - replace (y + 400 * k - 1) with (y - 1 + k * 400) by ring.
    rewrite Z.div_add by lia.
    replace (y - 1 + k * 400 - ((y - 1) / 400 + k) * 400) with (y - 1 - (y - 1) / 400 * 400) by ring.
    ring.
  - replace (y + 400 * k) with (y + k * 400) by ring.
    rewrite Z.div_add by lia.
    replace (y + k * 400 - (y / 400 + k) * 400) with (y - y / 400 * 400) by ring.
    ring.
Qed.

Lemma is_leap_period y k : is_leap (y + 400 * k) = is_leap y.
Proof.
  unfold is_leap.
  replace (y + 400 * k) with (y + (100 * k) * 4) at 1 by ring.
  replace (y + 400 * k) with (y + (4 * k) * 100) at 1 by ring.
  replace (y + 400 * k) with (y + k * 400) by ring.
  rewrite !Z.mod_add by lia. reflexivity.
Qed.

Lemma dim_period y m k : days_in_month (y + 400 * k) m = days_in_month y m.
Proof. unfold days_in_month. rewrite is_leap_period. reflexivity. Qed.

