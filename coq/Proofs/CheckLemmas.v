(* Lemmas under the C04 refinement proof: sorted association lists (Model/Price.v smap; the
   facts of Proofs/SMapProofs.v for [keys_sorted]), account names and position keys of
   syntactically valid accounts. *)
From Coq Require Import ZArith List Bool Lia Sorting.Sorted.
From Knut Require Export Proofs.StrProofs.
From Knut Require Import Proofs.SMapProofs.
From Knut Require Import Model.Str Model.Dec Model.Account Model.Ledger Model.Price Model.Journal Model.Check Model.Pipeline
     Spec.WellformedSpec.
Import ListNotations.
Open Scope bool_scope.
Open Scope Z_scope.

Section SMapLemmas.
  Context {V : Type}.

  Definition key_lt (x y : str * V) : Prop := str_cmp (fst x) (fst y) = Lt.
  Definition keys_sorted (m : smap V) : Prop := StronglySorted key_lt m.

  Lemma sm_put_in (m : smap V) k v x : In x (sm_put m k v) -> x = (k, v) \/ In x m.
  Proof.
    induction m as [|[k' v'] rest IH]; cbn.
    - intros [H|[]]. left. symmetry. exact H.
    - destruct (str_cmp k k') eqn:E; cbn.
      + intros [H|H]; [left; symmetry; exact H|right; right; exact H].
      + intros [H|[H|H]]; [left; symmetry; exact H|right; left; exact H|right; right; exact H].
      + intros [H|H]; [right; left; exact H|].
        destruct (IH H) as [H1|H1]; [left; exact H1|right; right; exact H1].
  Qed.

  (* the same as [sorted] of Proofs/SMapProofs.v *)
  Lemma keys_sorted_iff (m : smap V) : keys_sorted m <-> sorted m.
  Proof.
    unfold keys_sorted. induction m as [|[k v] m IH]; [split; constructor|].
    assert (F : Forall (key_lt (k, v)) m <-> forall k', In k' (keys m) -> str_cmp k k' = Lt).
    { rewrite Forall_forall. unfold keys. split.
      - intros H k' Hk. apply in_map_iff in Hk. destruct Hk as (y & <- & Hy). apply (H y Hy).
      - intros H y Hy. apply H, in_map, Hy. }
    split; intros H; inversion H; subst; constructor; try apply IH; try apply F; assumption.
  Qed.

  Lemma sm_put_sorted (m : smap V) k v : keys_sorted m -> keys_sorted (sm_put m k v).
  Proof. rewrite !keys_sorted_iff. apply sorted_put. Qed.

  Lemma sm_get_in_sorted (m : smap V) k v : keys_sorted m -> In (k, v) m -> sm_get m k = Some v.
  Proof. intros Hs. apply sorted_in_get, keys_sorted_iff, Hs. Qed.

  Lemma keys_sorted_nodup (m : smap V) : keys_sorted m -> NoDup (map fst m).
  Proof. intros Hs. apply sorted_nodup, keys_sorted_iff, Hs. Qed.

End SMapLemmas.

Lemma keys_sorted_filter {V} (f : str * V -> bool) (m : smap V) : keys_sorted m -> keys_sorted (filter f m).
Proof.
  unfold keys_sorted. induction m as [|x m IH]; cbn; intros Hs; [constructor|].
  inversion Hs as [|y l Hs' Hall]; subst.
  destruct (f x).
  - constructor; [apply IH; exact Hs'|].
    rewrite Forall_forall in *. intros y Hy. apply filter_In in Hy. apply Hall. tauto.
  - apply IH. exact Hs'.
Qed.

Lemma split_at_sep (z : Z) (x y u v : str) :
  ~ In z x -> ~ In z y -> x ++ z :: u = y ++ z :: v -> x = y /\ u = v.
Proof.
  revert y. induction x as [|c x IH]; intros [|d y] Hx Hy H; cbn in *.
  - inversion H. split; reflexivity.
  - inversion H. subst d. exfalso. apply Hy. left. reflexivity.
  - inversion H. subst c. exfalso. apply Hx. left. reflexivity.
  - inversion H. subst d.
    destruct (IH y) as [E1 E2]; [tauto|tauto|assumption|]. subst. split; reflexivity.
Qed.

Lemma seg_ok_spec s : seg_ok s = true -> ~ In 0 s /\ ~ In colon s.
Proof.
  unfold seg_ok. rewrite forallb_forall. intros H. split; intros Hin; apply H in Hin.
  - cbn in Hin. discriminate.
  - rewrite Z.eqb_refl in Hin. rewrite andb_false_r in Hin. discriminate.
Qed.

Lemma join_cons2 (x y : str) r : join [colon] (x :: y :: r) = x ++ colon :: join [colon] (y :: r).
Proof. reflexivity. Qed.

Lemma join_colon_inj (a b : list str) :
  a <> [] -> b <> [] -> (forall s, In s a -> ~ In colon s) -> (forall s, In s b -> ~ In colon s) ->
  join [colon] a = join [colon] b -> a = b.
Proof.
  revert b. induction a as [|x ra IH]; intros [|y rb] Ha Hb Fa Fb H; try congruence.
  assert (Hx : ~ In colon x) by (apply Fa; left; reflexivity).
  assert (Hy : ~ In colon y) by (apply Fb; left; reflexivity).
  destruct ra as [|x2 ra], rb as [|y2 rb]; rewrite ?join_cons2 in H; cbn [join] in H.
  - subst. reflexivity.
  - exfalso. apply Hx. rewrite H. apply in_elt.
  - exfalso. apply Hy. rewrite <- H. apply in_elt.
  - apply split_at_sep in H; [|assumption|assumption]. destruct H as [-> E2]. f_equal.
    apply IH; try discriminate; [intros s Hs; apply Fa; right; exact Hs|intros s Hs; apply Fb; right; exact Hs|exact E2].
Qed.

Lemma join_colon_nul_free (a : list str) : (forall s, In s a -> ~ In 0 s) -> ~ In 0 (join [colon] a).
Proof.
  induction a as [|x ra IH]; intros F; [intros []|].
  destruct ra as [|x2 ra]; [apply F; left; reflexivity|].
  rewrite join_cons2. intros Hin. apply in_app_or in Hin. destruct Hin as [Hin|[Hin|Hin]].
  - apply (F x); [left; reflexivity|exact Hin].
  - discriminate Hin.
  - apply IH; [intros s Hs; apply F; right; exact Hs|exact Hin].
Qed.

Lemma account_ok_segs a : account_ok a = true ->
  a <> [] /\ (forall s, In s a -> ~ In 0 s) /\ (forall s, In s a -> ~ In colon s).
Proof.
  unfold account_ok. intros H. apply andb_true_iff in H. destruct H as [Hv Hs].
  split; [destruct a; [discriminate|discriminate]|].
  rewrite forallb_forall in Hs.
  split; intros s Hin; apply Hs in Hin; apply seg_ok_spec in Hin; tauto.
Qed.

Lemma acc_name_inj a b : account_ok a = true -> account_ok b = true -> acc_name a = acc_name b -> a = b.
Proof.
  intros Ha Hb H. apply account_ok_segs in Ha. apply account_ok_segs in Hb.
  apply join_colon_inj; tauto.
Qed.

Lemma acc_name_nul_free a : account_ok a = true -> ~ In 0 (acc_name a).
Proof. intros Ha. apply account_ok_segs in Ha. apply join_colon_nul_free. tauto. Qed.

Lemma account_ok_valuation a : account_ok a = true -> account_ok (valuation_account_for a) = true.
Proof.
  unfold account_ok, valuation_account_for. intros H. apply andb_true_iff in H. destruct H as [H1 H2].
  destruct a as [|s tail]; [discriminate|]. cbn [tl valid_account forallb] in *.
  apply andb_true_iff in H1. destruct H1 as [_ H1]. apply andb_true_iff in H2. destruct H2 as [_ H2].
  rewrite H1, H2. reflexivity.
Qed.

Lemma account_ok_equity : account_ok equity_account = true.
Proof. reflexivity. Qed.

Lemma pair_build_accs cr db com q v p : In p (pair_build cr db com q v) -> p_acc p = cr \/ p_acc p = db.
Proof.
  unfold pair_build. destruct (is_neg q || is_zero q && is_neg v); cbn [In]; intros [<-|[<-|[]]]; cbn [p_acc]; auto.
Qed.

Lemma acc_eqb_refl a : acc_eqb a a = true.
Proof. unfold acc_eqb. apply str_eqb_refl. Qed.

Lemma acc_eqb_sym a b : acc_eqb a b = acc_eqb b a.
Proof. unfold acc_eqb. apply str_eqb_sym. Qed.

Lemma acc_eqb_name a b : acc_eqb a b = true <-> acc_name a = acc_name b.
Proof. unfold acc_eqb. apply str_eqb_eq. Qed.

Lemma acc_eqb_ok a b : account_ok a = true -> account_ok b = true -> acc_eqb a b = same_acc a b.
Proof.
  intros Ha Hb. unfold same_acc. destruct (acc_eq_dec a b) as [E|E].
  - subst. apply acc_eqb_refl.
  - destruct (acc_eqb a b) eqn:Eq; [|reflexivity].
    apply acc_eqb_name in Eq. exfalso. apply E. apply acc_name_inj; assumption.
Qed.

Lemma same_acc_refl a : same_acc a a = true.
Proof. unfold same_acc. destruct (acc_eq_dec a a); [reflexivity|contradiction]. Qed.

Lemma same_acc_eq a b : same_acc a b = true <-> a = b.
Proof. unfold same_acc. destruct (acc_eq_dec a b); split; intros; try assumption; try reflexivity; try discriminate; contradiction. Qed.

Lemma same_acc_sym a b : same_acc a b = same_acc b a.
Proof. unfold same_acc. destruct (acc_eq_dec a b), (acc_eq_dec b a); try reflexivity; subst; contradiction. Qed.

Lemma same_com_refl c : same_com c c = true.
Proof. unfold same_com. destruct (str_eq_dec c c); [reflexivity|contradiction]. Qed.

Lemma same_com_eq a b : same_com a b = true <-> a = b.
Proof. unfold same_com. destruct (str_eq_dec a b); split; intros; try assumption; try reflexivity; try discriminate; contradiction. Qed.

Lemma pos_key_inj a c b c' :
  account_ok a = true -> account_ok b = true -> pos_key a c = pos_key b c' -> a = b /\ c = c'.
Proof.
  intros Ha Hb H. unfold pos_key in H. cbn [app] in H.
  apply split_at_sep in H; [|apply acc_name_nul_free; assumption|apply acc_name_nul_free; assumption].
  destruct H as [E1 E2]. split; [apply acc_name_inj; assumption|exact E2].
Qed.
