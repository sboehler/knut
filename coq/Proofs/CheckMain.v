(* C04, assembled: the check stage of the model (process_days over the builder's days with the
   repaired checker) is [run_events] over the specification's event sequence; with the
   refinement lemma of Proofs/CheckProofs.v this gives [check_model_spec], the verdict against the
   specification, and the iff theorem.  Also: the executable specification [wellformed_b] /
   [offender], and the example journals of Properties/C04.v. *)
From Coq Require Import ZArith List Bool Lia Sorting.Sorted Permutation.
From Knut Require Import Model.Str Model.Dec Model.Account Model.Ledger Model.Price Model.Journal Model.Check
     Model.Cli Spec.WellformedSpec Proofs.DecProofs Proofs.DecEqProofs Proofs.CheckLemmas Proofs.CheckProofs
     Proofs.BuilderProofs.
Import ListNotations.
Open Scope bool_scope.
Open Scope Z_scope.

Inductive verdict := VOk | VErr (kind : str) (account_name : str) | VPanic.

Definition verdict_of {A} (x : presult A) : verdict :=
  match x with ROk _ => VOk | RErr k d => VErr k d | RPanic _ => VPanic end.

(* the check stage on a journal given as directives: Builder.Add for each, Build, then the
   processor over the days.  [check_model] is the repaired checker. *)
Definition check_with (p : processor check_state) (ds : list directive) : verdict :=
  verdict_of (process_days p check_init (b_days (builder_of ds))).
Definition check_model (ds : list directive) : verdict := check_with check_proc_fixed ds.

Definition res_fst {A B} (x : presult (A * B)) : presult A :=
  match x with ROk p => ROk (fst p) | RErr k d => RErr k d | RPanic m => RPanic m end.

Definition txn_events (t : txn) : list event := events_of (DTxn t).
Definition assert_events (bs : list balance) : list event := events_of (DAssert 0 bs).
Definition day_events (d : day) : list event :=
  map EOpen (d_opens d) ++ flat_map txn_events (d_txns d) ++ flat_map assert_events (d_asserts d) ++
  map EClose (d_closes d).

Lemma run_events_app s l1 l2 :
  run_events s (l1 ++ l2) = rbind (run_events s l1) (fun s' => run_events s' l2).
Proof.
  revert s. induction l1 as [|e l1 IH]; intros s; cbn; [reflexivity|].
  destruct (ck_event s e); cbn; [apply IH|reflexivity|reflexivity].
Qed.

Lemma fold_res_events {A} (f : check_state -> A -> presult check_state) (ev : A -> event) :
  (forall s x, f s x = ck_event s (ev x)) -> forall l s, fold_res f s l = run_events s (map ev l).
Proof.
  intros H. induction l as [|x l IH]; intros s; cbn [fold_res map run_events]; [reflexivity|].
  rewrite H. destruct (ck_event s (ev x)); cbn [rbind]; [apply IH|reflexivity|reflexivity].
Qed.

Lemma ck_posting_cb_post s t p :
  ck_posting_cb s t p = rbind (ck_post s (p_acc p) (p_com p) (p_qty p)) (fun s' => ROk (s', p)).
Proof.
  unfold ck_posting_cb, ck_post.
  destruct (negb (is_open s (p_acc p))); [reflexivity|].
  destruct (is_AL (p_acc p)); reflexivity.
Qed.

Lemma fold_postings_events t s ps :
  res_fst (fold_postings ck_posting_cb t s ps) =
  run_events s (map (fun p => EPost (p_acc p) (p_com p) (p_qty p)) ps).
Proof.
  revert s. induction ps as [|p ps IH]; intros s; cbn [fold_postings map run_events]; [reflexivity|].
  rewrite ck_posting_cb_post. cbn [ck_event].
  destruct (ck_post s (p_acc p) (p_com p) (p_qty p)) as [s1|k d|m]; cbn [rbind fst snd]; try reflexivity.
  rewrite <- IH.
  destruct (fold_postings ck_posting_cb t s1 ps) as [[s2 ps2]|k d|m]; reflexivity.
Qed.

Lemma fold_txns_events s ts :
  res_fst (fold_txns check_proc_fixed s ts) = run_events s (flat_map txn_events ts).
Proof.
  revert s. induction ts as [|t ts IH]; intros s; cbn [fold_txns flat_map]; [reflexivity|].
  rewrite run_events_app. unfold txn_events at 1. cbn [events_of].
  rewrite <- (fold_postings_events t s).
  unfold check_proc_fixed at 1 2. cbn [pr_txn pr_posting rbind].
  destruct (fold_postings ck_posting_cb t s (t_postings t)) as [[s1 ps1]|k d|m]; cbn [rbind res_fst fst snd]; try reflexivity.
  rewrite <- IH.
  destruct (fold_txns check_proc_fixed s1 ts) as [[s2 ts2]|k d|m]; reflexivity.
Qed.

Lemma ck_balance_fixed_event s l b :
  ck_balance_fixed s l b = ck_event s (EAssert (bal_acc b) (bal_com b) (bal_qty b)).
Proof. destruct b. reflexivity. Qed.

Lemma fold_asserts_events s l :
  fold_asserts check_proc_fixed s l = run_events s (flat_map assert_events l).
Proof.
  revert s. induction l as [|bs l IH]; intros s; cbn [fold_asserts flat_map]; [reflexivity|].
  rewrite run_events_app. unfold assert_events at 1. cbn [events_of].
  unfold check_proc_fixed at 1. cbn [pr_balance].
  rewrite (fold_res_events _ _ (fun s0 b => ck_balance_fixed_event s0 bs b)).
  destruct (run_events s _); cbn [rbind]; [apply IH|reflexivity|reflexivity].
Qed.

Lemma process_day_events s d :
  res_fst (process_day check_proc_fixed s d) = run_events s (day_events d).
Proof.
  unfold process_day, day_events.
  unfold check_proc_fixed. cbn [pr_day_start pr_price pr_open pr_close pr_day_end rbind fst snd].
  fold check_proc_fixed.
  rewrite run_events_app, <- (fold_res_events ck_open_cb EOpen (fun _ _ => eq_refl)).
  destruct (fold_res ck_open_cb s (d_opens d)) as [s1|k x|m]; cbn [rbind res_fst]; try reflexivity.
  rewrite run_events_app, <- fold_txns_events.
  destruct (fold_txns check_proc_fixed s1 (d_txns d)) as [[s2 ts2]|k x|m]; cbn [rbind res_fst fst snd d_asserts d_closes]; try reflexivity.
  rewrite run_events_app, <- fold_asserts_events.
  destruct (fold_asserts check_proc_fixed s2 (d_asserts d)) as [s3|k x|m]; cbn [rbind res_fst]; try reflexivity.
  rewrite <- (fold_res_events ck_close_cb EClose (fun _ _ => eq_refl)).
  destruct (fold_res ck_close_cb s3 (d_closes d)) as [s4|k x|m]; cbn [rbind res_fst fst]; reflexivity.
Qed.

Lemma process_days_events s days :
  res_fst (process_days check_proc_fixed s days) = run_events s (flat_map day_events days).
Proof.
  revert s. induction days as [|d days IH]; intros s; cbn [process_days flat_map]; [reflexivity|].
  rewrite run_events_app, <- process_day_events.
  destruct (process_day check_proc_fixed s d) as [[s1 d1]|k x|m]; cbn [rbind res_fst fst snd]; try reflexivity.
  rewrite <- IH.
  destruct (process_days check_proc_fixed s1 days) as [[s2 ds2]|k x|m]; reflexivity.
Qed.

Lemma flat_map_events_map_open dt l : flat_map events_of (map (DOpen dt) l) = map EOpen l.
Proof. induction l as [|a l IH]; cbn; [reflexivity|]. rewrite IH. reflexivity. Qed.

Lemma flat_map_events_map_close dt l : flat_map events_of (map (DClose dt) l) = map EClose l.
Proof. induction l as [|a l IH]; cbn; [reflexivity|]. rewrite IH. reflexivity. Qed.

Lemma flat_map_events_map_price dt l : flat_map events_of (map (price_directive dt) l) = [].
Proof. induction l as [|a l IH]; cbn; [reflexivity|]. exact IH. Qed.

Lemma flat_map_events_map_txn l : flat_map events_of (map DTxn l) = flat_map txn_events l.
Proof. induction l as [|a l IH]; cbn [map flat_map]; [reflexivity|]. rewrite IH. reflexivity. Qed.

Lemma flat_map_events_map_assert dt l : flat_map events_of (map (DAssert dt) l) = flat_map assert_events l.
Proof. induction l as [|a l IH]; cbn [map flat_map]; [reflexivity|]. rewrite IH. reflexivity. Qed.

Lemma day_events_directives x : flat_map events_of (day_directives x) = day_events x.
Proof.
  unfold day_directives, day_events. rewrite !flat_map_app.
  rewrite flat_map_events_map_price, flat_map_events_map_open, flat_map_events_map_txn,
    flat_map_events_map_assert, flat_map_events_map_close. reflexivity.
Qed.

Lemma flat_map_flat_map {A B C} (f : B -> list C) (g : A -> list B) (l : list A) :
  flat_map f (flat_map g l) = flat_map (fun x => flat_map f (g x)) l.
Proof. induction l as [|x l IH]; cbn; [reflexivity|]. rewrite flat_map_app, IH. reflexivity. Qed.

Lemma builder_events ds : flat_map day_events (b_days (builder_of ds)) = events ds.
Proof.
  unfold events. rewrite <- builder_flat_canonical. rewrite flat_map_flat_map.
  apply flat_map_ext. intros x. symmetry. apply day_events_directives.
Qed.

Lemma check_model_events ds :
  check_model ds = verdict_of (run_events check_init (events ds)).
Proof.
  unfold check_model, check_with. rewrite <- builder_events, <- process_days_events.
  destruct (process_days check_proc_fixed check_init (b_days (builder_of ds))) as [[s l]|k d|m]; reflexivity.
Qed.

Lemma events_in ds e : In e (events ds) -> exists d, In d ds /\ In e (events_of d).
Proof.
  unfold events. rewrite in_flat_map. intros [d [H1 H2]]. exists d. split; [|exact H2].
  apply canonical_incl. exact H1.
Qed.

Lemma syntactic_events ds : syntactic ds -> forall e, In e (events ds) -> account_ok (ev_acc e) = true.
Proof. intros Hs e He. destruct (events_in ds e He) as [d [H1 H2]]. exact (Hs d e H1 H2). Qed.

Lemma all_ok_before_nil evs : all_ok_before [] evs <-> wellformed_events evs.
Proof. unfold all_ok_before, wellformed_events. cbn [app]. reflexivity. Qed.

(* the verdict against the specification: an error is about the first event of the canonical
   sequence that is not ok: its account, and a kind that is a true reason *)
Lemma check_model_spec ds :
  syntactic ds ->
  match check_model ds with
  | VOk => wellformed ds
  | VErr k name =>
    exists pre e post r,
      events ds = pre ++ e :: post /\ wellformed_events pre /\ ~ ok_event pre e /\
      name = acc_name (ev_acc e) /\ k = kind_of r /\ violation pre e r
  | VPanic => False
  end.
Proof.
  intros Hs. rewrite check_model_events.
  pose proof (run_refines (events ds) [] check_init inv_init (syntactic_events ds Hs)) as R.
  destruct (run_events check_init (events ds)) as [s|k d|m]; cbn [verdict_of]; [| |exact R].
  - apply all_ok_before_nil, R.
  - destruct R as (p & e & q & r & H1 & H2 & H3). exists p, e, q, r.
    apply all_ok_before_nil in H2. tauto.
Qed.

Theorem check_iff ds : syntactic ds -> (check_model ds = VOk <-> wellformed ds).
Proof.
  intros Hs. pose proof (check_model_spec ds Hs) as R.
  destruct (check_model ds) as [|k name|]; [split; [intros _; exact R|reflexivity]| |contradiction].
  split; [discriminate|]. intros W.
  destruct R as (p & e & q & r & H1 & _ & H3 & _). destruct (H3 (W p e q H1)).
Qed.

Lemma quantity_unposted pre a c : ~ In c (posted_coms pre a) -> quantity pre a c = dec_nil.
Proof.
  unfold quantity. generalize dec_nil as q0. induction pre as [|e pre IH]; intros q0 H; cbn; [reflexivity|].
  unfold posted_coms in H. cbn [flat_map] in H. rewrite in_app_iff in H.
  destruct e as [a'|a' c' x|a' c' x|a']; cbn [qty_step]; try (apply IH; tauto).
  destruct (same_acc a a') eqn:Ea; cbn [andb].
  - destruct (same_com c c') eqn:Ec.
    + exfalso. apply H. left. apply same_com_eq in Ec. subst c'. left. reflexivity.
    + apply IH. tauto.
  - apply IH. tauto.
Qed.

Lemma ok_event_b_spec pre e : ok_event_b pre e = true <-> ok_event pre e.
Proof.
  destruct e as [a|a c q|a c q|a]; cbn [ok_event_b ok_event].
  - destruct (open_after pre a); cbn; split; congruence.
  - reflexivity.
  - rewrite andb_true_iff, orb_true_iff, negb_true_iff.
    destruct (is_AL a); split; intros [H1 H2]; (split; [exact H1|]).
    + intros _. destruct H2 as [H2|H2]; [discriminate|exact H2].
    + right. apply H2. reflexivity.
    + intros H. discriminate.
    + left. reflexivity.
  - rewrite andb_true_iff, orb_true_iff, negb_true_iff, forallb_forall.
    destruct (is_AL a); split; intros [H1 H2]; (split; [exact H1|]).
    + intros _ c. destruct H2 as [H2|H2]; [discriminate|].
      destruct (in_dec str_eq_dec c (posted_coms pre a)) as [Hin|Hin]; [apply H2; exact Hin|].
      rewrite quantity_unposted by exact Hin. reflexivity.
    + right. intros c _. apply H2. reflexivity.
    + intros H. discriminate.
    + left. reflexivity.
Qed.

Lemma wf_from_spec rest : forall pre, wf_from pre rest = true <-> all_ok_before pre rest.
Proof.
  induction rest as [|e rest IH]; intros pre; cbn [wf_from].
  - split; [intros _; apply all_ok_nil|reflexivity].
  - rewrite andb_true_iff, ok_event_b_spec, IH, all_ok_cons. reflexivity.
Qed.

Theorem wellformed_b_spec ds : wellformed_b ds = true <-> wellformed ds.
Proof. unfold wellformed_b, wellformed. rewrite wf_from_spec. apply all_ok_before_nil. Qed.

Lemma first_bad_spec rest : forall pre p e q,
  rest = p ++ e :: q -> all_ok_before pre p -> ~ ok_event (pre ++ p) e ->
  first_bad pre rest = Some (pre ++ p, e).
Proof.
  induction rest as [|x rest IH]; intros pre p e q H Hall Hbad; [destruct p; discriminate|].
  cbn [first_bad]. destruct p as [|y p]; cbn in H; inversion H; subst.
  - rewrite app_nil_r in *. destruct (ok_event_b pre e) eqn:E; [|reflexivity].
    apply ok_event_b_spec in E. contradiction.
  - apply all_ok_cons in Hall. destruct Hall as [Hy Hall].
    apply ok_event_b_spec in Hy. rewrite Hy.
    replace (pre ++ y :: p) with ((pre ++ [y]) ++ p) in * by (rewrite <- app_assoc; reflexivity).
    apply (IH (pre ++ [y]) p e q eq_refl Hall Hbad).
Qed.

Lemma syntactic_b_spec ds : syntactic_b ds = true <-> syntactic ds.
Proof.
  unfold syntactic_b, syntactic. rewrite forallb_forall. split.
  - intros H d e Hd He. specialize (H d Hd). rewrite forallb_forall in H. apply H. exact He.
  - intros H d Hd. rewrite forallb_forall. intros e He. apply (H d e Hd He).
Qed.

Theorem check_cmd_iff sds :
  (forall ds, parse_directives sds = MOk ds -> syntactic ds) ->
  (check_cmd_fixed sds = COk tt <-> exists ds, parse_directives sds = MOk ds /\ wellformed ds).
Proof.
  intros Hs. unfold check_cmd_fixed, load, run_stage.
  destruct (parse_directives sds) as [ds|m|m] eqn:P; cbn.
  - specialize (Hs ds eq_refl). pose proof (check_iff ds Hs) as I.
    unfold check_model, check_with in I.
    destruct (process_days check_proc_fixed check_init (b_days (builder_of ds))) as [[s l]|k d|m]; cbn in *.
    + split; [intros _; exists ds; split; [reflexivity|apply I; reflexivity]|reflexivity].
    + split; [discriminate|]. intros [ds' [E W]]. inversion E; subst ds'. apply I in W. discriminate.
    + split; [discriminate|]. intros [ds' [E W]]. inversion E; subst ds'. apply I in W. discriminate.
  - split; [discriminate|]. intros [ds' [E _]]. discriminate.
  - split; [discriminate|]. intros [ds' [E _]]. discriminate.
Qed.

(* Only the sublists per date and kind matter: two journals whose directives of each date and
   kind are the same lists (however the dates and kinds are interleaved, e.g. spread over
   files in any arrival order) have the same canonical sequence. *)
Lemma sel_date_in ds dt : In dt (map ddate ds) -> exists d k, In d (sel ds dt k).
Proof.
  rewrite in_map_iff. intros [d [H1 H2]]. exists d, (dkind d).
  unfold sel. apply filter_In. split; [exact H2|]. rewrite H1, !Z.eqb_refl. reflexivity.
Qed.

Lemma dates_by_sel ds1 ds2 :
  (forall dt k, Permutation (sel ds1 dt k) (sel ds2 dt k)) -> dates ds1 = dates ds2.
Proof.
  assert (Hin : forall a b, (forall dt k, Permutation (sel a dt k) (sel b dt k)) ->
                            forall x, In x (map ddate a) -> In x (map ddate b)).
  { intros a b Hab x Hx. apply sel_date_in in Hx. destruct Hx as (d & k & Hx).
    apply (Permutation_in _ (Hab x k)), sel_in in Hx. destruct Hx as (H1 & <- & _). apply in_map, H1. }
  intros H. apply sorted_unique; try apply dates_sorted.
  intros x. rewrite !dates_in. split; apply Hin; [exact H|intros dt k; apply Permutation_sym, H].
Qed.

Lemma canonical_by_sel ds1 ds2 :
  (forall dt k, sel ds1 dt k = sel ds2 dt k) -> canonical ds1 = canonical ds2.
Proof.
  intros H. unfold canonical. rewrite (dates_by_sel ds1 ds2) by (intros dt k; rewrite H; reflexivity).
  apply flat_map_ext. intros dt. unfold of_day. rewrite !H. reflexivity.
Qed.

Theorem order_irrelevant ds1 ds2 :
  (forall dt k, sel ds1 dt k = sel ds2 dt k) ->
  (wellformed ds1 <-> wellformed ds2) /\
  (syntactic ds1 -> syntactic ds2 -> (check_model ds1 = VOk <-> check_model ds2 = VOk)).
Proof.
  intros H. assert (W : wellformed ds1 <-> wellformed ds2).
  { unfold wellformed, events. rewrite (canonical_by_sel ds1 ds2 H). reflexivity. }
  split; [exact W|]. intros S1 S2. rewrite (check_iff ds1 S1), (check_iff ds2 S2). exact W.
Qed.

Definition w_chf : commodity := [67; 72; 70].
Definition w_assets_a : account := [s_Assets; [65]].
Definition w_assets_b : account := [s_Assets; [66]].
Definition w_income_i : account := [s_Income; [73]].
Definition w_d (n : Z) : Z := 737425 + n.     (* 2020-01-01 + n *)

(* finding C04-zero-assertion: open A; the next day "balance Assets:A 0 CHF" *)
Definition w_zero : list sdirective :=
  [ SOpen (w_d 0) w_assets_a; SAssert (w_d 1) [mkBalance w_assets_a (mkDec 0 0) w_chf] ].

(* finding C04-nonAL-assertion: open Income:I; the next day "balance Income:I 0 CHF" *)
Definition w_nonal : list sdirective :=
  [ SOpen (w_d 0) w_income_i; SAssert (w_d 1) [mkBalance w_income_i (mkDec 0 0) w_chf] ].

Lemma zero_refuted :
  exists sds ds, parse_directives sds = MOk ds /\ syntactic ds /\ wellformed ds /\
                 check_cmd false sds <> COk tt /\ check_cmd_fixed sds = COk tt.
Proof.
  exists w_zero. eexists. split; [vm_compute; reflexivity|].
  split; [apply syntactic_b_spec; vm_compute; reflexivity|].
  split; [apply wellformed_b_spec; vm_compute; reflexivity|].
  split; [vm_compute; discriminate|vm_compute; reflexivity].
Qed.

(* the same with a booking: 5 CHF from Income:I to Assets:A, then "balance Income:I -5 CHF";
   rejected also when only the missing-position defect is repaired ([check_cmd true]) *)
Definition w_nonal2 : list sdirective :=
  [ SOpen (w_d 0) w_income_i; SOpen (w_d 0) w_assets_a;
    STxn (mkStxn (w_d 1) [] [mkBooking w_income_i w_assets_a (mkDec 5 0) w_chf] None None);
    SAssert (w_d 2) [mkBalance w_income_i (mkDec (-5) 0) w_chf] ].

Lemma nonal_refuted :
  exists sds ds, parse_directives sds = MOk ds /\ syntactic ds /\ wellformed ds /\
                 check_cmd false sds <> COk tt /\ check_cmd_fixed sds = COk tt.
Proof.
  exists w_nonal. eexists. split; [vm_compute; reflexivity|].
  split; [apply syntactic_b_spec; vm_compute; reflexivity|].
  split; [apply wellformed_b_spec; vm_compute; reflexivity|].
  split; [vm_compute; discriminate|vm_compute; reflexivity].
Qed.

(* a well-formed journal: open A and B, book 5.00 CHF from A to B, assert both (two lines),
   book it back, all on one day; close B the same day; reopen B later and assert zero. *)
Definition w_good : list directive :=
  let five := mkDec 500 (-2) in
  [ DClose (w_d 0) w_assets_b;
    DAssert (w_d 0) [mkBalance w_assets_a (mkDec 0 0) w_chf; mkBalance w_assets_b (mkDec 0 (-1)) w_chf];
    DTxn (mkTxn (w_d 0) [] (pair_build w_assets_a w_assets_b w_chf five dec_nil) None);
    DTxn (mkTxn (w_d 0) [] (pair_build w_assets_b w_assets_a w_chf five dec_nil) None);
    DOpen (w_d 0) w_assets_b;
    DOpen (w_d 0) w_assets_a;
    DAssert (w_d 9) [mkBalance w_assets_b (mkDec 0 0) w_chf];
    DOpen (w_d 7) w_assets_b ].

(* an ill-formed one: B is closed while it still holds 5.00 CHF *)
Definition w_bad : list directive :=
  let five := mkDec 500 (-2) in
  [ DOpen (w_d 0) w_assets_a; DOpen (w_d 0) w_assets_b;
    DTxn (mkTxn (w_d 1) [] (pair_build w_assets_a w_assets_b w_chf five dec_nil) None);
    DClose (w_d 2) w_assets_b ].

(* Why [syntactic] is a hypothesis: the structured representation has accounts the parser never
   produces.  ["Assets"; "A:B"] and ["Assets"; "A"; "B"] have the same name, knut (and the
   model) identifies accounts by name, the specification by their segments: opening the first
   and booking on the second is accepted by the checker and is not well-formed. *)
Definition w_colon : list directive :=
  let a1 : account := [s_Assets; [65; 58; 66]] in
  let a2 : account := [s_Assets; [65]; [66]] in
  [ DOpen (w_d 0) a1; DOpen (w_d 0) w_assets_a;
    DTxn (mkTxn (w_d 1) [] (pair_build w_assets_a a2 w_chf (mkDec 1 0) dec_nil) None) ].
