(* C04/C05 overlap: well-formedness (hence acceptance by the repaired checker) does not depend on
   the order of the directive list at all.  The canonical sequence is a concatenation of blocks
   (one per date and kind); permuting the input permutes each block; and a block of opens, of
   transactions, of assertions or of closes means the same in every order ([wellformed_blocks]:
   only the blocks matter, each as a multiset):
   - opens/closes of a day: all ok iff the accounts are distinct and each is ok on its own;
   - postings: ok iff the account is open (postings do not open or close anything); the
     quantities afterwards are the same because decimal addition is commutative and associative
     on records (Proofs/DecProofs.v);
   - assertions change nothing. *)
From Coq Require Import ZArith List Bool Lia Permutation Sorting.Sorted.
From Knut Require Import Model.Str Model.Dec Model.Account Model.Ledger Model.Journal Model.Check
     Spec.WellformedSpec Proofs.ListFacts Proofs.DecProofs Proofs.CheckLemmas Proofs.CheckProofs Proofs.BuilderProofs Proofs.CheckMain.
Import ListNotations.
Open Scope bool_scope.
Open Scope Z_scope.

Lemma all_ok_app l1 : forall pre l2,
  all_ok_before pre (l1 ++ l2) <-> all_ok_before pre l1 /\ all_ok_before (pre ++ l1) l2.
Proof.
  induction l1 as [|e l1 IH]; intros pre l2; cbn [app].
  - rewrite app_nil_r. split; [intros H; split; [apply all_ok_nil|exact H]|tauto].
  - rewrite !all_ok_cons, IH. rewrite <- app_assoc. cbn [app]. tauto.
Qed.

Definition heq (p1 p2 : list event) : Prop :=
  (forall a, open_after p1 a = open_after p2 a) /\ (forall a c, quantity p1 a c = quantity p2 a c).

Lemma heq_refl p : heq p p.
Proof. split; reflexivity. Qed.

Lemma heq_sym p1 p2 : heq p1 p2 -> heq p2 p1.
Proof. intros [Ho Hq]. split; intros; [rewrite Ho|rewrite Hq]; reflexivity. Qed.

Lemma heq_snoc p1 p2 e : heq p1 p2 -> heq (p1 ++ [e]) (p2 ++ [e]).
Proof.
  intros [Ho Hq]. split.
  - intros a. rewrite !open_after_snoc, Ho. reflexivity.
  - intros a c. rewrite !quantity_snoc, Hq. reflexivity.
Qed.

Lemma ok_event_heq p1 p2 e : heq p1 p2 -> (ok_event p1 e <-> ok_event p2 e).
Proof.
  intros [Ho Hq]. destruct e as [a|a c q|a c q|a]; cbn [ok_event]; rewrite ?Ho.
  - reflexivity.
  - reflexivity.
  - rewrite Hq. reflexivity.
  - split; intros [H1 H2]; (split; [exact H1|]); intros Al c; [rewrite <- Hq|rewrite Hq]; apply H2; exact Al.
Qed.

Lemma all_ok_heq l : forall p1 p2, heq p1 p2 -> (all_ok_before p1 l <-> all_ok_before p2 l).
Proof.
  induction l as [|e l IH]; intros p1 p2 H.
  - split; intros _; apply all_ok_nil.
  - rewrite !all_ok_cons. rewrite (ok_event_heq p1 p2 e H). rewrite (IH _ _ (heq_snoc _ _ e H)). reflexivity.
Qed.

Lemma heq_app l : forall p1 p2, heq p1 p2 -> heq (p1 ++ l) (p2 ++ l).
Proof.
  induction l as [|e l IH]; intros p1 p2 H.
  - rewrite !app_nil_r. exact H.
  - replace (p1 ++ e :: l) with ((p1 ++ [e]) ++ l) by (rewrite <- app_assoc; reflexivity).
    replace (p2 ++ e :: l) with ((p2 ++ [e]) ++ l) by (rewrite <- app_assoc; reflexivity).
    apply IH. apply heq_snoc. exact H.
Qed.

Lemma heq_trans p1 p2 p3 : heq p1 p2 -> heq p2 p3 -> heq p1 p3.
Proof. intros [A1 A2] [B1 B2]. split; intros; [rewrite A1; apply B1|rewrite A2; apply B2]. Qed.

(* blocks that mean the same after equivalent histories *)
Definition bequiv (b1 b2 : list event) : Prop :=
  forall p1 p2, heq p1 p2 -> (all_ok_before p1 b1 <-> all_ok_before p2 b2) /\ heq (p1 ++ b1) (p2 ++ b2).

Lemma bequiv_nil : bequiv [] [].
Proof. intros p1 p2 H. rewrite !app_nil_r. split; [split; intros _; apply all_ok_nil|exact H]. Qed.

Lemma bequiv_app a1 a2 b1 b2 : bequiv a1 a2 -> bequiv b1 b2 -> bequiv (a1 ++ b1) (a2 ++ b2).
Proof.
  intros Ha Hb p1 p2 H. destruct (Ha p1 p2 H) as [A1 A2]. destruct (Hb _ _ A2) as [B1 B2].
  rewrite !all_ok_app, !app_assoc. split; [rewrite A1, B1; reflexivity|exact B2].
Qed.

Lemma bequiv_concat bs1 bs2 : Forall2 bequiv bs1 bs2 -> bequiv (concat bs1) (concat bs2).
Proof. induction 1; cbn [concat]; [apply bequiv_nil|apply bequiv_app; assumption]. Qed.

Lemma fold_left_perm {A B} (f : A -> B -> A) (l1 l2 : list B) :
  (forall a x y, f (f a x) y = f (f a y) x) -> Permutation l1 l2 -> forall a, fold_left f l1 a = fold_left f l2 a.
Proof.
  intros Hc P. induction P; intros a; cbn.
  - reflexivity.
  - apply IHP.
  - rewrite Hc. reflexivity.
  - rewrite IHP1. apply IHP2.
Qed.

Lemma qty_step_comm a c q x y : qty_step a c (qty_step a c q x) y = qty_step a c (qty_step a c q y) x.
Proof.
  destruct x as [?|ax cx qx|? ? ?|?], y as [?|ay cy qy|? ? ?|?]; cbn [qty_step]; try reflexivity.
  destruct (same_acc a ax && same_com c cx), (same_acc a ay && same_com c cy); try reflexivity.
  rewrite !add_assoc. f_equal. apply add_comm.
Qed.

Lemma open_step_comm_post a o x y :
  (forall b, x <> EOpen b /\ x <> EClose b) -> open_step a (open_step a o x) y = open_step a (open_step a o y) x.
Proof. intros H. destruct x as [b| | |b]; try reflexivity; destruct (H b) as [H1 H2]; congruence. Qed.

(* the kind of the directive an event comes from ([dkind]) *)
Definition ekind (e : event) : Z :=
  match e with EOpen _ => 1 | EPost _ _ _ => 2 | EAssert _ _ _ => 3 | EClose _ => 4 end.

Lemma events_of_kind d e : In e (events_of d) -> ekind e = dkind d.
Proof.
  destruct d; cbn [events_of]; rewrite ?in_map_iff;
    [intros []|intros [<-|[]]|intros [<-|[]]|intros (b & <- & _)|intros (p & <- & _)]; reflexivity.
Qed.

Lemma kind_map (K : account -> event) k l :
  (forall e, ekind e = k -> e = K (ev_acc e)) -> (forall e, In e l -> ekind e = k) ->
  l = map K (map ev_acc l).
Proof.
  intros HK H. rewrite map_map, <- (map_id l) at 1. apply map_ext_in. intros e He. apply HK, H, He.
Qed.

Lemma kind_opens l : (forall e, In e l -> ekind e = 1) -> l = map EOpen (map ev_acc l).
Proof. apply kind_map. intros e E. destruct e; try discriminate E. reflexivity. Qed.

Lemma kind_closes l : (forall e, In e l -> ekind e = 4) -> l = map EClose (map ev_acc l).
Proof. apply kind_map. intros e E. destruct e; try discriminate E. reflexivity. Qed.

(* only postings move quantities; only opens and closes move openness *)
Lemma fold_left_neutral {A B} (f : A -> B -> A) l :
  (forall x, In x l -> forall a, f a x = a) -> forall a, fold_left f l a = a.
Proof.
  induction l as [|x l IH]; intros H a; cbn [fold_left]; [reflexivity|].
  rewrite (H x (or_introl eq_refl)). apply IH. intros y Hy. apply H. right. exact Hy.
Qed.

Lemma quantity_neutral l pre a c :
  (forall e, In e l -> ekind e <> 2) -> quantity (pre ++ l) a c = quantity pre a c.
Proof.
  intros H. unfold quantity. rewrite fold_left_app. apply fold_left_neutral.
  intros e He q. specialize (H e He). destruct e; try reflexivity. contradiction H. reflexivity.
Qed.

Lemma open_after_neutral l pre a :
  (forall e, In e l -> ekind e = 2 \/ ekind e = 3) -> open_after (pre ++ l) a = open_after pre a.
Proof.
  intros H. unfold open_after. rewrite fold_left_app. apply fold_left_neutral.
  intros e He o. destruct (H e He) as [K|K]; destruct e; try discriminate K; reflexivity.
Qed.

Lemma heq_asserts l pre : (forall e, In e l -> ekind e = 3) -> heq (pre ++ l) pre.
Proof.
  intros H. split; [intros a; apply open_after_neutral|intros a c; apply quantity_neutral];
    intros e He; rewrite (H e He); [right; reflexivity|discriminate].
Qed.

Lemma existsb_perm {A} (f : A -> bool) l1 l2 : Permutation l1 l2 -> existsb f l1 = existsb f l2.
Proof.
  induction 1; cbn [existsb];
    [reflexivity|f_equal; assumption|rewrite !orb_assoc, (orb_comm (f y)); reflexivity|congruence].
Qed.

Lemma open_after_opens l : forall pre a,
  open_after (pre ++ map EOpen l) a = open_after pre a || existsb (same_acc a) l.
Proof.
  induction l as [|b l IH]; intros pre a; cbn [map existsb].
  - rewrite app_nil_r, orb_false_r. reflexivity.
  - replace (pre ++ EOpen b :: map EOpen l) with ((pre ++ [EOpen b]) ++ map EOpen l) by (rewrite <- app_assoc; reflexivity).
    rewrite IH, open_after_snoc. cbn [open_step].
    destruct (same_acc a b); cbn; [rewrite orb_true_r; reflexivity|reflexivity].
Qed.

Lemma open_after_closes l : forall pre a,
  open_after (pre ++ map EClose l) a = open_after pre a && negb (existsb (same_acc a) l).
Proof.
  induction l as [|b l IH]; intros pre a; cbn [map existsb].
  - rewrite app_nil_r, andb_true_r. reflexivity.
  - replace (pre ++ EClose b :: map EClose l) with ((pre ++ [EClose b]) ++ map EClose l) by (rewrite <- app_assoc; reflexivity).
    rewrite IH, open_after_snoc. cbn [open_step].
    destruct (same_acc a b); cbn; [rewrite andb_false_r; reflexivity|reflexivity].
Qed.

(* a block of events [K a] whose members exclude only each other: all ok iff the accounts are
   distinct and each is ok on its own *)
Lemma all_ok_distinct (K : account -> event) :
  (forall pre a b, ok_event (pre ++ [K b]) (K a) <-> a <> b /\ ok_event pre (K a)) ->
  forall l pre, all_ok_before pre (map K l) <-> NoDup l /\ forall a, In a l -> ok_event pre (K a).
Proof.
  intros HK. induction l as [|b l IH]; intros pre; cbn [map].
  - split; [intros _; split; [constructor|intros a []]|intros _; apply all_ok_nil].
  - rewrite all_ok_cons, IH. split.
    + intros (Hb & N & F). split.
      * constructor; [|exact N]. intros Hin. apply (HK pre b b); [apply F, Hin|reflexivity].
      * intros a [<-|Ha]; [exact Hb|apply (HK pre a b), F, Ha].
    + intros (N & F). inversion N as [|? ? Hn N']; subst.
      split; [apply F; left; reflexivity|]. split; [exact N'|].
      intros a Ha. apply HK. split; [intros ->; contradiction|apply F; right; exact Ha].
Qed.

Lemma all_ok_opens l pre :
  all_ok_before pre (map EOpen l) <-> NoDup l /\ forall a, In a l -> open_after pre a = false.
Proof.
  apply (all_ok_distinct EOpen). clear. intros pre a b. cbn [ok_event]. rewrite open_after_snoc. cbn [open_step].
  unfold same_acc. destruct (acc_eq_dec a b) as [->|N]; [|tauto].
  split; [discriminate|intros [N _]; contradiction].
Qed.

Lemma all_ok_closes l pre :
  all_ok_before pre (map EClose l) <-> NoDup l /\ forall a, In a l -> ok_event pre (EClose a).
Proof.
  apply (all_ok_distinct EClose). clear. intros pre a b. cbn [ok_event]. rewrite open_after_snoc. cbn [open_step].
  assert (Hq : forall c, quantity (pre ++ [EClose b]) a c = quantity pre a c) by (intros c; apply quantity_snoc).
  unfold same_acc. destruct (acc_eq_dec a b) as [->|N].
  - split; [intros [H _]; discriminate|intros [N _]; contradiction].
  - split; [intros [H1 H2]; split; [exact N|split; [exact H1|]]|intros (_ & H1 & H2); split; [exact H1|]];
      intros Al c; [rewrite <- Hq|rewrite Hq]; apply H2, Al.
Qed.

Lemma bequiv_distinct (K : account -> event) l1 l2 :
  Permutation l1 l2 ->
  (forall l pre, all_ok_before pre (map K l) <-> NoDup l /\ forall a, In a l -> ok_event pre (K a)) ->
  (forall p1 p2, heq p1 p2 -> heq (p1 ++ map K l1) (p2 ++ map K l2)) ->
  bequiv (map K l1) (map K l2).
Proof.
  intros P HK Hh p1 p2 H. split; [|apply Hh, H]. rewrite !HK.
  split; intros [N F]; split.
  - apply (Permutation_NoDup P N).
  - intros a Ha. apply (ok_event_heq p1 p2 _ H), F, (Permutation_in _ (Permutation_sym P) Ha).
  - apply (Permutation_NoDup (Permutation_sym P) N).
  - intros a Ha. apply (ok_event_heq p1 p2 _ H), F, (Permutation_in _ P Ha).
Qed.

Lemma bequiv_opens l1 l2 : Permutation l1 l2 -> bequiv (map EOpen l1) (map EOpen l2).
Proof.
  intros P. apply (bequiv_distinct EOpen l1 l2 P); [intros l pre; apply all_ok_opens|].
  intros p1 p2 [Ho Hq]. split.
  - intros a. rewrite !open_after_opens, Ho, (existsb_perm _ l1 l2 P). reflexivity.
  - intros a c. rewrite !quantity_neutral; [apply Hq| |]; intros e He; apply in_map_iff in He;
      destruct He as (b & <- & _); discriminate.
Qed.

Lemma bequiv_closes l1 l2 : Permutation l1 l2 -> bequiv (map EClose l1) (map EClose l2).
Proof.
  intros P. apply (bequiv_distinct EClose l1 l2 P); [intros l pre; apply all_ok_closes|].
  intros p1 p2 [Ho Hq]. split.
  - intros a. rewrite !open_after_closes, Ho, (existsb_perm _ l1 l2 P). reflexivity.
  - intros a c. rewrite !quantity_neutral; [apply Hq| |]; intros e He; apply in_map_iff in He;
      destruct He as (b & <- & _); discriminate.
Qed.

(* a block in which no event changes how the later ones are judged *)
Lemma all_ok_pointwise pre l :
  (forall p e q, l = p ++ e :: q -> (ok_event (pre ++ p) e <-> ok_event pre e)) ->
  (all_ok_before pre l <-> forall e, In e l -> ok_event pre e).
Proof.
  intros H. unfold all_ok_before. split.
  - intros A e He. apply in_split in He. destruct He as (p & q & E). apply (H p e q E), (A p e q E).
  - intros A p e q E. apply (H p e q E), A. rewrite E. apply in_elt.
Qed.

(* postings neither open nor close, and are judged by openness alone *)
Lemma all_ok_posts l pre :
  (forall e, In e l -> ekind e = 2) ->
  (all_ok_before pre l <-> forall e, In e l -> ok_event pre e).
Proof.
  intros Hk. apply all_ok_pointwise. intros p e q ->.
  assert (He : ekind e = 2) by apply Hk, in_elt.
  destruct e; try discriminate He. cbn [ok_event].
  rewrite open_after_neutral; [reflexivity|]. intros x Hx. left. apply Hk, in_or_app. left. exact Hx.
Qed.

Lemma all_ok_asserts l pre :
  (forall e, In e l -> ekind e = 3) ->
  (all_ok_before pre l <-> forall e, In e l -> ok_event pre e).
Proof.
  intros Hk. apply all_ok_pointwise. intros p e q ->. apply ok_event_heq, heq_asserts.
  intros x Hx. apply Hk, in_or_app. left. exact Hx.
Qed.

Lemma bequiv_pointwise l1 l2 :
  Permutation l1 l2 ->
  (forall pre, all_ok_before pre l1 <-> forall e, In e l1 -> ok_event pre e) ->
  (forall pre, all_ok_before pre l2 <-> forall e, In e l2 -> ok_event pre e) ->
  (forall p1 p2, heq p1 p2 -> heq (p1 ++ l1) (p2 ++ l2)) ->
  bequiv l1 l2.
Proof.
  intros P H1 H2 Hh p1 p2 H. split; [|apply Hh, H]. rewrite H1, H2.
  split; intros F e He; apply (ok_event_heq p1 p2 e H), F.
  - apply (Permutation_in _ (Permutation_sym P) He).
  - apply (Permutation_in _ P He).
Qed.

Lemma kind_perm k l1 l2 :
  Permutation l1 l2 -> (forall e, In e l1 -> ekind e = k) -> forall e, In e l2 -> ekind e = k.
Proof. intros P H e He. apply H, (Permutation_in _ (Permutation_sym P) He). Qed.

(* the quantities after a block of postings: the addition is commutative and associative *)
Lemma bequiv_posts l1 l2 :
  Permutation l1 l2 -> (forall e, In e l1 -> ekind e = 2) -> bequiv l1 l2.
Proof.
  intros P K1. pose proof (kind_perm 2 l1 l2 P K1) as K2.
  apply (bequiv_pointwise l1 l2 P); [intros pre; apply all_ok_posts, K1|intros pre; apply all_ok_posts, K2|].
  intros p1 p2 [Ho Hq]. split.
  - intros a. rewrite !open_after_neutral by (intros e He; left; auto). apply Ho.
  - intros a c. unfold quantity. rewrite !fold_left_app. fold (quantity p1 a c). fold (quantity p2 a c).
    rewrite Hq. apply fold_left_perm; [intros; apply qty_step_comm|exact P].
Qed.

Lemma bequiv_asserts l1 l2 :
  Permutation l1 l2 -> (forall e, In e l1 -> ekind e = 3) -> bequiv l1 l2.
Proof.
  intros P K1. pose proof (kind_perm 3 l1 l2 P K1) as K2.
  apply (bequiv_pointwise l1 l2 P); [intros pre; apply all_ok_asserts, K1|intros pre; apply all_ok_asserts, K2|].
  intros p1 p2 H. apply (heq_trans _ p1); [apply heq_asserts, K1|].
  apply (heq_trans _ p2); [exact H|apply heq_sym, heq_asserts, K2].
Qed.

Lemma sel_app a b dt k : sel (a ++ b) dt k = sel a dt k ++ sel b dt k.
Proof. unfold sel. apply filter_app. Qed.

Lemma dkind_range d : dkind d = 0 \/ dkind d = 1 \/ dkind d = 2 \/ dkind d = 3 \/ dkind d = 4.
Proof. destruct d; cbn; tauto. Qed.

Lemma bequiv_ekind k l1 l2 :
  Permutation l1 l2 -> (forall e, In e l1 -> ekind e = k) -> bequiv l1 l2.
Proof.
  intros P K1. pose proof (kind_perm k l1 l2 P K1) as K2.
  destruct l1 as [|e0 t] eqn:El; [apply Permutation_nil in P; subst l2; apply bequiv_nil|].
  rewrite <- El in *. assert (Hk : ekind e0 = k) by (apply K1; rewrite El; left; reflexivity).
  destruct e0; cbn [ekind] in Hk; subst k.
  - rewrite (kind_opens l1 K1), (kind_opens l2 K2). apply bequiv_opens, Permutation_map, P.
  - apply bequiv_posts; assumption.
  - apply bequiv_asserts; assumption.
  - rewrite (kind_closes l1 K1), (kind_closes l2 K2). apply bequiv_closes, Permutation_map, P.
Qed.

Lemma bequiv_kind k l1 l2 :
  Permutation l1 l2 -> (forall d, In d l1 -> dkind d = k) ->
  bequiv (flat_map events_of l1) (flat_map events_of l2).
Proof.
  intros P H1. apply (bequiv_ekind k); [apply Permutation_flat_map, P|].
  intros e He. apply in_flat_map in He. destruct He as (d & Hd & He).
  rewrite (events_of_kind d e He). apply H1, Hd.
Qed.

Lemma bequiv_day ds1 ds2 dt :
  (forall k, Permutation (sel ds1 dt k) (sel ds2 dt k)) ->
  bequiv (flat_map events_of (of_day ds1 dt)) (flat_map events_of (of_day ds2 dt)).
Proof.
  intros P.
  assert (K : forall k, bequiv (flat_map events_of (sel ds1 dt k)) (flat_map events_of (sel ds2 dt k))).
  { intros k. apply (bequiv_kind k); [apply P|]. intros d Hd. apply sel_in in Hd. tauto. }
  unfold of_day. rewrite !flat_map_app.
  repeat apply bequiv_app; apply K.
Qed.

Lemma bequiv_days ds1 ds2 (l : list Z) :
  (forall dt k, Permutation (sel ds1 dt k) (sel ds2 dt k)) ->
  bequiv (flat_map events_of (flat_map (of_day ds1) l)) (flat_map events_of (flat_map (of_day ds2) l)).
Proof.
  intros P. induction l as [|dt l IH]; cbn [flat_map]; [apply bequiv_nil|].
  rewrite !flat_map_app. apply bequiv_app; [apply bequiv_day, P|exact IH].
Qed.

Lemma sel_perm ds1 ds2 dt k : Permutation ds1 ds2 -> Permutation (sel ds1 dt k) (sel ds2 dt k).
Proof. apply Permutation_filter. Qed.

Lemma dates_perm ds1 ds2 : Permutation ds1 ds2 -> dates ds1 = dates ds2.
Proof. intros P. apply dates_by_sel. intros dt k. apply sel_perm, P. Qed.

(* only the directives of each date and kind matter, and these as multisets *)
Theorem wellformed_blocks ds1 ds2 :
  (forall dt k, Permutation (sel ds1 dt k) (sel ds2 dt k)) -> (wellformed ds1 <-> wellformed ds2).
Proof.
  intros P. unfold wellformed, events, canonical. rewrite <- (dates_by_sel ds1 ds2 P).
  rewrite <- !all_ok_before_nil.
  apply (bequiv_days ds1 ds2 (dates ds1) P [] [] (heq_refl [])).
Qed.

Theorem wellformed_perm ds1 ds2 : Permutation ds1 ds2 -> (wellformed ds1 <-> wellformed ds2).
Proof. intros P. apply wellformed_blocks. intros dt k. apply sel_perm, P. Qed.

Lemma syntactic_perm ds1 ds2 : Permutation ds1 ds2 -> syntactic ds1 -> syntactic ds2.
Proof.
  intros P S d e Hd He. apply (S d e); [|exact He].
  eapply Permutation_in; [apply Permutation_sym; eassumption|exact Hd].
Qed.

Theorem check_perm ds1 ds2 :
  Permutation ds1 ds2 -> syntactic ds1 -> (check_model ds1 = VOk <-> check_model ds2 = VOk).
Proof.
  intros P S. rewrite (check_iff ds1 S), (check_iff ds2 (syntactic_perm _ _ P S)). apply wellformed_perm. exact P.
Qed.
