(* C04: the repaired checker (Model/Check.v [check_proc_fixed]) accepts exactly the well-formed
   journals (Spec/WellformedSpec.v).  Refinement proof:
     1. the checker's callbacks as one step function on events, [ck_event];
     2. the invariant [Inv pre s] relating the checker state [s] reached after the events [pre]
        to the history functions of the specification: the open list denotes [open_after pre],
        the quantity map denotes [quantity pre] up to equality of values (positions deleted at
        close were zero) and has an entry for exactly the positions that are live in the sense of
        Spec/CheckWriteSpec.v (what Checker.dayEnd of `check --write` ranges over), its keys are
        sorted and well-formed;
     3. [step_refines]: one event; [run_refines]: a sequence of events. *)
From Coq Require Import ZArith List Bool Lia Sorting.Sorted.
From Knut Require Import Proofs.SMapProofs.
From Knut Require Import Model.Str Model.Dec Model.Account Model.Ledger Model.Price Model.Journal Model.Check
     Spec.WellformedSpec Spec.CheckWriteSpec Proofs.DecProofs Proofs.DecEqProofs Proofs.CheckLemmas.
Import ListNotations.
Open Scope bool_scope.
Open Scope Z_scope.

Definition getd (m : positions) (a : account) (c : commodity) : dec :=
  match pos_get m a c with Some q => q | None => dec_nil end.

Definition ck_post (s : check_state) (a : account) (c : commodity) (q : dec) : presult check_state :=
  if negb (is_open s a) then RErr k_not_open (acc_name a)
  else if is_AL a then ROk (mkCheck (ck_open s) (pos_add (ck_qty s) a c q)) else ROk s.

Definition ck_event (s : check_state) (e : event) : presult check_state :=
  match e with
  | EOpen a => ck_open_cb s a
  | EPost a c q => ck_post s a c q
  | EAssert a c q => ck_balance_fixed s [] (mkBalance a q c)
  | EClose a => ck_close_cb s a
  end.

Fixpoint run_events (s : check_state) (evs : list event) : presult check_state :=
  match evs with
  | [] => ROk s
  | e :: r => rbind (ck_event s e) (fun s' => run_events s' r)
  end.

Definition kind_of (r : reason) : str :=
  match r with
  | AlreadyOpen => k_already_open | NotOpen => k_not_open
  | AssertionFails => k_assertion | NonZeroPosition => k_nonzero
  end.

Lemma open_after_snoc pre e a : open_after (pre ++ [e]) a = open_step a (open_after pre a) e.
Proof. unfold open_after. rewrite fold_left_app. reflexivity. Qed.

Lemma quantity_snoc pre e a c : quantity (pre ++ [e]) a c = qty_step a c (quantity pre a c) e.
Proof. unfold quantity. rewrite fold_left_app. reflexivity. Qed.

Lemma live_snoc pre e a c :
  live (pre ++ [e]) a c = is_AL a && live_step a c (fold_left (live_step a c) pre false) e.
Proof. unfold live. rewrite fold_left_app. reflexivity. Qed.

Lemma live_posted pre a c : live pre a c = true -> exists q, In (EPost a c q) pre.
Proof.
  unfold live. intros H. apply andb_true_iff in H. destruct H as [_ H].
  revert H. induction pre as [|e pre IH] using rev_ind; [cbn; discriminate|].
  rewrite fold_left_app. cbn [fold_left]. intros H.
  assert (Hrec : fold_left (live_step a c) pre false = true -> exists q, In (EPost a c q) (pre ++ [e])).
  { intros H1. destruct (IH H1) as [q Hq]. exists q. apply in_or_app. left. exact Hq. }
  destruct e as [a'|a' c' x|a' c' x|a']; cbn [live_step] in H; try (apply Hrec; exact H).
  - destruct (same_acc a a' && same_com c c') eqn:N; [|apply Hrec; exact H].
    apply andb_true_iff in N. destruct N as [N1 N2]. apply same_acc_eq in N1. apply same_com_eq in N2. subst a' c'.
    exists x. apply in_or_app. right. left. reflexivity.
  - destruct (same_acc a a'); [discriminate|apply Hrec; exact H].
Qed.

Lemma live_open pre a c : wellformed_events pre -> live pre a c = true -> open_after pre a = true.
Proof.
  unfold live. intros W H. apply andb_true_iff in H. destruct H as [_ H].
  revert W H. induction pre as [|e pre IH] using rev_ind; [cbn; discriminate|].
  intros W. rewrite fold_left_app. cbn [fold_left]. rewrite open_after_snoc. intros H.
  assert (W' : wellformed_events pre).
  { intros p x q E. apply (W p x (q ++ [e])). rewrite E. rewrite <- app_assoc. reflexivity. }
  assert (Oke : ok_event pre e).
  { apply (W pre e []). reflexivity. }
  destruct e as [a'|a' c' x|a' c' x|a']; cbn [live_step open_step] in *.
  - destruct (same_acc a a'); [reflexivity|apply IH; assumption].
  - destruct (same_acc a a' && same_com c c') eqn:N; [|apply IH; assumption].
    apply andb_true_iff in N. destruct N as [N1 _]. apply same_acc_eq in N1. subst a'. exact Oke.
  - apply IH; assumption.
  - destruct (same_acc a a'); [discriminate|apply IH; assumption].
Qed.

Lemma is_open_cons l m a b : is_open (mkCheck (a :: l) m) b = acc_eqb b a || is_open (mkCheck l m) b.
Proof. reflexivity. Qed.

Lemma existsb_filter_acc a b l :
  existsb (acc_eqb b) (filter (fun x => negb (acc_eqb a x)) l) = negb (acc_eqb a b) && existsb (acc_eqb b) l.
Proof.
  induction l as [|x l IH]; cbn [filter existsb]; [symmetry; apply andb_false_r|].
  destruct (acc_eqb a x) eqn:Eax; cbn [negb existsb]; rewrite IH.
  - apply acc_eqb_name in Eax.
    replace (acc_eqb b x) with (acc_eqb a b) by (unfold acc_eqb; rewrite <- Eax; apply str_eqb_sym).
    destruct (acc_eqb a b); reflexivity.
  - destruct (acc_eqb a b) eqn:Eab; cbn [negb andb]; [|reflexivity].
    replace (acc_eqb b x) with false; [reflexivity|].
    apply acc_eqb_name in Eab. unfold acc_eqb in *. rewrite <- Eab. symmetry. exact Eax.
Qed.

Definition entry_ok (x : str * (account * commodity * dec)) : Prop :=
  fst x = pos_key (fst (fst (snd x))) (snd (fst (snd x))) /\
  account_ok (fst (fst (snd x))) = true /\ is_AL (fst (fst (snd x))) = true.

Definition entry_acc (x : str * (account * commodity * dec)) : account := fst (fst (snd x)).

Definition has (m : positions) (a : account) (c : commodity) : bool :=
  match pos_get m a c with Some _ => true | None => false end.

Lemma getd_put_same m a c q : getd (sm_put m (pos_key a c) (a, c, q)) a c = q.
Proof. unfold getd, pos_get. rewrite sm_get_put_same. reflexivity. Qed.

Lemma getd_put_other m a c v b c' :
  pos_key b c' <> pos_key a c -> getd (sm_put m (pos_key a c) v) b c' = getd m b c'.
Proof. intros H. unfold getd, pos_get. rewrite sm_get_put_other by exact H. reflexivity. Qed.

(* in a sorted map of well-formed entries, [pos_get] is membership *)
Lemma pos_get_in m a c q :
  keys_sorted m -> In (pos_key a c, (a, c, q)) m -> pos_get m a c = Some q.
Proof. intros Hs Hin. unfold pos_get. rewrite (sm_get_in_sorted m _ _ Hs Hin). reflexivity. Qed.

Lemma pos_get_some m a c q :
  (forall x, In x m -> entry_ok x) -> account_ok a = true ->
  pos_get m a c = Some q -> In (pos_key a c, (a, c, q)) m.
Proof.
  intros He Ha. unfold pos_get.
  destruct (sm_get m (pos_key a c)) as [[[a' c'] q']|] eqn:G; [|discriminate].
  intros E. inversion E. subst q'. apply sm_get_in in G.
  destruct (He _ G) as [K [Oa _]]. cbn [fst snd] in K, Oa.
  apply pos_key_inj in K; [|assumption|assumption]. destruct K as [<- <-]. exact G.
Qed.

Lemma getd_in m a c q :
  keys_sorted m -> In (pos_key a c, (a, c, q)) m -> getd m a c = q.
Proof. intros Hs Hin. unfold getd. rewrite (pos_get_in m a c q Hs Hin). reflexivity. Qed.

Lemma pair_neq_cases (a b : account) (c c' : commodity) :
  (a = b /\ c = c') \/ (same_acc a b && same_com c c' = false).
Proof.
  unfold same_acc, same_com. destruct (acc_eq_dec a b), (str_eq_dec c c'); cbn; tauto.
Qed.

(* a lookup after Amounts.Add ([pos_add]): at the position added to, and at any other *)
Lemma pos_get_add_same m a c q : pos_get (pos_add m a c q) a c = Some (add (getd m a c) q).
Proof. unfold pos_add, pos_get at 1. rewrite sm_get_put_same. reflexivity. Qed.

Lemma pos_get_add_other m a c q b c' :
  account_ok a = true -> account_ok b = true -> same_acc b a && same_com c' c = false ->
  pos_get (pos_add m a c q) b c' = pos_get m b c'.
Proof.
  intros Ha Hb N. unfold pos_add, pos_get. rewrite sm_get_put_other; [reflexivity|].
  intros K. apply pos_key_inj in K; [|assumption|assumption]. destruct K as [-> ->].
  rewrite same_acc_refl, same_com_refl in N. discriminate.
Qed.

(* close_positions = "all positions of the account are zero" + filter *)
Lemma close_positions_some m a m' :
  close_positions m a = Some m' ->
  m' = filter (fun x => negb (acc_eqb a (entry_acc x))) m /\
  (forall x, In x m -> acc_eqb a (entry_acc x) = true -> is_zero (snd (snd x)) = true).
Proof.
  revert m'. induction m as [|[k [[a' c] q]] rest IH]; cbn; intros m' H.
  - inversion H. split; [reflexivity|intros x []].
  - unfold entry_acc at 1. cbn [fst snd].
    destruct (acc_eqb a a') eqn:E; cbn [negb].
    + destruct (is_zero q) eqn:Z; [|discriminate].
      destruct (IH _ H) as [E1 E2]. split; [exact E1|].
      intros x [Hx|Hx] Hacc; [subst x; exact Z|apply E2; assumption].
    + destruct (close_positions rest a) as [r|] eqn:Er; [|discriminate].
      inversion H. subst m'. destruct (IH _ eq_refl) as [E1 E2]. split; [rewrite E1; reflexivity|].
      intros x [Hx|Hx] Hacc; [subst x; unfold entry_acc in Hacc; cbn in Hacc; congruence|apply E2; assumption].
Qed.

Lemma close_positions_none m a :
  close_positions m a = None ->
  exists x, In x m /\ acc_eqb a (entry_acc x) = true /\ is_zero (snd (snd x)) = false.
Proof.
  induction m as [|[k [[a' c] q]] rest IH]; cbn; intros H; [discriminate|].
  destruct (acc_eqb a a') eqn:E.
  - destruct (is_zero q) eqn:Z.
    + destruct (IH H) as [x [H1 H2]]. exists x. split; [right; exact H1|exact H2].
    + exists (k, (a', c, q)). split; [left; reflexivity|]. split; [exact E|exact Z].
  - destruct (close_positions rest a) as [r|] eqn:Er; [discriminate|].
    destruct (IH eq_refl) as [x [H1 H2]]. exists x. split; [right; exact H1|exact H2].
Qed.

(* the deletions of Checker.close *)
Lemma pos_get_close m a b c :
  keys_sorted m -> (forall x, In x m -> entry_ok x) -> account_ok a = true -> account_ok b = true ->
  pos_get (filter (fun x => negb (acc_eqb a (entry_acc x))) m) b c =
  if same_acc b a then None else pos_get m b c.
Proof.
  intros Hs He Ha Hb.
  set (m' := filter (fun x => negb (acc_eqb a (entry_acc x))) m).
  assert (Hs' : keys_sorted m') by (apply keys_sorted_filter; exact Hs).
  assert (He' : forall x, In x m' -> entry_ok x) by (intros x Hx; apply filter_In in Hx; apply He; tauto).
  assert (Hin : forall q, In (pos_key b c, (b, c, q)) m' <->
                          In (pos_key b c, (b, c, q)) m /\ same_acc b a = false).
  { intros q. unfold m'. rewrite filter_In. unfold entry_acc. cbn [fst snd].
    rewrite (acc_eqb_ok a b Ha Hb), (same_acc_sym a b), negb_true_iff. reflexivity. }
  destruct (pos_get m' b c) as [q|] eqn:G.
  - apply (pos_get_some _ _ _ _ He' Hb), Hin in G. destruct G as [G N]. rewrite N.
    symmetry. apply pos_get_in; assumption.
  - destruct (same_acc b a) eqn:N; [reflexivity|].
    destruct (pos_get m b c) as [q|] eqn:G2; [|reflexivity].
    apply (pos_get_some _ _ _ _ He Hb) in G2.
    rewrite (pos_get_in m' b c q Hs') in G by (apply Hin; split; [exact G2|reflexivity]). discriminate.
Qed.

Record Inv (pre : list event) (s : check_state) : Prop := mkInv {
  inv_open : forall a, account_ok a = true -> is_open s a = open_after pre a;
  inv_qty : forall a c, account_ok a = true -> is_AL a = true ->
            deqv (getd (ck_qty s) a c) (quantity pre a c);
  inv_live : forall a c, account_ok a = true -> has (ck_qty s) a c = live pre a c;
  inv_sorted : keys_sorted (ck_qty s);
  inv_entries : forall x, In x (ck_qty s) -> entry_ok x }.

Lemma inv_init : Inv [] check_init.
Proof.
  constructor.
  - intros a _. reflexivity.
  - intros a c _ _. apply deqv_refl.
  - intros a c _. unfold live. cbn. rewrite andb_false_r. reflexivity.
  - constructor.
  - intros x [].
Qed.

(* an event that leaves the quantity map alone and changes neither quantities nor liveness of
   asset and liability positions: opens, assertions, postings to other accounts *)
Lemma inv_quiet pre e s s' :
  Inv pre s -> ck_qty s' = ck_qty s ->
  (forall a, account_ok a = true -> is_open s' a = open_step a (is_open s a) e) ->
  (forall a c q, is_AL a = true -> qty_step a c q e = q) ->
  (forall a c l, is_AL a = true -> live_step a c l e = l) ->
  Inv (pre ++ [e]) s'.
Proof.
  intros [Io Iq Il Is Ie] Em Ho Hq Hl. constructor; rewrite ?Em; [| | |exact Is|exact Ie].
  - intros a Ha. rewrite open_after_snoc, <- (Io a Ha). apply Ho, Ha.
  - intros a c Ha Al. rewrite quantity_snoc, Hq by exact Al. apply Iq; assumption.
  - intros a c Ha. rewrite live_snoc, (Il a c Ha). unfold live.
    destruct (is_AL a) eqn:Al; [rewrite Hl by exact Al|]; reflexivity.
Qed.

Lemma same_acc_AL a b : is_AL a = true -> is_AL b = false -> same_acc a b = false.
Proof. intros Ha Hb. unfold same_acc. destruct (acc_eq_dec a b); [congruence|reflexivity]. Qed.

Lemma inv_post pre s a c q :
  Inv pre s -> account_ok a = true -> is_AL a = true ->
  Inv (pre ++ [EPost a c q]) (mkCheck (ck_open s) (pos_add (ck_qty s) a c q)).
Proof.
  intros [Io Iq Il Is Ie] Ha Al. constructor; cbn [ck_qty].
  - intros b Hb. rewrite open_after_snoc. apply Io, Hb.
  - intros b c' Hb Alb. rewrite quantity_snoc. cbn [qty_step]. unfold getd at 1.
    destruct (pair_neq_cases b a c' c) as [[-> ->]|N].
    + rewrite pos_get_add_same, same_acc_refl, same_com_refl. apply deqv_add_l, Iq; assumption.
    + rewrite pos_get_add_other, N by assumption. apply Iq; assumption.
  - intros b c' Hb. rewrite live_snoc. cbn [live_step]. unfold has.
    destruct (pair_neq_cases b a c' c) as [[-> ->]|N].
    + rewrite pos_get_add_same, same_acc_refl, same_com_refl, Al. reflexivity.
    + rewrite pos_get_add_other, N by assumption. apply Il, Hb.
  - apply sm_put_sorted, Is.
  - intros x Hx. apply sm_put_in in Hx. destruct Hx as [->|Hx]; [|apply Ie, Hx].
    repeat split; assumption.
Qed.

Lemma inv_close pre s a :
  Inv pre s -> account_ok a = true ->
  (is_AL a = true -> forall c, is_zero (quantity pre a c) = true) ->
  Inv (pre ++ [EClose a])
      (mkCheck (filter (fun x => negb (acc_eqb a x)) (ck_open s))
               (filter (fun x => negb (acc_eqb a (entry_acc x))) (ck_qty s))).
Proof.
  intros [Io Iq Il Is Ie] Ha Hz. constructor; cbn [ck_qty].
  - intros b Hb. unfold is_open. cbn [ck_open]. rewrite existsb_filter_acc. fold (is_open s b).
    rewrite (Io b Hb), open_after_snoc, (acc_eqb_ok a b Ha Hb), (same_acc_sym a b). cbn [open_step].
    destruct (same_acc b a); reflexivity.
  - intros b c Hb Al. rewrite quantity_snoc. cbn [qty_step]. unfold getd at 1.
    rewrite pos_get_close by assumption.
    destruct (same_acc b a) eqn:E; [|apply Iq; assumption].
    apply same_acc_eq in E. subst b. apply deqv_zero; [reflexivity|apply Hz, Al].
  - intros b c Hb. rewrite live_snoc. cbn [live_step]. unfold has. rewrite pos_get_close by assumption.
    destruct (same_acc b a); [symmetry; apply andb_false_r|apply Il, Hb].
  - apply keys_sorted_filter, Is.
  - intros x Hx. apply filter_In in Hx. apply Ie, Hx.
Qed.

(* Checker.balance of the repaired code on an open A/L account *)
Lemma ck_balance_cb_lenient s l b :
  is_open s (bal_acc b) = true ->
  ck_balance_cb true s l b =
  if dec_equal (getd (ck_qty s) (bal_acc b) (bal_com b)) (bal_qty b) then ROk s
  else RErr k_assertion (acc_name (bal_acc b)).
Proof.
  intros Ho. unfold ck_balance_cb, getd. rewrite Ho. cbn [negb].
  destruct (pos_get (ck_qty s) (bal_acc b) (bal_com b)); [reflexivity|].
  cbn [andb]. reflexivity.
Qed.

(* what a callback's result says about its event *)
Definition refines (pre : list event) (e : event) (res : presult check_state) : Prop :=
  match res with
  | ROk s' => ok_event pre e /\ Inv (pre ++ [e]) s'
  | RErr k d => ~ ok_event pre e /\ d = acc_name (ev_acc e) /\ exists r, k = kind_of r /\ violation pre e r
  | RPanic _ => False
  end.

Lemma open_refines pre s a : Inv pre s -> account_ok a = true -> refines pre (EOpen a) (ck_open_cb s a).
Proof.
  intros I Ha. unfold ck_open_cb. pose proof (inv_open _ _ I a Ha) as Ho.
  destruct (is_open s a) eqn:E; cbn [refines ok_event ev_acc violation]; rewrite <- Ho.
  - split; [discriminate|]. split; [reflexivity|]. exists AlreadyOpen. repeat split.
  - split; [reflexivity|]. apply (inv_quiet pre _ s); [exact I|reflexivity| |reflexivity|reflexivity].
    intros b Hb. rewrite is_open_cons, (acc_eqb_ok b a Hb Ha). cbn [open_step].
    destruct (same_acc b a); reflexivity.
Qed.

Lemma post_refines pre s a c q :
  Inv pre s -> account_ok a = true -> refines pre (EPost a c q) (ck_post s a c q).
Proof.
  intros I Ha. unfold ck_post. pose proof (inv_open _ _ I a Ha) as Ho.
  destruct (is_open s a) eqn:E; cbn [negb].
  - destruct (is_AL a) eqn:Al; (split; [symmetry; exact Ho|]).
    + apply inv_post; assumption.
    + apply (inv_quiet pre _ s s I eq_refl); [reflexivity| |];
        intros b c' x Alb; cbn [qty_step live_step]; rewrite (same_acc_AL b a Alb Al); reflexivity.
  - cbn [refines ok_event ev_acc violation]. rewrite <- Ho.
    split; [discriminate|]. split; [reflexivity|]. exists NotOpen. repeat split.
Qed.

Lemma assert_refines pre s a c q :
  Inv pre s -> account_ok a = true ->
  refines pre (EAssert a c q) (ck_balance_fixed s [] (mkBalance a q c)).
Proof.
  intros I Ha. unfold ck_balance_fixed. cbn [bal_acc]. pose proof (inv_open _ _ I a Ha) as Ho.
  assert (Inext : Inv (pre ++ [EAssert a c q]) s) by (apply (inv_quiet pre _ s s I eq_refl); reflexivity).
  destruct (is_open s a) eqn:E; cbn [negb].
  - destruct (is_AL a) eqn:Al; cbn [negb].
    + rewrite ck_balance_cb_lenient by exact E. cbn [bal_acc bal_qty bal_com].
      rewrite (deqv_equal_l _ _ q (inv_qty _ _ I a c Ha Al)).
      destruct (dec_equal (quantity pre a c) q) eqn:D; cbn [refines ok_event ev_acc violation]; rewrite <- Ho, Al.
      * split; [split; [reflexivity|intros _; exact D]|exact Inext].
      * split; [intros [_ H]; specialize (H eq_refl); congruence|].
        split; [reflexivity|]. exists AssertionFails. split; [reflexivity|]. right. repeat split. exact D.
    + cbn [refines ok_event]. rewrite <- Ho, Al. split; [split; [reflexivity|discriminate]|exact Inext].
  - cbn [refines ok_event ev_acc violation]. rewrite <- Ho.
    split; [intros [H _]; discriminate|]. split; [reflexivity|].
    exists NotOpen. split; [reflexivity|]. left. split; reflexivity.
Qed.

Lemma close_refines pre s a : Inv pre s -> account_ok a = true -> refines pre (EClose a) (ck_close_cb s a).
Proof.
  intros I Ha. pose proof I as [Io Iq _ Is Ie]. unfold ck_close_cb.
  destruct (close_positions (ck_qty s) a) as [m'|] eqn:C.
  - apply close_positions_some in C. destruct C as [-> Z].
    destruct (is_open s a) eqn:E; rewrite (Io a Ha) in E; cbn [negb refines ok_event ev_acc violation].
    + (* every position the map holds for the account is zero, and the others are zero by [inv_qty] *)
      assert (Hzero : is_AL a = true -> forall c, is_zero (quantity pre a c) = true).
      { intros Al c. rewrite <- (deqv_is_zero _ _ (Iq a c Ha Al)). unfold getd.
        destruct (pos_get (ck_qty s) a c) as [q|] eqn:G; [|reflexivity].
        apply (Z _ (pos_get_some _ _ _ _ Ie Ha G)). apply acc_eqb_refl. }
      split; [split; assumption|apply inv_close; assumption].
    + split; [intros [H _]; congruence|]. split; [reflexivity|].
      exists NotOpen. split; [reflexivity|]. left. split; [reflexivity|exact E].
  - apply close_positions_none in C. destruct C as [[k [[a' c'] q]] [Hin [Hacc Hnz]]].
    unfold entry_acc in Hacc. cbn [fst snd] in Hacc, Hnz.
    pose proof (Ie _ Hin) as [K [Oa Al]]. cbn [fst snd] in K, Oa, Al.
    rewrite (acc_eqb_ok a a' Ha Oa) in Hacc. apply same_acc_eq in Hacc. subst a' k.
    assert (Hq : is_zero (quantity pre a c') = false).
    { rewrite <- (deqv_is_zero _ _ (Iq a c' Ha Al)), (getd_in _ _ _ _ Is Hin). exact Hnz. }
    cbn [refines ok_event ev_acc violation].
    split; [intros [_ H]; specialize (H Al c'); congruence|]. split; [reflexivity|].
    exists NonZeroPosition. split; [reflexivity|]. right. split; [reflexivity|].
    split; [exact Al|]. exists c'. exact Hq.
Qed.

Lemma step_refines pre s e : Inv pre s -> account_ok (ev_acc e) = true -> refines pre e (ck_event s e).
Proof.
  destruct e; [apply open_refines|apply post_refines|apply assert_refines|apply close_refines].
Qed.

Definition all_ok_before (pre evs : list event) : Prop :=
  forall p e q, evs = p ++ e :: q -> ok_event (pre ++ p) e.

Lemma all_ok_nil pre : all_ok_before pre [].
Proof. intros p e q H. destruct p; discriminate. Qed.

Lemma all_ok_cons pre e l : all_ok_before pre (e :: l) <-> ok_event pre e /\ all_ok_before (pre ++ [e]) l.
Proof.
  unfold all_ok_before. split.
  - intros H. split.
    + specialize (H [] e l eq_refl). rewrite app_nil_r in H. exact H.
    + intros p e' q Hr. specialize (H (e :: p) e' q). rewrite <- app_assoc. apply H. rewrite Hr. reflexivity.
  - intros [H1 H2] p e' q H. destruct p as [|x p]; cbn in H; inversion H; subst.
    + rewrite app_nil_r. exact H1.
    + specialize (H2 p e' q eq_refl). rewrite <- app_assoc in H2. exact H2.
Qed.

Lemma run_refines evs : forall pre s,
  Inv pre s -> (forall e, In e evs -> account_ok (ev_acc e) = true) ->
  match run_events s evs with
  | ROk s' => all_ok_before pre evs /\ Inv (pre ++ evs) s'
  | RErr k d =>
    exists p e q r, evs = p ++ e :: q /\ all_ok_before pre p /\ ~ ok_event (pre ++ p) e /\
                    d = acc_name (ev_acc e) /\ k = kind_of r /\ violation (pre ++ p) e r
  | RPanic _ => False
  end.
Proof.
  induction evs as [|e evs IH]; intros pre s I Hacc; cbn [run_events].
  - split; [apply all_ok_nil|rewrite app_nil_r; exact I].
  - pose proof (step_refines pre s e I (Hacc e (or_introl eq_refl))) as St.
    destruct (ck_event s e) as [s1|k d|m]; cbn [rbind refines] in *.
    + destruct St as [Oke I1].
      specialize (IH (pre ++ [e]) s1 I1 (fun e' H => Hacc e' (or_intror H))).
      rewrite <- app_assoc in IH. cbn [app] in IH.
      destruct (run_events s1 evs) as [s2|k d|m]; [| |exact IH].
      * destruct IH as [All I2]. split; [apply all_ok_cons; split; assumption|exact I2].
      * destruct IH as (p & e' & q & r & -> & H2 & H3).
        exists (e :: p), e', q, r. rewrite <- app_assoc in H3. cbn [app] in H3.
        split; [reflexivity|]. split; [apply all_ok_cons; split; assumption|exact H3].
    + destruct St as (Nok & Hd & r & Hk & Hv).
      exists [], e, evs, r. rewrite app_nil_r.
      split; [reflexivity|]. split; [apply all_ok_nil|]. tauto.
    + exact St.
Qed.
