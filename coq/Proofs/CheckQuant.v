(* C09 (b): the checker sees the VALUES of quantities only.
   Two day lists that agree in everything but the representation of posting and assertion
   quantities (same value, [dec_equal]) get the same verdict from every variant of the checker
   ([check_days_q]): the running positions stay pairwise value-equal ([Rq]), Amounts.Add respects
   value equality (DecEqProofs.deqv_add_l), and assertions and closes compare values. *)
From Coq Require Import ZArith List Bool Lia.
From Knut Require Import Model.Str Model.Dec Model.Date Model.Account Model.Ledger Model.Price Model.Journal
     Model.Check Model.Cli.
From Knut Require Import Proofs.DecProofs Proofs.DecEqProofs Proofs.OrderProofs.
Import ListNotations.
Open Scope bool_scope.
Open Scope Z_scope.

Definition posting_q (p p' : posting) : Prop :=
  p_acc p = p_acc p' /\ p_com p = p_com p' /\ deqv (p_qty p) (p_qty p').
Definition txn_q (t t' : txn) : Prop := Forall2 posting_q (t_postings t) (t_postings t').
Definition bal_q (b b' : balance) : Prop :=
  bal_acc b = bal_acc b' /\ bal_com b = bal_com b' /\ deqv (bal_qty b) (bal_qty b').
Definition day_q (d d' : day) : Prop :=
  d_opens d = d_opens d' /\ Forall2 txn_q (d_txns d) (d_txns d') /\
  Forall2 (Forall2 bal_q) (d_asserts d) (d_asserts d') /\ d_closes d = d_closes d'.

Definition ent_q (x y : str * (account * commodity * dec)) : Prop :=
  fst x = fst y /\ fst (fst (snd x)) = fst (fst (snd y)) /\ snd (fst (snd x)) = snd (fst (snd y)) /\
  deqv (snd (snd x)) (snd (snd y)).
Definition Rq (s s' : check_state) : Prop := ck_open s = ck_open s' /\ Forall2 ent_q (ck_qty s) (ck_qty s').

Lemma Rq_refl s : Rq s s.
Proof.
  split; [reflexivity|]. induction (ck_qty s) as [|x m IH]; constructor; [|exact IH].
  repeat split; apply deqv_refl.
Qed.

Lemma deqv_equal_r q a b : deqv a b -> dec_equal q a = dec_equal q b.
Proof.
  intros H. destruct (dec_equal q a) eqn:E1, (dec_equal q b) eqn:E2; try reflexivity.
  - pose proof (deqv_trans q a b E1 H) as T. unfold deqv in T. congruence.
  - pose proof (deqv_trans q b a E2 (deqv_sym _ _ H)) as T. unfold deqv in T. congruence.
Qed.

Lemma deqv_add a a' b b' : deqv a a' -> deqv b b' -> deqv (add a b) (add a' b').
Proof.
  intros Ha Hb. eapply deqv_trans; [apply deqv_add_l; exact Ha|].
  rewrite (add_comm a' b), (add_comm a' b'). apply deqv_add_l. exact Hb.
Qed.

Lemma pos_get_q m m' a c : Forall2 ent_q m m' ->
  match pos_get m a c, pos_get m' a c with
  | Some q, Some q' => deqv q q'
  | None, None => True
  | _, _ => False
  end.
Proof.
  unfold pos_get. induction 1 as [|[k [[a1 c1] q1]] [k' [[a2 c2] q2]] m m' (Hk & _ & _ & Hq) Hm IH]; cbn [sm_get]; [exact I|].
  cbn [fst snd] in *. subst k'. destruct (str_eqb (pos_key a c) k); [exact Hq|exact IH].
Qed.

Lemma sm_put_q m m' k a c q q' : Forall2 ent_q m m' -> deqv q q' ->
  Forall2 ent_q (sm_put m k (a, c, q)) (sm_put m' k (a, c, q')).
Proof.
  intros Hm Hq. induction Hm as [|[k1 v1] [k2 v2] m m' Hx Hm IH]; cbn [sm_put].
  - constructor; [repeat split; assumption|constructor].
  - pose proof Hx as (Hk & _). cbn [fst] in Hk. subst k2.
    destruct (str_cmp k k1).
    + constructor; [repeat split; assumption|exact Hm].
    + constructor; [repeat split; assumption|constructor; assumption].
    + constructor; [exact Hx|exact IH].
Qed.

Lemma pos_add_q m m' a c q q' : Forall2 ent_q m m' -> deqv q q' ->
  Forall2 ent_q (pos_add m a c q) (pos_add m' a c q').
Proof.
  intros Hm Hq. unfold pos_add. apply sm_put_q; [exact Hm|].
  pose proof (pos_get_q m m' a c Hm) as Hg.
  destruct (pos_get m a c), (pos_get m' a c); try contradiction.
  - now apply deqv_add.
  - apply deqv_add; [apply deqv_refl|exact Hq].
Qed.

Lemma close_positions_q m m' a : Forall2 ent_q m m' ->
  match close_positions m a, close_positions m' a with
  | Some r, Some r' => Forall2 ent_q r r'
  | None, None => True
  | _, _ => False
  end.
Proof.
  induction 1 as [|[k [[a1 c1] q1]] [k' [[a2 c2] q2]] m m' Hx Hm IH]; cbn [close_positions]; [constructor|].
  pose proof Hx as (Hk & Ha & Hc & Hq). cbn [fst snd] in *. subst k' a2 c2.
  destruct (acc_eqb a a1).
  - rewrite (deqv_is_zero _ _ Hq). destruct (is_zero q2); [exact IH|exact I].
  - destruct (close_positions m a), (close_positions m' a); try contradiction; [|exact I].
    constructor; [exact Hx|exact IH].
Qed.

Lemma is_open_q s s' a : Rq s s' -> is_open s a = is_open s' a.
Proof. intros [H _]. unfold is_open. now rewrite H. Qed.

Lemma ck_open_q s s' a : Rq s s' -> req Rq (ck_open_cb s a) (ck_open_cb s' a).
Proof.
  intros H. unfold ck_open_cb. rewrite (is_open_q s s' a H).
  destruct (is_open s' a); cbn [req]; [exact I|]. destruct H as [Ho Hm]. split; cbn [ck_open ck_qty]; [now rewrite Ho|exact Hm].
Qed.

Definition R1 {A} (x y : check_state * A) : Prop := Rq (fst x) (fst y).

Lemma ck_posting_q s s' t t' p p' : Rq s s' -> posting_q p p' ->
  req R1 (ck_posting_cb s t p) (ck_posting_cb s' t' p').
Proof.
  intros H (Ha & Hc & Hq). unfold ck_posting_cb. rewrite <- Ha, <- Hc, (is_open_q s s' _ H).
  destruct (negb (is_open s' (p_acc p))); cbn [req]; [exact I|].
  destruct (is_AL (p_acc p)); cbn [req]; unfold R1; cbn [fst]; [|exact H].
  destruct H as [Ho Hm]. split; cbn [ck_open ck_qty]; [exact Ho|now apply pos_add_q].
Qed.

Lemma ck_balance_cb_q l s s' a a' b b' : Rq s s' -> bal_q b b' ->
  req Rq (ck_balance_cb l s a b) (ck_balance_cb l s' a' b').
Proof.
  intros H (Ha & Hc & Hq). unfold ck_balance_cb. rewrite <- Ha, <- Hc, (is_open_q s s' _ H).
  destruct (negb (is_open s' (bal_acc b))); cbn [req]; [exact I|].
  pose proof (pos_get_q (ck_qty s) (ck_qty s') (bal_acc b) (bal_com b) (proj2 H)) as Hg.
  destruct (pos_get (ck_qty s) (bal_acc b) (bal_com b)) as [q|], (pos_get (ck_qty s') (bal_acc b) (bal_com b)) as [q'|];
    try contradiction.
  - rewrite (deqv_equal_l q q' _ Hg), (deqv_equal_r q' _ _ Hq).
    destruct (dec_equal q' (bal_qty b')); cbn [req]; [exact H|exact I].
  - rewrite (deqv_equal_r dec_nil _ _ Hq).
    destruct (l && dec_equal dec_nil (bal_qty b')); cbn [req]; [exact H|exact I].
Qed.

Lemma ck_balance_fixed_q s s' a a' b b' : Rq s s' -> bal_q b b' ->
  req Rq (ck_balance_fixed s a b) (ck_balance_fixed s' a' b').
Proof.
  intros H Hb. pose proof Hb as (Ha & _). unfold ck_balance_fixed. rewrite <- Ha, (is_open_q s s' _ H).
  destruct (negb (is_open s' (bal_acc b))); cbn [req]; [exact I|].
  destruct (negb (is_AL (bal_acc b))); cbn [req]; [exact H|now apply ck_balance_cb_q].
Qed.

Lemma ck_close_q s s' a : Rq s s' -> req Rq (ck_close_cb s a) (ck_close_cb s' a).
Proof.
  intros H. unfold ck_close_cb. pose proof (close_positions_q (ck_qty s) (ck_qty s') a (proj2 H)) as Hc.
  destruct (close_positions (ck_qty s) a) as [r|], (close_positions (ck_qty s') a) as [r'|]; try contradiction; cbn [req]; [|exact I].
  rewrite (is_open_q s s' a H). destruct (negb (is_open s' a)); cbn [req]; [exact I|].
  split; cbn [ck_open ck_qty]; [now rewrite (proj1 H)|exact Hc].
Qed.

Section Proc.
  Variable fb : check_state -> list balance -> balance -> presult check_state.
  Hypothesis fb_q : forall s s' a a' b b', Rq s s' -> bal_q b b' -> req Rq (fb s a b) (fb s' a' b').

  Let p := mkProc None None (Some ck_open_cb) None (Some ck_posting_cb) (Some fb) (Some ck_close_cb) None.

  Lemma fold_res_q (f : check_state -> account -> presult check_state) l :
    (forall s s' a, Rq s s' -> req Rq (f s a) (f s' a)) ->
    forall s s', Rq s s' -> req Rq (fold_res f s l) (fold_res f s' l).
  Proof.
    intros Hf. induction l as [|a l IH]; intros s s' H; cbn [fold_res]; [exact H|].
    eapply req_bind; [apply Hf; exact H|]. intros a0 b0 H0. now apply IH.
  Qed.

  Lemma fold_postings_q t t' ps ps' : Forall2 posting_q ps ps' ->
    forall s s', Rq s s' -> req R1 (fold_postings ck_posting_cb t s ps) (fold_postings ck_posting_cb t' s' ps').
  Proof.
    induction 1 as [|x y ps ps' Hxy Hps IH]; intros s s' H; cbn [fold_postings]; [exact H|].
    eapply (req_bind (@R1 posting) (@R1 (list posting))); [apply ck_posting_q; eassumption|]. intros a b Hab.
    eapply (req_bind (@R1 (list posting)) (@R1 (list posting))); [apply IH; exact Hab|]. intros a1 b1 H1. exact H1.
  Qed.

  Lemma fold_txns_q ts ts' : Forall2 txn_q ts ts' ->
    forall s s', Rq s s' -> req R1 (fold_txns p s ts) (fold_txns p s' ts').
  Proof.
    induction 1 as [|t t' ts ts' Ht Hts IH]; intros s s' H; cbn [fold_txns]; [exact H|].
    unfold p at 1 3. cbn [pr_txn pr_posting rbind].
    eapply (req_bind (@R1 txn) (@R1 (list txn))).
    { eapply (req_bind (@R1 (list posting)) (@R1 txn)); [apply fold_postings_q; [exact Ht|exact H]|].
      intros a b Hab. exact Hab. }
    intros a b Hab. eapply (req_bind (@R1 (list txn)) (@R1 (list txn))); [apply IH; exact Hab|]. intros a1 b1 H1. exact H1.
  Qed.

  Lemma fold_balances_q a a' bs bs' : Forall2 bal_q bs bs' ->
    forall s s', Rq s s' -> req Rq (fold_res (fun s b => fb s a b) s bs) (fold_res (fun s b => fb s a' b) s' bs').
  Proof.
    induction 1 as [|b b' bs bs' Hb Hbs IH]; intros s s' H; cbn [fold_res]; [exact H|].
    eapply req_bind; [apply fb_q; eassumption|]. intros x y Hxy. now apply IH.
  Qed.

  Lemma fold_asserts_q l l' : Forall2 (Forall2 bal_q) l l' ->
    forall s s', Rq s s' -> req Rq (fold_asserts p s l) (fold_asserts p s' l').
  Proof.
    induction 1 as [|a a' l l' Ha Hl IH]; intros s s' H; cbn [fold_asserts]; [exact H|].
    unfold p at 1 3. cbn [pr_balance].
    eapply req_bind; [apply fold_balances_q; eassumption|]. intros x y Hxy. now apply IH.
  Qed.

  Lemma process_day_q d d' s s' : day_q d d' -> Rq s s' -> req R1 (process_day p s d) (process_day p s' d').
  Proof.
    intros (Ho & Ht & Ha & Hc) H. unfold process_day, p.
    cbn [pr_day_start pr_price pr_open pr_close pr_day_end rbind fst snd].
    rewrite <- Ho, <- Hc.
    eapply (req_bind Rq (@R1 day)); [apply fold_res_q; [apply ck_open_q|exact H]|]. intros s1 s1' H1.
    eapply (req_bind (@R1 (list txn)) (@R1 day)); [apply (fold_txns_q _ _ Ht _ _ H1)|]. intros st st' H2.
    cbn [d_asserts d_closes].
    eapply (req_bind Rq (@R1 day)); [apply (fold_asserts_q _ _ Ha _ _ H2)|]. intros s3 s3' H3.
    eapply (req_bind Rq (@R1 day)); [apply fold_res_q; [apply ck_close_q|exact H3]|]. intros s4 s4' H4. exact H4.
  Qed.

  Lemma process_days_q D D' : Forall2 day_q D D' ->
    forall s s', Rq s s' -> req R1 (process_days p s D) (process_days p s' D').
  Proof.
    induction 1 as [|d d' D D' Hd HD IH]; intros s s' H; cbn [process_days]; [exact H|].
    eapply (req_bind (@R1 day) (@R1 (list day))); [apply process_day_q; eassumption|]. intros a b Hab.
    eapply (req_bind (@R1 (list day)) (@R1 (list day))); [apply IH; exact Hab|]. intros a1 b1 H1. exact H1.
  Qed.
End Proc.

(* every variant of the checker: both accept or both reject *)
Theorem check_days_q r D D' : Forall2 day_q D D' ->
  ((exists x, run_stage (check_proc_current r) check_init D = COk x) <->
   (exists x, run_stage (check_proc_current r) check_init D' = COk x)).
Proof.
  intros H. unfold run_stage.
  assert (Hr : req R1 (process_days (check_proc_current r) check_init D) (process_days (check_proc_current r) check_init D')).
  { destruct r; cbn [check_proc_current].
    - apply (process_days_q ck_balance_fixed ck_balance_fixed_q D D' H). apply Rq_refl.
    - apply (process_days_q (ck_balance_cb false) (ck_balance_cb_q false) D D' H). apply Rq_refl. }
  destruct (process_days (check_proc_current r) check_init D), (process_days (check_proc_current r) check_init D');
    cbn [req of_presult] in *; try contradiction; split; intros [x Hx]; try discriminate; eauto.
Qed.
