(* `knut check --write`: the journal extended by the collected assertions is
   accepted.  On the specification side: the new assertion of a day sits, in the canonical
   sequence, after the day's own assertions and before its closes; assertions change no history
   function, closes change no quantity and only close, so the new lines are judged exactly as at
   the day's end, where they state live positions with their running quantities
   (Proofs/CheckWriteComplete.v), and a live position of a well-formed sequence belongs to an
   open account (Proofs/CheckProofs.v [live_open]). *)
From Coq Require Import ZArith List Bool Lia Sorting.Sorted Permutation.
From Knut Require Import Model.Str Model.Dec Model.Date Model.Account Model.Ledger Model.Price Model.Journal
     Model.Check Model.Pipeline Model.JPrinter Model.Cli Model.CheckWrite
     Spec.WellformedSpec Spec.CheckWriteSpec
     Proofs.StrProofs Proofs.DecProofs Proofs.DecEqProofs Proofs.CheckLemmas Proofs.CheckProofs Proofs.BuilderProofs
     Proofs.CheckMain Proofs.CheckPerm Proofs.OrderProofs Proofs.OrderStages Proofs.OrderCmd
     Proofs.CheckWriteBase Proofs.CheckWriteComplete.
Import ListNotations.
Open Scope bool_scope.
Open Scope Z_scope.

Definition evs_day (ds : list directive) (dt : Z) : list event := flat_map events_of (of_day ds dt).

Lemma events_by_day ds : events ds = flat_map (evs_day ds) (dates ds).
Proof. unfold events, canonical. apply flat_map_flat_map. Qed.

Lemma events_upto_by_day ds dt : events_upto ds dt = flat_map (evs_day ds) (days_upto ds dt).
Proof. unfold events_upto. apply flat_map_flat_map. Qed.

(* the part of a day before the closes, and the closes *)
Definition evs_head (ds : list directive) (dt : Z) : list event :=
  flat_map events_of (sel ds dt 0 ++ sel ds dt 1 ++ sel ds dt 2 ++ sel ds dt 3).
Definition evs_closes (ds : list directive) (dt : Z) : list event := flat_map events_of (sel ds dt 4).

Lemma evs_day_split ds dt : evs_day ds dt = evs_head ds dt ++ evs_closes ds dt.
Proof. unfold evs_day, evs_head, evs_closes, of_day. rewrite !flat_map_app, <- !app_assoc. reflexivity. Qed.

Lemma sel_events_kind l dt k e : In e (flat_map events_of (sel l dt k)) -> ekind e = k.
Proof.
  rewrite in_flat_map. intros (d & Hd & He). rewrite (events_of_kind d e He). apply sel_in in Hd. tauto.
Qed.

Definition all_asserts (l : list directive) : Prop := forall d, In d l -> dkind d = 3.

Lemma sel_other_kind l dt k : all_asserts l -> k <> 3 -> sel l dt k = [].
Proof.
  intros Ha Hk. unfold sel. induction l as [|d l IH]; [reflexivity|]. cbn [filter].
  rewrite (Ha d (or_introl eq_refl)).
  replace (3 =? k) with false by (symmetry; apply Z.eqb_neq; lia). rewrite andb_false_r.
  apply IH. intros x Hx. apply Ha. right. exact Hx.
Qed.

Definition evs_new (l : list directive) (dt : Z) : list event := flat_map events_of (sel l dt 3).

Lemma evs_day_extended ds l dt :
  all_asserts l -> evs_day (ds ++ l) dt = evs_head ds dt ++ evs_new l dt ++ evs_closes ds dt.
Proof.
  intros Ha. unfold evs_day, evs_head, evs_new, evs_closes, of_day. rewrite !sel_app.
  rewrite (sel_other_kind l dt 0 Ha), (sel_other_kind l dt 1 Ha), (sel_other_kind l dt 2 Ha),
    (sel_other_kind l dt 4 Ha) by lia.
  rewrite !app_nil_r, !flat_map_app, <- !app_assoc. reflexivity.
Qed.

Lemma dates_extended ds l :
  (forall d, In d l -> In (ddate d) (dates ds)) -> dates (ds ++ l) = dates ds.
Proof.
  intros H. destruct (dates_spec ds) as (_ & _ & U). apply U; [apply dates_sorted|].
  intros x. rewrite dates_in, map_app, in_app_iff. split; [|tauto].
  intros [Hx|Hx]; [exact Hx|]. apply in_map_iff in Hx. destruct Hx as [d [E Hd]]. subst x.
  apply dates_in. apply H. exact Hd.
Qed.

Lemma day_extended_ok p1 p2 A N C :
  heq p1 p2 -> all_ok_before p1 (A ++ C) ->
  (forall e, In e N -> ekind e = 3) -> (forall e, In e N -> ok_event (p1 ++ A) e) ->
  all_ok_before p2 (A ++ N ++ C) /\ heq (p1 ++ A ++ C) (p2 ++ A ++ N ++ C).
Proof.
  intros H All Hn Hok. apply all_ok_app in All. destruct All as [AllA AllC].
  pose proof (heq_app A p1 p2 H) as HA.
  assert (HAN : heq (p1 ++ A) ((p2 ++ A) ++ N)) by (apply (heq_trans _ _ _ HA), heq_sym, heq_asserts, Hn).
  split.
  - apply all_ok_app. split; [apply (all_ok_heq A p1 p2 H); exact AllA|].
    apply all_ok_app. split.
    + apply (all_ok_asserts N (p2 ++ A) Hn). intros e He. apply (ok_event_heq _ _ e HA). apply Hok. exact He.
    + apply (all_ok_heq C _ _ HAN). exact AllC.
  - pose proof (heq_app C _ _ HAN) as HC. rewrite <- !app_assoc in HC. exact HC.
Qed.

Section Extended.
  Variable ds l : list directive.
  Hypothesis Hl : all_asserts l.
  (* every new line is, at the end of its day, about an open account and states the running quantity *)
  Hypothesis Hnew : forall dt a c q, In dt (dates ds) -> In (EAssert a c q) (evs_new l dt) ->
    open_after (events_upto ds dt) a = true /\
    (is_AL a = true -> dec_equal (quantity (events_upto ds dt) a c) q = true).

  Lemma days_extended_ok L : forall L0 p2,
    dates ds = L0 ++ L -> heq (flat_map (evs_day ds) L0) p2 ->
    all_ok_before (flat_map (evs_day ds) L0) (flat_map (evs_day ds) L) ->
    all_ok_before p2 (flat_map (evs_day (ds ++ l)) L).
  Proof.
    induction L as [|dt L IH]; intros L0 p2 E H All; [apply all_ok_nil|].
    cbn [flat_map] in *. apply all_ok_app in All. destruct All as [All1 All2].
    set (p1 := flat_map (evs_day ds) L0) in *.
    rewrite evs_day_split in All1. rewrite (evs_day_extended ds l dt Hl).
    assert (Hup : events_upto ds dt = p1 ++ evs_head ds dt ++ evs_closes ds dt).
    { rewrite events_upto_by_day. unfold days_upto. rewrite E.
      rewrite filter_le_split by (rewrite <- E; apply dates_sorted).
      rewrite flat_map_app. cbn [flat_map]. rewrite app_nil_r, evs_day_split. reflexivity. }
    assert (Hin : In dt (dates ds)) by (rewrite E; apply in_or_app; right; left; reflexivity).
    destruct (day_extended_ok p1 p2 (evs_head ds dt) (evs_new l dt) (evs_closes ds dt) H All1) as [R1 R2].
    - intros e He. apply (sel_events_kind l dt 3 e He).
    - intros e He. pose proof (sel_events_kind l dt 3 e He) as Ek. destruct e as [|?|a c q|]; try discriminate Ek.
      destruct (Hnew dt a c q Hin He) as [Ho Hq]. rewrite Hup, app_assoc in Ho, Hq. cbn [ok_event]. split.
      + unfold evs_closes in Ho. rewrite (kind_closes _ (sel_events_kind ds dt 4)), open_after_closes in Ho.
        apply andb_true_iff in Ho. tauto.
      + intros Al. rewrite <- (quantity_neutral (evs_closes ds dt)); [exact (Hq Al)|].
        intros e He'. rewrite (sel_events_kind ds dt 4 e He'). discriminate.
    - apply all_ok_app. split; [exact R1|].
      apply (IH (L0 ++ [dt])).
      + rewrite <- app_assoc. exact E.
      + rewrite flat_map_app. cbn [flat_map]. rewrite app_nil_r, evs_day_split. fold p1. exact R2.
      + rewrite flat_map_app. cbn [flat_map]. rewrite app_nil_r, evs_day_split. fold p1.
        rewrite evs_day_split in All2. exact All2.
  Qed.

  Hypothesis Hdates : forall d, In d l -> In (ddate d) (dates ds).

  Lemma extended_wellformed : wellformed ds -> wellformed (ds ++ l).
  Proof.
    unfold wellformed. intros W. apply all_ok_before_nil. apply all_ok_before_nil in W.
    rewrite events_by_day in *. rewrite (dates_extended ds l Hdates).
    apply (days_extended_ok (dates ds) [] [] eq_refl (heq_refl _)). exact W.
  Qed.
End Extended.

Definition written_directives (W : list wassertion) : list directive := map assertion_directive W.

Lemma written_all_asserts W : all_asserts (written_directives W).
Proof. intros d Hd. apply in_map_iff in Hd. destruct Hd as [w [E _]]. subst d. reflexivity. Qed.

Lemma evs_new_asserted W dt a c q :
  In (EAssert a c q) (evs_new (written_directives W) dt) -> asserted W dt a c q.
Proof.
  unfold evs_new. rewrite in_flat_map. intros [d [Hd He]].
  apply sel_in in Hd. destruct Hd as (Hd & Hdt & _).
  apply in_map_iff in Hd. destruct Hd as [[dt' bs] [E Hw]]. subst d. cbn [assertion_directive fst snd ddate] in *. subst dt'.
  cbn [events_of] in He. apply in_map_iff in He. destruct He as [b [Eb Hb]]. inversion Eb. subst a c q.
  exists bs. split; [exact Hw|]. destruct b. exact Hb.
Qed.

Lemma filter_le_prefix (L : list Z) dt :
  StronglySorted Z.lt L -> exists L2, L = filter (fun x => x <=? dt) L ++ L2.
Proof.
  induction L as [|x L IH]; intros Hs; [exists []; reflexivity|]. cbn [filter].
  inversion Hs as [|y l Hs' Hall]; subst.
  destruct (x <=? dt) eqn:E.
  - destruct (IH Hs') as [L2 E2]. exists L2. cbn [app]. f_equal. exact E2.
  - exists (x :: L). cbn [app].
    replace (filter (fun x0 => x0 <=? dt) L) with (@nil Z); [reflexivity|].
    symmetry. apply Z.leb_gt in E. rewrite Forall_forall in Hall. clear IH Hs Hs'.
    induction L as [|y L IHL]; [reflexivity|]. cbn [filter].
    assert (x < y) by (apply Hall; left; reflexivity).
    replace (y <=? dt) with false by (symmetry; apply Z.leb_gt; lia).
    apply IHL. intros z Hz. apply Hall. right. exact Hz.
Qed.

Lemma prefix_wellformed ds dt : wellformed ds -> wellformed_events (events_upto ds dt).
Proof.
  unfold wellformed. intros W. rewrite events_by_day in W. rewrite events_upto_by_day. unfold days_upto.
  destruct (filter_le_prefix (dates ds) dt (dates_sorted ds)) as [L2 E].
  rewrite E in W at 1. rewrite flat_map_app in W.
  intros p e q Hp. apply (W p e (q ++ flat_map (evs_day ds) L2)). rewrite Hp, <- app_assoc. reflexivity.
Qed.

(* any list of assertions on days of the journal whose lines are live positions with (in value)
   their running quantities *)
Lemma assertions_accepted ds W :
  syntactic ds -> wellformed ds ->
  (forall dt bs, In (dt, bs) W -> In dt (dates ds)) ->
  (forall dt a c q, asserted W dt a c q ->
     account_ok a = true /\ live (events_upto ds dt) a c = true /\
     dec_equal (quantity (events_upto ds dt) a c) q = true) ->
  syntactic (ds ++ written_directives W) /\ check_model (ds ++ written_directives W) = VOk.
Proof.
  intros Hs Wf Hdays Hsound.
  assert (Hsyn : syntactic (ds ++ written_directives W)).
  { intros d e Hd He. apply in_app_or in Hd. destruct Hd as [Hd|Hd]; [apply (Hs d e Hd He)|].
    apply in_map_iff in Hd. destruct Hd as [[dt bs] [E Hin]]. subst d. cbn [assertion_directive fst snd events_of] in He.
    apply in_map_iff in He. destruct He as [b [Eb Hb]]. subst e. cbn [ev_acc].
    apply (Hsound dt (bal_acc b) (bal_com b) (bal_qty b)). exists bs. split; [exact Hin|]. destruct b. exact Hb. }
  split; [exact Hsyn|]. apply (check_iff _ Hsyn).
  apply extended_wellformed; [apply written_all_asserts| | |exact Wf].
  - intros dt a c q Hdt He. apply evs_new_asserted in He.
    destruct (Hsound dt a c q He) as (_ & L & Q). split; [|intros _; exact Q].
    apply (live_open _ a c); [apply prefix_wellformed; exact Wf|exact L].
  - intros d Hd. apply in_map_iff in Hd. destruct Hd as [[dt bs] [E Hin]]. subst d. cbn [assertion_directive fst snd ddate].
    apply (Hdays dt bs Hin).
Qed.

Theorem written_accepted ds W :
  syntactic ds -> check_model ds = VOk -> written ds = ROk W ->
  syntactic (ds ++ written_directives W) /\ check_model (ds ++ written_directives W) = VOk.
Proof.
  intros Hs Hok Hw. pose proof (proj1 (check_iff ds Hs) Hok) as Wf.
  destruct (write_complete_partial ds W Hs Hw) as (_ & H1 & H2 & _).
  apply assertions_accepted; [assumption|assumption|intros dt bs Hin; apply (H1 dt bs Hin)|exact H2].
Qed.

Lemma parse_directives_app l1 l2 :
  parse_directives (l1 ++ l2) =
  mbind (parse_directives l1) (fun a => mbind (parse_directives l2) (fun b => MOk (a ++ b))).
Proof.
  induction l1 as [|s l1 IH]; cbn [app parse_directives mbind].
  - destruct (parse_directives l2); reflexivity.
  - destruct (parse_directive s) as [x|m|m]; cbn [mbind]; try reflexivity.
    rewrite IH. destruct (parse_directives l1) as [a|m|m]; cbn [mbind]; try reflexivity.
    destruct (parse_directives l2) as [b|m|m]; cbn [mbind]; try reflexivity.
    rewrite app_assoc. reflexivity.
Qed.

Lemma account_ok_valid a : account_ok a = true -> valid_account a = true.
Proof. unfold account_ok. intros H. apply andb_true_iff in H. tauto. Qed.

Lemma check_balances_ok bs : (forall b, In b bs -> valid_account (bal_acc b) = true) -> check_balances bs = MOk tt.
Proof.
  induction bs as [|b bs IH]; intros H; cbn [check_balances]; [reflexivity|].
  unfold check_account. rewrite (H b (or_introl eq_refl)). cbn [mbind]. apply IH. intros x Hx. apply H. right. exact Hx.
Qed.

Lemma parse_written W :
  (forall dt bs b, In (dt, bs) W -> In b bs -> valid_account (bal_acc b) = true) ->
  parse_directives (map assertion_sdirective W) = MOk (written_directives W).
Proof.
  induction W as [|[dt bs] W IH]; intros H; cbn [map parse_directives]; [reflexivity|].
  unfold assertion_sdirective at 1. cbn [fst snd parse_directive].
  rewrite check_balances_ok by (intros b Hb; apply (H dt bs b (or_introl eq_refl) Hb)). cbn [mbind].
  rewrite IH by (intros dt' bs' b Hin Hb; apply (H dt' bs' b (or_intror Hin) Hb)). cbn [mbind app].
  reflexivity.
Qed.

Lemma check_write_assertions_written sds W :
  check_write_assertions sds = COk W ->
  exists ds, parse_directives sds = MOk ds /\ written ds = ROk W.
Proof.
  rewrite check_write_assertions_eq. unfold load, written.
  destruct (parse_directives sds) as [ds|m|m]; cbn [of_mresult cbind]; try discriminate.
  intros H. exists ds. split; [reflexivity|].
  destruct (written_of (b_days (builder_of ds))) as [w|k x|m]; cbn [of_presult] in H; try discriminate.
  inversion H. reflexivity.
Qed.

Lemma parse_extended sds ds W :
  parse_directives sds = MOk ds -> syntactic (ds ++ written_directives W) ->
  parse_directives (sds ++ map assertion_sdirective W) = MOk (ds ++ written_directives W).
Proof.
  intros P Hsyn2. rewrite parse_directives_app, P, parse_written; [reflexivity|].
  intros dt bs b Hin Hb. apply account_ok_valid.
  apply (Hsyn2 (DAssert dt bs) (EAssert (bal_acc b) (bal_com b) (bal_qty b))).
  - apply in_or_app. right. apply in_map_iff. exists (dt, bs). split; [reflexivity|exact Hin].
  - cbn [events_of]. apply in_map_iff. exists b. split; [reflexivity|exact Hb].
Qed.

(* a journal extended by assertions, from the model directives to the command *)
Lemma accepted_cmd sds ds W :
  parse_directives sds = MOk ds ->
  syntactic (ds ++ written_directives W) -> check_model (ds ++ written_directives W) = VOk ->
  sd_syntactic (sds ++ map assertion_sdirective W) /\
  check_cmd_fixed (sds ++ map assertion_sdirective W) = COk tt.
Proof.
  intros P Hsyn2 Hacc. pose proof (parse_extended sds ds W P Hsyn2) as P2.
  assert (Hs2 : sd_syntactic (sds ++ map assertion_sdirective W))
    by (intros ds' E; rewrite P2 in E; inversion E; subst ds'; exact Hsyn2).
  split; [exact Hs2|]. apply (check_cmd_iff _ Hs2).
  exists (ds ++ written_directives W). split; [exact P2|]. apply (check_iff _ Hsyn2), Hacc.
Qed.

Lemma accepted_model sds ds :
  sd_syntactic sds -> parse_directives sds = MOk ds -> check_cmd_fixed sds = COk tt ->
  syntactic ds /\ wellformed ds /\ check_model ds = VOk.
Proof.
  intros Hs P Hok. pose proof (Hs ds P) as Hsyn. split; [exact Hsyn|].
  destruct (proj1 (check_cmd_iff sds Hs) Hok) as [ds' [P' Wf]].
  rewrite P in P'. inversion P'. subst ds'. split; [exact Wf|]. apply (check_iff ds Hsyn). exact Wf.
Qed.
