(* `knut check --write` (Model/CheckWrite.v), the run of the processor:
   1. the processor with the DayEnd callback, run over a list of days, is the plain recursion
      [write_days]: the checker of Model/Check.v day by day, and after each day the assertion
      computed from the quantity map ([process_days_write]);
   2. the command fails exactly when `knut check` fails, with the same error, and then has no
      output ([check_write_verdict]);
   3. permuting the directives changes neither the collected assertions nor the printed bytes
      ([check_write_cmd_perm]; on top of the C05 lemmas of Proofs/OrderStages.v, OrderCmd.v). *)
From Coq Require Import ZArith List Bool Lia Permutation.
From Knut Require Import Model.Str Model.Dec Model.Date Model.Account Model.Ledger Model.Price Model.Journal
     Model.Check Model.Pipeline Model.JPrinter Model.Cli Model.CheckWrite Spec.WellformedSpec
     Proofs.BuilderProofs Proofs.CheckPerm Proofs.OrderProofs Proofs.OrderStages Proofs.OrderCmd.
Import ListNotations.
Open Scope bool_scope.
Open Scope Z_scope.

Fixpoint write_days (s : check_state) (days : list day) : presult (check_state * list wassertion) :=
  match days with
  | [] => ROk (s, [])
  | d :: rest =>
    rbind (process_day check_proc_fixed s d) (fun sd =>
    rbind (write_days (fst sd) rest) (fun r =>
    ROk (fst r, day_end_assertions (ck_qty (fst sd)) (d_date d) ++ snd r)))
  end.

Lemma fold_res_lift {A} (f : check_state -> A -> presult check_state) out l : forall s,
  fold_res (lift_cb f) (s, out) l = rbind (fold_res f s l) (fun s' => ROk (s', out)).
Proof.
  induction l as [|x l IH]; intros s; cbn [fold_res]; [reflexivity|].
  unfold lift_cb at 1. cbn [fst snd].
  destruct (f s x) as [s1|k d|m]; cbn [rbind]; [apply IH|reflexivity|reflexivity].
Qed.

Lemma fold_postings_lift f t out ps : forall s,
  fold_postings (lift_posting f) t (s, out) ps =
  rbind (fold_postings f t s ps) (fun r => ROk ((fst r, out), snd r)).
Proof.
  induction ps as [|p ps IH]; intros s; cbn [fold_postings]; [reflexivity|].
  unfold lift_posting at 1. cbn [fst snd].
  destruct (f s t p) as [[s1 p1]|k d|m]; cbn [rbind fst snd]; try reflexivity.
  rewrite IH.
  destruct (fold_postings f t s1 ps) as [[s2 ps2]|k d|m]; reflexivity.
Qed.

Lemma fold_txns_lift out ts : forall s,
  fold_txns check_write_proc (s, out) ts =
  rbind (fold_txns check_proc_fixed s ts) (fun r => ROk ((fst r, out), snd r)).
Proof.
  induction ts as [|t ts IH]; intros s; cbn [fold_txns]; [reflexivity|].
  unfold check_write_proc at 1 2, check_proc_fixed at 1 2. cbn [pr_txn pr_posting rbind].
  rewrite fold_postings_lift.
  destruct (fold_postings ck_posting_cb t s (t_postings t)) as [[s1 ps1]|k d|m]; cbn [rbind fst snd]; try reflexivity.
  rewrite IH.
  destruct (fold_txns check_proc_fixed s1 ts) as [[s2 ts2]|k d|m]; reflexivity.
Qed.

Lemma fold_asserts_lift out l : forall s,
  fold_asserts check_write_proc (s, out) l =
  rbind (fold_asserts check_proc_fixed s l) (fun s' => ROk (s', out)).
Proof.
  induction l as [|a l IH]; intros s; cbn [fold_asserts]; [reflexivity|].
  unfold check_write_proc at 1, check_proc_fixed at 1. cbn [pr_balance].
  change (fun (s0 : wstate) (b : balance) => lift_balance ck_balance_fixed s0 a b)
    with (lift_cb (fun s0 b => ck_balance_fixed s0 a b)).
  rewrite (fold_res_lift (fun s0 b => ck_balance_fixed s0 a b) out a s).
  destruct (fold_res (fun s0 b => ck_balance_fixed s0 a b) s a) as [s1|k d|m]; cbn [rbind];
    [apply IH|reflexivity|reflexivity].
Qed.

Lemma process_day_write s out d :
  process_day check_write_proc (s, out) d =
  rbind (process_day check_proc_fixed s d) (fun sd =>
  ROk ((fst sd, out ++ day_end_assertions (ck_qty (fst sd)) (d_date d)), snd sd)).
Proof.
  unfold process_day.
  unfold check_write_proc, check_proc_fixed.
  cbn [pr_day_start pr_price pr_open pr_close pr_day_end rbind fst snd].
  fold check_write_proc. fold check_proc_fixed.
  rewrite (fold_res_lift ck_open_cb out (d_opens d) s).
  destruct (fold_res ck_open_cb s (d_opens d)) as [s1|k x|m]; cbn [rbind]; try reflexivity.
  rewrite fold_txns_lift.
  destruct (fold_txns check_proc_fixed s1 (d_txns d)) as [[s2 ts2]|k x|m]; cbn [rbind fst snd d_asserts d_closes]; try reflexivity.
  rewrite fold_asserts_lift.
  destruct (fold_asserts check_proc_fixed s2 (d_asserts d)) as [s3|k x|m]; cbn [rbind]; try reflexivity.
  rewrite (fold_res_lift ck_close_cb out (d_closes d) s3).
  destruct (fold_res ck_close_cb s3 (d_closes d)) as [s4|k x|m]; cbn [rbind]; try reflexivity.
Qed.

Lemma process_days_write days : forall s out,
  rfst (process_days check_write_proc (s, out) days) =
  rbind (write_days s days) (fun r => ROk (fst r, out ++ snd r)).
Proof.
  induction days as [|d days IH]; intros s out; cbn [process_days write_days rbind rfst fst snd].
  - rewrite app_nil_r. reflexivity.
  - rewrite process_day_write.
    destruct (process_day check_proc_fixed s d) as [[s1 d1]|k x|m]; cbn [rbind fst snd]; try reflexivity.
    specialize (IH s1 (out ++ day_end_assertions (ck_qty s1) (d_date d))).
    destruct (process_days check_write_proc (s1, out ++ day_end_assertions (ck_qty s1) (d_date d)) days)
      as [[[s2 o2] ds2]|k x|m]; cbn [rbind rfst fst snd] in *;
      destruct (write_days s1 days) as [[s3 w3]|k' x'|m']; cbn [rbind fst snd] in *; try discriminate; try congruence.
    inversion IH. subst. rewrite <- app_assoc. reflexivity.
Qed.

(* the assertions the command collects, from the days of the journal *)
Definition written_of (days : list day) : presult (list wassertion) :=
  rbind (write_days check_init days) (fun r => ROk (snd r)).

Lemma check_write_assertions_eq sds :
  check_write_assertions sds =
  cbind (load sds) (fun b => of_presult (written_of (b_days b))).
Proof.
  unfold check_write_assertions, written_of, run_stage, wstate_init.
  destruct (load sds) as [b|k d|m]; cbn [cbind]; try reflexivity.
  pose proof (process_days_write (b_days b) check_init []) as H.
  destruct (process_days check_write_proc (check_init, []) (b_days b)) as [[[s o] ds]|k x|m];
    cbn [rfst fst snd] in H;
    destruct (write_days check_init (b_days b)) as [[s3 w3]|k' x'|m']; cbn [rbind fst snd app] in *;
    try discriminate; cbn; congruence.
Qed.

Lemma write_days_verdict days : forall s,
  rfst (write_days s days) = rfst (process_days check_proc_fixed s days).
Proof.
  induction days as [|d days IH]; intros s; cbn [write_days process_days rbind rfst fst]; [reflexivity|].
  destruct (process_day check_proc_fixed s d) as [[s1 d1]|k x|m]; cbn [rbind fst snd]; try reflexivity.
  specialize (IH s1).
  destruct (write_days s1 days) as [[s2 w]|k x|m], (process_days check_proc_fixed s1 days) as [[s3 ds3]|k' x'|m'];
    cbn [rbind rfst fst snd] in *; try discriminate; congruence.
Qed.

(* `check --write` and `check` succeed and fail together, with the same error; what the
   successful run prints is [write_file] of the collected assertions.  A failing run has no
   output at all: the result of the command is the error. *)
Theorem check_write_verdict sds :
  match check_cmd_fixed sds with
  | COk _ => exists W, check_write_assertions sds = COk W /\ check_write_cmd sds = COk (write_file W)
  | CErr k d => check_write_assertions sds = CErr k d /\ check_write_cmd sds = CErr k d
  | CPanic m => check_write_assertions sds = CPanic m /\ check_write_cmd sds = CPanic m
  end.
Proof.
  unfold check_write_cmd. rewrite check_write_assertions_eq. unfold check_cmd_fixed, written_of, run_stage.
  destruct (load sds) as [b|k d|m]; cbn [cbind]; try (split; reflexivity).
  pose proof (write_days_verdict (b_days b) check_init) as H.
  destruct (write_days check_init (b_days b)) as [[s w]|k x|m],
           (process_days check_proc_fixed check_init (b_days b)) as [[s' ds']|k' x'|m'];
    cbn [rfst rbind of_presult cbind fst snd] in *; try discriminate.
  - exists w. split; reflexivity.
  - inversion H. split; reflexivity.
  - inversion H. split; reflexivity.
Qed.

Theorem check_write_succeeds sds :
  check_cmd_fixed sds = COk tt ->
  exists W, check_write_assertions sds = COk W /\ check_write_cmd sds = COk (write_file W).
Proof. intros H. pose proof (check_write_verdict sds) as V. rewrite H in V. exact V. Qed.

Lemma write_days_rel l1 l2 :
  Forall2 DIok l1 l2 -> forall s1 s2, Rck s1 s2 ->
  req (fun a b => Rck (fst a) (fst b) /\ snd a = snd b) (write_days s1 l1) (write_days s2 l2).
Proof.
  intros HF. induction HF as [|d1 d2 l1 l2 Hd Hl IH]; intros s1 s2 Hs; cbn [write_days].
  - cbn. split; [exact Hs|reflexivity].
  - eapply req_bind.
    + apply (check_day_rel ck_balance_fixed ck_balance_fixed_pure ck_balance_fixed_resp s1 s2 d1 d2 Hs Hd).
    + intros [s1' d1'] [s2' d2'] (H1 & _ & _). cbn [fst snd] in *.
      eapply req_bind; [apply IH; exact H1|].
      intros [s1'' w1] [s2'' w2] (H3 & H4). cbn [fst snd req] in *. split; [exact H3|].
      destruct H1 as [_ Hq]. destruct Hd as [(Hdate & _) _]. rewrite Hq, Hdate, H4. reflexivity.
Qed.

Theorem check_write_assertions_perm sds1 sds2 :
  Permutation sds1 sds2 -> sd_syntactic sds1 ->
  ceq eq (check_write_assertions sds1) (check_write_assertions sds2).
Proof.
  intros P Hs. rewrite !check_write_assertions_eq. eapply ceq_bind; [apply load_perm; eassumption|].
  intros b1 b2 (HF & _ & _). apply ceq_of_presult. unfold written_of.
  eapply req_bind; [apply write_days_rel; [exact HF|apply Rck_refl]|].
  intros [s1 w1] [s2 w2] (_ & H). cbn [snd req] in *. exact H.
Qed.

(* both commands fail, or both print the same bytes *)
Theorem check_write_cmd_perm sds1 sds2 :
  Permutation sds1 sds2 -> sd_syntactic sds1 ->
  ceq eq (check_write_cmd sds1) (check_write_cmd sds2).
Proof.
  intros P Hs. unfold check_write_cmd. eapply ceq_bind; [apply check_write_assertions_perm; eassumption|].
  intros a b E. subst b. cbn. reflexivity.
Qed.
