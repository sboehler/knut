(* `knut check --write`: the collected assertions against the specification
   (Spec/CheckWriteSpec.v).  [wmatch pre days W]: W is, day by day, the assertion computed from a
   checker state that satisfies [Inv] for the events up to that day's end. *)
From Coq Require Import ZArith List Bool Lia Sorting.Sorted Permutation.
From Knut Require Import Model.Str Model.Dec Model.Date Model.Account Model.Ledger Model.Price Model.Journal
     Model.Check Model.Pipeline Model.JPrinter Model.Cli Model.CheckWrite
     Spec.WellformedSpec Spec.CheckWriteSpec
     Proofs.StrProofs Proofs.DecProofs Proofs.DecEqProofs Proofs.CheckLemmas Proofs.CheckProofs Proofs.BuilderProofs
     Proofs.CheckMain Proofs.CheckPerm Proofs.OrderStages Proofs.CheckWriteBase.
Import ListNotations.
Open Scope bool_scope.
Open Scope Z_scope.

Inductive wmatch : list event -> list day -> list wassertion -> Prop :=
| wm_nil pre : wmatch pre [] []
| wm_cons pre d days s1 W :
    Inv (pre ++ day_events d) s1 ->
    wmatch (pre ++ day_events d) days W ->
    wmatch pre (d :: days) (day_end_assertions (ck_qty s1) (d_date d) ++ W).

Lemma process_day_run s d s1 d1 :
  process_day check_proc_fixed s d = ROk (s1, d1) -> run_events s (day_events d) = ROk s1.
Proof.
  intros H. rewrite <- process_day_events. rewrite H. reflexivity.
Qed.

Lemma write_days_wmatch days : forall pre s s' W,
  Inv pre s ->
  (forall e, In e (flat_map day_events days) -> account_ok (ev_acc e) = true) ->
  write_days s days = ROk (s', W) -> wmatch pre days W.
Proof.
  induction days as [|d days IH]; intros pre s s' W I Hacc H; cbn [write_days] in H.
  - inversion H. constructor.
  - destruct (process_day check_proc_fixed s d) as [[s1 d1]|k x|m] eqn:P; cbn [rbind fst snd] in H; try discriminate.
    apply process_day_run in P.
    assert (Hacc1 : forall e, In e (day_events d) -> account_ok (ev_acc e) = true).
    { intros e He. apply Hacc. cbn [flat_map]. apply in_or_app. left. exact He. }
    pose proof (run_refines (day_events d) pre s I Hacc1) as R. rewrite P in R. destruct R as [_ I1].
    destruct (write_days s1 days) as [[s2 W2]|k x|m] eqn:R; cbn [rbind fst snd] in H; try discriminate.
    inversion H. subst s' W.
    constructor; try assumption.
    apply (IH (pre ++ day_events d) s1 s2 W2 I1); [|exact R].
    intros e He. apply Hacc. cbn [flat_map]. apply in_or_app. right. exact He.
Qed.

Lemma day_end_assertions_in m dt w :
  In w (day_end_assertions m dt) -> m <> [] /\ w = (dt, day_end_balances m).
Proof.
  destruct m as [|x m]; cbn [day_end_assertions]; [intros []|].
  intros [H|[]]. split; [discriminate|]. symmetry. exact H.
Qed.

Lemma wmatch_entries pre days W : wmatch pre days W ->
  forall dt bs, In (dt, bs) W ->
  exists done d rest s, days = done ++ d :: rest /\ d_date d = dt /\
    Inv (pre ++ flat_map day_events (done ++ [d])) s /\
    ck_qty s <> [] /\ bs = day_end_balances (ck_qty s).
Proof.
  induction 1 as [pre|pre d days s1 W I M IH]; intros dt bs Hin; [destruct Hin|].
  apply in_app_or in Hin. destruct Hin as [Hin|Hin].
  - apply day_end_assertions_in in Hin. destruct Hin as [Hne E]. inversion E. subst dt bs.
    exists [], d, days, s1. cbn [app flat_map]. rewrite app_nil_r.
    split; [reflexivity|]. split; [reflexivity|]. split; [exact I|]. split; [exact Hne|reflexivity].
  - destruct (IH dt bs Hin) as (done & d0 & rest & s & E & Hd & I' & Hne & Hb).
    exists (d :: done), d0, rest, s. subst days.
    cbn [app flat_map]. rewrite <- app_assoc in I'.
    split; [reflexivity|]. split; [exact Hd|]. split; [exact I'|]. split; [exact Hne|exact Hb].
Qed.

Lemma wmatch_days pre days W : wmatch pre days W ->
  forall done d rest, days = done ++ d :: rest ->
  exists s, Inv (pre ++ flat_map day_events (done ++ [d])) s /\
    (ck_qty s = [] \/ In (d_date d, day_end_balances (ck_qty s)) W).
Proof.
  induction 1 as [pre|pre d days s1 W I M IH]; intros done d0 rest E; [destruct done; discriminate|].
  destruct done as [|d' done]; cbn [app] in E; inversion E; subst.
  - exists s1. cbn [app flat_map]. rewrite app_nil_r.
    split; [exact I|].
    destruct (ck_qty s1) as [|x m] eqn:Q; [left; reflexivity|right].
    apply in_or_app. left. left. reflexivity.
  - destruct (IH done d0 rest eq_refl) as (s & I' & Hin).
    exists s. cbn [app flat_map]. rewrite <- app_assoc in I'.
    split; [exact I'|].
    destruct Hin as [Hin|Hin]; [left; exact Hin|right; apply in_or_app; right; exact Hin].
Qed.

Lemma wmatch_dates pre days W : wmatch pre days W ->
  StronglySorted Z.lt (map d_date days) ->
  StronglySorted Z.lt (map fst W) /\ (forall w, In w W -> In (fst w) (map d_date days)).
Proof.
  induction 1 as [pre|pre d days s1 W I M IH]; intros Hs; [split; [constructor|intros w []]|].
  cbn [map] in Hs. inversion Hs as [|x l Hs' Hall]; subst.
  destruct (IH Hs') as [S1 S2].
  destruct (ck_qty s1) as [|x m]; cbn [day_end_assertions app map].
  - split; [exact S1|]. intros w Hw. right. apply S2. exact Hw.
  - split.
    + constructor; [exact S1|]. cbn [fst]. rewrite Forall_forall in *. intros y Hy.
      apply in_map_iff in Hy. destruct Hy as [w [E Hw]]. subst y. apply Hall. apply S2. exact Hw.
    + intros w [Hw|Hw]; [subst w; left; reflexivity|right; apply S2; exact Hw].
Qed.

Lemma sorted_app_split (l1 : list Z) x l2 :
  StronglySorted Z.lt (l1 ++ x :: l2) -> Forall (fun y => y < x) l1 /\ Forall (fun y => x < y) l2.
Proof.
  induction l1 as [|a l1 IH]; cbn [app]; intros H; inversion H as [|y l Hs Hall]; subst.
  - split; [constructor|exact Hall].
  - destruct (IH Hs) as [H1 H2]. split; [|exact H2]. constructor; [|exact H1].
    rewrite Forall_forall in Hall. apply Hall. apply in_or_app. right. left. reflexivity.
Qed.

Lemma filter_le_split (l1 : list Z) x l2 :
  StronglySorted Z.lt (l1 ++ x :: l2) -> filter (fun y => y <=? x) (l1 ++ x :: l2) = l1 ++ [x].
Proof.
  intros H. destruct (sorted_app_split l1 x l2 H) as [H1 H2].
  rewrite filter_app. cbn [filter]. rewrite Z.leb_refl. f_equal.
  - induction l1 as [|a l1 IH]; [reflexivity|]. cbn [filter]. inversion H1; subst.
    replace (a <=? x) with true by (symmetry; apply Z.leb_le; lia). f_equal. apply IH.
    + cbn [app] in H. inversion H; assumption.
    + assumption.
  - f_equal. clear H H1. induction l2 as [|a l2 IH]; [reflexivity|]. cbn [filter]. inversion H2; subst.
    replace (a <=? x) with false by (symmetry; apply Z.leb_gt; lia). apply IH. assumption.
Qed.

Lemma events_upto_days ds done d rest :
  b_days (builder_of ds) = done ++ d :: rest ->
  events_upto ds (d_date d) = flat_map day_events (done ++ [d]).
Proof.
  intros E. destruct (builder_canonical ds) as (Hs & Hd & _ & Hm). cbn zeta in *.
  unfold events_upto, days_upto. rewrite <- Hd. rewrite E in *.
  rewrite map_app in *. cbn [map] in *. rewrite filter_le_split by exact Hs.
  change (map d_date done ++ [d_date d]) with (map d_date done ++ map d_date [d]). rewrite <- map_app.
  rewrite <- (flat_days_of_day ds (done ++ [d])).
  - rewrite flat_map_flat_map. apply flat_map_ext. intros x. apply day_events_directives.
  - intros x Hx. apply Hm. apply in_app_or in Hx. apply in_or_app.
    destruct Hx as [Hx|[Hx|[]]]; [left; exact Hx|right; left; exact Hx].
Qed.

Lemma balance_in_day_end m b :
  In b (day_end_balances m) <-> exists x, In x m /\ b = entry_balance x.
Proof.
  unfold day_end_balances. split.
  - intros H. apply (Permutation_in _ (sort_by_perm bal_ltb _)) in H.
    apply in_map_iff in H. destruct H as [x [E Hx]]. exists x. split; [exact Hx|symmetry; exact E].
  - intros [x [Hx E]]. subst b. apply (Permutation_in _ (Permutation_sym (sort_by_perm bal_ltb _))).
    apply in_map. exact Hx.
Qed.

Lemma day_end_balances_nonempty m : m <> [] -> day_end_balances m <> [].
Proof.
  intros H E. destruct m as [|x m]; [contradiction|].
  assert (Hin : In (entry_balance x) (day_end_balances (x :: m))).
  { apply balance_in_day_end. exists x. split; [left; reflexivity|reflexivity]. }
  rewrite E in Hin. destruct Hin.
Qed.

Lemma line_sound pre s a c q :
  Inv pre s -> In (mkBalance a q c) (day_end_balances (ck_qty s)) ->
  account_ok a = true /\ live pre a c = true /\ dec_equal (quantity pre a c) q = true.
Proof.
  intros [_ Iq Il Is Ie] Hin.
  apply balance_in_day_end in Hin. destruct Hin as [[k [[a' c'] q']] [Hx E]].
  cbn [entry_balance] in E. inversion E. subst a' c' q'.
  pose proof (Ie _ Hx) as [Kk [Oa Al]]. cbn [fst snd] in Kk, Oa, Al. subst k.
  pose proof (pos_get_in _ _ _ _ Is Hx) as G.
  split; [exact Oa|]. split.
  - rewrite <- (Il a c Oa). unfold has. rewrite G. reflexivity.
  - pose proof (Iq a c Oa Al) as D. unfold getd in D. rewrite G in D. apply deqv_sym in D. exact D.
Qed.

Lemma line_complete pre s a c :
  Inv pre s -> account_ok a = true -> live pre a c = true ->
  exists q, In (mkBalance a q c) (day_end_balances (ck_qty s)).
Proof.
  intros [_ _ Il _ Ie] Oa L. rewrite <- (Il a c Oa) in L. unfold has in L.
  destruct (pos_get (ck_qty s) a c) as [q|] eqn:G; [|discriminate].
  exists q. apply balance_in_day_end. exists (pos_key a c, (a, c, q)).
  split; [exact (pos_get_some _ _ _ _ Ie Oa G)|reflexivity].
Qed.

(* the assertions `check --write` collects on the directives [ds] *)
Definition written (ds : list directive) : presult (list wassertion) := written_of (b_days (builder_of ds)).

Lemma written_wmatch ds W : syntactic ds -> written ds = ROk W -> wmatch [] (b_days (builder_of ds)) W.
Proof.
  intros Hs H. unfold written, written_of in H.
  destruct (write_days check_init (b_days (builder_of ds))) as [[s W']|k x|m] eqn:R; cbn [rbind snd] in H; try discriminate.
  inversion H. subst W'.
  apply (write_days_wmatch _ [] check_init s W inv_init); [|exact R].
  intros e He. rewrite builder_events in He. apply (syntactic_events ds Hs). exact He.
Qed.

Lemma events_upto_incl ds dt e : In e (events_upto ds dt) -> In e (events ds).
Proof.
  unfold events_upto, events, canonical, days_upto. rewrite !in_flat_map. intros (d & Hd & He).
  exists d. split; [|exact He]. apply in_flat_map in Hd. destruct Hd as (x & Hx & Hd).
  apply in_flat_map. exists x. split; [apply filter_In in Hx; tauto|exact Hd].
Qed.

(* an assertion of W is computed from a state that satisfies the invariant for the events up to
   the end of its day; and every day of the journal has such a state *)
Lemma written_entries ds W :
  syntactic ds -> written ds = ROk W ->
  forall dt bs, In (dt, bs) W ->
  In dt (dates ds) /\
  exists s, Inv (events_upto ds dt) s /\ ck_qty s <> [] /\ bs = day_end_balances (ck_qty s).
Proof.
  intros Hs H dt bs Hin. pose proof (written_wmatch ds W Hs H) as M.
  destruct (builder_canonical ds) as (_ & Hd & _ & _). cbn zeta in *.
  destruct (wmatch_entries _ _ _ M dt bs Hin) as (done & d & rest & s & E & <- & I & Hne & Hb).
  split.
  - rewrite <- Hd, E, map_app. apply in_or_app. right. left. reflexivity.
  - exists s. cbn [app] in I. rewrite <- (events_upto_days ds done d rest E) in I. auto.
Qed.

Lemma written_days ds W :
  syntactic ds -> written ds = ROk W ->
  forall dt, In dt (dates ds) ->
  exists s, Inv (events_upto ds dt) s /\ (ck_qty s = [] \/ In (dt, day_end_balances (ck_qty s)) W).
Proof.
  intros Hs H dt Hdt. pose proof (written_wmatch ds W Hs H) as M.
  destruct (builder_canonical ds) as (_ & Hd & _ & _). cbn zeta in *.
  rewrite <- Hd in Hdt. apply in_map_iff in Hdt. destruct Hdt as (d & <- & Hin).
  apply in_split in Hin. destruct Hin as (done & rest & E).
  destruct (wmatch_days _ _ _ M done d rest E) as (s & I & Hw).
  exists s. cbn [app] in I. rewrite <- (events_upto_days ds done d rest E) in I. split; assumption.
Qed.

(* everything of [write_spec] except the order of the lines inside an assertion; the accounts of
   the lines are, besides, syntactically valid *)
Theorem write_complete_partial ds W :
  syntactic ds -> written ds = ROk W ->
  StronglySorted Z.lt (map fst W) /\
  (forall dt bs, In (dt, bs) W -> In dt (dates ds) /\ bs <> []) /\
  (forall dt a c q, asserted W dt a c q ->
     account_ok a = true /\ live (events_upto ds dt) a c = true /\
     dec_equal (quantity (events_upto ds dt) a c) q = true) /\
  (forall dt a c, In dt (dates ds) -> live (events_upto ds dt) a c = true -> exists q, asserted W dt a c q).
Proof.
  intros Hs H. split; [|split; [|split]].
  - destruct (builder_canonical ds) as (Hsort & _).
    apply (wmatch_dates _ _ _ (written_wmatch ds W Hs H) Hsort).
  - intros dt bs Hin. destruct (written_entries ds W Hs H dt bs Hin) as (Hdt & s & _ & Hne & ->).
    split; [exact Hdt|apply day_end_balances_nonempty, Hne].
  - intros dt a c q (bs & Hin & Hb).
    destruct (written_entries ds W Hs H dt bs Hin) as (_ & s & I & _ & ->).
    apply (line_sound _ _ a c q I Hb).
  - intros dt a c Hdt L. destruct (written_days ds W Hs H dt Hdt) as (s & I & Hw).
    assert (Oa : account_ok a = true).
    { destruct (live_posted _ a c L) as [x Hx].
      apply (syntactic_events ds Hs _ (events_upto_incl ds dt _ Hx)). }
    destruct (line_complete _ s a c I Oa L) as [q Hq].
    exists q, (day_end_balances (ck_qty s)). split; [|exact Hq].
    destruct Hw as [Hw|Hw]; [rewrite Hw in Hq; destruct Hq|exact Hw].
Qed.
