(* The executable specification [write_spec_b] (what the correspondence check evaluates on the
   assertions read back from the binary's output) is the specification [write_spec]. *)
From Coq Require Import ZArith List Bool Lia Sorting.Sorted.
From Knut Require Import Model.Str Model.Dec Model.Account Model.Ledger
     Spec.WellformedSpec Spec.CheckWriteSpec Proofs.CheckLemmas Proofs.BuilderProofs Proofs.CheckProofs.
Import ListNotations.
Open Scope bool_scope.
Open Scope Z_scope.

Lemma sorted_by_spec {A} (lt : A -> A -> bool) l :
  sorted_by lt l = true <-> StronglySorted (fun x y => lt x y = true) l.
Proof.
  induction l as [|x l IH]; cbn [sorted_by]; [split; [constructor|reflexivity]|].
  rewrite andb_true_iff, forallb_forall, IH. split.
  - intros [H1 H2]. constructor; [exact H2|]. apply Forall_forall. exact H1.
  - intros H. inversion H as [|y l' Hs Hall]; subst. split; [apply Forall_forall; exact Hall|exact Hs].
Qed.

Lemma SS_impl {A} (R Q : A -> A -> Prop) l :
  (forall x y, R x y -> Q x y) -> StronglySorted R l -> StronglySorted Q l.
Proof.
  intros H S. induction S as [|x l S IH Hall]; constructor; [exact IH|].
  eapply Forall_impl; [|exact Hall]. intros y Hy. apply H. exact Hy.
Qed.

Lemma sorted_ltb_spec l : sorted_by Z.ltb l = true <-> StronglySorted Z.lt l.
Proof.
  rewrite sorted_by_spec. split; apply SS_impl; intros x y H; apply Z.ltb_lt; exact H.
Qed.

Lemma in_dates_spec dt l : in_dates dt l = true <-> In dt l.
Proof.
  unfold in_dates. rewrite existsb_exists. split.
  - intros [x [Hx E]]. apply Z.eqb_eq in E. subst x. exact Hx.
  - intros H. exists dt. split; [exact H|apply Z.eqb_refl].
Qed.

Lemma asserted_b_spec W dt a c : asserted_b W dt a c = true <-> exists q, asserted W dt a c q.
Proof.
  unfold asserted_b, asserted. rewrite existsb_exists. split.
  - intros [[dt' bs] [Hw H]]. cbn [fst snd] in H. apply andb_true_iff in H. destruct H as [E H].
    apply Z.eqb_eq in E. subst dt'. apply existsb_exists in H. destruct H as [b [Hb H]].
    apply andb_true_iff in H. destruct H as [H1 H2]. apply same_acc_eq in H1. apply same_com_eq in H2.
    exists (bal_qty b), bs. split; [exact Hw|]. subst a c. destruct b. exact Hb.
  - intros [q [bs [Hw Hb]]]. exists (dt, bs). split; [exact Hw|]. cbn [fst snd].
    rewrite Z.eqb_refl. cbn [andb]. apply existsb_exists. exists (mkBalance a q c). split; [exact Hb|].
    cbn [bal_acc bal_com]. rewrite same_acc_refl, same_com_refl. reflexivity.
Qed.

Lemma posted_positions_in pre a c : (exists q, In (EPost a c q) pre) -> In (a, c) (posted_positions pre).
Proof.
  intros [q H]. unfold posted_positions. apply in_flat_map. exists (EPost a c q). split; [exact H|left; reflexivity].
Qed.

Theorem write_spec_b_spec ds W : write_spec_b ds W = true <-> write_spec ds W.
Proof.
  unfold write_spec_b. rewrite !andb_true_iff. split.
  - intros [[[[H1 H2] H3] H4] H5]. constructor.
    + apply sorted_ltb_spec. exact H1.
    + intros dt bs Hin. unfold ws_days_b in H2. rewrite forallb_forall in H2. specialize (H2 _ Hin).
      cbn [fst snd] in H2. apply andb_true_iff in H2. destruct H2 as [A B].
      split; [apply in_dates_spec; exact A|]. destruct bs; [discriminate|discriminate].
    + intros dt bs Hin. unfold ws_sorted_b in H3. rewrite forallb_forall in H3. specialize (H3 _ Hin).
      apply sorted_by_spec. exact H3.
    + intros dt a c q (bs & Hin & Hb). unfold ws_sound_b in H4. rewrite forallb_forall in H4. specialize (H4 _ Hin).
      cbn [fst snd] in H4. rewrite forallb_forall in H4. specialize (H4 _ Hb).
      unfold line_ok_b in H4. cbn [bal_acc bal_com bal_qty] in H4. apply andb_true_iff in H4. exact H4.
    + intros dt a c Hdt L. apply asserted_b_spec.
      unfold ws_complete_b in H5. rewrite forallb_forall in H5. specialize (H5 dt Hdt). cbn zeta in H5.
      rewrite forallb_forall in H5. specialize (H5 (a, c) (posted_positions_in _ a c (live_posted _ a c L))).
      cbn [fst snd] in H5. rewrite L in H5. cbn [negb orb] in H5. exact H5.
  - intros [H1 H2 H3 H4 H5]. repeat split.
    + apply sorted_ltb_spec. exact H1.
    + unfold ws_days_b. apply forallb_forall. intros [dt bs] Hin. cbn [fst snd].
      destruct (H2 dt bs Hin) as [A B]. apply andb_true_iff. split; [apply in_dates_spec; exact A|].
      destruct bs; [contradiction B; reflexivity|reflexivity].
    + unfold ws_sorted_b. apply forallb_forall. intros [dt bs] Hin. cbn [snd]. apply sorted_by_spec. apply (H3 dt bs Hin).
    + unfold ws_sound_b. apply forallb_forall. intros [dt bs] Hin. cbn [fst snd]. apply forallb_forall. intros b Hb.
      unfold line_ok_b. apply andb_true_iff. apply (H4 dt (bal_acc b) (bal_com b) (bal_qty b)).
      exists bs. split; [exact Hin|]. destruct b. exact Hb.
    + unfold ws_complete_b. apply forallb_forall. intros dt Hdt. cbn zeta. apply forallb_forall. intros [a c] _. cbn [fst snd].
      destruct (live (events_upto ds dt) a c) eqn:L; [|reflexivity]. cbn [negb orb].
      apply asserted_b_spec. apply (H5 dt a c Hdt L).
Qed.
