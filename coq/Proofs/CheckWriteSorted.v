(* `knut check --write`: the lines of an assertion come out strictly ordered by
   (account type, account name, commodity) -- slices.SortFunc with assertion.CompareBalance on
   positions that are pairwise different -- the last field of [write_spec]
   (Properties/C04w.v C04_write_complete). *)
From Coq Require Import ZArith List Bool Lia Sorting.Sorted Permutation.
From Knut Require Import Model.Str Model.Dec Model.Date Model.Account Model.Ledger Model.Price Model.Journal
     Model.Check Model.Pipeline Model.JPrinter Model.Cli Model.CheckWrite
     Spec.WellformedSpec Spec.CheckWriteSpec
     Proofs.StrProofs Proofs.StableSort Proofs.CheckLemmas Proofs.CheckProofs Proofs.BuilderProofs
     Proofs.CheckMain Proofs.CheckWriteBase Proofs.CheckWriteComplete.
Import ListNotations.
Open Scope bool_scope.
Open Scope Z_scope.

Section SortSorted.
  Context {A K : Type} (lt : A -> A -> bool) (R : A -> A -> Prop) (key : A -> K).
  Hypothesis R_trans : forall x y z, R x y -> R y z -> R x z.
  Hypothesis lt_R : forall x y, key x <> key y -> lt x y = true -> R x y.
  Hypothesis nlt_R : forall x y, key x <> key y -> lt x y = false -> R y x.

  Lemma insert_sorted_sorted x t :
    (forall y, In y t -> key x <> key y) -> StronglySorted R t -> StronglySorted R (insert_sorted lt x t).
  Proof.
    induction t as [|y t IH]; intros Hd Hs; cbn [insert_sorted]; [constructor; constructor|].
    inversion Hs as [|y' t' Hs' Hall]; subst.
    destruct (lt x y) eqn:E.
    - assert (Rxy : R x y) by (apply lt_R; [apply Hd; left; reflexivity|exact E]).
      constructor; [exact Hs|]. constructor; [exact Rxy|].
      rewrite Forall_forall in *. intros z Hz. apply (R_trans x y z Rxy). apply Hall. exact Hz.
    - constructor.
      + apply IH; [intros z Hz; apply Hd; right; exact Hz|exact Hs'].
      + rewrite Forall_forall in *. intros z Hz.
        apply (Permutation_in _ (insert_sorted_perm lt x t)) in Hz. destruct Hz as [Hz|Hz].
        * subst z. apply nlt_R; [apply Hd; left; reflexivity|exact E].
        * apply Hall. exact Hz.
  Qed.

  Lemma sort_by_sorted l : NoDup (map key l) -> StronglySorted R (sort_by lt l).
  Proof.
    induction l as [|x l IH] using rev_ind; intros Hn; [constructor|].
    unfold sort_by. rewrite rev_app_distr. cbn [rev app fold_right]. fold (sort_by lt l).
    rewrite map_app in Hn. apply NoDup_remove in Hn. rewrite app_nil_r in Hn. destruct Hn as [Hn Hx].
    apply insert_sorted_sorted; [|apply IH, Hn].
    intros y Hy E. apply Hx. rewrite E. apply in_map, (Permutation_in _ (sort_by_perm lt l) Hy).
  Qed.
End SortSorted.

(* a strict total order given by its boolean "less" *)
Definition strict {K} (lt : K -> K -> bool) : Prop :=
  (forall a, lt a a = false) /\
  (forall a b c, lt a b = true -> lt b c = true -> lt a c = true) /\
  (forall a b, lt a b = false -> lt b a = false -> a = b).

(* pairs compared the way account.Compare and assertion.CompareBalance do: the first components
   one way, then the other way, then the second components *)
Definition lexb {K1 K2} (lt1 : K1 -> K1 -> bool) (lt2 : K2 -> K2 -> bool) (x y : K1 * K2) : bool :=
  if lt1 (fst x) (fst y) then true else if lt1 (fst y) (fst x) then false else lt2 (snd x) (snd y).

Lemma lexb_strict {K1 K2} (lt1 : K1 -> K1 -> bool) (lt2 : K2 -> K2 -> bool) :
  strict lt1 -> strict lt2 -> strict (lexb lt1 lt2).
Proof.
  intros (I1 & T1 & O1) (I2 & T2 & O2). unfold lexb. split; [|split].
  - intros [a1 a2]. cbn [fst snd]. rewrite I1. apply I2.
  - intros [a1 a2] [b1 b2] [c1 c2]. cbn [fst snd]. destruct (lt1 a1 b1) eqn:A.
    + intros _. destruct (lt1 b1 c1) eqn:B; [intros _; rewrite (T1 _ _ _ A B); reflexivity|].
      destruct (lt1 c1 b1) eqn:B'; [discriminate|]. intros _. rewrite <- (O1 _ _ B B'), A. reflexivity.
    + destruct (lt1 b1 a1) eqn:A'; [discriminate|]. rewrite (O1 _ _ A A'). intros H1.
      destruct (lt1 b1 c1); [reflexivity|]. destruct (lt1 c1 b1); [discriminate|]. apply (T2 _ _ _ H1).
  - intros [a1 a2] [b1 b2]. cbn [fst snd].
    destruct (lt1 a1 b1) eqn:A; [discriminate|]. destruct (lt1 b1 a1) eqn:A'; [discriminate|].
    intros H1 H2. rewrite (O1 _ _ A A'), (O2 _ _ H1 H2). reflexivity.
Qed.

Lemma Zltb_strict : strict Z.ltb.
Proof.
  split; [exact Z.ltb_irrefl|]. split; intros a b.
  - intros c H1 H2. apply Z.ltb_lt in H1, H2. apply Z.ltb_lt. lia.
  - intros H1 H2. apply Z.ltb_ge in H1, H2. lia.
Qed.

Lemma str_ltb_strict : strict str_ltb.
Proof. split; [exact str_ltb_irrefl|]. split; [exact str_ltb_trans|exact str_ltb_total]. Qed.

(* [pos_ltb] is the lexicographic order of (account type, account name, commodity) *)
Definition bkey (b : balance) : Z * str * str := (acc_rank (bal_acc b), acc_name (bal_acc b), bal_com b).
Definition key_ltb : Z * str * str -> Z * str * str -> bool := lexb (lexb Z.ltb str_ltb) str_ltb.

Lemma pos_ltb_key x y : pos_ltb x y = key_ltb (bkey x) (bkey y).
Proof. reflexivity. Qed.

Lemma key_ltb_strict : strict key_ltb.
Proof. repeat apply lexb_strict; try exact str_ltb_strict. exact Zltb_strict. Qed.

Lemma pos_ltb_irrefl x : pos_ltb x x = false.
Proof. rewrite pos_ltb_key. apply key_ltb_strict. Qed.

Lemma pos_ltb_trans x y z : pos_ltb x y = true -> pos_ltb y z = true -> pos_ltb x z = true.
Proof. rewrite !pos_ltb_key. apply key_ltb_strict. Qed.

Lemma pos_ltb_total x y : pos_ltb x y = false -> pos_ltb y x = false -> bkey x = bkey y.
Proof. rewrite !pos_ltb_key. apply key_ltb_strict. Qed.

(* on different positions the comparison never gets to the quantities *)
Lemma bal_ltb_pos x y : bkey x <> bkey y -> bal_ltb x y = pos_ltb x y.
Proof.
  intros Hne. unfold bal_ltb, pos_ltb.
  destruct (acc_ltb (bal_acc x) (bal_acc y)) eqn:E1; [reflexivity|].
  destruct (acc_ltb (bal_acc y) (bal_acc x)) eqn:E2; [reflexivity|].
  destruct (str_ltb (bal_com x) (bal_com y)) eqn:E3; [reflexivity|].
  destruct (str_ltb (bal_com y) (bal_com x)) eqn:E4; [reflexivity|].
  exfalso. apply Hne, pos_ltb_total; unfold pos_ltb; [rewrite E1, E2; exact E3|rewrite E2, E1; exact E4].
Qed.

Lemma day_end_balances_sorted m :
  NoDup (map bkey (map entry_balance m)) ->
  StronglySorted (fun x y => pos_ltb x y = true) (day_end_balances m).
Proof.
  intros Hn. unfold day_end_balances.
  apply (sort_by_sorted bal_ltb (fun x y => pos_ltb x y = true) bkey); [exact pos_ltb_trans| | |exact Hn].
  - intros x y Hne H. rewrite (bal_ltb_pos x y Hne) in H. exact H.
  - intros x y Hne H. rewrite (bal_ltb_pos x y Hne) in H.
    destruct (pos_ltb y x) eqn:E; [reflexivity|]. destruct (Hne (pos_ltb_total x y H E)).
Qed.

Lemma positions_distinct m :
  keys_sorted m -> (forall x, In x m -> entry_ok x) -> NoDup (map bkey (map entry_balance m)).
Proof.
  intros Hs He. pose proof (keys_sorted_nodup m Hs) as Hn.
  apply (NoDup_map_inv (fun k : Z * str * str => let '(_, n, c) := k in n ++ [0] ++ c)).
  rewrite !map_map.
  replace (map (fun x => let '(_, n, c) := bkey (entry_balance x) in n ++ [0] ++ c) m) with (map fst m); [exact Hn|].
  apply map_ext_in. intros [k [[a c] q]] Hx. destruct (He _ Hx) as [Kk _]. cbn [fst snd] in Kk.
  cbn [fst entry_balance bkey bal_acc bal_com]. exact Kk.
Qed.

Lemma sorted_perm_eq {A} (R : A -> A -> Prop) :
  (forall x, ~ R x x) -> (forall x y z, R x y -> R y z -> R x z) ->
  forall l1 l2, StronglySorted R l1 -> StronglySorted R l2 -> Permutation l1 l2 -> l1 = l2.
Proof.
  intros Hirr Htr. induction l1 as [|x t1 IH]; intros l2 S1 S2 P.
  - apply Permutation_nil in P. subst l2. reflexivity.
  - destruct l2 as [|y t2]; [apply Permutation_sym, Permutation_nil in P; discriminate|].
    inversion S1 as [|x' t1' S1' H1]; subst. inversion S2 as [|y' t2' S2' H2]; subst.
    rewrite Forall_forall in H1, H2.
    assert (E : x = y).
    { assert (Hx : In x (y :: t2)) by (apply (Permutation_in _ P); left; reflexivity).
      assert (Hy : In y (x :: t1)) by (apply (Permutation_in _ (Permutation_sym P)); left; reflexivity).
      destruct Hx as [Hx|Hx]; [symmetry; exact Hx|]. destruct Hy as [Hy|Hy]; [exact Hy|].
      exfalso. apply (Hirr x). apply (Htr x y x); [apply H1; exact Hy|apply H2; exact Hx]. }
    subst y. f_equal. apply IH; [exact S1'|exact S2'|]. apply (Permutation_cons_inv P).
Qed.

(* Checker.dayEnd ranges over ch.quantities (a Go map) and sorts the balances: whatever the
   order of that range, the slice is the same *)
Theorem day_end_map_order m l :
  keys_sorted m -> (forall x, In x m -> entry_ok x) -> Permutation l m ->
  sort_by bal_ltb (map entry_balance l) = day_end_balances m.
Proof.
  intros Hs He P. pose proof (positions_distinct m Hs He) as Hn.
  assert (Hn' : NoDup (map bkey (map entry_balance l))).
  { apply (Permutation_NoDup (l := map bkey (map entry_balance m))); [|exact Hn].
    apply Permutation_map, Permutation_map, Permutation_sym. exact P. }
  assert (SS : forall k, NoDup (map bkey (map entry_balance k)) ->
               StronglySorted (fun x y => pos_ltb x y = true) (sort_by bal_ltb (map entry_balance k))).
  { intros k Hk. apply (day_end_balances_sorted k Hk). }
  apply (sorted_perm_eq (fun x y => pos_ltb x y = true)).
  - intros x H. rewrite pos_ltb_irrefl in H. discriminate.
  - exact pos_ltb_trans.
  - apply SS. exact Hn'.
  - apply (SS m Hn).
  - unfold day_end_balances.
    eapply Permutation_trans; [apply sort_by_perm|].
    eapply Permutation_trans; [|apply Permutation_sym, sort_by_perm].
    apply Permutation_map. exact P.
Qed.
