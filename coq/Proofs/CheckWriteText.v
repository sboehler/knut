(* `knut check --write`, the text: for a journal as the parser delivers it ([input_lex], C09's
   hypothesis) that the checker accepts, the printed text is read back by the model's parser
   (C09's [reparse_print_journal], applied to the days of [write_file]) as balance assertions
   only -- the collected ones with re-read quantities, equal in value -- and the journal extended
   by what was read is accepted. *)
From Coq Require Import ZArith List Bool Lia Sorting.Sorted Permutation.
From Knut Require Import Model.Str Model.Dec Model.Date Model.Account Model.Ledger Model.Price Model.Journal
     Model.Check Model.Pipeline Model.JPrinter Model.Cli Model.ToModel Model.CheckWrite
     Spec.WellformedSpec Spec.CheckWriteSpec
     Proofs.DecNormalForm Proofs.DecEqProofs Proofs.CheckLemmas Proofs.CheckProofs Proofs.BuilderProofs
     Proofs.CheckMain Proofs.CheckPerm Proofs.OrderProofs Proofs.OrderCmd Proofs.PairAccounts
     Proofs.PrintProofs Proofs.PrintRegroup Proofs.PrintRequant Proofs.PrintNormal Proofs.PrintLex Proofs.PrintLexInput
     Proofs.PrintText
     Proofs.CheckWriteBase Proofs.CheckWriteComplete Proofs.CheckWriteAccepted.
Import ListNotations.
Open Scope bool_scope.
Open Scope Z_scope.

Definition rq_w (w : wassertion) : wassertion := (fst w, map rq_balance (snd w)).

Lemma asserted_rq W dt a c q' :
  asserted (map rq_w W) dt a c q' -> exists q, asserted W dt a c q /\ q' = reread q.
Proof.
  intros (bs' & Hin & Hb). apply in_map_iff in Hin. destruct Hin as [[dt0 bs] [E Hw]].
  unfold rq_w in E. cbn [fst snd] in E. inversion E. subst dt0 bs'.
  apply in_map_iff in Hb. destruct Hb as [b [Eb Hb]]. unfold rq_balance in Eb. inversion Eb. subst a c q'.
  exists (bal_qty b). split; [|reflexivity]. exists bs. split; [exact Hw|]. destruct b. exact Hb.
Qed.

Lemma reread_equal x q : dec_equal x q = true -> dec_equal x (reread q) = true.
Proof.
  intros H. apply (deqv_trans x q (reread q) H). apply deqv_sym. apply deqv_of_eqv. apply reread_eqv.
Qed.

Lemma rq_directives W :
  map rq_sdir (map sdir_of_dir (written_directives W)) = map assertion_sdirective (map rq_w W).
Proof. unfold written_directives. rewrite !map_map. apply map_ext. intros [dt bs]. reflexivity. Qed.

Lemma paired2_lex ps :
  paired2 ps -> Forall posting_lex (odd_postings ps) ->
  forall p, In p ps -> acc_lex (p_acc p) /\ com_lex (p_com p).
Proof.
  induction 1 as [|p1 p2 rest (Hc & _ & _ & Ha & _) Hr IH]; intros HF p Hp; [destruct Hp|].
  cbn [odd_postings] in HF. inversion HF as [|x l (L1 & L2 & L3) HF']; subst.
  destruct Hp as [Hp|[Hp|Hp]].
  - subst p. rewrite Ha, Hc. split; assumption.
  - subst p. split; assumption.
  - apply IH; assumption.
Qed.

Lemma mdir_lex_date d : mdir_lex d -> PrintSem.date_printable (ddate d).
Proof. destruct d; cbn [mdir_lex ddate]; tauto. Qed.

Lemma written_lex ds W :
  syntactic ds -> Forall mdir_lex ds -> Forall directive2_ok ds -> written ds = ROk W ->
  Forall mdir_lex (written_directives W).
Proof.
  intros Hs HL HP Hw. destruct (write_complete_partial ds W Hs Hw) as (_ & Hdays & Hsound & _).
  rewrite Forall_forall in HL, HP.
  apply Forall_forall. intros d Hd. apply in_map_iff in Hd. destruct Hd as [[dt bs] [E Hin]]. subst d.
  cbn [assertion_directive fst snd mdir_lex]. split; [|split].
  - destruct (Hdays dt bs Hin) as [Hdt _]. apply dates_in in Hdt. apply in_map_iff in Hdt.
    destruct Hdt as [d [Ed Hd]]. rewrite <- Ed. apply mdir_lex_date. apply HL. exact Hd.
  - apply (Hdays dt bs Hin).
  - apply Forall_forall. intros b Hb.
    assert (Ha : asserted W dt (bal_acc b) (bal_com b) (bal_qty b)) by (exists bs; split; [exact Hin|destruct b; exact Hb]).
    destruct (Hsound _ _ _ _ Ha) as (_ & L & _).
    destruct (live_posted _ _ _ L) as [x Hx].
    destruct (events_in ds _ (events_upto_incl ds dt _ Hx)) as [d [Hd He]].
    pose proof (events_of_kind d _ He) as K. destruct d as [| | | |t]; try discriminate K.
    cbn [events_of] in He. apply in_map_iff in He. destruct He as [p [Ep Hp]]. inversion Ep.
    pose proof (HL _ Hd) as Lt. pose proof (HP _ Hd) as Pt. cbn [mdir_lex directive2_ok] in Lt, Pt.
    destruct Lt as (_ & _ & _ & Lp & _).
    destruct (paired2_lex _ Pt Lp p Hp) as [A C]. split; assumption.
Qed.

Lemma assertions_only_all l :
  (forall s, In s l -> exists dt bs, s = SAssert dt bs) -> exists W', assertions_only l = Some W'.
Proof.
  induction l as [|s l IH]; intros H; [exists []; reflexivity|].
  destruct (H s (or_introl eq_refl)) as (dt & bs & E). subst s.
  destruct (IH (fun x Hx => H x (or_intror Hx))) as [W' E]. cbn [assertions_only]. rewrite E. eexists. reflexivity.
Qed.

Theorem check_write_text_accepted sds :
  input_lex sds -> check_cmd_fixed sds = COk tt ->
  exists W text ss W', check_write_assertions sds = COk W /\ check_write_cmd sds = COk text /\
    ToModelM.reparse text = MOk ss /\ assertions_only ss = Some W' /\
    Permutation ss (map assertion_sdirective (map rq_w W)) /\
    check_cmd_fixed (sds ++ ss) = COk tt.
Proof.
  intros HL Hok. destruct (input_lex_ok sds HL) as [Hs HLd].
  destruct (check_write_succeeds sds Hok) as [W [HW Hcmd]].
  destruct (check_write_assertions_written sds W HW) as [ds [P Hw]].
  destruct (accepted_model sds ds Hs P Hok) as (Hsyn & Wf & Hm).
  pose proof (written_lex ds W Hsyn (HLd ds P) (parse_directives_ok sds ds P) Hw) as Hlex.
  set (D := b_days (builder_of (written_directives W))).
  pose proof (printed_model_dirs_perm (written_directives W)) as Pp. fold D in Pp.
  assert (Hre : ToModelM.reparse (write_file W) = MOk (reparsed_dirs D)).
  { apply reparse_print_journal. eapply Permutation_Forall; [apply Permutation_sym; exact Pp|exact Hlex]. }
  assert (Pss : Permutation (reparsed_dirs D) (map assertion_sdirective (map rq_w W))).
  { rewrite <- rq_directives. unfold reparsed_dirs, printed_dirs. apply Permutation_map, Permutation_map. exact Pp. }
  exists W, (write_file W), (reparsed_dirs D).
  destruct (assertions_only_all (reparsed_dirs D)) as [W' HW'].
  { intros s Hs'. apply (Permutation_in _ Pss) in Hs'. apply in_map_iff in Hs'. destruct Hs' as [[dt bs] [E _]].
    exists dt, bs. symmetry. exact E. }
  exists W'. split; [exact HW|]. split; [exact Hcmd|]. split; [exact Hre|]. split; [exact HW'|]. split; [exact Pss|].
  (* the collected assertions with re-read quantities are accepted *)
  destruct (write_complete_partial ds W Hsyn Hw) as (_ & Hdays & Hsound & _).
  destruct (assertions_accepted ds (map rq_w W) Hsyn Wf) as [Hsyn2 Hacc].
  { intros dt bs Hin. apply in_map_iff in Hin. destruct Hin as [[dt0 bs0] [E Hin]]. unfold rq_w in E. cbn [fst snd] in E.
    inversion E. subst dt0. apply (Hdays dt bs0 Hin). }
  { intros dt a c q' Ha. destruct (asserted_rq W dt a c q' Ha) as [q [Hq E]]. subst q'.
    destruct (Hsound dt a c q Hq) as (O & L & Q). split; [exact O|]. split; [exact L|]. apply reread_equal. exact Q. }
  destruct (accepted_cmd sds ds (map rq_w W) P Hsyn2 Hacc) as [Hs3 Hc].
  (* ... and so is any permutation of the extended list *)
  pose proof (check_cmd_fixed_perm _ (sds ++ reparsed_dirs D)
                (Permutation_app_head sds (Permutation_sym Pss)) Hs3) as Ceq.
  apply (ceq_eq_ok _ _ tt Ceq). exact Hc.
Qed.
