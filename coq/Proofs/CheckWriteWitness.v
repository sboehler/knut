(* The example journals of Properties/C04w.v. *)
From Coq Require Import ZArith List Bool.
From Knut Require Import Model.Str Model.Dec Model.Account Model.Ledger Model.Journal Model.Check Model.Cli
     Spec.WellformedSpec
     Proofs.CheckMain Proofs.OrderCmd Proofs.PrintSem Proofs.PrintLex Proofs.PrintLexInput.
Import ListNotations.
Open Scope Z_scope.

Definition x_usd : commodity := [85; 83; 68].
Definition x_five : dec := mkDec 500 (-2).

(* 2020-01-02 open Assets:A, Assets:B, Income:I
   2020-01-03 "" Income:I Assets:A 5.00 CHF / Income:I Assets:A 2 USD
   2020-01-04 price USD 1.1 CHF
   2020-01-05 "" Assets:A Assets:B 5.00 CHF
   2020-01-06 "" Assets:B Assets:A 5.00 CHF ; close Assets:B *)
Definition x_sds : list sdirective :=
  [ SOpen (w_d 0) w_assets_a; SOpen (w_d 0) w_assets_b; SOpen (w_d 0) w_income_i;
    STxn (mkStxn (w_d 1) [] [mkBooking w_income_i w_assets_a x_five w_chf;
                             mkBooking w_income_i w_assets_a (mkDec 2 0) x_usd] None None);
    SPrice (w_d 2) x_usd (mkDec 11 (-1)) w_chf;
    STxn (mkStxn (w_d 3) [] [mkBooking w_assets_a w_assets_b x_five w_chf] None None);
    STxn (mkStxn (w_d 4) [] [mkBooking w_assets_b w_assets_a x_five w_chf] None None);
    SClose (w_d 4) w_assets_b ].

Definition x_sds_permuted : list sdirective := rev x_sds.

(* "2020-01-03 balance\nAssets:A 5 CHF\nAssets:A 2 USD\n\n2020-01-04 balance\nAssets:A 5 CHF\nAssets:A 2 USD\n\n
    2020-01-05 balance\nAssets:A 0 CHF\nAssets:A 2 USD\nAssets:B 5 CHF\n\n2020-01-06 balance\nAssets:A 5 CHF\nAssets:A 2 USD\n\n" *)
Definition x_text : str :=
  [50; 48; 50; 48; 45; 48; 49; 45; 48; 51; 32; 98; 97; 108; 97; 110;
   99; 101; 10; 65; 115; 115; 101; 116; 115; 58; 65; 32; 53; 32; 67;
   72; 70; 10; 65; 115; 115; 101; 116; 115; 58; 65; 32; 50; 32; 85;
   83; 68; 10; 10; 50; 48; 50; 48; 45; 48; 49; 45; 48; 52; 32; 98; 97;
   108; 97; 110; 99; 101; 10; 65; 115; 115; 101; 116; 115; 58; 65; 32;
   53; 32; 67; 72; 70; 10; 65; 115; 115; 101; 116; 115; 58; 65; 32;
   50; 32; 85; 83; 68; 10; 10; 50; 48; 50; 48; 45; 48; 49; 45; 48; 53;
   32; 98; 97; 108; 97; 110; 99; 101; 10; 65; 115; 115; 101; 116; 115;
   58; 65; 32; 48; 32; 67; 72; 70; 10; 65; 115; 115; 101; 116; 115;
   58; 65; 32; 50; 32; 85; 83; 68; 10; 65; 115; 115; 101; 116; 115;
   58; 66; 32; 53; 32; 67; 72; 70; 10; 10; 50; 48; 50; 48; 45; 48; 49;
   45; 48; 54; 32; 98; 97; 108; 97; 110; 99; 101; 10; 65; 115; 115;
   101; 116; 115; 58; 65; 32; 53; 32; 67; 72; 70; 10; 65; 115; 115;
   101; 116; 115; 58; 65; 32; 50; 32; 85; 83; 68; 10; 10].

(* Assets:B is closed while it holds 5.00 CHF *)
Definition x_bad : list sdirective :=
  [ SOpen (w_d 0) w_assets_a; SOpen (w_d 0) w_assets_b;
    STxn (mkStxn (w_d 1) [] [mkBooking w_assets_a w_assets_b x_five w_chf] None None);
    SClose (w_d 2) w_assets_b ].

Definition sd_syntactic_b (sds : list sdirective) : bool :=
  match parse_directives sds with MOk ds => syntactic_b ds | _ => true end.

Lemma sd_syntactic_b_spec sds : sd_syntactic_b sds = true -> sd_syntactic sds.
Proof.
  unfold sd_syntactic_b, sd_syntactic. intros H ds E. rewrite E in H. apply syntactic_b_spec. exact H.
Qed.

(* the example journal is what the parser delivers (C09's hypothesis, for C04_write_text_accepted) *)
Lemma x_accounts_lex : acc_lex0 w_assets_a /\ acc_lex0 w_assets_b /\ acc_lex0 w_income_i.
Proof. unfold w_assets_a, w_assets_b, w_income_i, s_Assets, s_Income. split; [acc0_tac|split; acc0_tac]. Qed.

Lemma x_commodities_lex : com_lex w_chf /\ com_lex x_usd.
Proof. unfold w_chf, x_usd. split; seg_tac. Qed.

Lemma x_sds_input_lex : input_lex x_sds.
Proof.
  destruct x_accounts_lex as (A & B & Inc). destruct x_commodities_lex as (Chf & Usd).
  unfold input_lex, x_sds.
  repeat (apply Forall_cons); try apply Forall_nil;
    cbn [sdir_lex st_date st_desc st_bookings st_targets st_accrual].
  - split; [date_tac|exact A].
  - split; [date_tac|exact B].
  - split; [date_tac|exact Inc].
  - split; [date_tac|]. split; [ascii_cls|]. split; [discriminate|].
    split; [|split; exact I]. apply Forall_cons; [exact (conj Inc (conj A Chf))|apply Forall_cons; [exact (conj Inc (conj A Usd))|apply Forall_nil]].
  - split; [date_tac|]. split; assumption.
  - split; [date_tac|]. split; [ascii_cls|]. split; [discriminate|].
    split; [|split; exact I]. apply Forall_cons; [exact (conj A (conj B Chf))|apply Forall_nil].
  - split; [date_tac|]. split; [ascii_cls|]. split; [discriminate|].
    split; [|split; exact I]. apply Forall_cons; [exact (conj B (conj A Chf))|apply Forall_nil].
  - split; [date_tac|exact B].
Qed.
