(* C11: Period.Clip is the intersection of two periods *)
From Coq Require Import ZArith List Bool Lia.
From Knut Require Import Model.Date Spec.DateSpec.
Open Scope Z_scope.

Lemma clip_max_min w j :
  clip w j = mkPeriod (Z.max (p_start w) (p_start j)) (Z.min (p_end w) (p_end j)).
Proof.
  unfold clip. f_equal.
  - destruct (Z.ltb_spec (p_start w) (p_start j)); lia.
  - destruct (Z.ltb_spec (p_end j) (p_end w)); lia.
Qed.

Lemma period_contains_iff p d : period_contains p d = true <-> p_start p <= d <= p_end p.
Proof. unfold period_contains. rewrite andb_true_iff, !negb_true_iff, !Z.ltb_ge. tauto. Qed.
