(* C02 with --close: the stateful CloseAccounts processor (Model/Pipeline.v close_proc, Go:
   lib/journal/process.go CloseAccounts) equals the closed form Spec.LedgerSpec.closing_entries.

   In order: sums over the position map (c_qty) and one step of pos_add; the close stage on one
   day, where the closing transactions undo the accumulated quantities (close_day); dates: the
   next closing day of a posting is the start of the first period that begins after it (days
   sorted, one day per period start), and close_stage_spec: after the stage the postings are
   those before it and, for every period start, the closing transactions of a state that holds
   what the postings owe to that day; the closed form of the specification per posting; the
   assembly, report_cells (the statement of Properties/C02.v C02_cells); that the hypothesis
   postings_syntactic is needed (an account segment holding a NUL byte: cells_unsyntactic_refuted)
   and that parsed journals meet it (syntactic_postings). *)
From Coq Require Import ZArith QArith List Bool Lia Permutation Sorting.Sorted.
From Knut Require Import Proofs.SMapProofs Proofs.ListFacts Model.Str Model.Dec Model.Date Model.Account Model.Ledger Model.Price
     Model.Journal Model.Check Model.Pipeline Model.Table Model.Report Model.Cli
     Spec.DateSpec Spec.WellformedSpec Spec.LedgerSpec Spec.LedgerSyntax
     Proofs.DecProofs Proofs.DecValue Proofs.JournalFacts Proofs.PairProofs Proofs.ReportSum Proofs.Conservation
     Proofs.DateProofs Proofs.CheckLemmas Proofs.BeancountProofs Proofs.LedgerProofs.
Import ListNotations.
Open Scope Q_scope.


Definition pentry := (str * (account * commodity * dec))%type.

(* an entry of c_qty: keyed by its own account and commodity; the account is one the parser
   produces and one that CloseAccounts books (not A/L, not Equity:Equity) *)
Definition entry_ok_closable (x : pentry) : Prop :=
  fst x = pos_key (fst (fst (snd x))) (snd (fst (snd x)))
  /\ account_ok (fst (fst (snd x))) = true
  /\ closable (fst (fst (snd x))) = true.

Definition map_ok (m : positions) : Prop := keys_sorted m /\ Forall entry_ok_closable m.

(* sum over the entries of g(account, commodity) * quantity *)
Definition msum (g : account -> commodity -> Q) (m : positions) : Q :=
  qsum (fun x : pentry => g (fst (fst (snd x))) (snd (fst (snd x))) * dvalue (snd (snd x))) m.

Lemma msum_cons g x m :
  msum g (x :: m) == g (fst (fst (snd x))) (snd (fst (snd x))) * dvalue (snd (snd x)) + msum g m.
Proof. reflexivity. Qed.

Lemma map_ok_nil : map_ok [].
Proof. split; constructor. Qed.

Lemma sm_get_below (m : positions) k' v' K :
  keys_sorted ((k', v') :: m) -> str_cmp K k' = Lt -> sm_get m K = None.
Proof.
  intros Hs Hlt. destruct (sm_get m K) as [v|] eqn:E; [|reflexivity]. exfalso.
  apply sm_get_in in E. inversion Hs as [|x l _ Hall]; subst.
  rewrite Forall_forall in Hall. specialize (Hall _ E). unfold key_lt in Hall. cbn [fst] in Hall.
  exact (str_cmp_lt_irrefl _ (str_cmp_lt_trans _ _ _ Hlt Hall)).
Qed.

Lemma msum_put g K a c x : K = pos_key a c -> account_ok a = true -> forall m,
  map_ok m ->
  msum g (sm_put m K (a, c, add (match sm_get m K with Some (_, _, q) => q | None => dec_nil end) x))
  == msum g m + g a c * dvalue x.
Proof.
  intros HK Ha. induction m as [|[k' [[a' c'] q']] m IH]; intros [Hs Hok].
  - cbn [sm_put sm_get]. rewrite msum_cons. cbn [fst snd]. unfold msum, qsum. cbn [fold_right].
    rewrite dvalue_add, dvalue_nil. ring.
  - inversion Hok as [|? ? Hx Hrest]; subst. inversion Hs as [|? ? Hs' Hall]; subst.
    cbn [sm_put sm_get]. unfold str_eqb. destruct (str_cmp (pos_key a c) k') eqn:E.
    + apply str_cmp_eq in E. subst k'. rewrite !msum_cons. cbn [fst snd].
      destruct Hx as (Hk & Ha' & _). cbn [fst snd] in Hk, Ha'.
      destruct (pos_key_inj _ _ _ _ Ha Ha' Hk) as [-> ->].
      rewrite dvalue_add. ring.
    + rewrite (sm_get_below m k' (a', c', q') (pos_key a c) Hs E).
      rewrite !msum_cons. cbn [fst snd]. rewrite dvalue_add, dvalue_nil. ring.
    + rewrite msum_cons. rewrite IH by (split; assumption). rewrite msum_cons. ring.
Qed.

Lemma msum_pos_add g m a c x :
  map_ok m -> account_ok a = true -> msum g (pos_add m a c x) == msum g m + g a c * dvalue x.
Proof.
  intros Hm Ha. unfold pos_add, pos_get. rewrite <- (msum_put g (pos_key a c) a c x eq_refl Ha m Hm).
  destruct (sm_get m (pos_key a c)) as [[[a0 c0] q0]|]; reflexivity.
Qed.

Lemma pos_add_map_ok m a c x :
  map_ok m -> account_ok a = true -> closable a = true -> map_ok (pos_add m a c x).
Proof.
  intros [Hs Hok] Ha Hc. split; [apply sm_put_sorted; exact Hs|].
  rewrite Forall_forall in *. intros y Hy. apply sm_put_in in Hy. destruct Hy as [->|Hy]; [|apply Hok; exact Hy].
  unfold entry_ok_closable. cbn [fst snd]. repeat split; assumption.
Qed.


Definition closable_dp (dp : Z * posting) : bool := closable (p_acc (snd dp)).

(* sum over the dated postings CloseAccounts books of g(account, commodity) * quantity *)
Definition psum_closable (g : account -> commodity -> Q) (l : list (Z * posting)) : Q :=
  qsum (fun dp => if closable_dp dp then g (p_acc (snd dp)) (p_com (snd dp)) * dvalue (p_qty (snd dp)) else 0) l.

Definition posts_ok (l : list (Z * posting)) : Prop := forall dp, In dp l -> account_ok (p_acc (snd dp)) = true.

Lemma psum_closable_app g l1 l2 : psum_closable g (l1 ++ l2) == psum_closable g l1 + psum_closable g l2.
Proof. apply qsum_app. Qed.

Lemma psum_closable_nil g : psum_closable g [] == 0.
Proof. reflexivity. Qed.

Lemma posts_ok_app l1 l2 : posts_ok (l1 ++ l2) <-> posts_ok l1 /\ posts_ok l2.
Proof.
  unfold posts_ok. split.
  - intros H. split; intros dp Hin; apply H; apply in_or_app; [left|right]; exact Hin.
  - intros [H1 H2] dp Hin. apply in_app_or in Hin. destruct Hin; auto.
Qed.

Lemma closable_neg a : is_AL a || acc_eqb a equity_account = negb (closable a).
Proof. unfold closable, equity_account. destruct (is_AL a), (acc_eqb a [s_Equity; s_Equity]); reflexivity. Qed.

Lemma close_txns cds ts s s' ts' :
  map_ok (c_qty s) -> posts_ok (txns_postings ts) ->
  fold_txns (close_proc cds) s ts = ROk (s', ts') ->
  ts' = ts /\ map_ok (c_qty s') /\
  forall g, msum g (c_qty s') == msum g (c_qty s) + psum_closable g (txns_postings ts).
Proof.
  intros Hm Hok H.
  set (I := fun done s1 => posts_ok done ->
              map_ok (c_qty s1) /\ forall g, msum g (c_qty s1) == msum g (c_qty s) + psum_closable g done).
  assert (Hstep : forall done s1 t p s2 p', I done s1 -> close_posting s1 t p = ROk (s2, p') ->
                    p' = p /\ I (done ++ [(t_date t, p)]) s2).
  { intros done s1 t p s2 p' HI E. unfold close_posting in E. rewrite closable_neg in E.
    assert (Hone : forall g, psum_closable g [(t_date t, p)] == if closable (p_acc p) then g (p_acc p) (p_com p) * dvalue (p_qty p) else 0).
    { intros g. unfold psum_closable, qsum, closable_dp. cbn [fold_right snd]. ring. }
    destruct (closable (p_acc p)) eqn:Ec; cbn [negb] in E; injection E as <- <-; (split; [reflexivity|]);
      intros Hok'; apply posts_ok_app in Hok'; destruct Hok' as [Hd Hp]; destruct (HI Hd) as [Hm1 Hs1]; cbn [c_qty].
    - assert (Ha : account_ok (p_acc p) = true) by (apply (Hp (t_date t, p)); left; reflexivity).
      split; [apply pos_add_map_ok; assumption|].
      intros g. rewrite (msum_pos_add g _ _ (p_com p) (p_qty p) Hm1 Ha), Hs1, psum_closable_app, Hone. ring.
    - split; [exact Hm1|]. intros g. rewrite Hs1, psum_closable_app, Hone. ring. }
  assert (H0 : I [] s) by (intros _; split; [exact Hm|]; intros g; rewrite psum_closable_nil; ring).
  destruct (fold_txns_trace (close_proc cds) close_posting eq_refl eq_refl I Hstep ts [] s s' ts' H0 H) as [-> HI].
  split; [reflexivity|exact (HI Hok)].
Qed.

Lemma closable_equity : closable equity_account = false.
Proof. reflexivity. Qed.

(* the postings of the closing transactions undo the accumulated quantities *)
Lemma closing_txns_psum g date vs : forall m, Forall entry_ok_closable m ->
  psum_closable g (txns_postings (closing_txns date m vs)) == - msum g m
  /\ posts_ok (txns_postings (closing_txns date m vs)).
Proof.
  induction m as [|[k0 [[a c] qy]] m IH]; intros Hok; cbn [closing_txns].
  - split; [unfold txns_postings; cbn [map concat]; rewrite psum_closable_nil; unfold msum, qsum; cbn [fold_right]; ring|intros dp []].
  - inversion Hok as [|? ? Hx Hrest]; subst. destruct (IH Hrest) as [IH1 IH2].
    destruct Hx as (_ & Ha & Hc). cbn [fst snd] in Ha, Hc.
    rewrite msum_cons. cbn [fst snd].
    destruct (is_zero qy && is_zero (match pos_get vs a c with Some x => x | None => dec_nil end)) eqn:Ez.
    + apply andb_true_iff in Ez. destruct Ez as [Ez _]. apply is_zero_value in Ez.
      split; [rewrite IH1, Ez; ring|exact IH2].
    + unfold txns_postings in *. cbn [map concat t_date t_postings]. split.
      * rewrite psum_closable_app, IH1. unfold pair_build.
        destruct (is_neg qy || is_zero qy && is_neg _); cbn [map]; unfold psum_closable, qsum, closable_dp;
          cbn [fold_right snd p_acc p_com p_qty]; rewrite Hc, closable_equity, ?dvalue_neg; ring.
      * apply posts_ok_app. split; [|exact IH2]. unfold pair_build.
        destruct (is_neg qy || is_zero qy && is_neg _); cbn [map]; intros dp [<-|[<-|[]]]; cbn [snd p_acc];
          try exact Ha; exact account_ok_equity.
Qed.

Definition firstclose (cds : list Z) (ds : list day) : option Z :=
  find (fun x => existsb (Z.eqb x) cds) (dates ds).

Lemma close_day cds s d s' d' :
  map_ok (c_qty s) -> posts_ok (day_postings d) ->
  process_day (close_proc cds) s d = ROk (s', d') ->
  d' = (if existsb (Z.eqb (d_date d)) cds
        then set_txns d (d_txns d ++ closing_txns (d_date d) (c_qty s) (c_val s)) else d)
  /\ map_ok (c_qty s')
  /\ forall g, msum g (c_qty s') == (if existsb (Z.eqb (d_date d)) cds then 0 else msum g (c_qty s)) + psum_closable g (day_postings d).
Proof.
  intros Hm Hok H.
  destruct (process_day_ok _ _ _ _ _ H) as (s1 & d1 & s2 & s3 & s4 & ts & s5 & s6 & E1 & E2 & E3 & E4 & E5 & E6 & E7).
  rewrite (fold_asserts_none (close_proc cds) _ _ eq_refl) in E5.
  injection E2 as <-. injection E3 as <-. injection E5 as <-. injection E6 as <-. injection E7 as <- <-.
  cbn [close_proc pr_day_start cb_day] in E1. unfold close_day_start in E1.
  destruct (existsb (Z.eqb (d_date d)) cds); injection E1 as <- <-.
  - cbn [set_txns d_txns d_date d_prices d_opens d_asserts d_closes d_normalized] in *.
    destruct (closing_txns_psum (fun _ _ => 0) (d_date d) (c_val s) (c_qty s) (proj2 Hm)) as [_ Hcok].
    assert (Hall : posts_ok (txns_postings (d_txns d ++ closing_txns (d_date d) (c_qty s) (c_val s)))).
    { rewrite txns_postings_app. apply posts_ok_app. split; assumption. }
    destruct (close_txns cds _ _ _ _ Hm Hall E4) as (-> & Hm1 & Hs1).
    split; [reflexivity|split; [assumption|]]. intros g.
    rewrite Hs1, txns_postings_app, psum_closable_app.
    rewrite (proj1 (closing_txns_psum g (d_date d) (c_val s) (c_qty s) (proj2 Hm))).
    rewrite day_postings_txns. ring.
  - destruct (close_txns cds _ _ _ _ Hm Hok E4) as (-> & Hm1 & Hs1).
    split; [apply day_rebuild|split; [assumption|]]. intros g. rewrite Hs1. reflexivity.
Qed.

(* the postings of the closing transactions of the days S, booked from the states they found *)
Definition closings (cl : list (Z * close_state)) : list (Z * posting) :=
  flat_map (fun Ss => txns_postings (closing_txns (fst Ss) (c_qty (snd Ss)) (c_val (snd Ss)))) cl.

Section CloseFold.
  Variable q : query.
  Variable row : account.
  Variable k : rkey.
  Hypothesis unvalued : q_valued q = false.

  (* a quantity x carried from (a, c) to Equity:Equity on day S shows up as G S a c * x *)
  Definition G (cd : Z) (a : account) (c : commodity) : Q :=
    q_ind q row k cd equity_account c - q_ind q row k cd a c.

  Lemma closing_txns_total date vs : forall m,
    qsum (q_contrib q row k) (txns_postings (closing_txns date m vs)) == msum (G date) m.
  Proof.
    induction m as [|[k0 [[a c] qy]] m IH]; cbn [closing_txns].
    - reflexivity.
    - rewrite msum_cons. cbn [fst snd].
      destruct (is_zero qy && is_zero (match pos_get vs a c with Some x => x | None => dec_nil end)) eqn:Ez.
      + apply andb_true_iff in Ez. destruct Ez as [Ez _]. apply is_zero_value in Ez. rewrite IH, Ez. ring.
      + unfold txns_postings in *. cbn [map concat t_date t_postings]. rewrite qsum_app, IH.
        unfold pair_build, G.
        destruct (is_neg qy || is_zero qy && is_neg _); cbn [map]; unfold qsum; cbn [fold_right];
          rewrite !q_contrib_ind, unvalued; cbn [p_acc p_com p_qty]; rewrite ?dvalue_neg; ring.
  Qed.

  Lemma closings_total cl :
    qsum (q_contrib q row k) (closings cl) == qsum (fun Ss => msum (G (fst Ss)) (c_qty (snd Ss))) cl.
  Proof.
    unfold closings. induction cl as [|Ss cl IH]; cbn [flat_map]; [reflexivity|].
    rewrite qsum_app, closing_txns_total, IH. reflexivity.
  Qed.
End CloseFold.


Lemma find_sorted_first (f : Z -> bool) l x :
  StronglySorted Z.lt l -> In x l -> f x = true -> (forall y, In y l -> (y < x)%Z -> f y = false) ->
  find f l = Some x.
Proof.
  induction l as [|y l IH]; intros Hs Hin Hfx Hlow; [destruct Hin|].
  inversion Hs as [|? ? Hs' Hall]; subst. cbn [find].
  destruct Hin as [->|Hin]; [rewrite Hfx; reflexivity|].
  rewrite Forall_forall in Hall.
  rewrite (Hlow y (or_introl eq_refl) (Hall _ Hin)).
  apply IH; try assumption. intros z Hz. apply Hlow. right. exact Hz.
Qed.

Lemma existsb_eqb_false (y : Z) l : ~ In y l -> existsb (Z.eqb y) l = false.
Proof.
  intros H. destruct (existsb (Z.eqb y) l) eqn:E; [|reflexivity]. exfalso.
  apply existsb_exists in E. destruct E as (x & Hx & Hyx). apply Z.eqb_eq in Hyx. subst. contradiction.
Qed.

(* in a sorted list of days that has a day for every period start above lo, the first closing
   day is the first period start above lo *)
Lemma firstclose_nxt : forall starts, StronglySorted Z.lt starts -> forall lo l,
  StronglySorted Z.lt l -> (forall x, In x l -> (lo < x)%Z) ->
  (forall s, In s starts -> (lo < s)%Z -> In s l) ->
  find (fun x => existsb (Z.eqb x) starts) l = find (fun s => (lo <? s)%Z) starts.
Proof.
  induction starts as [|s rest IH]; intros Hss lo l Hsl Hlo Hcov.
  - cbn [find]. apply find_none_all. intros; reflexivity.
  - inversion Hss as [|? ? Hss' Hall]; subst. rewrite Forall_forall in Hall. cbn [find].
    destruct (lo <? s)%Z eqn:E.
    + apply Z.ltb_lt in E. apply find_sorted_first; try assumption.
      * apply Hcov; [left; reflexivity|exact E].
      * cbn [existsb]. rewrite Z.eqb_refl. reflexivity.
      * intros y Hy Hlt. cbn [existsb]. replace (y =? s)%Z with false by lia. cbn [orb].
        apply existsb_eqb_false. intros Hin. specialize (Hall _ Hin). lia.
    + apply Z.ltb_ge in E. rewrite <- (IH Hss' lo l Hsl Hlo).
      * apply find_ext_in. intros x Hx. cbn [existsb]. specialize (Hlo _ Hx). replace (x =? s)%Z with false by lia. reflexivity.
      * intros s' Hs' Hlt. apply Hcov; [right; exact Hs'|exact Hlt].
Qed.

Definition nxt (starts : list Z) (d : Z) : option Z := find (fun s => (d <? s)%Z) starts.

Lemma days_postings_date ds dp : days_dated ds -> In dp (days_postings ds) -> In (fst dp) (dates ds).
Proof.
  intros Hd. unfold days_postings, dates. induction Hd as [|d ds Hx _ IH]; cbn [map concat]; [intros []|].
  intros Hin. apply in_app_or in Hin. destruct Hin as [Hin|Hin]; [left; symmetry; eapply day_postings_date; eauto|right; auto].
Qed.

Lemma oz_eqb_refl o : oz_eqb o o = true.
Proof. apply oz_eqb_eq. reflexivity. Qed.

Section CloseStage.
  Variable starts : list Z.
  Hypothesis starts_sorted : StronglySorted Z.lt starts.

  Lemma nxt_gt d s : nxt starts d = Some s -> (d < s)%Z /\ In s starts.
  Proof. unfold nxt. intros H. apply find_some in H. destruct H as [H1 H2]. split; [lia|exact H1]. Qed.

  Lemma nxt_le : forall S d, In S starts -> (d < S)%Z -> exists s', nxt starts d = Some s' /\ (s' <= S)%Z.
  Proof.
    unfold nxt. induction starts_sorted as [|s0 rest Hs IH Hall]; intros S d Hin Hlt; [destruct Hin|].
    cbn [find]. rewrite Forall_forall in Hall. destruct (d <? s0)%Z eqn:E.
    - exists s0. split; [reflexivity|]. destruct Hin as [->|Hin]; [lia|]. specialize (Hall _ Hin). lia.
    - destruct Hin as [->|Hin]; [lia|]. apply IH; assumption.
  Qed.

  (* what the closable postings of l owe to the closing day o *)
  Definition owed (o : option Z) (g : account -> commodity -> Q) (l : list (Z * posting)) : Q :=
    qsum (fun dp => if closable_dp dp && oz_eqb (nxt starts (fst dp)) o
                    then g (p_acc (snd dp)) (p_com (snd dp)) * dvalue (p_qty (snd dp)) else 0) l.

  Lemma owed_app o g l1 l2 : owed o g (l1 ++ l2) == owed o g l1 + owed o g l2.
  Proof. apply qsum_app. Qed.

  Lemma owed_later S g l : (forall dp, In dp l -> (S <= fst dp)%Z) -> owed (Some S) g l == 0.
  Proof.
    intros H. apply qsum_zero. intros dp Hin. destruct (closable_dp dp); [|reflexivity]. cbn [andb].
    destruct (oz_eqb (nxt starts (fst dp)) (Some S)) eqn:E; [|reflexivity].
    apply oz_eqb_eq in E. apply nxt_gt in E. specialize (H _ Hin). lia.
  Qed.

  Lemma owed_own cur g l : (forall dp, In dp l -> fst dp = cur) -> owed (nxt starts cur) g l == psum_closable g l.
  Proof.
    intros H. apply qsum_ext. intros dp Hin. rewrite (H _ Hin), oz_eqb_refl, andb_true_r. reflexivity.
  Qed.

  Lemma owed_before cur g l : In cur starts -> (forall dp, In dp l -> (fst dp < cur)%Z) -> owed (nxt starts cur) g l == 0.
  Proof.
    intros Hc H. apply qsum_zero. intros dp Hin. destruct (closable_dp dp); [|reflexivity]. cbn [andb].
    destruct (oz_eqb (nxt starts (fst dp)) (nxt starts cur)) eqn:E; [|reflexivity]. exfalso.
    apply oz_eqb_eq in E. destruct (nxt_le cur (fst dp) Hc (H _ Hin)) as (s' & Hs' & Hle).
    rewrite Hs' in E. symmetry in E. apply nxt_gt in E. lia.
  Qed.

  (* an invariant [J] of the state that the close stage keeps on the days [Dgood] *)
  Variable J : close_state -> Prop.
  Variable Dgood : day -> Prop.
  Hypothesis J_day : forall s d s' d', J s -> Dgood d -> process_day (close_proc starts) s d = ROk (s', d') -> J s'.

  (* The close stage adds, on every day S that is a period start, the closing transactions of
     the state it has then; that state holds what the postings seen so far owe to S.
     [done]: the postings booked before [ds], all of them up to [lo]. *)
  Theorem close_stage_spec : forall ds done lo s s' ds',
    StronglySorted Z.lt (dates ds) -> days_dated ds ->
    (forall dp, In dp done -> (fst dp <= lo)%Z) -> (forall x, In x (dates ds) -> (lo < x)%Z) ->
    (forall s0, In s0 starts -> (lo < s0)%Z -> In s0 (dates ds)) ->
    map_ok (c_qty s) -> J s -> Forall Dgood ds -> posts_ok (days_postings ds) ->
    (forall g, msum g (c_qty s) == owed (firstclose starts ds) g done) ->
    process_days (close_proc starts) s ds = ROk (s', ds') ->
    exists cl,
      Permutation (days_postings ds') (days_postings ds ++ closings cl) /\
      map fst cl = filter (fun x => existsb (Z.eqb x) starts) (dates ds) /\
      Forall (fun Ss => map_ok (c_qty (snd Ss)) /\ J (snd Ss) /\
                        forall g, msum g (c_qty (snd Ss)) == owed (Some (fst Ss)) g (done ++ days_postings ds)) cl.
  Proof.
    induction ds as [|d ds IH]; intros done lo s s' ds' Hs Hdt Hdone Hlo Hcov Hm HJ Hgood Hok Hinv H.
    - injection H as _ <-. exists []. split; [reflexivity|]. split; [reflexivity|constructor].
    - apply process_days_cons_ok in H. destruct H as (s1 & d1 & ds2 & E1 & E2 & ->).
      unfold dates in Hs, Hlo, Hcov. cbn [map] in Hs, Hlo, Hcov.
      inversion Hs as [|? ? Hs' Hall]; subst. rewrite Forall_forall in Hall.
      inversion Hdt as [|? ? Hd Hdt']; subst. inversion Hgood as [|? ? Hgd Hgood']; subst.
      unfold days_postings in Hok. cbn [map concat] in Hok. apply posts_ok_app in Hok. destruct Hok as [Hokd Hokr].
      set (cur := d_date d) in *.
      assert (Hown : forall dp, In dp (day_postings d) -> fst dp = cur) by (intros dp Hin; eapply day_postings_date; eauto).
      assert (Hcov' : forall s0, In s0 starts -> (cur < s0)%Z -> In s0 (dates ds)).
      { intros s0 Hin Hlt. destruct (Hcov s0 Hin) as [E|E]; [specialize (Hlo _ (or_introl eq_refl)); lia|lia|exact E]. }
      assert (Hfc : firstclose starts ds = nxt starts cur).
      { unfold firstclose. apply (firstclose_nxt starts starts_sorted cur (dates ds) Hs' Hall Hcov'). }
      assert (Hlater : forall dp, In dp (days_postings (d :: ds)) -> (cur <= fst dp)%Z).
      { intros dp Hin. unfold days_postings in Hin. cbn [map concat] in Hin. apply in_app_or in Hin. destruct Hin as [Hin|Hin].
        - rewrite (Hown _ Hin). lia.
        - apply (days_postings_date ds dp Hdt') in Hin. specialize (Hall _ Hin). lia. }
      destruct (close_day starts s d s1 d1 Hm Hokd E1) as (Hd1 & Hm1 & Hs1). fold cur in Hs1, Hd1.
      pose proof (J_day _ _ _ _ HJ Hgd E1) as HJ1.
      assert (Hdone' : forall dp, In dp (done ++ day_postings d) -> (fst dp <= cur)%Z).
      { intros dp Hin. apply in_app_or in Hin. destruct Hin as [Hin|Hin].
        - specialize (Hdone _ Hin). specialize (Hlo _ (or_introl eq_refl)). lia.
        - rewrite (Hown _ Hin). lia. }
      assert (Hdlt : forall dp, In dp done -> (fst dp < cur)%Z).
      { intros dp Hin. specialize (Hdone _ Hin). specialize (Hlo _ (or_introl eq_refl)). lia. }
      unfold firstclose in Hinv. unfold dates in Hinv. cbn [map find] in Hinv. fold cur in Hinv.
      change (find (fun x => existsb (Z.eqb x) starts) (map d_date ds)) with (firstclose starts ds) in Hinv.
      assert (Hinv1 : forall g, msum g (c_qty s1) == owed (firstclose starts ds) g (done ++ day_postings d)).
      { intros g. rewrite Hfc, owed_app, (owed_own cur g _ Hown), (Hs1 g).
        destruct (existsb (Z.eqb cur) starts) eqn:Ecl.
        - assert (Hc : In cur starts).
          { apply existsb_exists in Ecl. destruct Ecl as (y & Hy & Hey). apply Z.eqb_eq in Hey. subst y. exact Hy. }
          rewrite (owed_before cur g done Hc Hdlt). ring.
        - rewrite (Hinv g), Hfc. ring. }
      destruct (IH (done ++ day_postings d) cur s1 s' ds2 Hs' Hdt' Hdone' Hall Hcov' Hm1 HJ1 Hgood' Hokr Hinv1 E2) as (cl & IP & IF & IC).
      rewrite <- app_assoc in IC. change (day_postings d ++ days_postings ds) with (days_postings (d :: ds)) in IC.
      unfold dates. cbn [map filter]. fold cur. fold (dates ds).
      change (days_postings (d1 :: ds2)) with (day_postings d1 ++ days_postings ds2).
      change (days_postings (d :: ds)) with (day_postings d ++ days_postings ds) at 1.
      subst d1. destruct (existsb (Z.eqb cur) starts) eqn:Ecl.
      + exists ((cur, s) :: cl). split; [|split].
        * unfold closings. cbn [flat_map fst snd]. fold (closings cl).
          rewrite IP, (day_postings_txns (set_txns _ _)). cbn [set_txns d_txns]. rewrite txns_postings_app, <- day_postings_txns.
          rewrite <- !app_assoc. apply Permutation_app_head. rewrite !app_assoc. apply Permutation_app_tail, Permutation_app_comm.
        * cbn [map fst]. rewrite IF. reflexivity.
        * constructor; [|exact IC]. cbn [fst snd]. split; [exact Hm|]. split; [exact HJ|]. intros g.
          rewrite owed_app, (owed_later cur g _ Hlater), (Hinv g). ring.
      + exists cl. split; [|split; [exact IF|exact IC]]. rewrite IP, app_assoc. reflexivity.
  Qed.
End CloseStage.


Section NextClose.
  Variable q : query.
  Variable row : account.
  Variable k : rkey.
  Variable starts : list Z.

  (* what one posting adds through the closing transaction of the next period start *)
  Definition NX (dp : Z * posting) : Q :=
    match nxt starts (fst dp) with
    | Some cd => if closable_dp dp then G q row k cd (p_acc (snd dp)) (p_com (snd dp)) * dvalue (p_qty (snd dp)) else 0
    | None => 0
    end.

  (* summed over the closing days: every posting owes to one of them, or to none *)
  Lemma owed_NX L ALL : NoDup L -> (forall dp cd, In dp ALL -> nxt starts (fst dp) = Some cd -> In cd L) ->
    qsum (fun S => owed starts (Some S) (G q row k S) ALL) L == qsum NX ALL.
  Proof.
    intros Hnd Hcov. unfold owed. rewrite qsum_swap. apply qsum_ext. intros dp Hdp. unfold NX.
    destruct (nxt starts (fst dp)) as [cd|] eqn:En.
    - destruct (closable_dp dp); cbn [andb oz_eqb]; [|apply qsum_const0].
      exact (qsum_pick (fun S => G q row k S (p_acc (snd dp)) (p_com (snd dp)) * dvalue (p_qty (snd dp))) cd L Hnd (Hcov dp cd Hdp En)).
    - apply qsum_zero. intros S _. rewrite andb_false_r. reflexivity.
  Qed.
End NextClose.


Definition e_val (cfg : balance_cfg) (row : account) (c0 : commodity) (col0 : Z) (e : entry) : Q :=
  s_ind cfg row c0 col0 (fst (fst (fst e))) (snd (fst (fst e))) (snd (fst e)) * dvalue (snd e).

Lemma period_amount_entries cfg es row c col :
  dvalue (period_amount (mapped_entries cfg es) (acc_eqb row) c col) == qsum (e_val cfg row c col) es.
Proof.
  unfold period_amount. rewrite dvalue_dsum, qsum_concat_map.
  unfold mapped_entries. rewrite qsum_concat_map.
  apply qsum_ext. intros [[[col' a] c'] v] _. unfold e_val, s_ind. cbn [fst snd].
  destruct (cfg_where cfg a c'); [|cbn; ring].
  destruct (shorten (bc_mapping cfg) (remap (bc_remap cfg) a)) as [a'| |]; try (cbn; ring).
  unfold qsum. cbn [fold_right].
  destruct ((col' =? col)%Z && acc_eqb row a' && str_eqb c' c); cbn [fold_right]; ring.
Qed.

Section SpecClose.
  Variable cfg : balance_cfg.
  Variable row : account.
  Variable c0 : commodity.
  Variable col0 : Z.
  Variable posts : list (Z * posting).
  Variable keys : list (account * commodity).

  Definition GS (col : Z) (a : account) (c : commodity) : Q :=
    s_ind cfg row c0 col0 col equity_account c - s_ind cfg row c0 col0 col a c.

  Fixpoint CE (prev : Z) (ps : list period) : Q :=
    match ps with
    | [] => 0
    | p :: rest =>
      qsum (fun k => GS (p_end p) (fst k) (snd k) * dvalue (sum_between posts k prev (p_start p - 1))) keys
      + CE (p_start p) rest
    end.

  Lemma closing_entries_CE : forall ps prev,
    qsum (e_val cfg row c0 col0) (closing_entries posts keys prev ps) == CE prev ps.
  Proof.
    induction ps as [|p ps IH]; intros prev; cbn [closing_entries CE]; [reflexivity|].
    rewrite qsum_app, IH, qsum_concat_map. apply Qplus_comp; [|reflexivity].
    apply qsum_ext. intros [a c] _. cbn [fst snd].
    destruct (is_zero (sum_between posts (a, c) prev (p_start p - 1))) eqn:Ez.
    - apply is_zero_value in Ez. rewrite Ez. unfold qsum. cbn [fold_right]. ring.
    - unfold qsum, e_val, GS. cbn [fold_right fst snd]. rewrite dvalue_neg. unfold equity_account. ring.
  Qed.
End SpecClose.

Definition keq (k x : account * commodity) : bool := acc_eqb (fst k) (fst x) && str_eqb (snd k) (snd x).
Definition key_of (dp : Z * posting) : account * commodity := (p_acc (snd dp), p_com (snd dp)).

Lemma keq_spec k x : keq k x = true <-> acc_name (fst k) = acc_name (fst x) /\ snd k = snd x.
Proof. unfold keq. rewrite andb_true_iff, acc_eqb_name, str_eqb_eq. reflexivity. Qed.

Lemma keq_refl k : keq k k = true.
Proof. apply keq_spec. split; reflexivity. Qed.

Lemma keq_sym k x : keq k x = keq x k.
Proof.
  destruct (keq k x) eqn:E1, (keq x k) eqn:E2; try reflexivity.
  - apply keq_spec in E1. destruct E1 as [A B]. assert (H : keq x k = true) by (apply keq_spec; split; congruence). congruence.
  - apply keq_spec in E2. destruct E2 as [A B]. assert (H : keq k x = true) by (apply keq_spec; split; congruence). congruence.
Qed.

Lemma keq_trans a b c : keq a b = true -> keq b c = true -> keq a c = true.
Proof. rewrite !keq_spec. intros [A B] [C D]. split; congruence. Qed.

Lemma keq_eq k x : account_ok (fst k) = true -> account_ok (fst x) = true -> keq k x = true -> k = x.
Proof.
  intros Hk Hx H. apply keq_spec in H. destruct H as [A B]. destruct k, x. cbn [fst snd] in *.
  f_equal; [apply acc_name_inj; assumption|exact B].
Qed.

Lemma add_key_spec k l : add_key k l = if existsb (keq k) l then l else l ++ [k].
Proof.
  induction l as [|x l IH]; cbn [add_key existsb app]; [reflexivity|].
  change (acc_eqb (fst k) (fst x) && str_eqb (snd k) (snd x)) with (keq k x).
  destruct (keq k x); cbn [orb]; [reflexivity|]. rewrite IH. destruct (existsb (keq k) l); reflexivity.
Qed.

Definition kcount (k0 : account * commodity) (ks : list (account * commodity)) : Q :=
  qsum (fun k => if keq k0 k then 1 else 0) ks.

Definition knodup (ks : list (account * commodity)) : Prop :=
  forall k0, kcount k0 ks == if existsb (keq k0) ks then 1 else 0.

Lemma knodup_add k ks : knodup ks -> knodup (add_key k ks).
Proof.
  intros H k0. rewrite add_key_spec. destruct (existsb (keq k) ks) eqn:E; [apply H|].
  unfold kcount. rewrite qsum_app, existsb_app. fold (kcount k0 ks). rewrite (H k0).
  unfold qsum. cbn [fold_right existsb]. rewrite orb_false_r.
  destruct (keq k0 k) eqn:Ek.
  - assert (En : existsb (keq k0) ks = false).
    { destruct (existsb (keq k0) ks) eqn:E2; [|reflexivity]. exfalso.
      apply existsb_exists in E2. destruct E2 as (x & Hx & Hkx).
      assert (Hc : existsb (keq k) ks = true).
      { apply existsb_exists. exists x. split; [exact Hx|]. apply (keq_trans k k0 x); [rewrite keq_sym; exact Ek|exact Hkx]. }
      congruence. }
    rewrite En. cbn [orb]. ring.
  - rewrite orb_false_r. destruct (existsb (keq k0) ks); ring.
Qed.

Definition span_dp (sp : period) (dp : Z * posting) : bool := in_span sp (fst dp).

Definition key_step (sp : period) (l : list (account * commodity)) (dp : Z * posting) : list (account * commodity) :=
  if span_dp sp dp && closable_dp dp then add_key (key_of dp) l else l.

Lemma closable_keys_fold sp posts : closable_keys sp posts = fold_left (key_step sp) posts [].
Proof.
  unfold closable_keys. generalize (@nil (account * commodity)). induction posts as [|[d p] posts IH]; intros l; cbn [fold_left]; [reflexivity|].
  rewrite IH. reflexivity.
Qed.

Lemma keys_nodup sp : forall posts acc, knodup acc -> knodup (fold_left (key_step sp) posts acc).
Proof.
  induction posts as [|dp posts IH]; intros acc H; cbn [fold_left]; [exact H|].
  apply IH. unfold key_step. destruct (span_dp sp dp && closable_dp dp); [apply knodup_add|]; exact H.
Qed.

Lemma existsb_add_key k0 k l : existsb (keq k0) l = true -> existsb (keq k0) (add_key k l) = true.
Proof. intros H. rewrite add_key_spec. destruct (existsb (keq k) l); [exact H|]. rewrite existsb_app, H. reflexivity. Qed.

Lemma existsb_add_key_self k l : existsb (keq k) (add_key k l) = true.
Proof.
  rewrite add_key_spec. destruct (existsb (keq k) l) eqn:E; [exact E|].
  rewrite existsb_app. cbn [existsb]. rewrite keq_refl, orb_true_r. reflexivity.
Qed.

Lemma keys_mono sp k0 : forall posts acc,
  existsb (keq k0) acc = true -> existsb (keq k0) (fold_left (key_step sp) posts acc) = true.
Proof.
  induction posts as [|dp posts IH]; intros acc H; cbn [fold_left]; [exact H|].
  apply IH. unfold key_step. destruct (span_dp sp dp && closable_dp dp); [apply existsb_add_key|]; exact H.
Qed.

Lemma keys_complete sp dp : forall posts acc,
  In dp posts -> span_dp sp dp = true -> closable_dp dp = true ->
  existsb (keq (key_of dp)) (fold_left (key_step sp) posts acc) = true.
Proof.
  induction posts as [|x posts IH]; intros acc Hin Hs Hc; [destruct Hin|]. cbn [fold_left].
  destruct Hin as [->|Hin]; [|apply IH; assumption].
  apply keys_mono. unfold key_step. rewrite Hs, Hc. cbn [andb]. apply existsb_add_key_self.
Qed.

Lemma keys_sound sp k : forall posts acc,
  In k (fold_left (key_step sp) posts acc) ->
  In k acc \/ exists dp, In dp posts /\ k = key_of dp /\ span_dp sp dp = true /\ closable_dp dp = true.
Proof.
  induction posts as [|x posts IH]; intros acc Hin; cbn [fold_left] in Hin; [left; exact Hin|].
  destruct (IH _ Hin) as [H|(dp & H1 & H2)].
  - unfold key_step in H. destruct (span_dp sp x && closable_dp x) eqn:E; [|left; exact H].
    rewrite add_key_spec in H. destruct (existsb (keq (key_of x)) acc); [left; exact H|].
    apply in_app_or in H. destruct H as [H|[<-|[]]]; [left; exact H|].
    right. exists x. apply andb_true_iff in E. destruct E. repeat split; try assumption. left; reflexivity.
  - right. exists dp. split; [right; exact H1|exact H2].
Qed.

Lemma sum_between_value posts k lo hi :
  dvalue (sum_between posts k lo hi) ==
  qsum (fun dp => if ((lo <=? fst dp) && (fst dp <=? hi))%Z && keq (key_of dp) k then dvalue (p_qty (snd dp)) else 0) posts.
Proof.
  unfold sum_between. rewrite dvalue_dsum, qsum_concat_map. apply qsum_ext. intros [d p] _.
  unfold keq, key_of. cbn [fst snd]. rewrite andb_assoc.
  destruct ((lo <=? d)%Z && (d <=? hi)%Z && acc_eqb (p_acc p) (fst k) && str_eqb (p_com p) (snd k));
    unfold qsum; cbn [fold_right]; ring.
Qed.

(* the sum over the keys of the per-key sums is the sum over the postings *)
Lemma regroup sp posts (g : account -> commodity -> Q) lo hi :
  posts_ok posts -> (forall d, (lo <= d <= hi)%Z -> in_span sp d = true) ->
  qsum (fun k => g (fst k) (snd k) * dvalue (sum_between posts k lo hi)) (closable_keys sp posts)
  == qsum (fun dp => if ((lo <=? fst dp) && (fst dp <=? hi))%Z && closable_dp dp
                     then g (p_acc (snd dp)) (p_com (snd dp)) * dvalue (p_qty (snd dp)) else 0) posts.
Proof.
  intros Hok Hr. rewrite closable_keys_fold. set (keys := fold_left (key_step sp) posts []).
  assert (Hnd : knodup keys).
  { apply keys_nodup. intros k0. unfold kcount, qsum. cbn. reflexivity. }
  assert (Hkok : forall k, In k keys -> exists dp, In dp posts /\ k = key_of dp /\ closable_dp dp = true).
  { intros k Hin. destruct (keys_sound sp k posts [] Hin) as [[]|(dp & A & B & _ & D)]. exists dp. repeat split; assumption. }
  transitivity (qsum (fun k => qsum (fun dp => g (fst k) (snd k) *
     (if ((lo <=? fst dp) && (fst dp <=? hi))%Z && keq (key_of dp) k then dvalue (p_qty (snd dp)) else 0)) posts) keys).
  { apply qsum_ext. intros k _. rewrite sum_between_value, <- qsum_scale. reflexivity. }
  rewrite qsum_swap. apply qsum_ext. intros dp Hdp.
  destruct ((lo <=? fst dp)%Z && (fst dp <=? hi)%Z) eqn:Er; cbn [andb].
  2: { apply qsum_zero. intros; ring. }
  assert (Hsp : span_dp sp dp = true) by (unfold span_dp; apply Hr; lia).
  assert (Hadp : account_ok (fst (key_of dp)) = true) by (apply Hok; exact Hdp).
  transitivity (qsum (fun k => (g (p_acc (snd dp)) (p_com (snd dp)) * dvalue (p_qty (snd dp))) * (if keq (key_of dp) k then 1 else 0)) keys).
  { apply qsum_ext. intros k Hk. destruct (keq (key_of dp) k) eqn:Ek; [|ring].
    destruct (Hkok k Hk) as (dp' & Hin' & -> & _).
    assert (E : key_of dp = key_of dp') by (apply keq_eq; [exact Hadp|apply Hok; exact Hin'|exact Ek]).
    rewrite <- E. unfold key_of. cbn [fst snd]. ring. }
  rewrite qsum_scale. fold (kcount (key_of dp) keys). rewrite (Hnd (key_of dp)).
  destruct (closable_dp dp) eqn:Ec.
  - unfold keys. rewrite (keys_complete sp dp posts [] Hdp Hsp Ec). ring.
  - destruct (existsb (keq (key_of dp)) keys) eqn:Ex; [|ring]. exfalso.
    apply existsb_exists in Ex. destruct Ex as (k & Hk & Ek).
    destruct (Hkok k Hk) as (dp' & Hin' & -> & Hc').
    assert (E : key_of dp = key_of dp') by (apply keq_eq; [exact Hadp|apply Hok; exact Hin'|exact Ek]).
    unfold closable_dp in *. unfold key_of in E. inversion E as [[E1 E2]]. rewrite E1 in Ec. congruence.
Qed.

Fixpoint chain_le (prev : Z) (ps : list period) : Prop :=
  match ps with [] => True | p :: rest => (prev <= p_start p)%Z /\ chain_le (p_start p) rest end.

Section SpecPosting.
  Variable cfg : balance_cfg.
  Variable row : account.
  Variable c0 : commodity.
  Variable col0 : Z.

  (* what one posting adds through the closing entries of the periods ps *)
  Fixpoint RS (prev : Z) (ps : list period) (dp : Z * posting) : Q :=
    match ps with
    | [] => 0
    | p :: rest =>
      (if ((prev <=? fst dp) && (fst dp <=? p_start p - 1))%Z && closable_dp dp
       then GS cfg row c0 col0 (p_end p) (p_acc (snd dp)) (p_com (snd dp)) * dvalue (p_qty (snd dp)) else 0)
      + RS (p_start p) rest dp
    end.

  Lemma CE_RS sp posts : posts_ok posts -> forall ps prev,
    (p_start sp <= prev)%Z ->
    Forall (fun p => (p_start sp <= p_start p)%Z /\ (p_start p - 1 <= p_end sp)%Z) ps ->
    CE cfg row c0 col0 posts (closable_keys sp posts) prev ps == qsum (RS prev ps) posts.
  Proof.
    intros Hok. induction ps as [|p ps IH]; intros prev Hprev Hall; cbn [CE].
    - symmetry. apply qsum_const0.
    - inversion Hall as [|? ? [Hp1 Hp2] Hrest]; subst.
      rewrite (IH (p_start p) Hp1 Hrest).
      rewrite (regroup sp posts (GS cfg row c0 col0 (p_end p)) prev (p_start p - 1) Hok).
      + rewrite <- qsum_plus. apply qsum_ext. intros dp _. reflexivity.
      + intros d Hd. unfold in_span. lia.
  Qed.

  Lemma RS_before : forall ps prev dp, chain_le prev ps -> (fst dp < prev)%Z -> RS prev ps dp == 0.
  Proof.
    induction ps as [|p ps IH]; intros prev dp Hc Hlt; cbn [RS]; [reflexivity|].
    destruct Hc as [H1 H2]. rewrite (IH _ _ H2) by lia.
    replace (prev <=? fst dp)%Z with false by lia. cbn [andb]. ring.
  Qed.

  Lemma RS_find : forall ps prev dp, chain_le prev ps -> (prev <= fst dp)%Z ->
    RS prev ps dp ==
    if closable_dp dp then
      match find (fun p => (fst dp <? p_start p)%Z) ps with
      | Some p => GS cfg row c0 col0 (p_end p) (p_acc (snd dp)) (p_com (snd dp)) * dvalue (p_qty (snd dp))
      | None => 0
      end
    else 0.
  Proof.
    induction ps as [|p ps IH]; intros prev dp Hc Hle; cbn [RS find].
    - destruct (closable_dp dp); reflexivity.
    - destruct Hc as [H1 H2]. destruct (fst dp <? p_start p)%Z eqn:E.
      + rewrite (RS_before _ _ _ H2) by lia.
        replace ((prev <=? fst dp)%Z && (fst dp <=? p_start p - 1)%Z) with true by lia. cbn [andb].
        destruct (closable_dp dp); ring.
      + rewrite (IH _ _ H2) by lia.
        replace ((prev <=? fst dp)%Z && (fst dp <=? p_start p - 1)%Z) with false by lia. cbn [andb]. ring.
  Qed.
End SpecPosting.


Lemma np_loop_nonpos : forall fuel s iv last c e acc, (last <= 0)%Z ->
  np_loop fuel s iv last c e acc = np_loop fuel s iv 0 c e acc.
Proof.
  induction fuel as [|f IH]; intros s iv last c e acc Hl; cbn [np_loop];
    replace (0 <? last)%Z with false by lia; replace (0 <? 0)%Z with false by reflexivity;
    rewrite !andb_false_r; [reflexivity|].
  destruct (e <? s)%Z; cbn [orb]; [reflexivity|]. apply IH. exact Hl.
Qed.

Lemma new_partition_nonpos p iv n : (n <= 0)%Z -> new_partition p iv n = new_partition p iv 0.
Proof.
  intros Hn. unfold new_partition. destruct (p_start p =? 0)%Z; [reflexivity|].
  destruct iv; try reflexivity; rewrite (np_loop_nonpos _ _ _ n) by exact Hn; reflexivity.
Qed.

Lemma np_loop_done fuel s iv last c e acc : (e <? s)%Z = true -> np_loop fuel s iv last c e acc = Some acc.
Proof. intros H. destruct fuel; cbn [np_loop]; rewrite H; reflexivity. Qed.

Lemma tiles_facts : forall ps s e, tiles s e ps ->
  StronglySorted Z.lt (map p_start ps) /\
  Forall (fun p => (s <= p_start p)%Z /\ (p_start p <= p_end p)%Z /\ (p_end p <= e)%Z) ps.
Proof.
  induction ps as [|p ps IH]; intros s e H; [destruct H|].
  cbn [tiles] in H. destruct H as (Hs & Hle & Hrest). destruct ps as [|p2 ps].
  - split; [repeat constructor|]. constructor; [lia|constructor].
  - destruct (IH _ _ Hrest) as [I1 I2]. split.
    + cbn [map] in *. constructor; [exact I1|].
      rewrite Forall_forall in *. intros x Hx.
      change (p_start p2 :: map p_start ps) with (map p_start (p2 :: ps)) in Hx.
      apply in_map_iff in Hx. destruct Hx as (p' & <- & Hp'). specialize (I2 _ Hp'). lia.
    + assert (He : (p_end p <= e)%Z) by (inversion I2 as [|? ? Hq _]; subst; lia).
      constructor; [lia|]. eapply Forall_impl; [|exact I2]. cbn. intros x Hx. lia.
Qed.

Definition part_facts (part : partition) : Prop :=
  StronglySorted Z.lt (start_dates part) /\
  ((p_start (span part) <= p_end (span part))%Z ->
   tiles (first_start (periods part) (p_start (span part))) (p_end (span part)) (periods part)
   /\ (p_start (span part) <= first_start (periods part) (p_start (span part)))%Z).

Lemma partition_facts P iv n part : new_partition P iv n = POk part -> part_facts part.
Proof.
  intros H. destruct (new_partition_span _ _ _ _ H) as [Hsp _]. unfold part_facts, start_dates. rewrite Hsp.
  destruct P as [s e]. cbn [p_start p_end].
  assert (Hs0 : s <> 0%Z) by (intros ->; cbn in H; discriminate).
  destruct (interval_eqb iv Once) eqn:Eiv.
  - destruct iv; try discriminate. rewrite partition_once in H by exact Hs0. inversion H; subst. cbn [periods map first_start p_start p_end tiles].
    split; [repeat constructor|]. intros Hle. lia.
  - assert (Hiv : iv <> Once) by (intros ->; discriminate).
    destruct (Z_lt_ge_dec e s) as [Hlt|Hge].
    + assert (Hps : periods part = []).
      { unfold new_partition in H. cbn [p_start p_end] in H. destruct (s =? 0)%Z; [discriminate|].
        destruct iv; try congruence; rewrite np_loop_done in H by lia; inversion H; reflexivity. }
      rewrite Hps. split; [constructor|]. intros Hle. lia.
    + assert (H0 : exists n', (0 <= n')%Z /\ new_partition (mkPeriod s e) iv n' = POk part).
      { destruct (Z_le_gt_dec n 0) as [Hn|Hn]; [exists 0%Z; rewrite <- (new_partition_nonpos _ _ n Hn); split; [lia|exact H]|].
        exists n. split; [lia|exact H]. }
      destruct H0 as (n' & Hn' & H').
      destruct (new_partition_tiles s e iv n' part Hiv ltac:(lia) Hn' H') as [Ht Hfs].
      split; [|intros _; split; assumption].
      exact (proj1 (tiles_facts _ _ _ Ht)).
Qed.

Lemma upd_day_dates_in days d f : (forall x, d_date (f x) = d_date x) ->
  In d (dates (upd_day days d f)) /\ (forall x, In x (dates days) -> In x (dates (upd_day days d f))).
Proof.
  intros Hf. unfold dates. induction days as [|y days IH]; cbn [upd_day map].
  - rewrite Hf. cbn [empty_day d_date]. split; [left; reflexivity|intros x []].
  - destruct (d =? d_date y)%Z eqn:E1.
    + apply Z.eqb_eq in E1. cbn [map]. rewrite Hf. split; [left; symmetry; exact E1|intros x Hx; exact Hx].
    + destruct (d <? d_date y)%Z; cbn [map].
      * rewrite Hf. cbn [empty_day d_date]. split; [left; reflexivity|intros x Hx; right; exact Hx].
      * destruct IH as [I1 I2]. split; [right; exact I1|]. intros x [Hx|Hx]; [left; exact Hx|right; apply I2; exact Hx].
Qed.

Lemma touch_dates : forall dts days,
  (forall x, In x dts -> In x (dates (fold_left (fun ds d => upd_day ds d (fun x => x)) dts days)))
  /\ (forall x, In x (dates days) -> In x (dates (fold_left (fun ds d => upd_day ds d (fun x => x)) dts days))).
Proof.
  induction dts as [|d dts IH]; intros days; cbn [fold_left].
  - split; [intros x []|intros x Hx; exact Hx].
  - destruct (IH (upd_day days d (fun x => x))) as [I1 I2].
    destruct (upd_day_dates_in days d (fun x => x) (fun x => eq_refl)) as [U1 U2].
    split.
    + intros x [<-|Hx]; [apply I2; exact U1|apply I1; exact Hx].
    + intros x Hx. apply I2. apply U2. exact Hx.
Qed.

Lemma touch_sorted : forall dts days, Sorted Z.lt (dates days) ->
  Sorted Z.lt (dates (fold_left (fun ds d => upd_day ds d (fun x => x)) dts days)).
Proof.
  induction dts as [|d dts IH]; intros days H; cbn [fold_left]; [exact H|].
  apply IH. apply upd_day_sorted; [intros; reflexivity|exact H].
Qed.

Lemma filt_date sp d : d_date (filt sp d) = d_date d.
Proof. unfold filt. destruct (period_contains sp (d_date d)); reflexivity. Qed.

Lemma filt_dates sp ds : dates (map (filt sp) ds) = dates ds.
Proof. unfold dates. rewrite map_map. apply map_ext. intros d. apply filt_date. Qed.

Lemma filt_dated sp ds : days_dated ds -> days_dated (map (filt sp) ds).
Proof.
  unfold days_dated. intros H. induction H as [|d ds Hd _ IH]; cbn [map]; constructor; [|exact IH].
  unfold filt. destruct (period_contains sp (d_date d)); [exact Hd|constructor].
Qed.

Lemma filt_in sp ds dp : In dp (days_postings (map (filt sp) ds)) -> In dp (days_postings ds).
Proof.
  unfold days_postings. induction ds as [|d ds IH]; cbn [map concat]; [intros []|].
  intros H. apply in_app_or in H. apply in_or_app. destruct H as [H|H]; [left|right; apply IH; exact H].
  unfold filt in H. destruct (period_contains sp (d_date d)); [exact H|destruct H].
Qed.

Lemma RS_after cfg row c0 col0 hi : forall ps prev dp,
  Forall (fun p => (p_start p - 1 <= hi)%Z) ps -> (hi < fst dp)%Z -> RS cfg row c0 col0 prev ps dp == 0.
Proof.
  induction ps as [|p ps IH]; intros prev dp Hall Hlt; cbn [RS]; [reflexivity|].
  inversion Hall as [|? ? Hp Hrest]; subst. rewrite (IH _ _ Hrest Hlt).
  replace (fst dp <=? p_start p - 1)%Z with false by lia. rewrite andb_false_r. cbn [andb]. ring.
Qed.

Lemma CE_nokeys cfg row c0 col0 posts : forall ps prev, CE cfg row c0 col0 posts [] prev ps == 0.
Proof. induction ps as [|p ps IH]; intros prev; cbn [CE]; [reflexivity|]. rewrite IH. unfold qsum. cbn [fold_right]. ring. Qed.

Lemma closable_keys_empty sp posts : (forall d, in_span sp d = false) -> closable_keys sp posts = [].
Proof.
  intros H. rewrite closable_keys_fold.
  assert (Hg : forall l, fold_left (key_step sp) posts l = l).
  { induction posts as [|dp posts IH]; intros l; cbn [fold_left]; [reflexivity|].
    unfold key_step at 2. unfold span_dp. rewrite H. cbn [andb]. apply IH. }
  apply Hg.
Qed.

Lemma chain_le_sorted : forall ps prev,
  StronglySorted Z.lt (map p_start ps) -> Forall (fun p => (prev <= p_start p)%Z) ps -> chain_le prev ps.
Proof.
  induction ps as [|p ps IH]; intros prev Hs Hall; cbn [chain_le]; [exact I|].
  inversion Hall as [|? ? Hp _]; subst. split; [exact Hp|].
  cbn [map] in Hs. inversion Hs as [|? ? Hs' Hlt]; subst. apply IH; [exact Hs'|].
  rewrite Forall_forall in *. intros x Hx. assert (Hin : In (p_start x) (map p_start ps)) by (apply in_map; exact Hx).
  specialize (Hlt _ Hin). lia.
Qed.

Lemma sorted_lower (l : list Z) : StronglySorted Z.lt l -> exists lo, forall x, In x l -> (lo < x)%Z.
Proof.
  intros H. destruct l as [|z l]; [exists 0%Z; intros x []|].
  exists (z - 1)%Z. inversion H as [|? ? _ Hall]; subst. rewrite Forall_forall in Hall.
  intros x [<-|Hx]; [lia|]. specialize (Hall _ Hx). lia.
Qed.

Lemma spec_close_total cfg sp ps posts row c col :
  dvalue (period_amount (mapped_entries cfg (user_entries sp ps posts ++
            closing_entries posts (closable_keys sp posts) (p_start sp) ps)) (acc_eqb row) c col)
  == qsum (s_contrib cfg sp ps row c col) posts + CE cfg row c col posts (closable_keys sp posts) (p_start sp) ps.
Proof.
  rewrite period_amount_entries, qsum_app, closing_entries_CE.
  rewrite <- period_amount_entries, period_amount_user. reflexivity.
Qed.

Lemma filt_in_iff sp ds dp : days_dated ds ->
  (In dp (days_postings (map (filt sp) ds)) <-> In dp (days_postings ds) /\ in_span sp (fst dp) = true).
Proof.
  intros Hd. unfold days_postings. induction Hd as [|d ds Hx _ IH]; cbn [map concat]; [cbn; tauto|].
  rewrite !in_app_iff, IH. unfold filt. rewrite period_contains_in_span.
  destruct (in_span sp (d_date d)) eqn:E.
  - split; [|tauto]. intros [H|H]; [|tauto]. split; [left; exact H|]. rewrite (day_postings_date d dp Hx H). exact E.
  - unfold day_postings at 1. cbn [set_txns d_txns map concat In]. split; [tauto|].
    intros [[H|H] Hs]; [|tauto]. rewrite (day_postings_date d dp Hx H) in Hs. congruence.
Qed.

(* the days the close stage is run on: a day for every period start, emptied outside the span *)
Definition close_input (part : partition) (dl : list directive) : list day :=
  map (filt (span part)) (b_days (builder_touch (builder_of dl) (start_dates part))).

Lemma close_input_perm part dl :
  Permutation (days_postings (b_days (builder_touch (builder_of dl) (start_dates part)))) (flat_postings dl).
Proof. rewrite builder_touch_perm. apply builder_of_perm. Qed.

Lemma close_input_in part dl dp :
  In dp (days_postings (close_input part dl)) <-> In dp (flat_postings dl) /\ in_span (span part) (fst dp) = true.
Proof.
  unfold close_input. rewrite (filt_in_iff _ _ _ (builder_touch_dated _ _ (builder_of_dated dl))).
  split; intros [A B]; (split; [|exact B]); eapply Permutation_in; try exact A;
    [|apply Permutation_sym]; apply close_input_perm.
Qed.

Lemma close_input_sum part dl (f : Z * posting -> Q) :
  qsum f (days_postings (close_input part dl))
  == qsum (fun dp => if in_span (span part) (fst dp) then f dp else 0) (flat_postings dl).
Proof.
  unfold close_input. rewrite (filt_sum _ _ _ (builder_touch_dated _ _ (builder_of_dated dl))).
  apply qsum_perm, close_input_perm.
Qed.

(* close_stage_spec on these days, from the empty state *)
Lemma close_stage_run part dl (J : close_state -> Prop) (Dgood : day -> Prop) s5 d5 :
  (forall s d s' d', J s -> Dgood d -> process_day (close_proc (start_dates part)) s d = ROk (s', d') -> J s') ->
  part_facts part -> postings_syntactic dl -> J (mkClose [] []) -> Forall Dgood (close_input part dl) ->
  process_days (close_proc (start_dates part)) (mkClose [] []) (close_input part dl) = ROk (s5, d5) ->
  exists cl,
    Permutation (days_postings d5) (days_postings (close_input part dl) ++ closings cl) /\
    NoDup (map fst cl) /\ (forall S, In S (map fst cl) <-> In S (start_dates part)) /\
    Forall (fun Ss => map_ok (c_qty (snd Ss)) /\ J (snd Ss) /\
                      forall g, msum g (c_qty (snd Ss)) ==
                                owed (start_dates part) (Some (fst Ss)) g (days_postings (close_input part dl))) cl.
Proof.
  intros HJ [Hss _] Hsyn HJ0 Hgood H.
  assert (Hdated : days_dated (close_input part dl)) by (apply filt_dated, builder_touch_dated, builder_of_dated).
  assert (Hsorted : StronglySorted Z.lt (dates (close_input part dl))).
  { unfold close_input. rewrite filt_dates. apply Sorted_StronglySorted; [intros x y z; apply Z.lt_trans|].
    unfold builder_touch. cbn [b_days]. apply touch_sorted, builder_of_sorted. }
  assert (Hcov : forall s, In s (start_dates part) -> In s (dates (close_input part dl))).
  { unfold close_input, builder_touch. rewrite filt_dates. cbn [b_days]. apply (proj1 (touch_dates _ _)). }
  assert (Hok : posts_ok (days_postings (close_input part dl))).
  { intros [d p] Hin. apply close_input_in in Hin. exact (Hsyn d p (proj1 Hin)). }
  destruct (sorted_lower _ Hsorted) as (lo & Hlo).
  destruct (close_stage_spec (start_dates part) Hss J Dgood HJ (close_input part dl) [] lo (mkClose [] []) s5 d5
              Hsorted Hdated (fun dp (Hf : In dp []) => match Hf with end) Hlo (fun s0 Hs0 _ => Hcov s0 Hs0)
              map_ok_nil HJ0 Hgood Hok (fun g => Qeq_refl _) H) as (cl & HP & HF & HC).
  exists cl. split; [exact HP|]. split; [|split; [|exact HC]].
  - rewrite HF. apply NoDup_filter, (StronglySorted_NoDup Z.lt Z.lt_irrefl), Hsorted.
  - intros S. rewrite HF, filter_In. split.
    + intros [_ E]. apply existsb_exists in E. destruct E as (y & Hy & Hey). apply Z.eqb_eq in Hey. subst y. exact Hy.
    + intros HS. split; [apply Hcov, HS|]. apply existsb_exists. exists S. split; [exact HS|apply Z.eqb_refl].
Qed.

Lemma model_close_total cfg part dl row c col s5 d5 :
  bc_valuation cfg = None -> part_facts part -> postings_syntactic dl ->
  process_days (close_proc (start_dates part)) (mkClose [] []) (close_input part dl) = ROk (s5, d5) ->
  qsum (q_contrib (balance_query cfg part) row (Some col, Some c)) (days_postings d5) ==
    qsum (fun dp => if in_span (span part) (fst dp) then q_contrib (balance_query cfg part) row (Some col, Some c) dp else 0) (flat_postings dl)
  + qsum (fun dp => if in_span (span part) (fst dp) then NX (balance_query cfg part) row (Some col, Some c) (start_dates part) dp else 0) (flat_postings dl).
Proof.
  intros Hv Hpf Hsyn H.
  set (q := balance_query cfg part) in *. set (k := (Some col, Some c)) in *.
  assert (Hunval : q_valued q = false) by (unfold q, balance_query; cbn [q_valued]; rewrite Hv; reflexivity).
  destruct (close_stage_run part dl (fun _ => True) (fun _ => True) s5 d5 (fun _ _ _ _ _ _ _ => I) Hpf Hsyn I
              (proj2 (Forall_forall _ _) (fun _ _ => I)) H) as (cl & HP & Hnd & Hin & HC).
  rewrite (qsum_perm _ _ _ HP), qsum_app, (closings_total q row k Hunval).
  rewrite close_input_sum. apply Qplus_comp; [reflexivity|].
  rewrite <- close_input_sum, <- (owed_NX q row k (start_dates part) (map fst cl)).
  - rewrite qsum_map. apply qsum_ext. intros Ss HSs. rewrite Forall_forall in HC. exact (proj2 (proj2 (HC _ HSs)) _).
  - exact Hnd.
  - intros dp cd _ En. apply Hin. exact (proj2 (nxt_gt _ _ _ En)).
Qed.

(* the cells of the report, with and without --close *)
Theorem report_cells cfg ds r part :
  bc_valuation cfg = None ->
  balance_report cfg ds = COk (r, part) ->
  exists dl,
    parse_directives ds = MOk dl /\
    new_partition (clip (mkPeriod (bc_from cfg) (bc_to cfg)) (journal_period dl)) (bc_interval cfg) (bc_last cfg) = POk part /\
    ((bc_close cfg = true -> postings_syntactic dl) ->
     forall row c col,
       rcell row (Some col, Some c) r ==
       dvalue (period_amount (mapped_entries cfg (user_entries (span part) (periods part) (flat_postings dl) ++
                 (if bc_close cfg
                  then closing_entries (flat_postings dl) (closable_keys (span part) (flat_postings dl)) (p_start (span part)) (periods part)
                  else [])))
               (acc_eqb row) c col)).
Proof.
  intros Hv H. destruct (bc_close cfg) eqn:Hc.
  2: { destruct (report_cells_noclose cfg ds r part Hv Hc H) as (dl & A & B & C). exists dl.
       split; [exact A|split; [exact B|]]. intros _ row c col. rewrite app_nil_r. apply C. }
  destruct (unvalued_stages _ _ _ _ Hv H) as (dl & d5 & d6 & Ep & Epart & E5 & E6).
  rewrite Hc in E5. destruct E5 as (s5 & E5). exists dl. split; [exact Ep|]. split; [exact Epart|].
  intros Hsyn row c col. specialize (Hsyn eq_refl).
  destruct (query_days (balance_query cfg part) row (Some col, Some c) _ _ _ _ wf_new_report E6) as (_ & _ & Hcell).
  rewrite Hcell, rcell_new, Qplus_0_l.
  pose proof (partition_facts _ _ _ _ Epart) as Hpf.
  rewrite (model_close_total cfg part dl row c col s5 d5 Hv Hpf Hsyn E5).
  rewrite spec_close_total.
  assert (Hok : posts_ok (flat_postings dl)) by (intros [d p] Hin; apply (Hsyn d p Hin)).
  apply Qplus_comp; [exact (user_total cfg part row c col _ Hv)|].
  destruct Hpf as [Hss Htiles].
    destruct (Z_le_gt_dec (p_start (span part)) (p_end (span part))) as [Hle|Hgt].
    + destruct (Htiles Hle) as [Ht Hfs]. destruct (tiles_facts _ _ _ Ht) as [Hst Hb].
      assert (Hchain : chain_le (p_start (span part)) (periods part)).
      { apply chain_le_sorted; [exact Hst|]. eapply Forall_impl; [|exact Hb]. cbn. intros x Hx. lia. }
      rewrite (CE_RS cfg row c col (span part) (flat_postings dl) Hok (periods part) (p_start (span part))).
      2: lia.
      2: { eapply Forall_impl; [|exact Hb]. cbn. intros x Hx. lia. }
      apply qsum_ext. intros [d p] Hin. cbn [fst].
      destruct (in_span (span part) d) eqn:Esp.
      * unfold in_span in Esp. rewrite (RS_find cfg row c col _ _ _ Hchain) by (cbn [fst]; lia).
        unfold NX. cbn [fst snd]. unfold nxt, start_dates. rewrite find_map.
        destruct (find (fun x => (d <? p_start x)%Z) (periods part)) as [p0|] eqn:Ef; cbn [option_map].
        -- destruct (closable_dp (d, p)); [|reflexivity]. apply find_some in Ef. destruct Ef as [Hin0 _].
           apply Qmult_comp; [|reflexivity]. unfold G, GS. rewrite !q_ind_balance.
           rewrite <- align_list_column_for.
           assert (Hp0 : (p_start p0 <= p_start p0 <= p_end p0)%Z).
           { rewrite Forall_forall in Hb. specialize (Hb _ Hin0). lia. }
           rewrite (align_in_period _ _ _ p0 (p_start p0) Ht Hin0 Hp0). reflexivity.
        -- destruct (closable_dp (d, p)); reflexivity.
      * symmetry. unfold in_span in Esp.
        destruct (Z_lt_ge_dec d (p_start (span part))) as [Hlt|Hge].
        -- apply RS_before; [exact Hchain|cbn [fst]; exact Hlt].
        -- apply (RS_after cfg row c col (p_end (span part))); [|cbn [fst]; lia].
           eapply Forall_impl; [|exact Hb]. cbn. intros x Hx. lia.
    + assert (Hempty : forall d, in_span (span part) d = false) by (intros d; unfold in_span; lia).
      rewrite (closable_keys_empty _ _ Hempty), CE_nokeys.
      apply qsum_zero. intros dp _. rewrite Hempty. reflexivity.
Qed.


(* Two postings on accounts Income:X / commodity NUL-Y and Income:X-NUL / commodity Y have the
   same position key in the model (name ++ NUL ++ commodity); the model's close stage merges
   them, the specification (and knut, which keys by account and commodity pointers and never
   sees a NUL byte in a name) does not. *)
Open Scope Z_scope.
Definition unsyn_cfg : balance_cfg :=
  mkBalanceCfg 0 (of_civil 2020 1 5 + 90) Monthly 0 false true None true [] [] [] [] [] true.

Definition unsyn_journal : list sdirective :=
  let A := acc_of_name [65;115;115;101;116;115;58;66] in
  let E := acc_of_name [69;120;112;101;110;115;101;115;58;82] in
  let income := [73;110;99;111;109;101] in
  let d0 := of_civil 2020 1 5 in
  [ SOpen d0 A; SOpen d0 E; SOpen d0 [income; [88]]; SOpen d0 [income; [88; 0]];
    STxn (mkStxn (d0 + 1) [] [mkBooking [income; [88]] A (mkDec 100 0) [0; 89]] None None);
    STxn (mkStxn (d0 + 2) [] [mkBooking [income; [88; 0]] A (mkDec 50 0) [89]] None None);
    STxn (mkStxn (d0 + 40) [] [mkBooking A E (mkDec 1 0) [67;72;70]] None None) ].

Definition unsyn_col : Z := of_civil 2020 1 5 + 40.
Definition unsyn_com : commodity := [89].

Lemma unsyn_witness :
  match balance_report unsyn_cfg unsyn_journal, parse_directives unsyn_journal with
  | COk (r, part), MOk dl =>
    ~ (rcell equity_account (Some unsyn_col, Some unsyn_com) r ==
       dvalue (period_amount (mapped_entries unsyn_cfg (user_entries (span part) (periods part) (flat_postings dl) ++
                 closing_entries (flat_postings dl) (closable_keys (span part) (flat_postings dl)) (p_start (span part)) (periods part)))
               (acc_eqb equity_account) unsyn_com unsyn_col))%Q
  | _, _ => False
  end.
Proof. vm_compute. intros H. discriminate H. Qed.

Theorem cells_unsyntactic_refuted :
  exists cfg ds r part dl row c col,
    bc_valuation cfg = None /\ balance_report cfg ds = COk (r, part) /\ parse_directives ds = MOk dl /\
    ~ (rcell row (Some col, Some c) r ==
       dvalue (period_amount (mapped_entries cfg (user_entries (span part) (periods part) (flat_postings dl) ++
                 (if bc_close cfg
                  then closing_entries (flat_postings dl) (closable_keys (span part) (flat_postings dl)) (p_start (span part)) (periods part)
                  else [])))
               (acc_eqb row) c col))%Q.
Proof.
  pose proof unsyn_witness as H.
  destruct (balance_report unsyn_cfg unsyn_journal) as [[r part]| |] eqn:E1; try contradiction.
  destruct (parse_directives unsyn_journal) as [dl| |] eqn:E2; try contradiction.
  exists unsyn_cfg, unsyn_journal, r, part, dl, equity_account, unsyn_com, unsyn_col.
  split; [reflexivity|]. split; [exact E1|]. split; [exact E2|]. exact H.
Qed.

Lemma syntactic_postings dl : syntactic dl -> postings_syntactic dl.
Proof.
  intros H d p Hin. unfold flat_postings in Hin. apply in_concat in Hin. destruct Hin as (l & Hl & Hin).
  apply in_map_iff in Hl. destruct Hl as (dir & <- & Hdir).
  destruct dir as [| | | |t]; try destruct Hin.
  apply in_map_iff in Hin. destruct Hin as (p0 & Hp0 & Hin0). inversion Hp0; subst.
  apply (H (DTxn t) (EPost (p_acc p) (p_com p) (p_qty p)) Hdir).
  cbn [events_of]. apply in_map_iff. exists p. split; [reflexivity|exact Hin0].
Qed.
