(* C01: the Delta rows of a complete balance report are zero.
   PairProofs (every transaction reaching the query is a list of cancelling pairs)
   + ReportSum (value sums over the report trees) + the renderer. *)
From Coq Require Import ZArith QArith List Bool Lia Permutation.
From Knut Require Import Model.Str Model.Dec Model.Date Model.Account Model.Ledger Model.Price
     Model.Journal Model.Check Model.Pipeline Model.Table Model.Report Model.Cli
     Spec.BalanceSpec
     Proofs.DecProofs Proofs.DecValue Proofs.StrProofs Proofs.JournalFacts Proofs.PairProofs Proofs.ReportSum.
Import ListNotations.
Open Scope Q_scope.


Section QueryStage.
  Variable q : query.
  Variable f : rkey -> rkey.
  Hypothesis Hwhere : forall a c, q_where q a c = true.
  Hypothesis Hvisible : forall a, q_account q a <> ShHidden.

  Definition balanced_report (r : report) : Prop := forall k', rsum f k' r == 0.

  Lemma contrib_neg k' k v : contrib f k' k (neg v) == - contrib f k' k v.
  Proof. unfold contrib. destruct (rkey_eqb (f k) k'); [apply dvalue_neg|ring]. Qed.

  Lemma query_stage_balanced r ds r' ds' :
    balanced_report r -> Forall day_ok ds ->
    process_days (query_proc q report_insert) r ds = ROk (r', ds') -> balanced_report r'.
  Proof.
    intros Hr Hds H.
    refine (proj1 (process_days_ok (query_proc q report_insert) balanced_report _ _ _ _ _ _ _ _ ds r r' ds' Hr Hds H));
      cbn [query_proc pr_day_start pr_price pr_open pr_txn pr_posting pr_balance pr_close pr_day_end];
      try discriminate.
    intros g s t x y s1 x' s2 y' Hg Hs Hxy H1 H2. injection Hg as <-.
    destruct Hxy as (Hc & Hq & Hv).
    unfold query_posting in H1, H2. rewrite Hwhere in H1, H2.
    destruct (q_account q (p_acc x)) as [a1| |] eqn:E1; try discriminate; [|exfalso; eapply Hvisible; eauto].
    destruct (q_account q (p_acc y)) as [a2| |] eqn:E2; try discriminate; [|exfalso; eapply Hvisible; eauto].
    inversion H1; inversion H2; subst. split; [|repeat split; assumption].
    intros k'. rewrite !rsum_insert. pose proof (Hs k') as Hk. rewrite Hk. rewrite Hc.
    destruct (q_valued q).
    - rewrite Hv, contrib_neg. ring.
    - rewrite Hq, contrib_neg. ring.
  Qed.
End QueryStage.


Definition key_absent (k : rkey) (m : ramounts) : Prop := Forall (fun kv => fst kv <> k) m.

Inductive ra_unique : ramounts -> Prop :=
| ra_unique_nil : ra_unique []
| ra_unique_cons k v m : key_absent k m -> ra_unique m -> ra_unique ((k, v) :: m).

Lemma key_absent_ra_add k m k0 v : key_absent k m -> k0 <> k -> key_absent k (ra_add m k0 v).
Proof.
  intros Ha Hne. induction Ha as [|[k1 v1] m H1 Hm IH]; cbn [ra_add].
  - constructor; [cbn [fst]; exact Hne|constructor].
  - cbn [fst] in H1. destruct (rkey_eqb k0 k1); constructor; cbn [fst]; assumption.
Qed.

Lemma ra_add_unique m k v : ra_unique m -> ra_unique (ra_add m k v).
Proof.
  induction 1 as [|k0 v0 m Ha Hu IH]; cbn [ra_add].
  - repeat constructor.
  - destruct (rkey_eqb k k0) eqn:E.
    + constructor; assumption.
    + constructor; [|exact IH]. apply key_absent_ra_add; [exact Ha|].
      intros ->. rewrite rkey_eqb_refl in E. discriminate.
Qed.

Lemma filter_unique (p : rkey * dec -> bool) m : ra_unique m -> ra_unique (filter p m).
Proof.
  induction 1 as [|k v m Ha Hu IH]; cbn [filter]; [constructor|].
  destruct (p (k, v)); [|exact IH]. constructor; [|exact IH].
  clear - Ha. induction Ha as [|kv m H _ IH]; cbn [filter]; [constructor|].
  destruct (p kv); [constructor; assumption|exact IH].
Qed.

Lemma fold_add_unique (g : rkey -> rkey) src : forall dest, ra_unique dest ->
  ra_unique (fold_left (fun d kv => ra_add d (g (fst kv)) (snd kv)) src dest).
Proof.
  induction src as [|kv src IH]; intros dest Hd; cbn [fold_left]; [exact Hd|].
  apply IH. apply ra_add_unique. exact Hd.
Qed.

Lemma sum_into_unique dest src g : ra_unique dest -> ra_unique (ra_sum_into dest src g).
Proof. intros H. unfold ra_sum_into. apply filter_unique, fold_add_unique, H. Qed.

Lemma node_totals_unique g n : forall acc, ra_unique acc -> ra_unique (node_totals g n acc).
Proof.
  induction n as [s p hv a ch IH] using node_ind_size. intros acc Hacc.
  cbn [node_totals]. apply sum_into_unique.
  revert acc Hacc. induction IH as [|c ch Hc _ IHch]; intros acc Hacc; cbn [fold_left]; [exact Hacc|].
  apply IHch, Hc, Hacc.
Qed.

Lemma ra_plus_unique a b : ra_unique a -> ra_unique (ra_plus a b).
Proof. intros H. unfold ra_plus. apply (fold_add_unique (fun k => k)), H. Qed.

Definition idk (k : rkey) : rkey := k.

Lemma esum_absent k m : key_absent k m -> esum idk k m == 0.
Proof.
  induction 1 as [|[k0 v0] m H _ IH]; cbn [esum]; [reflexivity|].
  rewrite IH. unfold contrib. change (idk k0) with k0. cbn [fst] in H.
  destruct (rkey_eqb k0 k) eqn:E; [apply rkey_eqb_eq in E; contradiction|ring].
Qed.

Lemma ra_get0_esum m k : ra_unique m -> dvalue (ra_get0 m k) == esum idk k m.
Proof.
  unfold ra_get0. induction 1 as [|k0 v0 m Ha Hu IH]; cbn [ra_get esum]; [reflexivity|].
  unfold contrib. change (idk k0) with k0. destruct (rkey_eqb k k0) eqn:E.
  - apply rkey_eqb_eq in E. subst k0. rewrite rkey_eqb_refl, (esum_absent _ _ Ha). ring.
  - assert (E' : rkey_eqb k0 k = false).
    { destruct (rkey_eqb k0 k) eqn:E2; [|reflexivity]. apply rkey_eqb_eq in E2. subst. rewrite rkey_eqb_refl in E. discriminate. }
    rewrite E', IH. ring.
Qed.


Definition zero_cell (c : cell) : Prop := match c with CNum n => is_zero n = true | _ => True end.

Lemma row_numbers_zero diff vals c dates : forall total,
  (forall k, dvalue (ra_get0 vals k) == 0) -> dvalue total == 0 ->
  Forall zero_cell (row_numbers diff false vals c dates total).
Proof.
  induction dates as [|d rest IH]; intros total Hv Ht; cbn [row_numbers]; constructor.
  - cbn [zero_cell]. apply is_zero_value. destruct diff; [apply Hv|].
    rewrite dvalue_add, Ht, Hv. ring.
  - apply IH; [exact Hv|]. rewrite dvalue_add, Ht, Hv. ring.
Qed.

Lemma render_rows_zero cfg dates indent name vals coms : forall first,
  (forall k, dvalue (ra_get0 vals k) == 0) ->
  Forall (Forall zero_cell) (render_rows cfg dates indent name false vals coms first).
Proof.
  induction coms as [|c rest IH]; intros first Hv; cbn [render_rows]; constructor.
  - constructor; [destruct first; exact I|].
    apply Forall_app. split.
    + destruct (draw_comms cfg); [|constructor]. constructor; [|constructor].
      destruct c; [exact I|]. destruct (rc_valuation cfg); exact I.
    + apply row_numbers_zero; [exact Hv|reflexivity].
  - apply IH. exact Hv.
Qed.

Definition appended_rows (t t' : table) : list (list cell) := skipn (length (t_rows t)) (t_rows t').

Lemma fold_add_row_rows rows : forall t, t_rows (fold_left add_row rows t) = t_rows t ++ rows.
Proof.
  induction rows as [|r rows IH]; intros t; cbn [fold_left]; [rewrite app_nil_r; reflexivity|].
  rewrite IH. unfold add_row. cbn [t_rows]. rewrite <- app_assoc. reflexivity.
Qed.

Lemma render_amounts_rows cfg t dates indent name vals :
  (forall k, dvalue (ra_get0 vals k) == 0) ->
  exists rows, t_rows (render_amounts cfg t dates indent name false vals) = t_rows t ++ rows
               /\ Forall (Forall zero_cell) rows.
Proof.
  intros Hv. unfold render_amounts. destruct vals as [|kv vals'].
  - eexists. split; [unfold add_row; cbn [t_rows]; reflexivity|].
    constructor; [|constructor]. unfold fill_empty. apply Forall_app. split.
    + repeat constructor.
    + apply Forall_forall. intros x Hx. apply repeat_spec in Hx. subst. exact I.
  - eexists. split; [apply fold_add_row_rows|]. apply render_rows_zero. exact Hv.
Qed.


Lemma mapping_level_nonzero m s l sfx :
  forallb (fun r => negb (r_level r =? 0)%Z) m = true -> mapping_level m s = Some (l, sfx) -> l <> 0%Z.
Proof.
  induction m as [|r m IH]; cbn [forallb mapping_level]; [discriminate|].
  rewrite andb_true_iff. intros [Hr Hm] H.
  unfold rule_match in H. destruct (r_rx r) as [x|].
  - destruct (rx_match x s).
    + inversion H; subst. apply negb_true_iff, Z.eqb_neq in Hr. exact Hr.
    + apply IH; assumption.
  - inversion H; subst. apply negb_true_iff, Z.eqb_neq in Hr. exact Hr.
Qed.

Lemma shorten_visible m a :
  forallb (fun r => negb (r_level r =? 0)%Z) m = true -> shorten m a <> ShHidden.
Proof.
  intros Hm. unfold shorten. destruct m as [|r m']; [discriminate|].
  destruct (mapping_level (r :: m') (acc_name a)) as [[l sfx]|] eqn:E; [|discriminate].
  pose proof (mapping_level_nonzero _ _ _ _ Hm E) as Hl.
  replace (l =? 0)%Z with false by (symmetry; apply Z.eqb_neq; exact Hl).
  destruct (acc_level a <=? sfx)%Z; [discriminate|].
  destruct (acc_level a - sfx <? l)%Z; [discriminate|].
  destruct ((l <? 0)%Z || (sfx <? 0)%Z); discriminate.
Qed.


(* a successful run, stage by stage: the days after the checker (d1), after valuation (d3), after
   the filter (d4), after closing (d5) *)
Lemma balance_report_stages cfg ds r part :
  balance_report cfg ds = COk (r, part) ->
  exists dl s1 d1 d3 s4 d4 d5 d6,
    parse_directives ds = MOk dl /\
    cfg_partition cfg (builder_of dl) = COk part /\
    process_days (check_proc_current (bc_lenient cfg)) check_init
      (b_days (if bc_close cfg then builder_touch (builder_of dl) (start_dates part) else builder_of dl)) = ROk (s1, d1) /\
    match bc_valuation cfg with
    | Some v => exists s2 d2 s3, process_days (compute_prices_proc v) (mkCp [] None) d1 = ROk (s2, d2) /\
                                 process_days (valuate_proc v) (mkVal None None []) d2 = ROk (s3, d3)
    | None => d3 = d1
    end /\
    process_days (filter_proc (span part)) tt d3 = ROk (s4, d4) /\
    (if bc_close cfg
     then exists s5, process_days (close_proc (start_dates part)) (mkClose [] []) d4 = ROk (s5, d5)
     else d5 = d4) /\
    process_days (query_proc (balance_query cfg part) report_insert) new_report d5 = ROk (r, d6).
Proof.
  unfold balance_report. intros H.
  apply cbind_ok in H. destruct H as (_ & _ & H).
  apply cbind_ok in H. destruct H as (b & Eb & H).
  unfold load in Eb. apply cbind_ok in Eb. destruct Eb as (dl & Ep & [= <-]).
  apply cbind_ok in H. destruct H as (part0 & Epart & H). cbn zeta in H.
  apply cbind_ok in H. destruct H as ([s1 d1] & E1 & H). apply run_stage_ok in E1.
  apply cbind_ok in H. destruct H as (d3 & E3 & H). cbn [snd] in E3.
  apply cbind_ok in H. destruct H as ([s4 d4] & E4 & H). apply run_stage_ok in E4.
  apply cbind_ok in H. destruct H as (d5 & E5 & H). cbn [snd] in E5.
  apply cbind_ok in H. destruct H as ([r6 d6] & E6 & [= <- <-]). apply run_stage_ok in E6.
  exists dl, s1, d1, d3, s4, d4, d5, d6.
  split; [destruct (parse_directives ds); cbn [of_mresult] in Ep; congruence|].
  split; [exact Epart|]. split; [exact E1|]. split; [|split; [exact E4|split; [|exact E6]]].
  - destruct (bc_valuation cfg) as [v|]; [|congruence].
    apply cbind_ok in E3. destruct E3 as ([s2 d2] & E2 & E3). apply run_stage_ok in E2.
    apply cbind_ok in E3. destruct E3 as ([s3 d3'] & E3 & [= <-]). apply run_stage_ok in E3. eauto.
  - destruct (bc_close cfg); [|congruence].
    apply cbind_ok in E5. destruct E5 as ([s5 d5'] & E5 & [= <-]). apply run_stage_ok in E5. eauto.
Qed.


Definition render_cfg_of (cfg : balance_cfg) : render_cfg :=
  mkRenderCfg (bc_valuation cfg) (bc_details cfg) (bc_alpha cfg) (bc_diff cfg).

Theorem delta_zero cfg ds t :
  complete_cfg cfg = true ->
  balance_table cfg ds = COk t ->
  exists rows0 delta_rows sep,
    t_rows t = rows0 ++ delta_rows ++ [sep] /\
    Forall (Forall zero_cell) delta_rows /\
    (exists r rest, delta_rows = (CText s_Delta ALeft 0 :: r) :: rest).
Proof.
  intros Hc H. unfold balance_table in H.
  apply cbind_ok in H. destruct H as ([r part] & Er & [= <-]). cbn [fst snd].
  (* the report is balanced: every stage keeps the pairs *)
  assert (Hbal : balanced_report (collapse_key (negb (match bc_valuation cfg with Some _ => true | None => false end))) r).
  { destruct (balance_report_stages _ _ _ _ Er) as (dl & s1 & d1 & d3 & s4 & d4 & d5 & d6 & Ep & _ & E1 & E3 & E4 & E5 & E6).
    pose proof (builder_of_ok dl (parse_directives_ok _ _ Ep)) as Hb.
    assert (Hd1 : Forall day_ok d1).
    { unfold check_proc_current in E1.
      destruct (bc_lenient cfg); [eapply check_fixed_stage_ok|eapply check_stage_ok]; try exact E1;
        destruct (bc_close cfg); try apply builder_touch_ok; exact Hb. }
    assert (Hd3 : Forall day_ok d3).
    { destruct (bc_valuation cfg) as [v|]; [|subst d3; exact Hd1]. destruct E3 as (s2 & d2 & s3 & E2 & E3).
      exact (valuate_stage_ok _ _ _ _ _ (prices_stage_ok _ _ _ _ _ Hd1 E2) E3). }
    pose proof (filter_stage_ok _ _ _ _ _ Hd3 E4) as Hd4.
    assert (Hd5 : Forall day_ok d5).
    { destruct (bc_close cfg); [destruct E5 as (s5 & E5); exact (close_stage_ok _ _ _ _ _ Hd4 E5)|subst d5; exact Hd4]. }
    unfold complete_cfg in Hc.
    destruct (bc_accounts cfg) eqn:Ea; try discriminate. destruct (bc_commodities cfg) eqn:Eco; try discriminate.
    eapply (query_stage_balanced (balance_query cfg part)); [| | |exact Hd5|exact E6].
    - intros a0 c0. unfold balance_query. cbn [q_where]. rewrite Ea, Eco. reflexivity.
    - intros a0. unfold balance_query. cbn [q_account]. apply shorten_visible. exact Hc.
    - intros k'. apply rsum_new. }
  (* the renderer *)
  unfold render_report.
  set (valued := match bc_valuation cfg with Some _ => true | None => false end) in *.
  cbn [rc_valuation rc_alpha]. fold valued.
  set (al := node_sort (bc_alpha cfg) valued (r_al r)) in *.
  set (eie := node_sort (bc_alpha cfg) valued (r_eie r)) in *.
  set (tk := collapse_key (negb valued)) in *.
  set (total_al := node_totals tk al []) in *.
  set (total_eie := node_totals tk eie []) in *.
  match goal with |- context [add_separator_row (render_amounts ?rc ?t0 ?dates _ _ _ ?vals)] =>
    set (T0 := t0) in *; set (RC := rc) in *; set (VALS := vals) in *;
    destruct (render_amounts_rows RC T0 dates 0%Z s_Delta VALS) as (rows & Hrows & Hz) end.
  { intros k. unfold VALS. rewrite ra_get0_esum by (apply ra_plus_unique, node_totals_unique; constructor).
    rewrite esum_plus. unfold total_al, total_eie.
    rewrite !esum_node_totals. cbn [esum]. unfold al, eie. rewrite !tsum_node_sort.
    specialize (Hbal k). unfold rsum in Hbal.
    change (fun k0 : rkey => idk (tk k0)) with tk.
    transitivity (tsum tk k (r_al r) + tsum tk k (r_eie r)); [ring|exact Hbal]. }
  unfold add_separator_row at 1. unfold add_row at 1. cbn [t_rows]. rewrite Hrows.
  eexists _, rows, _. split; [rewrite <- app_assoc; reflexivity|]. split; [exact Hz|].
  (* the block starts with the Delta label *)
  clear - Hrows. unfold render_amounts in Hrows. clearbody T0 VALS.
  match type of Hrows with context [match ?v with [] => _ | _ => _ end] => destruct v as [|kv vals'] eqn:Ev end.
  - unfold add_row in Hrows. cbn [t_rows] in Hrows. apply app_inv_head in Hrows. subst rows.
    unfold fill_empty. cbn [app]. eauto.
  - rewrite fold_add_row_rows in Hrows. apply app_inv_head in Hrows. subst rows.
    destruct (ra_commodities (kv :: vals')) as [|c cs] eqn:Ec.
    + exfalso. unfold ra_commodities in Ec. cbn [fold_left] in Ec.
      assert (Hne : forall l acc, acc <> [] -> fold_left (fun (l : list (option commodity)) (kv : rkey * dec) => insert_ocom (snd (fst kv)) l) l acc <> []).
      { induction l as [|x l IH]; intros acc Hacc; cbn [fold_left]; [exact Hacc|]. apply IH.
        destruct acc; [congruence|]. cbn [insert_ocom]. destruct (snd (fst x)), o; try discriminate; destruct (str_cmp _ _); discriminate. }
      eapply Hne; [|exact Ec]. cbn. destruct (snd (fst kv)); discriminate.
    + cbn [render_rows]. eauto.
Qed.
