(* Model/CsvLatin1.v: the ISO 8859-1 decoder in front of ch.supercard's csv reader. *)
From Coq Require Import ZArith List Bool Lia.
From Knut Require Import Model.Bytes Model.Csv Model.ImpCommonA Model.CsvImp Model.CsvLatin1 Proofs.CsvProofs.
Import ListNotations.
Open Scope Z_scope.

(* every byte decodes to the UTF-8 encoding of the code point with the byte's number: itself below 0x80, else the two
   bytes 110000xx 10xxxxxx (lead 0xC2 or 0xC3, one continuation byte) that carry the number *)
Lemma latin1_byte_spec : forall b, 0 <= b < 256 ->
  (b < 128 /\ latin1_byte b = [b]) \/
  (128 <= b /\ exists c1 c2, latin1_byte b = [c1; c2] /\ 194 <= c1 <= 195 /\ 128 <= c2 < 192 /\
                            (c1 - 192) * 64 + (c2 - 128) = b).
Proof.
  intros b Hb. unfold latin1_byte.
  destruct (Z.ltb_spec b 128) as [Hlt|Hge]; [left; split; [lia|reflexivity]|].
  right. split; [lia|]. exists (192 + b / 64), (128 + b mod 64).
  split; [reflexivity|]. Z.div_mod_to_equations. lia.
Qed.

(* the two bytes carry the number, so they determine the byte *)
Lemma latin1_byte_inj : forall a b, 0 <= a < 256 -> 0 <= b < 256 -> latin1_byte a = latin1_byte b -> a = b.
Proof.
  intros a b Ha Hb E.
  destruct (latin1_byte_spec a Ha) as [[Ha1 Ea]|[Ha1 [c1 [c2 [Ea [_ [_ Hv]]]]]]];
    destruct (latin1_byte_spec b Hb) as [[Hb1 Eb]|[Hb1 [d1 [d2 [Eb [_ [_ Hw]]]]]]];
    rewrite Ea, Eb in E; try discriminate E; injection E; lia.
Qed.

(* total on byte strings: the result is a byte string again, between one and two bytes per input byte *)
Lemma latin1_decode_bytes : forall s, Forall (fun b => 0 <= b < 256) s ->
  Forall (fun c => 0 <= c < 256) (latin1_decode s) /\
  (length s <= length (latin1_decode s) <= 2 * length s)%nat.
Proof.
  induction s as [|b t IH]; intro H; [split; [constructor|cbn; lia]|].
  inversion H as [|x l Hb Ht]; subst.
  destruct (IH Ht) as [IH1 IH2].
  cbn [latin1_decode]. rewrite app_length.
  destruct (latin1_byte_spec b Hb) as [[_ E]|[_ [c1 [c2 [E [H1 [H2 _]]]]]]]; rewrite E; cbn [app length].
  - split; [constructor; [lia|exact IH1]|lia].
  - split; [constructor; [lia|constructor; [lia|exact IH1]]|lia].
Qed.

Lemma latin1_decode_app : forall s t, latin1_decode (s ++ t) = latin1_decode s ++ latin1_decode t.
Proof.
  induction s as [|b s IH]; intro t; [reflexivity|].
  cbn [latin1_decode app]. rewrite IH, app_assoc. reflexivity.
Qed.

(* the decoder loses nothing: different byte strings decode to different texts *)
Lemma latin1_decode_inj : forall s t, Forall (fun b => 0 <= b < 256) s -> Forall (fun b => 0 <= b < 256) t ->
  latin1_decode s = latin1_decode t -> s = t.
Proof.
  induction s as [|a s IH]; intros t Hs Ht E.
  - destruct t as [|b t]; [reflexivity|]. exfalso.
    inversion Ht as [|x l Hb _]; subst. cbn [latin1_decode] in E.
    destruct (latin1_byte_spec b Hb) as [[_ Eb]|[_ [c1 [c2 [Eb _]]]]]; rewrite Eb in E; discriminate.
  - inversion Hs as [|x l Ha Hs']; subst.
    destruct t as [|b t].
    + exfalso. cbn [latin1_decode] in E.
      destruct (latin1_byte_spec a Ha) as [[_ Ea]|[_ [c1 [c2 [Ea _]]]]]; rewrite Ea in E; discriminate.
    + inversion Ht as [|x l Hb Ht']; subst. cbn [latin1_decode] in E.
      destruct (latin1_byte_spec a Ha) as [[Ha1 Ea]|[Ha1 [c1 [c2 [Ea [Hc1 [Hc2 Hv]]]]]]];
        destruct (latin1_byte_spec b Hb) as [[Hb1 Eb]|[Hb1 [d1 [d2 [Eb [Hd1 [Hd2 Hw]]]]]]];
        rewrite Ea, Eb in E; cbn [app] in E.
      * inversion E as [[E1 E2]]. f_equal. exact (IH t Hs' Ht' E2).
      * exfalso. inversion E as [[E1 E2]]. lia.
      * exfalso. inversion E as [[E1 E2]]. lia.
      * inversion E as [[E1 E2 E3]]. f_equal; [lia|]. exact (IH t Hs' Ht' E3).
Qed.
