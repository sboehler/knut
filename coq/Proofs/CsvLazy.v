(* LazyQuotes only adds accepted texts: whatever a reader accepts (all records, io.EOF), the same reader with
   LazyQuotes = true reads in the same way.  So for an importer with a strict reader the setting cannot be observed on
   any statement it imports; it can only turn a rejected statement (csv.ErrQuote, csv.ErrBareQuote) into an accepted one. *)
From Coq Require Import ZArith List Bool Lia.
From Knut Require Import Model.Bytes Model.Csv Model.ImpCommonA Model.CsvImp Model.CsvLatin1 Spec.CsvSettings Proofs.CsvProofs.
Import ListNotations.
Open Scope Z_scope.

Lemma scan_quoted_lazy_n : forall comma n s, (length s <= n)%nat -> forall f tm r,
  scan_quoted false comma s = QDone f tm r -> scan_quoted true comma s = QDone f tm r.
Proof.
  induction n as [|n IH]; intros s Hn f tm r H.
  - destruct s as [|a t]; [|simpl in Hn; lia]. cbn in H. discriminate.
  - destruct s as [|a t]. { cbn in H. discriminate. }
    rewrite scan_quoted_cons in H. rewrite scan_quoted_cons. simpl in Hn.
    destruct (a =? b_quote).
    + destruct t as [|d t']; [exact H|].
      destruct (d =? b_quote).
      { destruct (scan_quoted false comma t') as [f0 tm0 r0|e0] eqn:E; cbn [qcons] in H; [|discriminate].
        apply IH in E; [|simpl in *; lia]. rewrite E. exact H. }
      destruct (d =? comma); [exact H|]. destruct (d =? b_nl); [exact H|]. discriminate.
    + destruct (scan_quoted false comma t) as [f0 tm0 r0|e0] eqn:E; cbn [qcons] in H; [|discriminate].
      apply IH in E; [|lia]. rewrite E. exact H.
Qed.

Lemma scan_quoted_lazy : forall lz comma s f tm r,
  scan_quoted lz comma s = QDone f tm r -> scan_quoted true comma s = QDone f tm r.
Proof.
  intros lz comma s f tm r H. destruct lz; [exact H|].
  eapply scan_quoted_lazy_n; [apply le_n|exact H].
Qed.

Lemma skip_lines_lazy : forall cfg s b, skip_lines (set_lazy cfg) b s = skip_lines cfg b s.
Proof.
  induction s as [|c t IH]; intro b; [reflexivity|].
  cbn [skip_lines]. change (cc_comment (set_lazy cfg)) with (cc_comment cfg). rewrite !IH. reflexivity.
Qed.

Lemma first_field_lazy : forall cfg s,
  match first_field cfg s with FsErr _ => True | step => first_field (set_lazy cfg) s = step end.
Proof.
  intros cfg s. unfold first_field.
  change (field_start (set_lazy cfg) s) with (field_start cfg s).
  change (cc_comma (set_lazy cfg)) with (cc_comma cfg).
  change (cc_lazy (set_lazy cfg)) with true.
  destruct (field_start cfg s) as [[|c t] [|]]; try reflexivity.
  destruct (c =? b_quote).
  - destruct (scan_quoted (cc_lazy cfg) (cc_comma cfg) t) as [f tm r|e] eqn:Q; [|exact I].
    rewrite (scan_quoted_lazy _ _ _ _ _ _ Q). destruct tm; reflexivity.
  - destruct (scan_unquoted (cc_comma cfg) (c :: t)) as [[f tm] r].
    destruct (negb (cc_lazy cfg) && has_quote f); [exact I|]. destruct tm; reflexivity.
Qed.

Lemma parse_fields_lazy : forall cfg fuel s fs rest,
  parse_fields cfg fuel s = RecOk fs rest -> parse_fields (set_lazy cfg) fuel s = RecOk fs rest.
Proof.
  induction fuel as [|fuel IH]; intros s fs rest H; [discriminate|].
  rewrite parse_fields_S in H. rewrite parse_fields_S. pose proof (first_field_lazy cfg s) as L.
  destruct (first_field cfg s) as [fs0 rest0|e|f r]; [rewrite L; exact H|discriminate|]. rewrite L.
  destruct (parse_fields cfg fuel r) as [fs0 rest0|e0|] eqn:P; cbn [rcons] in H; try discriminate.
  rewrite (IH _ _ _ P). exact H.
Qed.

Lemma read_all_set_lazy : forall cfg fuel sets fpr s rs,
  read_all_set cfg fuel sets fpr s = CsvRecords rs -> read_all_set (set_lazy cfg) fuel sets fpr s = CsvRecords rs.
Proof.
  induction fuel as [|fuel IH]; intros sets fpr s rs H; [discriminate|].
  cbn [read_all_set] in H. cbn [read_all_set]. rewrite skip_lines_lazy.
  destruct (skip_lines cfg false s) as [|a s']; [exact H|].
  destruct (parse_fields cfg (S (length (a :: s'))) (a :: s')) as [fs rest|e|] eqn:P; try discriminate.
  rewrite (parse_fields_lazy _ _ _ _ _ P).
  destruct (count_bad _ fs); [discriminate|].
  match type of H with context [read_all_set cfg fuel ?a ?b rest] =>
    destruct (read_all_set cfg fuel a b rest) as [rs0|b0 e0|] eqn:R; try discriminate;
    rewrite (IH _ _ _ _ R); exact H end.
Qed.

Lemma csv_read_all_set_lazy : forall cfg sets input rs,
  csv_read_all_set cfg sets input = CsvRecords rs -> csv_read_all_set (set_lazy cfg) sets input = CsvRecords rs.
Proof.
  intros cfg sets input rs H. unfold csv_read_all_set in *.
  change (delims_ok (set_lazy cfg)) with (delims_ok cfg).
  change (cc_fpr (set_lazy cfg)) with (cc_fpr cfg).
  destruct (delims_ok cfg); [|discriminate].
  apply read_all_set_lazy. exact H.
Qed.
