(* Model/Csv.v: the reader never runs out of fuel (every loop consumes input), and every record it returns has the
   number of fields FieldsPerRecord demands.  Totality is proved for the reader whose FieldsPerRecord is assigned
   between the calls of Read (Model/CsvLatin1.v, read_all_set); the plain reader is the one without assignments. *)
From Coq Require Import ZArith List Bool Lia.
From Knut Require Import Model.Bytes Model.Csv Model.CsvLatin1.
Import ListNotations.
Open Scope Z_scope.

Lemma trim_line_cons : forall a t,
  trim_line (a :: t) =
    if a =? b_nl then (t, true)
    else if ws1 a then trim_line t
    else match t with
         | b :: t2 =>
           if ws2 a b then trim_line t2
           else match t2 with
                | c :: t3 => if ws3 a b c then trim_line t3 else (a :: t, false)
                | [] => (a :: t, false)
                end
         | [] => (a :: t, false)
         end.
Proof. reflexivity. Qed.

Lemma scan_quoted_cons : forall lz comma c t,
  scan_quoted lz comma (c :: t) =
    if c =? b_quote then
      match t with
      | [] => QDone [] TEol []
      | d :: t' =>
        if d =? b_quote then qcons b_quote (scan_quoted lz comma t')
        else if d =? comma then QDone [] TComma t'
        else if d =? b_nl then QDone [] TEol t'
        else if lz then qcons b_quote (scan_quoted lz comma t)
        else QErr ErrQuote
      end
    else qcons c (scan_quoted lz comma t).
Proof. reflexivity. Qed.

Definition field_start (cfg : csv_cfg) (s : str) : str * bool :=
  if cc_trim cfg then trim_line s else (s, false).

(* what parse_fields does before it calls itself: the first field, and whether the record goes on *)
Inductive field_step := FsEnd (fs : list str) (rest : str) | FsErr (e : csv_err) | FsMore (f : str) (rest : str).

Definition first_field (cfg : csv_cfg) (s : str) : field_step :=
  let '(s1, ended) := field_start cfg s in
  if ended then FsEnd [[]] s1
  else
    match s1 with
    | c :: t =>
      if c =? b_quote then
        match scan_quoted (cc_lazy cfg) (cc_comma cfg) t with
        | QErr e => FsErr e
        | QDone f TComma r => FsMore f r
        | QDone f TEol r => FsEnd [f] r
        end
      else
        let '(f, tm, r) := scan_unquoted (cc_comma cfg) s1 in
        if negb (cc_lazy cfg) && has_quote f then FsErr ErrBareQuote
        else match tm with TComma => FsMore f r | TEol => FsEnd [f] r end
    | [] => FsEnd [[]] []
    end.

Lemma parse_fields_S : forall cfg fuel s,
  parse_fields cfg (S fuel) s =
    match first_field cfg s with
    | FsEnd fs rest => RecOk fs rest
    | FsErr e => RecErr e
    | FsMore f r => rcons f (parse_fields cfg fuel r)
    end.
Proof.
  intros cfg fuel s. cbn [parse_fields]. unfold first_field, field_start.
  destruct (if cc_trim cfg then trim_line s else (s, false)) as [[|c t] [|]]; try reflexivity.
  destruct (c =? b_quote).
  - destruct (scan_quoted (cc_lazy cfg) (cc_comma cfg) t) as [f [|] r|e]; reflexivity.
  - destruct (scan_unquoted (cc_comma cfg) (c :: t)) as [[f [|]] r]; destruct (negb (cc_lazy cfg) && has_quote f); reflexivity.
Qed.

Lemma trim_line_len_n : forall n s, (length s <= n)%nat -> forall s1 b, trim_line s = (s1, b) ->
  (length s1 <= length s)%nat /\ (b = true -> s <> [] -> (length s1 < length s)%nat).
Proof.
  induction n as [|n IH]; intros s Hn s1 b H.
  - destruct s as [|a t]; [|simpl in Hn; lia]. cbn in H. inversion H; subst. split; [lia|congruence].
  - destruct s as [|a t]; [cbn in H; inversion H; subst; split; [lia|congruence]|].
    rewrite trim_line_cons in H. simpl in Hn.
    destruct (a =? b_nl). { inversion H; subst. simpl. split; intros; lia. }
    destruct (ws1 a). { apply IH in H; [|lia]. destruct H as [H1 _]. simpl. split; intros; lia. }
    destruct t as [|b0 t2]. { inversion H; subst. split; [lia|discriminate]. }
    destruct (ws2 a b0). { apply IH in H; [|simpl in *; lia]. destruct H as [H1 _]. simpl in *. split; intros; lia. }
    destruct t2 as [|c t3]. { inversion H; subst. split; [lia|discriminate]. }
    destruct (ws3 a b0 c). { apply IH in H; [|simpl in *; lia]. destruct H as [H1 _]. simpl in *. split; intros; lia. }
    inversion H; subst. split; [lia|discriminate].
Qed.

Lemma field_start_len : forall cfg s s1 b, field_start cfg s = (s1, b) ->
  (length s1 <= length s)%nat /\ (b = true -> s <> [] -> (length s1 < length s)%nat).
Proof.
  intros cfg s s1 b H. unfold field_start in H. destruct (cc_trim cfg).
  - eapply trim_line_len_n; [apply le_n|exact H].
  - inversion H; subst. split; [lia|discriminate].
Qed.

Lemma scan_unquoted_len : forall c s f tm r, scan_unquoted c s = (f, tm, r) ->
  (length r <= length s)%nat /\ (s <> [] -> (length r < length s)%nat).
Proof.
  induction s as [|a t IH]; intros f tm r H; cbn [scan_unquoted] in H.
  - inversion H; subst. split; [lia|congruence].
  - destruct (a =? b_nl). { inversion H; subst. simpl. split; intros; lia. }
    destruct (a =? c). { inversion H; subst. simpl. split; intros; lia. }
    destruct (scan_unquoted c t) as [[f' tm'] r'] eqn:E. inversion H; subst.
    destruct (IH _ _ _ eq_refl) as [H1 _]. simpl. split; intros; lia.
Qed.

Lemma scan_quoted_len_n : forall lz c n s, (length s <= n)%nat -> forall f tm r,
  scan_quoted lz c s = QDone f tm r -> (length r <= length s)%nat.
Proof.
  induction n as [|n IH]; intros s Hn f tm r H.
  - destruct s as [|a t]; [|simpl in Hn; lia]. cbn in H. destruct lz; inversion H; subst; simpl; lia.
  - destruct s as [|a t]. { cbn in H. destruct lz; inversion H; subst; simpl; lia. }
    rewrite scan_quoted_cons in H. simpl in Hn.
    destruct (a =? b_quote).
    + destruct t as [|d t']. { inversion H; subst; simpl; lia. }
      destruct (d =? b_quote).
      { destruct (scan_quoted lz c t') as [f0 tm0 r0|e0] eqn:E; cbn [qcons] in H; [|discriminate].
        inversion H; subst. apply IH in E; [|simpl in *; lia]. simpl; lia. }
      destruct (d =? c). { inversion H; subst; simpl; lia. }
      destruct (d =? b_nl). { inversion H; subst; simpl; lia. }
      destruct lz; [|discriminate].
      destruct (scan_quoted true c (d :: t')) as [f0 tm0 r0|e0] eqn:E; cbn [qcons] in H; [|discriminate].
      inversion H; subst. apply IH in E; [|simpl in *; lia]. simpl in *; lia.
    + destruct (scan_quoted lz c t) as [f0 tm0 r0|e0] eqn:E; cbn [qcons] in H; [|discriminate].
      inversion H; subst. apply IH in E; [|lia]. simpl; lia.
Qed.

Lemma scan_quoted_len : forall lz c s f tm r, scan_quoted lz c s = QDone f tm r -> (length r <= length s)%nat.
Proof. intros. eapply scan_quoted_len_n; [apply le_n|eassumption]. Qed.

Lemma skip_lines_len : forall cfg s b, (length (skip_lines cfg b s) <= length s)%nat.
Proof.
  induction s as [|c t IH]; intros b; cbn [skip_lines]; [lia|].
  destruct b. { specialize (IH (negb (c =? b_nl))). simpl; lia. }
  destruct (c =? b_nl). { specialize (IH false). simpl; lia. }
  destruct (negb (cc_comment cfg =? 0) && (c =? cc_comment cfg)). { specialize (IH true). simpl; lia. }
  lia.
Qed.

Lemma first_field_len : forall cfg s,
  match first_field cfg s with
  | FsEnd fs rest => (length rest <= length s)%nat /\ (s <> [] -> (length rest < length s)%nat) /\ fs <> []
  | FsMore _ r => (length r < length s)%nat
  | FsErr _ => True
  end.
Proof.
  intros cfg s. unfold first_field.
  destruct (field_start cfg s) as [s1 ended] eqn:E. apply field_start_len in E. destruct E as [L1 L2].
  destruct ended. { split; [lia|]. split; [intros; apply L2; auto|discriminate]. }
  destruct s1 as [|c t]. { split; [simpl; lia|]. split; [|discriminate]. destruct s; [congruence|simpl; lia]. }
  simpl in L1. destruct (c =? b_quote).
  - destruct (scan_quoted (cc_lazy cfg) (cc_comma cfg) t) as [f tm r|e] eqn:Q; [|exact I].
    apply scan_quoted_len in Q. destruct tm; [lia|]. split; [lia|]. split; [intros; lia|discriminate].
  - destruct (scan_unquoted (cc_comma cfg) (c :: t)) as [[f tm] r] eqn:U.
    apply scan_unquoted_len in U. destruct U as [_ U2]. specialize (U2 ltac:(discriminate)). simpl in U2.
    destruct (negb (cc_lazy cfg) && has_quote f); [exact I|].
    destruct tm; [lia|]. split; [lia|]. split; [intros; lia|discriminate].
Qed.

Lemma parse_fields_ok_len : forall cfg fuel s fs rest, parse_fields cfg fuel s = RecOk fs rest ->
  (length rest <= length s)%nat /\ (s <> [] -> (length rest < length s)%nat) /\ fs <> [].
Proof.
  induction fuel as [|fuel IH]; intros s fs rest H; [discriminate|].
  rewrite parse_fields_S in H. pose proof (first_field_len cfg s) as L.
  destruct (first_field cfg s) as [fs0 rest0|e|f r]; [inversion H; subst; exact L|discriminate|].
  destruct (parse_fields cfg fuel r) as [fs0 rest0|e0|] eqn:P; cbn [rcons] in H; try discriminate.
  inversion H; subst. apply IH in P. destruct P as [P1 _].
  split; [lia|]. split; [intros; lia|discriminate].
Qed.

Lemma parse_fields_fuel_ok : forall cfg fuel s, (length s < fuel)%nat -> parse_fields cfg fuel s <> RecFuel.
Proof.
  induction fuel as [|fuel IH]; intros s Hl; [lia|].
  rewrite parse_fields_S. pose proof (first_field_len cfg s) as L.
  destruct (first_field cfg s) as [fs0 rest0|e|f r]; [discriminate|discriminate|].
  assert (Hr : parse_fields cfg fuel r <> RecFuel) by (apply IH; lia).
  destruct (parse_fields cfg fuel r); cbn [rcons]; congruence.
Qed.

(* without assignments the reader is Csv.read_all *)
Lemma read_all_set_nil : forall cfg fuel fpr s, read_all_set cfg fuel [] fpr s = read_all cfg fuel fpr s.
Proof.
  induction fuel as [|fuel IH]; intros fpr s; [reflexivity|].
  cbn [read_all_set read_all tl].
  destruct (skip_lines cfg false s) as [|a s']; [reflexivity|].
  destruct (parse_fields cfg (S (length (a :: s'))) (a :: s')) as [fs rest|e|]; try reflexivity.
  destruct (count_bad fpr fs); [reflexivity|]. rewrite IH. reflexivity.
Qed.

Lemma csv_read_all_set_nil : forall cfg input, csv_read_all_set cfg [] input = csv_read_all cfg input.
Proof.
  intros cfg input. unfold csv_read_all_set, csv_read_all.
  destruct (delims_ok cfg); [|reflexivity]. apply read_all_set_nil.
Qed.

Lemma read_all_set_fuel_ok : forall cfg fuel sets fpr s, (length s < fuel)%nat ->
  read_all_set cfg fuel sets fpr s <> CsvOutOfFuel.
Proof.
  induction fuel as [|fuel IH]; intros sets fpr s Hl; [lia|].
  cbn [read_all_set].
  pose proof (skip_lines_len cfg s false) as K.
  destruct (skip_lines cfg false s) as [|a s']; [discriminate|].
  destruct (parse_fields cfg (S (length (a :: s'))) (a :: s')) as [fs rest|e|] eqn:P.
  - destruct (count_bad _ fs); [discriminate|].
    apply parse_fields_ok_len in P. destruct P as [_ [P2 _]]. specialize (P2 ltac:(discriminate)).
    match goal with |- context [read_all_set cfg fuel ?a ?b rest] =>
      assert (Hr : read_all_set cfg fuel a b rest <> CsvOutOfFuel) by (apply IH; lia);
      destruct (read_all_set cfg fuel a b rest); congruence end.
  - discriminate.
  - exfalso. revert P. apply parse_fields_fuel_ok. lia.
Qed.

Lemma csv_read_all_set_total : forall cfg sets input,
  (exists rs, csv_read_all_set cfg sets input = CsvRecords rs) \/
  (exists before e, csv_read_all_set cfg sets input = CsvError before e).
Proof.
  intros cfg sets input. unfold csv_read_all_set.
  destruct (delims_ok cfg); [|right; eauto].
  pose proof (read_all_set_fuel_ok cfg (S (length (csv_normalize input))) sets (cc_fpr cfg) (csv_normalize input)
                ltac:(lia)) as H.
  destruct (read_all_set cfg (S (length (csv_normalize input))) sets (cc_fpr cfg) (csv_normalize input));
    [left|right|congruence]; eauto.
Qed.

Fixpoint count_ok (fpr : Z) (rs : list (list str)) : Prop :=
  match rs with
  | [] => True
  | r :: rest => r <> [] /\ (0 < fpr -> Z.of_nat (length r) = fpr) /\ count_ok (next_fpr fpr r) rest
  end.

Lemma count_bad_false : forall fpr fs, count_bad fpr fs = false -> 0 < fpr -> Z.of_nat (length fs) = fpr.
Proof.
  intros fpr fs H Hp. unfold count_bad in H.
  destruct (Z.ltb_spec 0 fpr); [|lia].
  destruct (Z.eqb_spec (Z.of_nat (length fs)) fpr); [assumption|discriminate].
Qed.

Lemma read_all_count : forall cfg fuel fpr s,
  match read_all cfg fuel fpr s with
  | CsvRecords rs => count_ok fpr rs
  | CsvError before _ => count_ok fpr before
  | CsvOutOfFuel => True
  end.
Proof.
  induction fuel as [|fuel IH]; intros fpr s; [exact I|].
  cbn [read_all].
  destruct (skip_lines cfg false s) as [|a s']; [exact I|].
  destruct (parse_fields cfg (S (length (a :: s'))) (a :: s')) as [fs rest|e|] eqn:P; [|exact I|exact I].
  destruct (count_bad fpr fs) eqn:C; [exact I|].
  apply parse_fields_ok_len in P. destruct P as [_ [_ P3]].
  specialize (IH (next_fpr fpr fs) rest).
  destruct (read_all cfg fuel (next_fpr fpr fs) rest); cbn [count_ok]; auto using count_bad_false.
Qed.

Lemma next_fpr_nonzero : forall fpr r, fpr <> 0 -> next_fpr fpr r = fpr.
Proof. intros fpr r H. unfold next_fpr. destruct (Z.eqb_spec fpr 0); [contradiction|reflexivity]. Qed.

Lemma count_ok_nonempty : forall rs fpr, count_ok fpr rs -> Forall (fun r => r <> []) rs.
Proof. induction rs as [|r rs IH]; intros fpr H; [constructor|]. destruct H as [H1 [_ H3]]. constructor; eauto. Qed.

Lemma count_ok_pos : forall rs fpr, 0 < fpr -> count_ok fpr rs -> Forall (fun r => Z.of_nat (length r) = fpr) rs.
Proof.
  induction rs as [|r rs IH]; intros fpr Hp H; [constructor|]. destruct H as [_ [H2 H3]].
  rewrite next_fpr_nonzero in H3 by lia. constructor; auto.
Qed.

Lemma count_ok_zero : forall rs, count_ok 0 rs -> exists n, Forall (fun r => length r = n) rs.
Proof.
  intros [|r rs] H; [exists O; constructor|]. destruct H as [H1 [_ H3]]. exists (length r).
  constructor; [reflexivity|].
  unfold next_fpr in H3. cbn in H3.
  assert (Hp : 0 < Z.of_nat (length r)) by (destruct r; [congruence|simpl length; lia]).
  apply count_ok_pos in H3; [|exact Hp].
  eapply Forall_impl; [|exact H3]. cbv beta. intros x Hx. lia.
Qed.

Lemma csv_read_all_field_count : forall cfg input rs,
  (csv_read_all cfg input = CsvRecords rs \/ exists e, csv_read_all cfg input = CsvError rs e) ->
  Forall (fun r => r <> []) rs /\
  (0 < cc_fpr cfg -> Forall (fun r => Z.of_nat (length r) = cc_fpr cfg) rs) /\
  (cc_fpr cfg = 0 -> exists n, Forall (fun r => length r = n) rs).
Proof.
  intros cfg input rs H.
  assert (C : count_ok (cc_fpr cfg) rs).
  { unfold csv_read_all in H. destruct (delims_ok cfg).
    - pose proof (read_all_count cfg (S (length (csv_normalize input))) (cc_fpr cfg) (csv_normalize input)) as R.
      destruct H as [H|[e H]]; rewrite H in R; exact R.
    - destruct H as [H|[e H]]; [discriminate|]. inversion H; subst. exact I. }
  split; [eapply count_ok_nonempty; exact C|]. split.
  - intros Hp. apply count_ok_pos; assumption.
  - intros Hz. rewrite Hz in C. apply count_ok_zero; assumption.
Qed.
