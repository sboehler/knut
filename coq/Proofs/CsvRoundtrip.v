(* Model/Csv.v: reading what the canonical writer csv_write wrote gives back the records. *)
From Coq Require Import ZArith List Bool Lia.
From Knut Require Import Model.Bytes Model.Csv Proofs.CsvProofs.
Import ListNotations.
Open Scope Z_scope.

Lemma valid_delim_facts : forall c, valid_delim c = true -> c <> b_quote /\ c <> b_cr /\ c <> b_nl.
Proof.
  intros c H. unfold valid_delim in H.
  repeat (apply andb_prop in H; destruct H as [H ?]).
  repeat match goal with
  | [ E : negb (c =? ?k) = true |- _ ] => apply negb_true_iff in E; apply Z.eqb_neq in E
  end.
  auto.
Qed.

Lemma delims_ok_facts : forall cfg, delims_ok cfg = true ->
  cc_comma cfg <> b_quote /\ cc_comma cfg <> b_cr /\ cc_comma cfg <> b_nl /\
  (cc_comment cfg = 0 \/ cc_comment cfg <> b_quote).
Proof.
  intros cfg H. unfold delims_ok in H.
  apply andb_prop in H. destruct H as [H H2]. apply andb_prop in H. destruct H as [_ H1].
  apply valid_delim_facts in H1. destruct H1 as [A [B C]].
  repeat split; auto.
  apply orb_prop in H2. destruct H2 as [H2|H2].
  - left. apply Z.eqb_eq. exact H2.
  - right. apply valid_delim_facts in H2. tauto.
Qed.

Lemma write_fields_one : forall c f tail, write_fields c [f] tail = b_quote :: csv_escape f ++ b_quote :: b_nl :: tail.
Proof. reflexivity. Qed.

Lemma write_fields_more : forall c f g r tail,
  write_fields c (f :: g :: r) tail = b_quote :: csv_escape f ++ b_quote :: c :: write_fields c (g :: r) tail.
Proof. reflexivity. Qed.

Lemma write_fields_head : forall c fs tail, fs <> [] -> exists Y, write_fields c fs tail = b_quote :: Y.
Proof.
  intros c [|f [|g r]] tail H; [congruence| |].
  - rewrite write_fields_one. eauto.
  - rewrite write_fields_more. eauto.
Qed.

Lemma write_fields_len : forall c fs tail, (length fs + length tail <= length (write_fields c fs tail))%nat.
Proof.
  induction fs as [|f fs IH]; intros tail; [simpl; lia|].
  destruct fs as [|g r].
  - rewrite write_fields_one. simpl. rewrite app_length. simpl. lia.
  - rewrite write_fields_more. specialize (IH tail). simpl length in *. rewrite app_length. simpl length. lia.
Qed.

Lemma csv_write_len : forall c rs, Forall (fun r => r <> []) rs -> (length rs <= length (csv_write c rs))%nat.
Proof.
  induction rs as [|r rs IH]; intros H; [simpl; lia|].
  inversion H as [|? ? Hr Hrs]; subst. specialize (IH Hrs). cbn [csv_write].
  pose proof (write_fields_len c r (csv_write c rs)) as L.
  destruct r; [congruence|]. simpl length in *. lia.
Qed.

Lemma norm_cons : forall a t, a <> b_cr -> csv_normalize (a :: t) = a :: csv_normalize t.
Proof. intros a t H. cbn [csv_normalize]. destruct (Z.eqb_spec a b_cr); [contradiction|reflexivity]. Qed.

Lemma norm_cr : forall d t, d <> b_nl -> csv_normalize (b_cr :: d :: t) = b_cr :: csv_normalize (d :: t).
Proof.
  intros d t H. change (csv_normalize (b_cr :: d :: t))
    with (if b_cr =? b_cr then if d =? b_nl then csv_normalize (d :: t) else b_cr :: csv_normalize (d :: t)
          else b_cr :: csv_normalize (d :: t)).
  rewrite Z.eqb_refl. destruct (Z.eqb_spec d b_nl); [contradiction|reflexivity].
Qed.

Lemma escape_head : forall f, f <> [] -> exists d Y, csv_escape f = d :: Y /\ (hd 0 f <> b_nl -> d <> b_nl).
Proof.
  intros [|a f] H; [congruence|]. cbn [csv_escape hd]. destruct (Z.eqb_spec a b_quote) as [E|E].
  - exists b_quote, (b_quote :: csv_escape f). split; [reflexivity|]. intros _. discriminate.
  - exists a, (csv_escape f). split; [reflexivity|]. auto.
Qed.

Lemma norm_escape : forall f rest, no_crlf f = true ->
  csv_normalize (csv_escape f ++ b_quote :: rest) = csv_escape f ++ b_quote :: csv_normalize rest.
Proof.
  induction f as [|a f IH]; intros rest H.
  - cbn [csv_escape app]. apply norm_cons. discriminate.
  - cbn [no_crlf] in H. apply andb_prop in H. destruct H as [H1 H2]. specialize (IH rest H2).
    cbn [csv_escape]. destruct (Z.eqb_spec a b_quote) as [E|E].
    + cbn [app]. rewrite !norm_cons by discriminate. rewrite IH. reflexivity.
    + cbn [app]. destruct (Z.eqb_spec a b_cr) as [E2|E2].
      * subst a. destruct f as [|d f'].
        { cbn [csv_escape app] in *. rewrite norm_cr by discriminate. rewrite IH. reflexivity. }
        assert (Hd : d <> b_nl).
        { cbn [andb] in H1. apply negb_true_iff in H1. apply Z.eqb_neq. exact H1. }
        destruct (escape_head (d :: f') ltac:(discriminate)) as [d' [Y [EY HY]]].
        cbn [hd] in HY. specialize (HY Hd).
        rewrite EY in *. cbn [app] in *. rewrite norm_cr by exact HY. rewrite IH. reflexivity.
      * rewrite norm_cons by exact E2. rewrite IH. reflexivity.
Qed.

Lemma norm_write_fields : forall c fs tail, c <> b_cr -> Forall (fun f => no_crlf f = true) fs ->
  csv_normalize (write_fields c fs tail) = write_fields c fs (csv_normalize tail).
Proof.
  intros c fs tail Hc. induction fs as [|f fs IH]; intros H.
  - cbn [write_fields]. apply norm_cons. discriminate.
  - inversion H as [|? ? Hf Hfs]; subst. destruct fs as [|g r].
    + rewrite !write_fields_one. rewrite norm_cons by discriminate. rewrite norm_escape by exact Hf.
      rewrite norm_cons by discriminate. reflexivity.
    + rewrite !write_fields_more. rewrite norm_cons by discriminate. rewrite norm_escape by exact Hf.
      rewrite norm_cons by exact Hc. rewrite IH by exact Hfs. reflexivity.
Qed.

Lemma norm_write : forall c rs, c <> b_cr -> Forall (Forall (fun f => no_crlf f = true)) rs ->
  csv_normalize (csv_write c rs) = csv_write c rs.
Proof.
  intros c rs Hc. induction rs as [|r rs IH]; intros H; [reflexivity|].
  inversion H as [|? ? Hr Hrs]; subst. cbn [csv_write].
  rewrite norm_write_fields by assumption. rewrite IH by assumption. reflexivity.
Qed.

Lemma scan_quoted_escape : forall lz c f rest, c <> b_quote -> c <> b_nl ->
  scan_quoted lz c (csv_escape f ++ b_quote :: c :: rest) = QDone f TComma rest /\
  scan_quoted lz c (csv_escape f ++ b_quote :: b_nl :: rest) = QDone f TEol rest.
Proof.
  intros lz c f rest Hq Hn. induction f as [|a f [IH1 IH2]].
  - cbn [csv_escape app]. rewrite !scan_quoted_cons. rewrite Z.eqb_refl. cbv iota.
    destruct (Z.eqb_spec c b_quote); [contradiction|]. rewrite Z.eqb_refl.
    destruct (Z.eqb_spec b_nl b_quote); [discriminate|].
    destruct (Z.eqb_spec b_nl c); [congruence|]. rewrite Z.eqb_refl. split; reflexivity.
  - cbn [csv_escape]. destruct (Z.eqb_spec a b_quote) as [E|E].
    + subst a. cbn [app]. split.
      * rewrite scan_quoted_cons. rewrite Z.eqb_refl. cbv iota. rewrite IH1. reflexivity.
      * rewrite scan_quoted_cons. rewrite Z.eqb_refl. cbv iota. rewrite IH2. reflexivity.
    + cbn [app]. split.
      * rewrite scan_quoted_cons. destruct (Z.eqb_spec a b_quote); [contradiction|]. rewrite IH1. reflexivity.
      * rewrite scan_quoted_cons. destruct (Z.eqb_spec a b_quote); [contradiction|]. rewrite IH2. reflexivity.
Qed.

Lemma trim_line_quote : forall X, trim_line (b_quote :: X) = (b_quote :: X, false).
Proof. intros [|b [|c t]]; reflexivity. Qed.

Lemma field_start_quote : forall cfg X, field_start cfg (b_quote :: X) = (b_quote :: X, false).
Proof. intros cfg X. unfold field_start. destruct (cc_trim cfg); [apply trim_line_quote|reflexivity]. Qed.

Lemma parse_write_fields : forall cfg fs fuel tail,
  cc_comma cfg <> b_quote -> cc_comma cfg <> b_nl -> fs <> [] -> (length fs <= fuel)%nat ->
  parse_fields cfg fuel (write_fields (cc_comma cfg) fs tail) = RecOk fs tail.
Proof.
  intros cfg fs fuel tail Hq Hn. revert fuel. induction fs as [|f fs IH]; intros fuel Hne Hl; [congruence|].
  destruct fuel as [|fuel]; [simpl in Hl; lia|].
  destruct (scan_quoted_escape (cc_lazy cfg) (cc_comma cfg) f) with (rest := tail) as [_ E2]; [assumption|assumption|].
  destruct fs as [|g r].
  - rewrite write_fields_one. rewrite parse_fields_S. unfold first_field. rewrite field_start_quote. cbv iota beta.
    rewrite Z.eqb_refl. rewrite E2. reflexivity.
  - rewrite write_fields_more. rewrite parse_fields_S. unfold first_field. rewrite field_start_quote. cbv iota beta.
    rewrite Z.eqb_refl.
    destruct (scan_quoted_escape (cc_lazy cfg) (cc_comma cfg) f) with (rest := write_fields (cc_comma cfg) (g :: r) tail)
      as [E1 _]; [assumption|assumption|].
    rewrite E1. rewrite IH; [reflexivity|discriminate|simpl in *; lia].
Qed.

Lemma skip_lines_quote : forall cfg X, (cc_comment cfg = 0 \/ cc_comment cfg <> b_quote) ->
  skip_lines cfg false (b_quote :: X) = b_quote :: X.
Proof.
  intros cfg X H. cbn [skip_lines].
  destruct (Z.eqb_spec b_quote b_nl); [discriminate|].
  destruct H as [H|H].
  - rewrite H. reflexivity.
  - destruct (Z.eqb_spec b_quote (cc_comment cfg)); [congruence|]. rewrite andb_false_r. reflexivity.
Qed.

Lemma read_all_step : forall cfg fuel fpr s fs rest,
  skip_lines cfg false s = s -> s <> [] -> parse_fields cfg (S (length s)) s = RecOk fs rest -> count_bad fpr fs = false ->
  read_all cfg (S fuel) fpr s =
    match read_all cfg fuel (next_fpr fpr fs) rest with
    | CsvRecords rs => CsvRecords (fs :: rs)
    | CsvError b e => CsvError (fs :: b) e
    | CsvOutOfFuel => CsvOutOfFuel
    end.
Proof.
  intros cfg fuel fpr s fs rest K Hne P C. cbn [read_all]. rewrite K.
  destruct s as [|a s']; [congruence|]. rewrite P, C. reflexivity.
Qed.

Lemma count_ok_not_bad : forall fpr r, (0 < fpr -> Z.of_nat (length r) = fpr) -> count_bad fpr r = false.
Proof.
  intros fpr r H. unfold count_bad. destruct (Z.ltb_spec 0 fpr) as [Hp|Hp]; [|reflexivity].
  rewrite (H Hp). rewrite Z.eqb_refl. reflexivity.
Qed.

Lemma read_write : forall cfg rs fuel fpr, delims_ok cfg = true -> count_ok fpr rs -> (length rs < fuel)%nat ->
  read_all cfg fuel fpr (csv_write (cc_comma cfg) rs) = CsvRecords rs.
Proof.
  intros cfg rs fuel fpr Hd. destruct (delims_ok_facts cfg Hd) as [Hq [_ [Hn Hc]]].
  revert fuel fpr. induction rs as [|r rs IH]; intros fuel fpr C Hl.
  - destruct fuel; [lia|]. reflexivity.
  - destruct fuel as [|fuel]; [lia|]. destruct C as [C1 [C2 C3]]. cbn [csv_write].
    destruct (write_fields_head (cc_comma cfg) r (csv_write (cc_comma cfg) rs) C1) as [Y EY].
    rewrite (read_all_step cfg fuel fpr _ r (csv_write (cc_comma cfg) rs)).
    + rewrite IH; [reflexivity|exact C3|simpl in Hl; lia].
    + rewrite EY. apply skip_lines_quote. exact Hc.
    + rewrite EY. discriminate.
    + apply parse_write_fields; try assumption.
      pose proof (write_fields_len (cc_comma cfg) r (csv_write (cc_comma cfg) rs)). lia.
    + apply count_ok_not_bad. exact C2.
Qed.

(* the friendlier form of the field-count condition implies count_ok *)
Lemma count_ok_of_nocheck : forall rs fpr, fpr < 0 -> Forall (fun r => r <> []) rs -> count_ok fpr rs.
Proof.
  induction rs as [|r rs IH]; intros fpr Hf H; [exact I|]. inversion H; subst. cbn [count_ok].
  rewrite next_fpr_nonzero by lia. repeat split; auto. intros; lia.
Qed.

Lemma count_ok_of_pos : forall rs fpr, 0 < fpr -> Forall (fun r => Z.of_nat (length r) = fpr) rs -> count_ok fpr rs.
Proof.
  induction rs as [|r rs IH]; intros fpr Hf H; [exact I|].
  pose proof (Forall_inv H) as Hr. pose proof (Forall_inv_tail H) as Hrs. cbv beta in Hr. cbn [count_ok].
  rewrite next_fpr_nonzero by lia. repeat split; auto. intros E. rewrite E in Hr. simpl in Hr. lia.
Qed.

Lemma count_ok_of_zero : forall rs n, Forall (fun r => r <> []) rs -> Forall (fun r => length r = n) rs -> count_ok 0 rs.
Proof.
  intros [|r rs] n Hne H; [exact I|]. inversion Hne as [|? ? Hr Hrs]; subst. inversion H as [|? ? Hl Hls]; subst.
  cbn [count_ok]. split; [exact Hr|]. split; [intros; lia|].
  unfold next_fpr. cbn.
  apply count_ok_of_pos.
  - destruct r; [congruence|simpl length; lia].
  - eapply Forall_impl; [|exact Hls]. cbv beta. intros x Hx. rewrite Hx. reflexivity.
Qed.

Lemma csv_roundtrip : forall cfg rs,
  delims_ok cfg = true ->
  Forall (fun r => r <> []) rs ->
  Forall (Forall (fun f => no_crlf f = true)) rs ->
  (cc_fpr cfg < 0 \/
   (0 < cc_fpr cfg /\ Forall (fun r => Z.of_nat (length r) = cc_fpr cfg) rs) \/
   (cc_fpr cfg = 0 /\ exists n, Forall (fun r => length r = n) rs)) ->
  csv_read_all cfg (csv_write (cc_comma cfg) rs) = CsvRecords rs.
Proof.
  intros cfg rs Hd Hne Hcr Hcount. unfold csv_read_all. rewrite Hd.
  destruct (delims_ok_facts cfg Hd) as [_ [Hcr' _]].
  rewrite norm_write by assumption.
  apply read_write; [exact Hd| |].
  - destruct Hcount as [H|[[H1 H2]|[H1 [n H2]]]].
    + apply count_ok_of_nocheck; assumption.
    + apply count_ok_of_pos; assumption.
    + rewrite H1. eapply count_ok_of_zero; eassumption.
  - pose proof (csv_write_len (cc_comma cfg) rs Hne). lia.
Qed.
