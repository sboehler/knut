(* Proofs about NewPartition / Align (Model/Date.v) against Spec/DateSpec.v. *)
From Coq Require Import ZArith List Bool Lia.
From Knut Require Import Model.Date Spec.DateSpec Proofs.CalendarSweep Proofs.CalendarProofs.
Import ListNotations.
Open Scope bool_scope.
Open Scope Z_scope.

Lemma civil_le_mono d1 d2 : d1 <= d2 -> civil d1 = civil d2 \/ lex_lt (civil d1) (civil d2).
Proof.
  intros H. destruct (Z.eq_dec d1 d2) as [->|Hne]; [left; reflexivity|right].
  apply civil_lt_mono. lia.
Qed.

(* the first day of month q of e's year, for a month q not after e's month *)
Lemma month_start_facts e q :
  1 <= q <= month_of e ->
  let S := of_civil (year_of e) q 1 in
  S <= e /\
  (forall d, S <= d <= e -> year_of d = year_of e /\ q <= month_of d <= month_of e) /\
  (year_of (S - 1) < year_of e \/ (year_of (S - 1) = year_of e /\ month_of (S - 1) < q)).
Proof.
  intros Hq S.
  pose proof (month_range e) as Hm. pose proof (day_range e) as Hd.
  assert (HS : civil S = (year_of e, q, 1)).
  { apply civil_of_civil. unfold valid_civil. pose proof (dim_pos (year_of e) q). lia. }
  assert (HSe : S <= e).
  { destruct (Z_le_gt_dec S e) as [|Hgt]; [assumption|exfalso].
    assert (Hlt : e < S) by lia. apply civil_lt_mono in Hlt.
    rewrite HS, (year_month_day e) in Hlt. unfold lex_lt in Hlt. lia. }
  split; [exact HSe|split].
  - intros d [H1 H2].
    pose proof (month_range d) as Hmd. pose proof (day_range d) as Hdd.
    apply civil_le_mono in H1. apply civil_le_mono in H2.
    rewrite HS, (year_month_day d) in H1. rewrite (year_month_day d), (year_month_day e) in H2.
    unfold lex_lt in *.
    destruct H1 as [H1|H1]; [inversion H1|]; destruct H2 as [H2|H2]; try inversion H2; lia.
  - assert (Hlt : S - 1 < S) by lia. apply civil_lt_mono in Hlt.
    pose proof (day_range (S - 1)) as Hdd.
    rewrite HS, (year_month_day (S - 1)) in Hlt. unfold lex_lt in Hlt. lia.
Qed.

(* the calendar units: the key is the year and a function g of the month, and the unit of e
   starts with month q, the least month with g's value at e's month *)
Lemma month_unit_start e q (g : Z -> Z) :
  1 <= q <= month_of e ->
  (forall m, 1 <= m <= month_of e -> (g m = g (month_of e) <-> q <= m)) ->
  let S := of_civil (year_of e) q 1 in
  S <= e /\
  (forall d, S <= d <= e -> (year_of d, g (month_of d)) = (year_of e, g (month_of e))) /\
  (year_of (S - 1), g (month_of (S - 1))) <> (year_of e, g (month_of e)).
Proof.
  intros Hq Hg. destruct (month_start_facts e q Hq) as (Hle & Hin & Hb).
  set (S := of_civil (year_of e) q 1) in *.
  split; [exact Hle|split].
  - intros d Hd. destruct (Hin d Hd) as [-> Hm]. f_equal. apply Hg; lia.
  - intros Heq. injection Heq as Hy Hm. pose proof (month_range (S - 1)) as Hr.
    destruct Hb as [Hb|[_ Hb]]; [lia|]. apply Hg in Hm; lia.
Qed.

Lemma start_of_month e q : 1 <= q <= 12 -> go_date (year_of e) q 1 = of_civil (year_of e) q 1.
Proof. intros Hq. rewrite go_date_valid_month by exact Hq. apply Z.add_0_r. Qed.

(* StartOf goes to the first day of e's unit: the days from there to e have e's key, the day
   before has another *)
Lemma start_of_spec e iv :
  iv <> Once ->
  start_of e iv <= e /\
  (forall d, start_of e iv <= d <= e -> unit_key iv d = unit_key iv e) /\
  unit_key iv (start_of e iv - 1) <> unit_key iv e.
Proof.
  intros Hiv. pose proof (month_range e) as Hm. destruct iv; [congruence| | | | |].
  - cbn. split; [lia|split]; [intros d Hd; f_equal; lia|intros H; injection H; lia].
  - unfold start_of, weekday, unit_key. rewrite add_date_days.
    split; [|split]; [|intros d Hd; f_equal|intros H; apply (f_equal fst) in H; cbn [fst] in H];
      Z.div_mod_to_equations; lia.
  - unfold start_of. rewrite start_of_month by exact Hm.
    apply (month_unit_start e (month_of e) (fun m => m)); lia.
  - unfold start_of.
    assert (Hq : 1 <= (month_of e - 1) / 3 * 3 + 1 <= month_of e) by (Z.div_mod_to_equations; lia).
    rewrite start_of_month by lia.
    apply (month_unit_start e _ (fun m => (m - 1) / 3)); [exact Hq|].
    intros m Hr. Z.div_mod_to_equations. lia.
  - unfold start_of. rewrite start_of_month by lia.
    apply (month_unit_start e 1 (fun _ => 0)); lia.
Qed.

Lemma start_of_le e iv : start_of e iv <= e.
Proof. destruct iv; [apply Z.le_refl|apply start_of_spec; discriminate..]. Qed.

(* [chain iv s e ps]: what the loop of NewPartition builds for the window [s, e] when it is
   not cut short by --last: either nothing (e = s - 1 ... more generally e < s) or periods
   tiling [s, e], each inside one unit, adjacent ones in different units. *)
Inductive chain (iv : interval) (s : Z) : Z -> list period -> Prop :=
| chain_nil e : e < s -> chain iv s e []
| chain_snoc e st ps :
    s <= st <= e ->
    (forall d, st <= d <= e -> unit_key iv d = unit_key iv e) ->
    (s < st -> unit_key iv (st - 1) <> unit_key iv e) ->
    chain iv s (st - 1) ps ->
    chain iv s e (ps ++ [mkPeriod st e]).

Lemma tiles_snoc s e st ps :
  st <= e -> (ps = [] -> st = s) -> (ps <> [] -> tiles s (st - 1) ps) ->
  tiles s e (ps ++ [mkPeriod st e]).
Proof.
  revert s. induction ps as [|p ps IH]; intros s Hle Hnil Hcons.
  - cbn. rewrite <- (Hnil eq_refl). lia.
  - specialize (Hcons ltac:(discriminate)).
    cbn [app tiles] in *. destruct Hcons as (Hs & Hpe & Hrest).
    split; [exact Hs|split; [exact Hpe|]].
    destruct ps as [|q ps].
    + cbn. lia.
    + cbn [app]. change (q :: ps ++ [mkPeriod st e]) with ((q :: ps) ++ [mkPeriod st e]).
      apply IH; [exact Hle|discriminate|intros _; exact Hrest].
Qed.

Lemma chain_empty iv s e ps : chain iv s e ps -> e < s -> ps = [].
Proof. intros H Hlt. inversion H; subst; [reflexivity|lia]. Qed.

Lemma chain_nonempty iv s e ps : chain iv s e ps -> s <= e -> ps <> [].
Proof. intros H Hle. inversion H; subst; [lia|]. destruct ps0; discriminate. Qed.

Lemma chain_tiles iv s e ps : chain iv s e ps -> s <= e -> tiles s e ps.
Proof.
  induction 1 as [e Hlt|e st ps Hst Hu Hb Hc IH]; intros Hle; [lia|].
  apply tiles_snoc; [lia| |].
  - intros ->. inversion Hc; subst; [lia|]. destruct ps; discriminate.
  - intros Hne. apply IH. destruct (Z_le_gt_dec s (st - 1)); [assumption|].
    exfalso. apply Hne. eapply chain_empty; eauto. lia.
Qed.

Lemma chain_within iv s e ps : chain iv s e ps -> Forall (within_unit iv) ps.
Proof.
  induction 1 as [e Hlt|e st ps Hst Hu Hb Hc IH]; [constructor|].
  apply Forall_app. split; [exact IH|]. constructor; [|constructor].
  intros d1 d2 H1 H2. cbn in *. unfold same_unit. rewrite (Hu d1 H1), (Hu d2 H2). reflexivity.
Qed.

Lemma units_change_snoc iv ps q :
  units_change iv ps ->
  (ps <> [] -> ~ same_unit iv (p_end (last ps q)) (p_start q)) ->
  units_change iv (ps ++ [q]).
Proof.
  induction ps as [|p ps IH]; intros Hu Hl.
  - cbn. tauto.
  - cbn [app units_change] in *. destruct Hu as [H1 H2].
    destruct ps as [|p2 ps].
    + cbn. split; [|tauto]. apply Hl. discriminate.
    + cbn [app]. split; [exact H1|].
      change (p2 :: ps ++ [q]) with ((p2 :: ps) ++ [q]).
      apply IH; [exact H2|]. intros _. apply Hl. discriminate.
Qed.

Lemma chain_last_end iv s e ps d : chain iv s e ps -> ps <> [] -> p_end (last ps d) = e.
Proof.
  intros H Hne. inversion H; subst; [congruence|].
  rewrite last_last. reflexivity.
Qed.

Lemma chain_units_change iv s e ps : chain iv s e ps -> units_change iv ps.
Proof.
  induction 1 as [e Hlt|e st ps Hst Hu Hb Hc IH]; [exact I|].
  apply units_change_snoc; [exact IH|].
  intros Hne. rewrite (chain_last_end _ _ _ _ _ Hc Hne). cbn.
  unfold same_unit. rewrite (Hu st ltac:(lia)).
  apply Hb. pose proof (chain_nonempty _ _ _ _ Hc) as Hn.
  destruct (Z_le_gt_dec s (st - 1)); [lia|].
  exfalso. apply Hne. eapply chain_empty; eauto. lia.
Qed.

(* one iteration: the period ending at e starts with e's unit, or at s if that is later *)
Lemma np_loop_S f s iv last c e acc :
  np_loop (S f) s iv last c e acc =
  if (e <? s) || ((last <=? c) && (0 <? last)) then Some acc
  else np_loop f s iv last (c + 1) (Z.max s (start_of e iv) - 1)
                 (mkPeriod (Z.max s (start_of e iv)) e :: acc).
Proof.
  cbn [np_loop]. rewrite add_date_days.
  replace (if start_of e iv <? s then s else start_of e iv) with (Z.max s (start_of e iv))
    by (destruct (Z.ltb_spec (start_of e iv) s); lia).
  reflexivity.
Qed.

Lemma np_loop_acc fuel s iv last c e acc :
  np_loop fuel s iv last c e acc = option_map (fun l => l ++ acc) (np_loop fuel s iv last c e []).
Proof.
  revert c e acc. induction fuel as [|f IH]; intros c e acc; cbn [np_loop].
  - destruct ((e <? s) || ((last <=? c) && (0 <? last))); reflexivity.
  - destruct ((e <? s) || ((last <=? c) && (0 <? last))); [reflexivity|].
    rewrite IH. rewrite (IH _ _ [_]).
    destruct (np_loop f s iv last (c + 1) _ []); cbn; [|reflexivity].
    rewrite <- app_assoc. reflexivity.
Qed.

(* with enough fuel the unlimited loop builds a chain *)
Lemma np_loop_chain iv (Hiv : iv <> Once) fuel s c e :
  e - s + 1 <= Z.of_nat fuel ->
  exists ps, np_loop fuel s iv 0 c e [] = Some ps /\ chain iv s e ps.
Proof.
  revert c e. induction fuel as [|f IH]; intros c e Hf; [cbn [np_loop]|rewrite np_loop_S];
    replace (0 <? 0) with false by reflexivity; rewrite !andb_false_r, !orb_false_r.
  - destruct (e <? s) eqn:E; [|lia]. exists []. split; [reflexivity|constructor; lia].
  - destruct (e <? s) eqn:E; [exists []; split; [reflexivity|constructor; lia]|].
    destruct (start_of_spec e iv Hiv) as (Hle & Hunit & Hbound).
    set (st := Z.max s (start_of e iv)).
    destruct (IH (c + 1) (st - 1) ltac:(lia)) as (ps & Hps & Hch).
    rewrite np_loop_acc, Hps. cbn [option_map].
    exists (ps ++ [mkPeriod st e]). split; [reflexivity|].
    constructor; [lia| | |exact Hch].
    + intros d Hd. apply Hunit. lia.
    + intros Hlt. replace st with (start_of e iv) by lia. exact Hbound.
Qed.

Lemma lastn_snoc {A} k (l : list A) x : lastn (S k) (l ++ [x]) = lastn k l ++ [x].
Proof.
  unfold lastn. rewrite app_length. cbn [length].
  replace (length l + 1 - S k)%nat with (length l - k)%nat by lia.
  rewrite skipn_app. replace (length l - k - length l)%nat with 0%nat by lia. reflexivity.
Qed.

(* the loop limited by --last yields the last (last - c) periods of the unlimited loop *)
Lemma np_loop_last fuel s iv last c c0 e :
  0 < last -> 0 <= c <= last ->
  forall full, np_loop fuel s iv 0 c0 e [] = Some full ->
  np_loop fuel s iv last c e [] = Some (lastn (Z.to_nat (last - c)) full).
Proof.
  intros Hl. revert c c0 e. induction fuel as [|f IH]; intros c c0 e Hc full Hfull;
    [cbn [np_loop] in *|rewrite np_loop_S in *];
    replace (0 <? 0) with false in Hfull by reflexivity;
    rewrite !andb_false_r, !orb_false_r in Hfull.
  - destruct (e <? s) eqn:E; [|discriminate]. inversion Hfull; subst. cbn. reflexivity.
  - destruct (e <? s) eqn:E.
    + inversion Hfull; subst. cbn. reflexivity.
    + cbn [orb]. destruct ((last <=? c) && (0 <? last)) eqn:E2.
      * assert (c = last) by lia. subst c. rewrite Z.sub_diag. cbn.
        unfold lastn. rewrite Nat.sub_0_r, skipn_all. reflexivity.
      * set (st := Z.max s (start_of e iv)) in *.
        rewrite np_loop_acc in Hfull.
        destruct (np_loop f s iv 0 (c0 + 1) (st - 1) []) as [full'|] eqn:E3; [|discriminate].
        cbn in Hfull. inversion Hfull; subst full.
        rewrite np_loop_acc. rewrite (IH (c + 1) _ _ ltac:(lia) full' E3). cbn [option_map].
        f_equal. replace (Z.to_nat (last - c)) with (S (Z.to_nat (last - (c + 1)))) by lia.
        rewrite lastn_snoc. reflexivity.
Qed.

Definition full_periods (s e : Z) (iv : interval) : list period :=
  match np_loop (Z.to_nat (e - s) + 1) s iv 0 0 e [] with Some l => l | None => [] end.

Lemma full_periods_chain s e iv : iv <> Once -> chain iv s e (full_periods s e iv).
Proof.
  intros Hiv. unfold full_periods.
  destruct (np_loop_chain iv Hiv (Z.to_nat (e - s) + 1) s 0 e ltac:(lia)) as (ps & Hps & Hch).
  rewrite Hps. exact Hch.
Qed.

Lemma new_partition_unlimited s e iv :
  iv <> Once -> s <> 0 ->
  new_partition (mkPeriod s e) iv 0 = POk (mkPartition (mkPeriod s e) iv (full_periods s e iv)).
Proof.
  intros Hiv Hs. unfold new_partition, full_periods. cbn [p_start p_end].
  destruct (s =? 0) eqn:E; [lia|].
  destruct (np_loop_chain iv Hiv (Z.to_nat (e - s) + 1) s 0 e ltac:(lia)) as (ps & Hps & Hch).
  rewrite Hps. destruct iv; congruence.
Qed.

Lemma new_partition_last s e iv n :
  iv <> Once -> s <> 0 -> 0 < n ->
  new_partition (mkPeriod s e) iv n =
  POk (mkPartition (mkPeriod s e) iv (lastn (Z.to_nat n) (full_periods s e iv))).
Proof.
  intros Hiv Hs Hn. unfold new_partition, full_periods. cbn [p_start p_end].
  destruct (s =? 0) eqn:E; [lia|].
  destruct (np_loop_chain iv Hiv (Z.to_nat (e - s) + 1) s 0 e ltac:(lia)) as (ps & Hps & Hch).
  rewrite Hps.
  rewrite (np_loop_last _ s iv n 0 0 e Hn ltac:(lia) ps Hps). rewrite Z.sub_0_r.
  destruct iv; congruence.
Qed.

(* --last n hides all but the last n periods; 0 means no limit *)
Definition hidden (n : Z) (full : list period) : nat :=
  if n =? 0 then 0%nat else (length full - Z.to_nat n)%nat.

Lemma new_partition_shown s e iv n pt :
  iv <> Once -> 0 <= n -> new_partition (mkPeriod s e) iv n = POk pt ->
  periods pt = skipn (hidden n (full_periods s e iv)) (full_periods s e iv).
Proof.
  intros Hiv Hn H. assert (Hs : s <> 0) by (intros ->; cbn in H; discriminate). unfold hidden.
  destruct (Z.eqb_spec n 0) as [->|Hn0].
  - rewrite new_partition_unlimited in H by assumption. injection H as <-. reflexivity.
  - rewrite new_partition_last in H by (try assumption; lia). injection H as <-. reflexivity.
Qed.

Lemma np_loop_some iv fuel s last c e :
  e - s + 1 <= Z.of_nat fuel -> exists ps, np_loop fuel s iv last c e [] = Some ps.
Proof.
  revert c e. induction fuel as [|f IH]; intros c e Hf; [cbn [np_loop]|rewrite np_loop_S];
    (destruct ((e <? s) || ((last <=? c) && (0 <? last))) eqn:E; [eexists; reflexivity|]);
    apply orb_false_iff in E; [lia|].
  pose proof (start_of_le e iv) as Hle.
  rewrite np_loop_acc.
  destruct (IH (c + 1) (Z.max s (start_of e iv) - 1) ltac:(lia)) as [ps ->]. eexists; reflexivity.
Qed.

Lemma new_partition_no_fuel_exhaustion p iv n : new_partition p iv n <> POutOfFuel.
Proof.
  destruct p as [s e]. unfold new_partition. cbn [p_start p_end].
  destruct (s =? 0) eqn:E; [discriminate|].
  destruct iv; try discriminate.
  all: match goal with |- context [np_loop ?f ?s0 ?iv ?n0 0 ?e0 []] =>
         destruct (np_loop_some iv f s0 n0 0 e0 ltac:(lia)) as [ps ->] end; discriminate.
Qed.

Lemma tiles_skipn s e ps k :
  tiles s e ps -> (k < length ps)%nat ->
  tiles (first_start (skipn k ps) s) e (skipn k ps).
Proof.
  revert s ps. induction k as [|k IH]; intros s ps Ht Hk.
  - cbn [skipn]. destruct ps as [|p ps]; [cbn in Ht; tauto|]. cbn [first_start].
    cbn [tiles] in *. destruct Ht as (Hs & Hrest). rewrite Hs. split; [reflexivity|].
    rewrite Hs in Hrest. exact Hrest.
  - destruct ps as [|p ps]; [cbn in Hk; lia|]. cbn [skipn].
    cbn [tiles] in Ht. destruct Ht as (Hs & Hpe & Hrest).
    destruct ps as [|q ps]; [cbn in Hk; lia|].
    specialize (IH _ _ Hrest ltac:(cbn in *; lia)).
    destruct (skipn k (q :: ps)) eqn:E.
    + cbn in IH. tauto.
    + cbn [first_start] in *. exact IH.
Qed.

Lemma units_change_skipn iv ps k : units_change iv ps -> units_change iv (skipn k ps).
Proof.
  revert ps; induction k as [|k IH]; intros ps H; [exact H|].
  destruct ps as [|p ps]; [exact I|]. cbn [skipn]. apply IH. cbn in H. tauto.
Qed.

Lemma Forall_skipn {A} (P : A -> Prop) l k : Forall P l -> Forall P (skipn k l).
Proof.
  revert l; induction k as [|k IH]; intros l H; [exact H|].
  destruct l; [constructor|]. cbn. apply IH. inversion H; assumption.
Qed.

Lemma tiles_bounds s e ps :
  tiles s e ps -> Forall (fun p => s <= p_start p /\ p_start p <= p_end p /\ p_end p <= e) ps.
Proof.
  revert s. induction ps as [|p ps IH]; intros s H; [constructor|].
  cbn [tiles] in H. destruct H as (Hs & Hpe & Hrest).
  destruct ps as [|q ps]; [constructor; [lia|constructor]|].
  specialize (IH _ Hrest). constructor.
  - inversion IH; subst. lia.
  - eapply Forall_impl; [|exact IH]. cbn. intros r Hr. lia.
Qed.

Lemma tiles_end_ge s e ps : tiles s e ps -> Forall (fun p => p_end p <= e) ps /\ s <= e.
Proof.
  intros H. pose proof (tiles_bounds _ _ _ H) as Hb. split.
  - eapply Forall_impl; [|exact Hb]. cbn. intros p Hp. apply Hp.
  - destruct ps; [destruct H|]. inversion Hb; subst. lia.
Qed.

Lemma align_in_period s e ps p d :
  tiles s e ps -> In p ps -> p_start p <= d <= p_end p -> align_list ps d = Some (p_end p).
Proof.
  revert s. induction ps as [|q ps IH]; intros s Ht Hin Hd; [destruct Hin|].
  cbn [tiles] in Ht. destruct Ht as (Hs & Hpe & Hrest).
  cbn [align_list]. destruct Hin as [->|Hin].
  - replace (p_end p <? d) with false by lia. reflexivity.
  - destruct ps as [|q2 ps]; [destruct Hin|].
    pose proof (tiles_bounds _ _ _ Hrest) as Hb. rewrite Forall_forall in Hb. specialize (Hb p Hin).
    replace (p_end q <? d) with true by lia. cbn [negb].
    eapply IH; eauto.
Qed.

Lemma align_before s e ps d :
  tiles s e ps -> d < s -> align_list ps d = option_map p_end (hd_error ps).
Proof.
  destruct ps as [|p ps]; intros Ht Hd; [reflexivity|].
  cbn [tiles] in Ht. destruct Ht as (Hs & Hpe & _).
  cbn. replace (p_end p <? d) with false by lia. reflexivity.
Qed.

(* Align goes to the end of the first period that does not end before d: none after e, and
   one in [d, e] otherwise (the end of the first period for a d before the tiling) *)
Lemma align_list_tiles s e ps d :
  tiles s e ps ->
  (e < d -> align_list ps d = None) /\ (d <= e -> exists c, align_list ps d = Some c /\ d <= c <= e).
Proof.
  revert s. induction ps as [|q ps IH]; intros s Ht; [destruct Ht|].
  pose proof (tiles_bounds _ _ _ Ht) as Hb. inversion Hb as [|q' ps' Hq _]; subst.
  cbn [tiles] in Ht. destruct Ht as (Hs & Hpe & Hrest). cbn [align_list].
  destruct (Z.ltb_spec (p_end q) d) as [Hlt|Hge]; cbn [negb].
  - destruct ps as [|q2 ps]; [|exact (IH _ Hrest)].
    split; [reflexivity|lia].
  - split; [lia|]. intros Hd. exists (p_end q). split; [reflexivity|lia].
Qed.

(* from the start of a tiling on, the search by period ends finds the period that holds d *)
Lemma align_column s e ps d : tiles s e ps -> s <= d -> align_list ps d = column_of ps d.
Proof.
  revert s. induction ps as [|q ps IH]; intros s Ht Hd; [reflexivity|].
  cbn [tiles] in Ht. destruct Ht as (Hs & Hpe & Hrest). cbn [align_list column_of].
  destruct (Z.ltb_spec (p_end q) d) as [Hlt|Hge]; cbn [negb].
  - replace ((p_start q <=? d) && (d <=? p_end q)) with false by lia.
    destruct ps as [|q2 ps]; [reflexivity|]. apply (IH _ Hrest). lia.
  - replace ((p_start q <=? d) && (d <=? p_end q)) with true by lia. reflexivity.
Qed.

(* Align agrees with the property's wording on every date *)
Lemma align_spec_ok s e ps d : tiles s e ps -> align_list ps d = align_spec ps d.
Proof.
  intros Ht. unfold align_spec. destruct ps as [|p0 ps0] eqn:Eps; [reflexivity|]. rewrite <- Eps in *.
  assert (Hs : p_start p0 = s) by (rewrite Eps in Ht; cbn in Ht; tauto).
  destruct (d <? p_start p0) eqn:E1.
  - rewrite (align_before s e ps d Ht ltac:(lia)). rewrite Eps. reflexivity.
  - apply (align_column s e); [exact Ht|lia].
Qed.

Lemma tiles_b_iff s e ps : tiles_b s e ps = true <-> tiles s e ps.
Proof.
  revert s. induction ps as [|p ps IH]; intros s; cbn [tiles tiles_b]; [split; [discriminate|tauto]|].
  rewrite !andb_true_iff, Z.eqb_eq, Z.leb_le.
  destruct ps as [|q ps]; [rewrite Z.eqb_eq; tauto|]. rewrite IH. tauto.
Qed.

Lemma bsearch_spec f : forall fuel i j,
  (forall a b, i <= a <= b -> b < j -> f a = true -> f b = true) ->
  i <= j -> j - i < 2 ^ Z.of_nat fuel ->
  let r := bsearch fuel f i j in
  i <= r <= j /\ (forall a, i <= a < r -> f a = false) /\ (r < j -> f r = true).
Proof.
  induction fuel as [|fu IH]; intros i j Hmono Hij Hf; cbn [bsearch].
  - cbn in Hf. assert (i = j) by lia. subst. cbn. repeat split; intros; lia.
  - destruct (i <? j) eqn:E; [|assert (i = j) by lia; subst; cbn; repeat split; intros; lia].
    assert (Hpow : 2 ^ Z.of_nat (S fu) = 2 * 2 ^ Z.of_nat fu).
    { rewrite Nat2Z.inj_succ, Z.pow_succ_r by lia. reflexivity. }
    set (h := (i + j) / 2).
    assert (Hh : i <= h < j /\ 2 * h <= i + j <= 2 * h + 1) by (unfold h; Z.div_mod_to_equations; lia).
    clearbody h.
    destruct (f h) eqn:Efh; cbn [negb].
    + destruct (IH i h) as (H1 & H2 & H3).
      * intros a b Ha Hb. apply Hmono; lia.
      * lia.
      * lia.
      * cbv zeta. repeat split; try lia; [exact H2|].
        intros Hr. destruct (Z.eq_dec (bsearch fu f i h) h) as [->|Hne]; [exact Efh|apply H3; lia].
    + destruct (IH (h + 1) j) as (H1 & H2 & H3).
      * intros a b Ha Hb. apply Hmono; lia.
      * lia.
      * lia.
      * cbv zeta. repeat split; try lia; [|exact H3].
        intros a Ha. destruct (Z_le_gt_dec a h) as [Hle|Hgt]; [|apply H2; lia].
        destruct (f a) eqn:Efa; [|reflexivity].
        rewrite (Hmono a h ltac:(lia) ltac:(lia) Efa) in Efh. discriminate.
Qed.

Lemma key_eqb_iff a b : key_eqb a b = true <-> a = b.
Proof.
  destruct a, b; unfold key_eqb; cbn [fst snd]. rewrite andb_true_iff, !Z.eqb_eq.
  split; [intros [-> ->]; reflexivity|intros H; inversion H; tauto].
Qed.

Lemma units_change_b_iff iv ps : units_change_b iv ps = true <-> units_change iv ps.
Proof.
  induction ps as [|p ps IH]; cbn [units_change units_change_b]; [tauto|].
  rewrite andb_true_iff, IH. destruct ps as [|q ps]; [tauto|].
  rewrite negb_true_iff. unfold same_unit_b, same_unit.
  rewrite <- (key_eqb_iff (unit_key iv (p_end p)) (unit_key iv (p_start q))).
  destruct (key_eqb _ _); intuition congruence.
Qed.

Theorem partition_unlimited s e iv :
  iv <> Once -> s <> 0 ->
  exists ps,
    new_partition (mkPeriod s e) iv 0 = POk (mkPartition (mkPeriod s e) iv ps) /\
    (e < s -> ps = []) /\
    (s <= e -> tiles s e ps) /\
    Forall (within_unit iv) ps /\
    units_change iv ps.
Proof.
  intros Hiv Hs. exists (full_periods s e iv).
  pose proof (full_periods_chain s e iv Hiv) as Hch.
  split; [apply new_partition_unlimited; assumption|].
  split; [eapply chain_empty; eauto|].
  split; [eapply chain_tiles; eauto|].
  split; [eapply chain_within; eauto|eapply chain_units_change; eauto].
Qed.

Theorem partition_last s e iv n :
  iv <> Once -> s <> 0 -> 0 < n ->
  exists full ps,
    new_partition (mkPeriod s e) iv 0 = POk (mkPartition (mkPeriod s e) iv full) /\
    new_partition (mkPeriod s e) iv n = POk (mkPartition (mkPeriod s e) iv ps) /\
    ps = lastn (Z.to_nat n) full /\
    (s <= e -> tiles (first_start ps s) e ps) /\
    Forall (within_unit iv) ps /\ units_change iv ps.
Proof.
  intros Hiv Hs Hn. exists (full_periods s e iv), (lastn (Z.to_nat n) (full_periods s e iv)).
  pose proof (full_periods_chain s e iv Hiv) as Hch.
  split; [apply new_partition_unlimited; assumption|].
  split; [apply new_partition_last; assumption|].
  split; [reflexivity|].
  split; [|split].
  - intros Hle. pose proof (chain_tiles _ _ _ _ Hch Hle) as Ht.
    pose proof (chain_nonempty _ _ _ _ Hch Hle) as Hne.
    unfold lastn. apply tiles_skipn; [exact Ht|].
    destruct (full_periods s e iv); [congruence|cbn [length]; lia].
  - unfold lastn. apply Forall_skipn. eapply chain_within; eauto.
  - unfold lastn. apply units_change_skipn. eapply chain_units_change; eauto.
Qed.

Theorem partition_once s e n :
  s <> 0 -> new_partition (mkPeriod s e) Once n = POk (mkPartition (mkPeriod s e) Once [mkPeriod s e]).
Proof. intros Hs. unfold new_partition. cbn [p_start]. destruct (s =? 0) eqn:E; [lia|reflexivity]. Qed.

Lemma new_partition_span p iv n pt : new_partition p iv n = POk pt -> span pt = p /\ pt_interval pt = iv.
Proof.
  unfold new_partition. destruct (p_start p =? 0); [discriminate|].
  destruct iv; try (intros H; inversion H; subst; cbn; tauto).
  all: destruct (np_loop _ _ _ _ _ _ _); try discriminate; intros H; inversion H; subst; cbn; tauto.
Qed.

(* every period list the model produces for a window with s <= e tiles [first shown start, e] *)
Lemma new_partition_tiles s e iv n pt :
  iv <> Once -> s <= e -> 0 <= n ->
  new_partition (mkPeriod s e) iv n = POk pt ->
  tiles (first_start (periods pt) s) e (periods pt) /\ s <= first_start (periods pt) s.
Proof.
  intros Hiv Hle Hn H. rewrite (new_partition_shown s e iv n pt Hiv Hn H).
  pose proof (full_periods_chain s e iv Hiv) as Hch.
  pose proof (chain_nonempty _ _ _ _ Hch Hle) as Hne.
  set (full := full_periods s e iv) in *. set (k := hidden n full).
  assert (Hk : (k < length full)%nat).
  { unfold k, hidden. destruct full; [congruence|]. destruct (Z.eqb_spec n 0); cbn [length]; lia. }
  split; [apply tiles_skipn; [exact (chain_tiles _ _ _ _ Hch Hle)|exact Hk]|].
  pose proof (Forall_skipn _ _ k (tiles_bounds _ _ _ (chain_tiles _ _ _ _ Hch Hle))) as Hb.
  destruct (skipn k full) as [|p ps]; [cbn; lia|]. cbn [first_start]. inversion Hb; subst. lia.
Qed.

Theorem align_correct s e iv n pt d :
  iv <> Once -> s <= e -> 0 <= n ->
  new_partition (mkPeriod s e) iv n = POk pt ->
  align pt d = align_spec (periods pt) d /\
  (e < d -> align pt d = None) /\
  (d <= e -> exists c, align pt d = Some c /\ d <= c <= e).
Proof.
  intros Hiv Hle Hn H.
  destruct (new_partition_tiles s e iv n pt Hiv Hle Hn H) as [Ht Hfs].
  unfold align. split; [eapply align_spec_ok; eauto|exact (align_list_tiles _ _ _ d Ht)].
Qed.

Theorem align_once s e n pt d :
  new_partition (mkPeriod s e) Once n = POk pt ->
  align pt d = if d <=? e then Some e else None.
Proof.
  intros H. assert (Hs : s <> 0) by (intros ->; cbn in H; discriminate).
  rewrite partition_once in H by assumption. inversion H; subst. unfold align; cbn.
  destruct (e <? d) eqn:E1, (d <=? e) eqn:E2; try lia; reflexivity.
Qed.

(* the specifications treat Once apart and every other interval alike *)
Lemma match_not_once {T} iv (a b : T) :
  iv <> Once ->
  match iv with Once => a | Daily => b | Weekly => b | Monthly => b | Quarterly => b | Yearly => b end = b.
Proof. destruct iv; congruence. Qed.

Theorem align_expected s e iv n pt d :
  0 <= n -> new_partition (mkPeriod s e) iv n = POk pt ->
  align pt d = column_expected s e iv (periods pt) d.
Proof.
  intros Hn H. unfold column_expected.
  destruct (interval_eqb iv Once) eqn:Eiv.
  { destruct iv; try discriminate. eapply align_once; eauto. }
  assert (Hiv : iv <> Once) by (intros ->; discriminate).
  rewrite match_not_once by exact Hiv.
  destruct (e <? s) eqn:Ees.
  - unfold align. rewrite (new_partition_shown s e iv n pt Hiv Hn H).
    rewrite (chain_empty _ _ _ _ (full_periods_chain s e iv Hiv)), skipn_nil by lia. reflexivity.
  - apply (align_correct s e iv n pt d Hiv ltac:(lia) Hn H).
Qed.

(* the executable specification used on the implementation's output accepts the model's output *)
Lemma within_unit_b_of iv p : p_start p <= p_end p -> within_unit iv p -> within_unit_b iv p = true.
Proof.
  intros Hle H. unfold within_unit_b, same_unit_b. apply key_eqb_iff. apply H; lia.
Qed.

Theorem model_meets_spec s e iv n pt :
  0 <= n -> new_partition (mkPeriod s e) iv n = POk pt ->
  is_partition_b s e iv n (periods pt) = true.
Proof.
  intros Hn H.
  assert (Hs : s <> 0) by (intros ->; cbn in H; discriminate).
  destruct (interval_eqb iv Once) eqn:Eiv.
  { destruct iv; try discriminate. rewrite partition_once in H by assumption.
    inversion H; subst. cbn. rewrite !Z.eqb_refl. reflexivity. }
  assert (Hiv : iv <> Once) by (intros ->; discriminate).
  unfold is_partition_b. rewrite match_not_once by exact Hiv.
  pose proof (full_periods_chain s e iv Hiv) as Hch.
  pose proof (new_partition_shown s e iv n pt Hiv Hn H) as Hps.
  destruct (e <? s) eqn:Ees.
  - rewrite Hps, (chain_empty _ _ _ _ Hch), skipn_nil by lia. reflexivity.
  - assert (Hle : s <= e) by lia.
    destruct (new_partition_tiles s e iv n pt Hiv Hle Hn H) as [Ht Hfs].
    rewrite !andb_true_iff. repeat split.
    + apply tiles_b_iff. exact Ht.
    + rewrite Hps. apply forallb_forall, Forall_forall, Forall_skipn.
      eapply Forall_impl; [|exact (Forall_and (tiles_bounds _ _ _ (chain_tiles _ _ _ _ Hch Hle)) (chain_within _ _ _ _ Hch))].
      intros p [Hb Hw]. apply within_unit_b_of; [lia|exact Hw].
    + rewrite Hps. apply units_change_b_iff, units_change_skipn, (chain_units_change _ _ _ _ Hch).
    + rewrite Hps. set (full := full_periods s e iv) in *.
      assert (Hfull_start : first_start full s = s).
      { pose proof (chain_tiles _ _ _ _ Hch Hle) as Htf. destruct full; [reflexivity|]. cbn in *. tauto. }
      unfold hidden. destruct (Z.eqb_spec n 0) as [->|Hn0].
      * cbn. rewrite Hfull_start. apply Z.eqb_refl.
      * replace (0 <? n) with true by lia. rewrite skipn_length.
        rewrite andb_true_iff, orb_true_iff. split; [apply Z.leb_le; lia|].
        destruct (Nat.le_gt_cases (Z.to_nat n) (length full)) as [Hc|Hc].
        -- left. apply Z.eqb_eq. lia.
        -- right. replace (length full - Z.to_nat n)%nat with 0%nat by lia.
           cbn [skipn]. rewrite Hfull_start. apply Z.eqb_refl.
    + lia.
Qed.
