(* Decimal.Equal (Model/Dec.v [dec_equal]) is equality of values: it is an equivalence relation
   on (coefficient, exponent) records, [add] respects it, and [is_zero] is invariant under it.
   Values are compared as integers after scaling both numbers to a common smaller exponent. *)
From Coq Require Import ZArith List Bool Lia.
From Knut Require Import Model.Dec Proofs.DecProofs.
Import ListNotations.
Open Scope bool_scope.
Open Scope Z_scope.

Lemma dec_equal_min a b :
  dec_equal a b = true <-> scale_to a (Z.min (ex a) (ex b)) = scale_to b (Z.min (ex a) (ex b)).
Proof.
  unfold dec_equal, cmp. rewrite rescale_pair_normal. cbn [coef].
  destruct (Z.compare_spec (scale_to a (Z.min (ex a) (ex b))) (scale_to b (Z.min (ex a) (ex b)))) as [H|H|H];
    cbn; split; intro H0; try reflexivity; try assumption; try discriminate; lia.
Qed.

(* equality can be tested at any common exponent below both *)
Lemma dec_equal_scaled a b m :
  m <= ex a -> m <= ex b -> (dec_equal a b = true <-> scale_to a m = scale_to b m).
Proof.
  intros Ha Hb. rewrite dec_equal_min.
  set (m0 := Z.min (ex a) (ex b)).
  rewrite <- (scale_to_trans a m0 m), <- (scale_to_trans b m0 m) by (unfold m0; lia).
  pose proof (pow10_nonneg_pos (m0 - m) ltac:(unfold m0; lia)) as Hp.
  split; intro H.
  - rewrite H. reflexivity.
  - apply Z.mul_reg_r in H; [assumption|lia].
Qed.

Definition deqv (a b : dec) : Prop := dec_equal a b = true.

Lemma deqv_refl a : deqv a a.
Proof. unfold deqv. apply (dec_equal_scaled a a (ex a)); lia. Qed.

Lemma deqv_sym a b : deqv a b -> deqv b a.
Proof.
  unfold deqv. intros H.
  apply (dec_equal_scaled a b (Z.min (ex a) (ex b))) in H; try lia.
  apply (dec_equal_scaled b a (Z.min (ex a) (ex b))); try lia.
Qed.

Lemma deqv_trans a b c : deqv a b -> deqv b c -> deqv a c.
Proof.
  unfold deqv. intros H1 H2.
  set (m := Z.min (ex a) (Z.min (ex b) (ex c))).
  apply (dec_equal_scaled a b m) in H1; try (unfold m; lia).
  apply (dec_equal_scaled b c m) in H2; try (unfold m; lia).
  apply (dec_equal_scaled a c m); try (unfold m; lia). congruence.
Qed.

Lemma deqv_add_l a a' b : deqv a a' -> deqv (add a b) (add a' b).
Proof.
  unfold deqv. intros H.
  set (m := Z.min (ex a) (Z.min (ex a') (ex b))).
  apply (dec_equal_scaled a a' m) in H; try (unfold m; lia).
  apply (dec_equal_scaled (add a b) (add a' b) m); try (rewrite ex_add; unfold m; lia).
  rewrite !scale_to_add by (unfold m; lia). rewrite H. reflexivity.
Qed.

Lemma deqv_is_zero a b : deqv a b -> is_zero a = is_zero b.
Proof.
  unfold deqv. intros H.
  apply (dec_equal_scaled a b (Z.min (ex a) (ex b))) in H; try lia.
  unfold is_zero. apply Bool.eq_iff_eq_true. rewrite !Z.eqb_eq.
  rewrite <- (scale_to_eq_0 a (Z.min (ex a) (ex b))), <- (scale_to_eq_0 b (Z.min (ex a) (ex b))), H by lia.
  reflexivity.
Qed.

(* comparing with a third number gives the same answer for equal values *)
Lemma deqv_equal_l a b q : deqv a b -> dec_equal a q = dec_equal b q.
Proof.
  intros H.
  destruct (dec_equal a q) eqn:E1, (dec_equal b q) eqn:E2; try reflexivity.
  - assert (deqv b q) by (eapply deqv_trans; [apply deqv_sym; eassumption|exact E1]).
    unfold deqv in *. congruence.
  - assert (deqv a q) by (eapply deqv_trans; [eassumption|exact E2]).
    unfold deqv in *. congruence.
Qed.

Lemma deqv_zero a b : is_zero a = true -> is_zero b = true -> deqv a b.
Proof.
  unfold deqv, is_zero. intros Ha Hb. apply Z.eqb_eq in Ha. apply Z.eqb_eq in Hb.
  apply (dec_equal_scaled a b (Z.min (ex a) (ex b))); try lia.
  unfold scale_to. rewrite Ha, Hb. reflexivity.
Qed.
