(* C09 (b): the decimal text that Decimal.String writes is a NORMAL FORM.
   [to_string d] is sign, integer digits without superfluous leading zero, and -- only if some are
   left after trimming -- a point and fraction digits that do not end in '0' ([to_string_canon]).
   Every numeral of that shape is printed again exactly as it stands when it has been read with
   decimal.NewFromString ([to_string_of_canon]); hence

     of_string (to_string q) = Some x  ->  to_string x = to_string q       ([to_string_normal_form])

   and (with DecStringProofs.of_to_string) re-reading always succeeds, gives a decimal of the same
   value, and printing is idempotent through the text ([reread_spec]). *)
From Coq Require Import ZArith List Bool Lia Arith.
From Knut Require Import Model.Str Model.Dec Spec.TableSpec Proofs.DecProofs Proofs.DecStringProofs.
Import ListNotations.
Open Scope bool_scope.
Open Scope Z_scope.

Lemma parse_digits_inj : forall a b acc v,
  0 <= acc -> length a = length b ->
  parse_digits a acc = Some v -> parse_digits b acc = Some v -> a = b.
Proof.
  induction a as [|c a IH]; intros b acc v Hacc Hlen Ha Hb.
  - destruct b; [reflexivity|discriminate].
  - destruct b as [|d b]; [discriminate|]. cbn [length] in Hlen. injection Hlen as Hlen.
    cbn [parse_digits] in Ha, Hb.
    destruct (is_digit c) eqn:Hc; [|discriminate]. destruct (is_digit d) eqn:Hd; [|discriminate].
    apply is_digit_range in Hc. apply is_digit_range in Hd.
    pose proof (parse_digits_range _ _ _ Ha ltac:(lia)) as Ra.
    pose proof (parse_digits_range _ _ _ Hb ltac:(lia)) as Rb.
    rewrite <- Hlen in Rb. pose proof (pow10_nat_pos (length a)) as HP.
    set (P := 10 ^ Z.of_nat (length a)) in *.
    assert (c = d) by nia. subst d. f_equal.
    eapply IH; [|exact Hlen|exact Ha|exact Hb]. lia.
Qed.

(* a digit string is its value's numeral behind leading zeros *)
Lemma digits_of_parse s v : s <> [] -> parse_digits s 0 = Some v ->
  exists k, s = repeat 48 k ++ digits v.
Proof.
  intros Hne Hp.
  pose proof (parse_digits_range _ _ _ Hp ltac:(lia)) as Hr.
  assert (Hv : 0 <= v) by lia.
  destruct (digits_spec v Hv) as (D1 & D2 & D3 & D4 & D5).
  assert (Hlen : (length (digits v) <= length s)%nat).
  { destruct (Z.eq_dec v 0) as [->|Hnz].
    - rewrite digits_zero. destruct s; [congruence|cbn [length]; lia].
    - pose proof (digits_length_bounds v ltac:(lia)) as Hb.
      destruct (le_lt_dec (length (digits v)) (length s)) as [Hle|Hgt]; [exact Hle|exfalso].
      assert (Hpow : 10 ^ Z.of_nat (length s) <= 10 ^ (Z.of_nat (length (digits v)) - 1))
        by (apply Z.pow_le_mono_r; lia).
      lia. }
  exists (length s - length (digits v))%nat.
  eapply parse_digits_inj with (acc := 0) (v := v); [lia| |exact Hp|].
  - rewrite app_length, repeat_length. lia.
  - rewrite parse_digits_app, parse_digits_zeros, Z.mul_0_l. exact D3.
Qed.

(* no leading zero: the string IS the numeral *)
Lemma digits_of_parse_nz s v : s <> [] -> hd 0 s <> 48 -> parse_digits s 0 = Some v -> digits v = s.
Proof.
  intros Hne Hhd Hp. destruct (digits_of_parse s v Hne Hp) as [k Hk].
  destruct k as [|k]; [now rewrite Hk|]. exfalso. apply Hhd. rewrite Hk. reflexivity.
Qed.

(* s does not end in '0' *)
Definition trimmed (s : str) : Prop := match rev s with 48 :: _ => False | _ => True end.

Lemma strip_rev_fix r : match r with 48 :: _ => False | _ => True end -> strip_trailing_zeros_rev r = r.
Proof.
  destruct r as [|c t]; [reflexivity|]. rewrite strip_rev_cons.
  destruct (Z.eqb_spec c 48) as [->|Hne]; [tauto|reflexivity].
Qed.

Lemma strip_rev_trimmed r : match strip_trailing_zeros_rev r with 48 :: _ => False | _ => True end.
Proof.
  induction r as [|c t IH]; [exact I|]. rewrite strip_rev_cons.
  destruct (Z.eqb_spec c 48) as [->|Hne]; [exact IH|].
  rewrite (head48 c t False True). destruct (Z.eqb_spec c 48); [contradiction|exact I].
Qed.

Lemma strip_trimmed s : trimmed (strip_trailing_zeros s).
Proof. unfold trimmed, strip_trailing_zeros. rewrite rev_involutive. apply strip_rev_trimmed. Qed.

Lemma strip_fix s : trimmed s -> strip_trailing_zeros s = s.
Proof. unfold trimmed, strip_trailing_zeros. intros H. rewrite strip_rev_fix by exact H. apply rev_involutive. Qed.

Lemma trimmed_app_r a b : b <> [] -> trimmed (a ++ b) -> trimmed b.
Proof.
  unfold trimmed. rewrite rev_app_distr. intros Hne.
  destruct (rev b) as [|c t] eqn:E; [|cbn [app]; tauto].
  exfalso. apply Hne. rewrite <- (rev_involutive b), E. reflexivity.
Qed.

(* integer digits: "0" or no leading zero *)
Definition ip_canon (ip : str) : Prop := ip = [48] \/ (ip <> [] /\ hd 0 ip <> 48).

(* what NewFromString makes of a canonical numeral, printed again, is the numeral *)
Lemma to_string_of_canon (neg : bool) ip fp v :
  ip_canon ip -> forallb is_digit ip = true -> forallb is_digit fp = true -> trimmed fp ->
  parse_digits (ip ++ fp) 0 = Some v -> (neg = true -> 0 < v) ->
  to_string (mkDec (if neg then - v else v) (- Z.of_nat (length fp))) =
  (if neg then [45] else []) ++ ip ++ frac_tail fp.
Proof.
  intros Hip Dip Dfp Htr Hp Hneg.
  pose proof (parse_digits_range _ _ _ Hp ltac:(lia)) as Hr. assert (Hv : 0 <= v) by lia.
  set (x := mkDec (if neg then - v else v) (- Z.of_nat (length fp))).
  assert (Hsgn : sgn x = if neg then [45] else []).
  { unfold sgn, x. cbn [coef]. destruct neg.
    - specialize (Hneg eq_refl). replace (- v <? 0) with true by lia. reflexivity.
    - replace (v <? 0) with false by lia. reflexivity. }
  assert (Habs : Z.abs (coef x) = v) by (unfold x; cbn [coef]; destruct neg; lia).
  assert (Hipne : ip <> []) by (destruct Hip as [->|[H _]]; [discriminate|exact H]).
  assert (Hcase : fp = [] \/ fp <> []) by (destruct fp; [left; reflexivity|right; discriminate]).
  destruct Hcase as [Efp|Hfpne].
  - (* an integer *)
    subst fp.
    unfold to_string. rewrite to_string_gen_int by (unfold x; cbn [ex length]; lia).
    rewrite Hsgn, Habs. unfold x. cbn [ex length Z.of_nat]. change (10 ^ (- 0)) with 1. rewrite Z.mul_1_r.
    rewrite app_nil_r in Hp. cbn [frac_tail]. rewrite app_nil_r. f_equal.
    destruct Hip as [->|[_ Hhd]].
    + cbn in Hp. injection Hp as <-. reflexivity.
    + now apply digits_of_parse_nz.
  - assert (Hex : ex x < 0). { unfold x. cbn [ex]. destruct fp; [congruence|cbn [length]; lia]. }
    unfold to_string. rewrite (to_string_gen_neg_ex true x Hex). rewrite Hsgn. f_equal.
    assert (Hsplit : frac_split x = (ip, fp)).
    { unfold frac_split. rewrite Habs. replace (- ex x) with (Z.of_nat (length fp)) by (unfold x; cbn [ex]; lia).
      assert (Hne2 : ip ++ fp <> []) by (intros Hc; apply app_eq_nil in Hc; tauto).
      destruct (digits_of_parse (ip ++ fp) v Hne2 Hp) as [k Hk].
      destruct Hip as [->|[_ Hhd]].
      - (* "0.fp": the numeral of v is fp without its leading zeros *)
        destruct k as [|k].
        + (* v's numeral would start with '0': v = 0, then fp = [] *)
          exfalso. cbn [repeat app] in Hk.
          destruct (Z.eq_dec v 0) as [->|Hnz].
          * rewrite digits_zero in Hk. injection Hk as Hk. congruence.
          * pose proof (digits_no_leading_zero v ltac:(lia)) as Hnl. rewrite <- Hk in Hnl. cbn [hd] in Hnl. congruence.
        + cbn [repeat app] in Hk. injection Hk as Hk.
          assert (Hl : length fp = (k + length (digits v))%nat) by (rewrite Hk, app_length, repeat_length; reflexivity).
          replace (Z.of_nat (length fp) <? Z.of_nat (length (digits v))) with false by lia.
          f_equal. unfold repeat_z.
          replace (Z.to_nat (Z.of_nat (length fp) - Z.of_nat (length (digits v)))) with k by lia.
          symmetry. exact Hk.
      - (* no leading zero: ip ++ fp is the numeral of v *)
        assert (Hd : digits v = ip ++ fp).
        { apply digits_of_parse_nz; [exact Hne2| |exact Hp]. destruct ip; [congruence|exact Hhd]. }
        rewrite Hd, app_length.
        assert (Hipl : (0 < length ip)%nat) by (destruct ip; [congruence|cbn [length]; lia]).
        replace (Z.of_nat (length fp) <? Z.of_nat (length ip + length fp)) with true
          by (symmetry; apply Z.ltb_lt; lia).
        replace (Z.to_nat (Z.of_nat (length ip + length fp) - Z.of_nat (length fp))) with (length ip) by lia.
        rewrite firstn_app, Nat.sub_diag, firstn_all, firstn_O, app_nil_r.
        rewrite skipn_app, Nat.sub_diag, skipn_all. reflexivity. }
    rewrite Hsplit. cbn [fst snd]. rewrite strip_fix by exact Htr. reflexivity.
Qed.

Lemma hd_firstn {A} (d : A) k l : (0 < k)%nat -> hd d (firstn k l) = hd d l.
Proof. destruct k; [lia|]. destruct l; reflexivity. Qed.

Lemma frac_split_canon d : ex d < 0 -> ip_canon (fst (frac_split d)).
Proof.
  intros He. unfold frac_split.
  set (s := digits (Z.abs (coef d))).
  destruct (- ex d <? Z.of_nat (length s)) eqn:E; cbn [fst]; [|left; reflexivity].
  right. apply Z.ltb_lt in E.
  set (k := Z.to_nat (Z.of_nat (length s) - - ex d)). assert (Hk : (0 < k <= length s)%nat) by lia.
  split.
  - intros Hc. pose proof (firstn_length k s) as Hl. rewrite Hc in Hl. cbn [length] in Hl. lia.
  - rewrite hd_firstn by lia. unfold s. apply digits_no_leading_zero.
    destruct (Z.eq_dec (Z.abs (coef d)) 0) as [H0|H0]; [|lia].
    exfalso. unfold s in E. rewrite H0, digits_zero in E. cbn [length] in E. lia.
Qed.

Lemma to_string_canon d : exists ip fp v,
  to_string d = sgn d ++ ip ++ frac_tail fp /\
  ip_canon ip /\ forallb is_digit ip = true /\ forallb is_digit fp = true /\ trimmed fp /\
  parse_digits (ip ++ fp) 0 = Some v /\ (coef d < 0 -> 0 < v).
Proof.
  destruct (Z_lt_ge_dec (ex d) 0) as [He|He].
  - unfold to_string. rewrite (to_string_gen_neg_ex true d He).
    destruct (frac_split_spec d He) as (H1 & H2 & H3 & H4 & H5).
    pose proof (frac_split_canon d He) as Hc.
    destruct (frac_split d) as [ip FP]. cbn [fst snd] in *.
    destruct (strip_trailing_zeros_spec FP) as [k Hk].
    pose proof (strip_trimmed FP) as Htr.
    remember (strip_trailing_zeros FP) as fp eqn:Efp. clear Efp. subst FP.
    rewrite forallb_app in H3. apply andb_prop in H3. destruct H3 as [H3 _].
    rewrite app_assoc, parse_digits_app in H5.
    destruct (parse_digits (ip ++ fp) 0) as [v|] eqn:Hv; [|discriminate].
    rewrite parse_digits_zeros in H5. injection H5 as H5.
    exists ip, fp, v. repeat split; try assumption.
    intros Hneg. pose proof (pow10_nat_pos k). pose proof (parse_digits_range _ _ _ Hv ltac:(lia)). nia.
  - unfold to_string. rewrite (to_string_gen_int true d) by lia.
    set (V := Z.abs (coef d) * 10 ^ ex d).
    assert (HV : 0 <= V). { unfold V. pose proof (Z.pow_pos_nonneg 10 (ex d) ltac:(lia) ltac:(lia)). nia. }
    destruct (digits_spec V HV) as (D1 & D2 & D3 & D4 & D5).
    exists (digits V), [], V. cbn [frac_tail]. rewrite !app_nil_r.
    repeat split; try assumption; try reflexivity.
    + destruct (Z.eq_dec V 0) as [H0|H0]; [left; now apply D5|right; split; [exact D1|apply D4; lia]].
    + intros Hneg. unfold V. pose proof (Z.pow_pos_nonneg 10 (ex d) ltac:(lia) ltac:(lia)). nia.
Qed.

(* (b) of Properties/C09.v: what has been printed and read back prints the same bytes *)
Theorem to_string_normal_form q x : of_string (to_string q) = Some x -> to_string x = to_string q.
Proof.
  destruct (to_string_canon q) as (ip & fp & v & Hs & Hc & Dip & Dfp & Htr & Hp & Hneg).
  assert (Hipne : ip <> []) by (destruct Hc as [->|[H _]]; [discriminate|exact H]).
  rewrite Hs. intros Hx.
  pose proof (eq_trans (eq_sym Hx) (of_string_numeral (coef q <? 0) ip fp v Hipne Dip Dfp Hp)) as Hxx.
  injection Hxx as ->.
  apply (to_string_of_canon (coef q <? 0) ip fp v Hc Dip Dfp Htr Hp). intros E. apply Hneg. lia.
Qed.

(* the quantity as it is after a trip through its text *)
Definition reread (q : dec) : dec := match of_string (to_string q) with Some x => x | None => q end.

Theorem reread_spec q :
  of_string (to_string q) = Some (reread q) /\ dec_eqv (reread q) q /\ to_string (reread q) = to_string q.
Proof.
  unfold reread. destruct (of_to_string q) as (x & Hx & He). rewrite Hx.
  split; [reflexivity|]. split; [exact He|]. now apply to_string_normal_form.
Qed.

Lemma reread_idem q : reread (reread q) = reread q.
Proof.
  destruct (reread_spec q) as (H1 & _ & H3). unfold reread at 1. rewrite H3, H1. reflexivity.
Qed.

Lemma to_string_reread q : to_string (reread q) = to_string q.
Proof. apply reread_spec. Qed.

Lemma reread_eqv q : dec_eqv (reread q) q.
Proof. apply reread_spec. Qed.

(* sign and zero-ness survive *)
Lemma dec_eqv_sign a b : dec_eqv a b -> Z.sgn (coef a) = Z.sgn (coef b).
Proof.
  unfold dec_eqv, coef_at. intros H.
  pose proof (Z.pow_pos_nonneg 10 (ex a - Z.min (ex a) (ex b)) ltac:(lia) ltac:(lia)).
  pose proof (Z.pow_pos_nonneg 10 (ex b - Z.min (ex a) (ex b)) ltac:(lia) ltac:(lia)).
  nia.
Qed.

Lemma reread_is_neg q : is_neg (reread q) = is_neg q.
Proof. unfold is_neg. pose proof (dec_eqv_sign _ _ (reread_eqv q)). lia. Qed.

Lemma reread_is_zero q : is_zero (reread q) = is_zero q.
Proof. unfold is_zero. pose proof (dec_eqv_sign _ _ (reread_eqv q)). lia. Qed.

Example reread_example :
  reread (mkDec 1500 (-3)) = mkDec 15 (-1) /\ reread (mkDec 15 1) = mkDec 150 0 /\
  reread (mkDec (-50) (-4)) = mkDec (-5) (-3) /\ reread (mkDec 0 (-2)) = mkDec 0 0.
Proof. vm_compute. auto. Qed.
