(* Algebra of the decimal model (Model/Dec.v): addition is an exact, commutative and
   associative operation on (coefficient, exponent) records; truncation is odd and loses less
   than one unit of the last kept place. *)
From Coq Require Import ZArith List Bool Lia.
From Knut Require Import Model.Dec.
Import ListNotations.
Open Scope bool_scope.
Open Scope Z_scope.

Lemma pow10_pos n : 0 < pow10 n \/ n < 0.
Proof.
  unfold pow10. destruct (Z_lt_ge_dec n 0); [right; assumption|left].
  apply Z.pow_pos_nonneg; lia.
Qed.

Lemma pow10_nonneg_pos n : 0 <= n -> 0 < pow10 n.
Proof. intros H. unfold pow10. apply Z.pow_pos_nonneg; lia. Qed.

Lemma pow10_add a b : 0 <= a -> 0 <= b -> pow10 (a + b) = pow10 a * pow10 b.
Proof. intros. unfold pow10. apply Z.pow_add_r; assumption. Qed.

Lemma pow10_0 : pow10 0 = 1.
Proof. reflexivity. Qed.

(* scaling down to a smaller (or equal) exponent is exact *)
Definition scale_to (d : dec) (m : Z) : Z := coef d * pow10 (ex d - m).

Lemma rescale_down d m : m <= ex d -> rescale d m = mkDec (scale_to d m) m.
Proof.
  intros H. unfold rescale, scale_to.
  destruct (ex d =? m) eqn:E.
  - apply Z.eqb_eq in E. subst m. rewrite Z.sub_diag, pow10_0, Z.mul_1_r. destruct d; reflexivity.
  - apply Z.eqb_neq in E. replace (ex d <? m) with false by lia.
    replace (Z.abs (m - ex d)) with (ex d - m) by lia. reflexivity.
Qed.

(* scaling up to a larger (or equal) exponent truncates toward zero *)
Lemma rescale_up d e : ex d <= e -> rescale d e = mkDec (coef d ÷ pow10 (e - ex d)) e.
Proof.
  intros H. unfold rescale. destruct (ex d =? e) eqn:E.
  - apply Z.eqb_eq in E. subst e. rewrite Z.sub_diag, pow10_0, Z.quot_1_r. destruct d; reflexivity.
  - apply Z.eqb_neq in E. replace (ex d <? e) with true by lia.
    rewrite Z.abs_eq by lia. reflexivity.
Qed.

Lemma ex_rescale d e : ex (rescale d e) = e.
Proof.
  unfold rescale. destruct (ex d =? e) eqn:E; [apply Z.eqb_eq in E; exact E|].
  destruct (ex d <? e); reflexivity.
Qed.

Lemma scale_to_self d : scale_to d (ex d) = coef d.
Proof. unfold scale_to. rewrite Z.sub_diag, pow10_0, Z.mul_1_r. reflexivity. Qed.

(* RescalePair brings both numbers to the smaller exponent *)
Lemma rescale_pair_normal a b :
  rescale_pair a b = (mkDec (scale_to a (Z.min (ex a) (ex b))) (Z.min (ex a) (ex b)),
                      mkDec (scale_to b (Z.min (ex a) (ex b))) (Z.min (ex a) (ex b))).
Proof.
  unfold rescale_pair. set (m := Z.min (ex a) (ex b)).
  assert (Hm : forall d, ex d = m -> d = mkDec (scale_to d m) m).
  { intros d <-. rewrite scale_to_self. destruct d; reflexivity. }
  destruct (ex a =? ex b) eqn:E.
  - apply Z.eqb_eq in E. rewrite <- (Hm a), <- (Hm b) by (unfold m; lia). reflexivity.
  - apply Z.eqb_neq in E. destruct (m =? ex a) eqn:E2; cbn [negb].
    + apply Z.eqb_eq in E2. rewrite rescale_down, <- (Hm a) by lia. reflexivity.
    + apply Z.eqb_neq in E2. rewrite rescale_down, <- (Hm b) by lia. reflexivity.
Qed.

Lemma add_normal a b :
  add a b = mkDec (scale_to a (Z.min (ex a) (ex b)) + scale_to b (Z.min (ex a) (ex b))) (Z.min (ex a) (ex b)).
Proof. unfold add. rewrite rescale_pair_normal. reflexivity. Qed.

Lemma sub_normal a b :
  sub a b = mkDec (scale_to a (Z.min (ex a) (ex b)) - scale_to b (Z.min (ex a) (ex b))) (Z.min (ex a) (ex b)).
Proof. unfold sub. rewrite rescale_pair_normal. reflexivity. Qed.

Lemma add_comm a b : add a b = add b a.
Proof. rewrite !add_normal. rewrite (Z.min_comm (ex b) (ex a)). f_equal. ring. Qed.

Lemma scale_to_trans d m1 m2 : m2 <= m1 -> m1 <= ex d -> scale_to d m1 * pow10 (m1 - m2) = scale_to d m2.
Proof.
  intros H1 H2. unfold scale_to. rewrite <- Z.mul_assoc, <- pow10_add by lia.
  f_equal. f_equal. ring.
Qed.

Lemma ex_add a b : ex (add a b) = Z.min (ex a) (ex b).
Proof. rewrite add_normal. reflexivity. Qed.

Lemma scale_to_add a b m :
  m <= ex a -> m <= ex b -> scale_to (add a b) m = scale_to a m + scale_to b m.
Proof.
  intros Ha Hb. rewrite add_normal.
  set (m0 := Z.min (ex a) (ex b)).
  unfold scale_to at 1. cbn [coef ex].
  rewrite Z.mul_add_distr_r.
  rewrite (scale_to_trans a m0 m), (scale_to_trans b m0 m) by (unfold m0; lia).
  reflexivity.
Qed.

Lemma add_assoc a b c : add (add a b) c = add a (add b c).
Proof.
  rewrite (add_normal (add a b) c), (add_normal a (add b c)), !ex_add, Z.min_assoc.
  rewrite !scale_to_add by lia. f_equal. ring.
Qed.

Lemma neg_involutive d : neg (neg d) = d.
Proof. destruct d; unfold neg; cbn. f_equal. lia. Qed.

Lemma add_neg_zero d : is_zero (add d (neg d)) = true.
Proof.
  rewrite add_normal. unfold is_zero, scale_to, neg. cbn [coef ex]. apply Z.eqb_eq. ring.
Qed.

Lemma neg_add a b : neg (add a b) = add (neg a) (neg b).
Proof. rewrite !add_normal. unfold neg, scale_to. cbn [coef ex]. f_equal. ring. Qed.

Lemma scale_to_eq_0 d m : m <= ex d -> scale_to d m = 0 <-> coef d = 0.
Proof.
  intros H. unfold scale_to. pose proof (pow10_nonneg_pos (ex d - m) ltac:(lia)).
  rewrite Z.mul_eq_0. lia.
Qed.

Lemma is_zero_neg q : is_zero (neg q) = is_zero q.
Proof. unfold is_zero, neg. cbn [coef]. destruct (coef q); reflexivity. Qed.

Lemma sub_self_zero x : is_zero (sub x x) = true.
Proof. unfold sub, rescale_pair. rewrite Z.eqb_refl. unfold is_zero. cbn [coef]. apply Z.eqb_eq. ring. Qed.

Lemma ex_sub x y : ex (sub x y) = Z.min (ex x) (ex y).
Proof.
  unfold sub, rescale_pair. destruct (ex x =? ex y)%Z eqn:E.
  - apply Z.eqb_eq in E. cbn [ex]. lia.
  - apply Z.eqb_neq in E. destruct (Z.min (ex x) (ex y) =? ex x)%Z eqn:E2; cbn [negb].
    + apply Z.eqb_eq in E2. cbn [ex]. lia.
    + apply Z.eqb_neq in E2. rewrite (rescale_down x (Z.min (ex x) (ex y))) by lia. reflexivity.
Qed.

Lemma is_zero_add_l a b : is_zero a = true -> is_zero (add a b) = is_zero b.
Proof.
  unfold is_zero. rewrite add_normal. cbn [coef]. intros Ha. apply Z.eqb_eq in Ha.
  rewrite (proj2 (scale_to_eq_0 a (Z.min (ex a) (ex b)) ltac:(lia)) Ha), Z.add_0_l.
  apply Bool.eq_iff_eq_true. rewrite !Z.eqb_eq. apply scale_to_eq_0. lia.
Qed.

(* truncation toward zero is an odd function, on records *)
Lemma rescale_neg d e : rescale (neg d) e = neg (rescale d e).
Proof.
  unfold rescale, neg. cbn [coef ex].
  destruct (ex d =? e); [reflexivity|].
  destruct (ex d <? e); cbn [coef ex]; f_equal.
  - apply Z.quot_opp_l. pose proof (pow10_nonneg_pos (Z.abs (e - ex d)) ltac:(lia)). lia.
  - ring.
Qed.

Lemma truncate_odd d p : truncate (neg d) p = neg (truncate d p).
Proof.
  unfold truncate. cbn [neg ex].
  destruct ((0 <=? p) && (ex d <? - p)); [apply rescale_neg|reflexivity].
Qed.

Lemma mul_neg_l a b : mul (neg a) b = neg (mul a b).
Proof. unfold mul, neg. cbn [coef ex]. f_equal. ring. Qed.

Lemma mul_neg_r a b : mul a (neg b) = neg (mul a b).
Proof. unfold mul, neg. cbn [coef ex]. f_equal. ring. Qed.

(* truncation error: 0 <= |d| - |truncate d| < 10^-p, at the scale of d's own exponent *)
Lemma truncate_error d p :
  0 <= p -> ex d < - p ->
  let t := truncate d p in
  ex t = - p /\
  Z.abs (coef t) * pow10 (- p - ex d) <= Z.abs (coef d) < (Z.abs (coef t) + 1) * pow10 (- p - ex d) /\
  (0 <= coef d -> 0 <= coef t) /\ (coef d <= 0 -> coef t <= 0).
Proof.
  intros Hp He. unfold truncate. replace ((0 <=? p) && (ex d <? - p)) with true by lia.
  rewrite rescale_up by lia. cbn [coef ex].
  pose proof (pow10_nonneg_pos (- p - ex d) ltac:(lia)) as Hpos.
  set (P := pow10 (- p - ex d)) in *.
  split; [reflexivity|].
  pose proof (Z.quot_rem' (coef d) P) as Hqr.
  pose proof (Z.rem_bound_pos (Z.abs (coef d)) P ltac:(lia) Hpos) as Hb.
  rewrite <- (Z.quot_abs (coef d) P) by lia. rewrite (Z.abs_eq P) by lia.
  pose proof (Z.quot_rem' (Z.abs (coef d)) P) as Hqr2.
  pose proof (Z.quot_pos (Z.abs (coef d)) P ltac:(lia) Hpos) as Hq.
  repeat split; try nia.
  - intros H0. apply Z.quot_pos; lia.
  - intros H0. rewrite <- (Z.opp_involutive (coef d)), Z.quot_opp_l by lia.
    pose proof (Z.quot_pos (- coef d) P ltac:(lia) Hpos). lia.
Qed.
