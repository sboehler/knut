(* Decimal.Round is rounding half away from zero; Decimal.Div by 1000 is exact for amounts
   with at most 13 decimals.  Integer arithmetic at a common scale (no rationals). *)
From Coq Require Import ZArith List Bool Lia.
From Knut Require Import Model.Str Model.Dec Model.Table Spec.TableSpec Proofs.DecProofs Proofs.DecEqProofs.
Import ListNotations.
Open Scope bool_scope.
Open Scope Z_scope.

(* Spec/TableSpec.v writes the coefficient at a scale with [10 ^]; it is [scale_to], and
   [dec_eqv] is Decimal.Equal *)
Lemma coef_at_scale_to d m : coef_at d m = scale_to d m.
Proof. reflexivity. Qed.

(* [half_up a U] is floor (a / U + 1/2); [haz D U] rounds D to a multiple c * U of U, half away
   from zero, and returns c; [is_haz D U c] says declaratively that c is that factor.
   [round_haz] and [is_round_haz] of Spec/TableSpec.v are these at D = the coefficient and
   U = the unit of the last kept digit, both at the common scale. *)
Definition half_up (a U : Z) : Z := (2 * a + U) / (2 * U).
Definition haz (D U : Z) : Z := Z.sgn D * half_up (Z.abs D) U.
Definition is_haz (D U c : Z) : Prop :=
  2 * Z.abs (D - c * U) <= U /\ (2 * Z.abs (D - c * U) = U -> Z.abs D < Z.abs (c * U)).

Lemma haz_opp D U : haz (- D) U = - haz D U.
Proof. unfold haz. rewrite Z.sgn_opp, Z.abs_opp. ring. Qed.

Lemma haz_nonneg D U : 0 <= D -> 0 < U -> haz D U = half_up D U.
Proof.
  intros HD HU. unfold haz. rewrite (Z.abs_eq D) by exact HD.
  destruct (Z.eq_dec D 0) as [->|Hnz].
  - unfold half_up. rewrite Z.mul_0_r, Z.add_0_l, Z.div_small by lia. reflexivity.
  - rewrite Z.sgn_pos by lia. apply Z.mul_1_l.
Qed.

Lemma haz_unit D : haz D 1 = D.
Proof.
  unfold haz, half_up. replace (2 * Z.abs D + 1) with (Z.abs D * (2 * 1) + 1) by ring.
  rewrite Z.div_add_l by lia. change (1 / (2 * 1)) with 0.
  rewrite Z.add_0_r, Z.mul_comm. apply Z.abs_sgn.
Qed.

(* the result depends on the ratio D / U only *)
Lemma haz_scale D U J : 0 < U -> 0 < J -> haz (D * J) (U * J) = haz D U.
Proof.
  intros HU HJ. unfold haz, half_up.
  rewrite Z.sgn_mul, (Z.sgn_pos J), Z.mul_1_r, Z.abs_mul, (Z.abs_eq J) by lia. f_equal.
  replace (2 * (Z.abs D * J) + U * J) with ((2 * Z.abs D + U) * J) by ring.
  rewrite Z.mul_assoc. apply Z.div_mul_cancel_r; lia.
Qed.

(* truncating to one digit more than is kept does not change the result: the dropped digits
   cannot move the next digit across 5 *)
Lemma half_up_trunc a T : 0 < T -> half_up (a / T) 10 = half_up a (10 * T).
Proof.
  intros HT. unfold half_up.
  replace (2 * (a / T) + 10) with (2 * (a / T + 5)) by ring.
  replace (2 * a + 10 * T) with (2 * (a + 5 * T)) by ring.
  rewrite !Z.div_mul_cancel_l by lia.
  rewrite <- (Z.div_add a 5 T) by lia.
  rewrite Z.div_div by lia. rewrite (Z.mul_comm T 10). reflexivity.
Qed.

Lemma haz_trunc D T : 0 < T -> haz (D ÷ T) 10 = haz D (10 * T).
Proof.
  intros HT.
  assert (Hpos : forall a, 0 <= a -> haz (a ÷ T) 10 = haz a (10 * T)).
  { intros a Ha. rewrite Z.quot_div_nonneg by lia.
    rewrite !haz_nonneg by (try apply Z.div_pos; lia). apply half_up_trunc. exact HT. }
  destruct (Z.le_ge_cases 0 D) as [H|H]; [apply Hpos; exact H|].
  apply Z.opp_inj. rewrite <- !haz_opp, <- Z.quot_opp_l by lia. apply Hpos. lia.
Qed.

Lemma haz_is_haz D U : 0 < U -> is_haz D U (haz D U).
Proof.
  intros HU. unfold is_haz, haz, half_up.
  pose proof (Z.div_mod (2 * Z.abs D + U) (2 * U) ltac:(lia)) as Hqr.
  pose proof (Z.mod_pos_bound (2 * Z.abs D + U) (2 * U) ltac:(lia)) as Hr.
  set (q := (2 * Z.abs D + U) / (2 * U)) in *. set (r := (2 * Z.abs D + U) mod (2 * U)) in *.
  clearbody q r.
  (* with W = q * U: 2 |D| = 2 W + (r - U) and - U <= r - U < U; a tie is r = 0 *)
  replace (2 * U * q) with (2 * (q * U)) in Hqr by ring.
  rewrite <- Z.mul_assoc. set (W := q * U) in *. clearbody W.
  destruct (Z.sgn_spec D) as [[H ->]|[[H ->]|[H ->]]]; lia.
Qed.

(* of two multiples of U the smaller is at least U below the larger; if both are within U / 2
   of D then D is half-way between them and both are ties, so D is smaller in magnitude than
   both: the smaller lies strictly between - U and 0, which no multiple of U does *)
Lemma is_haz_le D U c1 c2 : 0 < U -> is_haz D U c1 -> is_haz D U c2 -> c1 <= c2.
Proof.
  intros HU [B1 T1] [B2 T2]. apply Z.nlt_ge. intros Hlt.
  assert (Hgap : c2 * U + U <= c1 * U).
  { rewrite <- Z.mul_succ_l. apply Z.mul_le_mono_nonneg_r; lia. }
  assert (Hmid : - U < c2 * U < 0) by lia.
  destruct (Z_le_gt_dec 0 c2) as [H0|H0].
  - pose proof (Z.mul_nonneg_nonneg c2 U H0 ltac:(lia)). lia.
  - assert (c2 * U <= - 1 * U) by (apply Z.mul_le_mono_nonneg_r; lia). lia.
Qed.

Lemma is_haz_unique D U c1 c2 : 0 < U -> is_haz D U c1 -> is_haz D U c2 -> c1 = c2.
Proof. intros HU H1 H2. apply Z.le_antisymm; eapply is_haz_le; eassumption. Qed.

Definition rnd10 (c : Z) : Z :=
  let v := if c <? 0 then c - 5 else c + 5 in
  let q := v / 10 in
  let m := v mod 10 in
  if (q <? 0) && negb (m =? 0) then q + 1 else q.

(* Go computes big.Int.DivMod (Euclidean) and moves a negative inexact quotient one up: the
   quotient truncated toward zero *)
Lemma rnd10_spec c : rnd10 c = haz c 10.
Proof.
  unfold rnd10, haz, half_up.
  replace (2 * Z.abs c + 10) with (2 * (Z.abs c + 5)) by ring. rewrite Z.div_mul_cancel_l by lia.
  destruct (c <? 0) eqn:Hc.
  - apply Z.ltb_lt in Hc. rewrite Z.sgn_neg, Z.abs_neq by lia.
    destruct ((c - 5) / 10 <? 0) eqn:Hq; destruct ((c - 5) mod 10 =? 0) eqn:Hm; cbn [andb negb];
      Z.div_mod_to_equations; lia.
  - apply Z.ltb_ge in Hc. rewrite Z.abs_eq by lia.
    destruct ((c + 5) / 10 <? 0) eqn:Hq; [Z.div_mod_to_equations; lia|]. cbn [andb].
    destruct (Z.eq_dec c 0) as [->|Hn]; [reflexivity|].
    rewrite Z.sgn_pos by lia. symmetry. apply Z.mul_1_l.
Qed.

Lemma round_unfold d p :
  ex d <> - p -> round d p = mkDec (rnd10 (coef (rescale d (- p - 1)))) (- p).
Proof.
  intros H. unfold round. replace (ex d =? - p) with false by lia.
  rewrite ex_rescale. unfold rnd10. f_equal. lia.
Qed.

Lemma round_haz_unfold d p :
  round_haz d p =
  mkDec (haz (coef_at d (Z.min (ex d) (- p))) (10 ^ (- p - Z.min (ex d) (- p)))) (- p).
Proof. reflexivity. Qed.

Lemma is_round_haz_unfold d p r :
  is_round_haz d p r <->
  ex r = - p /\ is_haz (coef_at d (Z.min (ex d) (- p))) (10 ^ (- p - Z.min (ex d) (- p))) (coef r).
Proof. reflexivity. Qed.

Theorem round_eq_haz d p : round d p = round_haz d p.
Proof.
  rewrite round_haz_unfold.
  destruct (Z.eq_dec (ex d) (- p)) as [He|He].
  - (* nothing to round *)
    unfold round. replace (ex d =? - p) with true by lia.
    rewrite <- He, Z.min_id, Z.sub_diag, coef_at_scale_to, scale_to_self. change (10 ^ 0) with 1. rewrite haz_unit.
    destruct d; reflexivity.
  - rewrite round_unfold by exact He. f_equal. rewrite rnd10_spec.
    destruct (Z_lt_ge_dec (ex d) (- p)) as [Hlt|Hge].
    + (* digits are dropped: rescale truncates to one digit more than is kept *)
      rewrite rescale_up by lia. cbn [coef]. unfold pow10.
      rewrite Z.min_l, coef_at_scale_to, scale_to_self by lia.
      replace (- p - ex d) with (Z.succ (- p - 1 - ex d)) by ring. rewrite Z.pow_succ_r by lia.
      apply haz_trunc. apply pow10_nonneg_pos. lia.
    + (* no digit is dropped: rescale multiplies, the unit is 1 *)
      rewrite (rescale_down d (- p - 1)) by lia. cbn [coef]. unfold scale_to, pow10.
      rewrite Z.min_r, Z.sub_diag by lia. change (10 ^ 0) with 1. rewrite haz_unit.
      unfold coef_at. replace (ex d - (- p - 1)) with (Z.succ (ex d - - p)) by ring.
      rewrite Z.pow_succ_r, (Z.mul_comm 10), Z.mul_assoc by lia.
      rewrite (haz_scale _ 1 10), haz_unit by lia. reflexivity.
Qed.

(* the executable specification satisfies the declarative one *)
Theorem round_haz_is_round d p : is_round_haz d p (round_haz d p).
Proof.
  apply is_round_haz_unfold. split; [reflexivity|].
  apply haz_is_haz. apply pow10_nonneg_pos. lia.
Qed.

(* Decimal.Round: half away from zero (DESIGN.md §6 round_spec) *)
Theorem round_spec d p : is_round_haz d p (round d p).
Proof. rewrite round_eq_haz. apply round_haz_is_round. Qed.

Lemma ex_round d p : ex (round d p) = - p.
Proof. rewrite round_eq_haz. reflexivity. Qed.

Lemma dec_eqv_sym a b : dec_eqv a b -> dec_eqv b a.
Proof. unfold dec_eqv. rewrite (Z.min_comm (ex b) (ex a)). intros H. symmetry. exact H. Qed.

Lemma dec_eqv_b_true a b : dec_eqv_b a b = true <-> dec_eqv a b.
Proof. unfold dec_eqv_b, dec_eqv. apply Z.eqb_eq. Qed.

(* rounding depends on the value only, not on the representation *)
Lemma round_haz_eqv_le a b p : ex a <= ex b -> dec_eqv a b -> round_haz a p = round_haz b p.
Proof.
  intros Hle Heq. unfold dec_eqv in Heq. rewrite Z.min_l, coef_at_scale_to, scale_to_self in Heq by lia.
  rewrite !round_haz_unfold. f_equal.
  set (ma := Z.min (ex a) (- p)). set (mb := Z.min (ex b) (- p)).
  assert (Hm : ma <= mb) by (unfold ma, mb; lia).
  (* at a's scale, coefficient and unit are those at b's scale times 10 ^ (mb - ma) *)
  assert (HU : 10 ^ (- p - ma) = 10 ^ (- p - mb) * 10 ^ (mb - ma)).
  { rewrite <- Z.pow_add_r by (unfold mb; lia). f_equal. ring. }
  assert (HD : coef_at a ma = coef_at b mb * 10 ^ (mb - ma)).
  { unfold coef_at at 1. rewrite Heq.
    transitivity (scale_to b ma).
    - exact (scale_to_trans b (ex a) ma ltac:(unfold ma; lia) Hle).
    - symmetry. exact (scale_to_trans b mb ma Hm ltac:(unfold mb; lia)). }
  rewrite HU, HD. apply haz_scale; apply pow10_nonneg_pos; unfold mb; lia.
Qed.

Theorem round_haz_eqv a b p : dec_eqv a b -> round_haz a p = round_haz b p.
Proof.
  intros H. destruct (Z_le_gt_dec (ex a) (ex b)) as [Hle|Hgt].
  - apply round_haz_eqv_le; assumption.
  - symmetry. apply round_haz_eqv_le; [lia|apply dec_eqv_sym; exact H].
Qed.

(* TextRenderer.numToString under --thousands: d.Div(1000) = DivRound(d, 1000, 16).  For an
   amount with at most 13 decimals the quotient is exact. *)
Theorem div1000_exact d :
  - ex d <= 13 ->
  div d k1000 = DOk (mkDec (coef d * 10 ^ (ex d + 13)) (- 16)) /\
  dec_eqv (mkDec (coef d * 10 ^ (ex d + 13)) (- 16)) (div1000 d).
Proof.
  intros H. split.
  - unfold div, div_round, quo_rem, division_precision, k1000, of_int. cbn [coef ex].
    change (1000 =? 0) with false. cbv iota.
    destruct (ex d - 0 - - (16) <? 0) eqn:E; [lia|]. clear E.
    unfold pow10.
    replace (ex d - 0 - - (16)) with ((ex d + 13) + 3) by ring.
    rewrite Z.pow_add_r by lia. change (10 ^ 3) with 1000.
    rewrite Z.mul_assoc.
    rewrite Z.quot_mul by lia. rewrite Z.rem_mul by lia.
    cbn [coef ex]. change (Z.abs 0 * 2) with 0.
    reflexivity.
  - unfold dec_eqv, div1000, coef_at. cbn [coef ex].
    replace (Z.min (-16) (ex d - 3)) with (-16) by lia.
    rewrite Z.sub_diag. change (10 ^ 0) with 1. rewrite Z.mul_1_r.
    f_equal. f_equal. ring.
Qed.

Lemma div_round_no_panic d d2 p : coef d2 <> 0 -> div_round d d2 p <> DPanic.
Proof.
  intros H. unfold div_round, quo_rem. replace (coef d2 =? 0) with false by lia.
  destruct (ex d - ex d2 - - p <? 0); cbv zeta;
    (destruct (_ <? 0); [discriminate|]); destruct (_ <? 0); discriminate.
Qed.

(* k1000 is not zero: numToString never panics *)
Lemma div_k1000_no_panic d : div d k1000 <> DPanic.
Proof. apply div_round_no_panic. discriminate. Qed.
