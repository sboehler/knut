(* Decimal <-> string: the numerals rendered by Model/Dec.v ([digits], [to_string_gen]) and
   read back by [of_string].  Technical core reused by the table (C17) and journal
   properties: digit strings, [parse_digits] algebra, the shape of a rendered numeral,
   the round trip through [of_string], and the spec-vocabulary facts of Spec/TableSpec.v. *)
From Coq Require Import ZArith List Bool Lia Arith.
From Knut Require Import Model.Str Model.Dec Spec.TableSpec Proofs.DecProofs.
Import ListNotations.
Open Scope bool_scope.
Open Scope Z_scope.

(* case analysis of a byte against the (at most 6 bit) constants of a pattern match *)
Ltac zconst_cases c :=
  let p := fresh "p" in
  destruct c as [|p|p]; try reflexivity;
  do 6 (try (destruct p as [p|p|]; try reflexivity)).

Lemma is_digit_range c : is_digit c = true <-> 48 <= c <= 57.
Proof. unfold is_digit. lia. Qed.

Lemma parse_digits_app : forall a b acc,
  parse_digits (a ++ b) acc =
  match parse_digits a acc with Some v => parse_digits b v | None => None end.
Proof.
  induction a as [|c t IH]; intros b acc; [reflexivity|].
  cbn [app parse_digits]. destruct (is_digit c); [apply IH|reflexivity].
Qed.

Lemma parse_digits_some_digits : forall s acc v,
  parse_digits s acc = Some v -> forallb is_digit s = true.
Proof.
  induction s as [|c t IH]; intros acc v H; [reflexivity|].
  cbn [parse_digits] in H. cbn [forallb].
  destruct (is_digit c); [|discriminate]. cbn [andb]. exact (IH _ _ H).
Qed.

Lemma pow10_S (k : nat) : 10 ^ Z.of_nat (S k) = 10 * 10 ^ Z.of_nat k.
Proof. rewrite Nat2Z.inj_succ, Z.pow_succ_r by lia. reflexivity. Qed.

Lemma pow10_nat_pos (k : nat) : 0 < 10 ^ Z.of_nat k.
Proof. apply Z.pow_pos_nonneg; lia. Qed.

Lemma parse_digits_shift : forall s a b v,
  parse_digits s a = Some v ->
  parse_digits s (a + b) = Some (v + b * 10 ^ Z.of_nat (length s)).
Proof.
  induction s as [|c t IH]; intros a b v H.
  - cbn [parse_digits length] in *. injection H as <-. f_equal.
    change (10 ^ Z.of_nat 0) with 1. lia.
  - cbn [parse_digits] in *. destruct (is_digit c); [|discriminate].
    replace ((a + b) * 10 + (c - 48)) with ((a * 10 + (c - 48)) + b * 10) by lia.
    rewrite (IH _ (b * 10) _ H). f_equal. cbn [length]. rewrite pow10_S. lia.
Qed.

Lemma parse_digits_acc : forall s acc v,
  forallb is_digit s = true -> parse_digits s 0 = Some v ->
  parse_digits s acc = Some (acc * 10 ^ Z.of_nat (length s) + v).
Proof.
  intros s acc v _ H. pose proof (parse_digits_shift s 0 acc v H) as H1.
  rewrite Z.add_0_l in H1. rewrite H1. f_equal. lia.
Qed.

Lemma parse_digits_zeros : forall k acc,
  parse_digits (repeat 48 k) acc = Some (acc * 10 ^ Z.of_nat k).
Proof.
  induction k as [|k IH]; intros acc.
  - cbn [repeat parse_digits]. f_equal. change (10 ^ Z.of_nat 0) with 1. lia.
  - cbn [repeat parse_digits]. change (is_digit 48) with true. cbv iota.
    rewrite IH, pow10_S. f_equal. lia.
Qed.

(* the value of a digit string lies in the window opened by the accumulator *)
Lemma parse_digits_range : forall s acc v,
  parse_digits s acc = Some v -> 0 <= acc ->
  acc * 10 ^ Z.of_nat (length s) <= v < (acc + 1) * 10 ^ Z.of_nat (length s).
Proof.
  induction s as [|c t IH]; intros acc v H Hacc.
  - cbn [parse_digits length] in *. injection H as <-.
    change (10 ^ Z.of_nat 0) with 1. lia.
  - cbn [parse_digits] in H. destruct (is_digit c) eqn:Hc; [|discriminate].
    apply is_digit_range in Hc.
    specialize (IH _ _ H ltac:(lia)).
    cbn [length]. rewrite pow10_S.
    pose proof (pow10_nat_pos (length t)) as HP.
    set (P := 10 ^ Z.of_nat (length t)) in *.
    nia.
Qed.

Lemma forallb_digit_repeat48 k : forallb is_digit (repeat 48 k) = true.
Proof. induction k as [|k IH]; [reflexivity|]. cbn [repeat forallb]. rewrite IH. reflexivity. Qed.

Lemma digits_fuel_spec : forall fuel n acc,
  0 <= n -> n < 2 ^ Z.of_nat fuel -> (fuel > 0)%nat ->
  exists ds, digits_fuel fuel n acc = ds ++ acc /\ ds <> [] /\
    forallb is_digit ds = true /\ parse_digits ds 0 = Some n /\
    (0 < n -> hd 0 ds <> 48) /\ (n = 0 -> ds = [48]).
Proof.
  induction fuel as [|f IH]; intros n acc Hn Hlt Hf; [lia|].
  cbn [digits_fuel].
  destruct (n <? 10) eqn:E.
  - apply Z.ltb_lt in E. exists [48 + n].
    assert (Hd : is_digit (48 + n) = true) by (apply is_digit_range; lia).
    split; [reflexivity|]. split; [discriminate|].
    split; [cbn [forallb]; rewrite Hd; reflexivity|].
    split; [cbn [parse_digits]; rewrite Hd; f_equal; lia|].
    split; [cbn [hd]; lia|]. intros ->. reflexivity.
  - apply Z.ltb_ge in E.
    rewrite Nat2Z.inj_succ, Z.pow_succ_r in Hlt by lia.
    assert (Hf' : (f > 0)%nat).
    { destruct f; [|lia]. change (2 ^ Z.of_nat 0) with 1 in Hlt. lia. }
    pose proof (Z.div_mod n 10 ltac:(lia)) as Hqr.
    pose proof (Z.mod_pos_bound n 10 ltac:(lia)) as Hr.
    set (q := n / 10) in *. set (r := n mod 10) in *. clearbody q r.
    destruct (IH q ((48 + r) :: acc)) as (ds & H1 & H2 & H3 & H4 & H5 & H6);
      [lia|lia|exact Hf'|].
    assert (Hd : is_digit (48 + r) = true) by (apply is_digit_range; lia).
    exists (ds ++ [48 + r]).
    split; [rewrite H1, <- app_assoc; reflexivity|].
    split; [intros Hc; apply app_eq_nil in Hc; destruct Hc; discriminate|].
    split; [rewrite forallb_app, H3; cbn [forallb]; rewrite Hd; reflexivity|].
    split; [rewrite parse_digits_app, H4; cbn [parse_digits]; rewrite Hd; f_equal; lia|].
    split.
    + intros _. destruct ds as [|c ds']; [congruence|]. cbn [app hd] in *. apply H5. lia.
    + intros ->. lia.
Qed.

Lemma digits_spec n : 0 <= n ->
  digits n <> [] /\ forallb is_digit (digits n) = true /\ parse_digits (digits n) 0 = Some n /\
  (0 < n -> hd 0 (digits n) <> 48) /\ (n = 0 -> digits n = [48]).
Proof.
  intros Hn. unfold digits.
  destruct (digits_fuel_spec (S (Z.to_nat (Z.log2 n))) n []) as (ds & H1 & H2 & H3 & H4 & H5 & H6).
  - exact Hn.
  - rewrite Nat2Z.inj_succ, Z2Nat.id by apply Z.log2_nonneg.
    destruct (Z.eq_dec n 0) as [->|Hne]; [vm_compute; reflexivity|].
    apply Z.log2_spec. lia.
  - lia.
  - rewrite app_nil_r in H1. rewrite H1. auto.
Qed.

Lemma digits_all_digits : forall n, 0 <= n -> forallb is_digit (digits n) = true.
Proof. intros n Hn. apply (digits_spec n Hn). Qed.

Lemma digits_nonempty : forall n, 0 <= n -> digits n <> [].
Proof. intros n Hn. apply (digits_spec n Hn). Qed.

Lemma digits_zero : digits 0 = [48].
Proof. reflexivity. Qed.

Lemma digits_no_leading_zero : forall n, 0 < n -> hd 0 (digits n) <> 48.
Proof. intros n Hn. apply (digits_spec n); lia. Qed.

Lemma digits_length_bounds : forall n, 0 < n ->
  10 ^ (Z.of_nat (length (digits n)) - 1) <= n < 10 ^ Z.of_nat (length (digits n)).
Proof.
  intros n Hn.
  destruct (digits_spec n ltac:(lia)) as (H1 & H2 & H3 & H4 & _).
  specialize (H4 Hn).
  destruct (digits n) as [|c t]; [congruence|].
  cbn [hd forallb parse_digits length] in *.
  destruct (is_digit c) eqn:Hc; [|discriminate]. apply is_digit_range in Hc.
  pose proof (parse_digits_range _ _ _ H3 ltac:(lia)) as Hr.
  rewrite pow10_S.
  replace (Z.of_nat (S (length t)) - 1) with (Z.of_nat (length t)) by lia.
  pose proof (pow10_nat_pos (length t)) as HP.
  set (P := 10 ^ Z.of_nat (length t)) in *.
  nia.
Qed.

Lemma head48 {A} c (t : str) (x y : A) :
  match c :: t with 48 :: _ => x | _ => y end = if c =? 48 then x else y.
Proof. zconst_cases c. Qed.

Lemma strip_rev_cons c t :
  strip_trailing_zeros_rev (c :: t) = if c =? 48 then strip_trailing_zeros_rev t else c :: t.
Proof. exact (head48 c t (strip_trailing_zeros_rev t) (c :: t)). Qed.

Lemma strip_rev_spec r : exists k, r = repeat 48 k ++ strip_trailing_zeros_rev r.
Proof.
  induction r as [|c t IH]; [exists 0%nat; reflexivity|].
  rewrite strip_rev_cons. destruct (Z.eqb_spec c 48) as [->|Hne].
  - destruct IH as [k Hk]. exists (S k). cbn [repeat app]. f_equal. exact Hk.
  - exists 0%nat. reflexivity.
Qed.

Lemma rev_repeat' {A} (a : A) k : rev (repeat a k) = repeat a k.
Proof.
  induction k as [|k IH]; [reflexivity|]. cbn [repeat rev]. rewrite IH. symmetry. apply repeat_cons.
Qed.

Lemma strip_trailing_zeros_spec s : exists k, s = strip_trailing_zeros s ++ repeat 48 k.
Proof.
  unfold strip_trailing_zeros. destruct (strip_rev_spec (rev s)) as [k Hk].
  exists k. rewrite <- (rev_involutive s) at 1. rewrite Hk at 1.
  rewrite rev_app_distr, rev_repeat'. reflexivity.
Qed.

Definition sgn (d : dec) : str := if coef d <? 0 then [45] else [].

Lemma to_string_gen_int : forall trim d, 0 <= ex d ->
  to_string_gen trim d = sgn d ++ digits (Z.abs (coef d) * 10 ^ ex d).
Proof.
  intros trim d He. unfold to_string_gen, sgn. replace (0 <=? ex d) with true by lia.
  rewrite (rescale_down d 0) by lia. cbn [coef]. unfold scale_to, pow10. rewrite Z.sub_0_r.
  pose proof (Z.pow_pos_nonneg 10 (ex d) ltac:(lia) He) as Hp.
  cbv zeta.
  rewrite Z.abs_mul, (Z.abs_eq (10 ^ ex d)) by lia.
  replace (coef d * 10 ^ ex d <? 0) with (coef d <? 0); [reflexivity|].
  destruct (coef d <? 0) eqn:E; [apply Z.ltb_lt in E|apply Z.ltb_ge in E]; symmetry;
    [apply Z.ltb_lt|apply Z.ltb_ge]; nia.
Qed.

(* integer and fractional digits before trimming *)
Definition frac_split (d : dec) : str * str :=
  let s := digits (Z.abs (coef d)) in
  let len := Z.of_nat (length s) in
  let n := - ex d in
  if n <? len then (firstn (Z.to_nat (len - n)) s, skipn (Z.to_nat (len - n)) s)
  else ([48], repeat_z 48 (n - len) ++ s).

Definition frac_tail (fp : str) : str := match fp with [] => [] | _ => [46] ++ fp end.

Lemma to_string_gen_neg_ex trim d : ex d < 0 ->
  to_string_gen trim d =
  sgn d ++ fst (frac_split d) ++
    frac_tail (if trim then strip_trailing_zeros (snd (frac_split d)) else snd (frac_split d)).
Proof.
  intros He. unfold to_string_gen, frac_split, sgn, frac_tail.
  replace (0 <=? ex d) with false by lia. cbv zeta.
  destruct (- ex d <? Z.of_nat (length (digits (Z.abs (coef d))))); cbv beta iota; cbn [fst snd];
    match goal with |- context [match ?fp with [] => true | _ :: _ => false end] => destruct fp end;
    destruct (coef d <? 0); cbn [app]; rewrite ?app_nil_r; reflexivity.
Qed.

Lemma frac_split_spec d : ex d < 0 ->
  fst (frac_split d) <> [] /\ forallb is_digit (fst (frac_split d)) = true /\
  forallb is_digit (snd (frac_split d)) = true /\
  Z.of_nat (length (snd (frac_split d))) = - ex d /\
  parse_digits (fst (frac_split d) ++ snd (frac_split d)) 0 = Some (Z.abs (coef d)).
Proof.
  intros He.
  destruct (digits_spec (Z.abs (coef d)) ltac:(lia)) as (H1 & H2 & H3 & _).
  unfold frac_split. set (s := digits (Z.abs (coef d))) in *.
  destruct (- ex d <? Z.of_nat (length s)) eqn:E; cbn [fst snd].
  - apply Z.ltb_lt in E.
    set (k := Z.to_nat (Z.of_nat (length s) - - ex d)).
    assert (Hk : (0 < k <= length s)%nat) by lia.
    split.
    { intros Hc. pose proof (firstn_length k s) as Hl. rewrite Hc in Hl. cbn [length] in Hl. lia. }
    pose proof H2 as H2'. rewrite <- (firstn_skipn k s), forallb_app in H2'.
    apply andb_prop in H2'. destruct H2' as [Ha Hb].
    split; [exact Ha|]. split; [exact Hb|].
    split; [rewrite skipn_length; lia|].
    rewrite firstn_skipn. exact H3.
  - apply Z.ltb_ge in E. unfold repeat_z.
    set (k := Z.to_nat (- ex d - Z.of_nat (length s))).
    split; [discriminate|]. split; [reflexivity|].
    split; [rewrite forallb_app, forallb_digit_repeat48, H2; reflexivity|].
    split; [rewrite app_length, repeat_length; lia|].
    change ([48] ++ repeat 48 k ++ s) with (repeat 48 (S k) ++ s).
    rewrite parse_digits_app, parse_digits_zeros, Z.mul_0_l. exact H3.
Qed.

(* the numeral of any decimal: sign, integer digits, optional point and fraction digits *)
Lemma to_string_gen_shape : forall trim d, exists ip fp v,
  to_string_gen trim d = sgn d ++ ip ++ (match fp with [] => [] | _ => [46] ++ fp end) /\
  ip <> [] /\ forallb is_digit ip = true /\ forallb is_digit fp = true /\
  Z.of_nat (length fp) <= Z.max (- ex d) 0 /\
  (trim = false -> Z.of_nat (length fp) = Z.max (- ex d) 0) /\
  parse_digits (ip ++ fp) 0 = Some v /\
  v * 10 ^ (Z.max (- ex d) 0 - Z.of_nat (length fp)) = Z.abs (coef d) * 10 ^ (Z.max (ex d) 0).
Proof.
  intros trim d. destruct (Z_lt_ge_dec (ex d) 0) as [He|He].
  - rewrite (to_string_gen_neg_ex trim d He).
    destruct (frac_split_spec d He) as (H1 & H2 & H3 & H4 & H5).
    destruct (frac_split d) as [ip FP]. cbn [fst snd] in *.
    replace (Z.max (- ex d) 0) with (- ex d) by lia.
    replace (Z.max (ex d) 0) with 0 by lia. change (10 ^ 0) with 1.
    destruct trim.
    + destruct (strip_trailing_zeros_spec FP) as [k Hk].
      remember (strip_trailing_zeros FP) as fp' eqn:Efp. clear Efp. subst FP.
      rewrite forallb_app in H3. apply andb_prop in H3. destruct H3 as [H3 _].
      rewrite app_length, repeat_length in H4.
      rewrite app_assoc, parse_digits_app in H5.
      destruct (parse_digits (ip ++ fp') 0) as [v|] eqn:Hv; [|discriminate].
      rewrite parse_digits_zeros in H5. injection H5 as H5.
      exists ip, fp', v. unfold frac_tail.
      repeat split; try assumption; try lia; try discriminate.
      replace (- ex d - Z.of_nat (length fp')) with (Z.of_nat k) by lia. lia.
    + exists ip, FP, (Z.abs (coef d)). unfold frac_tail.
      repeat split; try assumption; try lia.
      rewrite H4, Z.sub_diag. reflexivity.
  - rewrite (to_string_gen_int trim d) by lia.
    destruct (digits_spec (Z.abs (coef d) * 10 ^ ex d)) as (H1 & H2 & H3 & _).
    { pose proof (Z.pow_pos_nonneg 10 (ex d) ltac:(lia) ltac:(lia)). nia. }
    exists (digits (Z.abs (coef d) * 10 ^ ex d)), [], (Z.abs (coef d) * 10 ^ ex d).
    cbn [length Z.of_nat]. rewrite !app_nil_r.
    replace (Z.max (- ex d) 0) with 0 by lia.
    replace (Z.max (ex d) 0) with (ex d) by lia. change (10 ^ (0 - 0)) with 1.
    repeat split; try assumption; try lia.
Qed.

Lemma to_string_gen_frac : forall d, ex d < 0 ->
  exists ip fp, to_string_gen false d = sgn d ++ ip ++ [46] ++ fp /\ ip <> [] /\
    forallb is_digit ip = true /\ forallb is_digit fp = true /\
    Z.of_nat (length fp) = - ex d /\ parse_digits (ip ++ fp) 0 = Some (Z.abs (coef d)).
Proof.
  intros d He.
  destruct (to_string_gen_shape false d) as (ip & fp & v & H1 & H2 & H3 & H4 & H5 & H6 & H7 & H8).
  specialize (H6 eq_refl). exists ip, fp.
  rewrite H6, Z.sub_diag in H8. replace (Z.max (ex d) 0) with 0 in H8 by lia.
  change (10 ^ 0) with 1 in H8. rewrite !Z.mul_1_r in H8. subst v.
  destruct fp as [|c fp']; [cbn [length] in H6; lia|].
  repeat split; try assumption; lia.
Qed.

Lemma to_string_frac_trim : forall d, ex d < 0 ->
  exists ip fp v,
    to_string d = sgn d ++ ip ++ (match fp with [] => [] | _ => [46] ++ fp end) /\ ip <> [] /\
    forallb is_digit ip = true /\ forallb is_digit fp = true /\
    Z.of_nat (length fp) <= - ex d /\ parse_digits (ip ++ fp) 0 = Some v /\
    v * 10 ^ (- ex d - Z.of_nat (length fp)) = Z.abs (coef d).
Proof.
  intros d He. unfold to_string.
  destruct (to_string_gen_shape true d) as (ip & fp & v & H1 & H2 & H3 & H4 & H5 & H6 & H7 & H8).
  exists ip, fp, v.
  replace (Z.max (- ex d) 0) with (- ex d) in * by lia.
  replace (Z.max (ex d) 0) with 0 in H8 by lia.
  change (10 ^ 0) with 1 in H8. rewrite Z.mul_1_r in H8.
  repeat split; assumption.
Qed.

Lemma all_digits_no46 s : forallb is_digit s = true -> ~ In 46 s.
Proof.
  intros H Hin. rewrite forallb_forall in H. specialize (H _ Hin). discriminate.
Qed.

Lemma signstr_no46 (neg : bool) : ~ In 46 (if neg then [45] else []).
Proof. destruct neg; cbn [In]; intros H; [destruct H as [H|[]]; discriminate|exact H]. Qed.

Lemma not_in_app {A} (x : A) a b : ~ In x a -> ~ In x b -> ~ In x (a ++ b).
Proof. intros Ha Hb H. apply in_app_or in H. tauto. Qed.

Lemma existsb_46_false b : ~ In 46 b -> existsb (Z.eqb 46) b = false.
Proof.
  intros H. destruct (existsb (Z.eqb 46) b) eqn:E; [|reflexivity].
  apply existsb_exists in E. destruct E as (x & Hin & Hx). apply Z.eqb_eq in Hx. subst x. tauto.
Qed.

Lemma split_dot_cons c t acc :
  split_dot (c :: t) acc =
  if c =? 46 then (if existsb (Z.eqb 46) t then None else Some (rev acc, Some t))
  else split_dot t (c :: acc).
Proof. zconst_cases c. Qed.

Lemma split_dot_nodot : forall a acc, ~ In 46 a -> split_dot a acc = Some (rev acc ++ a, None).
Proof.
  induction a as [|c t IH]; intros acc H.
  - cbn [split_dot]. rewrite app_nil_r. reflexivity.
  - rewrite split_dot_cons. cbn [In] in H.
    destruct (Z.eqb_spec c 46) as [->|Hne]; [tauto|].
    rewrite IH by tauto. cbn [rev]. rewrite <- app_assoc. reflexivity.
Qed.

Lemma split_dot_at : forall a b acc, ~ In 46 a -> ~ In 46 b ->
  split_dot (a ++ 46 :: b) acc = Some (rev acc ++ a, Some b).
Proof.
  induction a as [|c t IH]; intros b acc Ha Hb.
  - cbn [app]. rewrite split_dot_cons, Z.eqb_refl, existsb_46_false by exact Hb.
    rewrite app_nil_r. reflexivity.
  - cbn [app]. rewrite split_dot_cons. cbn [In] in Ha.
    destruct (Z.eqb_spec c 46) as [->|Hne]; [tauto|].
    rewrite IH by tauto. cbn [rev]. rewrite <- app_assoc. reflexivity.
Qed.

Definition sign_split (all : str) : bool * str :=
  match all with 45 :: t => (true, t) | 43 :: t => (false, t) | _ => (false, all) end.

Lemma sign_split_cons c t :
  sign_split (c :: t) =
  if c =? 45 then (true, t) else if c =? 43 then (false, t) else (false, c :: t).
Proof. unfold sign_split. zconst_cases c. Qed.

Lemma of_string_unfold s :
  of_string s =
  match split_dot s [] with
  | None => None
  | Some (ip, fpo) =>
    let fp := match fpo with Some f => f | None => [] end in
    let '(negative, ds) := sign_split (ip ++ fp) in
    match ds with
    | [] => None
    | _ => match parse_digits ds 0 with
           | None => None
           | Some v => Some (mkDec (if negative then - v else v) (- Z.of_nat (length fp)))
           end
    end
  end.
Proof. reflexivity. Qed.

Lemma of_string_numeral : forall (neg : bool) ip fp v,
  ip <> [] -> forallb is_digit ip = true -> forallb is_digit fp = true ->
  parse_digits (ip ++ fp) 0 = Some v ->
  of_string ((if neg then [45] else []) ++ ip ++ (match fp with [] => [] | _ => [46] ++ fp end)) =
  Some (mkDec (if neg then - v else v) (- Z.of_nat (length fp))).
Proof.
  intros neg ip fp v Hne Hip Hfp Hp.
  rewrite of_string_unfold.
  assert (Hsplit : exists fpo,
    split_dot ((if neg then [45] else []) ++ ip ++ (match fp with [] => [] | _ => [46] ++ fp end)) [] =
      Some ((if neg then [45] else []) ++ ip, fpo) /\
    match fpo with Some f => f | None => [] end = fp).
  { pose proof (not_in_app 46 _ _ (signstr_no46 neg) (all_digits_no46 ip Hip)) as Hno.
    destruct fp as [|c fp'].
    - exists None. split; [|reflexivity]. rewrite app_nil_r.
      rewrite split_dot_nodot by exact Hno. reflexivity.
    - exists (Some (c :: fp')). split; [|reflexivity]. rewrite app_assoc.
      change ([46] ++ c :: fp') with (46 :: c :: fp').
      rewrite split_dot_at; [reflexivity|exact Hno|apply all_digits_no46; exact Hfp]. }
  destruct Hsplit as (fpo & Hs & Hf). rewrite Hs. cbv beta iota zeta. rewrite Hf.
  destruct ip as [|c ip']; [congruence|].
  cbn [forallb] in Hip. apply andb_prop in Hip. destruct Hip as [Hc Hip].
  apply is_digit_range in Hc. cbn [app] in Hp.
  destruct neg.
  - change (([45] ++ c :: ip') ++ fp) with (45 :: c :: (ip' ++ fp)).
    rewrite sign_split_cons, Z.eqb_refl. cbv beta iota. rewrite Hp. reflexivity.
  - change (([] ++ c :: ip') ++ fp) with (c :: (ip' ++ fp)).
    rewrite sign_split_cons.
    replace (c =? 45) with false by lia. replace (c =? 43) with false by lia.
    cbv beta iota. rewrite Hp. reflexivity.
Qed.

Lemma numeral_dec_eqv d v L :
  0 <= L <= Z.max (- ex d) 0 ->
  v * 10 ^ (Z.max (- ex d) 0 - L) = Z.abs (coef d) * 10 ^ Z.max (ex d) 0 ->
  dec_eqv (mkDec (if coef d <? 0 then - v else v) (- L)) d.
Proof.
  intros HL Hv. unfold dec_eqv, coef_at. cbn [coef ex].
  destruct (Z_lt_ge_dec (ex d) 0) as [He|He].
  - replace (Z.max (- ex d) 0) with (- ex d) in * by lia.
    replace (Z.max (ex d) 0) with 0 in Hv by lia.
    replace (Z.min (- L) (ex d)) with (ex d) by lia.
    replace (- L - ex d) with (- ex d - L) by lia. rewrite Z.sub_diag.
    change (10 ^ 0) with 1 in *.
    destruct (coef d <? 0) eqn:E; [rewrite Z.mul_opp_l|]; rewrite Hv; lia.
  - replace (Z.max (- ex d) 0) with 0 in * by lia.
    replace (Z.max (ex d) 0) with (ex d) in Hv by lia.
    assert (L = 0) by lia. subst L.
    replace (Z.min (- 0) (ex d)) with 0 by lia.
    change (10 ^ (0 - 0)) with 1 in Hv. change (10 ^ (- 0 - 0)) with 1.
    rewrite Z.sub_0_r.
    destruct (coef d <? 0) eqn:E; nia.
Qed.

Lemma of_to_string_gen : forall trim d,
  exists x, of_string (to_string_gen trim d) = Some x /\ dec_eqv x d.
Proof.
  intros trim d.
  destruct (to_string_gen_shape trim d) as (ip & fp & v & H1 & H2 & H3 & H4 & H5 & H6 & H7 & H8).
  exists (mkDec (if coef d <? 0 then - v else v) (- Z.of_nat (length fp))).
  split.
  - rewrite H1. unfold sgn. apply of_string_numeral; assumption.
  - apply numeral_dec_eqv; [lia|exact H8].
Qed.

Lemma of_to_string : forall d, exists x, of_string (to_string d) = Some x /\ dec_eqv x d.
Proof. intros d. apply of_to_string_gen. Qed.

Lemma of_to_string_fixed : forall d,
  exists x, of_string (to_string_gen false d) = Some x /\ dec_eqv x d.
Proof. intros d. apply of_to_string_gen. Qed.

Lemma unsign_cons c t : unsign (c :: t) = if c =? 45 then (true, t) else (false, c :: t).
Proof. unfold unsign. zconst_cases c. Qed.

Lemma unsign_numeral (neg : bool) ip rest :
  ip <> [] -> forallb is_digit ip = true ->
  unsign ((if neg then [45] else []) ++ ip ++ rest) = (neg, ip ++ rest).
Proof.
  intros Hne Hip. destruct neg; [reflexivity|].
  destruct ip as [|c ip']; [congruence|].
  cbn [forallb] in Hip. apply andb_prop in Hip. destruct Hip as [Hc _].
  apply is_digit_range in Hc. cbn [app]. rewrite unsign_cons.
  replace (c =? 45) with false by lia. reflexivity.
Qed.

Lemma split_at_dot_app : forall a b, ~ In 46 a ->
  split_at_dot (a ++ b) = (a ++ fst (split_at_dot b), snd (split_at_dot b)).
Proof.
  induction a as [|c t IH]; intros b H.
  - cbn [app]. destruct (split_at_dot b); reflexivity.
  - cbn [app split_at_dot]. cbn [In] in H.
    destruct (Z.eqb_spec c 46) as [->|Hne]; [tauto|].
    rewrite IH by tauto. reflexivity.
Qed.

Lemma split_at_dot_tail fp :
  split_at_dot (match fp with [] => [] | _ => [46] ++ fp end) =
  ([], match fp with [] => None | _ => Some fp end).
Proof. destruct fp; reflexivity. Qed.

Lemma is_numstr_numeral (neg : bool) ip fp :
  ip <> [] -> forallb is_digit ip = true -> forallb is_digit fp = true ->
  is_numstr_b ((if neg then [45] else []) ++ ip ++ (match fp with [] => [] | _ => [46] ++ fp end)) = true.
Proof.
  intros Hne Hip Hfp. unfold is_numstr_b.
  rewrite unsign_numeral by assumption. cbn [snd].
  rewrite split_at_dot_app by (apply all_digits_no46; exact Hip).
  rewrite split_at_dot_tail. cbn [fst snd]. rewrite app_nil_r.
  unfold all_digits. rewrite Hip.
  destruct ip as [|c ip']; [congruence|]. cbn [nonempty andb].
  destruct fp as [|c' fp']; [reflexivity|]. rewrite Hfp. reflexivity.
Qed.

Lemma to_string_gen_is_numstr : forall trim d, is_numstr_b (to_string_gen trim d) = true.
Proof.
  intros trim d.
  destruct (to_string_gen_shape trim d) as (ip & fp & v & H1 & H2 & H3 & H4 & _).
  rewrite H1. unfold sgn. apply is_numstr_numeral; assumption.
Qed.

Lemma to_string_gen_frac_len : forall d, frac_len (to_string_gen false d) = Z.max (- ex d) 0.
Proof.
  intros d.
  destruct (to_string_gen_shape false d) as (ip & fp & v & H1 & H2 & H3 & H4 & H5 & H6 & _).
  specialize (H6 eq_refl). rewrite H1. unfold frac_len. rewrite app_assoc.
  rewrite split_at_dot_app
    by (apply not_in_app; [apply signstr_no46|apply all_digits_no46; exact H3]).
  rewrite split_at_dot_tail. cbn [snd]. rewrite <- H6.
  destruct fp; reflexivity.
Qed.

Lemma to_string_gen_starts_minus : forall trim d,
  starts_minus (to_string_gen trim d) = (coef d <? 0).
Proof.
  intros trim d.
  destruct (to_string_gen_shape trim d) as (ip & fp & v & H1 & H2 & H3 & _).
  rewrite H1. unfold starts_minus, sgn. rewrite unsign_numeral by assumption. reflexivity.
Qed.

Lemma to_string_gen_chars : forall trim d c,
  In c (to_string_gen trim d) -> is_digit c = true \/ c = 45 \/ c = 46.
Proof.
  intros trim d c Hin.
  destruct (to_string_gen_shape trim d) as (ip & fp & v & H1 & H2 & H3 & H4 & _).
  rewrite H1 in Hin. rewrite forallb_forall in H3, H4.
  apply in_app_or in Hin. destruct Hin as [Hin|Hin].
  - unfold sgn in Hin. destruct (coef d <? 0); cbn [In] in Hin; [|tauto].
    destruct Hin as [<-|[]]. right; left; reflexivity.
  - apply in_app_or in Hin. destruct Hin as [Hin|Hin]; [left; apply H3; exact Hin|].
    destruct fp as [|c' fp']; [destruct Hin|].
    change ([46] ++ c' :: fp') with (46 :: c' :: fp') in Hin.
    destruct Hin as [<-|Hin]; [right; right; reflexivity|left; apply H4; exact Hin].
Qed.

Lemma to_string_gen_no_comma : forall trim d, ~ In 44 (to_string_gen trim d).
Proof.
  intros trim d H. apply to_string_gen_chars in H.
  destruct H as [H|[H|H]]; discriminate.
Qed.

Lemma to_string_gen_no_nl : forall trim d, ~ In 10 (to_string_gen trim d).
Proof.
  intros trim d H. apply to_string_gen_chars in H.
  destruct H as [H|[H|H]]; discriminate.
Qed.
