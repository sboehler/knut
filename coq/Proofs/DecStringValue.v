(* Decimal.String depends on the VALUE of a decimal only: two decimals of the same value (whatever
   their coefficient / exponent representation) print the same bytes.  The text of a number in the
   balance CSV is therefore determined by the ledger amount, not by the order in which the report
   tree added it up.  Route: the decimal read back from the text ([reread], DecNormalForm.v) is
   NORMALISED -- exponent <= 0, and when negative the coefficient does not end in 0 -- and two
   normalised decimals of the same value are the same record. *)
From Coq Require Import ZArith QArith List Bool Lia Arith.
From Knut Require Import Model.Str Model.Dec Spec.TableSpec Proofs.DecProofs Proofs.DecValue Proofs.DecEqProofs
     Proofs.DecStringProofs Proofs.DecNormalForm.
Import ListNotations.
Open Scope Z_scope.

Definition normalised (d : dec) : Prop := ex d <= 0 /\ (ex d < 0 -> coef d mod 10 <> 0).

Lemma normalised_eq a b : normalised a -> normalised b -> dec_eqv a b -> a = b.
Proof.
  intros [Ha1 Ha2] [Hb1 Hb2] H. unfold dec_eqv, coef_at in H.
  destruct a as [ca ea], b as [cb eb]. cbn [coef ex] in *.
  destruct (Z.lt_trichotomy ea eb) as [Hlt|[Heq|Hgt]].
  - exfalso. rewrite Z.min_l in H by lia. rewrite Z.sub_diag, Z.pow_0_r, Z.mul_1_r in H.
    apply (Ha2 ltac:(lia)). subst ca.
    replace (eb - ea) with (Z.succ (eb - ea - 1)) by lia. rewrite Z.pow_succ_r by lia.
    replace (cb * (10 * 10 ^ (eb - ea - 1))) with ((cb * 10 ^ (eb - ea - 1)) * 10) by ring.
    apply Z.mod_mul. lia.
  - subst eb. rewrite Z.min_id, Z.sub_diag, Z.pow_0_r, !Z.mul_1_r in H. subst. reflexivity.
  - exfalso. rewrite Z.min_r in H by lia. rewrite Z.sub_diag, Z.pow_0_r, Z.mul_1_r in H.
    apply (Hb2 ltac:(lia)). subst cb.
    replace (ea - eb) with (Z.succ (ea - eb - 1)) by lia. rewrite Z.pow_succ_r by lia.
    replace (ca * (10 * 10 ^ (ea - eb - 1))) with ((ca * 10 ^ (ea - eb - 1)) * 10) by ring.
    apply Z.mod_mul. lia.
Qed.

Lemma parse_digits_last s c v : parse_digits (s ++ [c]) 0 = Some v -> v mod 10 = c - 48 /\ 48 <= c <= 57.
Proof.
  rewrite parse_digits_app. destruct (parse_digits s 0) as [w|]; [|discriminate].
  cbn [parse_digits]. destruct (is_digit c) eqn:Hc; [|discriminate]. apply is_digit_range in Hc.
  intros H. injection H as <-. split; [|exact Hc].
  rewrite Z.add_comm, Z_mod_plus_full. apply Z.mod_small. lia.
Qed.

Lemma reread_normalised q : normalised (reread q).
Proof.
  destruct (to_string_canon q) as (ip & fp & v & Hs & Hc & Dip & Dfp & Htr & Hp & Hneg).
  assert (Hipne : ip <> []) by (destruct Hc as [->|[H _]]; [discriminate|exact H]).
  pose proof (of_string_numeral (coef q <? 0) ip fp v Hipne Dip Dfp Hp) as Hx.
  change (match fp with [] => [] | _ :: _ => [46] ++ fp end) with (frac_tail fp) in Hx.
  change (if coef q <? 0 then [45] else []) with (sgn q) in Hx. rewrite <- Hs in Hx.
  unfold reread. rewrite Hx. split; cbn [ex coef]; [lia|].
  intros Hlen. assert (Hne : fp <> []) by (intros ->; cbn [length] in Hlen; lia).
  unfold trimmed in Htr. destruct (rev fp) as [|c t] eqn:Er.
  { exfalso. apply Hne. rewrite <- (rev_involutive fp), Er. reflexivity. }
  assert (Hfp : fp = rev t ++ [c]) by (rewrite <- (rev_involutive fp), Er; reflexivity).
  rewrite Hfp, app_assoc in Hp. apply parse_digits_last in Hp. destruct Hp as [Hm Hr].
  assert (Hc48 : c <> 48) by (intros ->; exact Htr).
  destruct (coef q <? 0); Z.div_mod_to_equations; lia.
Qed.

Lemma dec_eqv_iff_value a b : dec_eqv a b <-> (dvalue a == dvalue b)%Q.
Proof. rewrite <- dec_equal_value, dec_equal_min. unfold dec_eqv, coef_at, scale_to, pow10. reflexivity. Qed.

Theorem to_string_value a b : (dvalue a == dvalue b)%Q -> to_string a = to_string b.
Proof.
  intros H. rewrite <- (to_string_reread a), <- (to_string_reread b). f_equal.
  apply normalised_eq; try apply reread_normalised. apply dec_eqv_iff_value.
  rewrite (proj1 (dec_eqv_iff_value _ _) (reread_eqv a)), (proj1 (dec_eqv_iff_value _ _) (reread_eqv b)). exact H.
Qed.

Lemma to_string_nonempty d : to_string d <> [].
Proof.
  destruct (to_string_canon d) as (ip & fp & v & Hs & Hc & _).
  assert (Hipne : ip <> []) by (destruct Hc as [->|[H _]]; [discriminate|exact H]).
  rewrite Hs. intros H. apply app_eq_nil in H. destruct H as [_ H]. apply app_eq_nil in H. tauto.
Qed.

Example to_string_value_example :
  to_string (mkDec 1500 (-3)) = to_string (mkDec 15 (-1)) /\ to_string (mkDec 0 (-2)) = to_string (mkDec 0 5).
Proof. vm_compute. auto. Qed.
