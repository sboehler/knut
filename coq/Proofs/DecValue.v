(* The rational value of a decimal, and the exactness of add / neg / mul with respect to it. *)
From Coq Require Import ZArith QArith Qpower List Bool Lia.
From Knut Require Import Model.Dec Proofs.DecProofs Proofs.DecEqProofs.
Import ListNotations.
Open Scope Q_scope.

Definition ten : Q := 10 # 1.

Lemma ten_nz : ~ ten == 0.
Proof. unfold ten. discriminate. Qed.

Definition dvalue (d : dec) : Q := inject_Z (coef d) * Qpower ten (ex d).

Lemma pow10_as_Q n : (0 <= n)%Z -> inject_Z (pow10 n) == Qpower ten n.
Proof. intros H. unfold pow10. rewrite Zpower_Qpower by exact H. reflexivity. Qed.

Lemma scale_to_value d m : (m <= ex d)%Z -> inject_Z (scale_to d m) * Qpower ten m == dvalue d.
Proof.
  intros H. unfold scale_to, dvalue. rewrite inject_Z_mult, pow10_as_Q by lia.
  rewrite <- Qmult_assoc, <- (Qpower_plus ten _ _ ten_nz).
  replace (ex d - m + m)%Z with (ex d) by ring. reflexivity.
Qed.

Lemma dvalue_add a b : dvalue (add a b) == dvalue a + dvalue b.
Proof.
  rewrite add_normal. set (m := Z.min (ex a) (ex b)).
  unfold dvalue at 1. cbn [coef ex]. rewrite inject_Z_plus, Qmult_plus_distr_l.
  rewrite !scale_to_value by (unfold m; lia). reflexivity.
Qed.

Lemma dvalue_neg a : dvalue (neg a) == - dvalue a.
Proof. unfold dvalue, neg. cbn [coef ex]. rewrite inject_Z_opp. ring. Qed.

Lemma dvalue_sub a b : dvalue (sub a b) == dvalue a - dvalue b.
Proof.
  rewrite sub_normal. set (m := Z.min (ex a) (ex b)).
  unfold dvalue at 1. cbn [coef ex]. unfold Z.sub, Qminus.
  rewrite inject_Z_plus, inject_Z_opp, Qmult_plus_distr_l.
  rewrite <- (scale_to_value a m), <- (scale_to_value b m) by (unfold m; lia). ring.
Qed.

Lemma dvalue_mul a b : dvalue (mul a b) == dvalue a * dvalue b.
Proof.
  unfold dvalue, mul. cbn [coef ex]. rewrite inject_Z_mult, (Qpower_plus ten _ _ ten_nz). ring.
Qed.

Lemma Qpower_ten_pos n : 0 < Qpower ten n.
Proof. apply Qpower_0_lt. reflexivity. Qed.

Lemma is_zero_value d : is_zero d = true <-> dvalue d == 0.
Proof.
  unfold is_zero, dvalue. rewrite Z.eqb_eq. split.
  - intros ->. ring.
  - intros H. pose proof (Qpower_ten_pos (ex d)) as Hp.
    destruct (Z.eq_dec (coef d) 0) as [|Hne]; [assumption|exfalso].
    apply Qmult_integral in H. destruct H as [H|H].
    + apply Hne. unfold Qeq in H. cbn in H. lia.
    + rewrite H in Hp. apply (Qlt_irrefl 0 Hp).
Qed.

Lemma dvalue_nil : dvalue (mkDec 0 0) == 0.
Proof. reflexivity. Qed.

Lemma dvalue_zero_coef e : dvalue (mkDec 0 e) == 0.
Proof. unfold dvalue. cbn [coef]. ring. Qed.

Lemma dec_equal_value a b : dec_equal a b = true <-> dvalue a == dvalue b.
Proof.
  rewrite dec_equal_min. set (m := Z.min (ex a) (ex b)).
  rewrite <- (scale_to_value a m), <- (scale_to_value b m) by (unfold m; lia).
  split; [intros ->; reflexivity|]. intros H.
  apply Qmult_inj_r in H; [|apply Qnot_eq_sym, Qlt_not_eq, Qpower_ten_pos].
  apply inject_Z_injective. exact H.
Qed.
