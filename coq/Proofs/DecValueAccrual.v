(* Spec/AccrualSpec.v writes out the rational value of a decimal record for itself; it is
   DecValue.dvalue, and the exactness of the decimal operations the accrual expansion uses
   (add, neg, mul, of_int, quo_rem) is stated here for it. *)
From Coq Require Import ZArith QArith Qpower List Bool Lia.
From Knut Require Import Model.Dec Proofs.DecProofs Spec.AccrualSpec.
From Knut Require Proofs.DecValue.
Import ListNotations.
Open Scope bool_scope.
Open Scope Z_scope.

Lemma dvalue_add a b : (dvalue (add a b) == dvalue a + dvalue b)%Q.
Proof. exact (DecValue.dvalue_add a b). Qed.

Lemma dvalue_neg d : (dvalue (neg d) == - dvalue d)%Q.
Proof. exact (DecValue.dvalue_neg d). Qed.

Lemma dvalue_mul a b : (dvalue (mul a b) == dvalue a * dvalue b)%Q.
Proof. exact (DecValue.dvalue_mul a b). Qed.

Lemma dvalue_of_int n : (dvalue (of_int n) == inject_Z n)%Q.
Proof. unfold dvalue, of_int. cbn [coef ex Qpower]. ring. Qed.

Lemma dvalue_zero_coef e : (dvalue (mkDec 0 e) == 0)%Q.
Proof. exact (DecValue.dvalue_zero_coef e). Qed.

Lemma dvalue_is_zero d : is_zero d = true -> (dvalue d == 0)%Q.
Proof. apply DecValue.is_zero_value. Qed.

(* Decimal.QuoRem: d = d2 * q + r exactly.  The number with the larger exponent is scaled down
   to the common exponent, where the coefficients aa and bb are divided as integers,
   aa = bb * Q + R; the quotient Q counts units of 10^(-p). *)
Lemma quo_rem_value d d2 p q r :
  quo_rem d d2 p = DOk (q, r) -> (dvalue d == dvalue d2 * dvalue q + dvalue r)%Q.
Proof.
  unfold quo_rem. destruct (coef d2 =? 0); [discriminate|].
  assert (Hsplit : forall x y,
            (Qpower DecValue.ten (x + y) == Qpower DecValue.ten x * Qpower DecValue.ten y)%Q)
    by (intros x y; apply Qpower_plus, DecValue.ten_nz).
  destruct (ex d - ex d2 - - p <? 0) eqn:Ee; intros H; injection H as <- <-.
  - apply Z.ltb_lt in Ee.
    rewrite <- (DecValue.scale_to_value d2 (ex d + p)) by lia. unfold scale_to.
    replace (ex d2 - (ex d + p)) with (- (ex d - ex d2 - - p)) by ring.
    set (bb := coef d2 * pow10 (- (ex d - ex d2 - - p))).
    unfold dvalue. cbn [coef ex].
    rewrite (Z.quot_rem' (coef d) bb) at 1. rewrite inject_Z_plus, inject_Z_mult.
    replace (ex d) with ((ex d + p) + - p) at 1 3 by ring. rewrite (Hsplit (ex d + p) (- p)).
    change (Qpower (10 # 1)) with (Qpower DecValue.ten). ring.
  - apply Z.ltb_ge in Ee.
    rewrite <- (DecValue.scale_to_value d (- p + ex d2)) by lia. unfold scale_to.
    replace (ex d - (- p + ex d2)) with (ex d - ex d2 - - p) by ring.
    set (aa := coef d * pow10 (ex d - ex d2 - - p)).
    unfold dvalue. cbn [coef ex].
    rewrite (Z.quot_rem' aa (coef d2)) at 1. rewrite inject_Z_plus, inject_Z_mult.
    rewrite !(Hsplit (- p) (ex d2)). change (Qpower (10 # 1)) with (Qpower DecValue.ten). ring.
Qed.

(* Decimal.QuoRem by an integer at precision 1: d = n * q + r exactly *)
Lemma quo_rem_spec d n q r :
  quo_rem d (of_int n) 1 = DOk (q, r) ->
  (dvalue d == inject_Z n * dvalue q + dvalue r)%Q.
Proof. intros H. rewrite <- (dvalue_of_int n). exact (quo_rem_value _ _ _ _ _ H). Qed.

Lemma quo_rem_ok d n : n <> 0 -> exists q r, quo_rem d (of_int n) 1 = DOk (q, r).
Proof.
  intros Hn. unfold quo_rem, of_int. cbn [coef ex].
  replace (n =? 0) with false by lia.
  destruct (ex d - 0 - - (1) <? 0); eexists; eexists; reflexivity.
Qed.

Lemma quo_rem_zero_panics d : quo_rem d (of_int 0) 1 = DPanic.
Proof. reflexivity. Qed.
