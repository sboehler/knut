(* C07, summary: the four executable statements about a tree -- cover_b (gaps), wf_leaves_b
   (leaves), wf_keywords_b (keyword windows), wf_separators_b (separators) -- together with
   wf_tree_b account for EVERY byte of the text: the pieces of the tree ([pieces], Spec/SepSpec.v)
   follow each other without a hole from 0 to |t|, each slice is in the class of its piece
   ([determined_b]), and the text is the concatenation of the slices of the pieces.

   This file is about the specification only (no parser): [determined_of_specs] derives
   determined_b from the five booleans for ANY tree, in particular for the tree the Go parser
   returns; Properties/C07.v combines it with the theorems about the parser.               *)
From Coq Require Import ZArith List Bool Lia.
From Knut Require Import Model.Bytes Model.Utf8 Model.Scanner Model.Parser Spec.SyntaxSpec Spec.FormatSpec
  Spec.LeafSpec Spec.SepSpec Proofs.ScannerProofs Proofs.ParserProofs Proofs.LexBytes.
Import ListNotations.
Open Scope bool_scope.
Open Scope Z_scope.

Ltac bsplit := repeat match goal with
  | H : _ && _ = true |- _ => apply andb_true_iff in H; destruct H
  | H : (_ =? _) = true |- _ => apply Z.eqb_eq in H
  | H : (_ <=? _) = true |- _ => apply Z.leb_le in H
  | H : (_ <? _) = true |- _ => apply Z.ltb_lt in H
  end.

Ltac clear_bools := repeat match goal with H : _ = true |- _ => clear H | H : _ = false |- _ => clear H end.

Ltac bgoal := repeat (apply andb_true_iff; split);
  try (apply Z.eqb_eq; clear_bools; lia); try (apply Z.leb_le; clear_bools; lia); try assumption.

Section Det.
Variable dec : str -> Z * Z.
Variables letter digit : Z -> bool.
Variable t : str.

Notation chain := (chain_b dec letter digit t).
Notation ok := (piece_ok_b dec letter digit t).

Lemma chain_app ps1 : forall a b ps2 c,
  chain a ps1 b = true -> chain b ps2 c = true -> chain a (ps1 ++ ps2) c = true.
Proof.
  induction ps1 as [|p ps1 IH]; intros a b ps2 c H1 H2; cbn [chain_b app] in *.
  - apply Z.eqb_eq in H1. now subst.
  - bsplit. bgoal. eapply IH; eauto.
Qed.

Lemma chain_le ps : forall a b, chain a ps b = true -> a <= b.
Proof.
  induction ps as [|p ps IH]; intros a b H; cbn [chain_b] in H; bsplit; [lia|].
  match goal with H : chain _ ps _ = true |- _ => apply IH in H end. lia.
Qed.

Lemma chain_tail a b c cls : a <= b -> ok (sepp a b cls) = true -> b = c -> chain a [sepp a b cls] c = true.
Proof.
  intros Hle Hok ->. cbn [chain_b]. rewrite Hok. cbn [sepp fst r_start r_end]. rewrite !Z.eqb_refl.
  apply Z.leb_le in Hle. rewrite Hle. reflexivity.
Qed.

Lemma chain_cons a b cls ps c : a <= b -> ok (sepp a b cls) = true -> chain b ps c = true ->
  chain a (sepp a b cls :: ps) c = true.
Proof.
  intros Hle Hok Hc. cbn [chain_b]. rewrite Hok. cbn [sepp fst r_start r_end]. rewrite Hc, Z.eqb_refl.
  apply Z.leb_le in Hle. rewrite Hle. reflexivity.
Qed.

Lemma chain_concat ps : forall a b, 0 <= a -> chain a ps b = true ->
  concat (map (fun p => cut t (fst p)) ps) = slice t a b.
Proof.
  induction ps as [|p ps IH]; intros a b H0 H; cbn [chain_b] in H; cbn [map concat].
  - apply Z.eqb_eq in H. subst. symmetry. apply slice_nil.
  - bsplit. assert (Hr : 0 <= r_end (fst p)) by lia.
    match goal with H : chain _ ps _ = true |- _ => pose proof (chain_le _ _ _ H); rewrite (IH _ _ Hr H) end.
    unfold cut. rewrite (slice_app t a (r_end (fst p)) b) by lia. congruence.
Qed.

Lemma range_eqb_refl r : range_eqb r r = true.
Proof. unfold range_eqb. now rewrite !Z.eqb_refl. Qed.

Lemma ok_account a : leaf_account dec letter digit t a = true -> ok (pc_account a) = true.
Proof. intros H. unfold piece_ok_b, pc_account. cbn [fst snd]. now rewrite range_eqb_refl. Qed.

Lemma ok_quoted q : leaf_quoted dec t q = true -> ok (qs_range q, PQuoted q) = true.
Proof. intros H. unfold piece_ok_b. cbn [fst snd]. now rewrite range_eqb_refl. Qed.

(* explicit chains: unfold to atoms *)
Ltac chain_atoms :=
  cbn [chain_b app];
  repeat match goal with |- _ && _ = true => apply andb_true_iff; split end;
  match goal with
  | |- (_ =? _) = true => apply Z.eqb_eq; cbn [fst snd sepp pc_account r_start r_end]; clear_bools; lia
  | |- (_ <=? _) = true => apply Z.leb_le; cbn [fst snd sepp pc_account r_start r_end]; clear_bools; lia
  | |- piece_ok_b _ _ _ _ (pc_account _) = true => apply ok_account; assumption
  | |- piece_ok_b _ _ _ _ (_, PQuoted _) = true => apply ok_quoted; assumption
  | |- piece_ok_b _ _ _ _ _ = true => unfold piece_ok_b, cut, sepp; cbn [fst snd r_start r_end]; try assumption
  | |- chain_b _ _ _ _ _ _ _ = true => cbn [fst snd sepp pc_account r_start r_end]; try eassumption
  | |- _ => idtac
  end.

Lemma chain_booking lo hi b :
  wf_booking lo hi b = true -> leaves_booking dec letter digit t b = true -> sep_booking t b = true ->
  chain (r_start (bk_range b)) (pc_booking b) (r_end (bk_range b)) = true.
Proof.
  unfold wf_booking, leaves_booking, sep_booking, rng_in, pc_booking. cbn [ordered_in]. intros H1 H2 H3. bsplit.
  chain_atoms.
Qed.

Lemma chain_balance lo hi b :
  wf_balance lo hi b = true -> leaves_balance dec letter digit t b = true -> sep_balance t b = true ->
  chain (r_start (bl_range b)) (pc_balance b) (r_end (bl_range b)) = true.
Proof.
  unfold wf_balance, leaves_balance, sep_balance, rng_in, pc_balance. cbn [ordered_in]. intros H1 H2 H3. bsplit.
  chain_atoms.
Qed.

Fixpoint lines_ok (lastp : Z -> bool) (rs : list range) : bool :=
  match rs with
  | [] => false
  | r :: rs' =>
    match rs' with
    | [] => lastp (r_end r)
    | r' :: _ => restline_b (slice t (r_end r) (r_start r')) && lines_ok lastp rs'
    end
  end.

Lemma sep_lines_ok eofok hi rs :
  sep_lines t eofok rs hi = lines_ok (fun e => restline_end_b eofok (slice t e hi)) rs.
Proof. induction rs as [|r rs IH]; [reflexivity|]. cbn [sep_lines lines_ok]. destruct rs; [reflexivity|]. now rewrite IH. Qed.

Lemma lines_ok_impl (p q : Z -> bool) rs :
  (forall e, p e = true -> q e = true) -> lines_ok p rs = true -> lines_ok q rs = true.
Proof.
  intros Hpq. induction rs as [|r rs IH]; [auto|]. cbn [lines_ok]. destruct rs; [apply Hpq|].
  intros H. apply andb_true_iff in H. destruct H as (H1 & H2). rewrite H1. cbn [andb]. now apply IH.
Qed.

Lemma chain_lines {A} (pc : A -> list piece) (rg : A -> range) lastc (lastp : Z -> bool) hi :
  (forall e, e <= hi -> lastp e = true -> ok (sepp e hi lastc) = true) ->
  forall xs lo, Forall (fun x => chain (r_start (rg x)) (pc x) (r_end (rg x)) = true) xs ->
  ordered_in lo hi (map rg xs) = true -> lines_ok lastp (map rg xs) = true ->
  match xs with x :: _ => chain (r_start (rg x)) (pc_lines pc rg lastc xs hi) hi = true | [] => True end.
Proof.
  intros Hlast. induction xs as [|x xs IH]; intros lo HF Ho Hl; [exact I|].
  inversion HF as [|? ? Hx HF']; subst. destruct xs as [|x' xs'].
  - cbn [map ordered_in lines_ok pc_lines] in *. bsplit. eapply chain_app; [exact Hx|].
    apply chain_tail; [lia| |reflexivity]. apply Hlast; [lia|assumption].
  - change (pc_lines pc rg lastc (x :: x' :: xs') hi) with
      (pc x ++ sepp (r_end (rg x)) (r_start (rg x')) PRest :: pc_lines pc rg lastc (x' :: xs') hi).
    change (map rg (x :: x' :: xs')) with (rg x :: map rg (x' :: xs')) in Ho, Hl.
    cbn [ordered_in] in Ho. change (lines_ok lastp (rg x :: map rg (x' :: xs'))) with
      (restline_b (slice t (r_end (rg x)) (r_start (rg x'))) && lines_ok lastp (map rg (x' :: xs'))) in Hl.
    apply andb_true_iff in Ho. destruct Ho as (Ho1 & Ho2). apply andb_true_iff in Hl. destruct Hl as (Hl1 & Hl2).
    specialize (IH (r_end (rg x)) HF' Ho2 Hl2). cbn beta iota in IH.
    eapply chain_app; [exact Hx|]. cbn [chain_b]. unfold piece_ok_b, cut, sepp. cbn [fst snd r_start r_end]. rewrite IH.
    cbn [map ordered_in] in Ho2. bsplit. rewrite Hl1, Z.eqb_refl.
    match goal with |- true && (?a <=? ?b) && true && true = true => assert (Hab : (a <=? b) = true) by (apply Z.leb_le; lia); rewrite Hab end.
    reflexivity.
Qed.

Lemma chain_targets : forall cs first pos hi lo0 hi0,
  sep_targets t first pos cs hi = true -> ordered_in lo0 hi0 cs = true ->
  forallb (leaf_commodity dec letter digit t) cs = true ->
  chain pos (pc_targets first pos cs hi) hi = true.
Proof.
  induction cs as [|c cs IH]; intros first pos hi lo0 hi0 Hs Ho Hl; cbn [sep_targets pc_targets ordered_in forallb] in *.
  - bsplit. apply chain_tail; [lia|assumption|reflexivity].
  - bsplit. match goal with H : sep_targets _ _ _ _ _ = true |- _ => specialize (IH _ _ _ _ _ H ltac:(eassumption) ltac:(assumption)) end.
    chain_atoms. destruct first; assumption.
Qed.

Lemma chain_perf lo hi p : is_zero_perf p = false -> wf_perf lo hi p = true -> kw_perf t p = true ->
  sep_perf t p = true -> forallb (leaf_commodity dec letter digit t) (pf_targets p) = true ->
  chain (r_start (pf_range p)) (pc_perf p) (r_end (pf_range p)) = true.
Proof.
  unfold wf_perf, kw_perf, sep_perf, pc_perf, rng_in. intros Hz H1 H2 H3 H4. rewrite Hz in *. cbn [orb] in *.
  change (zlen kw_paren) with 13 in *. bsplit.
  pose proof (chain_targets _ _ _ _ _ _ H3 ltac:(eassumption) H4) as Ht.
  cbn [chain_b]. apply andb_true_iff. split.
  - chain_atoms.
  - eapply chain_app; [exact Ht|]. apply chain_tail; [clear_bools; lia| |reflexivity].
    unfold piece_ok_b, cut, sepp. cbn [fst snd r_start r_end]. assumption.
Qed.

Lemma chain_accrual lo hi a : is_zero_accrual a = false -> wf_accrual lo hi a = true ->
  leaves_accrual dec letter digit t a = true -> kw_accrual t a = true -> sep_accrual t a = true ->
  chain (r_start (ac_range a)) (pc_accrual a) (r_end (ac_range a)) = true.
Proof.
  unfold wf_accrual, leaves_accrual, kw_accrual, sep_accrual, pc_accrual, rng_in. intros Hz H1 H2 H3 H4.
  rewrite Hz in *. cbn [orb ordered_in] in *. bsplit. chain_atoms.
Qed.

Lemma ok_rest a b : restline_b (slice t a b) = true -> ok (sepp a b PRest) = true.
Proof. intros H. unfold piece_ok_b, cut, sepp. cbn [fst snd r_start r_end]. exact H. Qed.

Lemma chain_addons lo hi a : is_zero_addons a = false -> wf_addons lo hi a = true ->
  leaves_addons dec letter digit t a = true -> kw_addons t a = true -> sep_addons t a = true ->
  chain (r_start (ad_range a)) (pc_addons a) (r_end (ad_range a)) = true.
Proof.
  unfold wf_addons, leaves_addons, kw_addons, sep_addons, pc_addons, tile_ad_b, rng_in, disjoint_b.
  intros Hz H1 H2 H3 H4. rewrite Hz in *. cbn [orb] in *.
  destruct (is_zero_perf (ad_perf a)) eqn:Hzp, (is_zero_accrual (ad_accrual a)) eqn:Hza; cbn [orb] in *; bsplit.
  - clear_bools. lia.
  - rewrite restline_end_false in *.
    match goal with H : r_start (ac_range _) = r_start (ad_range a) |- _ => rewrite <- H end.
    eapply chain_app; [eapply chain_accrual; eassumption|].
    apply chain_tail; [|apply ok_rest; assumption|reflexivity]. unfold wf_accrual, rng_in in *. bsplit. clear_bools. lia.
  - rewrite restline_end_false in *.
    match goal with H : r_start (pf_range _) = r_start (ad_range a) |- _ => rewrite <- H end.
    eapply chain_app; [eapply chain_perf; eassumption|].
    apply chain_tail; [|apply ok_rest; assumption|reflexivity]. unfold wf_perf, rng_in in *. bsplit. clear_bools. lia.
  - assert (Hpe : r_end (pf_range (ad_perf a)) <= r_end (ad_range a)) by (unfold wf_perf, rng_in in *; bsplit; clear_bools; lia).
    assert (Hce : r_end (ac_range (ad_accrual a)) <= r_end (ad_range a)) by (unfold wf_accrual, rng_in in *; bsplit; clear_bools; lia).
    match goal with H : _ || _ = true |- _ => apply orb_true_iff in H; rename H into Hdis end.
    destruct (Z.ltb_spec (r_start (pf_range (ad_perf a))) (r_start (ac_range (ad_accrual a)))); bsplit; rewrite restline_end_false in *.
    + match goal with H : r_start (pf_range _) = r_start (ad_range a) |- _ => rewrite <- H end.
      eapply chain_app; [eapply chain_perf; eassumption|].
      apply chain_cons; [destruct Hdis as [Hd|Hd]; bsplit; clear_bools; lia|apply ok_rest; assumption|].
      eapply chain_app; [eapply chain_accrual; eassumption|].
      apply chain_tail; [clear_bools; lia|apply ok_rest; assumption|reflexivity].
    + match goal with H : r_start (ac_range _) = r_start (ad_range a) |- _ => rewrite <- H end.
      eapply chain_app; [eapply chain_accrual; eassumption|].
      apply chain_cons; [destruct Hdis as [Hd|Hd]; bsplit; clear_bools; lia|apply ok_rest; assumption|].
      eapply chain_app; [eapply chain_perf; eassumption|].
      apply chain_tail; [clear_bools; lia|apply ok_rest; assumption|reflexivity].
Qed.

Lemma Forall_booking lo hi bs :
  forallb (wf_booking lo hi) bs = true -> forallb (leaves_booking dec letter digit t) bs = true ->
  forallb (sep_booking t) bs = true ->
  Forall (fun b => chain (r_start (bk_range b)) (pc_booking b) (r_end (bk_range b)) = true) bs.
Proof.
  intros H1 H2 H3. apply Forall_forall. intros b Hin.
  rewrite forallb_forall in H1, H2, H3. eapply chain_booking; eauto.
Qed.

Lemma Forall_balance lo hi bs :
  forallb (wf_balance lo hi) bs = true -> forallb (leaves_balance dec letter digit t) bs = true ->
  forallb (sep_balance t) bs = true ->
  Forall (fun b => chain (r_start (bl_range b)) (pc_balance b) (r_end (bl_range b)) = true) bs.
Proof.
  intros H1 H2 H3. apply Forall_forall. intros b Hin.
  rewrite forallb_forall in H1, H2, H3. eapply chain_balance; eauto.
Qed.

Lemma ok_restend eofok hi e : e <= hi -> restline_end_b eofok (slice t e hi) = true -> ok (sepp e hi (PRestEnd eofok)) = true.
Proof. intros _ H. unfold piece_ok_b, cut, sepp. cbn [fst snd r_start r_end]. exact H. Qed.

Lemma ok_restopt eofok hi e : e <= hi -> (e =? hi) || restline_end_b eofok (slice t e hi) = true ->
  ok (sepp e hi (PRestOpt eofok)) = true.
Proof.
  intros _ H. unfold piece_ok_b, cut, sepp. cbn [fst snd r_start r_end]. apply orb_true_iff in H.
  destruct H as [H|H]; [|rewrite H; apply orb_true_r]. apply Z.eqb_eq in H. subst. now rewrite slice_nil.
Qed.

Lemma chain_trx d x : wf_body d (BTrx x) = true -> leaves_body dec letter digit t (BTrx x) = true ->
  kw_body t (BTrx x) = true -> sep_body t d (BTrx x) = true ->
  chain (r_start d) (pc_body t d (BTrx x)) (r_end d) = true.
Proof.
  cbn [wf_body leaves_body kw_body sep_body pc_body]. unfold wf_transaction, wf_quoted, rng_in, range_eqb, addons_ranges.
  intros H1 H2 H3 H4. destruct (tx_bookings x) as [|b1 bs] eqn:Hbs; bsplit; try discriminate.
  repeat match goal with H : r_start (tx_range x) = r_start d |- _ => rewrite <- H | H : r_end (tx_range x) = r_end d |- _ => rewrite <- H end.
  set (hi := r_end (tx_range x)) in *.
  assert (Hlines : chain (r_start (bk_range b1))
            (pc_lines pc_booking bk_range (PRestEnd (hi =? zlen t)) (b1 :: bs) hi) hi = true).
  { match goal with H : sep_lines _ _ _ _ = true |- _ => rewrite sep_lines_ok in H; rename H into Hl end.
    refine (chain_lines pc_booking bk_range _ _ hi (ok_restend _ hi) (b1 :: bs) (r_end (qs_range (tx_desc x))) _ _ Hl).
    - eapply Forall_booking; eassumption.
    - destruct (is_zero_addons (tx_addons x)); cbn [app ordered_in] in *; bsplit; assumption. }
  destruct (is_zero_addons (tx_addons x)) eqn:Hz.
  - unfold pc_addons. rewrite Hz. cbn [app map ordered_in] in *. bsplit. chain_atoms.
  - cbn [orb app map ordered_in] in *. bsplit.
    match goal with H : r_start (ad_range _) = r_start (tx_range x) |- _ => rewrite <- H end.
    eapply chain_app; [eapply chain_addons; eassumption|]. chain_atoms.
Qed.

Lemma chain_assertion d a : wf_body d (BAssertion a) = true -> leaves_body dec letter digit t (BAssertion a) = true ->
  kw_body t (BAssertion a) = true -> sep_body t d (BAssertion a) = true ->
  chain (r_start d) (pc_body t d (BAssertion a)) (r_end d) = true.
Proof.
  cbn [wf_body leaves_body kw_body sep_body pc_body]. unfold wf_assertion, rng_in, range_eqb, sep_dropped.
  intros H1 H2 H3 H4. destruct (as_balances a) as [|b1 bs] eqn:Hbs; bsplit; try discriminate.
  repeat match goal with H : r_start (as_range a) = r_start d |- _ => rewrite <- H | H : r_end (as_range a) = r_end d |- _ => rewrite <- H end.
  set (hi := r_end (as_range a)) in *. cbn [map ordered_in] in *. bsplit.
  assert (Hlines : chain (r_start (bl_range b1))
            (pc_lines pc_balance bl_range (PRestOpt (hi =? zlen t)) (b1 :: bs) hi) hi = true).
  { refine (chain_lines pc_balance bl_range _ (fun e => (e =? hi) || restline_end_b (hi =? zlen t) (slice t e hi)) hi
              (ok_restopt _ hi) (b1 :: bs) (r_end (as_date a)) _ _ _).
    - eapply Forall_balance; eassumption.
    - cbn [map ordered_in]. bgoal.
    - match goal with H : _ || _ = true |- _ => apply orb_true_iff in H; destruct H as [Hone|Hmany] end.
      + destruct bs; [|discriminate]. cbn [map lines_ok]. now rewrite Hone.
      + rewrite sep_lines_ok in Hmany. eapply lines_ok_impl; [|exact Hmany]. intros e He. cbv beta. rewrite He. apply orb_true_r. }
  chain_atoms.
Qed.

Lemma chain_body d b : wf_body d b = true -> leaves_body dec letter digit t b = true ->
  kw_body t b = true -> sep_body t d b = true ->
  chain (r_start d) (pc_body t d b) (r_end d) = true.
Proof.
  destruct b as [x|o|c|a|p|i|]; try (intros; discriminate).
  - apply chain_trx.
  - cbn [wf_body leaves_body kw_body sep_body pc_body]. unfold wf_open, rng_in, range_eqb, sep_dropped. cbn [ordered_in].
    intros H1 H2 H3 H4. bsplit.
    repeat match goal with H : r_start _ = r_start d |- _ => rewrite <- H | H : r_end _ = r_end d |- _ => rewrite <- H end.
    chain_atoms.
  - cbn [wf_body leaves_body kw_body sep_body pc_body]. unfold wf_close, rng_in, range_eqb, sep_dropped. cbn [ordered_in].
    intros H1 H2 H3 H4. bsplit.
    repeat match goal with H : r_start _ = r_start d |- _ => rewrite <- H | H : r_end _ = r_end d |- _ => rewrite <- H end.
    chain_atoms.
  - apply chain_assertion.
  - cbn [wf_body leaves_body kw_body sep_body pc_body]. unfold wf_price, rng_in, range_eqb, sep_dropped. cbn [ordered_in].
    intros H1 H2 H3 H4. bsplit.
    repeat match goal with H : r_start _ = r_start d |- _ => rewrite <- H | H : r_end _ = r_end d |- _ => rewrite <- H end.
    chain_atoms.
  - cbn [wf_body leaves_body kw_body sep_body pc_body]. unfold wf_include, wf_quoted, rng_in, sep_dropped.
    intros H1 H2 H3 H4. bsplit.
    match goal with H : r_end (in_range i) = r_end d |- _ => rewrite <- H end.
    chain_atoms.
Qed.

Lemma slice_nonnil a b : 0 <= a -> a < b -> b <= zlen t -> nonnil (slice t a b) = true.
Proof.
  intros H0 Hlt Hle. unfold slice.
  destruct (firstn (Z.to_nat (b - a)) (skipn (Z.to_nat a) t)) eqn:He; [|reflexivity]. exfalso.
  assert (Hl : length (firstn (Z.to_nat (b - a)) (skipn (Z.to_nat a) t)) = O) by now rewrite He.
  rewrite firstn_length, skipn_length in Hl. unfold zlen in Hle. lia.
Qed.

Lemma chain_file n : n = zlen t -> forall ds pos after, 0 <= pos ->
  gaps_b t pos after ds = true -> ordered_in pos n (map d_range ds) = true ->
  forallb (wf_directive 0 n) ds = true ->
  forallb (leaves_directive dec letter digit t) ds = true ->
  forallb (fun d => kw_body t (d_body d)) ds = true ->
  forallb (fun d => sep_body t (d_range d) (d_body d)) ds = true ->
  chain pos (pc_file t pos after ds) n = true.
Proof.
  intros Hn. induction ds as [|d ds IH]; intros pos after H0 Hg Ho Hw Hl Hk Hs;
    cbn [gaps_b map ordered_in forallb pc_file] in *; subst n.
  - bsplit. apply chain_tail; [clear_bools; lia| |reflexivity].
    unfold piece_ok_b, cut, sepp. cbn [fst snd r_start r_end]. rewrite Hg. cbn [andb]. rewrite orb_true_r. reflexivity.
  - unfold wf_directive, leaves_directive, rng_in in *. bsplit.
    apply chain_cons; [clear IH; clear_bools; lia| |].
    + unfold piece_ok_b, cut, sepp. cbn [fst snd r_start r_end].
      match goal with H : gap_ok_b _ _ _ = true |- _ => rewrite H end. cbn [andb orb].
      destruct after; [|reflexivity]. cbn [negb orb] in *.
      match goal with H : (_ <? _) = true |- _ => apply Z.ltb_lt in H end. apply slice_nonnil; clear IH; clear_bools; lia.
    + eapply chain_app; [eapply chain_body; eassumption|]. apply IH; try assumption. clear IH; clear_bools; lia.
Qed.

Theorem determined_of_specs f :
  wf_tree_b t f = true -> cover_b t f = true -> wf_leaves_gen dec letter digit t f = true ->
  wf_keywords_b t f = true -> wf_separators_b t f = true ->
  determined_gen dec letter digit t f = true.
Proof.
  unfold wf_tree_b, cover_b, wf_leaves_gen, wf_keywords_b, wf_separators_b, determined_gen, pieces_gen.
  intros H1 H2 H3 H4 H5. bsplit. apply (chain_file (zlen t) eq_refl); try assumption. clear; lia.
Qed.

Theorem pieces_concat f : determined_gen dec letter digit t f = true ->
  concat (map (fun p => cut t (fst p)) (pieces_gen t f)) = t.
Proof.
  unfold determined_gen. intros H. rewrite (chain_concat _ _ _ (Z.le_refl 0) H). apply slice_full.
Qed.

Theorem pieces_ok f : determined_gen dec letter digit t f = true ->
  forallb ok (pieces_gen t f) = true.
Proof.
  unfold determined_gen. generalize (pieces_gen t f) 0 (zlen t). induction l as [|p ps IH]; intros a b H; [reflexivity|].
  cbn [chain_b forallb] in *. bsplit. match goal with H : ok p = true |- _ => rewrite H end. eapply IH; eauto.
Qed.

End Det.

From Knut Require Import Proofs.RoundTripLeaf Proofs.LeafProofs Proofs.KeywordProofs Proofs.SepProofs.

(* the five executable statements, evaluated on ANY tree (in particular the Go parser's), imply
   that its pieces account for every byte *)
Theorem determined_of_specs_b letter digit t f :
  wf_tree_b t f = true -> cover_b t f = true -> wf_leaves_b letter digit t f = true ->
  wf_keywords_b t f = true -> wf_separators_b t f = true ->
  determined_b letter digit t f = true /\
  forallb (piece_ok_b Utf8M.decode letter digit t) (pieces t f) = true /\
  concat (map (fun p => cut t (fst p)) (pieces t f)) = t.
Proof.
  intros H1 H2 H3 H4 H5.
  pose proof (determined_of_specs Utf8M.decode letter digit t f H1 H2 H3 H4 H5) as Hd.
  split; [exact Hd|]. split; [now apply pieces_ok|now apply (pieces_concat Utf8M.decode letter digit)].
Qed.

Theorem parse_text_determined letter digit t f : class_ok letter digit ->
  parse_text letter digit t = ParseOk f ->
  determined_b letter digit t f = true /\
  forallb (piece_ok_b Utf8M.decode letter digit t) (pieces t f) = true /\
  concat (map (fun p => cut t (fst p)) (pieces t f)) = t.
Proof.
  intros Hc Hp. apply determined_of_specs_b.
  - exact (parse_text_wf letter digit t f Hp).
  - exact (proj1 (parse_text_cover letter digit t f Hp)).
  - now apply parse_text_leaves.
  - exact (parse_text_keywords letter digit t f Hc Hp).
  - exact (parse_text_separators letter digit t f Hc Hp).
Qed.

