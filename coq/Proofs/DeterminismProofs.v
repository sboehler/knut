(* C06, arrival order: journal.Builder.Build with the source sort (Model/Source.v) returns the
   same journal for every order in which the files' directives reach Builder.Add.

   [src_ltb] (sourceBefore) is a strict total order on (path, offset).  The tagged builder is
   characterised ([tbuilder_days]): its days are the dates that occur, ascending, and each of a
   day's five lists is the selection of the arrival sequence by date and kind; erasing the tags
   gives the builder of Model/Journal.v.  Hence [build_sorted_canonical]: Build = the builder of
   Model/Journal.v run on the arrival sequence sorted (stably) by source -- the journal is what
   a sequential load in source order would have produced.  From it the arrival theorems (equal
   classes / permutation with injective keys / permutation of whole files), the commands as
   functions of the built journal, one file keeping its textual order, the refutation for the
   Build without the sort, and the contract of sort.SliceStable. *)
From Coq Require Import ZArith QArith List Bool Lia Permutation Sorting.Sorted.
From Knut Require Import Model.Str Model.Dec Model.Date Model.Account Model.Ledger Model.Price
     Model.Journal Model.Check Model.Pipeline Model.Table Model.Report Model.JPrinter Model.Cli
     Model.Beancount Model.CliTranscode Model.Perf Model.Weights Model.CliPortfolio Model.Source
     Spec.WellformedSpec Proofs.SMapProofs Proofs.StrProofs Proofs.StableSort Proofs.BuilderProofs Proofs.CheckPerm Proofs.OrderProofs.
Import ListNotations.
Open Scope bool_scope.
Open Scope Z_scope.

Lemma src_ltb_irrefl a : src_ltb a a = false.
Proof. unfold src_ltb. rewrite str_eqb_refl. apply Z.ltb_irrefl. Qed.

Lemma src_ltb_trans a b c : src_ltb a b = true -> src_ltb b c = true -> src_ltb a c = true.
Proof.
  unfold src_ltb. destruct a as [pa oa], b as [pb ob], c as [pc oc]. cbn [s_path s_start].
  destruct (str_eqb pa pb) eqn:E1; destruct (str_eqb pb pc) eqn:E2; intros H1 H2.
  - apply str_eqb_eq in E1, E2. subst. rewrite str_eqb_refl. apply Z.ltb_lt in H1, H2. apply Z.ltb_lt. lia.
  - apply str_eqb_eq in E1. subst. rewrite E2. exact H2.
  - apply str_eqb_eq in E2. subst. rewrite E1. exact H1.
  - pose proof (str_ltb_trans _ _ _ H1 H2) as H3.
    destruct (str_eqb pa pc) eqn:E3; [|exact H3].
    apply str_eqb_eq in E3. subst. rewrite str_ltb_irrefl in H3. discriminate.
Qed.

Lemma src_ltb_total a b : src_ltb a b = false -> src_ltb b a = false -> a = b.
Proof.
  unfold src_ltb. destruct a as [pa oa], b as [pb ob]. cbn [s_path s_start].
  destruct (str_eqb pa pb) eqn:E1.
  - apply str_eqb_eq in E1. subst. rewrite str_eqb_refl. intros H1 H2.
    apply Z.ltb_ge in H1, H2. f_equal. lia.
  - replace (str_eqb pb pa) with false.
    + intros H1 H2. apply str_eqb_neq in E1. exfalso. apply E1. apply str_ltb_total; assumption.
    + symmetry. apply str_eqb_neq. apply str_eqb_neq in E1. congruence.
Qed.

Lemma src_ltb_cotrans a b c : src_ltb a b = true -> src_ltb a c = true \/ src_ltb c b = true.
Proof. apply (klt_cotrans src_ltb src_ltb_trans src_ltb_total). Qed.

(* [by_src] compares the first components *)
Section BySrc.
  Context {A : Type}.
  Lemma by_src_irrefl (x : src * A) : by_src x x = false.
  Proof. apply src_ltb_irrefl. Qed.
  Lemma by_src_trans (x y z : src * A) : by_src x y = true -> by_src y z = true -> by_src x z = true.
  Proof. apply src_ltb_trans. Qed.
  Lemma by_src_cotrans (x y z : src * A) : by_src x y = true -> by_src x z = true \/ by_src z y = true.
  Proof. apply src_ltb_cotrans. Qed.
  Lemma eqv_by_src (x y : src * A) : eqv by_src x y = true <-> fst x = fst y.
  Proof. apply (eqv_by_key src_ltb fst src_ltb_irrefl src_ltb_total). Qed.
End BySrc.

(* the elements with source [k] *)
Definition has_src {A} (k : src) (x : src * A) : bool := eqv by_src (k, snd x) x.

Lemma has_src_spec {A} k (x : src * A) : has_src k x = true <-> fst x = k.
Proof. unfold has_src. rewrite eqv_by_src. cbn [fst]. split; congruence. Qed.

Lemma filter_eqv_has_src {A} (a : src * A) l : filter (eqv by_src a) l = filter (has_src (fst a)) l.
Proof.
  apply filter_ext. intros x. unfold has_src.
  destruct (eqv by_src a x) eqn:E1; destruct (eqv by_src (fst a, snd x) x) eqn:E2; try reflexivity.
  - apply eqv_by_src in E1. assert (H : eqv by_src (fst a, snd x) x = true) by (apply eqv_by_src; exact E1). congruence.
  - apply eqv_by_src in E2. assert (H : eqv by_src a x = true) by (apply eqv_by_src; exact E2). congruence.
Qed.

Definition pj_price (dt : Z) (x : src * directive) : option (src * (commodity * dec * commodity)) :=
  match snd x with DPrice d c p t => if d =? dt then Some (fst x, (c, p, t)) else None | _ => None end.
Definition pj_open (dt : Z) (x : src * directive) : option (src * account) :=
  match snd x with DOpen d a => if d =? dt then Some (fst x, a) else None | _ => None end.
Definition pj_txn (dt : Z) (x : src * directive) : option (src * txn) :=
  match snd x with DTxn t => if t_date t =? dt then Some (fst x, t) else None | _ => None end.
Definition pj_assert (dt : Z) (x : src * directive) : option (src * list balance) :=
  match snd x with DAssert d bs => if d =? dt then Some (fst x, bs) else None | _ => None end.
Definition pj_close (dt : Z) (x : src * directive) : option (src * account) :=
  match snd x with DClose d a => if d =? dt then Some (fst x, a) else None | _ => None end.

(* the day of date [dt] of the arrival sequence [l]: selections, in arrival order *)
Definition tday_of (l : list (src * directive)) (dt : Z) : tday :=
  mkTDay dt (select (pj_price dt) l) (select (pj_open dt) l) (select (pj_txn dt) l)
         (select (pj_assert dt) l) (select (pj_close dt) l).

Definition tdates (l : list (src * directive)) : list Z := dates (map snd l).

Lemma select_snoc {A B} (g : A -> option B) l x :
  select g (l ++ [x]) = select g l ++ match g x with Some b => [b] | None => [] end.
Proof. unfold select. rewrite flat_map_app. cbn. rewrite app_nil_r. reflexivity. Qed.

Lemma tday_of_snoc_same l s d :
  tday_of (l ++ [(s, d)]) (ddate d) = tadd_to_day s d (tday_of l (ddate d)).
Proof.
  unfold tday_of. rewrite !select_snoc.
  destruct d as [dt c p t|dt a|dt a|dt bs|t]; cbn [ddate]; unfold pj_price, pj_open, pj_txn, pj_assert, pj_close;
    cbn [snd fst]; rewrite ?Z.eqb_refl, ?app_nil_r; reflexivity.
Qed.

Lemma tday_of_snoc_other l s d dt : dt <> ddate d -> tday_of (l ++ [(s, d)]) dt = tday_of l dt.
Proof.
  intros Hne. unfold tday_of. rewrite !select_snoc.
  assert (E : (ddate d =? dt) = false) by (apply Z.eqb_neq; congruence).
  destruct d as [d0 c p t|d0 a|d0 a|d0 bs|t]; cbn [ddate] in E; unfold pj_price, pj_open, pj_txn, pj_assert, pj_close;
    cbn [snd fst]; rewrite ?E, ?app_nil_r; reflexivity.
Qed.

Lemma tday_of_absent l dt : ~ In dt (map ddate (map snd l)) -> tday_of l dt = tempty_day dt.
Proof.
  induction l as [|[s d] l IH] using rev_ind; intros H; [reflexivity|].
  rewrite !map_app, in_app_iff in H. cbn in H.
  rewrite tday_of_snoc_other by (intros E; apply H; right; left; symmetry; exact E).
  apply IH. tauto.
Qed.

Lemma tbuilder_add_days b s d :
  tb_days (tbuilder_add b (s, d)) = tupd_day (tb_days b) (ddate d) (tadd_to_day s d).
Proof. destruct d; reflexivity. Qed.

Lemma tbuilder_of_snoc l x : tbuilder_of (l ++ [x]) = tbuilder_add (tbuilder_of l) x.
Proof. unfold tbuilder_of. rewrite fold_left_app. reflexivity. Qed.

Lemma map_tday_of_other l s d (L : list Z) :
  ~ In (ddate d) L -> map (tday_of (l ++ [(s, d)])) L = map (tday_of l) L.
Proof.
  intros H. apply map_ext_in. intros dt Hdt. apply tday_of_snoc_other. congruence.
Qed.

Lemma tupd_day_spec l s d (L : list Z) :
  StronglySorted Z.lt L ->
  (~ In (ddate d) L -> tday_of l (ddate d) = tempty_day (ddate d)) ->
  tupd_day (map (tday_of l) L) (ddate d) (tadd_to_day s d) =
  map (tday_of (l ++ [(s, d)])) (insert_date (ddate d) L).
Proof.
  induction L as [|y L IH]; intros Hs Habs.
  - cbn. rewrite tday_of_snoc_same, Habs by tauto. reflexivity.
  - inversion Hs as [|? ? Hs' Hall]; subst. rewrite Forall_forall in Hall.
    cbn [map tupd_day insert_date]. change (td_date (tday_of l y)) with y.
    destruct (ddate d =? y) eqn:E1.
    + apply Z.eqb_eq in E1. subst y. cbn [map]. rewrite tday_of_snoc_same. f_equal.
      symmetry. apply map_tday_of_other. intros Hin. specialize (Hall _ Hin). lia.
    + apply Z.eqb_neq in E1. destruct (ddate d <? y) eqn:E2.
      * apply Z.ltb_lt in E2.
        assert (Hn : ~ In (ddate d) (y :: L)).
        { intros [H|H]; [congruence|]. specialize (Hall _ H). lia. }
        cbn [map]. rewrite tday_of_snoc_same, (Habs Hn). f_equal.
        symmetry. exact (map_tday_of_other l s d (y :: L) Hn).
      * apply Z.ltb_ge in E2. cbn [map]. rewrite tday_of_snoc_other by congruence. f_equal.
        apply IH; [exact Hs'|]. intros Hn. apply Habs. intros [H|H]; [congruence|contradiction].
Qed.

Theorem tbuilder_days l : tb_days (tbuilder_of l) = map (tday_of l) (tdates l).
Proof.
  induction l as [|[s d] l IH] using rev_ind; [reflexivity|].
  rewrite tbuilder_of_snoc, tbuilder_add_days, IH. unfold tdates.
  rewrite map_app. cbn [map]. rewrite dates_snoc. apply tupd_day_spec.
  - apply dates_sorted.
  - intros Hn. apply tday_of_absent. rewrite <- dates_in. exact Hn.
Qed.

Definition erase_b (b : tbuilder) : builder := tbuild_pinned b.

Lemma upd_day_map (e : tday -> day) days dt f tf :
  (forall x, d_date (e x) = td_date x) ->
  (forall d, e (tempty_day d) = empty_day d) ->
  (forall x, f (e x) = e (tf x)) ->
  upd_day (map e days) dt f = map e (tupd_day days dt tf).
Proof.
  intros Hd He Hf. induction days as [|x days IH]; cbn [map upd_day tupd_day].
  - rewrite <- He, Hf. reflexivity.
  - rewrite Hd.
    destruct (dt =? td_date x); [cbn [map]; rewrite Hf; reflexivity|].
    destruct (dt <? td_date x).
    + rewrite <- He. cbn [map]. rewrite Hf. reflexivity.
    + cbn [map]. rewrite IH. reflexivity.
Qed.

Lemma builder_add_erase b s d : builder_add (erase_b b) d = erase_b (tbuilder_add b (s, d)).
Proof.
  destruct b as [days mn mx]. unfold erase_b, tbuild_pinned.
  destruct d as [dt c p t|dt a|dt a|dt bs|t];
    cbn [builder_add tbuilder_add b_days b_min b_max tb_days tb_min tb_max]; f_equal;
    apply upd_day_map; try reflexivity; intros x; unfold erase_day, add_txn_day;
    cbn [tadd_to_day td_date td_prices td_opens td_txns td_asserts td_closes d_date d_prices d_opens d_txns d_asserts d_closes d_normalized];
    rewrite ?map_app; reflexivity.
Qed.

Lemma builder_of_erase_gen l : forall b,
  fold_left builder_add (map snd l) (erase_b b) = erase_b (fold_left tbuilder_add l b).
Proof.
  induction l as [|[s d] l IH]; intros b; [reflexivity|].
  cbn [map fold_left snd]. rewrite (builder_add_erase b s d). apply IH.
Qed.

(* Build without the sort is the builder of Model/Journal.v on the arrival sequence *)
Theorem build_pinned_spec l : build_pinned_b l = builder_of (map snd l).
Proof. unfold build_pinned_b, builder_of. symmetry. apply (builder_of_erase_gen l new_tbuilder). Qed.

Lemma tb_min_spec l : tb_min (tbuilder_of l) = b_min (builder_of (map snd l)).
Proof. rewrite <- build_pinned_spec. reflexivity. Qed.
Lemma tb_max_spec l : tb_max (tbuilder_of l) = b_max (builder_of (map snd l)).
Proof. rewrite <- build_pinned_spec. reflexivity. Qed.

Lemma select_sort_src {B} (g : src * directive -> option (src * B)) l :
  (forall a b, g a = Some b -> fst b = fst a) ->
  sort_src (select g l) = map snd (select g (sort_by by_src l)).
Proof.
  intros Hg. unfold sort_src. f_equal. symmetry.
  apply (select_sort_by by_src by_src_irrefl by_src_trans by_src_cotrans by_src g).
  intros a a' b b' E E'. unfold by_src. rewrite (Hg a b E), (Hg a' b' E'). reflexivity.
Qed.

(* the arrival sequence in source order *)
Definition canon (l : list (src * directive)) : list (src * directive) := sort_by by_src l.

Lemma sort_day_tday_of l dt : sort_day (tday_of l dt) = erase_day (tday_of (canon l) dt).
Proof.
  unfold sort_day, erase_day, tday_of, canon.
  cbn [td_date td_prices td_opens td_txns td_asserts td_closes].
  rewrite !select_sort_src; [reflexivity|..];
    intros a b; unfold pj_price, pj_open, pj_txn, pj_assert, pj_close; destruct (snd a); try discriminate;
    destruct (_ =? dt); intros [= <-]; reflexivity.
Qed.

Lemma canon_perm l : Permutation (canon l) l.
Proof. apply sort_by_perm. Qed.

Lemma tdates_canon l : tdates (canon l) = tdates l.
Proof. unfold tdates. apply dates_perm. apply Permutation_map. apply canon_perm. Qed.

(* Build() of the directives in any arrival order = Model/Journal.v's builder run on the
   directives in source order *)
Theorem build_sorted_canonical l : build_sorted_b l = builder_of (map snd (canon l)).
Proof.
  rewrite <- build_pinned_spec. unfold build_sorted_b, build_pinned_b, tbuild, tbuild_pinned.
  rewrite !tbuilder_days, tdates_canon, !tb_min_spec, !tb_max_spec.
  destruct (builder_period_perm (map snd (canon l)) (map snd l)) as [Hmin Hmax].
  { apply Permutation_map. apply canon_perm. }
  rewrite Hmin, Hmax. f_equal.
  rewrite !map_map. apply map_ext. intros dt. apply sort_day_tday_of.
Qed.

Corollary build_sorted_days l : build_sorted l = b_days (builder_of (map snd (canon l))).
Proof. rewrite <- build_sorted_canonical. reflexivity. Qed.

(* the journal depends only on, for each source position, the directives made from it in
   their order (these are made and added together: the parts of one accrual) *)
Theorem arrival_classes l1 l2 :
  (forall k, filter (has_src k) l1 = filter (has_src k) l2) -> build_sorted_b l1 = build_sorted_b l2.
Proof.
  intros H. rewrite !build_sorted_canonical. unfold canon.
  rewrite (sort_by_classes by_src by_src_irrefl by_src_trans by_src_cotrans l1 l2); [reflexivity|].
  intros a. rewrite !filter_eqv_has_src. apply H.
Qed.

(* any permutation, when directives with the same source position are equal *)
Theorem arrival_perm l1 l2 :
  Permutation l1 l2 ->
  (forall x y, In x l1 -> In y l1 -> fst x = fst y -> x = y) ->
  build_sorted_b l1 = build_sorted_b l2.
Proof.
  intros P Hinj. rewrite !build_sorted_canonical. unfold canon.
  rewrite (sort_by_perm_inj by_src by_src_irrefl by_src_trans by_src_cotrans l1 l2 P); [reflexivity|].
  intros x y Hx Hy E. apply Hinj; try assumption. apply eqv_by_src. exact E.
Qed.

Lemma filter_concat {A} (p : A -> bool) (ls : list (list A)) :
  filter p (concat ls) = concat (map (filter p) ls).
Proof.
  induction ls as [|l ls IH]; [reflexivity|]. cbn. rewrite filter_app, IH. reflexivity.
Qed.

Lemma concat_perm_blocks {A} (m1 m2 : list (list A)) :
  Permutation m1 m2 ->
  (forall x y, In x m1 -> In y m1 -> x = [] \/ y = [] \/ x = y) ->
  concat m1 = concat m2.
Proof.
  intros P. induction P as [|x l l' P IH|x y l|l l' l'' P1 IH1 P2 IH2]; intros H.
  - reflexivity.
  - cbn. f_equal. apply IH. intros a b Ha Hb. apply H; right; assumption.
  - cbn. rewrite !app_assoc. f_equal.
    destruct (H x y) as [E|[E|E]]; [right; left; reflexivity|left; reflexivity| | |]; subst;
      rewrite ?app_nil_r; reflexivity.
  - rewrite IH1 by exact H. apply IH2. intros a b Ha Hb.
    apply H; eapply Permutation_in; try (apply Permutation_sym; exact P1); assumption.
Qed.

(* the files' batches in any order.  Batches with a common path are batches of the same file
   (a file included twice is parsed twice, with the same result). *)
Theorem arrival_files (fs1 fs2 : list (list (src * directive))) :
  Permutation fs1 fs2 ->
  (forall f g x y, In f fs1 -> In g fs1 -> In x f -> In y g -> s_path (fst x) = s_path (fst y) -> f = g) ->
  build_sorted_b (concat fs1) = build_sorted_b (concat fs2).
Proof.
  intros P Hfile. apply arrival_classes. intros k. rewrite !filter_concat.
  apply concat_perm_blocks; [apply Permutation_map; exact P|].
  intros x y Hx Hy. apply in_map_iff in Hx, Hy.
  destruct Hx as [f [Ef Hf]], Hy as [g [Eg Hg]].
  destruct x as [|a x']; [left; reflexivity|]. destruct y as [|b y']; [right; left; reflexivity|].
  right. right. rewrite <- Ef, <- Eg.
  assert (Ha : In a (filter (has_src k) f)) by (rewrite Ef; left; reflexivity).
  assert (Hb : In b (filter (has_src k) g)) by (rewrite Eg; left; reflexivity).
  apply filter_In in Ha, Hb. destruct Ha as [Ha Ka], Hb as [Hb Kb].
  apply has_src_spec in Ka, Kb.
  rewrite (Hfile f g a b Hf Hg Ha Hb); [reflexivity|]. rewrite Ka, Kb. reflexivity.
Qed.

(* a sequence that is already in source order (one file: its directives in textual order)
   is built as Model/Journal.v builds it *)
Theorem build_sorted_in_order l : sorted by_src l -> build_sorted_b l = builder_of (map snd l).
Proof.
  intros Hs. rewrite build_sorted_canonical. unfold canon.
  rewrite (sort_by_sorted_id by_src by_src_irrefl by_src_trans by_src_cotrans l Hs). reflexivity.
Qed.

Lemma file_directives_sorted path ods :
  StronglySorted Z.le (map fst ods) -> sorted by_src (file_directives path ods).
Proof.
  unfold sorted, file_directives. induction ods as [|[o d] ods IH]; intros Hs; cbn [map]; [constructor|].
  cbn [map fst] in Hs. inversion Hs as [|? ? Hs' Hall]; subst. constructor; [apply IH; exact Hs'|].
  rewrite Forall_forall in *. intros [s' d'] Hin. apply in_map_iff in Hin.
  destruct Hin as [[o' d''] [E Hin]]. inversion E; subst.
  unfold by_src, src_ltb. cbn [fst snd s_path s_start]. rewrite str_eqb_refl.
  apply Z.ltb_ge. apply Hall. apply in_map_iff. exists (o', d'). split; [reflexivity|exact Hin].
Qed.

Lemma file_directives_path path ods x : In x (file_directives path ods) -> s_path (fst x) = path.
Proof.
  unfold file_directives. intros H. apply in_map_iff in H. destruct H as [od [<- _]]. reflexivity.
Qed.

Lemma map_snd_file_directives path ods : map snd (file_directives path ods) = map snd ods.
Proof. unfold file_directives. rewrite map_map. reflexivity. Qed.

(* one file, offsets not decreasing (the parts of an accrual share an offset) *)
Theorem single_file_textual_order path ods :
  StronglySorted Z.le (map fst ods) ->
  build_sorted_b (file_directives path ods) = builder_of (map snd ods).
Proof.
  intros Hs. rewrite build_sorted_in_order by (apply file_directives_sorted; exact Hs).
  rewrite map_snd_file_directives. reflexivity.
Qed.

(* Builder.Days (the touch of period boundaries) before Build = after Build *)
Theorem touch_then_build b ds : tbuild (tbuilder_touch b ds) = builder_touch (tbuild b) ds.
Proof.
  unfold tbuild, tbuilder_touch, builder_touch. cbn [tb_days tb_min tb_max b_days b_min b_max]. f_equal.
  generalize (tb_days b). induction ds as [|d ds IH]; intros days; [reflexivity|].
  cbn [fold_left]. rewrite IH. f_equal. symmetry. apply upd_day_map; reflexivity.
Qed.

Lemma balance_table_factor cfg ds :
  balance_table cfg ds =
  cbind (match bc_valuation cfg with
         | Some v => if valid_commodity v then COk tt else CErr k_valuation v
         | None => COk tt end) (fun _ => cbind (load ds) (balance_table_of cfg)).
Proof.
  unfold balance_table, balance_report, balance_table_of, balance_report_of.
  destruct (match bc_valuation cfg with Some v => if valid_commodity v then COk tt else CErr k_valuation v | None => COk tt end);
    cbn [cbind]; try reflexivity.
  destruct (load ds); reflexivity.
Qed.

Lemma check_factor repaired ds : check_cmd_current repaired ds = cbind (load ds) (check_of repaired).
Proof. reflexivity. Qed.

Lemma print_factor lenient ds : print_cmd lenient ds = cbind (load ds) (print_of lenient).
Proof. reflexivity. Qed.

Lemma transcode_factor lenient v ds :
  transcode_cmd lenient v ds =
  cbind (valuation_flag v) (fun vo =>
  match vo with
  | Some c => cbind (load ds) (transcode_of lenient c)
  | None => CErr k_valuation []
  end).
Proof.
  unfold transcode_cmd, transcode_of, transcode_days.
  destruct (valuation_flag v) as [[c|]| |]; cbn [cbind]; try reflexivity.
  destruct (load ds); reflexivity.
Qed.

Lemma weights_factor cfg ds :
  weights_csv_cmd cfg ds =
  cbind (match pc_universe cfg with Some y => universe_load [] y | None => COk [] end) (fun u =>
  cbind (check_valuation cfg) (fun _ => cbind (load ds) (weights_csv_of cfg u))).
Proof.
  unfold weights_csv_cmd, weights_table, weights_entries, weights_csv_of, weights_entries_of.
  destruct (match pc_universe cfg with Some y => universe_load [] y | None => COk [] end); cbn [cbind]; try reflexivity.
  destruct (check_valuation cfg); cbn [cbind]; try reflexivity.
  destruct (load ds) as [b| |]; cbn [cbind]; try reflexivity.
  destruct (pf_partition cfg b); cbn [cbind]; try reflexivity.
  destruct (valued_days cfg _); cbn [cbind]; try reflexivity.
  destruct (day_values cfg _); cbn [cbind]; try reflexivity.
  destruct (query_entries _ _ _ _); reflexivity.
Qed.

Lemma returns_factor fx cfg ds :
  returns_cmd fx cfg ds = cbind (check_valuation cfg) (fun _ => cbind (load ds) (returns_of fx cfg)).
Proof.
  unfold returns_cmd, returns_gen, returns_of.
  destruct (check_valuation cfg); cbn [cbind]; try reflexivity.
  destruct (load ds) as [b| |]; cbn [cbind]; try reflexivity.
  destruct (pf_partition cfg b); cbn [cbind]; try reflexivity.
  destruct (valued_days cfg _); cbn [cbind]; try reflexivity.
  destruct (day_values cfg _); cbn [cbind]; try reflexivity.
  destruct (day_flows fx cfg _); reflexivity.
Qed.

(* every command that reads the built journal *)
Theorem run_sorted_arrival {R} (cmd : builder -> R) l1 l2 :
  build_sorted_b l1 = build_sorted_b l2 -> run_sorted cmd l1 = run_sorted cmd l2.
Proof. unfold run_sorted. intros ->. reflexivity. Qed.

(* the command on the arrival sequence = the command of Model/Cli.v on the journal loaded in
   source order *)
Theorem run_sorted_canonical {R} (cmd : builder -> R) l :
  run_sorted cmd l = cmd (builder_of (map snd (canon l))).
Proof. unfold run_sorted. rewrite build_sorted_canonical. reflexivity. Qed.

(* two files, each opening an account on 2020-01-01 *)
Definition w_day : Z := of_civil 2020 1 1.
Definition w_file_a : list (src * directive) :=
  file_directives [97;46;107;110;117;116] [(0, DOpen w_day [s_Assets; [65]])].          (* a.knut: open Assets:A *)
Definition w_file_b : list (src * directive) :=
  file_directives [98;46;107;110;117;116] [(0, DOpen w_day [s_Assets; [66]])].          (* b.knut: open Assets:B *)

Lemma w_keys_injective (x y : src * directive) :
  In x (w_file_a ++ w_file_b) -> In y (w_file_a ++ w_file_b) -> fst x = fst y -> x = y.
Proof.
  unfold w_file_a, w_file_b, file_directives. cbn [map app In fst].
  intros [<-|[<-|[]]] [<-|[<-|[]]] E; try reflexivity; discriminate E.
Qed.

(* Build without the sort: `knut print` writes the opens in arrival order *)
Theorem pinned_arrival_refuted :
  exists l1 l2,
    Permutation l1 l2 /\
    (forall x y, In x l1 -> In y l1 -> fst x = fst y -> x = y) /\
    run_pinned (print_of true) l1 <> run_pinned (print_of true) l2.
Proof.
  exists (w_file_a ++ w_file_b), (w_file_b ++ w_file_a). split; [|split].
  - apply Permutation_app_comm.
  - exact w_keys_injective.
  - vm_compute. discriminate.
Qed.

(* the documented contract of sort.SliceStable(list, sourceBefore) -- ordered, and elements
   that compare equal (same source) keep their original order -- has exactly one solution,
   the list [sort_by by_src] computes *)
Theorem slice_stable_contract {A} (l l' : list (src * A)) :
  sorted by_src l' -> (forall k, filter (has_src k) l' = filter (has_src k) l) -> l' = sort_by by_src l.
Proof.
  intros Hs H. apply (sort_by_unique by_src by_src_irrefl by_src_trans by_src_cotrans l l' Hs).
  intros a. rewrite !filter_eqv_has_src. apply H.
Qed.

Theorem sort_src_contract {A} (l : list (src * A)) :
  sorted by_src (sort_by by_src l) /\ Permutation (sort_by by_src l) l /\
  forall k, filter (has_src k) (sort_by by_src l) = filter (has_src k) l.
Proof.
  split; [apply (sort_by_sorted by_src by_src_irrefl by_src_trans)|].
  split; [apply sort_by_perm|].
  intros k. destruct (filter (has_src k) l) as [|a t] eqn:E.
  - destruct (filter (has_src k) (sort_by by_src l)) as [|b t'] eqn:E'; [reflexivity|exfalso].
    assert (Hb : In b (filter (has_src k) (sort_by by_src l))) by (rewrite E'; left; reflexivity).
    apply filter_In in Hb. destruct Hb as [Hb Kb].
    assert (Hb' : In b (filter (has_src k) l)).
    { apply filter_In. split; [|exact Kb]. eapply Permutation_in; [apply sort_by_perm|exact Hb]. }
    rewrite E in Hb'. exact Hb'.
  - assert (Ha : In a (filter (has_src k) l)) by (rewrite E; left; reflexivity).
    apply filter_In in Ha. destruct Ha as [_ Ka]. apply has_src_spec in Ka. subst k.
    rewrite <- E, <- !filter_eqv_has_src.
    apply (sort_by_stable by_src by_src_irrefl by_src_trans by_src_cotrans).
Qed.

(* all commands of the model that read the journal, for two arrival orders with the same build *)
Theorem commands_arrival l1 l2 :
  build_sorted_b l1 = build_sorted_b l2 ->
  (forall cfg, run_sorted (balance_table_of cfg) l1 = run_sorted (balance_table_of cfg) l2) /\
  (forall cfg, run_sorted (balance_csv_of cfg) l1 = run_sorted (balance_csv_of cfg) l2) /\
  (forall cfg tc, run_sorted (balance_text_of cfg tc) l1 = run_sorted (balance_text_of cfg tc) l2) /\
  (forall repaired, run_sorted (check_of repaired) l1 = run_sorted (check_of repaired) l2) /\
  (forall lenient, run_sorted (print_of lenient) l1 = run_sorted (print_of lenient) l2) /\
  (forall lenient c, run_sorted (transcode_of lenient c) l1 = run_sorted (transcode_of lenient c) l2) /\
  (forall cfg u, run_sorted (weights_csv_of cfg u) l1 = run_sorted (weights_csv_of cfg u) l2) /\
  (forall fx cfg, run_sorted (returns_of fx cfg) l1 = run_sorted (returns_of fx cfg) l2).
Proof. intros H. unfold run_sorted. rewrite H. repeat split. Qed.

(* a file with an accrual: two transactions made from the directive at offset 0 *)
Definition w_txn (desc : Z) : txn :=
  mkTxn w_day [desc] (pair_build [s_Assets; [65]] [s_Assets; [66]] [67;72;70] (of_int 1) dec_nil) None.
Definition w_file_c : list (src * directive) :=
  file_directives [99;46;107;110;117;116] [(0, DTxn (w_txn 120)); (0, DTxn (w_txn 121))].

Lemma w_files_hyp (f g : list (src * directive)) x y :
  In f [w_file_c; w_file_a; w_file_b] -> In g [w_file_c; w_file_a; w_file_b] ->
  In x f -> In y g -> s_path (fst x) = s_path (fst y) -> f = g.
Proof.
  intros [<-|[<-|[<-|[]]]] [<-|[<-|[<-|[]]]] Hx Hy E; try reflexivity;
    apply file_directives_path in Hx, Hy; rewrite Hx, Hy in E; discriminate E.
Qed.

Theorem arrival_perm_both l1 l2 :
  Permutation l1 l2 ->
  (forall x y, In x l1 -> In y l1 -> fst x = fst y -> x = y) ->
  build_sorted l1 = build_sorted l2 /\ build_sorted_b l1 = build_sorted_b l2.
Proof.
  intros P H. pose proof (arrival_perm l1 l2 P H) as E. split; [|exact E].
  exact (f_equal b_days E).
Qed.
