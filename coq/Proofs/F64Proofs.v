(* Bounds for the percent cell of a weight in [0, 1] (Model/F64.v, Model/WeightsTable.v): the
   float64 product n * 100 is a number not above 100 (rounding to nearest never crosses the
   representable 100), its numeral at p places has at most p + 4 runes; hence such a cell
   fits the ten runes of a date column for p <= 5, and the weights report of a portfolio
   without short positions is rectangular at --digits 0..5. *)
From Coq Require Import ZArith List Bool Lia.
From Knut Require Import Model.Str Model.Dec Model.Table Model.F64 Model.WeightsTable
     Spec.TableSpec Spec.WeightsTableSpec Spec.BeancountLex
     Proofs.DecStringProofs Proofs.TableProofs Proofs.WeightsTableProofs.
Import ListNotations.
Open Scope bool_scope.
Open Scope Z_scope.

(* m * 2^e <= 100, without rationals *)
Definition le100 (m e : Z) : Prop := if 0 <=? e then m * 2 ^ e <= 100 else m <= 100 * 2 ^ (- e).

Lemma rhe_div_le a b K : 0 < b -> 0 <= a -> a <= K * b -> rhe_div a b <= K.
Proof.
  intros Hb Ha HK. unfold rhe_div.
  pose proof (Z.div_mod a b ltac:(lia)) as E. pose proof (Z.mod_pos_bound a b Hb) as Hr.
  set (q := a / b) in *. set (r := a mod b) in *.
  destruct ((b <? 2 * r) || ((2 * r =? b) && Z.odd q)) eqn:C.
  - assert (Hr0 : 0 < r).
    { apply orb_true_iff in C. destruct C as [C|C]; [apply Z.ltb_lt in C; lia|].
      apply andb_prop in C. destruct C as [C _]. apply Z.eqb_eq in C. lia. }
    nia.
  - nia.
Qed.

Lemma rhe_div_nonneg a b : 0 < b -> 0 <= a -> 0 <= rhe_div a b.
Proof.
  intros Hb Ha. unfold rhe_div. pose proof (Z.div_pos a b Ha Hb) as Hq.
  destruct ((b <? 2 * (a mod b)) || ((2 * (a mod b) =? b) && Z.odd (a / b))); lia.
Qed.

Lemma bitlen_le M k : 0 < M -> M < 2 ^ k -> bitlen M <= k.
Proof.
  intros HM Hk. unfold bitlen. replace (M <=? 0) with false by lia.
  assert (Z.log2 M < k) by (apply Z.log2_lt_pow2; assumption). lia.
Qed.

Lemma pow2_pos k : 0 < 2 ^ k \/ k < 0.
Proof. destruct (Z_lt_ge_dec k 0); [right; lia|left; apply Z.pow_pos_nonneg; lia]. Qed.

(* a value not above 100 has at most 7 bits before the binary point *)
Lemma le100_bits M E : 0 < M -> le100 M E -> bitlen M + E <= 7.
Proof.
  intros HM H. unfold le100 in H. destruct (0 <=? E) eqn:HE.
  - apply Z.leb_le in HE.
    assert (HE7 : E < 7).
    { destruct (Z_lt_ge_dec E 7) as [|Hge]; [assumption|].
      pose proof (Z.pow_le_mono_r 2 7 E ltac:(lia) ltac:(lia)) as Hp. change (2 ^ 7) with 128 in Hp. nia. }
    assert (Hb : bitlen M <= 7 - E).
    { apply bitlen_le; [exact HM|].
      assert (Hs : 2 ^ 7 = 2 ^ (7 - E) * 2 ^ E) by (rewrite <- Z.pow_add_r by lia; f_equal; lia).
      change (2 ^ 7) with 128 in Hs.
      pose proof (Z.pow_pos_nonneg 2 E ltac:(lia) HE) as HpE.
      pose proof (Z.pow_pos_nonneg 2 (7 - E) ltac:(lia) ltac:(lia)) as Hp7. nia. }
    lia.
  - apply Z.leb_gt in HE.
    assert (Hb : bitlen M <= 7 - E).
    { apply bitlen_le; [exact HM|].
      assert (Hs : 2 ^ (7 - E) = 128 * 2 ^ (- E)).
      { replace (7 - E) with (7 + - E) by lia. rewrite Z.pow_add_r by lia. reflexivity. }
      pose proof (Z.pow_pos_nonneg 2 (- E) ltac:(lia) ltac:(lia)) as HpE. lia. }
    lia.
Qed.

(* the float64 nearest to a value in (0, 100] is a number not above 100 *)
Lemma f64_round_le100 M E : 0 < M -> le100 M E ->
  exists q e', f64_round false M E = FFin false q e' /\ 0 <= q /\ le100 q e'.
Proof.
  intros HM H. pose proof (le100_bits M E HM H) as Hbits.
  unfold f64_round. replace (M <=? 0) with false by lia. cbv zeta.
  set (e' := Z.max (E + bitlen M - 53) (- 1074)).
  assert (He'neg : e' < 0) by (unfold e'; lia).
  assert (He'lb : - 1074 <= e') by (unfold e'; lia).
  pose proof (Z.pow_pos_nonneg 2 (- e') ltac:(lia) ltac:(lia)) as HPe.
  set (q := if e' <=? E then M * 2 ^ (E - e') else rhe_div M (2 ^ (e' - E))).
  assert (Hq : 0 <= q /\ q <= 100 * 2 ^ (- e')).
  { unfold q. destruct (e' <=? E) eqn:C.
    - apply Z.leb_le in C.
      pose proof (Z.pow_pos_nonneg 2 (E - e') ltac:(lia) ltac:(lia)) as HP1.
      split; [nia|].
      unfold le100 in H. destruct (0 <=? E) eqn:HE.
      + apply Z.leb_le in HE.
        assert (Hs : 2 ^ (E - e') = 2 ^ E * 2 ^ (- e')) by (rewrite <- Z.pow_add_r by lia; f_equal; lia).
        rewrite Hs. nia.
      + apply Z.leb_gt in HE.
        assert (Hs : 2 ^ (- e') = 2 ^ (- E) * 2 ^ (E - e')) by (rewrite <- Z.pow_add_r by lia; f_equal; lia).
        rewrite Hs. nia.
    - apply Z.leb_gt in C.
      pose proof (Z.pow_pos_nonneg 2 (e' - E) ltac:(lia) ltac:(lia)) as HP1.
      split; [apply rhe_div_nonneg; lia|].
      apply rhe_div_le; [exact HP1|lia|].
      unfold le100 in H. replace (0 <=? E) with false in H by lia.
      assert (Hs : 2 ^ (- E) = 2 ^ (- e') * 2 ^ (e' - E)) by (rewrite <- Z.pow_add_r by lia; f_equal; lia).
      rewrite <- Z.mul_assoc, <- Hs. exact H. }
  destruct Hq as [Hq0 Hq100].
  assert (Hle : le100 q e') by (unfold le100; replace (0 <=? e') with false by lia; exact Hq100).
  assert (Hov : (1024 <? bitlen q + e') = false).
  { apply Z.ltb_ge. destruct (Z.eq_dec q 0) as [->|Hqn]; [cbn; lia|].
    pose proof (le100_bits q e' ltac:(lia) Hle). lia. }
  rewrite Hov. exists q, e'. split; [reflexivity|]. split; [exact Hq0|exact Hle].
Qed.

Lemma f64_scaled_le p q e : 0 <= p -> 0 <= q -> le100 q e -> 0 <= f64_scaled p q e <= 100 * 10 ^ p.
Proof.
  intros Hp Hq H. unfold f64_scaled, le100 in *.
  pose proof (Z.pow_pos_nonneg 10 p ltac:(lia) Hp) as H10.
  destruct (0 <=? e) eqn:He.
  - apply Z.leb_le in He. pose proof (Z.pow_pos_nonneg 2 e ltac:(lia) He) as H2. split; nia.
  - apply Z.leb_gt in He. pose proof (Z.pow_pos_nonneg 2 (- e) ltac:(lia) ltac:(lia)) as H2.
    split; [apply rhe_div_nonneg; nia|]. apply rhe_div_le; [exact H2|nia|nia].
Qed.

Lemma rune_count_le_length s : rune_count s <= Z.of_nat (length s).
Proof.
  unfold rune_count. apply inj_le. induction s as [|c s IH]; [cbn; lia|].
  cbn [filter]. destruct (negb _); cbn [length]; lia.
Qed.

Lemma digits_len_le N k : 0 <= N < 10 ^ k -> 0 < k -> Z.of_nat (length (digits N)) <= k.
Proof.
  intros HN Hk. destruct (Z.eq_dec N 0) as [->|Hn]; [rewrite digits_zero; cbn; lia|].
  pose proof (digits_length_bounds N ltac:(lia)) as [Hlo _].
  set (len := Z.of_nat (length (digits N))) in *.
  destruct (Z_le_gt_dec len k) as [|Hgt]; [assumption|].
  pose proof (Z.pow_le_mono_r 10 k (len - 1) ltac:(lia) ltac:(lia)). lia.
Qed.

Lemma fixed_numeral_len N p :
  0 <= p -> 0 <= N <= 10 ^ (p + 2) ->
  Z.of_nat (length (to_string_gen false (mkDec N (- p)))) <= p + 4.
Proof.
  intros Hp HN.
  assert (HN3 : N < 10 ^ (p + 3)).
  { replace (p + 3) with (p + 2 + 1) by lia. rewrite Z.pow_add_r by lia.
    pose proof (Z.pow_pos_nonneg 10 (p + 2) ltac:(lia) ltac:(lia)). lia. }
  pose proof (digits_len_le N (p + 3) ltac:(lia) ltac:(lia)) as Hlen.
  destruct (Z.eq_dec p 0) as [->|Hp0].
  - rewrite to_string_gen_int by (cbn; lia). unfold sgn. cbn [coef ex].
    replace (N <? 0) with false by lia. cbn [app Z.opp]. change (10 ^ 0) with 1.
    rewrite Z.mul_1_r, Z.abs_eq by lia.
    pose proof (digits_len_le N 3 ltac:(change (0 + 2) with 2 in HN; change (10 ^ 2) with 100 in HN; change (10 ^ 3) with 1000; lia) ltac:(lia)).
    lia.
  - rewrite to_string_gen_neg_ex by (cbn [ex]; lia). unfold sgn. cbn [coef].
    replace (N <? 0) with false by lia. cbn [app].
    destruct (frac_split_spec (mkDec N (- p)) ltac:(cbn [ex]; lia)) as (_ & _ & _ & Hfp & _).
    cbn [ex] in Hfp.
    assert (Hip : Z.of_nat (length (fst (frac_split (mkDec N (- p))))) <= 3).
    { unfold frac_split. cbn [coef ex]. rewrite Z.abs_eq by lia.
      destruct (- - p <? Z.of_nat (length (digits N))) eqn:C; cbn [fst].
      - rewrite firstn_length. lia.
      - cbn. lia. }
    rewrite app_length. unfold frac_tail.
    destruct (snd (frac_split (mkDec N (- p)))) as [|c fp] eqn:Efp; [cbn [length] in *; lia|].
    rewrite app_length. cbn [length] in *. lia.
Qed.

Theorem pct_len_unit round n : 0 <= round <= 1000000 -> f64_in_unit n -> pct_len round n <= round + 5.
Proof.
  intros Hr Hu. destruct n as [|s|s m e]; try contradiction. destruct s; [contradiction|].
  destruct Hu as [Hm Hv].
  unfold pct_len, pct_num, pct_prec, pct_badprec.
  replace (round <? 0) with false by lia. replace (1000000 <? round) with false by lia. cbn [orb].
  assert (Hr0 : 0 <= round) by lia.
  cbn [f64_mul100].
  assert (Hx : exists q e', f64_round false (m * 100) e = FFin false q e' /\ 0 <= q /\ le100 q e').
  { destruct (Z.eq_dec m 0) as [->|Hm0].
    - exists 0, 0. split; [reflexivity|]. split; [lia|]. unfold le100. cbn. lia.
    - apply f64_round_le100; [lia|]. unfold le100. destruct (0 <=? e) eqn:He.
      + apply Z.leb_le in He. pose proof (Z.pow_pos_nonneg 2 e ltac:(lia) He). nia.
      + lia. }
  destruct Hx as (q & e' & -> & Hq & Hle). cbn [fmt_f app].
  pose proof (f64_scaled_le round q e' Hr0 Hq Hle) as [HN0 HN].
  pose proof (fixed_numeral_len (f64_scaled round q e') round Hr0) as Hlen.
  assert (H100 : 100 * 10 ^ round = 10 ^ (round + 2)) by (rewrite Z.pow_add_r by lia; change (10 ^ 2) with 100; lia).
  specialize (Hlen ltac:(lia)).
  pose proof (rune_count_le_length (to_string_gen false (mkDec (f64_scaled round q e') (- round)))). lia.
Qed.

Lemma unit_fits round n : 0 <= round <= 5 -> f64_in_unit n -> pcell_fits_b round (WPct n) 10 = true.
Proof.
  intros Hr Hu. pose proof (pct_len_unit round n ltac:(lia) Hu) as Hl.
  cbn [pcell_fits_b]. destruct n as [|s|s m e]; try contradiction. cbn [f64_is_nan].
  apply andb_true_iff. split; [|apply Z.leb_le; lia].
  unfold pct_badprec. replace (round <? 0) with false by lia. replace (1000000 <? round) with false by lia. reflexivity.
Qed.

