(* Lemmas about Model/Flags.v and Model/CliFlags.v (C14, flag handling). *)
From Coq Require Import ZArith List Bool Lia.
From Knut Require Import Model.RxSyntax.   (* first: the names of the modules below take precedence *)
From Knut Require Import Model.Str Model.Date Model.Flags Model.Loader Model.CliSafe Model.CliFlags
     Proofs.CalendarSweep Proofs.CalendarProofs.
Import ListNotations.
Open Scope bool_scope.
Open Scope Z_scope.

Lemma digit_val_nonneg c d : digit_val c = Some d -> 0 <= d.
Proof.
  unfold digit_val. intros H.
  destruct ((48 <=? c) && (c <=? 57)) eqn:E1; [injection H as <-; lia|].
  destruct ((97 <=? c) && (c <=? 122)) eqn:E2; [injection H as <-; lia|].
  destruct ((65 <=? c) && (c <=? 90)) eqn:E3; [injection H as <-; lia|discriminate].
Qed.

Lemma pu_loop_nonneg base maxval base0 : 0 < base ->
  forall s n us r us', 0 <= n -> pu_loop base maxval base0 s n us = PUOk r us' -> 0 <= r.
Proof.
  intros Hb. induction s as [|c t IH]; intros n us r us' Hn H; cbn [pu_loop] in H.
  - injection H as <- _. exact Hn.
  - destruct ((c =? 95) && base0).
    + eapply IH; eauto.
    + destruct (digit_val c) as [d|] eqn:Ed; [|discriminate].
      destruct (base <=? d); [discriminate|].
      destruct (pu_cutoff base <=? n); [discriminate|].
      destruct (maxval <? n * base + d); [discriminate|].
      pose proof (digit_val_nonneg _ _ Ed) as Hd.
      eapply IH; [|exact H]. pose proof (Z.mul_nonneg_nonneg n base Hn ltac:(lia)). lia.
Qed.

Lemma base_prefix_pos s b r : base_prefix s = (b, r) -> 0 < b.
Proof.
  unfold base_prefix. intros H.
  destruct s as [|c rest]; [injection H as <- _; lia|].
  destruct (c =? 48); [|injection H as <- _; lia].
  destruct rest as [|q [|q2 t]]; try (injection H as <- _; lia).
  destruct (is_b q); [injection H as <- _; lia|].
  destruct (is_o q); [injection H as <- _; lia|].
  destruct (is_x q); injection H as <- _; lia.
Qed.

Lemma parse_uint_nonneg s bits n : parse_uint s 0 bits = NOk n -> 0 <= n.
Proof.
  unfold parse_uint. destruct s as [|c t]; [discriminate|].
  change (0 =? 0) with true. cbv iota.
  destruct (base_prefix (c :: t)) as [b digits] eqn:Eb.
  pose proof (base_prefix_pos _ _ _ Eb) as Hb.
  destruct (pu_loop b (2 ^ bits - 1) true digits 0 false) as [r us|e] eqn:El; [|discriminate].
  pose proof (pu_loop_nonneg b _ true Hb digits 0 false r us ltac:(lia) El) as Hr.
  destruct (us && negb (underscore_ok (c :: t))); [discriminate|].
  intros H. injection H as <-. exact Hr.
Qed.

(* ParseInt(s, 0, bits): an accepted value lies in [-2^(bits-1), 2^(bits-1)) *)
Lemma parse_int_range s bits n : 1 <= bits -> parse_int s 0 bits = NOk n ->
  - 2 ^ (bits - 1) <= n < 2 ^ (bits - 1).
Proof.
  intros Hbits. unfold parse_int. destruct s as [|c t]; [discriminate|].
  set (body := if (c =? 43) || (c =? 45) then t else c :: t).
  destruct (parse_uint body 0 bits) as [un|e] eqn:Eu; [|discriminate].
  pose proof (parse_uint_nonneg _ _ _ Eu) as Hun.
  assert (Hpow : 0 < 2 ^ (bits - 1)) by (apply Z.pow_pos_nonneg; lia).
  destruct (c =? 45); cbn [negb andb].
  - destruct (2 ^ (bits - 1) <? un) eqn:E; [discriminate|]. intros H. injection H as <-. lia.
  - destruct (2 ^ (bits - 1) <=? un) eqn:E; [discriminate|]. intros H. injection H as <-. lia.
Qed.

Lemma is_dec_range c : is_dec c = true -> 0 <= c - 48 <= 9.
Proof. unfold is_dec. lia. Qed.

Lemma parse_date_flag_year s d : parse_date_flag s = Some d -> 0 <= year_of d <= 9999.
Proof.
  unfold parse_date_flag.
  destruct s as [|y1 [|y2 [|y3 [|y4 [|h1 [|m1 [|m2 [|h2 [|d1 [|d2 [|x t]]]]]]]]]]]; try discriminate.
  destruct (is_dec y1) eqn:A1; [|discriminate].
  destruct (is_dec y2) eqn:A2; [|discriminate].
  destruct (is_dec y3) eqn:A3; [|discriminate].
  destruct (is_dec y4) eqn:A4; [|discriminate].
  cbn [andb].
  destruct ((h1 =? 45) && is_dec m1 && is_dec m2 && (h2 =? 45) && is_dec d1 && is_dec d2); [|discriminate].
  apply is_dec_range in A1, A2, A3, A4.
  set (y := 1000 * (y1 - 48) + 100 * (y2 - 48) + 10 * (y3 - 48) + (y4 - 48)).
  set (m := 10 * (m1 - 48) + (m2 - 48)). set (dd := 10 * (d1 - 48) + (d2 - 48)).
  unfold parse_ymd.
  destruct ((1 <=? m) && (m <=? 12) && (1 <=? dd) && (dd <=? days_in_month y m)) eqn:Ev; [|discriminate].
  intros H. injection H as <-.
  assert (Hv : valid_civil (y, m, dd)) by (apply valid_civil_b_iff; exact Ev).
  unfold year_of. rewrite (civil_of_civil _ _ _ Hv). cbn [fst]. subst y. lia.
Qed.

Lemma split_first_inv c : forall s a ob, split_first c s = (a, ob) ->
  ~ In c a /\ s = a ++ match ob with None => [] | Some b => c :: b end.
Proof.
  induction s as [|x t IH]; intros a ob H; cbn [split_first] in H.
  - injection H as <- <-. split; [intros []|reflexivity].
  - destruct (x =? c) eqn:E.
    + injection H as <- <-. apply Z.eqb_eq in E. subst x. split; [intros []|reflexivity].
    + destruct (split_first c t) as [a' b'] eqn:Et. injection H as <- <-.
      destruct (IH _ _ eq_refl) as [Hn Hs]. apply Z.eqb_neq in E. split.
      * intros [F|F]; [congruence|exact (Hn F)].
      * cbn [app]. f_equal. exact Hs.
Qed.

Lemma split_first_none c : forall s, ~ In c s -> split_first c s = (s, None).
Proof.
  induction s as [|x t IH]; intros Hn; cbn [split_first]; [reflexivity|].
  destruct (x =? c) eqn:E.
  - apply Z.eqb_eq in E. exfalso. apply Hn. left. exact E.
  - rewrite IH; [reflexivity|]. intros F. apply Hn. right. exact F.
Qed.

Lemma split_first_some c : forall a b, ~ In c a -> split_first c (a ++ c :: b) = (a, Some b).
Proof.
  induction a as [|x t IH]; intros b Hn; cbn [app split_first].
  - rewrite Z.eqb_refl. reflexivity.
  - destruct (x =? c) eqn:E.
    + apply Z.eqb_eq in E. exfalso. apply Hn. left. exact E.
    + rewrite IH; [reflexivity|]. intros F. apply Hn. right. exact F.
Qed.

Lemma existsb_eqb_false c s : existsb (Z.eqb c) s = false <-> ~ In c s.
Proof.
  split.
  - intros H F. assert (existsb (Z.eqb c) s = true) by (apply existsb_exists; exists c; split; [exact F|apply Z.eqb_refl]). congruence.
  - intros H. destruct (existsb (Z.eqb c) s) eqn:E; [|reflexivity].
    apply existsb_exists in E. destruct E as [x [Hi He]]. apply Z.eqb_eq in He. subst x. contradiction.
Qed.

(* the text of an accepted -m value, independently of the parser: numbers, optionally a comma and
   an expression; the numbers are one integer, or two separated by one colon *)
Definition mapping_numbers (nums : str) (l sf : Z) : Prop :=
  (~ In 58 nums /\ atoi nums = NOk l /\ sf = 0) \/
  (exists a b, nums = a ++ 58 :: b /\ ~ In 58 a /\ ~ In 58 b /\ atoi a = NOk l /\ atoi b = NOk sf).

Definition mapping_text (v : str) (l sf : Z) (r : option str) : Prop :=
  exists nums, ~ In 44 nums /\ v = nums ++ match r with None => [] | Some x => 44 :: x end /\ mapping_numbers nums l sf.

Lemma mapping_finish_ok l sf r l' sf' r' :
  mapping_finish l sf r = MapOk l' sf' r' <->
  l' = l /\ sf' = sf /\ r' = r /\ 0 <= l /\ 0 <= sf /\ (forall x, r = Some x -> rx_valid x = true).
Proof.
  unfold mapping_finish. split.
  - destruct ((l <? 0) || (sf <? 0)) eqn:E; [discriminate|].
    destruct r as [x|].
    + destruct (rx_valid x) eqn:Ec; try discriminate. intros H. injection H as <- <- <-.
      repeat split; try lia. intros y Hy. injection Hy as <-. exact Ec.
    + intros H. injection H as <- <- <-. repeat split; try lia. intros y Hy. discriminate.
  - intros (-> & -> & -> & A & B & C).
    assert (E : (l <? 0) || (sf <? 0) = false) by lia.
    rewrite E. destruct r as [x|]; [|reflexivity]. rewrite (C x eq_refl). reflexivity.
Qed.

Theorem mapping_flag_iff v l sf r :
  parse_mapping v = MapOk l sf r <->
  mapping_text v l sf r /\ 0 <= l /\ 0 <= sf /\ (forall x, r = Some x -> rx_valid x = true).
Proof.
  unfold parse_mapping. split.
  - destruct (split_first 44 v) as [nums rxpart] eqn:Ev.
    destruct (split_first_inv _ _ _ _ Ev) as [Hn44 Hv].
    destruct (split_first 58 nums) as [a ob] eqn:En.
    destruct (split_first_inv _ _ _ _ En) as [Hn58 Hnums].
    destruct ob as [b|].
    + destruct (existsb (Z.eqb 58) b) eqn:Eb; [discriminate|].
      apply existsb_eqb_false in Eb.
      destruct (atoi a) as [la|] eqn:Ea; [|discriminate].
      destruct (atoi b) as [sb|] eqn:Eb2; [|discriminate].
      intros H. apply mapping_finish_ok in H. destruct H as (-> & -> & -> & A & B & C).
      split; [|tauto]. exists nums. repeat split; try assumption.
      right. exists a, b. repeat split; assumption.
    + destruct (atoi a) as [la|] eqn:Ea; [|discriminate].
      intros H. apply mapping_finish_ok in H. destruct H as (-> & -> & -> & A & B & C).
      split; [|tauto]. exists nums. repeat split; try assumption.
      left. rewrite app_nil_r in Hnums. subst a. repeat split; assumption.
  - intros [(nums & Hn44 & Hv & Hnum) (A & B & C)].
    assert (Es : split_first 44 v = (nums, r)).
    { subst v. destruct r as [x|]; [apply split_first_some; exact Hn44|].
      rewrite app_nil_r. apply split_first_none. exact Hn44. }
    rewrite Es. destruct Hnum as [(Hn58 & Ha & ->)|(a & b & -> & Ha58 & Hb58 & Ha & Hb)].
    + rewrite (split_first_none _ _ Hn58), Ha. apply mapping_finish_ok. tauto.
    + rewrite (split_first_some _ _ b Ha58).
      apply existsb_eqb_false in Hb58. rewrite Hb58, Ha, Hb. apply mapping_finish_ok. tauto.
Qed.

Lemma int_value_range bits s v : 1 <= bits -> int_value bits s = VOk v ->
  exists n, v = VInt n /\ - 2 ^ (bits - 1) <= n < 2 ^ (bits - 1).
Proof.
  intros Hb. unfold int_value. destruct (parse_int s 0 bits) as [n|[|]] eqn:E; try discriminate.
  intros H. injection H as <-. exists n. split; [reflexivity|exact (parse_int_range s bits n Hb E)].
Qed.

Lemma parse_value_in_range k s v : parse_value k s = VOk v -> value_in_range k v = true.
Proof.
  destruct k; cbn [parse_value].
  - destruct (parse_bool s); [|discriminate]. intros H. injection H as <-. reflexivity.
  - intros H. destruct (int_value_range 64 s v ltac:(lia) H) as (n & -> & R). cbn [value_in_range].
    lia.
  - intros H. destruct (int_value_range 32 s v ltac:(lia) H) as (n & -> & R). cbn [value_in_range].
    lia.
  - destruct (parse_date_flag s) as [d|] eqn:E; [|discriminate].
    intros H. injection H as <-. pose proof (parse_date_flag_year _ _ E) as R. cbn [value_in_range]. lia.
  - destruct (rx_valid s); try discriminate. intros H. injection H as <-. reflexivity.
  - destruct (parse_mapping s) as [l sf r|[| | |]] eqn:E; try discriminate.
    intros H. injection H as <-. apply mapping_flag_iff in E. destruct E as (_ & A & B & _).
    cbn [value_in_range]. lia.
  - intros H. injection H as <-. reflexivity.
Qed.

Theorem flags_total k s :
  (exists v, parse_value k s = VOk v /\ value_in_range k v = true) \/ (exists e, parse_value k s = VErr e).
Proof.
  destruct (parse_value k s) as [v|e] eqn:E.
  - left. exists v. split; [reflexivity|]. eapply parse_value_in_range; eauto.
  - right. exists e. reflexivity.
Qed.

Lemma find_long_in defs name d : find_long defs name = Some d -> In d defs /\ str_eqb (f_name d) name = true.
Proof.
  induction defs as [|x t IH]; cbn [find_long]; [discriminate|].
  destruct (str_eqb (f_name x) name) eqn:E.
  - intros H. injection H as <-. split; [left; reflexivity|exact E].
  - intros H. destruct (IH H). split; [right|]; assumption.
Qed.

Lemma find_short_in defs c d : find_short defs c = Some d -> In d defs.
Proof.
  induction defs as [|x t IH]; cbn [find_short]; [discriminate|].
  destruct ((f_short x =? c) && negb (c =? 0)).
  - intros H. injection H as <-. left. reflexivity.
  - intros H. right. exact (IH H).
Qed.

(* a setting produced by the parse: the flag is one of the command's, the value is what the flag's
   parser made of some text *)
Definition setting_ok (defs : list fdef) (nv : setting) : Prop :=
  exists d src, In d defs /\ f_name d = fst nv /\ parse_value (f_kind d) src = VOk (snd nv).

Definition dashdash : str := [45; 45].

Lemma set_flag_cases d v :
  (exists x, parse_value (f_kind d) v = VOk x /\ set_flag d v = ASets [(f_name d, x)] false) \/
  (exists e, set_flag d v = AErr e).
Proof. unfold set_flag. destruct (parse_value (f_kind d) v); eauto. Qed.

Lemma set_flag_sets defs d v l u : In d defs -> set_flag d v = ASets l u -> Forall (setting_ok defs) l /\ u = false.
Proof.
  intros Hd. destruct (set_flag_cases d v) as [(x & Hx & ->)|(e & ->)]; [|discriminate].
  intros H. injection H as <- <-. split; [|reflexivity]. constructor; [|constructor]. exists d, v. auto.
Qed.

(* How an argument that names flags (--name, --name=value, -abc) depends on the argument after it: not at all, or
   its last flag takes that argument as its value; a group of short flags is a chain of boolean flags before
   one of these.  [g] is the step as a function of the next argument. *)
Inductive reader (defs : list fdef) (g : option str -> argstep) : Prop :=
| RNil : (forall next, g next = ASets [] false) -> reader defs g
| RErr e : (forall next, g next = AErr e) -> reader defs g
| RHere d v : In d defs -> (forall next, g next = set_flag d v) -> reader defs g
| RNext d e : In d defs ->
    (forall next, g next = match next with
                           | Some v => match set_flag d v with ASets l _ => ASets l true | r => r end
                           | None => AErr e
                           end) -> reader defs g
| RBool d f : In d defs -> reader defs f ->
    (forall next, g next = match set_flag d k_true with
                           | ASets l _ => match f next with ASets l' u => ASets (l ++ l') u | r => r end
                           | r => r
                           end) -> reader defs g.

Lemma long_arg_reader defs body : body <> [] -> reader defs (long_arg defs body).
Proof.
  destruct body as [|c t]; [congruence|]. intros _.
  destruct ((c =? 45) || (c =? 61)) eqn:Ec.
  { apply (RErr _ _ PBadSyntax). intros next. unfold long_arg. rewrite Ec. reflexivity. }
  destruct (split_first 61 (c :: t)) as [name eqval] eqn:Es.
  destruct (find_long defs name) as [d|] eqn:Ef.
  2: { apply (RErr _ _ (PUnknownFlag name)). intros next. unfold long_arg. rewrite Ec, Es, Ef. reflexivity. }
  destruct (find_long_in _ _ _ Ef) as [Hd _].
  destruct eqval as [v|].
  { apply (RHere _ _ d v Hd). intros next. unfold long_arg. rewrite Ec, Es, Ef. reflexivity. }
  destruct (f_kind d) eqn:Ek; [apply (RHere _ _ d k_true Hd)|apply (RNext _ _ d (PNeedsArg name) Hd)..];
    intros next; unfold long_arg; rewrite Ec, Es, Ef, Ek; reflexivity.
Qed.

Lemma short_args_reader defs : forall sh, reader defs (short_args defs sh).
Proof.
  induction sh as [|c rest IH]; [apply RNil; reflexivity|].
  destruct (find_short defs c) as [d|] eqn:Ef.
  2: { apply (RErr _ _ (PUnknownShort c)). intros next. cbn [short_args]. rewrite Ef. reflexivity. }
  pose proof (find_short_in _ _ _ Ef) as Hd.
  assert (Hhere : forall v, (forall next, short_args defs (c :: rest) next =
                                          match set_flag d v with ASets l _ => ASets l false | r => r end) ->
                            reader defs (short_args defs (c :: rest))).
  { intros v E. apply (RHere _ _ d v Hd). intros next. rewrite E.
    destruct (set_flag_cases d v) as [(x & _ & ->)|(e & ->)]; reflexivity. }
  (* -c=value; otherwise a boolean flag before the rest of the group, or a flag with the rest as its value *)
  destruct rest as [|r0 [|r1 rt]]; [| |destruct (r0 =? 61) eqn:E61].
  - destruct (f_kind d) eqn:Ek; [apply (RBool _ _ d _ Hd IH)|apply (RNext _ _ d (PNeedsArg [c]) Hd)..];
      intros next; cbn [short_args]; rewrite Ef, Ek; reflexivity.
  - destruct (f_kind d) eqn:Ek; [apply (RBool _ _ d _ Hd IH)|apply (Hhere [r0])..];
      intros next; cbn [short_args]; rewrite Ef, Ek; reflexivity.
  - apply (Hhere (r1 :: rt)). intros next. cbn [short_args]. rewrite Ef, E61. reflexivity.
  - destruct (f_kind d) eqn:Ek; [apply (RBool _ _ d _ Hd IH)|apply (Hhere (r0 :: r1 :: rt))..];
      intros next; cbn [short_args]; rewrite Ef, E61, Ek; reflexivity.
Qed.

Lemma reader_sets defs g : reader defs g -> forall next l u, g next = ASets l u -> Forall (setting_ok defs) l.
Proof.
  induction 1 as [g E|g e E|g d v Hd E|g d e Hd E|g d f Hd Hf IH E]; intros next l u; rewrite E.
  - intros H. injection H as <- _. constructor.
  - discriminate.
  - intros H. exact (proj1 (set_flag_sets defs d v l u Hd H)).
  - destruct next as [v|]; [|discriminate]. destruct (set_flag d v) as [l0 u0| | |] eqn:Es; try discriminate.
    intros H. injection H as <- _. exact (proj1 (set_flag_sets defs d v l0 u0 Hd Es)).
  - destruct (set_flag d k_true) as [l0 u0| | |] eqn:Es; try discriminate.
    destruct (f next) as [l' u1| | |] eqn:Ef; try discriminate.
    intros H. injection H as <- _. apply Forall_app. split; [exact (proj1 (set_flag_sets defs d _ l0 u0 Hd Es))|exact (IH _ _ _ Ef)].
Qed.

(* a step that succeeds at the end of the argument list does not depend on what is appended *)
Lemma reader_none defs g : reader defs g -> forall l u, g None = ASets l u -> u = false /\ forall next, g next = ASets l false.
Proof.
  induction 1 as [g E|g e E|g d v Hd E|g d e Hd E|g d f Hd Hf IH E]; intros l u; rewrite E.
  - intros H. injection H as <- <-. auto.
  - discriminate.
  - intros H. destruct (set_flag_sets defs d v l u Hd H) as [_ ->]. split; [reflexivity|]. intros next. rewrite E. exact H.
  - discriminate.
  - destruct (set_flag d k_true) as [l0 u0| | |]; try discriminate.
    destruct (f None) as [l' u1| | |]; try discriminate.
    intros H. injection H as <- <-. destruct (IH _ _ eq_refl) as [-> Hn]. split; [reflexivity|].
    intros next. rewrite E, Hn. reflexivity.
Qed.

Lemma reader_flag defs g : reader defs g -> forall next, g next <> APos /\ g next <> ADashDash.
Proof.
  induction 1 as [g E|g e E|g d v Hd E|g d e Hd E|g d f Hd Hf IH E]; intros next; rewrite E; try (split; discriminate).
  - destruct (set_flag_cases d v) as [(x & _ & ->)|(e & ->)]; split; discriminate.
  - destruct next as [v|]; [|split; discriminate]. destruct (set_flag_cases d v) as [(x & _ & ->)|(e' & ->)]; split; discriminate.
  - destruct (set_flag_cases d k_true) as [(x & _ & ->)|(e & ->)]; [|split; discriminate].
    specialize (IH next). destruct (f next); [split; discriminate|tauto..].
Qed.
Lemma arg_step_cases defs s :
  (forall next, arg_step defs s next = APos) \/ s = dashdash \/ reader defs (arg_step defs s).
Proof.
  unfold arg_step. destruct s as [|a [|b t]]; try (left; reflexivity).
  destruct (a =? 45) eqn:Ea; [|left; reflexivity]. right.
  destruct (b =? 45) eqn:Eb; [|right; apply short_args_reader].
  destruct t as [|c t']; [left; apply Z.eqb_eq in Ea, Eb; subst; reflexivity|].
  right. apply (long_arg_reader defs (c :: t')). discriminate.
Qed.

Lemma arg_step_sets defs s next l u : arg_step defs s next = ASets l u -> Forall (setting_ok defs) l.
Proof.
  destruct (arg_step_cases defs s) as [E|[->|R]]; [rewrite E; discriminate|discriminate|].
  exact (reader_sets defs _ R next l u).
Qed.

Lemma pres_add_sets defs l p r sets pos :
  Forall (setting_ok defs) l ->
  (forall s q, r = PArgs s q -> Forall (setting_ok defs) s) ->
  pres_add l p r = PArgs sets pos -> Forall (setting_ok defs) sets.
Proof.
  intros Hl Hr. destruct r as [s q|]; cbn [pres_add]; try discriminate.
  intros H. injection H as <- _. apply Forall_app. split; [exact Hl|eapply Hr; reflexivity].
Qed.

(* parse_args goes on with the rest of the list or, when a flag took the next argument, with the rest of that *)
Lemma list_ind_skip {A} (P : list A -> Prop) :
  P [] -> (forall x l, P l -> P (tl l) -> P (x :: l)) -> forall l, P l.
Proof.
  intros H0 Hs l. enough (P l /\ P (tl l)) by tauto.
  induction l as [|x l [IH1 IH2]]; cbn [tl]; auto.
Qed.

Theorem parse_args_sound defs : forall args sets pos,
  parse_args defs args = PArgs sets pos -> Forall (setting_ok defs) sets.
Proof.
  induction args as [|s rest IH IHtl] using list_ind_skip; intros sets pos H; cbn [parse_args] in H.
  { injection H as <- _. constructor. }
  destruct (arg_step defs s (hd_error rest)) as [l u| | |] eqn:Es; try discriminate.
  - pose proof (arg_step_sets _ _ _ _ _ Es) as Hl. destruct u.
    + destruct rest as [|x rest']; [discriminate|]. exact (pres_add_sets defs l [] _ sets pos Hl IHtl H).
    + exact (pres_add_sets defs l [] _ sets pos Hl IH H).
  - exact (pres_add_sets defs [] [s] _ sets pos (Forall_nil _) IH H).
  - injection H as <- _. constructor.
Qed.

Corollary cmdline_values_in_range c argv sets pos :
  parse_cmdline c argv = CLRun sets pos ->
  Forall (fun nv => exists d, In d (cmd_flags c) /\ f_name d = fst nv /\ value_in_range (f_kind d) (snd nv) = true) sets.
Proof.
  unfold parse_cmdline. destruct (parse_args (cmd_flags c) argv) as [s p|] eqn:E; try discriminate.
  pose proof (parse_args_sound _ _ _ _ E) as Hs.
  destruct (get_bool n_help false s); [discriminate|].
  destruct (negb _); [discriminate|].
  destruct (match c with CmdInfer => negb (changed n_training s) | _ => false end); [discriminate|].
  destruct (has_multiperiod c && (1 <? exclusive_count s)); [discriminate|].
  intros H. injection H as <- _.
  eapply Forall_impl; [|exact Hs].
  intros nv (d & src & Hd & Hn & Hp). exists d. repeat split; try assumption.
  eapply parse_value_in_range; eauto.
Qed.

(* a rejected value directly after its flag: whatever follows is not looked at *)
Lemma rejected_long_value defs d v e rest :
  find_long defs (f_name d) = Some d -> f_kind d <> KBool -> ~ In 61 (f_name d) ->
  match f_name d with [] => False | c :: _ => c <> 45 /\ c <> 61 end ->
  parse_value (f_kind d) v = VErr e ->
  parse_args defs ((45 :: 45 :: f_name d) :: v :: rest) = PErr (PInvalid (f_name d) e).
Proof.
  intros Hf Hk Heq Hc Hv. cbn [parse_args hd_error]. unfold arg_step. rewrite !Z.eqb_refl.
  unfold long_arg. destruct (f_name d) as [|c t] eqn:En; [contradiction|].
  destruct Hc as [H1 H2]. apply Z.eqb_neq in H1, H2. rewrite H1, H2. cbn [orb].
  rewrite (split_first_none 61 (c :: t) Heq). rewrite Hf.
  destruct (f_kind d) eqn:Ek; try congruence; unfold set_flag; rewrite Ek, Hv, En; reflexivity.
Qed.

Theorem flag_error_is_clean c today argv e :
  parse_cmdline c argv = CLRejected e ->
  forall fs, run_argv c today argv fs = ORejected e.
Proof. intros H fs. unfold run_argv. rewrite H. reflexivity. Qed.

Corollary flag_error_no_panic c today argv e fs :
  parse_cmdline c argv = CLRejected e ->
  run_argv c today argv fs <> ORun PredPANIC /\ run_argv c today argv fs <> ORun PredOK /\
  forall fs', run_argv c today argv fs' = run_argv c today argv fs.
Proof.
  intros H. rewrite (flag_error_is_clean _ today _ _ H fs). repeat split; try discriminate.
  intros fs'. apply flag_error_is_clean. exact H.
Qed.

(* the converse direction of "flags_ok": if the flags are fine the command is run on them *)
Lemma flags_ok_runs c today argv fs :
  flags_ok c argv = true ->
  run_argv c today argv fs = OHelp \/ exists sets pos, parse_cmdline c argv = CLRun sets pos /\
                                                       run_argv c today argv fs = run_command c today sets pos fs.
Proof.
  unfold flags_ok, run_argv. destruct (parse_cmdline c argv) as [s p| |]; try discriminate; intros _.
  - right. exists s, p. split; reflexivity.
  - left. reflexivity.
Qed.

(* the -m rules of an accepted command line have non-negative numbers: the guard [mapping_nonneg]
   of C14_no_panic_* (account.Shorten slices with them) holds for whatever cobra lets through *)
Definition rule_value_nonneg (v : fvalue) : Prop :=
  match v with VRule l sf _ => 0 <= l /\ 0 <= sf | _ => True end.

Lemma rules_of_nonneg : forall vs m, Forall rule_value_nonneg vs -> rules_of vs = Some m -> mapping_flag_ok m = true.
Proof.
  induction vs as [|v t IH]; intros m Hall H; cbn [rules_of] in H.
  - injection H as <-. reflexivity.
  - inversion Hall as [|v' t' Hv Ht]; subst.
    destruct v as [b|n|d|src|l sf r|s]; try (apply IH; assumption).
    destruct (rules_of t) as [rest|] eqn:Er; [|discriminate].
    pose proof (IH rest Ht eq_refl) as Hrest.
    cbn [rule_value_nonneg] in Hv. destruct Hv as [Hl Hs].
    assert (Hhead : forall x, mapping_flag_ok (Account.mkRule l sf x :: rest) = true).
    { intros x. unfold mapping_flag_ok in *. cbn [forallb Account.r_level Account.r_suffix].
      rewrite Hrest. lia. }
    destruct r as [src|].
    + destruct (rx_sem src) as [[|x [|y q]]|]; try discriminate. injection H as <-. apply Hhead.
    + injection H as <-. apply Hhead.
Qed.

Lemma in_range_rule_nonneg k v : value_in_range k v = true -> rule_value_nonneg v.
Proof.
  destruct v as [b|n|d|src|l sf r|s]; cbn [rule_value_nonneg]; try exact (fun _ => I).
  destruct k; cbn [value_in_range]; try discriminate.
  lia.
Qed.

Lemma all_values_forall (P : fvalue -> Prop) name : forall sets,
  Forall (fun nv : setting => P (snd nv)) sets -> Forall P (all_values name sets).
Proof.
  unfold all_values. induction sets as [|nv t IH]; intros H; cbn [filter map]; [constructor|].
  inversion H as [|x y Hx Hy]; subst.
  destruct (str_eqb (fst nv) name); cbn [map]; [constructor; [exact Hx|]|]; apply IH; exact Hy.
Qed.

Theorem accepted_mapping_guard c argv sets pos :
  parse_cmdline c argv = CLRun sets pos ->
  forall m, rules_of (all_values n_map sets) = Some m -> mapping_flag_ok m = true.
Proof.
  intros H m Hm. eapply rules_of_nonneg; [|exact Hm].
  apply all_values_forall.
  eapply Forall_impl; [|exact (cmdline_values_in_range _ _ _ _ H)].
  intros nv (d & _ & _ & Hr). eapply in_range_rule_nonneg. exact Hr.
Qed.

Corollary accepted_balance_guard c argv sets pos today cfg :
  parse_cmdline c argv = CLRun sets pos -> balance_cfg_of today sets = Some cfg ->
  mapping_flag_ok (Cli.bc_mapping cfg) = true.
Proof.
  intros H Hc. unfold balance_cfg_of in Hc.
  destruct (rules_of (all_values n_map sets)) as [m|] eqn:Em; [|discriminate].
  destruct (rxs_of (all_values n_remap sets)); [|discriminate].
  destruct (rxs_of (all_values n_account sets)); [|discriminate].
  destruct (rxs_of (all_values n_commodity sets)); [|discriminate].
  destruct (rxs_of (all_values n_show sets)); [|discriminate].
  injection Hc as <-. cbn [Cli.bc_mapping]. eapply accepted_mapping_guard; eauto.
Qed.

Lemma pres_add_assoc l1 p1 l2 p2 r :
  pres_add l1 p1 (pres_add l2 p2 r) = pres_add (l1 ++ l2) (p1 ++ p2) r.
Proof. destruct r as [s q|]; cbn [pres_add]; [rewrite !app_assoc|..]; reflexivity. Qed.

Lemma pres_add_inv l q r s p : pres_add l q r = PArgs s p ->
  exists s' p', r = PArgs s' p' /\ s = l ++ s' /\ p = q ++ p'.
Proof.
  destruct r as [s0 q0|]; cbn [pres_add]; try discriminate.
  intros H. injection H as <- <-. exists s0, q0. repeat split.
Qed.

(* a step of an accepted list sees the same next argument, or none, whatever is appended *)
Lemma arg_step_app defs x pre tail :
  match arg_step defs x (hd_error pre) with
  | ASets l u => (pre = [] -> u = false) /\ arg_step defs x (hd_error (pre ++ tail)) = ASets l u
  | APos => arg_step defs x (hd_error (pre ++ tail)) = APos
  | ADashDash => x = dashdash
  | AErr _ => True
  end.
Proof.
  destruct (arg_step_cases defs x) as [E|[->|R]]; [rewrite !E; reflexivity|reflexivity|].
  pose proof (reader_flag defs _ R (hd_error pre)) as [Hp Hd].
  destruct pre as [|y pre'].
  2: { cbn [app hd_error] in *. destruct (arg_step defs x (Some y)); [split; [discriminate|reflexivity]|reflexivity|tauto|exact I]. }
  destruct (arg_step defs x (hd_error [])) as [l u| | |] eqn:Es; try tauto.
  destruct (reader_none defs _ R l u Es) as [-> Hn]. split; [reflexivity|apply Hn].
Qed.

(* an accepted argument list without the terminator "--" is read the same way whatever follows it *)
Lemma parse_args_prefix defs tail : forall pre s p,
  parse_args defs pre = PArgs s p -> ~ In dashdash pre ->
  parse_args defs (pre ++ tail) = pres_add s p (parse_args defs tail).
Proof.
  induction pre as [|x pre IH IHtl] using list_ind_skip; intros s p H Hdd.
  { injection H as <- <-. cbn [app]. destruct (parse_args defs tail); reflexivity. }
  cbn [parse_args app] in *. pose proof (arg_step_app defs x pre tail) as Hx.
  assert (Hpre : ~ In dashdash pre) by (intros F; apply Hdd; right; exact F).
  destruct (arg_step defs x (hd_error pre)) as [l u| | |]; try discriminate.
  - destruct Hx as [Hu ->]. destruct u.
    + destruct pre as [|y pre']; [discriminate (Hu eq_refl)|]. cbn [app tl] in *.
      apply pres_add_inv in H. destruct H as (s' & p' & Hr & -> & ->).
      rewrite (IHtl s' p' Hr) by (intros F; apply Hpre; right; exact F). apply pres_add_assoc.
    + apply pres_add_inv in H. destruct H as (s' & p' & Hr & -> & ->).
      rewrite (IH s' p' Hr Hpre). apply pres_add_assoc.
  - rewrite Hx. apply pres_add_inv in H. destruct H as (s' & p' & Hr & -> & ->).
    rewrite (IH s' p' Hr Hpre). apply pres_add_assoc.
  - exfalso. apply Hdd. left. exact Hx.
Qed.

(* a value its flag rejects, anywhere: after any accepted arguments (no "--" among them), and whatever
   follows, the command line is rejected with that flag's error *)
Theorem rejected_value_anywhere defs pre d v e rest s p :
  parse_args defs pre = PArgs s p -> ~ In dashdash pre ->
  find_long defs (f_name d) = Some d -> f_kind d <> KBool -> ~ In 61 (f_name d) ->
  match f_name d with [] => False | c :: _ => c <> 45 /\ c <> 61 end ->
  parse_value (f_kind d) v = VErr e ->
  parse_args defs (pre ++ (45 :: 45 :: f_name d) :: v :: rest) = PErr (PInvalid (f_name d) e).
Proof.
  intros Hp Hdd Hf Hk Heq Hc Hv.
  rewrite (parse_args_prefix defs _ pre s p Hp Hdd).
  rewrite (rejected_long_value defs d v e rest Hf Hk Heq Hc Hv). reflexivity.
Qed.

(* ... and so is the command: knut ends with the usage error before its Run function *)
Corollary rejected_value_ends_command c today pre d v e rest s p fs :
  parse_args (cmd_flags c) pre = PArgs s p -> ~ In dashdash pre ->
  find_long (cmd_flags c) (f_name d) = Some d -> f_kind d <> KBool -> ~ In 61 (f_name d) ->
  match f_name d with [] => False | x :: _ => x <> 45 /\ x <> 61 end ->
  parse_value (f_kind d) v = VErr e ->
  run_argv c today (pre ++ (45 :: 45 :: f_name d) :: v :: rest) fs = ORejected (PInvalid (f_name d) e).
Proof.
  intros Hp Hdd Hf Hk Heq Hc Hv. apply flag_error_is_clean. unfold parse_cmdline.
  rewrite (rejected_value_anywhere _ pre d v e rest s p Hp Hdd Hf Hk Heq Hc Hv). reflexivity.
Qed.
