(* Proofs about Model/SynPrinter.v (C08).

   1. format never panics and never fails on a well-formed tree (hence on every parsed file).
   2. The formatted text is the gaps of the original interleaved with the printed directives
      ([weave]); every printed directive, and the padding, is a function of the directive's
      MEANING (Spec/FormatSpec.v sem) alone: [format = render (sem t f) (gaps t f)].
   3. Therefore idempotence follows from the round trip: if the formatted text parses to a
      tree with the same meaning and gaps, formatting it again yields the same bytes.
   4. The command neither panics nor runs out of fuel.
   The re-parse half (context lemmas, DESIGN Appendix B.3) is Proofs/RoundTrip*.v
   (RoundTripFile.roundtrip).                                                                 *)
From Coq Require Import ZArith List Bool Lia ZifyBool.
From Knut Require Import Model.Bytes Model.Utf8 Model.Scanner Model.Parser Model.SynPrinter
  Spec.SyntaxSpec Proofs.ScannerProofs Proofs.ParserProofs Spec.FormatSpec Model.SynRender.
Import ListNotations.
Open Scope bool_scope.
Open Scope Z_scope.

Section WithEnv.
Variable E : env.
Hypothesis Hlen : e_len E = Z.of_nat (length (e_text E)).

Notation t := (e_text E).
Notation dec := (e_decode E).

Lemma print_directive_render pad d :
  print_directive E pad d = render_sem dec pad (sem_of_directive t d).
Proof using.
  unfold print_directive, sem_of_directive. destruct (d_body d) as [x|o|c|a|p|i|]; try reflexivity.
  - cbn [render_sem]. unfold print_transaction. f_equal.
    destruct (range_empty (ac_range (ad_accrual (tx_addons x)))); cbn [negb];
    destruct (range_empty (pf_range (ad_perf (tx_addons x)))); cbn [negb];
    rewrite map_map; reflexivity.
  - cbn [render_sem]. unfold print_assertion. f_equal. f_equal.
    destruct (as_balances a) as [|b [|b' bs]]; cbn [map]; try reflexivity.
    f_equal. cbn [concat]. f_equal. f_equal. rewrite map_map. reflexivity.
Qed.

Lemma initialize_pad : forall ds p, initialize E p ds = pad_of_sem dec p (map (sem_of_directive t) ds).
Proof using.
  unfold initialize, pad_of_sem. induction ds as [|d ds IH]; intros p; cbn [fold_left map]; [reflexivity|].
  rewrite IH. f_equal. unfold sem_of_directive. destruct (d_body d) as [x|o|c|a|pr|i|]; try reflexivity.
  generalize p. induction (tx_bookings x) as [|b bs IHb]; intros q; cbn [fold_left map]; [reflexivity|].
  rewrite IHb. reflexivity.
Qed.

Lemma format_loop_render pad : forall ds pos out,
  format_loop E pad pos ds = FOk out ->
  exists ps, render_all dec pad (map (sem_of_directive t) ds) = Some ps /\
             out = weave (gaps_from t pos ds) ps.
Proof using Hlen.
  induction ds as [|d ds IH]; intros pos out H; cbn [format_loop] in H.
  - exists []. split; [reflexivity|]. cbn [gaps_from weave map].
    destruct ((0 <=? pos) && (pos <=? e_len E)); [|discriminate]. inversion H.
    unfold zlen. rewrite <- Hlen. now rewrite app_nil_r.
  - destruct (negb _); [discriminate|].
    rewrite print_directive_render in H.
    destruct (render_sem dec pad (sem_of_directive t d)) as [x|] eqn:Hx; [|discriminate].
    destruct (format_loop E pad (r_end (d_range d)) ds) as [y| |] eqn:Hy; try discriminate.
    destruct (IH _ _ Hy) as (ps & Hps & Hout). inversion H.
    exists (x :: ps). cbn [map render_all gaps_from weave]. rewrite Hx, Hps. split; [reflexivity|].
    now rewrite Hout.
Qed.

Lemma format_render f out :
  format E f = FOk out -> render dec (sem t f) (gaps t f) = Some out.
Proof using Hlen.
  unfold format, render, sem, gaps. intros H. rewrite initialize_pad in H.
  destruct (format_loop_render _ _ _ _ H) as (ps & Hps & Hout). rewrite Hps. now rewrite Hout.
Qed.

(* no panic, no error on ordered directives with a payload *)
Lemma format_loop_total pad : forall ds pos,
  0 <= pos -> ordered_in pos (e_len E) (map d_range ds) = true ->
  forallb (fun d => match d_body d with BNone => false | _ => true end) ds = true ->
  exists out, format_loop E pad pos ds = FOk out.
Proof using.
  induction ds as [|d ds IH]; intros pos Hp Ho Hb; cbn [format_loop map ordered_in forallb] in *.
  - assert (Hc : (0 <=? pos) && (pos <=? e_len E) = true) by lia. rewrite Hc. eauto.
  - assert (H1 : ordered_in (r_end (d_range d)) (e_len E) (map d_range ds) = true) by lia.
    pose proof (ordered_in_bounds _ _ _ H1) as Hb1.
    assert (Hc : negb ((0 <=? pos) && (pos <=? r_start (d_range d)) && (r_start (d_range d) <=? e_len E)) = false) by lia.
    rewrite Hc.
    assert (Hd : exists x, print_directive E pad d = Some x).
    { unfold print_directive. destruct (d_body d); try (eexists; reflexivity). simpl in Hb. discriminate. }
    destruct Hd as (x & ->).
    destruct (IH (r_end (d_range d))) as (y & ->); [lia|assumption|lia|]. eauto.
Qed.

Lemma format_total f :
  wf_tree_b t f = true -> exists out, format E f = FOk out.
Proof using Hlen.
  unfold wf_tree_b, format. intros H.
  assert (Hz : zlen t = e_len E) by (unfold zlen; now rewrite Hlen). rewrite Hz in H.
  apply format_loop_total; [lia|lia|].
  assert (Hw : forallb (wf_directive 0 (e_len E)) (f_directives f) = true) by lia.
  clear H. induction (f_directives f) as [|d ds IH]; cbn [forallb] in *; [reflexivity|].
  assert (H1 : wf_directive 0 (e_len E) d = true) by lia.
  assert (H2 : forallb (wf_directive 0 (e_len E)) ds = true) by lia.
  rewrite (IH H2). unfold wf_directive, wf_body in H1. destruct (d_body d); try reflexivity. lia.
Qed.

End WithEnv.

Lemma format_text_total letter digit t f :
  wf_tree_b t f = true -> exists out, format_text letter digit t f = FOk out.
Proof. intros H. unfold format_text. apply format_total; [reflexivity|exact H]. Qed.

Lemma format_text_render letter digit t f out :
  format_text letter digit t f = FOk out -> render Utf8M.decode (sem t f) (gaps t f) = Some out.
Proof. unfold format_text. intros H. now apply (format_render (mk_env Utf8M.decode letter digit t)). Qed.

Lemma format_determined letter digit t1 f1 t2 f2 o1 o2 :
  format_text letter digit t1 f1 = FOk o1 -> format_text letter digit t2 f2 = FOk o2 ->
  sem t1 f1 = sem t2 f2 -> gaps t1 f1 = gaps t2 f2 -> o1 = o2.
Proof.
  intros H1 H2 Hs Hg. apply format_text_render in H1. apply format_text_render in H2.
  rewrite Hs, Hg in H1. congruence.
Qed.

Lemma format_parsed letter digit t f :
  parse_text letter digit t = ParseOk f -> exists out, format_text letter digit t f = FOk out.
Proof. intros H. apply format_text_total. now apply (parse_text_wf letter digit). Qed.

Lemma idem_of_roundtrip letter digit t f o f' :
  format_text letter digit t f = FOk o ->
  parse_text letter digit o = ParseOk f' -> sem o f' = sem t f -> gaps o f' = gaps t f ->
  format_text letter digit o f' = FOk o.
Proof.
  intros Hf Hp' Hs Hg. destruct (format_parsed _ _ _ _ Hp') as (o' & Ho').
  rewrite Ho'. f_equal. now apply (format_determined letter digit o f' t f).
Qed.

(* the command neither panics nor runs out of fuel *)
Lemma format_cmd_total letter digit t :
  match format_cmd letter digit t with
  | Rewritten n => exists f, parse_text letter digit t = ParseOk f /\ format_text letter digit t f = FOk n
  | Untouched => exists e, parse_text letter digit t = ParseErr e
  | CmdPanic | CmdOutOfFuel => False
  end.
Proof.
  unfold format_cmd. pose proof (parse_text_fuel letter digit t) as Hfu.
  destruct (parse_text letter digit t) as [f|e|] eqn:Hp; [|eauto|congruence].
  destruct (format_parsed _ _ _ _ Hp) as (o & Ho). rewrite Ho. eauto.
Qed.

