(* C17: addThousandsSep (Model/Table.v) meets the reverse-reading grouping specification of
   Spec/TableSpec.v on every numeral of the grammar -?digits(.digits)?, and removing the
   commas gives the input back. *)
From Coq Require Import ZArith List Bool Lia Arith.
From Knut Require Import Model.Str Model.Dec Model.Table Spec.TableSpec Proofs.DecStringProofs.
Import ListNotations.
Open Scope bool_scope.
Open Scope Z_scope.

Lemma all_digits_In : forall ds c, all_digits ds = true -> In c ds -> 48 <= c <= 57.
Proof.
  intros ds c H Hin. unfold all_digits in H. rewrite forallb_forall in H.
  apply is_digit_range. apply H. exact Hin.
Qed.

Lemma all_digits_cons : forall c t,
  all_digits (c :: t) = true -> is_digit c = true /\ all_digits t = true.
Proof.
  intros c t H. unfold all_digits in H. cbn [forallb] in H. apply andb_true_iff in H. exact H.
Qed.

Lemma all_digits_app : forall a b,
  all_digits (a ++ b) = true -> all_digits a = true /\ all_digits b = true.
Proof.
  intros a b H. unfold all_digits in *. rewrite forallb_app in H. apply andb_true_iff in H. exact H.
Qed.

Lemma strip_commas_app : forall a b, strip_commas (a ++ b) = strip_commas a ++ strip_commas b.
Proof. intros a b. unfold strip_commas. apply filter_app. Qed.

Lemma strip_commas_cons : forall c t, c <> 44 -> strip_commas (c :: t) = c :: strip_commas t.
Proof.
  intros c t Hc.
  change (strip_commas (c :: t)) with (if negb (c =? 44) then c :: strip_commas t else strip_commas t).
  destruct (c =? 44) eqn:E.
  - apply Z.eqb_eq in E. contradiction.
  - reflexivity.
Qed.

Lemma strip_commas_id : forall s, ~ In 44 s -> strip_commas s = s.
Proof.
  induction s as [|c t IH]; intros Hn.
  - reflexivity.
  - rewrite strip_commas_cons.
    + f_equal. apply IH. intros H. apply Hn. right. exact H.
    + intros H. apply Hn. left. exact H.
Qed.

Lemma thousands_loop_cons : forall ch rest i index ok,
  thousands_loop (ch :: rest) i index ok =
  if (index <=? i) && negb (ch =? 45) then ch :: rest
  else (if ((index - i) mod 3 =? 0) && ok then [44] else []) ++
       ch :: thousands_loop rest (i + 1) index (ok || is_digit ch).
Proof. reflexivity. Qed.

Lemma strip_commas_thousands_loop : forall s i index ok,
  ~ In 44 s -> strip_commas (thousands_loop s i index ok) = s.
Proof.
  induction s as [|c t IH]; intros i index ok Hn.
  - reflexivity.
  - rewrite thousands_loop_cons.
    destruct ((index <=? i) && negb (c =? 45)).
    + apply strip_commas_id. exact Hn.
    + assert (Hc : c <> 44) by (intros H; apply Hn; left; exact H).
      assert (Ht : ~ In 44 t) by (intros H; apply Hn; right; exact H).
      rewrite strip_commas_app. rewrite strip_commas_cons by exact Hc.
      rewrite IH by exact Ht.
      destruct (((index - i) mod 3 =? 0) && ok); reflexivity.
Qed.

Theorem strip_commas_add_thousands_sep : forall s,
  ~ In 44 s -> strip_commas (add_thousands_sep s) = s.
Proof.
  intros s Hn. unfold add_thousands_sep. apply strip_commas_thousands_loop. exact Hn.
Qed.

Lemma split_at_dot_cons : forall c t,
  split_at_dot (c :: t) =
  if c =? 46 then ([], Some t) else (c :: fst (split_at_dot t), snd (split_at_dot t)).
Proof.
  intros c t. cbn [split_at_dot]. destruct (split_at_dot t) as [a b]. reflexivity.
Qed.

Lemma split_at_dot_spec : forall s ip fp,
  split_at_dot s = (ip, fp) ->
  ~ In 46 ip /\ match fp with None => s = ip | Some f => s = ip ++ 46 :: f end.
Proof.
  induction s as [|c t IH]; intros ip fp H.
  - cbn [split_at_dot] in H. injection H as <- <-. split; [intros [] | reflexivity].
  - rewrite split_at_dot_cons in H. destruct (c =? 46) eqn:E.
    + apply Z.eqb_eq in E. subst c. injection H as <- <-. split; [intros [] | reflexivity].
    + apply Z.eqb_neq in E. destruct (split_at_dot t) as [a b] eqn:Et.
      cbn [fst snd] in H. injection H as <- <-.
      destruct (IH a b eq_refl) as [Hn Hs]. split.
      * intros [H | H]; [apply E; exact H | apply Hn; exact H].
      * destruct b as [f|]; rewrite Hs at 1; reflexivity.
Qed.

Lemma split_at_dot_nodot : forall a, ~ In 46 a -> split_at_dot a = (a, None).
Proof.
  induction a as [|c t IH]; intros Hn.
  - reflexivity.
  - rewrite split_at_dot_cons. destruct (c =? 46) eqn:E.
    + apply Z.eqb_eq in E. exfalso. apply Hn. left. exact E.
    + rewrite IH by (intros H; apply Hn; right; exact H). reflexivity.
Qed.

Lemma split_at_dot_app_dot : forall a f, ~ In 46 a -> split_at_dot (a ++ 46 :: f) = (a, Some f).
Proof.
  induction a as [|c t IH]; intros f Hn.
  - cbn [app]. rewrite split_at_dot_cons. reflexivity.
  - change ((c :: t) ++ 46 :: f) with (c :: (t ++ 46 :: f)).
    rewrite split_at_dot_cons. destruct (c =? 46) eqn:E.
    + apply Z.eqb_eq in E. exfalso. apply Hn. left. exact E.
    + rewrite IH by (intros H; apply Hn; right; exact H). reflexivity.
Qed.

Lemma unsign_eq : forall s,
  unsign s = match s with
             | [] => (false, [])
             | c :: t => if c =? 45 then (true, t) else (false, s)
             end.
Proof.
  intros s. destruct s as [|c t]; [reflexivity|].
  destruct c as [|p|p]; try reflexivity.
  do 6 (try (destruct p as [p|p|]; try reflexivity)).
Qed.

Lemma nonempty_ne : forall (A : Type) (l : list A), nonempty l = true -> l <> [].
Proof. intros A l H. destruct l; [discriminate H | discriminate]. Qed.

Theorem numstr_decompose : forall s, is_numstr_b s = true ->
  exists sign ip frac, s = sign ++ ip ++ frac /\ (sign = [] \/ sign = [45]) /\ ip <> [] /\
    all_digits ip = true /\ (frac = [] \/ exists f, frac = 46 :: f /\ all_digits f = true).
Proof.
  intros s H. unfold is_numstr_b in H.
  assert (Hu : exists sign, (sign = [] \/ sign = [45]) /\ s = sign ++ snd (unsign s)).
  { rewrite unsign_eq. destruct s as [|c t].
    - exists []. split; [left|]; reflexivity.
    - destruct (c =? 45) eqn:E.
      + apply Z.eqb_eq in E. subst c. exists [45]. split; [right|]; reflexivity.
      + exists []. split; [left|]; reflexivity. }
  destruct Hu as [sign [Hsign Hs]].
  destruct (split_at_dot (snd (unsign s))) as [ip fp] eqn:Esp.
  apply split_at_dot_spec in Esp. destruct Esp as [Hn46 Hsp].
  apply andb_true_iff in H. destruct H as [H Hf].
  apply andb_true_iff in H. destruct H as [Hne Hd].
  apply nonempty_ne in Hne.
  destruct fp as [f|].
  - apply andb_true_iff in Hf. destruct Hf as [_ Hfd].
    exists sign, ip, (46 :: f). split.
    + rewrite <- Hsp. exact Hs.
    + split; [exact Hsign|]. split; [exact Hne|]. split; [exact Hd|].
      right. exists f. split; [reflexivity | exact Hfd].
  - exists sign, ip, []. split.
    + rewrite app_nil_r. rewrite <- Hsp. exact Hs.
    + split; [exact Hsign|]. split; [exact Hne|]. split; [exact Hd|]. left. reflexivity.
Qed.

Fixpoint group_loop (ds : str) (ok : bool) : str :=
  match ds with
  | [] => []
  | ch :: rest =>
    (if (Z.of_nat (length ds) mod 3 =? 0) && ok then [44] else []) ++ ch :: group_loop rest true
  end.

Lemma group_loop_cons : forall ch rest ok,
  group_loop (ch :: rest) ok =
  (if (Z.of_nat (S (length rest)) mod 3 =? 0) && ok then [44] else []) ++
  ch :: group_loop rest true.
Proof. reflexivity. Qed.

Lemma thousands_loop_digits : forall ip i index ok rest,
  all_digits ip = true -> index = i + Z.of_nat (length ip) ->
  (rest = [] \/ exists f, rest = 46 :: f) ->
  thousands_loop (ip ++ rest) i index ok = group_loop ip ok ++ rest.
Proof.
  induction ip as [|c t IH]; intros i index ok rest Hd Hi Hr.
  - cbn [length] in Hi. assert (Hii : index = i) by lia. clear Hi. subst index.
    cbn [app group_loop].
    destruct Hr as [-> | [f ->]].
    + reflexivity.
    + rewrite thousands_loop_cons. rewrite Z.leb_refl. reflexivity.
  - cbn [length] in Hi.
    apply all_digits_cons in Hd. destruct Hd as [Hc Ht].
    change ((c :: t) ++ rest) with (c :: (t ++ rest)).
    rewrite thousands_loop_cons, group_loop_cons.
    assert (E1 : (index <=? i) = false) by (apply Z.leb_gt; lia).
    rewrite E1. cbn [andb]. rewrite Hc, orb_true_r.
    replace (index - i) with (Z.of_nat (S (length t))) by lia.
    rewrite (IH (i + 1) index true rest Ht ltac:(lia) Hr).
    rewrite <- app_assoc. reflexivity.
Qed.

Lemma index_of_notin : forall c s i, ~ In c s -> index_of c s i = None.
Proof.
  induction s as [|x t IH]; intros i Hn.
  - reflexivity.
  - cbn [index_of]. destruct (x =? c) eqn:E.
    + apply Z.eqb_eq in E. exfalso. apply Hn. left. exact E.
    + apply IH. intros H. apply Hn. right. exact H.
Qed.

Lemma index_of_app : forall c a f i,
  ~ In c a -> index_of c (a ++ c :: f) i = Some (i + Z.of_nat (length a)).
Proof.
  induction a as [|x t IH]; intros f i Hn.
  - cbn [app index_of length]. rewrite Z.eqb_refl. f_equal. lia.
  - cbn [app index_of length]. destruct (x =? c) eqn:E.
    + apply Z.eqb_eq in E. exfalso. apply Hn. left. exact E.
    + rewrite IH by (intros H; apply Hn; right; exact H). f_equal. lia.
Qed.

Lemma sign_ip_no_dot : forall sign ip,
  (sign = [] \/ sign = [45]) -> all_digits ip = true -> ~ In 46 (sign ++ ip).
Proof.
  intros sign ip Hsign Hd H. apply in_app_or in H. destruct H as [H | H].
  - destruct Hsign as [-> | ->].
    + destruct H.
    + destruct H as [H | []]. lia.
  - apply (all_digits_In _ _ Hd) in H. lia.
Qed.

Theorem add_thousands_sep_shape : forall sign ip frac,
  (sign = [] \/ sign = [45]) -> ip <> [] -> all_digits ip = true ->
  (frac = [] \/ exists f, frac = 46 :: f /\ all_digits f = true) ->
  add_thousands_sep (sign ++ ip ++ frac) = sign ++ group_loop ip false ++ frac.
Proof.
  intros sign ip frac Hsign Hne Hd Hfrac. unfold add_thousands_sep.
  assert (Hidx : match index_of 46 (sign ++ ip ++ frac) 0 with
                 | Some i => i
                 | None => Z.of_nat (length (sign ++ ip ++ frac))
                 end = Z.of_nat (length sign) + Z.of_nat (length ip)).
  { pose proof (sign_ip_no_dot sign ip Hsign Hd) as Hn.
    destruct Hfrac as [-> | [f [-> Hf]]].
    - rewrite app_nil_r. rewrite index_of_notin by exact Hn. rewrite app_length. lia.
    - rewrite app_assoc. rewrite index_of_app by exact Hn. rewrite app_length. lia. }
  rewrite Hidx.
  assert (Hrest : frac = [] \/ exists f, frac = 46 :: f).
  { destruct Hfrac as [-> | [f [-> _]]]; [left; reflexivity | right; exists f; reflexivity]. }
  destruct Hsign as [-> | ->].
  - cbn [app length]. apply thousands_loop_digits; [exact Hd | lia | exact Hrest].
  - change ([45] ++ ip ++ frac) with (45 :: (ip ++ frac)).
    rewrite thousands_loop_cons.
    change (negb (45 =? 45)) with false. rewrite !andb_false_r.
    change (false || is_digit 45) with false.
    cbn [app length]. f_equal.
    apply thousands_loop_digits; [exact Hd | lia | exact Hrest].
Qed.

Lemma group_loop_snoc3 : forall ds ok a b c,
  ds <> [] -> group_loop (ds ++ [a; b; c]) ok = group_loop ds ok ++ [44; a; b; c].
Proof.
  induction ds as [|x t IH]; intros ok a b c Hne.
  - contradiction Hne. reflexivity.
  - destruct t as [|y t'].
    + destruct ok; reflexivity.
    + change ((x :: y :: t') ++ [a; b; c]) with (x :: ((y :: t') ++ [a; b; c])).
      rewrite (group_loop_cons x ((y :: t') ++ [a; b; c])).
      rewrite (group_loop_cons x (y :: t')).
      rewrite IH by discriminate.
      replace (Z.of_nat (S (length ((y :: t') ++ [a; b; c]))) mod 3)
        with (Z.of_nat (S (length (y :: t'))) mod 3).
      * rewrite <- app_assoc. reflexivity.
      * rewrite app_length. cbn [length].
        replace (Z.of_nat (S (S (length t') + 3))) with (Z.of_nat (S (S (length t'))) + 1 * 3) by lia.
        symmetry. apply Z_mod_plus_full.
Qed.

Lemma snoc3_decompose : forall ds : str, (4 <= length ds)%nat ->
  exists ds0 a b c, ds = ds0 ++ [a; b; c] /\ ds0 <> [].
Proof.
  intros ds Hl. rewrite <- (rev_involutive ds). rewrite <- rev_length in Hl.
  destruct (rev ds) as [|c [|b [|a [|x r]]]]; cbn [length] in Hl; try lia.
  exists (rev r ++ [x]), a, b, c. split.
  - cbn [rev]. repeat rewrite <- app_assoc. reflexivity.
  - intros H. apply app_eq_nil in H. destruct H as [_ H]. discriminate H.
Qed.

Lemma group_loop_ok_n : forall n ds, (length ds <= n)%nat -> ds <> [] ->
  all_digits ds = true -> groups_rev_ok (rev (group_loop ds false)) = true.
Proof.
  induction n as [|n IH]; intros ds Hl Hne Hd.
  - destruct ds; [contradiction Hne; reflexivity | cbn [length] in Hl; lia].
  - destruct (le_lt_dec 4 (length ds)) as [H4 | H4].
    + destruct (snoc3_decompose ds H4) as [ds0 [a [b [c [-> Hne0]]]]].
      rewrite group_loop_snoc3 by exact Hne0. rewrite rev_app_distr.
      apply all_digits_app in Hd. destruct Hd as [Hd0 Habc].
      apply all_digits_cons in Habc. destruct Habc as [Ha Habc].
      apply all_digits_cons in Habc. destruct Habc as [Hb Habc].
      apply all_digits_cons in Habc. destruct Habc as [Hc _].
      change (rev [44; a; b; c]) with [c; b; a; 44]. cbn [app].
      change (groups_rev_ok (c :: b :: a :: 44 :: rev (group_loop ds0 false)))
        with (is_digit c && is_digit b && is_digit a && (44 =? 44) &&
              groups_rev_ok (rev (group_loop ds0 false))).
      rewrite Hc, Hb, Ha.
      rewrite IH; [reflexivity | | exact Hne0 | exact Hd0].
      rewrite app_length in Hl. cbn [length] in Hl. lia.
    + destruct ds as [|x [|y [|z [|w t]]]].
      * contradiction Hne. reflexivity.
      * apply all_digits_cons in Hd. destruct Hd as [Hx _].
        change (groups_rev_ok (rev (group_loop [x] false))) with (is_digit x). exact Hx.
      * apply all_digits_cons in Hd. destruct Hd as [Hx Hd].
        apply all_digits_cons in Hd. destruct Hd as [Hy _].
        change (groups_rev_ok (rev (group_loop [x; y] false))) with (is_digit y && is_digit x).
        rewrite Hx, Hy. reflexivity.
      * apply all_digits_cons in Hd. destruct Hd as [Hx Hd].
        apply all_digits_cons in Hd. destruct Hd as [Hy Hd].
        apply all_digits_cons in Hd. destruct Hd as [Hz _].
        change (groups_rev_ok (rev (group_loop [x; y; z] false)))
          with (is_digit z && is_digit y && is_digit x).
        rewrite Hx, Hy, Hz. reflexivity.
      * cbn [length] in H4. lia.
Qed.

Theorem group_loop_ok : forall ds, ds <> [] -> all_digits ds = true ->
  groups_rev_ok (rev (group_loop ds false)) = true.
Proof.
  intros ds Hne Hd. apply (group_loop_ok_n (length ds) ds (le_n _) Hne Hd).
Qed.

Lemma thousands_loop_chars : forall s i index ok c,
  In c (thousands_loop s i index ok) -> In c s \/ c = 44.
Proof.
  induction s as [|x t IH]; intros i index ok c H.
  - destruct H.
  - rewrite thousands_loop_cons in H.
    destruct ((index <=? i) && negb (x =? 45)).
    + left. exact H.
    + apply in_app_or in H. destruct H as [H | H].
      * right. destruct (((index - i) mod 3 =? 0) && ok).
        -- destruct H as [H | []]. symmetry. exact H.
        -- destruct H.
      * destruct H as [H | H].
        -- left. left. exact H.
        -- apply IH in H. destruct H as [H | H]; [left; right; exact H | right; exact H].
Qed.

Theorem group_loop_no_dot : forall ds ok, all_digits ds = true -> ~ In 46 (group_loop ds ok).
Proof.
  intros ds ok Hd H. rewrite <- (app_nil_r (group_loop ds ok)) in H.
  rewrite <- (thousands_loop_digits ds 0 (Z.of_nat (length ds)) ok [] Hd eq_refl (or_introl eq_refl)) in H.
  apply thousands_loop_chars in H. rewrite app_nil_r in H. destruct H as [H | H]; [|lia].
  apply (all_digits_In _ _ Hd) in H. lia.
Qed.

Lemma group_loop_head : forall x t, group_loop (x :: t) false = x :: group_loop t true.
Proof. intros x t. rewrite group_loop_cons. rewrite andb_false_r. reflexivity. Qed.

Theorem add_thousands_sep_grouping_ok : forall s,
  is_numstr_b s = true -> grouping_ok_b (add_thousands_sep s) = true.
Proof.
  intros s H.
  destruct (numstr_decompose s H) as [sign [ip [frac [-> [Hsign [Hne [Hd Hfrac]]]]]]].
  rewrite add_thousands_sep_shape by assumption.
  pose proof (group_loop_ok ip Hne Hd) as Hg.
  pose proof (group_loop_no_dot ip false Hd) as Hnd.
  assert (Hhead : exists x r, group_loop ip false = x :: r /\ x <> 45).
  { destruct ip as [|x t]; [contradiction Hne; reflexivity|].
    exists x, (group_loop t true). split; [apply group_loop_head|].
    apply all_digits_cons in Hd. destruct Hd as [Hx _]. apply is_digit_range in Hx. lia. }
  destruct Hhead as [x [r [HG Hx]]].
  remember (group_loop ip false) as G eqn:HeqG.
  assert (Hu : snd (unsign (sign ++ G ++ frac)) = G ++ frac).
  { rewrite unsign_eq. destruct Hsign as [-> | ->].
    - cbn [app]. rewrite HG. cbn [app]. destruct (x =? 45) eqn:E.
      + apply Z.eqb_eq in E. contradiction.
      + reflexivity.
    - reflexivity. }
  unfold grouping_ok_b. rewrite Hu.
  destruct Hfrac as [-> | [f [-> Hf]]].
  - rewrite app_nil_r. rewrite split_at_dot_nodot by exact Hnd. rewrite Hg. reflexivity.
  - rewrite split_at_dot_app_dot by exact Hnd. rewrite Hg, Hf. reflexivity.
Qed.

Lemma numstr_no_comma : forall s, is_numstr_b s = true -> ~ In 44 s.
Proof.
  intros s H.
  destruct (numstr_decompose s H) as [sign [ip [frac [-> [Hsign [Hne [Hd Hfrac]]]]]]].
  intros Hin. apply in_app_or in Hin. destruct Hin as [Hin | Hin].
  - destruct Hsign as [-> | ->].
    + destruct Hin.
    + destruct Hin as [Hin | []]. lia.
  - apply in_app_or in Hin. destruct Hin as [Hin | Hin].
    + apply (all_digits_In _ _ Hd) in Hin. lia.
    + destruct Hfrac as [-> | [f [-> Hf]]].
      * destruct Hin.
      * destruct Hin as [Hin | Hin]; [lia|].
        apply (all_digits_In _ _ Hf) in Hin. lia.
Qed.

Theorem add_thousands_sep_strip : forall s,
  is_numstr_b s = true -> strip_commas (add_thousands_sep s) = s.
Proof.
  intros s H. apply strip_commas_add_thousands_sep. apply numstr_no_comma. exact H.
Qed.

Theorem add_thousands_sep_starts_minus : forall s,
  is_numstr_b s = true -> starts_minus (add_thousands_sep s) = starts_minus s.
Proof.
  intros s H.
  destruct (numstr_decompose s H) as [sign [ip [frac [-> [Hsign [Hne [Hd Hfrac]]]]]]].
  rewrite add_thousands_sep_shape by assumption.
  unfold starts_minus. rewrite !unsign_eq.
  destruct Hsign as [-> | ->].
  - destruct ip as [|x t]; [contradiction Hne; reflexivity|].
    rewrite group_loop_head. cbn [app].
    destruct (x =? 45); reflexivity.
  - reflexivity.
Qed.

Theorem add_thousands_sep_chars : forall s c,
  In c (add_thousands_sep s) -> In c s \/ c = 44.
Proof.
  intros s c H. unfold add_thousands_sep in H. apply thousands_loop_chars in H. exact H.
Qed.
