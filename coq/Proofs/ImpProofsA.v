(* C13, group A importers: what each importer returns on a well-formed statement, in the directives of the
   executable specification (Spec/ImpStmtA.v); that those directives book the rows (directives_faithful), from which
   the faithfulness theorems of Properties/C13.v follow; that what the importers hand to journal.Print consists of
   posting pairs and how a description is printed (books_paired and what follows it); the witnesses of C13.v. *)
From Coq Require Import ZArith QArith List Bool Lia.
From Knut Require Import Proofs.ListFacts Model.Str Model.Dec Model.Date Model.Account Model.Ledger Model.Journal
     Model.Pipeline Model.Table Model.Report Model.JPrinter Model.ImpCommonA
     Model.Imp.Swisscard2 Model.Imp.Viac Model.Imp.Cumulus Model.Imp.Postfinance Model.Imp.Swisscard
     Model.Imp.Supercard
     Spec.ImpSpecA Spec.ImpStmtA Proofs.DecProofs Proofs.DecValue Proofs.JournalFacts Proofs.PairProofs Proofs.StrProofs Proofs.ImpReading.
Import ListNotations.
Open Scope bool_scope.

Lemma effect_credit a counter c q d desc tg : a <> counter ->
  effect a c (mkTxn d desc (pair_build a counter c q dec_nil) tg) == - dvalue q.
Proof.
  intros H. unfold effect. cbn [t_postings]. rewrite pair_build_effect.
  destruct (acc_eq_dec a a); [|contradiction]. destruct (acc_eq_dec counter a); [congruence|].
  destruct (str_eq_dec c c); [ring|contradiction].
Qed.

Lemma effect_debit a counter c q d desc tg : a <> counter ->
  effect a c (mkTxn d desc (pair_build counter a c q dec_nil) tg) == dvalue q.
Proof.
  intros H. unfold effect. cbn [t_postings]. rewrite pair_build_effect.
  destruct (acc_eq_dec a a); [|contradiction]. destruct (acc_eq_dec counter a); [congruence|].
  destruct (str_eq_dec c c); [ring|contradiction].
Qed.

Lemma effect_other_com a x y c c' q d desc tg : c' <> c ->
  effect a c' (mkTxn d desc (pair_build x y c q dec_nil) tg) == 0.
Proof.
  intros H. unfold effect. cbn [t_postings]. rewrite pair_build_effect.
  destruct (str_eq_dec c c'); [congruence|]. destruct (acc_eq_dec y a), (acc_eq_dec x a); ring.
Qed.

Lemma mul_sign_neg_value q : dvalue (mul_sign true q) == - dvalue q.
Proof. rewrite mul_sign_neg. apply dvalue_neg. Qed.

Lemma mul_sign_pos_value q : dvalue (mul_sign false q) == dvalue q.
Proof. rewrite mul_sign_pos. reflexivity. Qed.

(* the transaction the executable specification prescribes for a row fact books that fact *)
Lemma change_directive_books acct f text : acct <> tbd_account ->
  exists t, change_directive acct f text = DTxn t /\ books acct tbd_account f t /\ t_desc t = build_desc text.
Proof.
  intros Hne. eexists. split; [reflexivity|]. split; [|reflexivity]. unfold books. cbn [t_date t_targets]. repeat split.
  - exists (rf_amount f). right. reflexivity.
  - apply effect_debit, Hne.
  - intros c Hc. apply effect_other_com, Hc.
Qed.

Lemma charge_directive_books acct f text : acct <> tbd_account ->
  exists t, charge_directive acct f text = DTxn t /\ books acct tbd_account f t /\ t_desc t = build_desc text.
Proof.
  intros Hne. eexists. split; [reflexivity|]. split; [|reflexivity]. unfold books. cbn [t_date t_targets]. repeat split.
  - exists (neg (rf_amount f)). left. reflexivity.
  - rewrite effect_credit, dvalue_neg by exact Hne. ring.
  - intros c Hc. apply effect_other_com, Hc.
Qed.

(* hence a list of such directives, one per row, is a list of transactions that book the rows'
   facts in order and carry the rows' texts *)
Lemma directives_faithful {A} (dir : row_fact -> str -> directive) acct (fact : A -> row_fact) (text : A -> str) :
  (forall f x, exists t, dir f x = DTxn t /\ books acct tbd_account f t /\ t_desc t = build_desc x) ->
  forall rows, exists ts, map (fun r => dir (fact r) (text r)) rows = map DTxn ts /\
    Forall2 (books acct tbd_account) (map fact rows) ts /\
    map t_desc ts = map build_desc (map text rows).
Proof.
  intros Hdir. induction rows as [|r rows (ts & E & Hb & Hd)].
  - exists []. repeat split. constructor.
  - destruct (Hdir (fact r) (text r)) as (t & Et & Hbt & Hdt).
    exists (t :: ts). cbn [map]. rewrite Et, E, Hdt, Hd. repeat split. constructor; assumption.
Qed.

Lemma sc2_row_spec acct r : sc2_wf_row r = true ->
  sc2_booking acct r = MOk (charge_directive acct (sc2_fact r) (sc2_text r)).
Proof.
  unfold sc2_wf_row, len_is. intros [[[Hl%Nat.eqb_eq Hd]%andb_prop Hc]%andb_prop Hq]%andb_prop.
  apply is_some_inv in Hd as [d Hd]. apply is_some_inv in Hq as [q Hq].
  unfold sc2_booking, sc2_desc, fld_p. rewrite !fld_field by (rewrite Hl; reflexivity).
  rewrite Hd, Hc, Hq.
  unfold charge_directive, sc2_fact. cbn [rf_date rf_com rf_amount negb]. rewrite Hd, Hq, neg_involutive. reflexivity.
Qed.

Lemma sc2_rows_spec acct rows : forallb sc2_wf_row rows = true ->
  sc2_rows acct (map CRec rows) = MOk (sc2_directives acct rows).
Proof.
  induction rows as [|r rows IH]; intros Hwf; [reflexivity|].
  cbn [forallb] in Hwf. apply andb_prop in Hwf. destruct Hwf as [Hr Hrs].
  cbn [map sc2_rows]. rewrite (sc2_row_spec acct r Hr). cbn [mbind]. rewrite (IH Hrs). reflexivity.
Qed.

Theorem viac_faithful com from l :
  forallb viac_wf_entry l = true ->
  import_viac com from (VValues l) = MOk (map (price_of com s_CHF) (viac_prices from l)).
Proof.
  cbn [import_viac]. induction l as [|[ds vs] l IH]; intros Hwf; [reflexivity|].
  cbn [forallb] in Hwf. apply andb_prop in Hwf. destruct Hwf as [He Hl].
  unfold viac_wf_entry in He. cbn [fst snd] in He. apply andb_prop in He. destruct He as [Hd Hv].
  apply is_some_inv in Hd. destruct Hd as [d Hd]. apply is_some_inv in Hv. destruct Hv as [v Hv].
  cbn [viac_values viac_prices flat_map fst snd]. rewrite Hd, Hv. cbn [date_or0 dec_or0].
  specialize (IH Hl). unfold viac_prices in IH.
  destruct (d <? from)%Z; cbn [orb]; [exact IH|].
  destruct (is_zero v); [exact IH|].
  rewrite IH. reflexivity.
Qed.

(* nothing before --from *)
Lemma viac_prices_dates from l :
  Forall (fun f => (from <= pf_date f)%Z) (viac_prices from l).
Proof.
  unfold viac_prices. induction l as [|e l IH]; [constructor|].
  cbn [flat_map]. destruct (Z.ltb_spec (date_or0 (parse_iso (fst e))) from); cbn [orb]; [exact IH|].
  destruct (is_zero _); [exact IH|]. constructor; [cbn; lia|exact IH].
Qed.

(* the replacer's single pass = delete every "CHF", then every "'" *)
Lemma sc_clean_fuel_spec f : forall s, (length s <= f)%nat ->
  sc_clean_fuel f s = remove_byte 39 (remove_all_fuel f s_CHF s).
Proof.
  induction f as [|f IH]; intros s Hl.
  - destruct s; [reflexivity|cbn in Hl; lia].
  - destruct s as [|c t]; [reflexivity|].
    cbn [sc_clean_fuel remove_all_fuel]. change (length s_CHF) with 3%nat.
    destruct (is_prefix s_CHF (c :: t)).
    + apply IH. rewrite skipn_length. cbn [length] in *. lia.
    + unfold remove_byte. cbn [filter]. fold (remove_byte 39 (remove_all_fuel f s_CHF t)).
      cbn [length] in Hl. rewrite <- IH by lia.
      destruct (c =? 39)%Z; reflexivity.
Qed.

Lemma sc_clean_spec s : sc_clean s = sc_amount_text s.
Proof. unfold sc_clean, sc_amount_text, remove_all. apply sc_clean_fuel_spec. lia. Qed.

Lemma sc_row_spec acct r : sc_is_booking r = true -> sc_wf_row r = true ->
  sc_booking acct r = MOk (Some (charge_directive acct (sc_fact r) (sc_text r))).
Proof.
  intros Hb. unfold sc_wf_row, len_is. rewrite Hb. intros [[Hl%Nat.eqb_eq Hd]%andb_prop Hq]%andb_prop.
  apply is_some_inv in Hd as [d Hd]. apply is_some_inv in Hq as [q Hq].
  unfold sc_booking, sc_words, fld_p, len_is. rewrite !fld_field, Hl by (rewrite Hl; reflexivity).
  destruct r as [|f0 [|f1 r]]; try discriminate Hb. cbn [sc_is_booking] in Hb. apply andb_prop in Hb as [Hb0 Hb1].
  change (field (f0 :: f1 :: r) 0) with f0 in *. change (field (f0 :: f1 :: r) 1) with f1.
  rewrite Hb0, Hb1, Hd, sc_clean_spec, Hq.
  unfold charge_directive, sc_fact. cbn [rf_date rf_com rf_amount]. change (field (f0 :: f1 :: r) 0) with f0.
  rewrite Hd, Hq, neg_involutive. reflexivity.
Qed.

Lemma sc_row_ignored acct r : sc_is_booking r = false -> sc_wf_row r = true ->
  sc_booking acct r = MOk None.
Proof.
  intros Hb Hwf. unfold sc_wf_row in Hwf. rewrite Hb in Hwf.
  destruct r as [|f0 [|f1 r]]; [discriminate Hwf| |].
  - cbn [sc_ignored] in Hwf. unfold sc_booking, fld_p, fld. cbn [nth_error]. rewrite Hwf. reflexivity.
  - cbn [sc_ignored] in Hwf. unfold sc_booking, fld_p, fld. cbn [nth_error].
    destruct (date_rx f0); cbn [negb andb] in *; [|reflexivity]. rewrite Hwf. reflexivity.
Qed.

Lemma import_swisscard_spec acct rows : forallb sc_wf_row rows = true ->
  import_swisscard acct (map CRec rows) = MOk (sc_directives acct rows).
Proof.
  induction rows as [|r rows IH]; intros Hwf; [reflexivity|].
  cbn [forallb] in Hwf. apply andb_prop in Hwf. destruct Hwf as [Hr Hrs].
  unfold sc_directives in *. cbn [map import_swisscard filter]. destruct (sc_is_booking r) eqn:Hb.
  - rewrite (sc_row_spec acct r Hb Hr). cbn [mbind]. rewrite (IH Hrs). reflexivity.
  - rewrite (sc_row_ignored acct r Hb Hr). cbn [mbind]. rewrite (IH Hrs). reflexivity.
Qed.

Lemma sup_row_ignored acct r : sup_ignored r = true -> sup_line acct r = MOk None.
Proof.
  unfold sup_ignored. intros [Hl%Nat.leb_le H]%andb_prop.
  unfold sup_line, fld_p. rewrite !fld_field by (apply Nat.ltb_lt; lia).
  change s_saldovortrag with s_saldo.
  destruct (str_eqb (field r 4) s_saldo); [reflexivity|]. cbn [orb] in H. rewrite H. reflexivity.
Qed.

Lemma sup_amount_spec r : sup_amount_ok r = true ->
  sup_amount (field r 10) (field r 11) = MOk (rf_amount (sup_fact r)).
Proof.
  unfold sup_amount_ok, sup_amount, sup_fact. cbn [rf_amount].
  destruct (is_empty (field r 11)); cbn [negb].
  - intros [-> Hq]%andb_prop. apply is_some_inv in Hq as [q ->]. cbn [negb dec_or0]. rewrite mul_sign_neg. reflexivity.
  - intros Hq. apply is_some_inv in Hq as [q ->]. cbn [dec_or0]. rewrite mul_sign_pos. reflexivity.
Qed.

Lemma sup_row_spec acct r : sup_ignored r = false -> sup_wf_row r = true ->
  sup_line acct r = MOk (Some (change_directive acct (sup_fact r) (sup_text r))).
Proof.
  intros Hi. unfold sup_wf_row, len_is. rewrite Hi. cbn [orb]. intros [[[Hl%Nat.eqb_eq Hd]%andb_prop Ha]%andb_prop Hc]%andb_prop.
  apply is_some_inv in Hd as [d Hd].
  unfold sup_ignored, len_is in Hi. rewrite Hl in Hi. cbn [Nat.leb Nat.eqb andb orb] in Hi.
  apply orb_false_elim in Hi as [Hs Hk]. rewrite orb_false_r in Hs.
  unfold sup_line, fld_p, len_is. rewrite !fld_field, Hl by (rewrite Hl; reflexivity).
  change s_saldovortrag with s_saldo. rewrite Hs, Hk, Hd, (sup_amount_spec r Ha), Hc. cbn [Nat.eqb orb negb mbind].
  unfold change_directive. change (rf_date (sup_fact r)) with (date_or0 (parse_dmy (field r 3))). rewrite Hd. reflexivity.
Qed.

Lemma sup_lines_spec acct rows : forallb sup_wf_row rows = true ->
  sup_lines acct (map CRec rows) = MOk (sup_directives acct rows).
Proof.
  induction rows as [|r rows IH]; intros Hwf; [reflexivity|].
  cbn [forallb] in Hwf. apply andb_prop in Hwf. destruct Hwf as [Hr Hrs].
  unfold sup_directives, sup_is_booking in *. cbn [map sup_lines filter]. destruct (sup_ignored r) eqn:Hi; cbn [negb].
  - rewrite (sup_row_ignored acct r Hi). cbn [mbind]. rewrite (IH Hrs). reflexivity.
  - rewrite (sup_row_spec acct r Hi Hr). cbn [mbind]. rewrite (IH Hrs). reflexivity.
Qed.

Definition pf_pair (r : list str) : str * str := (field r 0, field r 1).
Definition pf_cur_of (kv : list (str * str)) : str :=
  match kv_get kv s_waehrung with Some s => trim_set [61; 34]%Z s | None => s_CHF end.

Lemma pf_kv_loop kvs : forall acc hdr rest,
  forallb pf_is_kv kvs = true -> pf_is_kv hdr = false ->
  pf_keyvalues acc (map CRec kvs ++ CRec hdr :: rest) = MOk (rev (map pf_pair kvs) ++ acc, rest).
Proof.
  induction kvs as [|r kvs IH]; intros acc hdr rest Hk Hh.
  - cbn. unfold pf_is_kv, len_is in Hh. destruct hdr as [|a [|b [|c hdr]]]; try reflexivity. discriminate Hh.
  - cbn [forallb] in Hk. apply andb_prop in Hk. destruct Hk as [Hr Hk].
    unfold pf_is_kv, len_is in Hr. destruct r as [|a [|b [|c r]]]; try discriminate Hr.
    cbn [map app pf_keyvalues]. rewrite (IH _ hdr rest Hk Hh).
    cbn [rev]. rewrite <- app_assoc. reflexivity.
Qed.

Lemma pf_cur_of_spec kvs : forall acc,
  pf_cur_of (rev (map pf_pair kvs) ++ acc) = pf_header_currency kvs (pf_cur_of acc).
Proof.
  induction kvs as [|r kvs IH]; intros acc; [reflexivity|].
  cbn [map rev pf_header_currency]. rewrite <- app_assoc. cbn [app]. rewrite IH. f_equal.
  unfold pf_cur_of at 1. cbn [kv_get pf_pair fst snd]. change s_waehrung with s_waehr.
  destruct (str_eqb s_waehr (field r 0)); reflexivity.
Qed.

Lemma pf_currency_ok kv : valid_name (pf_cur_of kv) = true -> pf_currency kv = MOk (pf_cur_of kv).
Proof.
  unfold pf_currency, pf_cur_of. destruct (kv_get kv s_waehrung); intros H; [rewrite H|]; reflexivity.
Qed.

Lemma pf_amount_ok r q :
  xorb (is_empty (field r 2)) (is_empty (field r 3)) = true ->
  new_from_string (pf_amount_text r) = Some q ->
  pf_amount (field r 2) (field r 3) = MOk q.
Proof.
  intros Hx Hq. unfold pf_amount, pf_amount_text in *.
  destruct (xorb_cases _ _ Hx) as [[Ha Hb]|[Ha Hb]]; rewrite Ha, Hb in *; cbn [negb andb]; rewrite Hq; reflexivity.
Qed.

Lemma pf_bookings_row dbg acct cur r rest : pf_wf_row r = true ->
  pf_bookings dbg acct cur (CRec r :: rest) =
  (mbind (fst (pf_bookings dbg acct cur rest))
         (fun x => MOk (change_directive acct (pf_fact cur r) (pf_text r) :: fst x, snd x)),
   snd (pf_bookings dbg acct cur rest)).
Proof.
  unfold pf_wf_row, pf_is_row. intros [[[[Hl1%Nat.leb_le Hl2%Nat.leb_le]%andb_prop Hd]%andb_prop Hx]%andb_prop Hq]%andb_prop.
  apply is_some_inv in Hd as [d Hd]. apply is_some_inv in Hq as [q Hq].
  pose proof (pf_amount_ok r q Hx Hq) as Ha.
  cbn [pf_bookings]. replace (Nat.ltb (length r) 7 || Nat.ltb 8 (length r)) with false
    by (symmetry; apply orb_false_iff; split; apply Nat.ltb_ge; assumption).
  destruct r as [|f0 [|f1 [|f2 [|f3 [|f4 [|f5 r]]]]]]; try (cbn [length] in Hl1; lia).
  unfold field in Hd, Ha. cbn [nth] in Hd, Ha. rewrite Hd, Ha.
  destruct (pf_bookings dbg acct cur rest) as [res out]. cbn [fst snd].
  unfold change_directive, pf_fact, field. cbn [rf_date rf_com rf_amount nth]. rewrite Hd, Hq. reflexivity.
Qed.

Lemma pf_bookings_end dbg acct cur d1 rest : pf_is_row d1 = false ->
  pf_bookings dbg acct cur (CRec d1 :: rest) = (MOk ([], rest), pf_debug_line dbg d1).
Proof.
  unfold pf_is_row. rewrite andb_false_iff, !Nat.leb_gt. intros H. cbn [pf_bookings].
  replace (Nat.ltb (length d1) 7 || Nat.ltb 8 (length d1)) with true; [reflexivity|].
  symmetry. rewrite orb_true_iff, !Nat.ltb_lt. exact H.
Qed.

Lemma pf_bookings_spec dbg acct cur rows d1 rest :
  forallb pf_wf_row rows = true -> pf_is_row d1 = false ->
  pf_bookings dbg acct cur (map CRec rows ++ CRec d1 :: rest) = (MOk (pf_directives acct cur rows, rest), pf_debug_line dbg d1).
Proof.
  intros Hwf Hd1. induction rows as [|r rows IH]; cbn [map app].
  - apply pf_bookings_end, Hd1.
  - cbn [forallb] in Hwf. apply andb_prop in Hwf as [Hr Hrs].
    rewrite (pf_bookings_row dbg acct cur r _ Hr), (IH Hrs). reflexivity.
Qed.

Lemma pf_disclaimer_ok ds : forallb (fun r => len_is r 1) ds = true -> pf_disclaimer (map CRec ds) = MOk tt.
Proof.
  induction ds as [|r ds IH]; intros H; [reflexivity|].
  cbn [forallb] in H. apply andb_prop in H. destruct H as [Hr Hds].
  unfold len_is in Hr. destruct r as [|a [|b r]]; try discriminate Hr. cbn. apply IH, Hds.
Qed.

(* the statement: key/value lines, column header, booking rows, the first line after them
   (anything that is not 7 or 8 fields wide), further disclaimer lines *)
Definition pf_statement (kvs : list (list str)) (header : list str) (rows : list (list str))
           (d1 : list str) (ds : list (list str)) : list citem :=
  map CRec kvs ++ CRec header :: (map CRec rows ++ CRec d1 :: map CRec ds).

Lemma import_postfinance_spec dbg acct kvs header rows d1 ds :
  let cur := pf_header_currency kvs s_CHF in
  forallb pf_is_kv kvs = true -> pf_is_kv header = false -> valid_name cur = true ->
  forallb pf_wf_row rows = true -> pf_is_row d1 = false -> forallb (fun r => len_is r 1) ds = true ->
  import_postfinance dbg acct (pf_statement kvs header rows d1 ds) = (MOk (pf_directives acct cur rows), pf_debug_line dbg d1).
Proof.
  intros cur Hk Hh Hc Hrows Hd1 Hds.
  unfold import_postfinance, pf_statement. rewrite (pf_kv_loop kvs [] header _ Hk Hh).
  assert (Hcur : pf_cur_of (rev (map pf_pair kvs) ++ []) = cur).
  { rewrite pf_cur_of_spec. reflexivity. }
  rewrite pf_currency_ok by (rewrite Hcur; exact Hc). rewrite Hcur.
  rewrite (pf_bookings_spec dbg acct cur rows d1 (map CRec ds) Hrows Hd1). cbn [mbind fst snd].
  rewrite (pf_disclaimer_ok ds Hds). reflexivity.
Qed.

Lemma cum_amount_spec gut bel : cum_amount_ok gut bel = true ->
  cum_amount bel gut = MOk (cum_signed gut bel).
Proof.
  unfold cum_amount_ok, cum_amount, cum_signed, cum_decimal. intros H. apply andb_prop in H. destruct H as [Hx Hq].
  apply is_some_inv in Hq. destruct Hq as [q Hq].
  destruct (xorb_cases _ _ Hx) as [[Ha Hb]|[Ha Hb]]; rewrite Ha, Hb in *; cbn [negb andb]; rewrite Hq; cbn [dec_or0].
  - rewrite mul_sign_neg. reflexivity.
  - rewrite mul_sign_pos. reflexivity.
Qed.

Lemma date_rx_nonempty s : date_rx s = true -> is_empty s = false.
Proof. destruct s; [discriminate|reflexivity]. Qed.

Lemma cum_fx_none r : cum_is_comment r = false -> cum_fxcomment r = None.
Proof.
  unfold cum_is_comment, cum_fxcomment.
  destruct r as [|f0 [|f1 [|f2 [|f3 [|f4 [|f5 r]]]]]]; try reflexivity.
  intros H. rewrite H. reflexivity.
Qed.

Lemma cum_line_ignored acc r : cum_wf_entry (CumIgnored r) = true -> cum_line acc r = MOk acc.
Proof.
  cbn [cum_wf_entry]. intros H. apply andb_prop in H. destruct H as [Hc H].
  apply negb_true_iff in Hc. unfold cum_line.
  destruct r as [|f0 [|f1 r]]; [discriminate H| |].
  - unfold cum_rounding, cum_booking, fld_p, fld. cbn [nth_error]. rewrite H. cbn [mbind].
    rewrite (cum_fx_none _ Hc). reflexivity.
  - unfold cum_rounding, cum_booking, fld_p, fld. cbn [nth_error]. change s_rundung with s_rund.
    destruct (date_rx f0); cbn [negb orb] in *.
    + apply andb_prop in H. destruct H as [H1 H2]. rewrite H1. cbn [mbind].
      rewrite (cum_fx_none _ Hc). rewrite H2. reflexivity.
    + cbn [mbind]. rewrite (cum_fx_none _ Hc). reflexivity.
Qed.

Definition cum_builder (e : cum_entry) : list cbuilder :=
  match e with
  | CumIgnored _ => []
  | CumBooking r cs =>
    [(date_or0 (parse_dmy (field r 0)), fold_left (fun d c => d ++ [32%Z] ++ c) cs (field r 2), cum_signed (field r 3) (field r 4))]
  | CumRounding r cs =>
    [(date_or0 (parse_dmy (field r 0)), fold_left (fun d c => d ++ [32%Z] ++ c) cs (field r 1), cum_signed (field r 2) (field r 3))]
  end.

Lemma cum_line_booking acc r cs : cum_wf_entry (CumBooking r cs) = true ->
  cum_line acc r = MOk ((date_or0 (parse_dmy (field r 0)), field r 2, cum_signed (field r 3) (field r 4)) :: acc).
Proof.
  cbn [cum_wf_entry]. intros [[[[[[Hl H0]%andb_prop H1]%andb_prop Hn]%andb_prop Hd]%andb_prop Ha]%andb_prop _]%andb_prop.
  unfold len_is in Hl. destruct r as [|f0 [|f1 [|f2 [|f3 [|f4 [|f5 r]]]]]]; try discriminate Hl.
  unfold field in *. cbn [nth] in *.
  apply is_some_inv in Hd. destruct Hd as [d Hd]. apply negb_true_iff in Hn.
  unfold cum_line, cum_rounding, cum_booking, fld_p, fld, len_is. cbn [nth_error length Nat.eqb].
  change s_rundung with s_rund. rewrite H0, H1, Hn. cbn [negb mbind].
  cbn [cum_fxcomment]. rewrite (date_rx_nonempty _ H0). cbn [andb].
  rewrite Hd. rewrite (cum_amount_spec _ _ Ha). cbn [mbind date_or0]. reflexivity.
Qed.

Lemma cum_line_rounding acc r cs : cum_wf_entry (CumRounding r cs) = true ->
  cum_line acc r = MOk ((date_or0 (parse_dmy (field r 0)), field r 1, cum_signed (field r 2) (field r 3)) :: acc).
Proof.
  cbn [cum_wf_entry]. intros [[[[[Hl H0]%andb_prop H1]%andb_prop Hd]%andb_prop Ha]%andb_prop _]%andb_prop.
  unfold len_is in Hl. destruct r as [|f0 [|f1 [|f2 [|f3 [|f4 r]]]]]; try discriminate Hl.
  unfold field in *. cbn [nth] in *.
  apply is_some_inv in Hd. destruct Hd as [d Hd].
  unfold cum_line, cum_rounding, fld_p, fld, len_is. cbn [nth_error length Nat.eqb].
  change s_rundung with s_rund. rewrite H0, H1. cbn [negb].
  rewrite Hd. rewrite (cum_amount_spec _ _ Ha). cbn [mbind date_or0]. reflexivity.
Qed.

Lemma cum_line_comment d desc q acc c : is_empty c = false ->
  cum_line ((d, desc, q) :: acc) (cum_comment_row c) = MOk ((d, desc ++ [32%Z] ++ c, q) :: acc).
Proof.
  intros Hc. unfold cum_line, cum_comment_row, cum_rounding, fld_p, fld. cbn [nth_error].
  change (date_rx []) with false. cbn [negb mbind cum_fxcomment is_empty andb]. rewrite Hc. reflexivity.
Qed.

Lemma cum_loop_comments cs : forall d desc q acc rest,
  forallb (fun c => negb (is_empty c)) cs = true ->
  cum_loop ((d, desc, q) :: acc) (map CRec (map cum_comment_row cs) ++ rest) =
  cum_loop ((d, fold_left (fun d c => d ++ [32%Z] ++ c) cs desc, q) :: acc) rest.
Proof.
  induction cs as [|c cs IH]; intros d desc q acc rest H; [reflexivity|].
  cbn [forallb] in H. apply andb_prop in H. destruct H as [Hc Hcs]. apply negb_true_iff in Hc.
  cbn [map app cum_loop]. rewrite (cum_line_comment d desc q acc c Hc). cbn [mbind].
  rewrite IH by assumption. reflexivity.
Qed.

Lemma cum_loop_entry e acc rest : cum_wf_entry e = true ->
  cum_loop acc (map CRec (cum_records e) ++ rest) = cum_loop (rev (cum_builder e) ++ acc) rest.
Proof.
  intros H. destruct e as [r|r cs|r cs]; cbn [cum_records map app cum_loop cum_builder rev].
  - rewrite (cum_line_ignored acc r H). reflexivity.
  - rewrite (cum_line_booking acc r cs H). cbn [mbind].
    rewrite cum_loop_comments by (cbn [cum_wf_entry] in H; apply andb_prop in H; apply H). reflexivity.
  - rewrite (cum_line_rounding acc r cs H). cbn [mbind].
    rewrite cum_loop_comments by (cbn [cum_wf_entry] in H; apply andb_prop in H; apply H). reflexivity.
Qed.

Lemma cum_loop_entries es : forall acc,
  forallb cum_wf_entry es = true ->
  cum_loop acc (map CRec (flat_map cum_records es)) = MOk (rev (flat_map cum_builder es) ++ acc).
Proof.
  induction es as [|e es IH]; intros acc H; [reflexivity|].
  cbn [forallb] in H. apply andb_prop in H. destruct H as [He Hes].
  cbn [flat_map]. rewrite map_app. rewrite (cum_loop_entry e acc _ He). rewrite IH by assumption.
  rewrite rev_app_distr, <- app_assoc. reflexivity.
Qed.

Lemma import_cumulus_spec acct es : forallb cum_wf_entry es = true ->
  import_cumulus acct (map CRec (flat_map cum_records es)) = MOk (flat_map (cum_entry_directives acct) es).
Proof.
  intros Hwf. unfold import_cumulus. rewrite (cum_loop_entries es [] Hwf). cbn [mbind].
  rewrite app_nil_r, rev_involutive, map_flat_map. f_equal. apply flat_map_ext. intros [r|r cs|r cs]; reflexivity.
Qed.

Lemma books_paired a c f t : books a c f t -> txn_ok t.
Proof.
  intros (_ & (q & [H|H]) & _). all: unfold txn_ok; rewrite H; apply pair_build_paired.
Qed.

Lemma books_all_paired a c fs ts : Forall2 (books a c) fs ts -> Forall (on_txn txn_ok) (map DTxn ts).
Proof.
  induction 1; cbn [map]; constructor; [|assumption].
  cbn [on_txn]. eapply books_paired; eassumption.
Qed.

(* what the importers hand to journal.Print consists of posting pairs, day by day *)
Lemma imported_days_ok a c fs ts :
  Forall2 (books a c) fs ts -> Forall day_ok (b_days (builder_of (map DTxn ts))).
Proof. intros H. apply builder_of_ok. eapply books_all_paired; eassumption. Qed.

(* the successful end of a run: stdout is the printed journal of the imported directives *)
Lemma finish_run_ok pre ds : finish_run false pre (MOk ds) = mkRun (pre ++ print_directives ds) SOk.
Proof. reflexivity. Qed.

Lemma run_swisscard2_ok flag acct items ds : account_flag flag = AAcc acct ->
  import_swisscard2 acct items = MOk ds -> run_swisscard2 flag items = mkRun (print_directives ds) SOk.
Proof. intros Hf Hi. unfold run_swisscard2. rewrite Hf, Hi. reflexivity. Qed.
Lemma run_cumulus_ok flag acct items ds : account_flag flag = AAcc acct ->
  import_cumulus acct items = MOk ds -> run_cumulus flag items = mkRun (print_directives ds) SOk.
Proof. intros Hf Hi. unfold run_cumulus. rewrite Hf, Hi. reflexivity. Qed.
Lemma run_swisscard_ok flag acct items ds : account_flag flag = AAcc acct ->
  import_swisscard acct items = MOk ds -> run_swisscard flag items = mkRun (print_directives ds) SOk.
Proof. intros Hf Hi. unfold run_swisscard. rewrite Hf, Hi. reflexivity. Qed.
Lemma run_supercard_ok flag acct items ds : account_flag flag = AAcc acct ->
  import_supercard acct items = MOk ds -> run_supercard flag items = mkRun (print_directives ds) SOk.
Proof. intros Hf Hi. unfold run_supercard. rewrite Hf, Hi. reflexivity. Qed.
Lemma run_postfinance_ok dbg flag acct items ds out : account_flag flag = AAcc acct ->
  import_postfinance dbg acct items = (MOk ds, out) ->
  run_postfinance dbg flag items = mkRun (out ++ print_directives ds) SOk.
Proof. intros Hf Hi. unfold run_postfinance. rewrite Hf, Hi. reflexivity. Qed.
(* F13: whatever the statement, the debug line of the postfinance importer is not empty *)

Definition first_line (s : str) : str :=
  (fix go (s : str) : str := match s with [] => [] | c :: t => if (c =? 10)%Z then [] else c :: go t end) s.

(* 06.07.2024 *)
Definition w_date : str := [48;54;46;48;55;46;50;48;50;52]%Z.
Definition w_acct_flag : str := [65;115;115;101;116;115;58;65]%Z.            (* Assets:A *)
(* a swisscard2 row whose Beschreibung is a single double quote *)
Definition w_quote_row : list str :=
  [w_date; [34]; [97]; [97]; s_CHF; [49]; []; []; [97]; [97]; [97]; [97]]%Z.

(* since fix faa0268 (Builder.Build maps the double quote to a single quote) the header line of
   that row has exactly the two delimiting quotes *)
Lemma quote_witness :
  sc2_wf_row w_quote_row = true /\
  ir_status (run_swisscard2 w_acct_flag [CRec []; CRec w_quote_row]) = SOk /\
  count_quotes (first_line (ir_stdout (run_swisscard2 w_acct_flag [CRec []; CRec w_quote_row]))) = 2%nat.
Proof. vm_compute. repeat split. Qed.

(* Build before faa0268 (description verbatim): the same description printed by the same printer
   gives a header line with three double quotes (F14) *)
Lemma quote_witness_pinned :
  count_quotes (first_line (print_directives
     [simple_txn_pinned 738000 [34]%Z [s_Assets; [65]%Z] tbd_account s_CHF (of_int 1)])) = 3%nat.
Proof. vm_compute. reflexivity. Qed.

Lemma simple_txn_header date desc credit debit com q :
  exists rest,
    print_directives [simple_txn date desc credit debit com q] =
    format_date date ++ [32; 34]%Z ++ build_desc desc ++ [34; 10]%Z ++ rest.
Proof.
  unfold print_directives, simple_txn, builder_of.
  cbn [fold_left builder_add new_builder b_days upd_day t_date].
  unfold print_journal, sort_days, add_txn_day, empty_day.
  cbn [map d_txns app d_date d_prices d_opens d_asserts d_closes d_normalized].
  unfold set_txns, sort_by. cbn [rev app fold_right insert_sorted d_txns d_date d_prices d_opens d_asserts d_closes d_normalized].
  cbn [map concat]. unfold print_day.
  cbn [d_txns d_date d_prices d_opens d_asserts d_closes map concat app print_asserts].
  unfold print_txn at 1. cbn [t_targets t_date t_desc app].
  rewrite <- !app_assoc. cbn [app]. rewrite <- !app_assoc. cbn [app]. eexists. reflexivity.
Qed.

Lemma build_desc_length s : length (build_desc s) = length s.
Proof. apply map_length. Qed.

(* bytes other than the double quote are kept *)
Lemma build_desc_id s : count_quotes s = 0%nat -> build_desc s = s.
Proof.
  unfold count_quotes, build_desc. induction s as [|c s IH]; [reflexivity|].
  cbn [map filter]. rewrite (Z.eqb_sym 34 c). destruct (c =? 34)%Z eqn:Hc; cbn [length]; [discriminate|].
  intros H. rewrite IH by assumption. reflexivity.
Qed.

(* a postfinance statement without rows: the column header and one disclaimer line *)
Lemma pf_stdout_witness :
  let items := pf_statement [] [[97]%Z] [] [[68]%Z] [] in
  fst (import_postfinance true [s_Assets; [65]%Z] items) = MOk [] /\
  ir_status (run_postfinance true w_acct_flag items) = SOk /\
  ir_stdout (run_postfinance true w_acct_flag items) <> print_directives [].
Proof. vm_compute. repeat split. discriminate. Qed.

Theorem viac_run_from flag from l fr :
  valid_name flag = true ->
  match from with None => Some 0%Z | Some f => parse_iso f end = Some fr ->
  forallb viac_wf_entry l = true ->
  run_viac flag from (VValues l) = mkRun (print_directives (map (price_of flag s_CHF) (viac_prices fr l))) SOk.
Proof.
  intros Hf Hfr Hwf. unfold run_viac. rewrite Hfr. destruct flag as [|c flag]; [discriminate Hf|]. cbn [is_empty]. rewrite Hf. cbn [negb].
  rewrite (viac_faithful (c :: flag) fr l Hwf). reflexivity.
Qed.
