(* C13, group B importers: what each importer returns on a well-formed statement, in the directives of the
   executable specification (Spec/ImpStmtB.v); that those directives book the rows (bookings_faithful) once each
   row's bookings add up to its changes, from which the faithfulness theorems of Properties/C13b.v follow. *)
From Coq Require Import ZArith QArith List Bool Lia Permutation.
From Knut Require Import Proofs.ListFacts Model.Str Model.Dec Model.Date Model.Account Model.Ledger Model.Journal
     Model.Table Model.Report Model.JPrinter Model.ImpCommonA Model.ImpCommonB
     Model.Imp.Revolut2 Model.Imp.Revolut Model.Imp.Wise Model.Imp.Swissquote Model.Imp.Interactivebrokers
     Spec.ImpSpecA Spec.ImpSpecB Spec.ImpStmtB Proofs.DecProofs Proofs.DecValue Proofs.PairProofs Proofs.StrProofs
     Proofs.StableSort Proofs.ImpReading.
Import ListNotations.
Open Scope bool_scope.
Open Scope Q_scope.

(* x if the posting is on account a in commodity c, else 0 *)
Definition ind (b a : account) (c' c : commodity) (x : Q) : Q :=
  if acc_eq_dec b a then if str_eq_dec c' c then x else 0 else 0.

Definition peffect (a : account) (c : commodity) (ps : list posting) : Q :=
  fold_right (fun p s => posting_effect a c p + s) 0 ps.

Lemma effect_peffect a c t : effect a c t = peffect a c (t_postings t).
Proof. reflexivity. Qed.

Lemma peffect_app a c l1 l2 : peffect a c (l1 ++ l2) == peffect a c l1 + peffect a c l2.
Proof.
  unfold peffect. induction l1 as [|p l1 IH]; cbn [app fold_right].
  - ring.
  - rewrite IH. ring.
Qed.

(* a booking raises the debited account and lowers the credited one, whatever the sign of the
   quantity (Build swaps the sides of a negative booking) *)
Definition leg_effect (a : account) (c : commodity) (l : leg) : Q :=
  ind (l_debit l) a (l_com l) c (dvalue (l_qty l)) - ind (l_credit l) a (l_com l) c (dvalue (l_qty l)).

Lemma booking_effect a c l : peffect a c (booking_postings l) == leg_effect a c l.
Proof. apply pair_build_effect. Qed.

Definition legs_effect (a : account) (c : commodity) (ls : list leg) : Q :=
  fold_right (fun l s => leg_effect a c l + s) 0 ls.

Lemma bookings_effect a c ls : peffect a c (concat (map booking_postings ls)) == legs_effect a c ls.
Proof.
  induction ls as [|l ls IH]; cbn [map concat legs_effect fold_right]; [reflexivity|].
  rewrite peffect_app, booking_effect. fold (legs_effect a c ls). rewrite IH. reflexivity.
Qed.

Lemma legs_postings_spec ls : legs_postings ls = concat (map booking_postings ls).
Proof. unfold legs_postings. rewrite flat_map_concat_map. reflexivity. Qed.

(* a transaction built from bookings books the row once the bookings add up to the row's changes *)
Lemma books_b_intro acct f ls tg d desc :
  re_date f = d ->
  (forall c, legs_effect acct c ls == expected (re_changes f) c) ->
  books_b acct f ls tg (mkTxn d desc (legs_postings ls) tg).
Proof.
  intros Hd He. unfold books_b, consists_of. cbn [t_date t_postings t_targets].
  repeat split; try congruence.
  - apply legs_postings_spec.
  - intros c. rewrite effect_peffect. cbn [t_postings]. rewrite legs_postings_spec, bookings_effect. apply He.
Qed.

Lemma ind_same a c x : ind a a c c x == x.
Proof. unfold ind. destruct (acc_eq_dec a a); [|contradiction]. destruct (str_eq_dec c c); [reflexivity|contradiction]. Qed.
Lemma ind_other_acc b a c' c x : b <> a -> ind b a c' c x == 0.
Proof. intros H. unfold ind. destruct (acc_eq_dec b a); [contradiction|reflexivity]. Qed.

(* a booking from another account raises the account by its quantity, one to another account
   lowers it; in the commodity of the booking only *)
Lemma leg_effect_in acct other cur q c : acct <> other ->
  leg_effect acct c (mkLeg other acct cur q) == if str_eq_dec cur c then dvalue q else 0.
Proof.
  intros H. unfold leg_effect. cbn [l_credit l_debit l_com l_qty]. rewrite (ind_other_acc other acct) by congruence.
  unfold ind. destruct (acc_eq_dec acct acct); [|contradiction]. destruct (str_eq_dec cur c); ring.
Qed.

Lemma leg_effect_out acct other cur q c : acct <> other ->
  leg_effect acct c (mkLeg acct other cur q) == - (if str_eq_dec cur c then dvalue q else 0).
Proof.
  intros H. unfold leg_effect. cbn [l_credit l_debit l_com l_qty]. rewrite (ind_other_acc other acct) by congruence.
  unfold ind. destruct (acc_eq_dec acct acct); [|contradiction]. destruct (str_eq_dec cur c); ring.
Qed.

Lemma one_in_effect acct other cur q c : acct <> other ->
  legs_effect acct c [mkLeg other acct cur q] == expected [(cur, q)] c.
Proof. intros H. cbn [legs_effect expected fold_right fst snd]. rewrite leg_effect_in by assumption. reflexivity. Qed.

Lemma one_out_effect acct other cur q c : acct <> other ->
  legs_effect acct c [mkLeg acct other cur q] == expected [(cur, neg q)] c.
Proof.
  intros H. cbn [legs_effect expected fold_right fst snd]. rewrite leg_effect_out by assumption.
  destruct (str_eq_dec cur c); rewrite ?dvalue_neg; ring.
Qed.

(* the directives the executable specification prescribes for a list of booking rows are
   transactions that book the rows, once each row's bookings add up to its changes *)
Lemma bookings_faithful {A} acct (fact : A -> row_effect) (text : A -> str) (legs : A -> list leg)
      (tg : A -> option (list commodity)) xs :
  (forall x, In x xs -> forall c, legs_effect acct c (legs x) == expected (re_changes (fact x)) c) ->
  exists ts, map (fun x => booking_directive (fact x) (text x) (legs x) (tg x)) xs = map DTxn ts /\
    Forall2 (fun x t => books_b acct (fact x) (legs x) (tg x) t) xs ts /\
    map t_desc ts = map build_desc (map text xs).
Proof.
  intros He.
  exists (map (fun x => mkTxn (re_date (fact x)) (build_desc (text x)) (legs_postings (legs x)) (tg x)) xs).
  rewrite !map_map. split; [reflexivity|]. split; [|reflexivity].
  induction xs as [|x xs IH]; cbn [map]; constructor.
  - apply books_b_intro; [reflexivity|]. apply He. left. reflexivity.
  - apply IH. intros y Hy. apply He. right. exact Hy.
Qed.

Lemma r2_key_eqb_eq a b : r2_key_eqb a b = true <-> a = b.
Proof.
  destruct a as [d c], b as [d' c']. unfold r2_key_eqb. cbn [fst snd]. rewrite andb_true_iff, Z.eqb_eq, str_eqb_eq.
  split; [intros [-> ->]; reflexivity|intros H; injection H; auto].
Qed.

Lemma r2_key_eqb_neq a b : r2_key_eqb a b = false <-> a <> b.
Proof.
  split.
  - intros H E. apply r2_key_eqb_eq in E. congruence.
  - intros H. destruct (r2_key_eqb a b) eqn:E; [apply r2_key_eqb_eq in E; contradiction|reflexivity].
Qed.

Lemma r2_put_other m k k' v v' : k' <> k -> (In (k, v) (r2_put m k' v') <-> In (k, v) m).
Proof.
  intros Hne. induction m as [|[k0 v0] m IH]; cbn [r2_put].
  - cbn. split; [intros [H|[]]; injection H; intros; subst; contradiction|intros []].
  - destruct (r2_key_eqb k' k0) eqn:E.
    + apply r2_key_eqb_eq in E. subst k0. cbn [In]. split; intros [H|H]; auto; injection H; intros; subst; contradiction.
    + cbn [In]. rewrite IH. reflexivity.
Qed.

Lemma r2_put_keys m k v :
  map fst (r2_put m k v) = if in_dec key_eq_dec k (map fst m) then map fst m else map fst m ++ [k].
Proof.
  induction m as [|[k0 v0] m IH]; cbn [r2_put map fst]; [reflexivity|].
  destruct (r2_key_eqb k k0) eqn:E.
  - apply r2_key_eqb_eq in E. subst k0. cbn [map fst].
    destruct (in_dec key_eq_dec k (k :: map fst m)) as [_|n]; [reflexivity|exfalso; apply n; left; reflexivity].
  - apply r2_key_eqb_neq in E. cbn [map fst]. rewrite IH.
    destruct (in_dec key_eq_dec k (map fst m)) as [i|n];
      destruct (in_dec key_eq_dec k (k0 :: map fst m)) as [i'|n']; try reflexivity.
    + exfalso. apply n'. right. exact i.
    + exfalso. destruct i' as [H|H]; [congruence|contradiction].
Qed.

Lemma r2_put_nodup m k v : NoDup (map fst m) -> NoDup (map fst (r2_put m k v)).
Proof.
  intros H. rewrite r2_put_keys. destruct (in_dec key_eq_dec k (map fst m)) as [i|n]; [exact H|].
  apply NoDup_snoc; assumption.
Qed.

Lemma r2_put_same m k v v' : NoDup (map fst m) -> (In (k, v) (r2_put m k v') <-> v = v').
Proof.
  induction m as [|[k0 v0] m IH]; intros Hnd; cbn [r2_put].
  - cbn. split; [intros [H|[]]; injection H; auto|intros ->; left; reflexivity].
  - cbn [map fst] in Hnd. inversion Hnd as [|x l Hx Hl]; subst.
    destruct (r2_key_eqb k k0) eqn:E.
    + apply r2_key_eqb_eq in E. subst k0. cbn [In]. split.
      * intros [H|H]; [injection H; auto|]. exfalso. apply Hx. change k with (fst (k, v)). apply in_map. exact H.
      * intros ->. left. reflexivity.
    + apply r2_key_eqb_neq in E. cbn [In]. rewrite (IH Hl). split; [intros [H|H]; [injection H; intros; subst; contradiction|exact H]|auto].
Qed.

(* what the rows do to the balance map *)
Definition r2_puts (m : list (r2_key * dec)) (rows : list (list str)) : list (r2_key * dec) :=
  fold_left (fun m r => if r2_is_booking r then r2_put m (r2_key_of r) (r2_balance r) else m) rows m.

Lemma r2_puts_nodup rows : forall m, NoDup (map fst m) -> NoDup (map fst (r2_puts m rows)).
Proof.
  induction rows as [|r rows IH]; intros m H; [exact H|].
  cbn [r2_puts fold_left]. apply IH. destruct (r2_is_booking r); [apply r2_put_nodup|]; exact H.
Qed.

Lemma r2_puts_closing rows : forall m k v, NoDup (map fst m) ->
  (In (k, v) (r2_puts m rows) <-> match r2_closing k rows with Some v' => v = v' | None => In (k, v) m end).
Proof.
  induction rows as [|r rows IH]; intros m k v Hnd; [reflexivity|].
  cbn [r2_puts fold_left r2_closing]. fold (r2_puts (if r2_is_booking r then r2_put m (r2_key_of r) (r2_balance r) else m) rows).
  rewrite IH by (destruct (r2_is_booking r); [apply r2_put_nodup|]; exact Hnd).
  destruct (r2_closing k rows); [reflexivity|].
  destruct (r2_is_booking r); [|reflexivity].
  destruct (key_eq_dec (r2_key_of r) k) as [e|n].
  - subst k. apply r2_put_same. exact Hnd.
  - apply r2_put_other. exact n.
Qed.

Lemma r2_row_skipped acct feeacct r : r2_wf_row r = true -> r2_is_booking r = false ->
  r2_booking acct feeacct r = MOk None.
Proof.
  unfold r2_wf_row, len_is, r2_is_booking. intros [Hl%Nat.eqb_eq _]%andb_prop Hb%negb_false_iff.
  unfold r2_booking, fld_p. rewrite fld_field, Hb by (rewrite Hl; reflexivity). reflexivity.
Qed.

Lemma r2_row_booking acct feeacct r : r2_wf_row r = true -> r2_is_booking r = true ->
  r2_booking acct feeacct r =
  MOk (Some (booking_directive (r2_fact r) (r2_text r) (r2_legs acct feeacct r) None, (r2_key_of r, r2_balance r))).
Proof.
  unfold r2_wf_row, len_is, r2_is_booking. rewrite negb_true_iff. intros Hwf Hb. rewrite Hb in Hwf. cbn [orb] in Hwf.
  apply andb_prop in Hwf as [Hl%Nat.eqb_eq [[[[[Hlen Hd]%andb_prop Hc]%andb_prop Ha]%andb_prop Hf]%andb_prop Hbal]%andb_prop].
  apply is_some_inv in Hd as [d Hd]. apply is_some_inv in Ha as [a Ha].
  apply is_some_inv in Hf as [f Hf]. apply is_some_inv in Hbal as [b Hbal].
  unfold r2_booking, fld_p, prefix10. rewrite !fld_field by (rewrite Hl; reflexivity).
  rewrite Hb, Hlen, Hd, Hc, Ha, Hf, Hbal.
  unfold booking_directive, r2_fact, r2_text, r2_legs, r2_key_of, r2_date, r2_cur, r2_amount, r2_fee, r2_balance. cbn [re_date].
  rewrite Hd, Ha, Hf, Hbal. reflexivity.
Qed.

Lemma r2_legs_effect acct feeacct r c : acct <> tbd_account -> acct <> feeacct ->
  legs_effect acct c (r2_legs acct feeacct r) == expected (re_changes (r2_fact r)) c.
Proof.
  intros H1 H2. unfold r2_legs, r2_fact. cbn [re_changes expected fold_right fst snd].
  destruct (is_zero (r2_fee r)) eqn:Hz; cbn [legs_effect fold_right];
    rewrite leg_effect_in, ?leg_effect_out by assumption;
    (destruct (str_eq_dec (r2_cur r) c); [rewrite dvalue_sub|]; try ring).
  apply is_zero_value in Hz. rewrite Hz. ring.
Qed.

Lemma r2_rows_ok acct feeacct rows : forall m, forallb r2_wf_row rows = true ->
  r2_rows acct feeacct (map CRec rows) m =
  MOk (map (fun r => booking_directive (r2_fact r) (r2_text r) (r2_legs acct feeacct r) None) (filter r2_is_booking rows),
       r2_puts m rows).
Proof.
  induction rows as [|r rows IH]; intros m Hwf; [reflexivity|].
  cbn [forallb] in Hwf. apply andb_prop in Hwf. destruct Hwf as [Hr Hrs].
  cbn [map r2_rows filter r2_puts fold_left]. destruct (r2_is_booking r) eqn:Hb.
  - rewrite (r2_row_booking acct feeacct r Hr Hb). cbn [mbind]. rewrite (IH _ Hrs). cbn [mbind fst snd map]. reflexivity.
  - rewrite (r2_row_skipped acct feeacct r Hr Hb). cbn [mbind]. apply IH, Hrs.
Qed.

Lemma r2_header_self : r2_header_ok r2_header r2_header = MOk tt.
Proof. vm_compute. reflexivity. Qed.

Definition r2_bal_fact (kv : r2_key * dec) : balance_fact := mkBalFact (fst (fst kv)) (snd (fst kv)) (snd kv).

Lemma insert_sorted_map {A B} (lt : A -> A -> bool) (ltB : B -> B -> bool) (g : A -> B) x l :
  (forall a b, ltB (g a) (g b) = lt a b) ->
  insert_sorted ltB (g x) (map g l) = map g (insert_sorted lt x l).
Proof.
  intros H. induction l as [|y l IH]; [reflexivity|]. cbn [map insert_sorted]. rewrite H.
  destruct (lt x y); [reflexivity|]. cbn [map]. rewrite IH. reflexivity.
Qed.

Lemma sort_by_map {A B} (lt : A -> A -> bool) (ltB : B -> B -> bool) (g : A -> B) l :
  (forall a b, ltB (g a) (g b) = lt a b) -> sort_by ltB (map g l) = map g (sort_by lt l).
Proof.
  intros H. induction l as [|x l IH] using rev_ind; [reflexivity|].
  rewrite map_app. cbn [map]. rewrite !sort_by_snoc, IH. apply insert_sorted_map, H.
Qed.

Lemma key_ltb_irrefl a : key_ltb a a = false.
Proof. unfold key_ltb. rewrite Z.ltb_irrefl, Z.eqb_refl, str_ltb_irrefl. reflexivity. Qed.

Lemma key_ltb_trans a b c : key_ltb a b = true -> key_ltb b c = true -> key_ltb a c = true.
Proof.
  unfold key_ltb. intros H1 H2.
  apply orb_true_iff in H1. apply orb_true_iff in H2. apply orb_true_iff.
  destruct H1 as [H1|H1], H2 as [H2|H2].
  - left. apply Z.ltb_lt. apply Z.ltb_lt in H1, H2. lia.
  - apply andb_prop in H2. destruct H2 as [H2 _]. apply Z.eqb_eq in H2. left. rewrite <- H2. exact H1.
  - apply andb_prop in H1. destruct H1 as [H1 _]. apply Z.eqb_eq in H1. left. rewrite H1. exact H2.
  - apply andb_prop in H1. destruct H1 as [H1 S1]. apply andb_prop in H2. destruct H2 as [H2 S2].
    apply Z.eqb_eq in H1, H2. right. rewrite H1, H2, Z.eqb_refl. exact (str_ltb_trans _ _ _ S1 S2).
Qed.

Lemma key_ltb_total a b : key_ltb a b = false -> key_ltb b a = false -> a = b.
Proof.
  unfold key_ltb. destruct a as [d c], b as [d' c']. cbn [fst snd]. intros H1 H2.
  apply orb_false_elim in H1. apply orb_false_elim in H2. destruct H1 as [L1 E1], H2 as [L2 E2].
  apply Z.ltb_ge in L1, L2. assert (d = d') by lia. subst d'. rewrite Z.eqb_refl in E1, E2. cbn [andb] in E1, E2.
  f_equal. apply str_ltb_total; assumption.
Qed.

Lemma bf_ltb_irrefl x : bf_ltb x x = false.
Proof. exact (by_key_irrefl key_ltb bf_key key_ltb_irrefl x). Qed.
Lemma bf_ltb_trans x y z : bf_ltb x y = true -> bf_ltb y z = true -> bf_ltb x z = true.
Proof. exact (by_key_trans key_ltb bf_key key_ltb_trans x y z). Qed.
Lemma bf_ltb_cotrans x y z : bf_ltb x y = true -> bf_ltb x z = true \/ bf_ltb z y = true.
Proof. exact (by_key_cotrans key_ltb bf_key key_ltb_trans key_ltb_total x y z). Qed.
Lemma bf_eqv_key x y : eqv bf_ltb x y = true -> bf_key x = bf_key y.
Proof. apply (eqv_by_key key_ltb bf_key key_ltb_irrefl key_ltb_total). Qed.

Lemma r2_closing_key k rows v : r2_closing k rows = Some v -> In k (r2s_keys rows).
Proof.
  unfold r2s_keys. rewrite nodup_In. revert v. induction rows as [|r rows IH]; intros v; cbn [r2_closing]; [discriminate|].
  intros H. cbn [filter]. destruct (r2_closing k rows) as [v'|].
  - destruct (r2_is_booking r); [right|]; apply (IH v'); reflexivity.
  - destruct (r2_is_booking r); [|discriminate H]. destruct (key_eq_dec (r2_key_of r) k) as [e|n]; [|discriminate H].
    left. exact e.
Qed.

Lemma r2s_closings_in rows d c v : In (mkBalFact d c v) (r2s_closings rows) <-> r2_closing (d, c) rows = Some v.
Proof.
  unfold r2s_closings. rewrite in_flat_map. split.
  - intros ([d' c'] & _ & Hin). cbn [fst snd] in Hin. destruct (r2_closing (d', c') rows) as [v'|] eqn:E; [|destruct Hin].
    destruct Hin as [Hin|[]]. injection Hin. intros; subst. exact E.
  - intros H. exists (d, c). split; [eapply r2_closing_key; exact H|]. rewrite H. left. reflexivity.
Qed.

Lemma r2s_closings_keys rows :
  map bf_key (r2s_closings rows) = filter (fun k => is_some (r2_closing k rows)) (r2s_keys rows).
Proof.
  unfold r2s_closings. induction (r2s_keys rows) as [|k ks IH]; [reflexivity|].
  cbn [flat_map filter]. rewrite map_app, IH. destruct k as [d c]. destruct (r2_closing (d, c) rows); reflexivity.
Qed.

Lemma r2s_closings_nodup rows : NoDup (map bf_key (r2s_closings rows)).
Proof. rewrite r2s_closings_keys. apply NoDup_filter. unfold r2s_keys. apply NoDup_nodup. Qed.

(* the balance map the importer ends with, sorted as addBalances sorts it, holds the statement's
   closing balances in the order of the specification *)
Lemma r2_balances_spec rows :
  map r2_bal_fact (sort_by r2_kv_ltb (r2_puts [] rows)) = r2s_balances rows.
Proof.
  unfold r2s_balances. rewrite <- (sort_by_map r2_kv_ltb bf_ltb r2_bal_fact) by (intros [[d c] v] [[d' c'] v']; reflexivity).
  assert (Hk : map bf_key (map r2_bal_fact (r2_puts [] rows)) = map fst (r2_puts [] rows)).
  { rewrite map_map. apply map_ext. intros [[d c] v]. reflexivity. }
  assert (Hnd : NoDup (map bf_key (map r2_bal_fact (r2_puts [] rows)))).
  { rewrite Hk. apply r2_puts_nodup. constructor. }
  apply (sort_by_perm_inj bf_ltb bf_ltb_irrefl bf_ltb_trans bf_ltb_cotrans).
  - apply NoDup_Permutation.
    + eapply NoDup_map_inv. exact Hnd.
    + eapply NoDup_map_inv. apply r2s_closings_nodup.
    + intros [d c v]. rewrite r2s_closings_in.
      pose proof (r2_puts_closing rows [] (d, c) v (NoDup_nil _)) as H.
      assert (Hin : In (mkBalFact d c v) (map r2_bal_fact (r2_puts [] rows)) <-> In ((d, c), v) (r2_puts [] rows)).
      { rewrite in_map_iff. split.
        - intros ([[d' c'] v'] & He & Hi). unfold r2_bal_fact in He. cbn [fst snd] in He. injection He. intros; subst. exact Hi.
        - intros Hi. exists ((d, c), v). split; [reflexivity|exact Hi]. }
      rewrite Hin, H. destruct (r2_closing (d, c) rows) as [v'|].
      * split; [intros ->; reflexivity|intros E; injection E; auto].
      * split; [intros []|discriminate].
  - intros x y Hx Hy E. apply bf_eqv_key in E. exact (NoDup_map_inj bf_key _ x y Hnd Hx Hy E).
Qed.

Lemma import_revolut2_spec acct feeacct rows : forallb r2_wf_row rows = true ->
  import_revolut2 acct feeacct (CRec r2_header :: map CRec rows) = MOk (r2s_directives acct feeacct rows).
Proof.
  intros Hwf. cbn [import_revolut2]. rewrite r2_header_self. cbn [mbind]. rewrite (r2_rows_ok acct feeacct rows [] Hwf).
  cbn [mbind fst snd]. unfold r2s_directives. rewrite <- r2_balances_spec. f_equal. f_equal.
  unfold r2_assertions, r2_assertions_pinned. rewrite map_map. apply map_ext. intros [[d c] v]. reflexivity.
Qed.

Theorem revolut2_faithful acct feeacct rows :
  acct <> tbd_account -> acct <> feeacct -> forallb r2_wf_row rows = true ->
  exists ts bals,
    import_revolut2 acct feeacct (CRec r2_header :: map CRec rows) =
      MOk (map DTxn ts ++ map (assertion_of acct) bals) /\
    Forall2 (fun r t => books_b acct (r2_fact r) (r2_legs acct feeacct r) None t) (filter r2_is_booking rows) ts /\
    map t_desc ts = map build_desc (map r2_text (filter r2_is_booking rows)) /\
    NoDup (map (fun b => (bf_date b, bf_com b)) bals) /\
    (forall d c v, In (mkBalFact d c v) bals <-> r2_closing (d, c) rows = Some v).
Proof.
  intros H1 H2 Hwf.
  destruct (bookings_faithful acct r2_fact r2_text (r2_legs acct feeacct) (fun _ => None) (filter r2_is_booking rows))
    as (ts & E & Hb & Hd); [intros r _ c; apply r2_legs_effect; assumption|].
  pose proof (sort_by_perm bf_ltb (r2s_closings rows)) as Hperm.
  exists ts, (r2s_balances rows). split; [|split; [exact Hb|split; [exact Hd|split]]].
  - rewrite <- E. apply import_revolut2_spec, Hwf.
  - eapply Permutation_NoDup; [apply Permutation_map, Permutation_sym, Hperm|apply r2s_closings_nodup].
  - intros d c v. rewrite <- r2s_closings_in.
    split; apply Permutation_in; [exact Hperm|apply Permutation_sym, Hperm].
Qed.

Lemma rv_combi_ok f c q : rv_other f = Some (c, q) -> rv_combi f = MOk (c, q).
Proof.
  unfold rv_other, rv_combi, rv_decimal, rv_dec. destruct (ufields f) as [|x [|y [|z l]]]; try discriminate.
  destruct (valid_name x); [|discriminate]. cbn [negb].
  destruct (new_from_string (remove_byte 39 y)); [|discriminate]. intros H. injection H. intros; subst. reflexivity.
Qed.

Definition rv_step (acct : account) (cur : commodity) (last : Z) (r : list str) : list directive :=
  (if Z.eqb (rv_date r) last then [] else [assertion_of acct (mkBalFact (rv_date r) cur (rv_balance r))]) ++
  [booking_directive (rv_fact cur r) (rv_text r) (rv_legs acct cur r) None].

Lemma rv_amount_ok r :
  xorb (is_empty (field r 2)) (is_empty (field r 3)) = true ->
  is_some (rv_dec (if is_empty (field r 2) then field r 3 else field r 2)) = true ->
  (if negb (is_empty (field r 2)) && is_empty (field r 3)
   then match rv_decimal (field r 2) with Some q => MOk (mul_sign true q) | None => MErr e_amount end
   else if is_empty (field r 2) && negb (is_empty (field r 3))
   then match rv_decimal (field r 3) with Some q => MOk (mul_sign false q) | None => MErr e_amount end
   else MErr e_amount) = MOk (rv_signed r).
Proof.
  intros Hx Ha. unfold rv_signed. change rv_decimal with rv_dec.
  destruct (xorb_cases _ _ Hx) as [[H2 H3]|[H2 H3]]; rewrite H2, H3 in *; cbn [negb andb];
    apply is_some_inv in Ha as [a ->]; cbn [dec_or0].
  - rewrite mul_sign_pos. reflexivity.
  - rewrite mul_sign_neg. reflexivity.
Qed.

Lemma rv_row acct cur last r : rv_wf_row r = true ->
  rv_booking acct cur last r = MOk (rv_step acct cur last r, rv_date r).
Proof.
  unfold rv_wf_row. intros [[[[[Hl Hd]%andb_prop Hb]%andb_prop Hx]%andb_prop Ha]%andb_prop Hk]%andb_prop.
  apply is_some_inv in Hd as [d Hd]. apply is_some_inv in Hb as [b Hb].
  unfold rv_booking, fld_p. rewrite Hl. apply Nat.eqb_eq in Hl. rewrite !fld_field by (rewrite Hl; reflexivity).
  rewrite Hd, (rv_amount_ok r Hx Ha). change rv_decimal with rv_dec. rewrite Hb. cbn [negb].
  unfold rv_step, booking_directive, legs_txn, rv_fact, rv_date, rv_balance, rv_text, rv_legs, rv_exchange in *.
  cbn [re_date]. rewrite Hd, Hb. cbn [date_or0 dec_or0].
  change (rv_kind r) with (if rv_is_sell (field r 1) then RvSell else if rv_is_buy (field r 1) then RvBuy else RvPlain) in *.
  destruct (rv_is_sell (field r 1)); [|destruct (rv_is_buy (field r 1))].
  - apply is_some_inv in Hk as [[c q] Hk]. rewrite Hk, (rv_combi_ok _ _ _ Hk). destruct (d =? last)%Z; reflexivity.
  - destruct (rv_other (field r 5)) as [[c q]|] eqn:Ho; [|discriminate Hk]. rewrite (rv_combi_ok _ _ _ Ho).
    destruct (d =? last)%Z; reflexivity.
  - destruct (d =? last)%Z; reflexivity.
Qed.

Lemma rv_rows_ok acct cur rows : forall last, forallb rv_wf_row rows = true ->
  rv_rows acct cur last (map CRec rows) = MOk (rvs_weave acct cur last rows).
Proof.
  induction rows as [|r rows IH]; intros last Hwf; [reflexivity|].
  cbn [forallb] in Hwf. apply andb_prop in Hwf. destruct Hwf as [Hr Hrs].
  cbn [map rv_rows rvs_weave]. rewrite (rv_row acct cur last r Hr). cbn [mbind fst snd]. rewrite (IH _ Hrs). cbn [mbind].
  unfold rv_step. rewrite <- app_assoc. reflexivity.
Qed.

Lemma span_letters cur rest : forallb is_alpha cur = true ->
  span is_alpha (cur ++ 41%Z :: rest) = (cur, 41%Z :: rest).
Proof.
  induction cur as [|c cur IH]; intros H; [reflexivity|].
  cbn [forallb] in H. apply andb_prop in H. destruct H as [Hc Hcur].
  cbn [app span]. rewrite Hc, (IH Hcur). reflexivity.
Qed.

Lemma is_prefix_app p s : is_prefix p (p ++ s) = true.
Proof. induction p as [|c p IH]; cbn [app is_prefix]; [destruct s; reflexivity|]. rewrite Z.eqb_refl. exact IH. Qed.

Lemma rv_cur_ok cur : forallb is_alpha cur = true -> cur <> [] ->
  rv_cur (s_paid_out ++ cur ++ [41%Z]) = Some cur.
Proof.
  intros Hl Hne. assert (H : rv_cur_here (s_paid_out ++ cur ++ [41%Z]) = Some cur).
  { unfold rv_cur_here. rewrite is_prefix_app. rewrite skipn_app, skipn_all, Nat.sub_diag. cbn [app skipn].
    rewrite span_letters by assumption. destruct cur; [contradiction|reflexivity]. }
  destruct (s_paid_out ++ cur ++ [41%Z]); cbn [rv_cur]; rewrite H; reflexivity.
Qed.

Lemma rv_legs_effect acct cur r c :
  acct <> tbd_account -> acct <> valuation_account_for acct ->
  legs_effect acct c (rv_legs acct cur r) == expected (re_changes (rv_fact cur r)) c.
Proof.
  intros H1 H2. unfold rv_legs, rv_fact. cbn [re_changes].
  destruct (rv_exchange r) as [[oc oq]|]; cbn [legs_effect expected fold_right fst snd];
    rewrite !leg_effect_in by assumption; reflexivity.
Qed.

Lemma import_revolut_spec acct cur header rows :
  len_is header 9 = true -> field header 2 = s_paid_out ++ cur ++ [41%Z] ->
  forallb is_alpha cur = true -> cur <> [] -> forallb rv_wf_row rows = true ->
  import_revolut acct (CRec header :: map CRec rows) = MOk (rvs_weave acct cur rvs_zero_day rows).
Proof.
  intros Hl Hh Hc Hne Hwf. cbn [import_revolut]. unfold rv_header, fld_p. rewrite Hl, fld_field.
  - rewrite Hh, (rv_cur_ok cur Hc Hne). cbn [negb mbind]. apply rv_rows_ok, Hwf.
  - unfold len_is in Hl. apply Nat.eqb_eq in Hl. rewrite Hl. reflexivity.
Qed.

(* the specification's statement is the weave of its transactions *)
Lemma rv_weave_bookings acct cur rows : forall ts last,
  map (fun r => booking_directive (rv_fact cur r) (rv_text r) (rv_legs acct cur r) None) rows = map DTxn ts ->
  rvs_weave acct cur last rows = rv_weave acct cur last rows ts.
Proof.
  induction rows as [|r rows IH]; intros [|t ts] last E; try discriminate E; [reflexivity|].
  cbn [map] in E. injection E as <- Ets. cbn [rvs_weave rv_weave]. rewrite (IH ts _ Ets). reflexivity.
Qed.

Lemma legs_effect_app a c l1 l2 : legs_effect a c (l1 ++ l2) == legs_effect a c l1 + legs_effect a c l2.
Proof.
  unfold legs_effect. induction l1 as [|l l1 IH]; cbn [app fold_right]; [ring|]. rewrite IH. ring.
Qed.

Lemma expected_app l1 l2 c : expected (l1 ++ l2) c == expected l1 c + expected l2 c.
Proof.
  unfold expected. induction l1 as [|x l1 IH]; cbn [app fold_right]; [ring|]. rewrite IH. ring.
Qed.

(* fees: each leaves the account for the fee account *)
Lemma fee_legs_effect acct feeacct c fees : acct <> feeacct ->
  legs_effect acct c (map (fun f => mkLeg acct feeacct (fst f) (snd f)) fees) ==
  expected (map (fun f : commodity * dec => (fst f, neg (snd f))) fees) c.
Proof.
  intros H. induction fees as [|[fc fq] fees IH]; [reflexivity|].
  change (legs_effect acct c ([mkLeg acct feeacct fc fq] ++ map (fun f => mkLeg acct feeacct (fst f) (snd f)) fees) ==
          expected ([(fc, neg fq)] ++ map (fun f : commodity * dec => (fst f, neg (snd f))) fees) c).
  rewrite legs_effect_app, expected_app, IH, one_out_effect by assumption. reflexivity.
Qed.

Lemma ws_header_self : ws_header_ok ws_header ws_header = MOk tt.
Proof. vm_compute. reflexivity. Qed.

Lemma ws_fee_spec acct feeacct a c : ws_fee_ok a c = true ->
  ws_fee acct feeacct a c = MOk (map (fun f => mkLeg acct feeacct (fst f) (snd f)) (ws_fee_of a c)).
Proof.
  unfold ws_fee_ok, ws_fee, ws_fee_of. destruct (is_empty c); [reflexivity|]. cbn [orb].
  intros H. apply andb_prop in H. destruct H as [Hq Hz]. apply is_some_inv in Hq. destruct Hq as [q Hq].
  rewrite Hq in *. cbn [dec_or0] in *. destruct (is_zero q); [reflexivity|]. cbn [orb] in Hz. rewrite Hz. reflexivity.
Qed.

(* the specification's direction is the importer's *)
Lemma ws_dir_of_direction r :
  ws_dir_of r = match ws_direction (field r 2) with WOut => WsOut | WIn => WsIn | WNeutral => WsNeutral | WBad => WsOther end.
Proof.
  unfold ws_dir_of, ws_direction, s_out, s_in, s_neutral.
  destruct (str_eqb (field r 2) _); [reflexivity|]. destruct (str_eqb (field r 2) _); [reflexivity|].
  destruct (str_eqb (field r 2) _); reflexivity.
Qed.

Lemma ws_row rep acct feeacct trading r : ws_wf_row r = true ->
  ws_booking rep acct feeacct trading r =
  MOk (map (fun e => booking_directive (en_fact e) (en_text e) (en_legs e) None) (ws_entries rep acct feeacct trading r)).
Proof.
  intros Hwf. unfold ws_wf_row in Hwf. apply andb_prop in Hwf as [[[Hl Hlen]%andb_prop Hd]%andb_prop Hrest].
  apply is_some_inv in Hd as [d Hd].
  pose proof (record_fields r 18 Hl) as Er. cbn [map seq] in Er. rewrite Er at 1. clear Er.
  unfold ws_booking, prefix10. rewrite Hlen, Hd.
  unfold ws_entries. rewrite ws_dir_of_direction in *. change (ws_cancelled r) with (str_eqb (field r 1) s_cancelled) in *.
  destruct (str_eqb (field r 1) s_cancelled); [reflexivity|]. cbn [orb] in Hrest.
  apply andb_prop in Hrest as [[[[[[Hf1 Hf2]%andb_prop Hs]%andb_prop Ht]%andb_prop Hsc]%andb_prop Htc]%andb_prop Hdir].
  rewrite (ws_fee_spec acct feeacct _ _ Hf1), (ws_fee_spec acct feeacct _ _ Hf2). cbn [mbind].
  apply is_some_inv in Hs as [src Hs]. apply is_some_inv in Ht as [tgt Ht].
  unfold ws_text_payment, ws_text_convert, ws_id_text, ws_date, ws_converted, ws_fees, ws_scur, ws_tcur, ws_src, ws_tgt in *.
  rewrite Hd, Hs, Ht, Hsc, Htc. cbn [negb orb date_or0 dec_or0]. rewrite !map_app, <- !app_assoc.
  destruct (str_eqb (field r 11) (field r 14)); cbn [negb];
    (destruct (ws_direction (field r 2)); [| | |discriminate Hdir]); try destruct rep; reflexivity.
Qed.

Lemma ws_rows_ok rep acct feeacct trading rows : forallb ws_wf_row rows = true ->
  ws_rows rep acct feeacct trading (map CRec rows) = MOk (ws_directives rep acct feeacct trading rows).
Proof.
  unfold ws_directives. induction rows as [|r rows IH]; intros Hwf; [reflexivity|].
  cbn [forallb] in Hwf. apply andb_prop in Hwf. destruct Hwf as [Hr Hrs].
  cbn [map ws_rows flat_map]. rewrite (ws_row rep acct feeacct trading r Hr). cbn [mbind]. rewrite (IH Hrs). cbn [mbind].
  rewrite map_app. reflexivity.
Qed.

Lemma import_wise_spec rep acct feeacct trading rows : forallb ws_wf_row rows = true ->
  import_wise rep acct feeacct trading (CRec ws_header :: map CRec rows) = MOk (ws_directives rep acct feeacct trading rows).
Proof. intros Hwf. cbn [import_wise]. rewrite ws_header_self. apply ws_rows_ok, Hwf. Qed.

Lemma ws_entry_effect rep acct feeacct trading r e c :
  acct <> tbd_account -> acct <> feeacct -> acct <> trading ->
  In e (ws_entries rep acct feeacct trading r) ->
  legs_effect acct c (en_legs e) == expected (re_changes (en_fact e)) c.
Proof.
  intros H1 H2 H3 Hin. unfold ws_entries in Hin.
  destruct (ws_cancelled r); [destruct Hin|].
  assert (Hconv : legs_effect acct c [mkLeg acct trading (ws_scur r) (ws_src r); mkLeg trading acct (ws_tcur r) (ws_tgt r)] ==
                  expected [(ws_scur r, neg (ws_src r)); (ws_tcur r, ws_tgt r)] c).
  { change (legs_effect acct c ([mkLeg acct trading (ws_scur r) (ws_src r)] ++ [mkLeg trading acct (ws_tcur r) (ws_tgt r)]) ==
            expected ([(ws_scur r, neg (ws_src r))] ++ [(ws_tcur r, ws_tgt r)]) c).
    rewrite legs_effect_app, expected_app, one_out_effect, one_in_effect by assumption. reflexivity. }
  assert (Hfees : forall ls chs, legs_effect acct c ls == expected chs c ->
            legs_effect acct c (map (fun f => mkLeg acct feeacct (fst f) (snd f)) (ws_fees r) ++ ls) ==
            expected (map (fun f : commodity * dec => (fst f, neg (snd f))) (ws_fees r) ++ chs) c).
  { intros ls chs H. rewrite legs_effect_app, expected_app, H, (fee_legs_effect acct feeacct c _ H2). reflexivity. }
  destruct (ws_converted r); destruct (ws_dir_of r); cbn [In] in Hin;
    repeat (destruct Hin as [<-|Hin]; [try destruct rep; cbn [en_legs en_fact re_changes]|]); try contradiction;
    try apply Hfees; first [exact Hconv|apply one_out_effect; assumption|apply one_in_effect; assumption].
Qed.

Definition sq_record_of (r : list str) : sq_record :=
  mkSq (sqs_date r) (field r 1) (field r 2) (field r 4) (field r 5)
       (if is_empty (field r 3) then None else Some (field r 3))
       (sqs_dec r 6) (sqs_dec r 7) (sqs_dec r 8) (sqs_dec r 9) (sqs_dec r 10) (sqs_dec r 11) (field r 12).

Definition tentry_txn (e : tentry) : txn :=
  mkTxn (re_date (en_fact (fst e))) (build_desc (en_text (fst e))) (legs_postings (en_legs (fst e))) (snd e).

Lemma sq_line_ok r : sqs_wf_row r = true -> sq_line r = MOk (sq_record_of r).
Proof.
  unfold sqs_wf_row. intros [[[[[[[[[[[Hl Hlen]%andb_prop Hd]%andb_prop Hsym]%andb_prop H6]%andb_prop H7]%andb_prop H8]%andb_prop H9]%andb_prop H10]%andb_prop H11]%andb_prop Hcur]%andb_prop _]%andb_prop.
  unfold sq_record_of, sqs_date, sqs_dec, sqs_dec_ok in *.
  apply is_some_inv in Hd as [d Hd].
  apply is_some_inv in H6 as [x6 H6]. apply is_some_inv in H7 as [x7 H7]. apply is_some_inv in H8 as [x8 H8].
  apply is_some_inv in H9 as [x9 H9]. apply is_some_inv in H10 as [x10 H10]. apply is_some_inv in H11 as [x11 H11].
  pose proof (record_fields r 13 Hl) as Er. cbn [map seq] in Er. rewrite Er at 1. clear Er.
  unfold sq_line, prefix10, sq_decimal. rewrite Hlen, Hd, H6, H7, H8, H9, H10, H11, Hcur. cbn [negb date_or0 dec_or0].
  destruct (is_empty (field r 3)); cbn [negb andb orb] in *; [reflexivity|]. rewrite Hsym. reflexivity.
Qed.

(* the kinds of the specification are told apart by the importer's tests, in its order *)
Lemma sqs_kind_tests r : sqs_kind r =
  let t := field r 2 in
  if str_eqb t s_kauf || str_eqb t s_verkauf then SqTrade
  else if has_str sq_forex_types t then SqForex
  else if has_str sq_dividend_types t then SqDividend
  else if str_eqb t s_depot then SqCustody
  else if has_str sq_transfer_types t then SqTransfer
  else if str_eqb t s_zins then SqInterest else SqOther.
Proof. reflexivity. Qed.

Lemma sq_step_spec acct dividend interest tax fee trading pending r : sqs_wf_row r = true ->
  sq_step acct dividend interest tax fee trading (option_map sq_record_of pending) (sq_record_of r) =
  match sqs_kind r with
  | SqTrade => MOk ([DTxn (tentry_txn (sqs_trade acct fee trading r))], option_map sq_record_of pending)
  | SqForex => match pending with
               | None => MOk ([], Some (sq_record_of r))
               | Some l => MOk ([DTxn (tentry_txn (sqs_exchange acct trading l r))], None)
               end
  | _ => match pending with
         | Some _ => MErr e_forex
         | None => MOk ([DTxn (tentry_txn (sqs_single acct dividend interest tax fee r))], None)
         end
  end.
Proof.
  intros Hwf. unfold sqs_wf_row in Hwf. apply andb_prop in Hwf. destruct Hwf as [_ Hsym].
  unfold sq_step, sq_symbol_p, sqs_single. rewrite sqs_kind_tests in *. cbv zeta in *.
  cbn [sq_type sq_record_of sq_symbol sq_currency sq_net sq_fee sq_quantity sq_price sq_order sq_name sq_isin sq_date].
  destruct (str_eqb (field r 2) s_kauf || str_eqb (field r 2) s_verkauf).
  { apply negb_true_iff in Hsym. rewrite Hsym. reflexivity. }
  destruct (has_str sq_forex_types (field r 2)).
  { destruct pending as [l|]; reflexivity. }
  destruct pending as [l|]; cbn [option_map];
    [destruct (has_str sq_dividend_types (field r 2)); [reflexivity|];
     destruct (str_eqb (field r 2) s_depot); [reflexivity|];
     destruct (has_str sq_transfer_types (field r 2)); [reflexivity|];
     destruct (str_eqb (field r 2) s_zins); reflexivity|].
  destruct (has_str sq_dividend_types (field r 2)).
  { apply negb_true_iff in Hsym. rewrite Hsym. reflexivity. }
  destruct (str_eqb (field r 2) s_depot); [reflexivity|].
  destruct (has_str sq_transfer_types (field r 2)); [reflexivity|].
  destruct (str_eqb (field r 2) s_zins); reflexivity.
Qed.

Lemma sq_rows_ok acct dividend interest tax fee trading rows : forall pending,
  sqs_wf (is_some pending) rows = true ->
  sq_rows acct dividend interest tax fee trading (option_map sq_record_of pending) (map CRec rows) =
  MOk (map (fun e : tentry => booking_directive (en_fact (fst e)) (en_text (fst e)) (en_legs (fst e)) (snd e))
           (sqs_entries acct dividend interest tax fee trading pending rows)).
Proof.
  induction rows as [|r rows IH]; intros pending Hwf; [reflexivity|].
  cbn [sqs_wf] in Hwf. apply andb_prop in Hwf. destruct Hwf as [Hr Hrest].
  cbn [map sq_rows sqs_entries]. rewrite (sq_line_ok r Hr). cbn [mbind].
  rewrite (sq_step_spec acct dividend interest tax fee trading pending r Hr).
  destruct (sqs_kind r).
  3-7: apply andb_prop in Hrest; destruct Hrest as [Hp Hrest]; (destruct pending; [discriminate Hp|]);
    cbn [mbind fst snd]; pose proof (IH None Hrest) as E; cbn [option_map] in E; rewrite E; reflexivity.
  - cbn [mbind fst snd]. rewrite (IH pending Hrest). reflexivity.
  - destruct pending as [l|]; cbn [mbind fst snd is_some negb] in *.
    + pose proof (IH None Hrest) as E. cbn [option_map] in E. rewrite E. reflexivity.
    + pose proof (IH (Some r) Hrest) as E. cbn [option_map] in E. rewrite E. reflexivity.
Qed.

Section SwissquoteEffects.
  Variables acct dividend interest tax fee trading : account.
  Hypothesis Htbd : acct <> tbd_account.
  Hypothesis Hdiv : acct <> dividend.
  Hypothesis Hint : acct <> interest.
  Hypothesis Htax : acct <> tax.
  Hypothesis Hfee : acct <> fee.
  Hypothesis Htr : acct <> trading.

  Lemma sqs_trade_effect r c :
    legs_effect acct c (en_legs (fst (sqs_trade acct fee trading r))) == expected (re_changes (en_fact (fst (sqs_trade acct fee trading r)))) c.
  Proof.
    unfold sqs_trade. cbn [fst en_legs en_fact re_changes legs_effect expected fold_right snd].
    rewrite !leg_effect_in by assumption.
    destruct (str_eq_dec (sqs_sym r) c); destruct (str_eq_dec (sqs_cur r) c); rewrite ?dvalue_add, ?dvalue_neg; ring.
  Qed.

  Lemma sqs_exchange_effect l r c :
    legs_effect acct c (en_legs (fst (sqs_exchange acct trading l r))) == expected (re_changes (en_fact (fst (sqs_exchange acct trading l r)))) c.
  Proof.
    unfold sqs_exchange. cbn [fst en_legs en_fact re_changes legs_effect expected fold_right snd].
    rewrite !leg_effect_in by assumption. reflexivity.
  Qed.

  Lemma sqs_single_effect r c :
    legs_effect acct c (en_legs (fst (sqs_single acct dividend interest tax fee r))) ==
    expected (re_changes (en_fact (fst (sqs_single acct dividend interest tax fee r)))) c.
  Proof.
    unfold sqs_single. destruct (sqs_kind r); cbn [fst en_legs en_fact re_changes]; try (apply one_in_effect; assumption).
    destruct (is_zero (sqs_dec r 8)); [apply one_in_effect; assumption|].
    change (legs_effect acct c ([mkLeg dividend acct (sqs_cur r) (sqs_dec r 7)] ++ [mkLeg acct tax (sqs_cur r) (sqs_dec r 8)]) ==
            expected ([(sqs_cur r, sqs_dec r 7)] ++ [(sqs_cur r, neg (sqs_dec r 8))]) c).
    rewrite legs_effect_app, expected_app, one_in_effect, one_out_effect by assumption. reflexivity.
  Qed.

  Lemma sqs_entries_effect rows : forall pending e c,
    In e (sqs_entries acct dividend interest tax fee trading pending rows) ->
    legs_effect acct c (en_legs (fst e)) == expected (re_changes (en_fact (fst e))) c.
  Proof.
    induction rows as [|r rows IH]; intros pending e c Hin; [destruct Hin|].
    cbn [sqs_entries] in Hin. destruct (sqs_kind r).
    2: destruct pending as [l|]; [|exact (IH _ _ _ Hin)].
    all: destruct Hin as [<-|Hin]; [|exact (IH _ _ _ Hin)].
    3-7: apply sqs_single_effect.
    - apply sqs_trade_effect.
    - apply sqs_exchange_effect.
  Qed.
End SwissquoteEffects.

Lemma import_swissquote_spec acct dividend interest tax fee trading header rows : sqs_wf false rows = true ->
  import_swissquote acct dividend interest tax fee trading (CRec header :: map CRec rows) =
  MOk (sqs_directives acct dividend interest tax fee trading rows).
Proof. exact (sq_rows_ok acct dividend interest tax fee trading rows None). Qed.

(* evaluates the comparisons of the constant section name sec with the section constants of ib_line *)
Ltac ev_secs sec :=
  repeat match goal with
  | |- context [str_eqb sec ?b] => let v := eval vm_compute in (str_eqb sec b) in change (str_eqb sec b) with v
  | H : context [str_eqb sec ?b] |- _ => let v := eval vm_compute in (str_eqb sec b) in change (str_eqb sec b) with v in H
  end.

Lemma s_data_refl : str_eqb s_data s_data = true.
Proof. reflexivity. Qed.

Section IBRows.
  Variables acct dividend interest tax fee trading : account.
  Variable st : ib_state.
  Hypothesis Htbd : acct <> tbd_account.
  Hypothesis Hdiv : acct <> dividend.
  Hypothesis Hint : acct <> interest.
  Hypothesis Htax : acct <> tax.
  Hypothesis Hfee : acct <> fee.
  Hypothesis Htr : acct <> trading.

  Lemma one_in_books other cur q d desc tg : acct <> other ->
    books_b acct (mkEffect d [(cur, q)]) [mkLeg other acct cur q] tg
            (mkTxn d desc (legs_postings [mkLeg other acct cur q]) tg).
  Proof.
    intros H. apply books_b_intro; [reflexivity|]. intros c. cbn [re_changes].
    apply one_in_effect, H.
  Qed.

  (* Deposits & Withdrawals,Data,<cur>,<date>,<description>,<amount> *)
  Lemma ib_deposit_row cur day desc amt d q :
    str_eqb cur s_total = false -> is_empty day = false -> valid_name cur = true ->
    parse_iso day = Some d -> ibs_num2 amt = Some q ->
    exists t, ib_line acct dividend interest tax fee trading st [s_deposits; s_data; cur; day; desc; amt] = MOk (st, [DTxn t]) /\
      books_b acct (mkEffect d [(cur, q)]) [mkLeg tbd_account acct cur q] None t.
  Proof.
    intros H1 H2 H3 H4 H5. unfold ibs_num2, ibs_num in H5.
    unfold ib_line. ev_secs s_deposits. cbn [conds fld nth_error]. unfold eqs. rewrite s_data_refl, H1, H2. cbn [negb mbind].
    unfold fld_p, fld. cbn [nth_error]. unfold ib_com. rewrite H3. cbn [mbind]. unfold ib_date. rewrite H4. cbn [mbind].
    unfold ib_rounded, ib_decimal. destruct (new_from_string (remove_byte 44%Z amt)); [|discriminate H5].
    injection H5 as H5. rewrite H5. cbn [ib_dec mbind]. eexists. split; [reflexivity|].
    apply one_in_books. assumption.
  Qed.

  (* Dividends,Data,<cur>,<date>,<description>,<amount> *)
  Lemma ib_dividend_row cur day desc amt d q :
    is_prefix s_total cur = false -> valid_name cur = true -> parse_iso day = Some d -> ibs_num amt = Some q ->
    ibs_security desc <> [] ->
    exists t, ib_line acct dividend interest tax fee trading st [s_dividends; s_data; cur; day; desc; amt] = MOk (st, [DTxn t]) /\
      books_b acct (mkEffect d [(cur, q)]) [mkLeg dividend acct cur q] (Some [ibs_security desc]) t /\
      t_desc t = build_desc desc.
  Proof.
    intros H1 H3 H4 H5 H6. unfold ibs_num in H5.
    unfold ib_line. ev_secs s_dividends. cbn [conds fld nth_error]. unfold eqs. rewrite s_data_refl, H1. cbn [negb mbind andb].
    unfold len_is. cbn [length Nat.eqb]. unfold fld_p, fld. cbn [nth_error]. unfold ib_com. rewrite H3. cbn [mbind].
    unfold ib_date. rewrite H4. cbn [mbind]. unfold ib_decimal. rewrite H5. cbn [ib_dec mbind].
    unfold ib_symbol. fold (ibs_security desc). destruct (ibs_security desc) eqn:E; [contradiction|]. cbn [mbind].
    eexists. split; [reflexivity|]. split; [|reflexivity]. apply one_in_books. assumption.
  Qed.

  (* Interest,Data,<cur>,<date>,<description>,<amount> *)
  Lemma ib_interest_row cur day desc amt d q :
    is_prefix s_total cur = false -> valid_name cur = true -> parse_iso day = Some d -> ibs_num amt = Some q ->
    exists t, ib_line acct dividend interest tax fee trading st [s_interest; s_data; cur; day; desc; amt] = MOk (st, [DTxn t]) /\
      books_b acct (mkEffect d [(cur, q)]) [mkLeg interest acct cur q] (Some [cur]) t /\
      t_desc t = build_desc desc.
  Proof.
    intros H1 H3 H4 H5. unfold ibs_num in H5.
    unfold ib_line. ev_secs s_interest. cbn [conds fld nth_error]. unfold eqs. rewrite s_data_refl, H1. cbn [negb mbind andb].
    unfold len_is. cbn [length Nat.eqb]. unfold fld_p, fld. cbn [nth_error]. unfold ib_com. rewrite H3. cbn [mbind].
    unfold ib_date. rewrite H4. cbn [mbind]. unfold ib_decimal. rewrite H5. cbn [ib_dec mbind].
    eexists. split; [reflexivity|]. split; [|reflexivity]. apply one_in_books. assumption.
  Qed.

  (* Withholding Tax,Data,<cur>,<date>,<description>,<amount>,<code> *)
  Lemma ib_withholding_row cur day desc amt code d q :
    is_prefix s_total cur = false -> valid_name cur = true -> parse_iso day = Some d -> ibs_num amt = Some q ->
    ibs_security desc <> [] ->
    exists t, ib_line acct dividend interest tax fee trading st [s_withholding; s_data; cur; day; desc; amt; code] = MOk (st, [DTxn t]) /\
      books_b acct (mkEffect d [(cur, q)]) [mkLeg tax acct cur q] (Some [ibs_security desc]) t /\
      t_desc t = build_desc desc.
  Proof.
    intros H1 H3 H4 H5 H6. unfold ibs_num in H5.
    unfold ib_line. ev_secs s_withholding. cbn [conds fld nth_error]. unfold eqs. rewrite s_data_refl, H1. cbn [negb mbind].
    unfold fld_p, fld. cbn [nth_error]. unfold ib_com. rewrite H3. cbn [mbind].
    unfold ib_date. rewrite H4. cbn [mbind]. unfold ib_decimal. rewrite H5. cbn [ib_dec mbind].
    unfold ib_symbol. fold (ibs_security desc). destruct (ibs_security desc) eqn:E; [contradiction|]. cbn [mbind].
    eexists. split; [reflexivity|]. split; [|reflexivity]. apply one_in_books. assumption.
  Qed.

  (* Trades,Data,Order,Stocks,<cur>,<symbol>,<date, time>,<quantity>,<price>,_,<proceeds>,<commission>,... (17 fields):
     the holding changes by the quantity ROUNDED to two places, the cash by the ROUNDED proceeds
     plus the (signed, unrounded) commission *)
  Lemma ib_stock_row cur sym stamp qs ps x9 prs fs x12 x13 x14 x15 x16 d qty price proceeds feeq :
    valid_name cur = true -> valid_name sym = true ->
    Nat.leb 10 (length stamp) = true -> parse_iso (firstn 10 stamp) = Some d ->
    ibs_num2 qs = Some qty -> ibs_num ps = Some price -> ibs_num2 prs = Some proceeds -> new_from_string fs = Some feeq ->
    exists t, ib_line acct dividend interest tax fee trading st
                [s_trades; s_data; s_order; s_stocks; cur; sym; stamp; qs; ps; x9; prs; fs; x12; x13; x14; x15; x16] = MOk (st, [DTxn t]) /\
      books_b acct (mkEffect d [(sym, qty); (cur, proceeds); (cur, feeq)])
              [mkLeg trading acct sym qty; mkLeg trading acct cur proceeds; mkLeg fee acct cur feeq] (Some [sym; cur]) t.
  Proof.
    intros H1 H2 H3 H4 H5 H6 H7 H8. unfold ibs_num2, ibs_num in *.
    unfold ib_line. ev_secs s_trades. cbn [conds fld nth_error]. unfold eqs.
    change (str_eqb s_data s_data) with true. change (str_eqb s_order s_order) with true.
    change (str_eqb s_stocks s_forex) with false. change (str_eqb s_stocks s_stocks) with true. cbn [mbind].
    unfold fld_p, fld. cbn [nth_error]. unfold ib_com. rewrite H1, H2. cbn [mbind].
    unfold ib_date10, prefix10, ib_date. rewrite H3, H4. cbn [mbind].
    unfold ib_rounded, ib_decimal.
    destruct (new_from_string (remove_byte 44%Z qs)); [|discriminate H5]. injection H5 as H5. rewrite H5.
    rewrite H6.
    destruct (new_from_string (remove_byte 44%Z prs)); [|discriminate H7]. injection H7 as H7. rewrite H7.
    rewrite H8. cbn [ib_dec mbind]. eexists. split; [reflexivity|].
    apply books_b_intro; [reflexivity|]. intros c. cbn [re_changes legs_effect expected fold_right fst snd].
    rewrite !leg_effect_in by assumption. reflexivity.
  Qed.
End IBRows.
