(* C13, us.interactivebrokers: the statement-level theorem.  Every well-formed record (Spec/ImpSpecIB.v,
   ibs_wf_row) makes ib_line emit exactly the directive of the item the specification assigns to
   it and move the importer state as the specification's context moves; the statement loop
   concatenates. *)
From Coq Require Import ZArith QArith List Bool Lia.
From Knut Require Import Model.Str Model.Dec Model.Date Model.Account Model.Ledger Model.Journal
     Model.Table Model.ImpCommonA Model.ImpCommonB Model.Imp.Interactivebrokers
     Spec.TableSpec Spec.ImpSpecA Spec.ImpSpecB Spec.ImpSpecIB
     Proofs.DecProofs Proofs.DecValue Proofs.DecRoundProofs Proofs.PairProofs Proofs.StrProofs
     Proofs.ImpReading Proofs.ImpProofsA Proofs.ImpProofsB.
Import ListNotations.
Open Scope bool_scope.

Ltac ib_words :=
  change ibs_data with s_data in *; change ibs_account_information with s_account_information in *;
  change ibs_base_currency with s_base_currency in *; change ibs_statement with s_statement in *;
  change ibs_period_word with s_period in *; change ibs_trades with s_trades in *; change ibs_order with s_order in *;
  change ibs_forex with s_forex in *; change ibs_stocks with s_stocks in *; change ibs_deposits with s_deposits in *;
  change ibs_total with s_total in *; change ibs_dividends with s_dividends in *; change ibs_interest with s_interest in *;
  change ibs_withholding with s_withholding in *; change ibs_open_positions with s_open_positions in *;
  change ibs_summary with s_summary in *; change ibs_forex_balances with s_forex_balances in *.

(* one more field: H says the record is longer *)
Ltac more H tl s := destruct tl as [|s tl]; [cbn [length Nat.leb] in H; discriminate H|].

Lemma cut_sep_cons sep c t :
  cut_sep sep (c :: t) =
  if is_prefix sep (c :: t) then Some ([], skipn (length sep) (c :: t))
  else match cut_sep sep t with Some (a, b) => Some (c :: a, b) | None => None end.
Proof. reflexivity. Qed.

Lemma cut_dash_spec s : cut_sep s_dash s = ibs_cut_dash s.
Proof.
  induction s as [|c t IH]; [reflexivity|].
  rewrite cut_sep_cons, IH. clear IH. destruct t as [|c2 [|c3 rest]].
  - unfold s_dash. cbn [is_prefix]. rewrite andb_false_r. reflexivity.
  - unfold s_dash. cbn [is_prefix]. rewrite !andb_false_r. reflexivity.
  - change (ibs_cut_dash (c :: c2 :: c3 :: rest)) with
      (if (c =? 32)%Z && (c2 =? 45)%Z && (c3 =? 32)%Z then Some ([], rest)
       else match ibs_cut_dash (c2 :: c3 :: rest) with Some (a, b) => Some (c :: a, b) | None => None end).
    unfold s_dash. cbn [is_prefix length skipn]. rewrite andb_true_r.
    rewrite (Z.eqb_sym 32 c), (Z.eqb_sym 45 c2), (Z.eqb_sym 32 c3), andb_assoc. reflexivity.
Qed.

Lemma before_dot_spec s :
  match cut_sep [46%Z] s with Some (a, _) => a | None => s end = ibs_before_dot s.
Proof.
  unfold ibs_before_dot. induction s as [|c t IH]; [reflexivity|].
  rewrite cut_sep_cons. cbn [is_prefix span]. rewrite andb_true_r, (Z.eqb_sym 46 c).
  destruct (c =? 46)%Z; cbn [negb]; [reflexivity|].
  destruct (span (fun c0 : Z => negb (c0 =? 46)%Z) t) as [a' b'] eqn:Es. cbn [fst] in *.
  destruct (cut_sep [46%Z] t) as [[a b]|]; rewrite IH; reflexivity.
Qed.

Open Scope Z_scope.

(* an amount with at most two decimals is read exactly *)
Lemma round2_exact d : -2 <= ex d -> (dvalue (round d 2) == dvalue d)%Q.
Proof.
  intros H. pose proof (round_spec d 2) as [He [Hb _]]. cbv zeta in Hb.
  rewrite Z.min_r in Hb by lia. change (- (2) - - (2)) with 0 in Hb. change (10 ^ 0) with 1 in Hb.
  assert (Hc : coef (round d 2) = scale_to d (-2)).
  { unfold coef_at in Hb. unfold scale_to, pow10. change (- (2)) with (-2) in *.
    set (P := coef d * 10 ^ (ex d - -2)) in *. lia. }
  rewrite <- (scale_to_value d (-2)) by lia. unfold dvalue at 1. rewrite He, Hc. reflexivity.
Qed.

Close Scope Z_scope.

Section IBStatement.
  Variables acct dividend interest tax fee trading : account.

  (* the importer state that corresponds to a context of the specification *)
  Definition st_of (ctx : ibs_ctx) : ib_state := mkIb (ibc_base ctx) (opt_or (ibc_end ctx) ibs_zero_day).
  (* the directive of an item *)
  Definition item_dir (i : ibs_item) : directive :=
    match i with IbTxn e => DTxn (tentry_txn e) | IbBal b => assertion_of acct b end.
  Definition line_ok (ctx : ibs_ctx) (r : list str) : Prop :=
    ib_line acct dividend interest tax fee trading (st_of ctx) r =
    MOk (st_of (ibs_next ctx r), map item_dir (ibs_row acct dividend interest tax fee trading ctx r)).

  (* the common start: the record has a second field; all definitions unfolded *)
  Ltac start sec Hwf Hlen Hk tl s1 :=
    intros Hwf; unfold line_ok, ibs_wf_row, ibs_next, ibs_row in *; apply andb_prop in Hwf; destruct Hwf as [Hlen Hk];
    destruct tl as [|s1 tl]; [vm_compute in Hlen; discriminate Hlen|];
    let K := fresh "K" in
    pose proof (eq_refl (ibs_kind (sec :: s1 :: tl))) as K; unfold ibs_kind at 2 in K;
    unfold ibs_min_fields, ib_line, field in *; cbn [nth] in *;
    ev_secs sec; cbn [orb andb negb] in *; rewrite K in *; clear K; ib_words; cbn [conds fld nth_error]; unfold eqs;
    (destruct (str_eqb s1 s_data) eqn:Ed; cbn [negb] in *; [|reflexivity]).

  (* a field that the specification reads as a name, a day, an amount is read by the importer as the same value *)
  Lemma ib_com_ok s : valid_name s = true -> ib_com s = MOk s.
  Proof. unfold ib_com. intros ->. reflexivity. Qed.

  Lemma ib_day_ok s : is_some (parse_iso s) = true -> ib_date s = MOk (ibs_day s).
  Proof. unfold ib_date, ibs_day. intros H. apply is_some_inv in H as [d ->]. reflexivity. Qed.

  (* the date of a trade: the first ten bytes of the date/time field *)
  Lemma stamp_ok s : ibs_stamp_ok s = true -> ib_date10 s = MOk (ibs_stamp_day s).
  Proof.
    unfold ibs_stamp_ok, ib_date10, prefix10, ibs_stamp_day. intros [Hl Hd]%andb_prop. rewrite Hl. apply ib_day_ok, Hd.
  Qed.

  Lemma ib_num_ok s : is_some (ibs_num s) = true -> ib_dec (ib_decimal s) = MOk (ibs_q s).
  Proof. unfold ibs_q. change (ib_decimal s) with (ibs_num s). intros H. apply is_some_inv in H as [q ->]. reflexivity. Qed.

  Lemma ib_num2_ok s : is_some (ibs_num2 s) = true -> ib_dec (ib_rounded s) = MOk (ibs_q2 s).
  Proof. unfold ibs_q2. change (ib_rounded s) with (ibs_num2 s). intros H. apply is_some_inv in H as [q ->]. reflexivity. Qed.

  Lemma ib_exact_ok s : is_some (new_from_string s) = true -> ib_dec (new_from_string s) = MOk (ibs_exact s).
  Proof. unfold ibs_exact. intros H. apply is_some_inv in H as [q ->]. reflexivity. Qed.

  Lemma line_account_information ctx tl :
    ibs_wf_row ctx (s_account_information :: tl) = true -> line_ok ctx (s_account_information :: tl).
  Proof.
    start s_account_information Hwf Hlen Hk tl s1.
    more Hlen tl s2. cbn [nth] in *.
    destruct (str_eqb s2 s_base_currency) eqn:Eb; cbn [mbind]; [|reflexivity].
    apply andb_prop in Hk. destruct Hk as [Hl Hc]. more Hl tl s3. cbn [nth] in *.
    unfold fld_p, fld. cbn [nth_error]. rewrite (ib_com_ok _ Hc). reflexivity.
  Qed.

  Lemma line_statement ctx tl :
    ibs_wf_row ctx (s_statement :: tl) = true -> line_ok ctx (s_statement :: tl).
  Proof.
    start s_statement Hwf Hlen Hk tl s1.
    more Hlen tl s2. cbn [nth] in *.
    destruct (str_eqb s2 s_period) eqn:Eb; cbn [mbind]; [|reflexivity].
    apply andb_prop in Hk. destruct Hk as [Hl Hp]. more Hl tl s3. cbn [nth] in *.
    unfold fld_p, fld. cbn [nth_error]. rewrite cut_dash_spec.
    unfold ibs_period in *. destruct (ibs_cut_dash s3) as [[a b]|]; [|discriminate Hp].
    rewrite cut_dash_spec.
    destruct (parse_month_d_y a) as [f|]; [|discriminate Hp].
    destruct (parse_month_d_y match ibs_cut_dash b with Some (x, _) => x | None => b end) as [t|]; [|discriminate Hp].
    reflexivity.
  Qed.

  Lemma line_trades ctx tl : ibs_wf_row ctx (s_trades :: tl) = true -> line_ok ctx (s_trades :: tl).
  Proof.
    start s_trades Hwf Hlen Hk tl s1.
    more Hlen tl s2. more Hlen tl s3. cbn [nth] in *.
    destruct (str_eqb s2 s_order) eqn:Eo; cbn [mbind]; [|reflexivity].
    destruct (str_eqb s3 s_forex) eqn:Ef; cbn [mbind].
    - (* a currency trade *)
      apply andb_prop in Hk as [[[[[[[[Hl Hb]%andb_prop Hc]%andb_prop Hs]%andb_prop Hd]%andb_prop Hq]%andb_prop Hp]%andb_prop Hpr]%andb_prop Hfe].
      more Hl tl s4. more Hl tl s5. more Hl tl s6. more Hl tl s7. more Hl tl s8. more Hl tl s9. more Hl tl s10. more Hl tl s11.
      unfold ibs_forex_trade, field. cbn [nth] in *. cbn [st_of ib_base].
      destruct (ibc_base ctx) as [base|]; [|discriminate Hb]. cbn [opt_or].
      unfold fld_p, fld. cbn [nth_error].
      rewrite (ib_com_ok _ Hc), before_dot_spec, (ib_com_ok _ Hs), (stamp_ok _ Hd), (ib_num2_ok _ Hq), (ib_num_ok _ Hp), (ib_num2_ok _ Hpr), (ib_num2_ok _ Hfe).
      reflexivity.
    - destruct (str_eqb s3 s_stocks) eqn:Es; cbn [mbind]; [|reflexivity].
      (* a security trade *)
      apply andb_prop in Hk as [[[[[[[Hl Hc]%andb_prop Hs]%andb_prop Hd]%andb_prop Hq]%andb_prop Hp]%andb_prop Hpr]%andb_prop Hfe].
      more Hl tl s4. more Hl tl s5. more Hl tl s6. more Hl tl s7. more Hl tl s8. more Hl tl s9. more Hl tl s10. more Hl tl s11.
      unfold ibs_stock_trade, field. cbn [nth] in *.
      unfold fld_p, fld. cbn [nth_error].
      rewrite (ib_com_ok _ Hc), (ib_com_ok _ Hs), (stamp_ok _ Hd), (ib_num2_ok _ Hq), (ib_num_ok _ Hp), (ib_num2_ok _ Hpr), (ib_exact_ok _ Hfe).
      reflexivity.
  Qed.

  Lemma line_deposits ctx tl : ibs_wf_row ctx (s_deposits :: tl) = true -> line_ok ctx (s_deposits :: tl).
  Proof.
    start s_deposits Hwf Hlen Hk tl s1.
    more Hlen tl s2. more Hlen tl s3. cbn [nth] in *.
    destruct (str_eqb s2 s_total) eqn:Et; cbn [negb orb] in *; [reflexivity|].
    destruct (is_empty s3) eqn:Ee; cbn [negb orb mbind] in *; [reflexivity|].
    apply andb_prop in Hk as [[[Hl Hc]%andb_prop Hd]%andb_prop Hq].
    more Hl tl s4. more Hl tl s5. unfold ibs_deposit, field. cbn [nth] in *.
    unfold fld_p, fld. cbn [nth_error]. rewrite (ib_com_ok _ Hc), (ib_day_ok _ Hd), (ib_num2_ok _ Hq). reflexivity.
  Qed.

  (* exactly six fields *)
  Ltac six El tl s3 s4 s5 :=
    unfold len_is in El; cbn [length Nat.eqb] in El;
    destruct tl as [|s3 tl]; [discriminate El|]; destruct tl as [|s4 tl]; [discriminate El|];
    destruct tl as [|s5 tl]; [discriminate El|]; destruct tl; [|discriminate El].

  Lemma line_dividends ctx tl : ibs_wf_row ctx (s_dividends :: tl) = true -> line_ok ctx (s_dividends :: tl).
  Proof.
    start s_dividends Hwf Hlen Hk tl s1.
    more Hlen tl s2. cbn [nth] in *.
    destruct (is_prefix s_total s2) eqn:Et; cbn [negb orb andb mbind] in *; [reflexivity|].
    destruct (len_is (s_dividends :: s1 :: s2 :: tl) 6) eqn:El; cbn [negb] in *; [|reflexivity].
    six El tl s3 s4 s5. unfold ibs_income, field. cbn [nth] in *.
    apply andb_prop in Hk as [[[Hc Hd]%andb_prop Hq]%andb_prop Hs].
    unfold fld_p, fld. cbn [nth_error]. rewrite (ib_com_ok _ Hc), (ib_day_ok _ Hd), (ib_num_ok _ Hq). cbn [mbind].
    unfold ib_symbol. fold (ibs_security s4). destruct (ibs_security s4) eqn:E; [discriminate Hs|]. reflexivity.
  Qed.

  Lemma line_interest ctx tl : ibs_wf_row ctx (s_interest :: tl) = true -> line_ok ctx (s_interest :: tl).
  Proof.
    start s_interest Hwf Hlen Hk tl s1.
    more Hlen tl s2. cbn [nth] in *.
    destruct (is_prefix s_total s2) eqn:Et; cbn [negb orb andb mbind] in *; [reflexivity|].
    destruct (len_is (s_interest :: s1 :: s2 :: tl) 6) eqn:El; cbn [negb] in *; [|reflexivity].
    six El tl s3 s4 s5. unfold ibs_income, field. cbn [nth] in *.
    apply andb_prop in Hk as [[Hc Hd]%andb_prop Hq].
    unfold fld_p, fld. cbn [nth_error]. rewrite (ib_com_ok _ Hc), (ib_day_ok _ Hd), (ib_num_ok _ Hq). reflexivity.
  Qed.

  Lemma line_withholding ctx tl : ibs_wf_row ctx (s_withholding :: tl) = true -> line_ok ctx (s_withholding :: tl).
  Proof.
    start s_withholding Hwf Hlen Hk tl s1.
    more Hlen tl s2. cbn [nth] in *.
    destruct (is_prefix s_total s2) eqn:Et; cbn [negb orb andb mbind] in *; [reflexivity|].
    apply andb_prop in Hk as [[[[Hl Hc]%andb_prop Hd]%andb_prop Hq]%andb_prop Hs].
    more Hl tl s3. more Hl tl s4. more Hl tl s5. unfold ibs_income, field. cbn [nth] in *.
    unfold fld_p, fld. cbn [nth_error]. rewrite (ib_com_ok _ Hc), (ib_day_ok _ Hd), (ib_num_ok _ Hq). cbn [mbind].
    unfold ib_symbol. fold (ibs_security s4). destruct (ibs_security s4) eqn:E; [discriminate Hs|]. reflexivity.
  Qed.

  (* the end of the period is known *)
  Lemma end_known ctx : ibs_end_ok ctx = true ->
    exists t, ibc_end ctx = Some t /\ (ib_date_to (st_of ctx) =? of_civil 1 1 1)%Z = false /\ ib_date_to (st_of ctx) = t.
  Proof.
    unfold ibs_end_ok, st_of. destruct (ibc_end ctx) as [t|]; [|discriminate]. intros H. apply negb_true_iff in H.
    exists t. repeat split. exact H.
  Qed.

  Lemma line_open_positions ctx tl :
    ibs_wf_row ctx (s_open_positions :: tl) = true -> line_ok ctx (s_open_positions :: tl).
  Proof.
    start s_open_positions Hwf Hlen Hk tl s1.
    more Hlen tl s2. cbn [nth] in *.
    destruct (str_eqb s2 s_summary) eqn:Eb; cbn [mbind]; [|reflexivity].
    apply andb_prop in Hk as [[[Hl He]%andb_prop Hc]%andb_prop Hq].
    more Hl tl s3. more Hl tl s4. more Hl tl s5. more Hl tl s6. cbn [nth] in *.
    destruct (end_known ctx He) as (t & Ht & Hz & Hdt). rewrite Hz, Hdt, Ht. cbn [opt_or].
    unfold fld_p, fld. cbn [nth_error]. rewrite (ib_com_ok _ Hc), (ib_exact_ok _ Hq). reflexivity.
  Qed.

  Lemma line_forex_balances ctx tl :
    ibs_wf_row ctx (s_forex_balances :: tl) = true -> line_ok ctx (s_forex_balances :: tl).
  Proof.
    start s_forex_balances Hwf Hlen Hk tl s1.
    more Hlen tl s2. cbn [nth] in *.
    destruct (str_eqb s2 s_forex) eqn:Eb; cbn [mbind]; [|reflexivity].
    apply andb_prop in Hk as [[[Hl He]%andb_prop Hc]%andb_prop Hq].
    more Hl tl s3. more Hl tl s4. more Hl tl s5. cbn [nth] in *.
    destruct (end_known ctx He) as (t & Ht & Hz & Hdt). rewrite Hz, Hdt, Ht. cbn [opt_or].
    unfold fld_p, fld. cbn [nth_error]. rewrite (ib_com_ok _ Hc), (ib_num2_ok _ Hq). reflexivity.
  Qed.

  (* a record of no section the importer reads *)
  Lemma line_other ctx s0 tl :
    str_eqb s0 s_account_information = false -> str_eqb s0 s_statement = false -> str_eqb s0 s_trades = false ->
    str_eqb s0 s_deposits = false -> str_eqb s0 s_dividends = false -> str_eqb s0 s_interest = false ->
    str_eqb s0 s_withholding = false -> str_eqb s0 s_open_positions = false -> str_eqb s0 s_forex_balances = false ->
    line_ok ctx (s0 :: tl).
  Proof.
    intros E1 E2 E3 E4 E5 E6 E7 E8 E9.
    unfold line_ok, ibs_next, ibs_row, ibs_kind, ib_line, field. ib_words. cbn [nth].
    rewrite E1, E2, E3, E4, E5, E6, E7, E8, E9. destruct (negb (str_eqb (nth 0 tl []) s_data)); reflexivity.
  Qed.

  Lemma ib_line_spec ctx r : ibs_wf_row ctx r = true -> line_ok ctx r.
  Proof.
    intros Hwf. destruct r as [|s0 tl]; [reflexivity|].
    destruct (str_eqb s0 s_account_information) eqn:E1;
      [apply str_eqb_eq in E1; subst s0; apply line_account_information; exact Hwf|].
    destruct (str_eqb s0 s_statement) eqn:E2; [apply str_eqb_eq in E2; subst s0; apply line_statement; exact Hwf|].
    destruct (str_eqb s0 s_trades) eqn:E3; [apply str_eqb_eq in E3; subst s0; apply line_trades; exact Hwf|].
    destruct (str_eqb s0 s_deposits) eqn:E4; [apply str_eqb_eq in E4; subst s0; apply line_deposits; exact Hwf|].
    destruct (str_eqb s0 s_dividends) eqn:E5; [apply str_eqb_eq in E5; subst s0; apply line_dividends; exact Hwf|].
    destruct (str_eqb s0 s_interest) eqn:E6; [apply str_eqb_eq in E6; subst s0; apply line_interest; exact Hwf|].
    destruct (str_eqb s0 s_withholding) eqn:E7; [apply str_eqb_eq in E7; subst s0; apply line_withholding; exact Hwf|].
    destruct (str_eqb s0 s_open_positions) eqn:E8;
      [apply str_eqb_eq in E8; subst s0; apply line_open_positions; exact Hwf|].
    destruct (str_eqb s0 s_forex_balances) eqn:E9;
      [apply str_eqb_eq in E9; subst s0; apply line_forex_balances; exact Hwf|].
    apply line_other; assumption.
  Qed.

  Lemma ib_rows_spec rows : forall ctx, ibs_wf ctx rows = true ->
    ib_rows acct dividend interest tax fee trading (st_of ctx) (map CRec rows) =
    MOk (map item_dir (ibs_items acct dividend interest tax fee trading ctx rows)).
  Proof.
    induction rows as [|r rows IH]; intros ctx Hwf; [reflexivity|].
    cbn [ibs_wf] in Hwf. apply andb_prop in Hwf. destruct Hwf as [Hr Hrest].
    cbn [map ib_rows ibs_items]. rewrite (ib_line_spec ctx r Hr). cbn [mbind fst snd].
    rewrite (IH _ Hrest). cbn [mbind]. rewrite map_app. reflexivity.
  Qed.

  Hypothesis Htbd : acct <> tbd_account.
  Hypothesis Hdiv : acct <> dividend.
  Hypothesis Hint : acct <> interest.
  Hypothesis Htax : acct <> tax.
  Hypothesis Hfee : acct <> fee.
  Hypothesis Htr : acct <> trading.

  Lemma stock_trade_effect r c :
    (legs_effect acct c (en_legs (fst (ibs_stock_trade acct fee trading r))) ==
     expected (re_changes (en_fact (fst (ibs_stock_trade acct fee trading r)))) c)%Q.
  Proof.
    unfold ibs_stock_trade. cbn [fst en_legs en_fact re_changes legs_effect expected fold_right snd].
    rewrite !leg_effect_in by assumption. reflexivity.
  Qed.

  Lemma forex_trade_effect base r c :
    (legs_effect acct c (en_legs (fst (ibs_forex_trade acct fee trading base r))) ==
     expected (re_changes (en_fact (fst (ibs_forex_trade acct fee trading base r)))) c)%Q.
  Proof.
    unfold ibs_forex_trade. cbn [fst en_legs en_fact re_changes].
    rewrite legs_effect_app, expected_app.
    assert (H2 : (legs_effect acct c [mkLeg trading acct (ibs_before_dot (field r 5)) (ibs_q2 (field r 7));
                                      mkLeg trading acct (field r 4) (ibs_q2 (field r 10))] ==
                  expected [(ibs_before_dot (field r 5), ibs_q2 (field r 7)); (field r 4, ibs_q2 (field r 10))] c)%Q).
    { cbn [legs_effect expected fold_right fst snd]. rewrite !leg_effect_in by assumption. reflexivity. }
    rewrite H2. destruct (is_zero (ibs_q2 (field r 11))); [reflexivity|].
    rewrite (one_in_effect acct fee base (ibs_q2 (field r 11)) c Hfee). reflexivity.
  Qed.

  Lemma ibs_row_emitted ctx r :
    Forall2 (ibs_emitted acct) (ibs_row acct dividend interest tax fee trading ctx r)
            (map item_dir (ibs_row acct dividend interest tax fee trading ctx r)).
  Proof.
    assert (Hone : forall e, (forall c, (legs_effect acct c (en_legs (fst e)) == expected (re_changes (en_fact (fst e))) c)%Q) ->
                   ibs_emitted acct (IbTxn e) (item_dir (IbTxn e))).
    { intros e He. exists (tentry_txn e). split; [reflexivity|]. split; [|reflexivity].
      apply books_b_intro; [reflexivity|exact He]. }
    unfold ibs_row. destruct (ibs_kind r); cbn [map]; repeat constructor; try apply Hone; intros c.
    - apply forex_trade_effect.
    - apply stock_trade_effect.
    - apply (one_in_effect acct tbd_account _ _ c Htbd).
    - apply (one_in_effect acct dividend _ _ c Hdiv).
    - apply (one_in_effect acct interest _ _ c Hint).
    - apply (one_in_effect acct tax _ _ c Htax).
  Qed.

  Lemma ibs_items_emitted rows : forall ctx,
    Forall2 (ibs_emitted acct) (ibs_items acct dividend interest tax fee trading ctx rows)
            (map item_dir (ibs_items acct dividend interest tax fee trading ctx rows)).
  Proof.
    induction rows as [|r rows IH]; intros ctx; [constructor|].
    cbn [ibs_items]. rewrite map_app. apply Forall2_app; [apply ibs_row_emitted|apply IH].
  Qed.

  (* one directive per booking row and per balance row: a transaction resp. an assertion *)
  Lemma ibs_items_counts rows : forall ctx,
    let ds := map item_dir (ibs_items acct dividend interest tax fee trading ctx rows) in
    length (filter is_txn_dir ds) = length (filter ibs_is_booking rows) /\
    length (filter (fun d => negb (is_txn_dir d)) ds) = length (filter ibs_is_balance rows).
  Proof.
    induction rows as [|r rows IH]; intros ctx; [split; reflexivity|].
    cbv zeta in *. cbn [ibs_items filter]. rewrite map_app, !filter_app, !app_length.
    destruct (IH (ibs_next ctx r)) as [IH1 IH2]. rewrite IH1, IH2.
    unfold ibs_row, ibs_is_booking, ibs_is_balance. destruct (ibs_kind r); split; reflexivity.
  Qed.
End IBStatement.
