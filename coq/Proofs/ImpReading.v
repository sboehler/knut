(* C13: lemmas shared by the importer proofs of both groups: reading a record, the sign of an amount, the
   effect of one booking. *)
From Coq Require Import ZArith QArith List Bool.
From Knut Require Import Model.Str Model.Dec Model.Account Model.Ledger Model.ImpCommonA Spec.ImpSpecA Proofs.DecValue.
Import ListNotations.
Open Scope bool_scope.

Lemma is_some_inv {A} (o : option A) : is_some o = true -> exists x, o = Some x.
Proof. destruct o; [eauto|discriminate]. Qed.

(* inside the record r[i] is the field the specification reads *)
Lemma fld_field r i : Nat.ltb i (length r) = true -> fld r i = Some (field r i).
Proof. intros H. apply Nat.ltb_lt in H. apply nth_error_nth', H. Qed.

(* a record of n fields is the list of its fields: an importer that takes the record apart by pattern
   matching can be run on it without naming the fields *)
Lemma record_fields r n : len_is r n = true -> r = map (field r) (seq 0 n).
Proof.
  intros H. apply Nat.eqb_eq in H. subst n. unfold field. induction r as [|x r IH]; [reflexivity|].
  cbn [length seq map nth]. f_equal. rewrite <- seq_shift, map_map. exact IH.
Qed.

Lemma xorb_cases a b : xorb a b = true -> (a = true /\ b = false) \/ (a = false /\ b = true).
Proof. destruct a, b; cbn; intuition congruence. Qed.

(* multiplying by the sign is negation resp. the identity *)
Lemma mul_sign_neg q : mul_sign true q = neg q.
Proof. unfold mul_sign, mul, neg, of_int. cbn [coef ex]. f_equal; ring. Qed.
Lemma mul_sign_pos q : mul_sign false q = q.
Proof. unfold mul_sign, mul, of_int. cbn [coef ex]. destruct q as [c e]. cbn [coef ex]. f_equal; ring. Qed.

(* what one booking does to account a in commodity c: +q if a is the debited account, -q if it is the credited one,
   whatever the sign of q (Build swaps the sides of a negative booking and negates it) *)
Lemma pair_build_effect a c cr db com q :
  (fold_right (fun p s => posting_effect a c p + s) 0 (pair_build cr db com q dec_nil) ==
   (if acc_eq_dec db a then if str_eq_dec com c then dvalue q else 0 else 0) -
   (if acc_eq_dec cr a then if str_eq_dec com c then dvalue q else 0 else 0))%Q.
Proof.
  unfold pair_build. destruct (is_neg q || is_zero q && is_neg dec_nil); cbn [fold_right];
    unfold posting_effect; cbn [p_acc p_com p_qty];
    destruct (acc_eq_dec db a), (acc_eq_dec cr a), (str_eq_dec com c); rewrite ?dvalue_neg; ring.
Qed.
