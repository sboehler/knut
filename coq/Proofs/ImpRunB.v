(* C13, group B importers: from the command line to standard output.  With every account flag
   valid (hence naming an account: no nil account reaches the printer) the command succeeds on
   every well-formed statement and prints exactly the directives of the statement theorem. *)
From Coq Require Import ZArith QArith List Bool Lia.
From Knut Require Import Model.Str Model.Dec Model.Date Model.Account Model.Ledger Model.Journal
     Model.Table Model.ImpCommonA Model.ImpCommonB Model.Imp.Revolut2 Model.Imp.Revolut Model.Imp.Wise Model.Imp.Swissquote
     Model.Imp.Interactivebrokers
     Spec.ImpSpecA Spec.ImpSpecB Spec.ImpSpecIB Spec.ImpStmtB
     Proofs.JournalFacts Proofs.PairProofs Proofs.ImpProofsA Proofs.ImpProofsB Proofs.ImpProofsIB.
Import ListNotations.
Open Scope bool_scope.

Definition nil_posting (p : posting) : bool := is_nil_account (p_acc p) || is_nil_account (p_other p).
Definition leg_named (l : leg) : bool := negb (is_nil_account (l_credit l)) && negb (is_nil_account (l_debit l)).

Lemma account_flag_named f a : account_flag f = AAcc a -> is_nil_account a = false.
Proof.
  unfold account_flag. destruct (is_empty f); [discriminate|]. cbv zeta.
  destruct (acc_of_name f) as [|t tail]; [discriminate|].
  destruct (parse_atype t); [|discriminate]. destruct (forallb valid_name tail); [|discriminate].
  intros H. injection H as <-. reflexivity.
Qed.

Lemma pair_build_named cr db com q v : is_nil_account cr = false -> is_nil_account db = false ->
  existsb nil_posting (pair_build cr db com q v) = false.
Proof.
  intros H1 H2. unfold pair_build, nil_posting. destruct (is_neg q || is_zero q && is_neg v);
    cbn [existsb p_acc p_other]; rewrite H1, H2; reflexivity.
Qed.

Lemma legs_postings_named ls : forallb leg_named ls = true -> existsb nil_posting (legs_postings ls) = false.
Proof.
  unfold legs_postings. induction ls as [|l ls IH]; intros H; [reflexivity|].
  cbn [forallb] in H. apply andb_prop in H. destruct H as [Hl Hls]. cbn [flat_map]. rewrite existsb_app, (IH Hls), orb_false_r.
  unfold leg_named in Hl. apply andb_prop in Hl. destruct Hl as [Hc Hd].
  apply negb_true_iff in Hc. apply negb_true_iff in Hd. apply pair_build_named; assumption.
Qed.

Lemma uses_nil_app a b : uses_nil (a ++ b) = uses_nil a || uses_nil b.
Proof. apply existsb_app. Qed.

Lemma leg_named_intro cr db c q : is_nil_account cr = false -> is_nil_account db = false -> leg_named (mkLeg cr db c q) = true.
Proof. intros H1 H2. unfold leg_named. cbn [l_credit l_debit]. rewrite H1, H2. reflexivity. Qed.

Lemma uses_nil_bookings {A} (fact : A -> row_effect) (legs : A -> list leg) (tg : A -> option (list commodity))
      (text : A -> str) xs :
  (forall x, In x xs -> forallb leg_named (legs x) = true) ->
  uses_nil (map (fun x => booking_directive (fact x) (text x) (legs x) (tg x)) xs) = false.
Proof.
  induction xs as [|x xs IH]; intros Hn; [reflexivity|]. cbn [map].
  change (uses_nil (booking_directive (fact x) (text x) (legs x) (tg x) :: ?l))
    with (existsb nil_posting (legs_postings (legs x)) || uses_nil l).
  rewrite (legs_postings_named _ (Hn x (or_introl eq_refl))), IH; [reflexivity|].
  intros y Hy. apply Hn. right. exact Hy.
Qed.

Lemma assertions_named acct bals : is_nil_account acct = false -> uses_nil (map (assertion_of acct) bals) = false.
Proof.
  intros Na. induction bals as [|b bals IH]; [reflexivity|].
  cbn [map]. change (uses_nil (assertion_of acct b :: map (assertion_of acct) bals))
    with ((is_nil_account acct || false) || uses_nil (map (assertion_of acct) bals)).
  rewrite Na, IH. reflexivity.
Qed.

(* the command prints what the importer returns; so a statement theorem about the importer's
   result is one about standard output *)
Lemma faithful_run {T} (imp : mresult (list directive)) (run : irun) (f : T -> list directive) (P : T -> Prop) ds :
  imp = MOk ds -> run = mkRun (print_directives ds) SOk ->
  (exists ts, imp = MOk (f ts) /\ P ts) -> exists ts, run = mkRun (print_directives (f ts)) SOk /\ P ts.
Proof. intros Hs Hr (ts & Hi & HP). exists ts. split; [|exact HP]. rewrite Hs in Hi. injection Hi as <-. exact Hr. Qed.

Section IBRun.
  Variables acct dividend interest tax fee trading : account.
  Hypothesis Na : is_nil_account acct = false.
  Hypothesis Nd : is_nil_account dividend = false.
  Hypothesis Ni : is_nil_account interest = false.
  Hypothesis Nw : is_nil_account tax = false.
  Hypothesis Nf : is_nil_account fee = false.
  Hypothesis Nt : is_nil_account trading = false.

  Lemma ibs_row_named ctx r :
    uses_nil (map (item_dir acct) (ibs_row acct dividend interest tax fee trading ctx r)) = false.
  Proof.
    assert (Htxn : forall e, forallb leg_named (en_legs (fst e)) = true -> uses_nil [item_dir acct (IbTxn e)] = false).
    { intros e He. unfold uses_nil. cbn [existsb item_dir tentry_txn t_postings]. rewrite orb_false_r.
      apply (legs_postings_named _ He). }
    assert (Hbal : forall b, uses_nil [item_dir acct (IbBal b)] = false).
    { intros b. unfold uses_nil. cbn [existsb item_dir assertion_of bal_acc]. rewrite Na. reflexivity. }
    unfold ibs_row. destruct (ibs_kind r); cbn [map]; try reflexivity; try apply Hbal; apply Htxn.
    1: unfold ibs_forex_trade; cbn [fst en_legs]; rewrite forallb_app; destruct (is_zero _).
    all: cbn [ibs_stock_trade ibs_deposit ibs_income fst en_legs forallb];
      rewrite !leg_named_intro by first [assumption|reflexivity]; reflexivity.
  Qed.

  Lemma ibs_items_named rows : forall ctx,
    uses_nil (map (item_dir acct) (ibs_items acct dividend interest tax fee trading ctx rows)) = false.
  Proof.
    induction rows as [|r rows IH]; intros ctx; [reflexivity|].
    cbn [ibs_items]. rewrite map_app, uses_nil_app, ibs_row_named, IH. reflexivity.
  Qed.
End IBRun.

Lemma item_dir_directive acct i : item_dir acct i = ibs_directive acct i.
Proof. destruct i; reflexivity. Qed.

Lemma run_interactivebrokers_ok aflag iflag dflag wflag fflag tflag acct dividend interest tax fee trading rows :
  account_flag aflag = AAcc acct -> account_flag iflag = AAcc interest -> account_flag dflag = AAcc dividend ->
  account_flag wflag = AAcc tax -> account_flag fflag = AAcc fee -> account_flag tflag = AAcc trading ->
  ibs_wf ibs_ctx0 rows = true ->
  run_interactivebrokers aflag iflag dflag wflag fflag tflag (map CRec rows) =
  mkRun (print_directives (map (item_dir acct) (ibs_items acct dividend interest tax fee trading ibs_ctx0 rows))) SOk.
Proof.
  intros Fa Fi Fd Fw Ff Ft Hwf.
  unfold run_interactivebrokers. cbn [resolve_flags]. rewrite Fa, Fi, Fd, Fw, Ff, Ft. cbn [flag_account].
  unfold import_interactivebrokers. change (mkIb None (of_civil 1 1 1)) with (st_of ibs_ctx0).
  rewrite (ib_rows_spec acct dividend interest tax fee trading rows ibs_ctx0 Hwf). cbn [finish_run_b].
  rewrite ibs_items_named; [reflexivity|eapply account_flag_named; eassumption..].
Qed.

Lemma run_revolut2_ok aflag fflag acct feeacct rows :
  account_flag aflag = AAcc acct -> account_flag fflag = AAcc feeacct -> forallb r2_wf_row rows = true ->
  run_revolut2 aflag fflag (CRec r2_header :: map CRec rows) =
  mkRun (print_directives (r2s_directives acct feeacct rows)) SOk.
Proof.
  intros Fa Ff Hwf. pose proof (account_flag_named _ _ Fa) as Na. pose proof (account_flag_named _ _ Ff) as Nf.
  unfold run_revolut2. cbn [resolve_flags]. rewrite Fa, Ff. cbn [flag_account].
  rewrite (import_revolut2_spec acct feeacct rows Hwf). cbn [finish_run_b].
  unfold r2s_directives at 1. rewrite uses_nil_app, (assertions_named acct _ Na), orb_false_r.
  rewrite uses_nil_bookings; [reflexivity|].
  intros r _. unfold r2_legs. destruct (is_zero (r2_fee r)); cbn [forallb];
    rewrite !leg_named_intro by first [assumption|reflexivity]; reflexivity.
Qed.

Lemma rvs_weave_named acct cur rows : forall last, is_nil_account acct = false -> uses_nil (rvs_weave acct cur last rows) = false.
Proof.
  intros last Na. revert last. induction rows as [|r rows IH]; intros last; [reflexivity|].
  cbn [rvs_weave]. rewrite uses_nil_app.
  change (uses_nil (booking_directive ?f ?x ?ls ?tg :: ?l)) with (existsb nil_posting (legs_postings ls) || uses_nil l).
  rewrite IH, legs_postings_named, orb_false_r.
  - destruct (Z.eqb (rv_date r) last); [reflexivity|].
    change (uses_nil [assertion_of acct ?b]) with ((is_nil_account acct || false) || false). rewrite Na. reflexivity.
  - unfold rv_legs. destruct (rv_exchange r) as [[c q]|]; cbn [forallb];
      rewrite !leg_named_intro by first [assumption|reflexivity]; reflexivity.
Qed.

Lemma run_revolut_ok aflag acct cur header rows :
  account_flag aflag = AAcc acct ->
  len_is header 9 = true -> field header 2 = s_paid_out ++ cur ++ [41%Z] ->
  forallb is_alpha cur = true -> cur <> [] -> forallb rv_wf_row rows = true ->
  run_revolut aflag (CRec header :: map CRec rows) = mkRun (print_directives (rvs_weave acct cur rvs_zero_day rows)) SOk.
Proof.
  intros Fa Hl Hh Hc Hne Hwf.
  unfold run_revolut. cbn [resolve_flags]. rewrite Fa. cbn [flag_account].
  rewrite (import_revolut_spec acct cur header rows Hl Hh Hc Hne Hwf). cbn [finish_run_b].
  rewrite rvs_weave_named; [reflexivity|]. eapply account_flag_named, Fa.
Qed.

Lemma fee_legs_named acct feeacct (fees : list (commodity * dec)) :
  is_nil_account acct = false -> is_nil_account feeacct = false ->
  forallb leg_named (map (fun f => mkLeg acct feeacct (fst f) (snd f)) fees) = true.
Proof.
  intros Na Nf. induction fees as [|f fs IH]; [reflexivity|]. cbn [map forallb]. rewrite IH, leg_named_intro by assumption. reflexivity.
Qed.

Lemma ws_entries_named rep acct feeacct trading r e :
  is_nil_account acct = false -> is_nil_account feeacct = false -> is_nil_account trading = false ->
  In e (ws_entries rep acct feeacct trading r) -> forallb leg_named (en_legs e) = true.
Proof.
  intros Na Nf Nt Hin. unfold ws_entries in Hin.
  destruct (ws_cancelled r); [destruct Hin|].
  pose proof (fee_legs_named acct feeacct (ws_fees r) Na Nf) as Hfee.
  destruct (ws_converted r); destruct (ws_dir_of r); cbn [In] in Hin;
    repeat (destruct Hin as [Hin|Hin]; [subst e|]); try contradiction;
    try (destruct rep); cbn [en_legs]; rewrite ?forallb_app, ?Hfee; cbn [forallb];
    rewrite !leg_named_intro by first [assumption|reflexivity]; reflexivity.
Qed.

Lemma run_wise_ok rep aflag fflag tflag acct feeacct trading rows :
  account_flag aflag = AAcc acct -> account_flag fflag = AAcc feeacct -> account_flag tflag = AAcc trading ->
  forallb ws_wf_row rows = true ->
  run_wise rep aflag fflag tflag (CRec ws_header :: map CRec rows) =
  mkRun (print_directives (ws_directives rep acct feeacct trading rows)) SOk.
Proof.
  intros Fa Ff Ft Hwf.
  unfold run_wise. cbn [resolve_flags]. rewrite Fa, Ff, Ft. cbn [flag_account].
  rewrite (import_wise_spec rep acct feeacct trading rows Hwf). cbn [finish_run_b].
  unfold ws_directives at 1. rewrite uses_nil_bookings; [reflexivity|].
  intros e He. apply in_flat_map in He. destruct He as (r & _ & He).
  eapply ws_entries_named; [..|exact He]; eapply account_flag_named; eassumption.
Qed.

Section SQRun.
  Variables acct dividend interest tax fee trading : account.
  Hypothesis Na : is_nil_account acct = false.
  Hypothesis Nd : is_nil_account dividend = false.
  Hypothesis Ni : is_nil_account interest = false.
  Hypothesis Nw : is_nil_account tax = false.
  Hypothesis Nf : is_nil_account fee = false.
  Hypothesis Nt : is_nil_account trading = false.

  Lemma sqs_entries_named rows : forall pending e,
    In e (sqs_entries acct dividend interest tax fee trading pending rows) -> forallb leg_named (en_legs (fst e)) = true.
  Proof.
    induction rows as [|r rows IH]; intros pending e Hin; [destruct Hin|].
    cbn [sqs_entries] in Hin. destruct (sqs_kind r) eqn:Hk.
    2: destruct pending as [l|]; [|exact (IH _ _ Hin)].
    all: destruct Hin as [<-|Hin]; [|exact (IH _ _ Hin)].
    all: unfold sqs_trade, sqs_exchange, sqs_single; rewrite ?Hk; cbn [fst en_legs]; try destruct (is_zero (sqs_dec r 8));
      cbn [forallb]; rewrite !leg_named_intro by first [assumption|reflexivity]; reflexivity.
  Qed.
End SQRun.

Lemma run_swissquote_ok aflag dflag iflag wflag fflag tflag acct dividend interest tax fee trading header rows :
  account_flag aflag = AAcc acct -> account_flag dflag = AAcc dividend -> account_flag iflag = AAcc interest ->
  account_flag wflag = AAcc tax -> account_flag fflag = AAcc fee -> account_flag tflag = AAcc trading ->
  sqs_wf false rows = true ->
  run_swissquote aflag dflag iflag wflag fflag tflag (CRec header :: map CRec rows) =
  mkRun (print_directives (sqs_directives acct dividend interest tax fee trading rows)) SOk.
Proof.
  intros Fa Fd Fi Fw Ff Ft Hwf.
  unfold run_swissquote. cbn [resolve_flags]. rewrite Fa, Fd, Fi, Fw, Ff, Ft. cbn [flag_account].
  rewrite (import_swissquote_spec acct dividend interest tax fee trading header rows Hwf). cbn [finish_run_b].
  unfold sqs_directives at 1. rewrite uses_nil_bookings; [reflexivity|].
  intros e He. eapply sqs_entries_named; [..|exact He]; eapply account_flag_named; eassumption.
Qed.

(* a transaction that consists of bookings is a sequence of posting pairs; so is, day by day, the
   journal handed to the printer *)
Lemma legs_paired ls : paired (concat (map booking_postings ls)).
Proof.
  induction ls as [|l ls IH]; [constructor|]. cbn [map concat]. apply paired_app; [apply pair_build_paired|exact IH].
Qed.

Lemma books_b_paired acct f ls tg t : books_b acct f ls tg t -> txn_ok t.
Proof. intros (_ & Hc & _). unfold txn_ok. rewrite Hc. apply legs_paired. Qed.

Definition booked_directive (d : directive) : Prop :=
  match d with DTxn t => exists acct f ls tg, books_b acct f ls tg t | _ => True end.

Theorem booked_days_ok ds : Forall booked_directive ds -> Forall day_ok (b_days (builder_of ds)).
Proof.
  intros H. apply builder_of_ok. induction H as [|d ds Hd _ IH]; constructor; [|exact IH].
  destruct d; cbn [on_txn]; try exact I. destruct Hd as (acct & f & ls & tg & Hb). eapply books_b_paired; exact Hb.
Qed.

Lemma ibs_emitted_booked acct items ds : Forall2 (ibs_emitted acct) items ds -> Forall booked_directive ds.
Proof.
  induction 1 as [|i d items ds Hd _ IH]; constructor; [|exact IH].
  destruct i as [e|b]; cbn [ibs_emitted] in Hd.
  - destruct Hd as (t & -> & Hb & _). cbn [booked_directive]. eauto.
  - subst d. exact I.
Qed.
