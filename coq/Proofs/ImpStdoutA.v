(* C13, group A: how the executable statement-level specification (Spec/ImpStmtA.v) takes a statement apart
   (rec_eqb, split_while, pf_parts, cum_parse), for the theorems C13_<importer>_stdout. *)
From Coq Require Import ZArith QArith List Bool Lia.
From Knut Require Import Model.Str Model.Dec Model.Date Model.Account Model.Ledger Model.Journal
     Model.Table Model.ImpCommonA
     Model.Imp.Swisscard2 Model.Imp.Viac Model.Imp.Cumulus Model.Imp.Postfinance Model.Imp.Swisscard Model.Imp.Supercard
     Spec.ImpSpecA Spec.ImpStmtA
     Proofs.StrProofs Proofs.ImpReading Proofs.ImpProofsA.
Import ListNotations.
Open Scope bool_scope.

Lemma rec_eqb_eq a : forall b, rec_eqb a b = true -> a = b.
Proof.
  induction a as [|x a IH]; intros [|y b] H; try discriminate H; [reflexivity|].
  cbn [rec_eqb] in H. apply andb_prop in H. destruct H as [Hx Hr]. apply str_eqb_eq in Hx. subst y.
  f_equal. apply IH, Hr.
Qed.

Lemma split_while_spec {A} (f : A -> bool) l : forall a b, split_while f l = (a, b) ->
  l = a ++ b /\ forallb f a = true /\ match b with x :: _ => f x = false | [] => True end.
Proof.
  induction l as [|x l IH]; intros a b H; cbn [split_while] in H.
  - injection H as <- <-. repeat split.
  - destruct (f x) eqn:E.
    + destruct (split_while f l) as [a' b'] eqn:E'. injection H as <- <-.
      destruct (IH a' b' eq_refl) as (H1 & H2 & H3). subst l. cbn [app forallb]. rewrite E, H2. repeat split. exact H3.
    + injection H as <- <-. repeat split. exact E.
Qed.

Lemma pf_parts_spec recs kvs header rows d1 ds : pf_parts recs = Some (kvs, header, rows, d1, ds) ->
  recs = kvs ++ header :: (rows ++ d1 :: ds) /\ forallb pf_is_kv kvs = true /\ pf_is_kv header = false /\ pf_is_row d1 = false.
Proof.
  unfold pf_parts. destruct (split_while pf_is_kv recs) as [k r1] eqn:E1.
  destruct (split_while_spec _ _ _ _ E1) as (H1 & H2 & H3).
  destruct r1 as [|h r2]; [discriminate|].
  destruct (split_while pf_is_row r2) as [rw r3] eqn:E2.
  destruct (split_while_spec _ _ _ _ E2) as (H4 & H5 & H6).
  destruct r3 as [|d r4]; [discriminate|]. intros H. injection H. intros; subst. repeat split; assumption.
Qed.

Theorem postfinance_stdout dbg flag acct recs :
  account_flag flag = AAcc acct -> pf_statement_wf recs = true ->
  exists out, pf_statement_output acct recs = Some out /\
    run_postfinance dbg flag (map CRec recs) = mkRun (pf_debug_line dbg (pf_after_rows recs) ++ out) SOk.
Proof.
  intros Hf Hwf. unfold pf_statement_output, pf_after_rows. rewrite Hwf. unfold pf_statement_wf in Hwf.
  destruct (pf_parts recs) as [[[[[kvs header] rows] d1] ds]|] eqn:Hp; [|discriminate Hwf].
  eexists. split; [reflexivity|].
  destruct (pf_parts_spec _ _ _ _ _ _ Hp) as (Hrecs & Hk & Hh & Hd1).
  apply andb_prop in Hwf. destruct Hwf as [Hwf Hds]. apply andb_prop in Hwf. destruct Hwf as [Hc Hrows].
  apply (run_postfinance_ok dbg flag acct _ _ _ Hf).
  replace (map CRec recs) with (pf_statement kvs header rows d1 ds).
  - apply import_postfinance_spec; assumption.
  - subst recs. unfold pf_statement. rewrite map_app. cbn [map]. rewrite map_app. reflexivity.
Qed.

Lemma cum_comment_row_spec r : cum_is_comment r = true -> r = cum_comment_row (field r 2) /\ is_empty (field r 2) = false.
Proof.
  unfold cum_is_comment. destruct r as [|f0 [|f1 [|f2 [|f3 [|f4 [|f5 r]]]]]]; try discriminate.
  intros H. apply andb_prop in H. destruct H as [H H4]. apply andb_prop in H. destruct H as [H H3].
  apply andb_prop in H. destruct H as [H H2]. apply andb_prop in H. destruct H as [H0 H1].
  destruct f0; [|discriminate H0]. destruct f1; [|discriminate H1]. destruct f3; [|discriminate H3]. destruct f4; [|discriminate H4].
  apply negb_true_iff in H2. split; [reflexivity|exact H2].
Qed.

Lemma cum_parse_spec recs : forall cs es, cum_parse recs = Some (cs, es) ->
  recs = map cum_comment_row cs ++ flat_map cum_records es /\ forallb cum_wf_entry es = true.
Proof.
  induction recs as [|r rest IH]; intros cs es H; cbn [cum_parse] in H.
  - injection H as <- <-. split; reflexivity.
  - destruct (cum_parse rest) as [[cs' es']|]; [|discriminate H].
    destruct (IH cs' es' eq_refl) as [Hrest Hwf].
    destruct (cum_is_comment r) eqn:Hc.
    { injection H as <- <-. destruct (cum_comment_row_spec r Hc) as [Hr _]. split; [|exact Hwf].
      cbn [map app]. rewrite <- Hr, <- Hrest. reflexivity. }
    destruct (cum_wf_entry (CumBooking r cs')) eqn:Hb.
    { injection H as <- <-. split; [|cbn [forallb]; rewrite Hb, Hwf; reflexivity].
      cbn [map app flat_map cum_records]. rewrite <- ?app_assoc, <- Hrest. reflexivity. }
    destruct (cum_wf_entry (CumRounding r cs')) eqn:Hr.
    { injection H as <- <-. split; [|cbn [forallb]; rewrite Hr, Hwf; reflexivity].
      cbn [map app flat_map cum_records]. rewrite <- ?app_assoc, <- Hrest. reflexivity. }
    destruct cs' as [|c cs']; [|discriminate H].
    destruct (cum_wf_entry (CumIgnored r)) eqn:Hi; [|discriminate H].
    injection H as <- <-. split; [|cbn [forallb]; rewrite Hi, Hwf; reflexivity].
    cbn [map app flat_map cum_records]. rewrite Hrest. reflexivity.
Qed.
