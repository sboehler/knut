(* C13, group B: how the executable statement-level specification (Spec/ImpStmtB.v) reads the header of a
   revolut statement and why a transaction that books a row is the specification's, for C13_<importer>_stdout. *)
From Coq Require Import ZArith QArith List Bool Lia.
From Knut Require Import Model.Str Model.Dec Model.Date Model.Account Model.Ledger Model.Journal
     Model.Table Model.ImpCommonA Model.ImpCommonB Model.Imp.Revolut2 Model.Imp.Revolut Model.Imp.Wise Model.Imp.Swissquote
     Spec.ImpSpecA Spec.ImpSpecB Spec.ImpStmtA Spec.ImpStmtB
     Proofs.StrProofs Proofs.ImpProofsA Proofs.ImpProofsB Proofs.ImpRunB Proofs.ImpStdoutA.
Import ListNotations.
Open Scope bool_scope.

(* what books_b and the description say about a transaction determines it *)
Lemma books_b_determines acct f ls tg text t :
  books_b acct f ls tg t -> t_desc t = build_desc text -> DTxn t = booking_directive f text ls tg.
Proof.
  intros (Hd & Hc & _ & Ht) Hx. unfold consists_of in Hc. unfold booking_directive, legs_txn.
  rewrite legs_postings_spec, <- Hd, <- Hc, <- Ht, <- Hx. destruct t; reflexivity.
Qed.

Lemma forall2_books_determine {A} acct (fact : A -> row_effect) (legs : A -> list leg) (tg : A -> option (list commodity))
      (text : A -> str) xs : forall ts,
  Forall2 (fun x t => books_b acct (fact x) (legs x) (tg x) t) xs ts ->
  map t_desc ts = map build_desc (map text xs) ->
  map DTxn ts = map (fun x => booking_directive (fact x) (text x) (legs x) (tg x)) xs.
Proof.
  induction xs as [|x xs IH]; intros ts H Hd; inversion H as [|? t ? ts' Hb Hrest]; subst; [reflexivity|].
  cbn [map] in Hd |- *. injection Hd as Hx Hd. f_equal; [eapply books_b_determines; eassumption|apply IH; assumption].
Qed.

Lemma is_prefix_split p : forall s, is_prefix p s = true -> s = p ++ skipn (length p) s.
Proof.
  induction p as [|x p IH]; intros s H; [reflexivity|].
  destruct s as [|y s]; [discriminate H|]. cbn [is_prefix] in H. apply andb_prop in H. destruct H as [Hx Hp].
  apply Z.eqb_eq in Hx. subst y. cbn [length skipn app]. f_equal. apply IH, Hp.
Qed.

Lemma span_spec f s : forall a b, span f s = (a, b) -> s = a ++ b /\ forallb f a = true.
Proof.
  induction s as [|c s IH]; intros a b H; cbn [span] in H.
  - injection H as <- <-. split; reflexivity.
  - destruct (f c) eqn:E.
    + destruct (span f s) as [a' b'] eqn:E'. injection H as <- <-. destruct (IH a' b' eq_refl) as [H1 H2].
      subst s. cbn [app forallb]. rewrite E, H2. split; reflexivity.
    + injection H as <- <-. split; reflexivity.
Qed.

Lemma rvs_currency_spec h cur : rvs_currency h = Some cur ->
  field h 2 = s_paid_out ++ cur ++ [41%Z] /\ forallb is_alpha cur = true /\ cur <> [].
Proof.
  unfold rvs_currency. change rvs_paid_out with s_paid_out.
  destruct (is_prefix s_paid_out (field h 2)) eqn:Hp; [|discriminate].
  destruct (span is_alpha (skipn (length s_paid_out) (field h 2))) as [a rest] eqn:Hs.
  destruct (negb (is_empty a) && str_eqb rest [41%Z]) eqn:Hc; [|discriminate]. intros H. injection H as ->.
  apply andb_prop in Hc. destruct Hc as [Hne Hr]. apply str_eqb_eq in Hr. subst rest.
  destruct (span_spec _ _ _ _ Hs) as [H1 H2]. split; [|split].
  - rewrite (is_prefix_split _ _ Hp) at 1. rewrite H1. reflexivity.
  - exact H2.
  - intros ->. discriminate Hne.
Qed.
