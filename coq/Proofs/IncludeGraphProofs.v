(* Proofs about Spec/IncludeGraph.v: on a finite include graph (cyclic or not) the enumeration
   [walks] with fuel [length univ] unfolds without running out of fuel, and the visits below the
   root are exactly the include paths from the root whose proper prefix is simple; a cycle is
   reachable iff some visit closes a cycle; on a ranked (acyclic) graph the files of the visits are
   the include tree [expand] of Model/PipeLoader.v, and that list is the visit list [gvisits].  *)
From Coq Require Import List Bool Arith PeanoNat Lia Permutation.
From Knut Require Import Proofs.ListFacts Model.PipeLoader Spec.IncludeGraph Proofs.PipeLoaderProofs.
Import ListNotations.

Lemma memn_true : forall x l, memn x l = true <-> In x l.
Proof.
  intros x l. unfold memn. rewrite existsb_exists. split.
  - intros (y & Hy & E). apply Nat.eqb_eq in E. subst y. exact Hy.
  - intros H. exists x. split; [exact H|apply Nat.eqb_refl].
Qed.

Lemma memn_false : forall x l, memn x l = false <-> ~ In x l.
Proof.
  intros x l. rewrite <- memn_true. destruct (memn x l); split; intro H; try reflexivity; try discriminate.
  exfalso. apply H. reflexivity.
Qed.

Lemma NoDup_snoc_inv : forall (l : list nat) x, NoDup (l ++ [x]) -> NoDup l /\ ~ In x l.
Proof.
  intros l x ND. apply (Permutation_NoDup (Permutation_sym (Permutation_cons_append l x))) in ND.
  inversion ND. auto.
Qed.

Lemma forallb_flat_map : forall (A B : Type) (p : B -> bool) (f : A -> list B) l,
  forallb p (flat_map f l) = forallb (fun a => forallb p (f a)) l.
Proof. induction l as [|a l IH]; simpl; [reflexivity|]. rewrite forallb_app, IH. reflexivity. Qed.

Lemma length_flat_map : forall (A B : Type) (f : A -> list B) l,
  length (flat_map f l) = list_sum (map (fun a => length (f a)) l).
Proof. induction l as [|a l IH]; simpl; [reflexivity|]. rewrite app_length, IH. reflexivity. Qed.

Lemma filter_flat_map : forall (A B : Type) (p : B -> bool) (f : A -> list B) l,
  filter p (flat_map f l) = flat_map (fun a => filter p (f a)) l.
Proof. induction l as [|a l IH]; simpl; [reflexivity|]. rewrite filter_app, IH. reflexivity. Qed.

Section GraphProofs.
  Variable inc : nat -> list nat.

  Notation walks := (walks inc).
  Notation ipath_from := (ipath_from inc).
  Notation ipath := (ipath inc).

  Lemma walks_head : forall fuel anc f, exists tl, walks fuel anc f = (anc, f) :: tl.
  Proof. intros [|d] anc f; simpl; eexists; reflexivity. Qed.

  Lemma walks_cyc : forall fuel anc f, memn f anc = true -> walks fuel anc f = [(anc, f)].
  Proof. intros [|d] anc f H; simpl; rewrite H; reflexivity. Qed.

  Lemma ipath_from_trans : forall a f b g c h,
    ipath_from a f b g -> ipath_from b g c h -> ipath_from a f c h.
  Proof.
    intros a f b g c h H1 H2. induction H2 as [|anc x y H2 IH Hy]; [exact H1|].
    apply ipath_step; assumption.
  Qed.

  (* every enumerated visit is an include path whose ancestors are distinct (no fuel condition) *)
  Lemma walks_sound : forall fuel anc0 f0 anc f, NoDup anc0 ->
    In (anc, f) (walks fuel anc0 f0) -> ipath_from anc0 f0 anc f /\ NoDup anc.
  Proof.
    induction fuel as [|d IH]; intros anc0 f0 anc f ND H; simpl in H; destruct H as [H|H].
    1, 3: injection H as <- <-; split; [constructor|exact ND].
    all: destruct (memn f0 anc0) eqn:M; try destruct H.
    apply in_flat_map in H. destruct H as (g & Hg & H). apply memn_false in M.
    destruct (IH (anc0 ++ [f0]) g anc f (NoDup_snoc _ _ ND M) H) as [P N].
    split; [|exact N].
    apply (ipath_from_trans anc0 f0 (anc0 ++ [f0]) g); [|exact P].
    apply ipath_step; [constructor|exact Hg].
  Qed.

  Variable univ : list nat.
  Hypothesis Hclosed : forall f g, In f univ -> In g (inc f) -> In g univ.

  (* a task (anc, f) that can occur: distinct ancestors, all files known *)
  Definition gvalid (anc : list nat) (f : nat) : Prop := NoDup anc /\ incl anc univ /\ In f univ.

  Definition Wk (anc : list nat) (f : nat) : list visit := walks (length univ - length anc) anc f.

  Lemma gvalid_step : forall anc f g, gvalid anc f -> memn f anc = false -> In g (inc f) -> gvalid (anc ++ [f]) g.
  Proof.
    intros anc f g (ND & I & U) M Hg. apply memn_false in M. repeat split.
    - apply NoDup_snoc; assumption.
    - intros x Hx. apply in_app_or in Hx. destruct Hx as [Hx|[<-|[]]]; [apply I; exact Hx|exact U].
    - apply (Hclosed f); assumption.
  Qed.

  Lemma gvalid_length : forall anc f, gvalid anc f -> memn f anc = false -> length anc < length univ.
  Proof.
    intros anc f (ND & I & U) M. apply memn_false in M.
    assert (L : length (anc ++ [f]) <= length univ).
    { apply NoDup_incl_length; [apply NoDup_snoc; assumption|].
      intros x Hx. apply in_app_or in Hx. destruct Hx as [Hx|[<-|[]]]; [apply I; exact Hx|exact U]. }
    rewrite app_length in L. simpl in L. lia.
  Qed.

  Lemma Wk_unfold : forall anc f, gvalid anc f ->
    Wk anc f = (anc, f) :: (if memn f anc then [] else flat_map (Wk (anc ++ [f])) (inc f)).
  Proof.
    intros anc f V. unfold Wk at 1. destruct (memn f anc) eqn:M.
    - apply walks_cyc. exact M.
    - pose proof (gvalid_length anc f V M) as L.
      destruct (length univ - length anc) as [|d] eqn:D; [lia|].
      simpl. rewrite M. do 2 f_equal.
      unfold Wk. rewrite app_length. simpl.
      replace (length univ - (length anc + 1)) with d by lia. reflexivity.
  Qed.

  Lemma Wk_head_in : forall anc f, In (anc, f) (Wk anc f).
  Proof. intros anc f. unfold Wk. destruct (walks_head (length univ - length anc) anc f) as (tl & ->). left. reflexivity. Qed.

  (* the enumeration is closed under following an include directive of a visit that is not a cycle *)
  Lemma Wk_closed : forall anc0 f0, gvalid anc0 f0 ->
    forall anc f g, In (anc, f) (Wk anc0 f0) -> memn f anc = false -> In g (inc f) ->
    In (anc ++ [f], g) (Wk anc0 f0).
  Proof.
    intros anc0 f0. remember (length univ - length anc0) as n eqn:En. revert anc0 f0 En.
    induction n as [|n IH]; intros anc0 f0 En V anc f g H M Hg;
      rewrite (Wk_unfold _ _ V) in H |- *; destruct H as [H|H].
    1, 3: injection H as <- <-; rewrite M; right; apply in_flat_map; exists g; split; [exact Hg|apply Wk_head_in].
    all: destruct (memn f0 anc0) eqn:M0; [destruct H|]; pose proof (gvalid_length _ _ V M0).
    - lia.
    - apply in_flat_map in H. destruct H as (h & Hh & H).
      right. apply in_flat_map. exists h. split; [exact Hh|].
      apply IH; auto; [rewrite app_length; simpl; lia|apply gvalid_step; assumption].
  Qed.

  Lemma walks_complete : forall anc0 f0 anc f, gvalid anc0 f0 ->
    ipath_from anc0 f0 anc f -> NoDup anc -> In (anc, f) (Wk anc0 f0).
  Proof.
    intros anc0 f0 anc f V P. induction P as [|anc f g P IH Hg]; intros ND.
    - apply Wk_head_in.
    - destruct (NoDup_snoc_inv _ _ ND) as [ND' NI].
      apply Wk_closed; auto. apply memn_false. exact NI.
  Qed.

  (* the visits of a load of [root] are exactly the include paths from the root whose ancestors are
     distinct: simple paths, and simple paths followed by one include back into the path *)
  Theorem walks_spec : forall root anc f, In root univ ->
    (In (anc, f) (all_visits inc univ root) <-> ipath root anc f /\ NoDup anc).
  Proof.
    intros root anc f Hr. unfold all_visits. split.
    - apply walks_sound. constructor.
    - intros [P ND]. assert (V : gvalid [] root) by (repeat split; [constructor|intros x []|exact Hr]).
      pose proof (walks_complete [] root anc f V P ND) as H. unfold Wk in H. simpl in H.
      rewrite Nat.sub_0_r in H. exact H.
  Qed.

  Lemma all_visits_Wk : forall root, all_visits inc univ root = Wk [] root.
  Proof. intros. unfold all_visits, Wk. simpl. rewrite Nat.sub_0_r. reflexivity. Qed.

  Theorem simple_paths_spec : forall root anc f, In root univ ->
    (In (anc, f) (simple_paths inc univ root) <-> ipath root anc f /\ NoDup (anc ++ [f])).
  Proof.
    intros root anc f Hr. unfold simple_paths. rewrite filter_In, (walks_spec root anc f Hr).
    unfold v_simple, v_cyc. simpl. rewrite negb_true_iff, memn_false. split.
    - intros [[P ND] NI]. split; [exact P|apply NoDup_snoc; assumption].
    - intros [P ND]. destruct (NoDup_snoc_inv _ _ ND). auto.
  Qed.

  (* a path that comes back to itself has a shortest such prefix *)
  Lemma first_repeat : forall root anc f, ipath root anc f ->
    NoDup anc \/ exists anc' f', ipath root anc' f' /\ NoDup anc' /\ In f' anc'.
  Proof.
    intros root anc f P. induction P as [|anc f g P IH Hg].
    - left. constructor.
    - destruct IH as [ND|R]; [|right; exact R].
      destruct (in_dec Nat.eq_dec f anc) as [I|NI].
      + right. exists anc, f. auto.
      + left. apply NoDup_snoc; assumption.
  Qed.

  Theorem cycle_reachable_spec : forall root, In root univ ->
    (cycle_reachable inc root <-> cycle_closings inc univ root <> []).
  Proof.
    intros root Hr. unfold cycle_reachable, cycle_closings. split.
    - intros (anc & f & P & I).
      assert (R : exists anc' f', ipath root anc' f' /\ NoDup anc' /\ In f' anc').
      { destruct (first_repeat root anc f P) as [ND|R]; [exists anc, f; auto|exact R]. }
      destruct R as (anc' & f' & P' & ND' & I').
      assert (H : In (anc', f') (filter v_cyc (all_visits inc univ root))).
      { apply filter_In. split; [apply walks_spec; auto|]. unfold v_cyc. simpl. apply memn_true. exact I'. }
      intros E. rewrite E in H. destruct H.
    - intros H. destruct (filter v_cyc (all_visits inc univ root)) as [|[anc f] l] eqn:E; [contradiction|].
      assert (I : In (anc, f) (filter v_cyc (all_visits inc univ root))) by (rewrite E; left; reflexivity).
      apply filter_In in I. destruct I as [I C]. apply walks_spec in I; [|exact Hr].
      exists anc, f. split; [apply I|]. apply memn_true. exact C.
  Qed.
End GraphProofs.

(* ranked (acyclic) graphs: the connection to [expand] (Model/PipeLoader.v) and to [gvisits] *)
Section Ranked.
  Variable inc : nat -> list nat.
  Variable rank : nat -> nat.
  Hypothesis Hrank : forall f g, In g (inc f) -> rank g < rank f.

  Notation E := (E inc rank).

  Lemma E_head : forall f, In f (E f).
  Proof. intros f. rewrite (E_unfold inc rank Hrank). left. reflexivity. Qed.

  (* the files of the include tree below f are closed under include *)
  Lemma E_closed : forall f x g, In x (E f) -> In g (inc x) -> In g (E f).
  Proof.
    induction f as [f IH] using (inc_ind inc rank Hrank). intros x g Hx Hg.
    rewrite (E_unfold inc rank Hrank) in Hx |- *. destruct Hx as [<-|Hx]; right; apply in_flat_map.
    - exists g. split; [exact Hg|apply E_head].
    - simpl in Hx. apply in_flat_map in Hx. destruct Hx as (h & Hh & Hx).
      exists h. split; [exact Hh|]. apply (IH h Hh x g); assumption.
  Qed.

  Lemma ranked_finite : forall root, finite_graph inc (E root) root.
  Proof. intros root. split; [apply E_head|]. intros f g Hf Hg. apply (E_closed root f g); assumption. Qed.

  (* on a ranked graph no visit closes a cycle and the files of the visits are the include tree *)
  Lemma Wk_ranked : forall univ, (forall f g, In f univ -> In g (inc f) -> In g univ) ->
    forall f anc, gvalid univ anc f -> (forall a, In a anc -> rank f < rank a) ->
    map snd (Wk inc univ anc f) = E f /\ forallb v_simple (Wk inc univ anc f) = true.
  Proof.
    intros univ Hc. induction f as [f IH] using (inc_ind inc rank Hrank). intros anc V Ha.
    assert (M : memn f anc = false).
    { apply memn_false. intros I. pose proof (Ha f I). lia. }
    rewrite (Wk_unfold inc univ anc f V), M, (E_unfold inc rank Hrank).
    assert (S : forall g, In g (inc f) ->
              map snd (Wk inc univ (anc ++ [f]) g) = E g /\ forallb v_simple (Wk inc univ (anc ++ [f]) g) = true).
    { intros g Hg. pose proof (Hrank _ _ Hg) as R. apply (IH g Hg); [apply (gvalid_step inc univ Hc); assumption|].
      intros a Ia. apply in_app_or in Ia. destruct Ia as [Ia|[<-|[]]]; [pose proof (Ha a Ia); lia|exact R]. }
    split.
    - cbn [map snd app]. f_equal. rewrite map_flat_map. apply flat_map_ext_in. intros g Hg. apply (S g Hg).
    - cbn [forallb]. unfold v_simple at 1, v_cyc. cbn [fst snd]. rewrite M. cbn [negb andb].
      rewrite forallb_flat_map. apply forallb_forall. intros g Hg. apply (S g Hg).
  Qed.

  Theorem all_visits_ranked : forall root,
    map snd (all_visits inc (E root) root) = E root /\
    cycle_closings inc (E root) root = [] /\
    simple_paths inc (E root) root = all_visits inc (E root) root.
  Proof.
    intros root. destruct (ranked_finite root) as [Hr Hc].
    rewrite (all_visits_Wk inc (E root) root) at 1.
    destruct (Wk_ranked (E root) Hc root []) as [A B].
    { repeat split; [constructor|intros x []|exact Hr]. }
    { intros a []. }
    split; [exact A|]. unfold cycle_closings, simple_paths. rewrite (all_visits_Wk inc (E root) root).
    rewrite forallb_forall in B. split.
    - destruct (filter v_cyc (Wk inc (E root) [] root)) as [|v l] eqn:F; [reflexivity|].
      assert (I : In v (filter v_cyc (Wk inc (E root) [] root))) by (rewrite F; left; reflexivity).
      apply filter_In in I. destruct I as [I C]. specialize (B v I). unfold v_simple in B. rewrite C in B. discriminate.
    - apply filter_all. exact B.
  Qed.

  (* the include tree in depth-first order is the visit list of C05_layout *)
  Theorem gvisits_ranked : forall root, gvisits inc root (E root).
  Proof.
    induction root as [f IH] using (inc_ind inc rank Hrank). rewrite (E_unfold inc rank Hrank).
    replace ([f] ++ flat_map E (inc f)) with (f :: concat (map E (inc f)))
      by (rewrite <- flat_map_concat_map; reflexivity).
    constructor. revert IH. generalize (inc f) as l.
    induction l as [|g l IHl]; intros S; simpl; constructor.
    - apply S. left. reflexivity.
    - apply IHl. intros h Hh. apply S. right. exact Hh.
  Qed.
End Ranked.

(* gvisits is nested in Forall2: its induction principle with the hypothesis for every include *)
Lemma gvisits_ind2 (inc : nat -> list nat) (P : nat -> list nat -> Prop) :
  (forall f vss, Forall2 (fun g vs => gvisits inc g vs /\ P g vs) (inc f) vss -> P f (f :: concat vss)) ->
  forall f vs, gvisits inc f vs -> P f vs.
Proof.
  intros Hstep. fix IH 3. intros f vs H. destruct H as [f vss HF].
  apply (Hstep f vss). revert HF. generalize (inc f) as ts. revert vss.
  fix IHF 3. intros vss ts HF. destruct HF as [|t vs ts' vss' Hv HF']; constructor.
  - split; [exact Hv|apply IH; exact Hv].
  - apply IHF. exact HF'.
Qed.

(* the visit list is unique *)
Lemma gvisits_det (inc : nat -> list nat) : forall f vs, gvisits inc f vs -> forall vs', gvisits inc f vs' -> vs = vs'.
Proof.
  intros f vs H. induction H as [f vss HF] using gvisits_ind2. intros vs' H'.
  destruct H' as [f vss' HF']. f_equal. f_equal.
  revert vss' HF'. induction HF as [|g vs l vss [_ IHg] HF IH]; intros vss' HF'; inversion HF'; subst; [reflexivity|].
  f_equal; [apply IHg; assumption|apply IH; assumption].
Qed.
