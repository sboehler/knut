(* C15, "the choice is the same on every run": proofs about Model/BayesScore.v, the model of
   the choice of the repaired bayes.go (/repo e8bd689).  No assumption on the floating-point
   operations, on strings.Fields or on strings.ToLower unless stated.

   A. inferAccount is a valid choice function ([infer_account_valid]); it is the first maximum
      of the sorted candidates ([infer_account_first_max], [fold_best_spec]: the winner beats
      every candidate before it and no candidate after it beats it -- for a score order that is
      a strict weak order this determines it: [first_max_unique]).
   B. Model.Infer with this choice ([infer_sems_c]) IS Model/Bayes.v [infer_sems] (variant
      Fixed) for a valid choice function ([infer_sems_c_sim], [infer_scored_is_infer_with]), so
      every theorem of Properties/C15.v about [infer_with ph Fixed ... choose], which holds for
      every valid [choose], holds of the command with its real choice.
   C. The choice is a function of the MULTISET of update events, the SET of tokens and the SET
      of map keys ([score_perm], [score_tokens_set], [best_loop_ext]; C15_choice_invariant): it
      does not depend on the order of the training transactions ([infer_scored_sems_perm]) nor on
      the order in which Go enumerates a map or a set (extends Proofs/InferOrder.v, C06, from the
      candidate list to the choice).                                                          *)
From Coq Require Import ZArith List Bool Lia Permutation Sorting.Sorted.
From Knut Require Import Model.Bytes Model.Utf8 Model.Scanner Model.Parser Model.SynPrinter
  Spec.FormatSpec Model.SynRender Model.Bayes Model.BayesScore Model.InferFs Spec.InferSpec Proofs.InferProofs
  Proofs.InferOrder Proofs.RoundTripLeaf Proofs.InferRoundTrip Proofs.ListFacts.
Import ListNotations.
Open Scope bool_scope.
Open Scope Z_scope.

Definition pick_valid (pick : str -> sem_booking -> str -> list str -> option str) : Prop :=
  (forall desc b other l x, pick desc b other l = Some x -> In x l) /\
  (forall desc b other l, l <> [] -> pick desc b other l <> None).

Lemma fold_left_ext {A B} (f g : A -> B -> A) : (forall a b, f a b = g a b) ->
  forall l x, fold_left f l x = fold_left g l x.
Proof. intros H. induction l as [|b l IH]; intros x; cbn [fold_left]; [reflexivity|]. now rewrite H, IH. Qed.

Lemma str_mem_in x l : str_mem x l = true <-> In x l.
Proof. exact (mem_in x l). Qed.

(* in a duplicate-free list two elements cannot each lie after the other *)
Lemma two_positions {A} : forall (l1 l2 l1' l2' : list A) c c',
  NoDup (l1 ++ c :: l2) -> l1 ++ c :: l2 = l1' ++ c' :: l2' -> In c' l2 -> In c l2' -> False.
Proof.
  induction l1 as [|h l1 IH]; intros l2 l1' l2' c c' Hnd E H1 H2; destruct l1' as [|h' l1']; cbn [app] in *.
  - inversion E; subst. inversion Hnd; subst. contradiction.
  - inversion E; subst. inversion Hnd as [|? ? Hni _]; subst. apply Hni. apply in_or_app. right. now right.
  - inversion E; subst. inversion Hnd as [|? ? Hni _]; subst. apply Hni. apply in_or_app. right. now right.
  - inversion E; subst. inversion Hnd; subst. eapply IH; eassumption.
Qed.

Section Loop.
Variable F : Type.
Variable fgt : F -> F -> bool.
Variable sc : str -> F.

Notation best_loop := (best_loop F fgt sc).

(* the cached maximum is the score of the best candidate *)
Lemma best_loop_some : forall l x, exists y, best_loop l (Some (x, sc x)) = Some (y, sc y).
Proof.
  induction l as [|c l IH]; intros x; cbn [BayesScoreM.best_loop]; [eauto|].
  destruct (fgt (sc c) (sc x)); apply IH.
Qed.

(* it is InferProofs.first_max for the comparison of scores *)
Lemma best_loop_first_max : forall l x,
  best_loop l (Some (x, sc x)) =
  (let y := fold_left (fun best c => if fgt (sc c) (sc best) then c else best) l x in Some (y, sc y)).
Proof.
  induction l as [|c l IH]; intros x; cbn [BayesScoreM.best_loop fold_left]; [reflexivity|].
  destruct (fgt (sc c) (sc x)); apply IH.
Qed.

Lemma best_loop_none l :
  option_map fst (best_loop l None) = first_max (fun c best => fgt (sc c) (sc best)) l.
Proof.
  destruct l as [|x l]; [reflexivity|]. cbn [BayesScoreM.best_loop first_max].
  rewrite best_loop_first_max. reflexivity.
Qed.

(* the winner: strictly better than every candidate before it (given that `>` is transitive and
   a > b implies a > c or c > b, as for every strict weak order), not beaten by any after it *)
Definition first_max_spec (l : list str) (c : str) : Prop :=
  exists l1 l2, l = l1 ++ c :: l2 /\
    (forall y, In y l1 -> fgt (sc c) (sc y) = true) /\
    (forall y, In y l2 -> fgt (sc y) (sc c) = false).

Hypothesis fgt_trans : forall a b c, fgt a b = true -> fgt b c = true -> fgt a c = true.
Hypothesis fgt_cotrans : forall a b c, fgt a b = true -> fgt a c = true \/ fgt c b = true.

(* read from the right: a new candidate wins only if it beats the best so far *)
Lemma fold_best_spec x : forall l,
  first_max_spec (x :: l) (fold_left (fun best c => if fgt (sc c) (sc best) then c else best) l x).
Proof.
  induction l as [|z l IH] using rev_ind; [exists [], []; repeat split; intros y []|].
  rewrite fold_left_app. cbn [fold_left]. destruct IH as (l1 & l2 & E & B & A).
  set (b := fold_left _ l x) in *. change (x :: l ++ [z]) with ((x :: l) ++ [z]). rewrite E.
  destruct (fgt (sc z) (sc b)) eqn:Hz.
  - (* z beats b, hence everything b beat, and everything that did not beat b *)
    exists (l1 ++ b :: l2), []. split; [reflexivity|]. split; [|intros y []].
    intros y Hy. apply in_app_or in Hy. destruct Hy as [Hy|[<-|Hy]].
    + exact (fgt_trans _ _ _ Hz (B y Hy)).
    + exact Hz.
    + destruct (fgt_cotrans _ _ (sc y) Hz) as [H|H]; [exact H|]. rewrite (A y Hy) in H. discriminate.
  - exists l1, (l2 ++ [z]). split; [rewrite <- app_assoc; reflexivity|]. split; [exact B|].
    intros y Hy. apply in_app_or in Hy. destruct Hy as [Hy|[<-|[]]]; [now apply A|exact Hz].
Qed.

(* for an irreflexive `>` the specification has at most one solution in a duplicate-free list *)
Hypothesis fgt_irrefl : forall a, fgt a a = false.

Theorem first_max_unique l c c' : NoDup l -> first_max_spec l c -> first_max_spec l c' -> c = c'.
Proof.
  intros Hnd (l1 & l2 & E & B1 & A1) (l1' & l2' & E' & B1' & A1').
  assert (Hin : In c' (l1 ++ c :: l2)) by (rewrite <- E, E'; apply in_elt).
  assert (Hc : In c (l1' ++ c' :: l2')) by (rewrite <- E', E; apply in_elt).
  apply in_app_or in Hin. apply in_app_or in Hc.
  destruct Hin as [Hin|[Hin|Hin]]; [|exact Hin|]; destruct Hc as [Hc|[Hc|Hc]]; try (symmetry; exact Hc).
  - (* each strictly before the other *)
    pose proof (fgt_trans _ _ _ (B1 c' Hin) (B1' c Hc)) as Hcc. rewrite fgt_irrefl in Hcc. discriminate.
  - pose proof (B1 c' Hin) as Hb. rewrite (A1' c Hc) in Hb. discriminate.
  - pose proof (B1' c Hc) as Hb. rewrite (A1 c' Hin) in Hb. discriminate.
  - (* each after the other: the list has a duplicate *)
    exfalso. subst l. exact (two_positions _ _ _ _ _ _ Hnd E' Hin Hc).
Qed.

End Loop.

Section Scored.
Variable F : Type.
Variable flog : Z -> Z -> F.
Variable fadd : F -> F -> F.
Variable fgt : F -> F -> bool.
Variable fields : str -> list str.
Variable lower : str -> str.
Variable ph : str.

Notation score := (score F flog fadd).
Notation infer_account := (infer_account F flog fadd fgt fields lower).
Notation events := (events fields lower ph).
Notation tokenize := (tokenize fields lower).

Lemma infer_account_first_max evs desc b other l :
  infer_account evs desc b other l =
  first_max (fun c best => fgt (score evs (tokenize desc b other) c) (score evs (tokenize desc b other) best)) l.
Proof. unfold BayesScoreM.infer_account. apply best_loop_none. Qed.

Lemma infer_account_valid evs : pick_valid (infer_account evs).
Proof.
  split; intros desc b other l; rewrite infer_account_first_max;
    [apply (proj1 (first_max_valid _) 0%nat) | apply (proj2 (first_max_valid _) 0%nat)].
Qed.

(* the keys of countByAccount are the trained accounts of Model/Bayes.v *)
Lemma update_events_accounts desc bs : map fst (update_events fields lower ph desc bs) = update_accounts ph bs.
Proof.
  unfold update_events, update_accounts. induction bs as [|b bs IHb]; [reflexivity|].
  cbn [flat_map]. rewrite map_app, IHb. f_equal.
  destruct (snd (sb_credit b) || snd (sb_debit b)); [reflexivity|].
  destruct (is_nil (fst (sb_credit b)) || is_nil (fst (sb_debit b))); [reflexivity|].
  destruct (str_eqb (fst (sb_credit b)) ph || str_eqb (fst (sb_debit b)) ph); reflexivity.
Qed.

Lemma events_accounts training : map fst (events training) = trained_accounts ph training.
Proof.
  unfold BayesScoreM.events, trained_accounts. induction training as [|d tr IH]; [reflexivity|].
  cbn [flat_map]. rewrite map_app. f_equal; [|exact IH].
  destruct d as [date desc bs p a| | | | | |]; try reflexivity. apply update_events_accounts.
Qed.

Lemma candidates_c_candidates training : candidates_c (events training) = candidates ph training.
Proof. unfold candidates_c, candidates. now rewrite events_accounts. Qed.

End Scored.

Section Simulation.
Variable ph : str.
Variable pick : str -> sem_booking -> str -> list str -> option str.
Hypothesis Hpick : pick_valid pick.
Variable cands : list str.

(* [choose] answers the calls k, k+1, ... like the recorded results [tr], on every list that is
   compatible with the result *)
Definition agrees (choose : nat -> list str -> option str) (k : nat) (tr : list (option str)) : Prop :=
  forall i r l, nth_error tr i = Some r ->
    match r with Some x => In x l | None => l = [] end -> choose (k + i)%nat l = r.

Lemma agrees_app choose k t1 t2 : agrees choose k (t1 ++ t2) ->
  agrees choose k t1 /\ agrees choose (k + length t1)%nat t2.
Proof.
  intros H. split; intros i r l Hn Hr.
  - apply H; [|exact Hr]. rewrite nth_error_app1; [exact Hn|]. apply nth_error_Some. congruence.
  - replace (k + length t1 + i)%nat with (k + (length t1 + i))%nat by lia. apply H; [|exact Hr].
    rewrite nth_error_app2 by lia. now replace (length t1 + i - length t1)%nat with i by lia.
Qed.

Variable choose : nat -> list str -> option str.

Lemma side_sim desc b acc other acc' tr k :
  infer_side_c ph pick cands desc b acc other = (acc', tr) -> agrees choose k tr ->
  infer_side ph Fixed choose cands k acc other = (acc', (k + length tr)%nat).
Proof.
  unfold infer_side_c, infer_side. destruct (str_eqb (fst acc) ph).
  - intros H Ha. inversion H; subst. clear H. cbn [length].
    assert (Hc : choose k (without other cands) = pick desc b other (without other cands)).
    { replace k with (k + 0)%nat at 1 by lia. apply Ha; [reflexivity|].
      destruct (pick desc b other (without other cands)) as [x|] eqn:Hp.
      - exact (proj1 Hpick _ _ _ _ _ Hp).
      - destruct (without other cands) eqn:Hw; [reflexivity|]. exfalso.
        apply (proj2 Hpick desc b other (s :: l)); [discriminate|]. exact Hp. }
    rewrite Hc. replace (k + 1)%nat with (S k) by lia.
    destruct (pick desc b other (without other cands)); reflexivity.
  - intros H _. inversion H; subst. cbn [length]. now rewrite Nat.add_0_r.
Qed.

Lemma booking_sim desc b b' tr k :
  infer_booking_c ph pick cands desc b = (b', tr) -> agrees choose k tr ->
  infer_booking ph Fixed choose cands k b = (b', (k + length tr)%nat).
Proof.
  unfold infer_booking_c, infer_booking.
  destruct (infer_side_c ph pick cands desc b (sb_credit b) (fst (sb_debit b))) as [c' t1] eqn:H1.
  destruct (infer_side_c ph pick cands desc b (sb_debit b) (fst c')) as [d' t2] eqn:H2.
  intros H Ha. inversion H; subst. clear H. destruct (agrees_app _ _ _ _ Ha) as (A1 & A2).
  rewrite (side_sim _ _ _ _ _ _ _ H1 A1). rewrite (side_sim _ _ _ _ _ _ _ H2 A2).
  now rewrite app_length, Nat.add_assoc.
Qed.

Lemma bookings_sim desc : forall bs bs' tr k,
  infer_bookings_c ph pick cands desc bs = (bs', tr) -> agrees choose k tr ->
  infer_bookings ph Fixed choose cands k bs = (bs', (k + length tr)%nat).
Proof.
  induction bs as [|b bs IH]; intros bs' tr k H Ha; cbn [infer_bookings_c infer_bookings] in *.
  - inversion H; subst. cbn [length]. now rewrite Nat.add_0_r.
  - destruct (infer_booking_c ph pick cands desc b) as [b1 t1] eqn:H1.
    destruct (infer_bookings_c ph pick cands desc bs) as [bs1 t2] eqn:H2.
    inversion H; subst. clear H. destruct (agrees_app _ _ _ _ Ha) as (A1 & A2).
    rewrite (booking_sim _ _ _ _ _ H1 A1), (IH _ _ _ eq_refl A2).
    now rewrite app_length, Nat.add_assoc.
Qed.

Lemma sems_sim : forall ds ds' tr k,
  infer_sems_c ph pick cands ds = (ds', tr) -> agrees choose k tr ->
  infer_sems ph Fixed choose cands k ds = (ds', (k + length tr)%nat).
Proof.
  induction ds as [|d ds IH]; intros ds' tr k H Ha; cbn [infer_sems_c infer_sems] in *.
  - inversion H; subst. cbn [length]. now rewrite Nat.add_0_r.
  - destruct d as [date desc bs p a| | | | | |];
      try (destruct (infer_sems_c ph pick cands ds) as [ds1 t2] eqn:H2; inversion H; subst; clear H;
           cbn [app] in Ha; now rewrite (IH _ _ _ eq_refl Ha)).
    destruct (infer_bookings_c ph pick cands desc bs) as [bs1 t1] eqn:H1.
    destruct (infer_sems_c ph pick cands ds) as [ds1 t2] eqn:H2.
    inversion H; subst. clear H. destruct (agrees_app _ _ _ _ Ha) as (A1 & A2).
    rewrite (bookings_sim _ _ _ _ _ H1 A1), (IH _ _ _ eq_refl A2).
    now rewrite app_length, Nat.add_assoc.
Qed.

End Simulation.

(* the choice function that replays recorded results (and is valid on every other list) *)
Definition choose_of (tr : list (option str)) (j : nat) (l : list str) : option str :=
  match nth_error tr j with
  | Some (Some x) => if str_mem x l then Some x else hd_error l
  | _ => hd_error l
  end.

Lemma hd_error_in (l : list str) x : hd_error l = Some x -> In x l.
Proof. destruct l; [discriminate|]. intros H. inversion H. now left. Qed.

Lemma choose_of_valid tr : valid_choose (choose_of tr).
Proof.
  split.
  - intros k l x. unfold choose_of. destruct (nth_error tr k) as [[y|]|]; try apply hd_error_in.
    destruct (str_mem y l) eqn:E; [|apply hd_error_in]. intros H. inversion H; subst. now apply str_mem_in.
  - intros k l Hl. unfold choose_of. destruct l as [|z l]; [congruence|].
    destruct (nth_error tr k) as [[y|]|]; try discriminate. destruct (str_mem y (z :: l)); discriminate.
Qed.

Lemma choose_of_agrees tr : agrees (choose_of tr) 0%nat tr.
Proof.
  intros i r l Hn Hr. unfold choose_of. cbn [Nat.add]. rewrite Hn. destruct r as [x|].
  - now rewrite (proj2 (str_mem_in x l) Hr).
  - subst l. reflexivity.
Qed.

(* Model.Infer with a valid context-dependent choice is infer_sems Fixed for a valid choice function *)
Theorem infer_sems_c_sim ph pick cands ds ds' tr :
  pick_valid pick -> infer_sems_c ph pick cands ds = (ds', tr) ->
  valid_choose (choose_of tr) /\
  infer_sems ph Fixed (choose_of tr) cands 0%nat ds = (ds', length tr).
Proof.
  intros Hp H. split; [apply choose_of_valid|].
  exact (sems_sim ph pick Hp cands (choose_of tr) ds ds' tr 0%nat H (choose_of_agrees tr)).
Qed.

Section ScoredCommand.
Variable F : Type.
Variable flog : Z -> Z -> F.
Variable fadd : F -> F -> F.
Variable fgt : F -> F -> bool.
Variable fields : str -> list str.
Variable lower : str -> str.
Variable ph : str.

Notation infer_account := (infer_account F flog fadd fgt fields lower).
Notation events := (events fields lower ph).
Notation infer_scored := (infer_scored F flog fadd fgt fields lower ph).

(* the command with its real choice is the command of Model/Bayes.v for a valid choice function:
   on given training meanings (Model/InferFs.v) ... *)
Theorem infer_scored_on_is_with_sems letter digit tr target :
  exists choose, valid_choose choose /\
    infer_scored_on letter digit ph F flog fadd fgt fields lower tr target
    = infer_with_sems letter digit ph Fixed choose tr target.
Proof.
  unfold InferFsM.infer_scored_on, InferFsM.infer_with_sems.
  destruct (parse_text letter digit target) as [ftg|e|] eqn:Htg;
    [|exists (choose_of []); split; [apply choose_of_valid|reflexivity]
     |exists (choose_of []); split; [apply choose_of_valid|reflexivity]].
  unfold BayesScoreM.infer_scored_sems.
  destruct (infer_sems_c ph (infer_account (events tr)) (candidates_c (events tr)) (sem target ftg)) as [sems t] eqn:Hs.
  destruct (infer_sems_c_sim ph _ _ _ _ _ (infer_account_valid F flog fadd fgt fields lower _) Hs) as (Hv & Hi).
  exists (choose_of t). split; [exact Hv|].
  rewrite (candidates_c_candidates fields lower ph) in Hi. now rewrite Hi.
Qed.

(* ... hence on one training text *)
Theorem infer_scored_is_infer_with letter digit training target :
  exists choose, valid_choose choose /\
    infer_scored letter digit training target = infer_with ph Fixed letter digit choose training target.
Proof.
  unfold BayesScoreM.infer_scored, infer_with.
  destruct (parse_text letter digit training) as [ftr|e|];
    [|exists (choose_of []); split; [apply choose_of_valid|reflexivity]
     |exists (choose_of []); split; [apply choose_of_valid|reflexivity]].
  exact (infer_scored_on_is_with_sems letter digit (sem training ftr) target).
Qed.

Lemma infer_scored_as_on letter digit training target ftr :
  parse_text letter digit training = ParseOk ftr ->
  infer_scored letter digit training target
  = infer_scored_on letter digit ph F flog fadd fgt fields lower (sem training ftr) target.
Proof.
  intros H. unfold BayesScoreM.infer_scored, InferFsM.infer_scored_on. rewrite H.
  destruct (parse_text letter digit target); reflexivity.
Qed.

(* hence the whole property for the command as it is, without any choice function in sight:
   on a target that parses it prints a text that parses, whose meaning satisfies the executable
   statement of the property (Spec/InferSpec.v) against the target and the training meanings,
   whose gaps are the target's; the text is in formatted form; running the command on it prints
   it again *)
Theorem infer_scored_on_correct letter digit tr target ftg :
  class_ok letter digit -> Forall (RoundTripInv.LexDir Utf8M.decode letter digit) tr ->
  parse_text letter digit target = ParseOk ftg ->
  exists out f',
    infer_scored_on letter digit ph F flog fadd fgt fields lower tr target = InferOut out /\
    parse_text letter digit out = ParseOk f' /\
    infer_ok_b ph tr (sem target ftg) (sem out f') = true /\
    gaps out f' = gaps target ftg /\
    format_text letter digit out f' = FOk out /\
    infer_scored_on letter digit ph F flog fadd fgt fields lower tr out = InferOut out.
Proof.
  intros Hcls Hlex Htg.
  destruct (infer_scored_on_is_with_sems letter digit tr target) as (choose & Hch & ->).
  destruct (infer_sems_total ph letter digit _ Hlex choose target ftg Hch Htg) as (out & Ho).
  destruct (infer_sems_roundtrip ph letter digit Hcls _ Hlex choose target out Hch Ho)
    as (ftg' & f' & k & Htg' & Hp' & _ & _ & Hok & Hg & Hf).
  assert (ftg' = ftg) by congruence. subst ftg'.
  exists out, f'. repeat (split; [assumption|]).
  destruct (infer_scored_on_is_with_sems letter digit tr out) as (choose' & Hch' & ->).
  exact (infer_sems_idempotent ph letter digit Hcls _ Hlex choose choose' target out Hch Hch' Ho).
Qed.

End ScoredCommand.

Section Determined.
Variable F : Type.
Variable flog : Z -> Z -> F.
Variable fadd : F -> F -> F.
Variable fgt : F -> F -> bool.
Variable fields : str -> list str.
Variable lower : str -> str.
Variable ph : str.

Notation score := (score F flog fadd).
Notation best_loop := (best_loop F fgt).
Notation infer_account := (infer_account F flog fadd fgt fields lower).
Notation events := (events fields lower ph).
Notation infer_scored_sems := (infer_scored_sems F flog fadd fgt fields lower ph).
Notation infer_scored := (infer_scored F flog fadd fgt fields lower ph).

(* the score depends on the events through the three counts only, i.e. on their multiset *)
Lemma score_perm evs1 evs2 toks c : Permutation evs1 evs2 -> score evs1 toks c = score evs2 toks c.
Proof.
  intros Hp. unfold BayesScoreM.score, count_total, count_account, count_token_account.
  rewrite (Permutation_length Hp), (Permutation_filter_length _ _ _ Hp).
  apply fold_left_ext. intros sc0 tok. now rewrite (Permutation_filter_length _ _ _ Hp).
Qed.

(* and on the token set, not on the order in which the set is enumerated *)
Lemma score_tokens_set evs t1 t2 c : (forall x, In x t1 <-> In x t2) -> score evs t1 c = score evs t2 c.
Proof. intros H. unfold BayesScoreM.score. now rewrite (sort_dedup_set t1 t2 H). Qed.

Lemma best_loop_ext sc1 sc2 : (forall c, sc1 c = sc2 c) -> forall l b, best_loop sc1 l b = best_loop sc2 l b.
Proof.
  intros H. induction l as [|c l IH]; intros b; cbn [BayesScoreM.best_loop]; [reflexivity|]. now rewrite H, IH.
Qed.

(* inferAccount as a function of (events, tokens, keys of countByAccount, other) *)
Definition choice (evs : list event) (tokens keys : list str) (other : str) : option str :=
  option_map fst (best_loop (score evs tokens) (without other (sort_dedup keys)) None).

Lemma infer_account_perm evs1 evs2 desc b other l : Permutation evs1 evs2 ->
  infer_account evs1 desc b other l = infer_account evs2 desc b other l.
Proof.
  intros Hp. unfold BayesScoreM.infer_account. f_equal. apply best_loop_ext. intros c. now apply score_perm.
Qed.

Lemma candidates_c_perm evs1 evs2 : Permutation evs1 evs2 -> candidates_c evs1 = candidates_c evs2.
Proof.
  intros Hp. unfold candidates_c. apply sort_dedup_set. intros x.
  pose proof (Permutation_map fst Hp) as Hm. split; intros Hx.
  - exact (Permutation_in x Hm Hx).
  - exact (Permutation_in x (Permutation_sym Hm) Hx).
Qed.

Lemma events_perm tr1 tr2 : Permutation tr1 tr2 -> Permutation (events tr1) (events tr2).
Proof. intros Hp. unfold BayesScoreM.events. now apply Permutation_flat_map. Qed.

(* Model.Infer depends on the choice function extensionally *)
Section Ext.
Variables pick1 pick2 : str -> sem_booking -> str -> list str -> option str.
Hypothesis Hext : forall desc b other l, pick1 desc b other l = pick2 desc b other l.
Variable cands : list str.

Lemma infer_side_c_ext desc b acc other :
  infer_side_c ph pick1 cands desc b acc other = infer_side_c ph pick2 cands desc b acc other.
Proof. unfold infer_side_c. now rewrite Hext. Qed.

Lemma infer_booking_c_ext desc b : infer_booking_c ph pick1 cands desc b = infer_booking_c ph pick2 cands desc b.
Proof.
  unfold infer_booking_c. rewrite infer_side_c_ext.
  destruct (infer_side_c ph pick2 cands desc b (sb_credit b) (fst (sb_debit b))) as [c' t1].
  now rewrite infer_side_c_ext.
Qed.

Lemma infer_bookings_c_ext desc bs : infer_bookings_c ph pick1 cands desc bs = infer_bookings_c ph pick2 cands desc bs.
Proof. induction bs as [|b bs IH]; cbn [infer_bookings_c]; [reflexivity|]. now rewrite infer_booking_c_ext, IH. Qed.

Lemma infer_sems_c_ext ds : infer_sems_c ph pick1 cands ds = infer_sems_c ph pick2 cands ds.
Proof.
  induction ds as [|d ds IH]; cbn [infer_sems_c]; [reflexivity|]. rewrite IH.
  destruct d; try reflexivity. now rewrite infer_bookings_c_ext.
Qed.

End Ext.

(* permuting the training transactions changes nothing: neither the inferred meanings nor the
   recorded choices *)
Theorem infer_scored_sems_perm tr1 tr2 target :
  Permutation tr1 tr2 -> infer_scored_sems tr1 target = infer_scored_sems tr2 target.
Proof.
  intros Hp. unfold BayesScoreM.infer_scored_sems. pose proof (events_perm tr1 tr2 Hp) as He.
  rewrite (candidates_c_perm _ _ He). apply infer_sems_c_ext.
  intros desc b other l. now apply infer_account_perm.
Qed.

End Determined.
