(* C15, training journal spread over an include tree (Model/InferFs.v).

   A. the skeleton of a text file system and the loader: the files `infer` trains on are, up to
      order, the visit list of the include tree ([training_files_visits], from C05_layout);
      a finite include tree loads ([visits_training_files], Proofs/LoaderVisits.v); the load
      never runs out of fuel (C14_load_terminates).
   B. the command on given training MEANINGS ([infer_with_sems], [infer_scored_on]): the
      theorems of Proofs/InferRoundTrip.v (round trip, totality, idempotence, rest-is-format)
      need of the training data only that its meanings are lexically valid ([LexDir]) -- true
      of the meanings of any number of parsed files ([training_sems_lex]).  Only the training
      transactions matter, not their order ([infer_with_sems_perm], [infer_scored_on_perm]).
   C. the command on a file tree: the output is a function of the MULTISET OF TRAINING
      TRANSACTIONS ([infer_cmd_fs_layout]: two file trees, any shapes, whose visited files hold
      permutations of the same transactions; [infer_scored_on_perm]: hence also any arrival
      order of the files); an include cycle, a missing or an unparseable file anywhere in the
      tree is an error and nothing is printed; a training file without includes is the
      one-file command of Model/Bayes.v / BayesScore.v. *)
From Coq Require Import ZArith List Bool Lia Permutation.
From Knut Require Import Model.Str Model.Ledger Model.Loader Proofs.LoaderProofs Proofs.OrderLayout Proofs.LoaderVisits.
From Knut Require Import Model.Bytes Model.Utf8 Model.Scanner Model.Parser Model.SynPrinter Spec.SyntaxSpec
  Proofs.ScannerProofs Proofs.ParserProofs Spec.FormatSpec Model.SynRender Proofs.FormatProofs
  Proofs.RoundTripBase Proofs.RoundTripLeaf Proofs.RoundTripInv Proofs.RoundTripRuns Proofs.RoundTripFile
  Model.Bayes Model.BayesScore Spec.InferSpec Proofs.InferProofs Proofs.InferOrder Proofs.InferRoundTrip
  Proofs.InferChoice Proofs.ListFacts Model.InferFs.
Import ListNotations.
Open Scope bool_scope.
Open Scope Z_scope.

Section Skeleton.
Variables letter digit : Z -> bool.

Notation skeleton := (skeleton letter digit).
Notation skeleton_file := (skeleton_file letter digit).
Notation file_sems := (file_sems letter digit).
Notation training_files := (training_files letter digit).
Notation training_sems := (training_sems letter digit).

Lemma lookup_skeleton fs p : LoaderM.lookup (skeleton fs) p = option_map (skeleton_file p) (tlookup fs p).
Proof.
  induction fs as [|[q c] fs IH]; [reflexivity|]. cbn [InferFsM.skeleton map fst snd LoaderM.lookup tlookup].
  destruct (path_eqb p q) eqn:E; [|exact IH]. apply path_eqb_eq in E. subst. reflexivity.
Qed.

Lemma own_include_items ds : own_directives (include_items ds) = [].
Proof.
  unfold include_items, own_directives. induction ds as [|d ds IH]; [reflexivity|].
  cbn [flat_map]. rewrite flat_map_app, IH, app_nil_r. destruct d; reflexivity.
Qed.

Lemma inc_include_items ds t : In t (inc_targets (include_items ds)) <-> In (SemInclude t) ds.
Proof.
  unfold include_items, inc_targets. induction ds as [|d ds IH]; [cbn; tauto|].
  cbn [flat_map]. rewrite flat_map_app, in_app_iff, IH. cbn [In].
  destruct d; cbn [flat_map app In]; split;
    try (intros [[]|H]; right; exact H);
    try (intros [E|H]; [discriminate E|right; exact H]).
  - intros [[->|[]]|H]; [left; reflexivity|right; exact H].
  - intros [E|H]; [inversion E; left; left; reflexivity|right; exact H].
Qed.

(* a file of the skeleton that is not FBad is a file that parses *)
Lemma skeleton_ok fs p items : LoaderM.lookup (skeleton fs) p = Some (LoaderM.FOk items) ->
  exists text f, tlookup fs p = Some text /\ parse_text letter digit text = ParseOk f /\
                 items = LoaderM.IDir (tag p) :: include_items (sem text f).
Proof.
  rewrite lookup_skeleton. destruct (tlookup fs p) as [text|]; [|discriminate]. cbn [option_map].
  unfold InferFsM.skeleton_file. destruct (parse_text letter digit text) as [f|e|] eqn:Hp; try discriminate.
  intros H. inversion H. eauto.
Qed.

Lemma skeleton_bad fs p : LoaderM.lookup (skeleton fs) p = Some LoaderM.FBad ->
  exists text, tlookup fs p = Some text /\ forall f, parse_text letter digit text <> ParseOk f.
Proof.
  rewrite lookup_skeleton. destruct (tlookup fs p) as [text|]; [|discriminate]. cbn [option_map].
  unfold InferFsM.skeleton_file. destruct (parse_text letter digit text) as [f|e|] eqn:Hp; try discriminate;
    intros _; exists text; split; try reflexivity; intros f; congruence.
Qed.

Lemma skeleton_missing fs p : LoaderM.lookup (skeleton fs) p = None <-> tlookup fs p = None.
Proof. rewrite lookup_skeleton. destruct (tlookup fs p); cbn [option_map]; split; congruence. Qed.

(* the only directive of a skeleton file is its tag *)
Lemma file_directives_skeleton fs p items :
  LoaderM.lookup (skeleton fs) p = Some (LoaderM.FOk items) -> file_directives (skeleton fs) p = [tag p].
Proof.
  intros H. unfold file_directives. rewrite H. destruct (skeleton_ok fs p items H) as (text & f & _ & _ & ->).
  cbn [own_directives flat_map app]. fold (own_directives (include_items (sem text f))).
  now rewrite own_include_items.
Qed.

Lemma visits_tags fs : forall vs, (forall q, In q vs -> exists items, LoaderM.lookup (skeleton fs) q = Some (LoaderM.FOk items)) ->
  flat_map (file_directives (skeleton fs)) vs = map tag vs.
Proof.
  induction vs as [|p vs IH]; intros H; [reflexivity|]. cbn [flat_map map].
  destruct (H p (or_introl eq_refl)) as (items & Hl). rewrite (file_directives_skeleton fs p items Hl).
  cbn [app]. f_equal. apply IH. intros q Hq. apply H. now right.
Qed.

Lemma untag_tags vs : map untag (map tag vs) = vs.
Proof. rewrite map_map. cbn [untag tag]. apply map_id. Qed.

(* THE FILES THE TRAINER GETS ARE, UP TO ORDER, THE VISIT LIST OF THE INCLUDE TREE (C05_layout) *)
Theorem training_files_visits fs root files :
  training_files fs root = TrOk files ->
  exists vs, visits (skeleton fs) root vs /\ Permutation files vs.
Proof.
  unfold InferFsM.training_files.
  destruct (LoaderM.load (fuel_for (skeleton fs)) (skeleton fs) root) as [tags|e|] eqn:Hl; try discriminate.
  intros E. inversion E. subst files. clear E.
  destruct (load_layout _ _ _ _ Hl) as (vs & Hv & Hp). exists vs. split; [exact Hv|].
  rewrite (visits_tags fs vs (visits_lookup _ _ _ Hv)) in Hp.
  rewrite <- (untag_tags vs). now apply Permutation_map.
Qed.

(* a finite include tree of files that parse loads (Proofs/LoaderVisits.v) *)
Theorem visits_training_files fs root vs :
  visits (skeleton fs) root vs -> exists files, training_files fs root = TrOk files /\ Permutation files vs.
Proof.
  intros Hv. destruct (visits_load _ _ _ Hv) as (tags & Hl).
  assert (E : training_files fs root = TrOk (map untag tags)) by (unfold InferFsM.training_files; now rewrite Hl).
  exists (map untag tags). split; [exact E|].
  destruct (training_files_visits fs root _ E) as (vs' & Hv' & Hp). now rewrite (visits_det _ _ _ Hv _ Hv').
Qed.

(* the load ends (C14_load_terminates) *)
Theorem training_files_fuel fs root : training_files fs root <> TrFuel.
Proof.
  unfold InferFsM.training_files. pose proof (load_terminates (skeleton fs) root) as H.
  destruct (LoaderM.load (fuel_for (skeleton fs)) (skeleton fs) root); congruence.
Qed.

(* an include cycle is an error (C14_cycle_is_error) *)
Theorem training_files_cycle fs S root :
  closed (skeleton fs) S -> S root -> exists e, training_files fs root = TrErr e.
Proof.
  intros Hc Hr. destruct (cycle_is_error _ _ _ Hc Hr) as (e & He). exists e.
  unfold InferFsM.training_files. now rewrite He.
Qed.

(* "closed" on the texts: every file of the set parses and includes a file of the set *)
Definition tclosed (fs : tfs) (S : LoaderM.path -> Prop) : Prop :=
  forall p, S p -> exists text f t, tlookup fs p = Some text /\ parse_text letter digit text = ParseOk f /\
                                   In (SemInclude t) (sem text f) /\ S (resolve p t).

Lemma in_include_items t ds : In (SemInclude t) ds -> In (LoaderM.IInc t) (include_items ds).
Proof. intros H. unfold include_items. apply in_flat_map. exists (SemInclude t). split; [assumption|now left]. Qed.

Lemma tclosed_closed fs S : tclosed fs S -> closed (skeleton fs) S.
Proof.
  intros H p Hp. destruct (H p Hp) as (text & f & t & Hl & Hparse & Hin & Hs).
  exists (LoaderM.IDir (tag p) :: include_items (sem text f)), t. split; [|split; [|exact Hs]].
  - rewrite lookup_skeleton, Hl. cbn [option_map]. unfold InferFsM.skeleton_file. now rewrite Hparse.
  - right. now apply in_include_items.
Qed.

(* a missing or unparseable file anywhere in the include graph is an error (C14) *)
Theorem training_files_bad fs root p :
  reach (skeleton fs) root p ->
  (tlookup fs p = None \/ exists text, tlookup fs p = Some text /\ forall f, parse_text letter digit text <> ParseOk f) ->
  exists e, training_files fs root = TrErr e.
Proof.
  intros Hr Hbad. unfold InferFsM.training_files.
  destruct (LoaderM.load (fuel_for (skeleton fs)) (skeleton fs) root) as [tags|e|] eqn:Hl.
  - exfalso. revert Hl. apply (included_error_fails_all _ _ p Hr).
    destruct Hbad as [Hn|(text & Ht & Hnp)].
    + left. now apply skeleton_missing.
    + right. rewrite lookup_skeleton, Ht. cbn [option_map]. unfold InferFsM.skeleton_file.
      destruct (parse_text letter digit text) as [f|e|] eqn:Hp; try reflexivity. exfalso. exact (Hnp f eq_refl).
  - eauto.
  - exfalso. revert Hl. apply load_terminates.
Qed.

Lemma file_sems_lex fs p : Forall (LexDir Utf8M.decode letter digit) (file_sems fs p).
Proof.
  unfold InferFsM.file_sems. destruct (tlookup fs p) as [text|]; [|constructor].
  destruct (parse_text letter digit text) as [f|e|] eqn:Hp; try constructor. now apply parse_lexdir.
Qed.

Lemma training_sems_lex fs files : Forall (LexDir Utf8M.decode letter digit) (training_sems fs files).
Proof.
  unfold InferFsM.training_sems. induction files as [|p files IH]; [constructor|].
  cbn [flat_map]. apply Forall_app. split; [apply file_sems_lex|exact IH].
Qed.

Lemma training_sems_perm fs l1 l2 : Permutation l1 l2 -> Permutation (training_sems fs l1) (training_sems fs l2).
Proof. intros H. unfold InferFsM.training_sems. now apply Permutation_flat_map. Qed.

(* a file without include directives: the tree is the file *)
Lemma training_files_single fs root text f :
  tlookup fs root = Some text -> parse_text letter digit text = ParseOk f ->
  (forall t, ~ In (SemInclude t) (sem text f)) ->
  training_files fs root = TrOk [root] /\ training_sems fs [root] = sem text f.
Proof.
  intros Hl Hp Hni. split.
  - unfold InferFsM.training_files, LoaderM.load, fuel_for.
    cbn [load_file mem_path existsb]. rewrite lookup_skeleton, Hl. cbn [option_map].
    unfold InferFsM.skeleton_file. rewrite Hp.
    assert (E : include_items (sem text f) = []).
    { unfold include_items. induction (sem text f) as [|d ds IH]; [reflexivity|]. cbn [flat_map].
      rewrite IH; [|intros t Ht; apply (Hni t); now right].
      destruct d as [| | | | |pth|]; try reflexivity. exfalso. apply (Hni pth). now left. }
    rewrite E. reflexivity.
  - unfold InferFsM.training_sems, InferFsM.file_sems. cbn [flat_map]. rewrite Hl, Hp. apply app_nil_r.
Qed.

Lemma training_files_single_bad fs root text :
  tlookup fs root = Some text -> (forall f, parse_text letter digit text <> ParseOk f) ->
  exists e, training_files fs root = TrErr e.
Proof.
  intros Hl Hp. apply (training_files_bad fs root root); [constructor|]. right. eauto.
Qed.

End Skeleton.

(* transactions only: everything else is ignored by the trainer *)
Definition is_trx (d : sem_directive) : bool := match d with SemTrx _ _ _ _ _ => true | _ => false end.
Definition trxs (ds : list sem_directive) : list sem_directive := filter is_trx ds.

Lemma trxs_perm l1 l2 : Permutation l1 l2 -> Permutation (trxs l1) (trxs l2).
Proof. apply Permutation_filter. Qed.

Lemma trained_accounts_trxs ph tr : trained_accounts ph (trxs tr) = trained_accounts ph tr.
Proof.
  unfold trained_accounts, trxs. induction tr as [|d tr IH]; [reflexivity|]. cbn [filter flat_map].
  destruct d; cbn [is_trx flat_map app]; try exact IH. now rewrite IH.
Qed.

Lemma candidates_trxs ph tr : candidates ph (trxs tr) = candidates ph tr.
Proof. unfold candidates. now rewrite trained_accounts_trxs. Qed.

Lemma candidates_perm ph tr1 tr2 : Permutation tr1 tr2 -> candidates ph tr1 = candidates ph tr2.
Proof.
  intros Hp. apply candidates_set. intros x. unfold trained_accounts.
  assert (Hq := Permutation_flat_map (fun d => match d with SemTrx _ _ bs _ _ => update_accounts ph bs | _ => [] end) Hp).
  split; intros H; [exact (Permutation_in x Hq H)|exact (Permutation_in x (Permutation_sym Hq) H)].
Qed.

Section OnSems.
Variable ph : str.
Variables letter digit : Z -> bool.

Notation infer_with_sems := (infer_with_sems letter digit ph).

(* the one-file commands are the commands on the meanings of that file *)
Lemma infer_with_as_sems v choose training target ftr :
  parse_text letter digit training = ParseOk ftr ->
  infer_with ph v letter digit choose training target = infer_with_sems v choose (sem training ftr) target.
Proof. apply infer_with_on_sems. Qed.

(* only the transactions of the training data matter, and not their order *)
Lemma infer_with_sems_trxs v choose tr target :
  infer_with_sems v choose (trxs tr) target = infer_with_sems v choose tr target.
Proof. unfold InferFsM.infer_with_sems. now rewrite candidates_trxs. Qed.

Lemma infer_with_sems_perm v choose tr1 tr2 target : Permutation (trxs tr1) (trxs tr2) ->
  infer_with_sems v choose tr1 target = infer_with_sems v choose tr2 target.
Proof.
  intros Hp. rewrite <- (infer_with_sems_trxs v choose tr1), <- (infer_with_sems_trxs v choose tr2).
  unfold InferFsM.infer_with_sems. now rewrite (candidates_perm ph _ _ Hp).
Qed.

Lemma infer_with_sems_without_placeholder v choose tr target ftg :
  parse_text letter digit target = ParseOk ftg -> Forall (directive_free ph) (sem target ftg) ->
  exists out, format_text letter digit target ftg = FOk out /\ infer_with_sems v choose tr target = InferOut out.
Proof.
  intros Htg Hfree. destruct (format_parsed _ _ _ _ Htg) as (out & Hout). exists out. split; [assumption|].
  unfold InferFsM.infer_with_sems. rewrite Htg, (infer_sems_free ph v choose _ _ 0%nat Hfree).
  now rewrite (format_text_render _ _ _ _ _ Hout).
Qed.

End OnSems.

Section ScoredOn.
Variable F : Type.
Variable flog : Z -> Z -> F.
Variable fadd : F -> F -> F.
Variable fgt : F -> F -> bool.
Variable fields : str -> list str.
Variable lower : str -> str.
Variable ph : str.
Variables letter digit : Z -> bool.

Notation infer_account := (infer_account F flog fadd fgt fields lower).
Notation events := (events fields lower ph).
Notation infer_scored := (infer_scored F flog fadd fgt fields lower ph).
Notation infer_scored_sems := (infer_scored_sems F flog fadd fgt fields lower ph).
Notation infer_scored_on := (infer_scored_on letter digit ph F flog fadd fgt fields lower).
Notation infer_with_sems := (infer_with_sems letter digit ph).

Lemma events_trxs tr : events (trxs tr) = events tr.
Proof.
  unfold BayesScoreM.events, trxs. induction tr as [|d tr IH]; [reflexivity|]. cbn [filter flat_map].
  destruct d; cbn [is_trx flat_map app]; try exact IH. now rewrite IH.
Qed.

Lemma infer_scored_sems_trxs tr target : infer_scored_sems (trxs tr) target = infer_scored_sems tr target.
Proof. unfold BayesScoreM.infer_scored_sems. now rewrite events_trxs. Qed.

(* THE OUTPUT IS A FUNCTION OF THE MULTISET OF TRAINING TRANSACTIONS *)
Theorem infer_scored_on_perm tr1 tr2 target : Permutation (trxs tr1) (trxs tr2) ->
  infer_scored_on tr1 target = infer_scored_on tr2 target.
Proof.
  intros Hp. unfold InferFsM.infer_scored_on. destruct (parse_text letter digit target) as [ftg|e|]; try reflexivity.
  rewrite <- (infer_scored_sems_trxs tr1), <- (infer_scored_sems_trxs tr2).
  now rewrite (infer_scored_sems_perm F flog fadd fgt fields lower ph _ _ (sem target ftg) Hp).
Qed.

End ScoredOn.

Section OnFs.
Variable ph : str.
Variables letter digit : Z -> bool.

Notation skeleton := (skeleton letter digit).
Notation training_files := (training_files letter digit).
Notation training_sems := (training_sems letter digit).
Notation file_sems := (file_sems letter digit).
Notation infer_with_sems := (infer_with_sems letter digit ph).
Notation infer_with_fs := (infer_with_fs letter digit ph).
Notation infer_with_fs_arrival := (infer_with_fs_arrival letter digit ph).

(* what a run that printed something did *)
Lemma infer_with_fs_out v choose fs troot target out :
  infer_with_fs v choose fs troot target = InferOut out ->
  exists files, training_files fs troot = TrOk files /\
                infer_with_sems v choose (training_sems fs files) target = InferOut out.
Proof.
  unfold InferFsM.infer_with_fs, InferFsM.infer_with_fs_arrival.
  destruct (training_files fs troot) as [files|e|]; try discriminate. eauto.
Qed.

Lemma infer_with_fs_ok v choose fs troot target files :
  training_files fs troot = TrOk files ->
  infer_with_fs v choose fs troot target = infer_with_sems v choose (training_sems fs files) target.
Proof. intros H. unfold InferFsM.infer_with_fs, InferFsM.infer_with_fs_arrival. now rewrite H. Qed.

(* the files may reach the trainer in any order *)
Theorem infer_with_fs_arrival_irrelevant arrive v choose fs troot target :
  (forall l, Permutation l (arrive l)) ->
  infer_with_fs_arrival arrive v choose fs troot target = infer_with_fs v choose fs troot target.
Proof.
  intros Ha. unfold InferFsM.infer_with_fs, InferFsM.infer_with_fs_arrival.
  destruct (training_files fs troot) as [files|e|]; try reflexivity.
  apply infer_with_sems_perm. apply trxs_perm. apply training_sems_perm. apply Permutation_sym. apply Ha.
Qed.

(* an error while loading the training journal: exit 1, nothing printed *)
Lemma infer_with_fs_err v choose fs troot target e :
  training_files fs troot = TrErr e -> infer_with_fs v choose fs troot target = InferErr.
Proof. intros H. unfold InferFsM.infer_with_fs, InferFsM.infer_with_fs_arrival. now rewrite H. Qed.

Section WithScore.
Variable F : Type.
Variable flog : Z -> Z -> F.
Variable fadd : F -> F -> F.
Variable fgt : F -> F -> bool.
Variable fields : str -> list str.
Variable lower : str -> str.

Notation infer_scored := (infer_scored F flog fadd fgt fields lower ph).
Notation infer_scored_on := (infer_scored_on letter digit ph F flog fadd fgt fields lower).
Notation infer_cmd_fs := (infer_cmd_fs letter digit ph F flog fadd fgt fields lower).
Notation infer_cmd_fs_arrival := (infer_cmd_fs_arrival letter digit ph F flog fadd fgt fields lower).

Lemma infer_cmd_fs_ok fs troot target files :
  training_files fs troot = TrOk files ->
  infer_cmd_fs fs troot target = infer_scored_on (training_sems fs files) target.
Proof. intros H. unfold InferFsM.infer_cmd_fs, InferFsM.infer_cmd_fs_arrival. now rewrite H. Qed.

Lemma infer_cmd_fs_err fs troot target e :
  training_files fs troot = TrErr e -> infer_cmd_fs fs troot target = InferErr.
Proof. intros H. unfold InferFsM.infer_cmd_fs, InferFsM.infer_cmd_fs_arrival. now rewrite H. Qed.

(* THE LAYOUT OF THE TRAINING JOURNAL DOES NOT MATTER: two file trees (any shapes, any file
   names) whose include trees are finite and whose visited files hold, all together,
   permutations of the same transactions give the same result on every target *)
Theorem infer_cmd_fs_layout fs1 root1 vs1 fs2 root2 vs2 target :
  visits (skeleton fs1) root1 vs1 -> visits (skeleton fs2) root2 vs2 ->
  Permutation (trxs (training_sems fs1 vs1)) (trxs (training_sems fs2 vs2)) ->
  infer_cmd_fs fs1 root1 target = infer_cmd_fs fs2 root2 target.
Proof.
  intros H1 H2 Hp.
  destruct (visits_training_files letter digit fs1 root1 vs1 H1) as (files1 & E1 & P1).
  destruct (visits_training_files letter digit fs2 root2 vs2 H2) as (files2 & E2 & P2).
  rewrite (infer_cmd_fs_ok _ _ _ _ E1), (infer_cmd_fs_ok _ _ _ _ E2).
  apply infer_scored_on_perm.
  eapply Permutation_trans; [apply trxs_perm; apply training_sems_perm; exact P1|].
  eapply Permutation_trans; [exact Hp|].
  apply trxs_perm. apply training_sems_perm. apply Permutation_sym. exact P2.
Qed.

(* a training file without include directives: the command of Model/BayesScore.v *)
Theorem infer_cmd_fs_no_includes fs root training target :
  tlookup fs root = Some training ->
  (forall ftr t, parse_text letter digit training = ParseOk ftr -> ~ In (SemInclude t) (sem training ftr)) ->
  infer_cmd_fs fs root target = infer_scored letter digit training target.
Proof.
  intros Hl Hni. destruct (parse_text letter digit training) as [ftr|e|] eqn:Hp.
  - destruct (training_files_single letter digit fs root training ftr Hl Hp (fun t => Hni ftr t eq_refl)) as (E & Es).
    rewrite (infer_cmd_fs_ok _ _ _ _ E), Es.
    symmetry. now apply infer_scored_as_on.
  - destruct (training_files_single_bad letter digit fs root training Hl) as (e' & E); [intros f; congruence|].
    rewrite (infer_cmd_fs_err _ _ _ _ E). unfold BayesScoreM.infer_scored. rewrite Hp.
    pose proof (parse_text_fuel letter digit target) as Hf.
    destruct (parse_text letter digit target); congruence.
  - exfalso. exact (parse_text_fuel letter digit training Hp).
Qed.

End WithScore.

End OnFs.
