(* C06, infer: the candidate list handed to inferAccount (Model/Bayes.v [candidates], the keys
   of the countByAccount map, sorted since e8bd689) is a function of the SET of trained
   accounts: it does not depend on the order in which the map yields its keys, nor on how
   often or in which order the training file mentions an account. *)
From Coq Require Import ZArith List Bool Lia Sorting.Sorted.
From Knut Require Import Model.Bytes Model.Bayes Spec.FormatSpec Proofs.InferProofs.
Import ListNotations.
Open Scope bool_scope.
Open Scope Z_scope.

Lemma bstr_ltb_irrefl a : str_ltb a a = false.
Proof. induction a as [|x a IH]; cbn; [reflexivity|]. rewrite Z.ltb_irrefl, Z.eqb_refl, IH. reflexivity. Qed.

Lemma bstr_ltb_trans a : forall b c, str_ltb a b = true -> str_ltb b c = true -> str_ltb a c = true.
Proof.
  induction a as [|x a IH]; intros [|y b] [|z c]; cbn; try discriminate; try reflexivity.
  rewrite !orb_true_iff, !andb_true_iff, !Z.ltb_lt, !Z.eqb_eq.
  intros [H1|[H1 H1']] [H2|[H2 H2']].
  - left. lia.
  - left. lia.
  - left. lia.
  - right. split; [lia|]. eapply IH; eassumption.
Qed.

Lemma bstr_ltb_total a : forall b, str_ltb a b = false -> str_ltb b a = false -> a = b.
Proof.
  induction a as [|x a IH]; intros [|y b]; cbn; try discriminate; [reflexivity|].
  rewrite !orb_false_iff, !andb_false_iff, !Z.ltb_ge, !Z.eqb_neq.
  intros [H1 H1'] [H2 H2']. assert (x = y) by lia. subst y. f_equal. apply IH.
  - destruct H1' as [H|H]; [congruence|exact H].
  - destruct H2' as [H|H]; [congruence|exact H].
Qed.

Definition bstr_lt (a b : str) : Prop := str_ltb a b = true.

Lemma insert_sorted_ssorted x l : StronglySorted bstr_lt l -> StronglySorted bstr_lt (insert_sorted x l).
Proof.
  induction l as [|y l IH]; intros Hs; cbn [insert_sorted].
  - constructor; constructor.
  - inversion Hs as [|? ? Hs' Hall]; subst. destruct (str_eqb x y) eqn:E1; [exact Hs|].
    destruct (str_ltb x y) eqn:E2.
    + constructor; [exact Hs|]. constructor; [exact E2|].
      rewrite Forall_forall in *. intros z Hz. exact (bstr_ltb_trans _ _ _ E2 (Hall z Hz)).
    + constructor; [apply IH; exact Hs'|].
      rewrite Forall_forall in *. intros z Hz. apply insert_sorted_in in Hz. destruct Hz as [Hz|Hz].
      * subst z. unfold bstr_lt. destruct (str_ltb y x) eqn:E3; [reflexivity|].
        apply bstr_eqb_neq in E1. exfalso. apply E1. apply bstr_ltb_total; assumption.
      * apply Hall. exact Hz.
Qed.

Lemma sort_dedup_ssorted l : StronglySorted bstr_lt (sort_dedup l).
Proof.
  unfold sort_dedup. induction l as [|x l IH]; cbn [fold_right]; [constructor|].
  apply insert_sorted_ssorted. exact IH.
Qed.

Lemma ssorted_unique (l1 : list str) : forall l2,
  StronglySorted bstr_lt l1 -> StronglySorted bstr_lt l2 -> (forall x, In x l1 <-> In x l2) -> l1 = l2.
Proof.
  induction l1 as [|a l1 IH]; intros [|b l2] S1 S2 H.
  - reflexivity.
  - exfalso. apply (H b). left. reflexivity.
  - exfalso. apply (H a). left. reflexivity.
  - inversion S1 as [|? ? S1' A1]; inversion S2 as [|? ? S2' A2]; subst.
    rewrite Forall_forall in A1, A2.
    assert (Hasym : forall u w, bstr_lt u w -> bstr_lt w u -> False).
    { intros u w H1 H2. pose proof (bstr_ltb_trans _ _ _ H1 H2) as H3. rewrite bstr_ltb_irrefl in H3. discriminate. }
    assert (a = b).
    { destruct (proj1 (H a) (or_introl eq_refl)) as [E|E]; [symmetry; exact E|].
      destruct (proj2 (H b) (or_introl eq_refl)) as [E'|E']; [exact E'|].
      exfalso. exact (Hasym _ _ (A1 _ E') (A2 _ E)). }
    subst b. f_equal. apply IH; try assumption.
    intros x. split; intros Hx.
    + destruct (proj1 (H x) (or_intror Hx)) as [E|E]; [|exact E]. subst x.
      pose proof (A1 _ Hx) as H1. unfold bstr_lt in H1. rewrite bstr_ltb_irrefl in H1. discriminate.
    + destruct (proj2 (H x) (or_intror Hx)) as [E|E]; [|exact E]. subst x.
      pose proof (A2 _ Hx) as H1. unfold bstr_lt in H1. rewrite bstr_ltb_irrefl in H1. discriminate.
Qed.

(* sorted keys of a map: a function of the key set *)
Theorem sort_dedup_set l1 l2 : (forall x, In x l1 <-> In x l2) -> sort_dedup l1 = sort_dedup l2.
Proof.
  intros H. apply ssorted_unique; try apply sort_dedup_ssorted.
  intros x. rewrite !sort_dedup_in. apply H.
Qed.

(* two training files that mention the same accounts (in any order, any number of times)
   offer the same candidates, in the same order *)
Theorem candidates_set ph tr1 tr2 :
  (forall x, In x (trained_accounts ph tr1) <-> In x (trained_accounts ph tr2)) ->
  candidates ph tr1 = candidates ph tr2.
Proof. apply sort_dedup_set. Qed.

(* hence the whole inference, for any choice function (the scores) *)
Theorem infer_sems_candidates_set ph v choose tr1 tr2 k target :
  (forall x, In x (trained_accounts ph tr1) <-> In x (trained_accounts ph tr2)) ->
  infer_sems ph v choose (candidates ph tr1) k target = infer_sems ph v choose (candidates ph tr2) k target.
Proof. intros H. rewrite (candidates_set ph tr1 tr2 H). reflexivity. Qed.
