(* Proofs about Model/Bayes.v (C15), for EVERY choice function that returns an element of the
   candidate list it is given and returns one whenever that list is not empty.               *)
From Coq Require Import ZArith List Bool Lia.
From Knut Require Import Model.Bytes Model.Utf8 Model.Scanner Model.Parser Model.SynPrinter
  Spec.SyntaxSpec Proofs.ScannerProofs Proofs.ParserProofs Spec.FormatSpec Model.SynRender
  Proofs.FormatProofs Model.Bayes Spec.InferSpec Proofs.LexBytes.
Import ListNotations.
Open Scope bool_scope.
Open Scope Z_scope.

Definition valid_choose (choose : nat -> list str -> option str) : Prop :=
  (forall k l x, choose k l = Some x -> In x l) /\ (forall k l, l <> [] -> choose k l <> None).

Lemma bstr_eqb_neq a b : str_eqb a b = false <-> a <> b.
Proof. rewrite <- str_eqb_eq. destruct (str_eqb a b); split; congruence. Qed.

Lemma insert_sorted_in x y l : In y (insert_sorted x l) <-> y = x \/ In y l.
Proof.
  induction l as [|z l IH]; cbn [insert_sorted].
  - cbn [In]. intuition congruence.
  - destruct (str_eqb x z) eqn:E.
    + apply str_eqb_eq in E. subst. cbn [In]. intuition congruence.
    + destruct (str_ltb x z); cbn [In]; rewrite ?IH; intuition congruence.
Qed.

Lemma sort_dedup_in y l : In y (sort_dedup l) <-> In y l.
Proof.
  unfold sort_dedup. induction l as [|x l IH]; cbn [fold_right]; [reflexivity|].
  rewrite insert_sorted_in, IH. cbn [In]. intuition congruence.
Qed.

Section WithPlaceholder.
Variable ph : str.

(* a trained account is the text of a non-macro side of a training booking, and not the placeholder *)
Lemma update_accounts_side bs x : In x (update_accounts ph bs) ->
  x <> ph /\ exists b, In b bs /\ (sb_credit b = (x, false) \/ sb_debit b = (x, false)).
Proof.
  unfold update_accounts. rewrite in_flat_map. intros (b & Hb & Hin).
  destruct (sb_credit b) as [c mc] eqn:Ec; destruct (sb_debit b) as [d md] eqn:Ed; cbn [fst snd] in *.
  destruct mc; [destruct Hin|]. destruct md; [destruct Hin|]. cbn [orb] in Hin.
  destruct (is_nil c || is_nil d); [destruct Hin|].
  destruct (str_eqb c ph) eqn:E1; [destruct Hin|]. destruct (str_eqb d ph) eqn:E2; [destruct Hin|].
  apply bstr_eqb_neq in E1, E2. cbn [orb] in Hin.
  destruct Hin as [<-|[<-|[]]]; (split; [assumption|]); exists b; rewrite Ec, Ed; auto.
Qed.

Lemma candidates_side training x : In x (candidates ph training) ->
  x <> ph /\ exists date desc bs p a b, In (SemTrx date desc bs p a) training /\ In b bs /\
                                         (sb_credit b = (x, false) \/ sb_debit b = (x, false)).
Proof.
  unfold candidates, trained_accounts. rewrite sort_dedup_in, in_flat_map.
  intros (d & Hd & Hin). destruct d as [date desc bs p a| | | | | |]; try destruct Hin.
  destruct (update_accounts_side bs x Hin) as (Hne & b & Hb & Hs).
  split; [exact Hne|]. exists date, desc, bs, p, a, b. auto.
Qed.

Lemma candidates_not_ph training : ~ In ph (candidates ph training).
Proof. intros H. apply candidates_side in H. destruct H as [H _]. now apply H. Qed.

(* every candidate is an account of a training booking *)
Definition booking_accounts (d : sem_directive) : list str :=
  match d with
  | SemTrx _ _ bs _ _ => flat_map (fun b => [fst (sb_credit b); fst (sb_debit b)]) bs
  | _ => []
  end.

Lemma candidates_in_training training x :
  In x (candidates ph training) -> exists d, In d training /\ In x (booking_accounts d).
Proof.
  intros H. destruct (candidates_side _ _ H) as (_ & date & desc & bs & p & a & b & Hd & Hb & Hs).
  exists (SemTrx date desc bs p a). split; [exact Hd|]. cbn [booking_accounts].
  apply in_flat_map. exists b. split; [exact Hb|]. destruct Hs as [-> | ->]; cbn [fst In]; auto.
Qed.

Lemma without_in other l x : In x (without other l) <-> In x l /\ x <> other.
Proof.
  unfold without. rewrite filter_In. split; intros (H1 & H2); split; try assumption.
  - apply negb_true_iff in H2. now apply bstr_eqb_neq.
  - apply negb_true_iff. destruct (str_eqb x other) eqn:E; [|reflexivity].
    apply str_eqb_eq in E. contradiction.
Qed.

Variable v : variant.
Variable choose : nat -> list str -> option str.
Hypothesis Hch : valid_choose choose.
Variable cands : list str.

(* what inference does to one side of a booking, [other] being the account it excludes *)
Definition side_rel (acc acc' : sem_account) (other : str) : Prop :=
  (fst acc <> ph /\ acc' = acc) \/
  (fst acc = ph /\
   ((exists x, acc' = (x, false) /\ In x cands /\ x <> other) \/
    (without other cands = [] /\ acc' = match v with Orig => ([], false) | Fixed => acc end))).

Lemma infer_side_rel k acc other acc' k' :
  infer_side ph v choose cands k acc other = (acc', k') -> side_rel acc acc' other.
Proof.
  unfold infer_side, side_rel. destruct (str_eqb (fst acc) ph) eqn:E.
  - apply str_eqb_eq in E. intros H. right. split; [assumption|].
    destruct (choose k (without other cands)) as [x|] eqn:Hc.
    + inversion H; subst. left. exists x. split; [reflexivity|].
      apply (proj1 Hch) in Hc. now apply without_in in Hc.
    + right. split.
      * destruct (without other cands) eqn:Hw; [reflexivity|].
        exfalso. apply (proj2 Hch k (s :: l)); [discriminate|assumption].
      * destruct v; inversion H; reflexivity.
  - apply bstr_eqb_neq in E. intros H. inversion H; subst. left. split; [assumption|reflexivity].
Qed.

Definition booking_rel (b b' : sem_booking) : Prop :=
  sb_quantity b' = sb_quantity b /\ sb_commodity b' = sb_commodity b /\
  side_rel (sb_credit b) (sb_credit b') (fst (sb_debit b)) /\
  side_rel (sb_debit b) (sb_debit b')
           (match v with Orig => fst (sb_credit b) | Fixed => fst (sb_credit b') end).

Lemma infer_booking_rel k b b' k' :
  infer_booking ph v choose cands k b = (b', k') -> booking_rel b b'.
Proof.
  unfold infer_booking, booking_rel.
  destruct (infer_side ph v choose cands k (sb_credit b) (fst (sb_debit b))) as [c' k1] eqn:H1.
  destruct (infer_side ph v choose cands k1 (sb_debit b)
              (match v with Orig => fst (sb_credit b) | Fixed => fst c' end)) as [d' k2] eqn:H2.
  intros H. inversion H; subst. cbn [sb_quantity sb_commodity sb_credit sb_debit].
  repeat split; [eapply infer_side_rel; eassumption|eapply infer_side_rel; eassumption].
Qed.

Lemma infer_bookings_rel : forall bs k bs' k',
  infer_bookings ph v choose cands k bs = (bs', k') -> Forall2 booking_rel bs bs'.
Proof.
  induction bs as [|b bs IH]; intros k bs' k' H; cbn [infer_bookings] in H.
  - inversion H. constructor.
  - destruct (infer_booking ph v choose cands k b) as [b1 k1] eqn:H1.
    destruct (infer_bookings ph v choose cands k1 bs) as [bs1 k2] eqn:H2.
    inversion H; subst. constructor; [eapply infer_booking_rel; eassumption|eapply IH; eassumption].
Qed.

(* a directive and its image: everything but the booking accounts is kept *)
Definition directive_rel (d d' : sem_directive) : Prop :=
  match d, d' with
  | SemTrx dt ds bs p a, SemTrx dt' ds' bs' p' a' =>
    dt' = dt /\ ds' = ds /\ p' = p /\ a' = a /\ Forall2 booking_rel bs bs'
  | SemTrx _ _ _ _ _, _ => False
  | _, _ => d' = d
  end.

Lemma infer_sems_rel : forall ds k ds' k',
  infer_sems ph v choose cands k ds = (ds', k') -> Forall2 directive_rel ds ds'.
Proof.
  induction ds as [|d ds IH]; intros k ds' k' H; cbn [infer_sems] in H.
  - inversion H. constructor.
  - destruct d as [dt de bs p a|dt a|dt a|dt bs|dt c p tg|p|];
      try (destruct (infer_sems ph v choose cands k ds) as [ds1 k2] eqn:H2; inversion H; subst;
           constructor; [reflexivity|eapply IH; eassumption]).
    destruct (infer_bookings ph v choose cands k bs) as [bs1 k1] eqn:H1.
    destruct (infer_sems ph v choose cands k1 ds) as [ds1 k2] eqn:H2. inversion H; subst.
    constructor; [|eapply IH; eassumption]. cbn [directive_rel].
    repeat split; try reflexivity. eapply infer_bookings_rel; eassumption.
Qed.

Definition side_free (a : sem_account) : Prop := fst a <> ph.
Definition booking_free (b : sem_booking) : Prop := side_free (sb_credit b) /\ side_free (sb_debit b).
Definition directive_free (d : sem_directive) : Prop :=
  match d with SemTrx _ _ bs _ _ => Forall booking_free bs | _ => True end.

Lemma infer_side_free k acc other : side_free acc -> infer_side ph v choose cands k acc other = (acc, k).
Proof.
  unfold side_free, infer_side. intros H. destruct (str_eqb (fst acc) ph) eqn:E; [|reflexivity].
  apply str_eqb_eq in E. contradiction.
Qed.

Lemma infer_bookings_free : forall bs k, Forall booking_free bs ->
  infer_bookings ph v choose cands k bs = (bs, k).
Proof.
  induction bs as [|b bs IH]; intros k H; cbn [infer_bookings]; [reflexivity|].
  inversion H as [|? ? (Hc & Hd) Hr]; subst. unfold infer_booking.
  rewrite (infer_side_free k _ _ Hc), (infer_side_free k _ _ Hd), (IH k Hr). destruct b; reflexivity.
Qed.

Lemma infer_sems_free : forall ds k, Forall directive_free ds ->
  infer_sems ph v choose cands k ds = (ds, k).
Proof.
  induction ds as [|d ds IH]; intros k H; cbn [infer_sems]; [reflexivity|].
  inversion H as [|? ? Hd Hr]; subst.
  destruct d; cbn [directive_free] in Hd; rewrite ?(infer_bookings_free _ k Hd), (IH k Hr); reflexivity.
Qed.

End WithPlaceholder.

(* the printed text is the rendering of the target's gaps with the inferred meanings *)
Lemma infer_with_shape ph v letter digit choose training target out :
  infer_with ph v letter digit choose training target = InferOut out ->
  exists ftr ftg sems k,
    parse_text letter digit training = ParseOk ftr /\ parse_text letter digit target = ParseOk ftg /\
    infer_sems ph v choose (candidates ph (sem training ftr)) 0%nat (sem target ftg) = (sems, k) /\
    render Utf8M.decode sems (gaps target ftg) = Some out.
Proof.
  unfold infer_with. intros H.
  destruct (parse_text letter digit training) as [ftr|e|]; destruct (parse_text letter digit target) as [ftg|e'|];
    try discriminate.
  destruct (infer_sems ph v choose (candidates ph (sem training ftr)) 0%nat (sem target ftg)) as [sems k] eqn:Hs.
  destruct (render Utf8M.decode sems (gaps target ftg)) as [o|] eqn:Hr; [|discriminate].
  inversion H; subst. exists ftr, ftg, sems, k. auto.
Qed.

(* the command fails (prints nothing) exactly when a file does not parse; it never gets stuck *)
Lemma infer_with_total ph v letter digit choose training target :
  match infer_with ph v letter digit choose training target with
  | InferOut _ => exists ftr ftg, parse_text letter digit training = ParseOk ftr /\ parse_text letter digit target = ParseOk ftg
  | InferErr => (exists e, parse_text letter digit training = ParseErr e) \/ (exists e, parse_text letter digit target = ParseErr e)
  | InferBad => exists ftr ftg sems k,
      parse_text letter digit training = ParseOk ftr /\ parse_text letter digit target = ParseOk ftg /\
      infer_sems ph v choose (candidates ph (sem training ftr)) 0%nat (sem target ftg) = (sems, k) /\
      render Utf8M.decode sems (gaps target ftg) = None
  end.
Proof.
  unfold infer_with.
  pose proof (parse_text_fuel letter digit training) as F1. pose proof (parse_text_fuel letter digit target) as F2.
  destruct (parse_text letter digit training) as [ftr|e|]; destruct (parse_text letter digit target) as [ftg|e'|];
    try congruence; eauto.
  destruct (infer_sems ph v choose (candidates ph (sem training ftr)) 0%nat (sem target ftg)) as [sems k] eqn:Hs.
  destruct (render Utf8M.decode sems (gaps target ftg)) eqn:Hr; eauto 10.
Qed.

(* no candidate: the repaired code leaves the account, the code as found empties it *)
Lemma side_rel_no_candidate ph v cands acc acc' other :
  side_rel ph v cands acc acc' other -> fst acc = ph -> without other cands = [] ->
  acc' = match v with Orig => ([], false) | Fixed => acc end.
Proof.
  intros [(Hne & _)|(_ & [(x & _ & Hin & Hx)|(_ & H)])] Hph Hw; [contradiction| |assumption].
  assert (Hi : In x (without other cands)) by (apply without_in; auto). rewrite Hw in Hi. destruct Hi.
Qed.

(* deterministic choice: the first maximum of the (sorted) candidate list for any comparison *)
Definition first_max (gt : str -> str -> bool) (l : list str) : option str :=
  match l with
  | [] => None
  | x :: l' => Some (fold_left (fun best c => if gt c best then c else best) l' x)
  end.

Lemma fold_best_in (gt : str -> str -> bool) : forall l x, In (fold_left (fun best c => if gt c best then c else best) l x) (x :: l).
Proof.
  induction l as [|c l IH]; intros x; cbn [fold_left]; [now left|].
  destruct (gt c x).
  - destruct (IH c) as [H|H]; [right; left; exact H|right; right; exact H].
  - destruct (IH x) as [H|H]; [left; exact H|right; right; exact H].
Qed.

Lemma first_max_valid (gt : str -> str -> bool) : valid_choose (fun _ => first_max gt).
Proof.
  split.
  - intros _ l x H. destruct l as [|y l]; [discriminate|]. inversion H. apply fold_best_in.
  - intros _ l Hl. destruct l; [congruence|discriminate].
Qed.

Lemma list_eqb_refl {A} (f : A -> A -> bool) : (forall x, f x x = true) -> forall l, list_eqb f l l = true.
Proof. intros H. induction l as [|x l IH]; cbn [list_eqb]; [reflexivity|]. now rewrite H, IH. Qed.

Lemma list_eqb_forall2 {A} (R : A -> A -> Prop) (f : A -> A -> bool) l l' :
  Forall2 R l l' -> (forall x y, R x y -> f x y = true) -> list_eqb f l l' = true.
Proof.
  induction 1 as [|x y l l' Hxy Hl IH]; intros Hf; cbn [list_eqb]; [reflexivity|].
  now rewrite (Hf _ _ Hxy), IH.
Qed.

Lemma sem_account_eqb_refl a : sem_account_eqb a a = true.
Proof. unfold sem_account_eqb. rewrite str_eqb_refl. destruct (snd a); reflexivity. Qed.

Lemma option_eqb_refl {A} (f : A -> A -> bool) : (forall x, f x x = true) -> forall o, option_eqb f o o = true.
Proof. intros H o. destruct o; cbn; auto. Qed.

Lemma sem_accrual_eqb_refl a : sem_accrual_eqb a a = true.
Proof. unfold sem_accrual_eqb. now rewrite !str_eqb_refl, sem_account_eqb_refl. Qed.

Lemma sem_booking_eqb_refl b : sem_booking_eqb b b = true.
Proof. unfold sem_booking_eqb. now rewrite !sem_account_eqb_refl, !str_eqb_refl. Qed.

Lemma sem_directive_eqb_refl d : sem_directive_eqb d d = true.
Proof.
  destruct d; cbn [sem_directive_eqb]; rewrite ?str_eqb_refl, ?sem_account_eqb_refl; cbn [andb]; try reflexivity.
  - rewrite (list_eqb_refl _ sem_booking_eqb_refl), (option_eqb_refl _ (list_eqb_refl _ str_eqb_refl)),
      (option_eqb_refl _ sem_accrual_eqb_refl). reflexivity.
  - apply list_eqb_refl. intros x. now rewrite sem_account_eqb_refl, !str_eqb_refl.
Qed.

Lemma mem_in x l : mem x l = true <-> In x l.
Proof.
  unfold mem. rewrite existsb_exists. split.
  - intros (y & Hy & E). apply str_eqb_eq in E. now subst.
  - intros H. exists x. split; [assumption|apply str_eqb_refl].
Qed.

(* what the statement calls offered is what the model trains on *)
Lemma offered_trained ph tr : offered ph tr = trained_accounts ph tr.
Proof.
  unfold offered, trained_accounts. apply flat_map_ext. intros [dt ds bs p a| | | | | |]; try reflexivity.
  unfold update_accounts. apply flat_map_ext. intros b. unfold offered_by_booking.
  destruct (snd (sb_credit b) || snd (sb_debit b)); [reflexivity|].
  destruct (fst (sb_credit b)), (fst (sb_debit b)); cbn [is_nil orb]; try reflexivity;
    destruct (str_eqb _ ph || str_eqb _ ph); reflexivity.
Qed.

Lemma without_nil_all other l : without other l = [] -> forall a, In a l -> a = other.
Proof.
  intros H a Ha. destruct (str_eqb a other) eqn:E; [now apply str_eqb_eq|].
  apply bstr_eqb_neq in E. assert (Hi : In a (without other l)) by (apply without_in; auto).
  rewrite H in Hi. destruct Hi.
Qed.

Lemma existsb_ne_false off other :
  (forall a, In a off -> a = other) -> existsb (fun a => negb (str_eqb a other)) off = false.
Proof.
  intros H. destruct (existsb _ off) eqn:E; [|reflexivity].
  apply existsb_exists in E. destruct E as (a & Ha & Hn). rewrite (H a Ha), str_eqb_refl in Hn. discriminate.
Qed.

Section MeetsSpec.
Variable ph : str.
Variable training : list sem_directive.
Let cands := candidates ph training.
Let off := offered ph training.

Lemma cands_off a : In a off <-> In a cands.
Proof. unfold off, cands, candidates. rewrite sort_dedup_in, offered_trained. reflexivity. Qed.

(* one side, checked against [other'] where the inference excluded [other]: either the same
   account, or the inference excluded the placeholder and [other'] is what replaced it *)
Lemma side_ok_of_rel acc acc' other other' :
  side_rel ph Fixed cands acc acc' other ->
  other' = other \/ (other = ph /\ In other' cands /\ other' <> fst acc') ->
  side_ok ph off acc acc' other' = true.
Proof.
  intros Hrel Ho. unfold side_ok.
  destruct Hrel as [(Hne & ->)|(Hph & [(x & -> & Hx & Hxo)|(Hw & ->)])].
  - rewrite (proj2 (bstr_eqb_neq _ _) Hne). apply sem_account_eqb_refl.
  - rewrite Hph, str_eqb_refl. cbn [fst snd negb].
    rewrite (proj2 (mem_in x off)) by (now apply cands_off).
    rewrite (proj2 (bstr_eqb_neq _ _)); [reflexivity|].
    destruct Ho as [->|(_ & _ & Hne)]; [exact Hxo | cbn [fst] in Hne; congruence].
  - rewrite Hph, str_eqb_refl, sem_account_eqb_refl. cbn [andb].
    rewrite existsb_ne_false; [now rewrite orb_true_r|].
    intros a Ha. apply cands_off in Ha.
    destruct Ho as [->|(-> & Hy & _)]; [exact (without_nil_all _ cands Hw a Ha)|].
    exfalso. assert (Hi : In other' (without ph cands)).
    { apply without_in. split; [exact Hy|]. intros ->. exact (candidates_not_ph _ _ Hy). }
    rewrite Hw in Hi. destruct Hi.
Qed.

(* the debit side was inferred against the new credit account, the credit side against the old
   debit account, which inference has kept unless it was the placeholder *)
Lemma booking_ok_of_rel b b' : booking_rel ph Fixed cands b b' -> booking_ok ph off b b' = true.
Proof.
  intros (Hq & Hc & Hcr & Hdb). unfold booking_ok. rewrite Hq, Hc, !str_eqb_refl, !andb_true_r.
  rewrite (side_ok_of_rel _ _ _ _ Hdb (or_introl eq_refl)), andb_true_r.
  apply (side_ok_of_rel _ _ _ _ Hcr).
  destruct Hdb as [(_ & ->)|(Hph & [(y & -> & Hy & Hyx)|(_ & ->)])]; [left; reflexivity| |left; reflexivity].
  right. cbn [fst]. auto.
Qed.

Lemma directive_ok_of_rel d d' : directive_rel ph Fixed cands d d' -> directive_ok ph off d d' = true.
Proof.
  destruct d; cbn [directive_rel]; try (intros ->; cbn [directive_ok]; apply sem_directive_eqb_refl).
  destruct d'; try contradiction. intros (-> & -> & -> & -> & Hb). cbn [directive_ok].
  rewrite !str_eqb_refl. cbn [andb].
  rewrite (list_eqb_forall2 _ _ _ _ Hb booking_ok_of_rel).
  rewrite (option_eqb_refl _ (list_eqb_refl _ str_eqb_refl)), (option_eqb_refl _ sem_accrual_eqb_refl).
  reflexivity.
Qed.

Theorem fixed_meets_spec choose k target out k' :
  valid_choose choose ->
  infer_sems ph Fixed choose cands k target = (out, k') -> infer_ok_b ph training target out = true.
Proof.
  intros Hch H. unfold infer_ok_b. fold off.
  apply (list_eqb_forall2 (directive_rel ph Fixed cands)); [|exact directive_ok_of_rel].
  exact (infer_sems_rel ph Fixed choose Hch cands _ _ _ _ H).
Qed.

End MeetsSpec.
