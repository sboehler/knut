(* C15: the output of the repaired `knut infer` parses, to the meaning of the target with exactly
   the placeholder sides substituted and with the target's gaps; infer never gets stuck on files
   that parse; running it again on its own output changes nothing.

   Method: C08's round trip (Proofs/RoundTrip*.v).  Every meaning of a parsed file is in LexDir
   (every leaf in its lexical class: [parse_lexdir]).  A candidate is an account text of a non-macro side of a booking of the TRAINING
   file's parse, hence lexically an account ([candidates_lex]); so the substituted meanings are
   in LexDir again ([directive_rel_lex]), and the gaps of a parsed text woven with the rendering
   of lexically valid meanings parse back to exactly these meanings and gaps
   (RoundTripFile.v [parse_rendered]).  Nothing else is used of the training data, so the
   theorems are proved for Model/InferFs.v [infer_with_sems] (training meanings given, from
   however many files) and read off for [infer_with] on one training text.                   *)
From Coq Require Import ZArith List Bool Lia.
From Knut Require Import Proofs.ListFacts Model.Bytes Model.Utf8 Model.Scanner Model.Parser Model.SynPrinter Spec.SyntaxSpec
  Proofs.ScannerProofs Proofs.ParserProofs Spec.FormatSpec Model.SynRender Proofs.FormatProofs
  Proofs.RoundTripBase Proofs.RoundTripLeaf Proofs.RoundTripInv Proofs.RoundTripRuns Proofs.RoundTripFile
  Model.Bayes Model.BayesScore Model.InferFs Spec.InferSpec Proofs.InferProofs.
Import ListNotations.
Open Scope bool_scope.
Open Scope Z_scope.

Section Lexical.
Variable dec : str -> Z * Z.
Variables letter digit : Z -> bool.

Notation LexDir := (LexDir dec letter digit).
Notation LexAcc := (LexAcc dec letter digit).
Notation LexBooking := (LexBooking dec letter digit).

(* a list of lexically valid meanings renders *)
Lemma render_all_lex pad ds : Forall LexDir ds -> exists ps, render_all dec pad ds = Some ps.
Proof.
  induction 1 as [|d ds Hd _ (ps & IH)]; cbn [render_all]; [eauto|]. rewrite IH.
  destruct d; cbn [render_sem]; eauto. destruct Hd.
Qed.

Lemma render_lex ds gs : Forall LexDir ds -> exists out, render dec ds gs = Some out.
Proof.
  intros H. unfold render. destruct (render_all_lex (pad_of_sem dec 0 ds) ds H) as (ps & ->). eauto.
Qed.

Section WithPlaceholder.
Variable ph : str.

Lemma candidates_lex training x :
  Forall LexDir training -> In x (candidates ph training) -> lex_account dec letter digit x false.
Proof.
  intros HL Hx. destruct (candidates_side ph training x Hx) as (_ & date & desc & bs & p & a & b & Hd & Hb & Hs).
  rewrite Forall_forall in HL. pose proof (HL _ Hd) as Hdir. cbn [RoundTripInv.LexDir] in Hdir.
  destruct Hdir as (_ & _ & _ & Hbs & _). rewrite Forall_forall in Hbs.
  destruct (Hbs b Hb) as (Hc & Hdb & _). unfold RoundTripInv.LexAcc in Hc, Hdb.
  destruct Hs as [E|E]; rewrite E in *; assumption.
Qed.

Variable cands : list str.
Hypothesis Hcands : forall x, In x cands -> lex_account dec letter digit x false.

Lemma side_rel_lex acc acc' other : side_rel ph Fixed cands acc acc' other -> LexAcc acc -> LexAcc acc'.
Proof.
  intros [(_ & ->)|(_ & [(x & -> & Hx & _)|(_ & ->)])] H; try assumption.
  unfold RoundTripInv.LexAcc. cbn [fst snd]. now apply Hcands.
Qed.

Lemma booking_rel_lex b b' : booking_rel ph Fixed cands b b' -> LexBooking b -> LexBooking b'.
Proof.
  intros (Hq & Hc & Hcr & Hdb) (L1 & L2 & L3 & L4). unfold RoundTripInv.LexBooking. rewrite Hq, Hc.
  split; [eapply side_rel_lex; eassumption|]. split; [eapply side_rel_lex; eassumption|]. split; assumption.
Qed.

Lemma bookings_rel_lex bs bs' : Forall2 (booking_rel ph Fixed cands) bs bs' -> Forall LexBooking bs -> Forall LexBooking bs'.
Proof.
  induction 1 as [|b b' bs bs' Hb _ IH]; intros H; [constructor|].
  inversion H; subst. constructor; [eapply booking_rel_lex; eassumption|auto].
Qed.

Lemma directive_rel_lex d d' : directive_rel ph Fixed cands d d' -> LexDir d -> LexDir d'.
Proof.
  destruct d as [date desc bs p a| | | | | |]; cbn [directive_rel]; try (intros ->; exact (fun H => H)).
  destruct d' as [date' desc' bs' p' a'| | | | | |]; try contradiction.
  intros (-> & -> & -> & -> & Hb). cbn [RoundTripInv.LexDir]. intros (H1 & H2 & H3 & H4 & H5).
  split; [assumption|]. split; [assumption|]. split.
  - intros ->. inversion Hb. subst. congruence.
  - split; [eapply bookings_rel_lex; eassumption|assumption].
Qed.

Lemma directives_rel_lex ds ds' :
  Forall2 (directive_rel ph Fixed cands) ds ds' -> Forall LexDir ds -> Forall LexDir ds' /\ length ds' = length ds.
Proof.
  induction 1 as [|d d' ds ds' Hd _ IH]; intros H; [split; [constructor|reflexivity]|].
  inversion H; subst. destruct (IH H3) as (IH1 & IH2). split.
  - constructor; [eapply directive_rel_lex; eassumption|assumption].
  - cbn [length]. now rewrite IH2.
Qed.

End WithPlaceholder.
End Lexical.

(* the parse of a text has lexically valid meanings *)
Lemma parse_lexdir letter digit t f : parse_text letter digit t = ParseOk f ->
  Forall (LexDir Utf8M.decode letter digit) (sem t f).
Proof.
  intros Hp. apply Forall_map. eapply Forall_impl; [|exact (parse_text_directives _ _ _ _ Hp)].
  intros d Hd. exact (proj1 Hd).
Qed.

Section Stable.
Variable ph : str.
Variable cands : list str.
Hypothesis Hnph : ~ In ph cands.

(* a side on which inference has nothing to do: not the placeholder, or no candidate *)
Definition side_stable (acc : sem_account) (other : str) : Prop := fst acc = ph -> without other cands = [].
Definition booking_stable (b : sem_booking) : Prop :=
  side_stable (sb_credit b) (fst (sb_debit b)) /\ side_stable (sb_debit b) (fst (sb_credit b)).
Definition directive_stable (d : sem_directive) : Prop :=
  match d with SemTrx _ _ bs _ _ => Forall booking_stable bs | _ => True end.

Lemma without_ph : without ph cands = cands.
Proof.
  unfold without. apply filter_all. intros x Hx. apply negb_true_iff. apply bstr_eqb_neq. intros ->. contradiction.
Qed.

(* whatever the repaired inference returns is stable: a placeholder it left has no candidate,
   also with respect to the other side AS IT IS NOW *)
Lemma booking_rel_stable b b' : booking_rel ph Fixed cands b b' -> booking_stable b'.
Proof.
  intros (_ & _ & Hcr & Hdb). split.
  - intros Hph. destruct Hcr as [(Hne & Ec)|(Hc & [(x & Ec & Hx & _)|(Hw & Ec)])].
    + rewrite Ec in Hph. contradiction.
    + rewrite Ec in Hph. cbn [fst] in Hph. subst x. contradiction.
    + rewrite Ec in Hdb. destruct Hdb as [(_ & Ed)|(Hd & [(y & Ed & Hy & _)|(_ & Ed)])].
      * rewrite Ed. exact Hw.
      * rewrite Hd, without_ph in Hw. rewrite Hw in Hy. destruct Hy.
      * rewrite Ed. exact Hw.
  - intros Hph. destruct Hdb as [(Hne & Ed)|(Hd & [(y & Ed & Hy & _)|(Hw & Ed)])].
    + rewrite Ed in Hph. contradiction.
    + rewrite Ed in Hph. cbn [fst] in Hph. subst y. contradiction.
    + exact Hw.
Qed.

Lemma directive_rel_stable d d' : directive_rel ph Fixed cands d d' -> directive_stable d'.
Proof.
  destruct d as [date desc bs p a| | | | | |]; cbn [directive_rel]; try (intros ->; exact I).
  destruct d' as [date' desc' bs' p' a'| | | | | |]; try contradiction.
  intros (_ & _ & _ & _ & Hb). cbn [directive_stable].
  induction Hb as [|b b' bs bs' Hbb _ IH]; constructor; [eapply booking_rel_stable; eassumption|assumption].
Qed.

Lemma directives_rel_stable ds ds' : Forall2 (directive_rel ph Fixed cands) ds ds' -> Forall directive_stable ds'.
Proof. induction 1; constructor; [eapply directive_rel_stable; eassumption|assumption]. Qed.

(* inference leaves stable meanings as they are, for every valid choice function *)
Variable choose : nat -> list str -> option str.
Hypothesis Hch : valid_choose choose.

Lemma infer_side_stable k acc other : side_stable acc other ->
  exists k', infer_side ph Fixed choose cands k acc other = (acc, k').
Proof.
  unfold side_stable, infer_side. intros H. destruct (str_eqb (fst acc) ph) eqn:E; [|eauto].
  apply str_eqb_eq in E. rewrite (H E). destruct (choose k []) as [x|] eqn:Hc; [|eauto].
  apply (proj1 Hch) in Hc. destruct Hc.
Qed.

Lemma infer_booking_stable k b : booking_stable b -> exists k', infer_booking ph Fixed choose cands k b = (b, k').
Proof.
  intros (Hc & Hd). unfold infer_booking.
  destruct (infer_side_stable k _ _ Hc) as (k1 & ->). cbv beta iota. cbn [fst].
  destruct (infer_side_stable k1 _ _ Hd) as (k2 & ->). exists k2. destruct b; reflexivity.
Qed.

Lemma infer_bookings_stable : forall bs k, Forall booking_stable bs ->
  exists k', infer_bookings ph Fixed choose cands k bs = (bs, k').
Proof.
  induction bs as [|b bs IH]; intros k H; cbn [infer_bookings]; [eauto|].
  inversion H as [|? ? Hb Hr]; subst. destruct (infer_booking_stable k b Hb) as (k1 & ->).
  destruct (IH k1 Hr) as (k2 & ->). eauto.
Qed.

Lemma infer_sems_stable : forall ds k, Forall directive_stable ds ->
  exists k', infer_sems ph Fixed choose cands k ds = (ds, k').
Proof.
  induction ds as [|d ds IH]; intros k H; cbn [infer_sems]; [eauto|].
  inversion H as [|? ? Hd Hr]; subst.
  destruct d as [date desc bs p a| | | | | |]; try (destruct (IH k Hr) as (k2 & ->); eauto).
  cbn [directive_stable] in Hd. destruct (infer_bookings_stable bs k Hd) as (k1 & ->).
  destruct (IH k1 Hr) as (k2 & ->). eauto.
Qed.

End Stable.

Section Command.
Variable ph : str.
Variables letter digit : Z -> bool.
Hypothesis Hcls : class_ok letter digit.

Notation infer_with_sems := (infer_with_sems letter digit ph).

(* the one-file command is the command on the meanings of that file *)
Lemma infer_with_on_sems v choose training target ftr :
  parse_text letter digit training = ParseOk ftr ->
  infer_with ph v letter digit choose training target = infer_with_sems v choose (sem training ftr) target.
Proof.
  intros H. unfold infer_with, InferFsM.infer_with_sems. rewrite H.
  destruct (parse_text letter digit target); reflexivity.
Qed.

Lemma infer_with_sems_shape v choose tr target out :
  infer_with_sems v choose tr target = InferOut out ->
  exists ftg sems k,
    parse_text letter digit target = ParseOk ftg /\
    infer_sems ph v choose (candidates ph tr) 0%nat (sem target ftg) = (sems, k) /\
    render Utf8M.decode sems (gaps target ftg) = Some out.
Proof.
  unfold InferFsM.infer_with_sems. intros H.
  destruct (parse_text letter digit target) as [ftg|e'|]; try discriminate.
  destruct (infer_sems ph v choose (candidates ph tr) 0%nat (sem target ftg)) as [sems k] eqn:Hs.
  destruct (render Utf8M.decode sems (gaps target ftg)) as [o|] eqn:Hr; [|discriminate].
  inversion H; subst. exists ftg, sems, k. auto.
Qed.

(* The theorems need of the training data only that its meanings are lexically valid: they are
   stated for the command on given training meanings, and read off for one training text. *)
Section Lex.
Variable tr : list sem_directive.
Hypothesis Htr : Forall (LexDir Utf8M.decode letter digit) tr.

Lemma inferred_lex choose target ftg k sems k' :
  valid_choose choose -> parse_text letter digit target = ParseOk ftg ->
  infer_sems ph Fixed choose (candidates ph tr) k (sem target ftg) = (sems, k') ->
  Forall (LexDir Utf8M.decode letter digit) sems /\ length sems = length (sem target ftg).
Proof.
  intros Hch Htg Hs.
  apply (directives_rel_lex Utf8M.decode letter digit ph (candidates ph tr)) with (ds := sem target ftg).
  - intros x Hx. eapply candidates_lex; [exact Htr|exact Hx].
  - exact (infer_sems_rel ph Fixed choose Hch _ _ _ _ _ Hs).
  - now apply parse_lexdir.
Qed.

(* the round trip: the printed text parses; its meaning is the inferred meaning of the target
   (related to the target's by directive_rel: only placeholder sides substituted, as the
   executable statement of the property demands), its gaps are the target's gaps; and it is in
   formatted form (formatting it changes nothing) *)
Theorem infer_sems_roundtrip choose target out :
  valid_choose choose ->
  infer_with_sems Fixed choose tr target = InferOut out ->
  exists ftg f' k,
    parse_text letter digit target = ParseOk ftg /\
    parse_text letter digit out = ParseOk f' /\
    infer_sems ph Fixed choose (candidates ph tr) 0%nat (sem target ftg) = (sem out f', k) /\
    Forall2 (directive_rel ph Fixed (candidates ph tr)) (sem target ftg) (sem out f') /\
    infer_ok_b ph tr (sem target ftg) (sem out f') = true /\
    gaps out f' = gaps target ftg /\
    format_text letter digit out f' = FOk out.
Proof.
  intros Hch H. destruct (infer_with_sems_shape _ _ _ _ _ H) as (ftg & sems & k & Htg & Hs & Hr).
  destruct (inferred_lex choose target ftg _ sems k Hch Htg Hs) as (Hlex & Hlen).
  destruct (parse_rendered letter digit target ftg sems out Hcls Htg Hlen Hlex Hr) as (f' & Hp' & Hs' & Hg').
  exists ftg, f', k. rewrite Hs'. split; [assumption|]. split; [assumption|]. split; [assumption|].
  split; [exact (infer_sems_rel ph Fixed choose Hch _ _ _ _ _ Hs)|].
  split; [exact (fixed_meets_spec ph tr choose _ _ _ _ Hch Hs)|]. split; [assumption|].
  destruct (format_parsed _ _ _ _ Hp') as (o' & Ho'). rewrite Ho'. f_equal.
  pose proof (format_text_render _ _ _ _ _ Ho') as Hr'. rewrite Hs', Hg' in Hr'. congruence.
Qed.

(* on a target that parses the repaired command prints a text: it neither fails nor gets stuck *)
Theorem infer_sems_total choose target ftg :
  valid_choose choose -> parse_text letter digit target = ParseOk ftg ->
  exists out, infer_with_sems Fixed choose tr target = InferOut out.
Proof.
  intros Hch Htg. unfold InferFsM.infer_with_sems. rewrite Htg.
  destruct (infer_sems ph Fixed choose (candidates ph tr) 0%nat (sem target ftg)) as [sems k] eqn:Hs.
  destruct (inferred_lex choose target ftg _ sems k Hch Htg Hs) as (Hlex & _).
  destruct (render_lex Utf8M.decode letter digit sems (gaps target ftg) Hlex) as (out & ->). eauto.
Qed.

(* idempotence: running the repaired infer on its own output, with the same training data and
   ANY valid choice function, prints the same text again -- a placeholder the first run left
   has no candidate in the second run either *)
Theorem infer_sems_idempotent choose choose' target out :
  valid_choose choose -> valid_choose choose' ->
  infer_with_sems Fixed choose tr target = InferOut out ->
  infer_with_sems Fixed choose' tr out = InferOut out.
Proof.
  intros Hch Hch' H.
  destruct (infer_sems_roundtrip choose target out Hch H) as (ftg & f' & k & Htg & Hp' & Hs & Hrel & _ & Hg & Hf).
  pose proof (directives_rel_stable ph _ (candidates_not_ph ph tr) _ _ Hrel) as Hst.
  destruct (infer_sems_stable ph _ choose' Hch' (sem out f') 0%nat Hst) as (k' & Hs').
  unfold InferFsM.infer_with_sems. rewrite Hp', Hs'. now rewrite (format_text_render _ _ _ _ _ Hf).
Qed.

(* "the result is, apart from those account names and the column alignment they imply,
   identical to the formatted input", at full strength: on a target that parses, the repaired
   command prints a text [out], `knut format` prints a text [fmt] for the target; both parse, to
   THE SAME GAPS (all text outside directives, byte for byte) and to meanings that are related
   one by one by directive_rel (only placeholder sides differ); both are the rendering of their
   meaning and these gaps by the same function, and both are in formatted form. *)
Theorem infer_sems_rest_is_format choose target ftg :
  valid_choose choose -> parse_text letter digit target = ParseOk ftg ->
  exists out fmt f' ff,
    infer_with_sems Fixed choose tr target = InferOut out /\
    format_text letter digit target ftg = FOk fmt /\
    parse_text letter digit out = ParseOk f' /\ parse_text letter digit fmt = ParseOk ff /\
    sem fmt ff = sem target ftg /\
    Forall2 (directive_rel ph Fixed (candidates ph tr)) (sem target ftg) (sem out f') /\
    gaps out f' = gaps target ftg /\ gaps fmt ff = gaps target ftg /\
    render Utf8M.decode (sem out f') (gaps target ftg) = Some out /\
    render Utf8M.decode (sem target ftg) (gaps target ftg) = Some fmt /\
    format_text letter digit out f' = FOk out /\ format_text letter digit fmt ff = FOk fmt.
Proof.
  intros Hch Htg. destruct (infer_sems_total choose target ftg Hch Htg) as (out & Ho).
  destruct (format_parsed _ _ _ _ Htg) as (fmt & Hfmt).
  destruct (infer_sems_roundtrip choose target out Hch Ho) as (ftg' & f' & k & Htg' & Hp' & Hs & Hrel & _ & Hg & Hf).
  assert (ftg' = ftg) by congruence. subst ftg'.
  destruct (roundtrip letter digit target ftg fmt Hcls Htg Hfmt) as (ff & Hpf & Hsf & Hgf).
  exists out, fmt, f', ff. repeat (split; [assumption|]).
  split; [rewrite <- Hg; exact (format_text_render _ _ _ _ _ Hf)|].
  split; [exact (format_text_render _ _ _ _ _ Hfmt)|]. split; [assumption|].
  exact (idem_of_roundtrip letter digit target ftg fmt ff Hfmt Hpf Hsf Hgf).
Qed.

End Lex.

Theorem infer_roundtrip choose training target out :
  valid_choose choose ->
  infer_with ph Fixed letter digit choose training target = InferOut out ->
  exists ftr ftg f' k,
    parse_text letter digit training = ParseOk ftr /\ parse_text letter digit target = ParseOk ftg /\
    parse_text letter digit out = ParseOk f' /\
    infer_sems ph Fixed choose (candidates ph (sem training ftr)) 0%nat (sem target ftg) = (sem out f', k) /\
    gaps out f' = gaps target ftg /\
    format_text letter digit out f' = FOk out.
Proof.
  intros Hch H. destruct (infer_with_shape _ _ _ _ _ _ _ _ H) as (ftr & _ & _ & _ & Htr & _).
  rewrite (infer_with_on_sems _ _ _ _ _ Htr) in H.
  destruct (infer_sems_roundtrip _ (parse_lexdir _ _ _ _ Htr) choose target out Hch H)
    as (ftg & f' & k & Htg & Hp' & Hs & _ & _ & Hg & Hf).
  exists ftr, ftg, f', k. repeat (split; [assumption|]). assumption.
Qed.

Theorem infer_total choose training target ftr ftg :
  valid_choose choose ->
  parse_text letter digit training = ParseOk ftr -> parse_text letter digit target = ParseOk ftg ->
  exists out, infer_with ph Fixed letter digit choose training target = InferOut out.
Proof.
  intros Hch Htr Htg. rewrite (infer_with_on_sems _ _ _ _ _ Htr).
  exact (infer_sems_total _ (parse_lexdir _ _ _ _ Htr) choose target ftg Hch Htg).
Qed.

End Command.
