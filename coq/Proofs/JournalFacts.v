(* The processor loop of Model/Journal.v: what a successful run of each fold consists of, the
   loops over postings, transactions and days as instances of one stateful map, and the proof
   rule "every callback keeps the invariant, so the stage does".  Also: Builder.Add only ever
   appends a directive's transaction to a day. *)
From Coq Require Import ZArith List.
From Knut Require Import Proofs.ListFacts Model.Str Model.Dec Model.Account Model.Ledger Model.Price Model.Journal Model.Cli.
Import ListNotations.

Lemma rbind_ok {A B} (x : presult A) (f : A -> presult B) b :
  rbind x f = ROk b -> exists a, x = ROk a /\ f a = ROk b.
Proof. destruct x as [a| |]; cbn [rbind]; [eauto|discriminate|discriminate]. Qed.

Lemma cbind_ok {A B} (x : cresult A) (f : A -> cresult B) b :
  cbind x f = COk b -> exists a, x = COk a /\ f a = COk b.
Proof. destruct x as [a| |]; cbn [cbind]; [eauto|discriminate|discriminate]. Qed.

Lemma run_stage_ok {S} (p : processor S) s days r : run_stage p s days = COk r -> process_days p s days = ROk r.
Proof. unfold run_stage. destruct (process_days p s days); cbn [of_presult]; congruence. Qed.

Lemma txn_rebuild t : mkTxn (t_date t) (t_desc t) (t_postings t) (t_targets t) = t.
Proof. destruct t; reflexivity. Qed.

Lemma day_rebuild d : mkDay (d_date d) (d_prices d) (d_opens d) (d_txns d) (d_asserts d) (d_closes d) (d_normalized d) = d.
Proof. destruct d; reflexivity. Qed.

Lemma fold_res_app {S A} (f : S -> A -> presult S) l1 : forall s l2,
  fold_res f s (l1 ++ l2) = rbind (fold_res f s l1) (fun s' => fold_res f s' l2).
Proof.
  induction l1 as [|x l1 IH]; intros s l2; cbn [app fold_res rbind]; [reflexivity|].
  destruct (f s x); cbn [rbind]; [apply IH|reflexivity|reflexivity].
Qed.

Section FoldMap.
  Context {S A B : Type} (f : S -> A -> presult (S * B)).

  Fixpoint fold_map (s : S) (l : list A) : presult (S * list B) :=
    match l with
    | [] => ROk (s, [])
    | x :: rest =>
      rbind (f s x) (fun sb =>
      rbind (fold_map (fst sb) rest) (fun sr => ROk (fst sr, snd sb :: snd sr)))
    end.

  Lemma fold_map_cons_ok s x l s' out :
    fold_map s (x :: l) = ROk (s', out) ->
    exists s1 y l', f s x = ROk (s1, y) /\ fold_map s1 l = ROk (s', l') /\ out = y :: l'.
  Proof.
    cbn [fold_map]. intros H.
    apply rbind_ok in H. destruct H as ([s1 y] & E1 & H).
    apply rbind_ok in H. destruct H as ([s2 l'] & E2 & H). cbn [fst snd] in *.
    injection H as <- <-. eauto 6.
  Qed.

  Lemma fold_map_app_ok l1 : forall l2 s s' out,
    fold_map s (l1 ++ l2) = ROk (s', out) ->
    exists s1 o1 o2, fold_map s l1 = ROk (s1, o1) /\ fold_map s1 l2 = ROk (s', o2) /\ out = o1 ++ o2.
  Proof.
    induction l1 as [|x l1 IH]; intros l2 s s' out H; cbn [app] in H.
    - exists s, [], out. auto.
    - apply fold_map_cons_ok in H. destruct H as (s1 & y & l' & E1 & E2 & ->).
      destruct (IH _ _ _ _ E2) as (sa & o1 & o2 & F1 & F2 & ->).
      exists sa, (y :: o1), o2. cbn [fold_map]. rewrite E1. cbn [rbind fst snd]. rewrite F1. auto.
  Qed.

  Lemma fold_map_inv (Inv : S -> Prop) (R : A -> B -> Prop) l :
    (forall s x s' y, In x l -> Inv s -> f s x = ROk (s', y) -> Inv s' /\ R x y) ->
    forall s s' l', Inv s -> fold_map s l = ROk (s', l') -> Inv s' /\ Forall2 R l l'.
  Proof.
    induction l as [|x l IH]; intros Hstep s s' l' Hs H.
    - injection H as <- <-. auto.
    - apply fold_map_cons_ok in H. destruct H as (s1 & y & l1 & E1 & E2 & ->).
      destruct (Hstep _ _ _ _ (or_introl eq_refl) Hs E1) as [Hs1 Hxy].
      destruct (IH (fun s x s' y Hin => Hstep s x s' y (or_intror Hin)) _ _ _ Hs1 E2) as [Hs2 Hl]. auto.
  Qed.

  Lemma fold_map_rel (R : A -> B -> Prop) l :
    (forall s x s' y, In x l -> f s x = ROk (s', y) -> R x y) ->
    forall s s' l', fold_map s l = ROk (s', l') -> Forall2 R l l'.
  Proof.
    intros Hstep s s' l' H.
    exact (proj2 (fold_map_inv (fun _ => True) R l (fun s x s' y Hin _ E => conj I (Hstep s x s' y Hin E)) s s' l' I H)).
  Qed.
End FoldMap.


Section Process.
  Context {S : Type} (p : processor S).

  (* an absent callback does nothing *)
  Definition cb_day (c : option (S -> day -> presult (S * day))) (s : S) (d : day) : presult (S * day) :=
    match c with Some f => f s d | None => ROk (s, d) end.
  Definition cb_each {A} (c : option (S -> A -> presult S)) (s : S) (l : list A) : presult S :=
    match c with Some f => fold_res f s l | None => ROk s end.

  (* one transaction: the Transaction callback, then the Posting callback on each posting *)
  Definition process_txn (s : S) (t : txn) : presult (S * txn) :=
    rbind (match pr_txn p with Some f => f s t | None => ROk s end) (fun s1 =>
    match pr_posting p with
    | Some f => rbind (fold_postings f t s1 (t_postings t)) (fun sp =>
                ROk (fst sp, mkTxn (t_date t) (t_desc t) (snd sp) (t_targets t)))
    | None => ROk (s1, t)
    end).

  Lemma fold_postings_fold_map (f : S -> txn -> posting -> presult (S * posting)) t ps : forall s, fold_postings f t s ps = fold_map (fun s => f s t) s ps.
  Proof.
    induction ps as [|x ps IH]; intros s; cbn [fold_postings fold_map]; [reflexivity|].
    destruct (f s t x) as [sp| |]; cbn [rbind]; [rewrite IH|..]; reflexivity.
  Qed.

  Lemma fold_txns_fold_map ts : forall s, fold_txns p s ts = fold_map process_txn s ts.
  Proof.
    induction ts as [|t ts IH]; intros s; cbn [fold_txns fold_map]; [reflexivity|]. unfold process_txn.
    destruct (match pr_txn p with Some f => f s t | None => ROk s end) as [s1| |]; cbn [rbind]; try reflexivity.
    destruct (match pr_posting p with Some f => _ | None => _ end) as [st| |]; cbn [rbind]; [rewrite IH|..]; reflexivity.
  Qed.

  Lemma process_days_fold_map ds : forall s, process_days p s ds = fold_map (process_day p) s ds.
  Proof.
    induction ds as [|d ds IH]; intros s; cbn [process_days fold_map]; [reflexivity|].
    destruct (process_day p s d) as [sd| |]; cbn [rbind]; [rewrite IH|..]; reflexivity.
  Qed.

  Lemma fold_txns_app l1 l2 s s' out :
    fold_txns p s (l1 ++ l2) = ROk (s', out) ->
    exists s1 o1 o2, fold_txns p s l1 = ROk (s1, o1) /\ fold_txns p s1 l2 = ROk (s', o2) /\ out = o1 ++ o2.
  Proof. rewrite fold_txns_fold_map. intros H. setoid_rewrite fold_txns_fold_map. exact (fold_map_app_ok _ _ _ _ _ _ H). Qed.

  Lemma process_days_app l1 l2 s s' out :
    process_days p s (l1 ++ l2) = ROk (s', out) ->
    exists s1 o1 o2, process_days p s l1 = ROk (s1, o1) /\ process_days p s1 l2 = ROk (s', o2) /\ out = o1 ++ o2.
  Proof. rewrite process_days_fold_map. intros H. setoid_rewrite process_days_fold_map. exact (fold_map_app_ok _ _ _ _ _ _ H). Qed.

  Lemma process_days_cons_ok s d ds s' out :
    process_days p s (d :: ds) = ROk (s', out) ->
    exists s1 d1 ds1, process_day p s d = ROk (s1, d1) /\ process_days p s1 ds = ROk (s', ds1) /\ out = d1 :: ds1.
  Proof. rewrite process_days_fold_map. intros H. setoid_rewrite process_days_fold_map. exact (fold_map_cons_ok _ _ _ _ _ _ H). Qed.

  Lemma process_days_one s d s1 d1 : process_day p s d = ROk (s1, d1) -> process_days p s [d] = ROk (s1, [d1]).
  Proof. intros H. cbn [process_days]. rewrite H. reflexivity. Qed.

  Lemma process_days_length ds s s' ds' : process_days p s ds = ROk (s', ds') -> length ds' = length ds.
  Proof.
    revert s s' ds'. induction ds as [|d ds IH]; intros s s' ds' H.
    - injection H as _ <-. reflexivity.
    - apply process_days_cons_ok in H. destruct H as (s1 & d1 & ds1 & _ & E & ->). cbn [length]. rewrite (IH _ _ _ E). reflexivity.
  Qed.

  (* a successful run over the days as a derivation, for proofs by induction on the run *)
  Inductive days_run : S -> list day -> S -> list day -> Prop :=
  | days_run_nil s : days_run s [] s []
  | days_run_cons s d ds s1 d1 s' ds1 :
      process_day p s d = ROk (s1, d1) -> days_run s1 ds s' ds1 -> days_run s (d :: ds) s' (d1 :: ds1).

  Lemma process_days_run ds : forall s s' ds', process_days p s ds = ROk (s', ds') <-> days_run s ds s' ds'.
  Proof.
    induction ds as [|d ds IH]; intros s s' ds'; split; intros H.
    - injection H as <- <-. constructor.
    - inversion H; subst. reflexivity.
    - apply process_days_cons_ok in H. destruct H as (s1 & d1 & ds1 & E1 & E2 & ->).
      econstructor; [exact E1|]. apply IH. exact E2.
    - inversion H as [|? ? ? s1 d1 ? ds1 E1 E2]; subst. cbn [process_days]. rewrite E1. cbn [rbind fst snd].
      apply IH in E2. rewrite E2. reflexivity.
  Qed.

  Lemma fold_txns_cons_ok s t ts s' out :
    fold_txns p s (t :: ts) = ROk (s', out) ->
    exists s1 t1 ts1, process_txn s t = ROk (s1, t1) /\ fold_txns p s1 ts = ROk (s', ts1) /\ out = t1 :: ts1.
  Proof. rewrite fold_txns_fold_map. intros H. setoid_rewrite fold_txns_fold_map. exact (fold_map_cons_ok _ _ _ _ _ _ H). Qed.

  Lemma fold_postings_cons_ok (f : S -> txn -> posting -> presult (S * posting)) t s x ps s' out :
    fold_postings f t s (x :: ps) = ROk (s', out) ->
    exists s1 y ps1, f s t x = ROk (s1, y) /\ fold_postings f t s1 ps = ROk (s', ps1) /\ out = y :: ps1.
  Proof.
    rewrite fold_postings_fold_map. intros H. setoid_rewrite fold_postings_fold_map.
    exact (fold_map_cons_ok (fun s => f s t) _ _ _ _ _ H).
  Qed.

  Lemma fold_res_cons_ok {A} (f : S -> A -> presult S) s x l s' :
    fold_res f s (x :: l) = ROk s' -> exists s1, f s x = ROk s1 /\ fold_res f s1 l = ROk s'.
  Proof. apply rbind_ok. Qed.

  Lemma fold_asserts_cons_ok s a l s' :
    fold_asserts p s (a :: l) = ROk s' ->
    exists s1, match pr_balance p with Some f => fold_res (fun s b => f s a b) s a | None => ROk s end = ROk s1 /\
               fold_asserts p s1 l = ROk s'.
  Proof. apply rbind_ok. Qed.

  Lemma process_txn_ok s t s' t' :
    process_txn s t = ROk (s', t') ->
    exists s1, match pr_txn p with Some f => f s t | None => ROk s end = ROk s1 /\
               match pr_posting p with
               | Some f => exists ps, fold_postings f t s1 (t_postings t) = ROk (s', ps) /\
                                      t' = mkTxn (t_date t) (t_desc t) ps (t_targets t)
               | None => s' = s1 /\ t' = t
               end.
  Proof.
    unfold process_txn. intros H. apply rbind_ok in H. destruct H as (s1 & E1 & H). exists s1. split; [exact E1|].
    destruct (pr_posting p) as [f|].
    - apply rbind_ok in H. destruct H as ([s2 ps] & E2 & [= <- <-]). eauto.
    - injection H as <- <-. auto.
  Qed.

  (* fold_txns_cons_ok when there is a Posting callback and no Transaction callback *)
  Lemma fold_txns_cons f s t ts s' out :
    pr_txn p = None -> pr_posting p = Some f ->
    fold_txns p s (t :: ts) = ROk (s', out) ->
    exists s1 ps1 ts1, fold_postings f t s (t_postings t) = ROk (s1, ps1) /\ fold_txns p s1 ts = ROk (s', ts1) /\
                       out = mkTxn (t_date t) (t_desc t) ps1 (t_targets t) :: ts1.
  Proof.
    intros Ht Hp H. apply fold_txns_cons_ok in H. destruct H as (s1 & t1 & ts1 & E1 & E2 & ->).
    apply process_txn_ok in E1. rewrite Ht, Hp in E1. destruct E1 as (s0 & [= <-] & ps & E1 & ->). eauto 6.
  Qed.

  Lemma fold_postings_id (f : S -> txn -> posting -> presult (S * posting)) t :
    (forall s x s' x', f s t x = ROk (s', x') -> x' = x) ->
    forall ps s s' ps', fold_postings f t s ps = ROk (s', ps') -> ps' = ps.
  Proof.
    intros Hf. induction ps as [|x ps IH]; intros s s' ps' H.
    - injection H as _ <-. reflexivity.
    - apply fold_postings_cons_ok in H. destruct H as (s1 & y & ps1 & E1 & E2 & ->).
      rewrite (Hf _ _ _ _ E1), (IH _ _ _ E2). reflexivity.
  Qed.

  Lemma fold_txns_none ts :
    pr_txn p = None -> pr_posting p = None -> forall s, fold_txns p s ts = ROk (s, ts).
  Proof.
    intros Hn Hf. induction ts as [|t ts IH]; intros s; cbn [fold_txns]; [reflexivity|].
    rewrite Hn, Hf. cbn [rbind fst snd]. rewrite IH. reflexivity.
  Qed.

  Lemma fold_asserts_none l s : pr_balance p = None -> fold_asserts p s l = ROk s.
  Proof. intros H. induction l as [|a l IH]; cbn [fold_asserts]; [reflexivity|]. rewrite H. exact IH. Qed.

  Lemma process_day_ok s d s' d' :
    process_day p s d = ROk (s', d') ->
    exists s1 d1 s2 s3 s4 ts s5 s6,
      cb_day (pr_day_start p) s d = ROk (s1, d1) /\
      cb_each (pr_price p) s1 (d_prices d1) = ROk s2 /\
      cb_each (pr_open p) s2 (d_opens d1) = ROk s3 /\
      fold_txns p s3 (d_txns d1) = ROk (s4, ts) /\
      fold_asserts p s4 (d_asserts d1) = ROk s5 /\
      cb_each (pr_close p) s5 (d_closes d1) = ROk s6 /\
      cb_day (pr_day_end p) s6
        (mkDay (d_date d1) (d_prices d1) (d_opens d1) ts (d_asserts d1) (d_closes d1) (d_normalized d1)) = ROk (s', d').
  Proof.
    unfold process_day. intros H.
    apply rbind_ok in H. destruct H as ([s1 d1] & E1 & H). cbn [fst snd] in H.
    apply rbind_ok in H. destruct H as (s2 & E2 & H).
    apply rbind_ok in H. destruct H as (s3 & E3 & H).
    apply rbind_ok in H. destruct H as ([s4 ts] & E4 & H). cbn [fst snd d_asserts d_closes] in H.
    apply rbind_ok in H. destruct H as (s5 & E5 & H).
    apply rbind_ok in H. destruct H as (s6 & E6 & H).
    exists s1, d1, s2, s3, s4, ts, s5, s6. auto 8.
  Qed.


  Lemma fold_res_inv {A} (Inv : S -> Prop) (f : S -> A -> presult S) l :
    (forall s x s', Inv s -> f s x = ROk s' -> Inv s') ->
    forall s s', Inv s -> fold_res f s l = ROk s' -> Inv s'.
  Proof.
    intros Hf. induction l as [|x l IH]; intros s s' Hs H; cbn [fold_res] in H.
    - injection H as <-. exact Hs.
    - apply rbind_ok in H. destruct H as (s1 & E & H). exact (IH _ _ (Hf _ _ _ Hs E) H).
  Qed.

  Lemma cb_each_inv {A} (Inv : S -> Prop) (c : option (S -> A -> presult S)) l :
    (forall f s x s', c = Some f -> Inv s -> f s x = ROk s' -> Inv s') ->
    forall s s', Inv s -> cb_each c s l = ROk s' -> Inv s'.
  Proof.
    intros Hc s s' Hs H. destruct c as [f|]; cbn [cb_each] in H.
    - exact (fold_res_inv Inv f l (fun s x s' => Hc f s x s' eq_refl) _ _ Hs H).
    - injection H as <-. exact Hs.
  Qed.

  (* A state invariant [Inv] and a property [T] of the transactions of a day: if every callback
     keeps them, so does the stage.  The Posting callback is taken over the whole transaction,
     because what it does to one posting may only make sense together with the others. *)
  Section Invariant.
    Variable Inv : S -> Prop.
    Variable T : txn -> Prop.
    Hypothesis day_start_inv : forall f s d s' d', pr_day_start p = Some f -> Inv s ->
      Forall T (d_txns d) -> f s d = ROk (s', d') -> Inv s' /\ Forall T (d_txns d').
    Hypothesis day_end_inv : forall f s d s' d', pr_day_end p = Some f -> Inv s ->
      Forall T (d_txns d) -> f s d = ROk (s', d') -> Inv s' /\ Forall T (d_txns d').
    Hypothesis price_inv : forall f s x s', pr_price p = Some f -> Inv s -> f s x = ROk s' -> Inv s'.
    Hypothesis open_inv : forall f s x s', pr_open p = Some f -> Inv s -> f s x = ROk s' -> Inv s'.
    Hypothesis close_inv : forall f s x s', pr_close p = Some f -> Inv s -> f s x = ROk s' -> Inv s'.
    Hypothesis txn_inv : forall f s t s', pr_txn p = Some f -> Inv s -> f s t = ROk s' -> Inv s'.
    Hypothesis balance_inv : forall f s a b s', pr_balance p = Some f -> Inv s -> f s a b = ROk s' -> Inv s'.
    Hypothesis postings_inv : forall f s t s' ps, pr_posting p = Some f -> Inv s -> T t ->
      fold_postings f t s (t_postings t) = ROk (s', ps) ->
      Inv s' /\ T (mkTxn (t_date t) (t_desc t) ps (t_targets t)).

    Lemma cb_day_inv c : (forall f s d s' d', c = Some f -> Inv s ->
        Forall T (d_txns d) -> f s d = ROk (s', d') -> Inv s' /\ Forall T (d_txns d')) ->
      forall s d s' d', Inv s -> Forall T (d_txns d) -> cb_day c s d = ROk (s', d') -> Inv s' /\ Forall T (d_txns d').
    Proof.
      intros Hc s d s' d' Hs Hd H. destruct c as [f|]; cbn [cb_day] in H.
      - exact (Hc f _ _ _ _ eq_refl Hs Hd H).
      - injection H as <- <-. auto.
    Qed.

    Lemma process_txn_inv s t s' t' : Inv s -> T t -> process_txn s t = ROk (s', t') -> Inv s' /\ T t'.
    Proof.
      intros Hs Ht H. apply process_txn_ok in H. destruct H as (s1 & E1 & H).
      assert (Hs1 : Inv s1).
      { destruct (pr_txn p) as [f|] eqn:Ef; [exact (txn_inv f _ _ _ eq_refl Hs E1)|]. injection E1 as <-. exact Hs. }
      destruct (pr_posting p) as [f|] eqn:Ef.
      - destruct H as (ps & E2 & ->). exact (postings_inv f _ _ _ _ eq_refl Hs1 Ht E2).
      - destruct H as [-> ->]. auto.
    Qed.

    Lemma fold_txns_inv ts s s' ts' :
      Inv s -> Forall T ts -> fold_txns p s ts = ROk (s', ts') -> Inv s' /\ Forall T ts'.
    Proof.
      intros Hs Hts H. rewrite fold_txns_fold_map in H. rewrite Forall_forall in Hts.
      destruct (fold_map_inv process_txn Inv (fun _ => T) ts
                  (fun s t s' t' Hin Hs0 => process_txn_inv s t s' t' Hs0 (Hts t Hin)) s s' ts' Hs H) as [Hs' HR].
      split; [exact Hs'|exact (Forall2_right _ _ _ HR)].
    Qed.

    Lemma fold_asserts_inv l : forall s s', Inv s -> fold_asserts p s l = ROk s' -> Inv s'.
    Proof.
      induction l as [|a l IH]; intros s s' Hs H; cbn [fold_asserts] in H.
      - injection H as <-. exact Hs.
      - apply rbind_ok in H. destruct H as (s1 & E & H). refine (IH _ _ _ H).
        destruct (pr_balance p) as [f|] eqn:Ef; [|injection E as <-; exact Hs].
        exact (fold_res_inv Inv (fun s b => f s a b) a (fun s b s' => balance_inv f s a b s' eq_refl) _ _ Hs E).
    Qed.

    Lemma process_day_inv s d s' d' :
      Inv s -> Forall T (d_txns d) -> process_day p s d = ROk (s', d') -> Inv s' /\ Forall T (d_txns d').
    Proof.
      intros Hs Hd H.
      destruct (process_day_ok _ _ _ _ H) as (s1 & d1 & s2 & s3 & s4 & ts & s5 & s6 & E1 & E2 & E3 & E4 & E5 & E6 & E7).
      destruct (cb_day_inv _ day_start_inv _ _ _ _ Hs Hd E1) as [Hs1 Hd1].
      pose proof (cb_each_inv Inv _ _ price_inv _ _ Hs1 E2) as Hs2.
      pose proof (cb_each_inv Inv _ _ open_inv _ _ Hs2 E3) as Hs3.
      destruct (fold_txns_inv _ _ _ _ Hs3 Hd1 E4) as [Hs4 Hts].
      pose proof (fold_asserts_inv _ _ _ Hs4 E5) as Hs5.
      pose proof (cb_each_inv Inv _ _ close_inv _ _ Hs5 E6) as Hs6.
      eapply (cb_day_inv _ day_end_inv); [exact Hs6| |exact E7]. exact Hts.
    Qed.

    Lemma process_days_inv ds s s' ds' :
      Inv s -> Forall (fun d => Forall T (d_txns d)) ds -> process_days p s ds = ROk (s', ds') ->
      Inv s' /\ Forall (fun d => Forall T (d_txns d)) ds'.
    Proof.
      intros Hs Hds H. rewrite process_days_fold_map in H. rewrite Forall_forall in Hds.
      destruct (fold_map_inv (process_day p) Inv (fun _ d' => Forall T (d_txns d')) ds
                  (fun s d s' d' Hin Hs0 => process_day_inv s d s' d' Hs0 (Hds d Hin)) s s' ds' Hs H) as [Hs' HR].
      split; [exact Hs'|exact (Forall2_right _ _ _ HR)].
    Qed.
  End Invariant.
End Process.


(* stages that return the days they are given *)
Section IdStage.
  Context {S : Type} (p : processor S).
  Hypothesis no_start : pr_day_start p = None.
  Hypothesis no_end : pr_day_end p = None.
  Hypothesis posting_id : forall f s t x s' x', pr_posting p = Some f -> f s t x = ROk (s', x') -> x' = x.

  Lemma fold_txns_id : forall ts s s' ts', fold_txns p s ts = ROk (s', ts') -> ts' = ts.
  Proof.
    induction ts as [|t ts IH]; intros s s' ts' H.
    - injection H as _ <-. reflexivity.
    - apply fold_txns_cons_ok in H. destruct H as (s1 & t1 & ts1 & E1 & E2 & ->).
      rewrite (IH _ _ _ E2). f_equal.
      apply process_txn_ok in E1. destruct E1 as (s0 & _ & E1).
      destruct (pr_posting p) as [f|] eqn:Ef; [destruct E1 as (ps & E1 & ->)|destruct E1 as [_ ->]; reflexivity].
      rewrite (fold_postings_id f t (fun s x s' x' => posting_id f s t x s' x' eq_refl) _ _ _ _ E1). apply txn_rebuild.
  Qed.

  Lemma process_day_id s d s' d' : process_day p s d = ROk (s', d') -> d' = d.
  Proof.
    intros H.
    destruct (process_day_ok _ _ _ _ _ H) as (s1 & d1 & s2 & s3 & s4 & ts & s5 & s6 & E1 & _ & _ & E4 & _ & _ & E7).
    rewrite no_start in E1. rewrite no_end in E7. injection E1 as _ <-. injection E7 as _ <-.
    rewrite (fold_txns_id _ _ _ _ E4). apply day_rebuild.
  Qed.

  Lemma process_days_id : forall ds s s' ds', process_days p s ds = ROk (s', ds') -> ds' = ds.
  Proof.
    induction ds as [|d ds IH]; intros s s' ds' H.
    - injection H as _ <-. reflexivity.
    - apply process_days_cons_ok in H. destruct H as (s1 & d1 & ds1 & E1 & E2 & ->).
      rewrite (process_day_id _ _ _ _ E1), (IH _ _ _ E2). reflexivity.
  Qed.
End IdStage.

(* a property of the transaction a directive carries; Builder.Add puts that transaction into the day
   of its date and touches no other (Section BuilderTxns) *)
Definition on_txn (T : txn -> Prop) (d : directive) : Prop :=
  match d with DTxn t => T t | _ => True end.

Lemma on_txn_impl (T U : txn -> Prop) : (forall t, T t -> U t) -> forall ds, Forall (on_txn T) ds -> Forall (on_txn U) ds.
Proof. intros H ds. apply Forall_impl. intros [| | | |t]; cbn [on_txn]; auto. Qed.

Section BuilderTxns.
  (* a property of a transaction and the date of the day it stands in *)
  Variable T : Z -> txn -> Prop.
  Let D (x : day) : Prop := Forall (T (d_date x)) (d_txns x).

  Lemma upd_day_txns days d f :
    Forall D days -> (forall x, d_date x = d -> D x -> D (f x)) -> Forall D (upd_day days d f).
  Proof.
    intros Hd Hf. assert (He : D (f (empty_day d))) by (apply Hf; [reflexivity|constructor]).
    induction Hd as [|x rest Hx Hrest IH]; cbn [upd_day]; [auto|].
    destruct (d =? d_date x)%Z eqn:E; [apply Z.eqb_eq in E; auto|]. destruct (d <? d_date x)%Z; auto.
  Qed.

  Lemma builder_add_txns b d :
    Forall D (b_days b) -> on_txn (fun t => T (t_date t) t) d -> Forall D (b_days (builder_add b d)).
  Proof.
    intros Hb Hd. destruct d; cbn [builder_add b_days]; apply upd_day_txns; try exact Hb; try (intros x _ H; exact H).
    intros x Hx H. apply Forall_app. split; [exact H|]. constructor; [|constructor].
    cbn [add_txn_day d_date]. rewrite Hx. exact Hd.
  Qed.

  Lemma builder_of_txns ds :
    Forall (on_txn (fun t => T (t_date t) t)) ds -> Forall D (b_days (builder_of ds)).
  Proof.
    unfold builder_of. assert (H0 : Forall D (b_days new_builder)) by constructor.
    revert H0. generalize new_builder. induction ds as [|d ds IH]; intros b Hb Hds; cbn [fold_left]; [exact Hb|].
    inversion Hds; subst. apply IH; [apply builder_add_txns|]; assumption.
  Qed.

  Lemma builder_touch_txns b dates : Forall D (b_days b) -> Forall D (b_days (builder_touch b dates)).
  Proof.
    unfold builder_touch. cbn [b_days]. generalize (b_days b).
    induction dates as [|d ds IH]; intros days H; cbn [fold_left]; [exact H|].
    apply IH, upd_day_txns; auto.
  Qed.
End BuilderTxns.
