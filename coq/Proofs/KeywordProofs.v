(* C07, keywords: in a successfully parsed tree the kind of every node is justified by the text
   ([wf_keywords_b], Spec/LeafSpec.v): blanks, the keyword of the payload's kind and blanks
   between the date and the payload; `include` and blanks before the path; `@performance(` ...
   `)` and `@accrue` blanks for present addons (inversion of the parser: Proofs/RoundTripInv.v).
   That the blanks AFTER `open`, `close`, `price` are not empty needs that a newline is not
   alphanumeric ([class_ok]); everything else holds for every classification.               *)
From Coq Require Import String ZArith List Bool.
From Knut Require Import Proofs.ListFacts Model.Bytes Model.Utf8 Model.Scanner Model.Parser Spec.SyntaxSpec Spec.FormatSpec
  Spec.LeafSpec Proofs.RoundTripLeaf Proofs.RoundTripInv Proofs.RoundTripFile.
Import ListNotations.
Open Scope bool_scope.
Open Scope Z_scope.

Theorem parse_text_keywords letter digit t f : class_ok letter digit ->
  parse_text letter digit t = ParseOk f -> wf_keywords_b t f = true.
Proof.
  intros Hcls Hp.
  apply (Forall_forallb _ _ _ (fun d H => proj1 (proj2 (proj2 H) Hcls)) (parse_text_directives _ _ _ _ Hp)).
Qed.

(* without [class_ok] the blanks after a keyword may be missing: a classification that calls the
   newline a letter makes the account of `open` start with the newline *)
Definition nl_letter (c : Z) : bool := (c =? 10) || ((65 <=? c) && (c <=? 90)).
Definition nl_digit (c : Z) : bool := (48 <=? c) && (c <=? 57).
Definition nl_text : str := Eval vm_compute in
  runes_of_string "2020-01-01 open
A"%string.

Theorem keywords_unrestricted_refuted :
  exists letter digit t f, parse_text letter digit t = ParseOk f /\ wf_keywords_b t f = false.
Proof.
  exists nl_letter, nl_digit, nl_text. eexists. split; [vm_compute; reflexivity|]. vm_compute. reflexivity.
Qed.

