(* C02, layout: which rows the report has.  Every node of the report trees is rendered (one or
   more lines), so the rows are the node paths; a node exists iff some posting that reaches the
   query is mapped onto it or below it.  With --close the postings that reach the query include
   those of the closing transactions; their (account, commodity) pairs are shown to be those of
   Spec.LedgerSpec.closing_entries. *)
From Coq Require Import ZArith QArith List Bool Lia Permutation Sorting.Sorted.
From Knut Require Import Proofs.SMapProofs Model.Str Model.Dec Model.Date Model.Account Model.Ledger Model.Price
     Model.Journal Model.Check Model.Pipeline Model.Table Model.Report Model.Cli
     Spec.DateSpec Spec.WellformedSpec Spec.LedgerSpec Spec.LedgerSyntax
     Proofs.DecProofs Proofs.DecValue Proofs.JournalFacts Proofs.BuiltPostings Proofs.PairProofs Proofs.ReportSum Proofs.Conservation
     Proofs.DateProofs Proofs.CheckLemmas Proofs.BeancountProofs Proofs.LedgerProofs Proofs.CloseProofs.
Import ListNotations.
Open Scope Q_scope.

Fixpoint npaths (n : node) : list account :=
  match n with
  | Node _ p _ _ ch => p :: fold_right (fun c acc => npaths c ++ acc) [] ch
  end.

Definition cpaths (ch : list node) : list account := fold_right (fun c acc => npaths c ++ acc) [] ch.

Lemma npaths_unfold s p hv a ch : npaths (Node s p hv a ch) = p :: cpaths ch.
Proof. reflexivity. Qed.

Lemma npaths_head n : In (n_path n) (npaths n).
Proof. destruct n. left. reflexivity. Qed.

(* the rows of a report: every node but the two roots *)
Definition rows (r : report) : list account := cpaths (n_children (r_al r)) ++ cpaths (n_children (r_eie r)).

Lemma cpaths_children_insert rec h p (S' : list account) l :
  wf_children p l ->
  (forall c, n_path c = p ++ [h] -> wf_node c -> forall x, In x (npaths (rec c)) <-> In x (npaths c) \/ In x S') ->
  forall x, In x (cpaths (children_insert rec h (p ++ [h]) l)) <-> In x (cpaths l) \/ x = p ++ [h] \/ In x S'.
Proof.
  intros Hwf Hrec.
  assert (Hnew : forall x, In x (npaths (rec (Node h (p ++ [h]) false [] []))) <-> x = p ++ [h] \/ In x S').
  { intros x. rewrite (Hrec (Node h (p ++ [h]) false [] []) eq_refl I x). cbn. intuition. }
  induction Hwf as [|c l [Hc1 Hc2] Hl IH]; intros x; cbn [children_insert].
  - unfold cpaths. cbn [fold_right]. rewrite app_nil_r, Hnew. cbn. tauto.
  - destruct (str_cmp h (n_seg c)) eqn:E.
    + apply str_cmp_eq in E. subst h. unfold cpaths. cbn [fold_right]. rewrite !in_app_iff, (Hrec c Hc1 Hc2 x).
      pose proof (npaths_head c) as Hh. rewrite Hc1 in Hh.
      split; [tauto|]. intros [[H|H]|[H|H]]; try tauto. subst x. tauto.
    + unfold cpaths. cbn [fold_right]. rewrite !in_app_iff, Hnew. fold (cpaths l). tauto.
    + unfold cpaths in *. cbn [fold_right]. rewrite !in_app_iff, IH. tauto.
Qed.

Lemma npaths_node_insert k v : forall fuel prefix rest n,
  (length rest <= fuel)%nat -> n_path n = prefix -> wf_node n ->
  forall x, In x (npaths (node_insert fuel prefix rest k v n)) <-> In x (npaths n) \/ In x (prefixes_from prefix rest).
Proof.
  induction fuel as [|fu IH]; intros prefix rest [s p hv a ch] Hlen Hp Hwf x; cbn [n_path] in Hp; subst p.
  - destruct rest; [|cbn in Hlen; lia]. cbn [node_insert prefixes_from]. rewrite !npaths_unfold. cbn. tauto.
  - destruct rest as [|h tail].
    + cbn [node_insert prefixes_from]. rewrite !npaths_unfold. cbn. tauto.
    + cbn [node_insert prefixes_from]. rewrite !npaths_unfold. cbn [In].
      apply wf_node_children in Hwf.
      rewrite (cpaths_children_insert (node_insert fu (prefix ++ [h]) tail k v) h prefix (prefixes_from (prefix ++ [h]) tail) ch Hwf).
      * split; intros H; intuition (subst; auto).
      * intros c Hc Hwc y. apply IH; [cbn in Hlen; lia|exact Hc|exact Hwc].
Qed.

Lemma cpaths_root_insert k v a n : n_path n = [] -> wf_node n ->
  forall x, In x (cpaths (n_children (node_insert (S (length a)) [] a k v n))) <-> In x (cpaths (n_children n)) \/ In x (prefixes_from [] a).
Proof.
  intros Hp Hwf x. destruct n as [s p hv am ch]. cbn [n_path] in Hp. subst p. destruct a as [|h tail].
  - cbn [node_insert n_children prefixes_from]. cbn. tauto.
  - cbn [node_insert n_children prefixes_from]. apply wf_node_children in Hwf.
    rewrite (cpaths_children_insert (node_insert (length (h :: tail)) ([] ++ [h]) tail k v) h [] (prefixes_from ([] ++ [h]) tail) ch Hwf).
    + cbn [In]. split; intros H; intuition (subst; auto).
    + intros c Hc Hwc y. apply npaths_node_insert; [cbn; lia|exact Hc|exact Hwc].
Qed.

Lemma rows_insert r date a c v : wf_report r ->
  forall x, In x (rows (report_insert r date a c v)) <-> In x (rows r) \/ In x (prefixes_from [] a).
Proof.
  intros (W1 & W2 & P1 & P2) x. unfold rows, report_insert.
  destruct (is_AL a); cbn [r_al r_eie]; rewrite !in_app_iff.
  - rewrite (cpaths_root_insert (date, Some c) v a (r_al r) P1 W1). tauto.
  - rewrite (cpaths_root_insert (date, Some c) v a (r_eie r) P2 W2). tauto.
Qed.

Lemma rows_new x : ~ In x (rows new_report).
Proof. intros []. Qed.

Definition q_rows (q : query) (dp : Z * posting) : list account :=
  if q_where q (p_acc (snd dp)) (p_com (snd dp)) then
    match q_account q (p_acc (snd dp)) with ShAcc a => prefixes_from [] a | _ => [] end
  else [].

Lemma query_days_rows q ds r r' ds' :
  wf_report r ->
  process_days (query_proc q report_insert) r ds = ROk (r', ds') ->
  wf_report r' /\ forall x, In x (rows r') <-> In x (rows r) \/ In x (flat_map (q_rows q) (days_postings ds)).
Proof.
  intros Hwf H.
  refine (proj2 (process_days_trace _ _
            (fun done r1 => wf_report r1 /\ forall x, In x (rows r1) <-> In x (rows r) \/ In x (flat_map (q_rows q) done))
            (query_proc_posting_only q report_insert) _ ds [] r r' ds' _ H)).
  2: { split; [exact Hwf|]. intros x. cbn. tauto. }
  intros done r1 t p r2 p' [Hwf1 Hr1] E. unfold query_posting in E.
  assert (Hq : forall x, In x (flat_map (q_rows q) (done ++ [(t_date t, p)])) <-> In x (flat_map (q_rows q) done) \/ In x (q_rows q (t_date t, p))).
  { intros x. rewrite flat_map_app, in_app_iff. cbn [flat_map]. rewrite app_nil_r. reflexivity. }
  remember (q_rows q (t_date t, p)) as new eqn:En. unfold q_rows in En. cbn [snd] in En. revert En.
  destruct (q_where q (p_acc p) (p_com p)).
  - destruct (q_account q (p_acc p)) as [a| |]; try discriminate; intros ->; injection E as <- <-; (split; [reflexivity|]).
    + split; [apply wf_report_insert; exact Hwf1|].
      intros x. rewrite (rows_insert r1 _ a (p_com p) _ Hwf1), Hq, Hr1. tauto.
    + split; [exact Hwf1|]. intros x. rewrite Hq, Hr1. cbn. tauto.
  - intros ->. injection E as <- <-. split; [reflexivity|]. split; [exact Hwf1|]. intros x. rewrite Hq, Hr1. cbn. tauto.
Qed.

Definition pvz (p : posting) : Prop := is_zero (p_val p) = true.
Definition tvz (t : txn) : Prop := Forall pvz (t_postings t).

Definition pvals_zero (l : list (Z * posting)) : Prop := forall dp, In dp l -> pvz (snd dp).

Lemma parse_directives_vz l ds : parse_directives l = MOk ds -> pvals_zero (flat_postings ds).
Proof.
  intros H dp Hin. apply parse_directives_built in H. rewrite Forall_forall in H.
  unfold flat_postings in Hin. apply in_concat in Hin. destruct Hin as (lp & Hlp & Hin).
  apply in_map_iff in Hlp. destruct Hlp as (dir & <- & Hdir). specialize (H _ Hdir).
  destruct dir as [| | | |t]; try destruct Hin. apply in_map_iff in Hin. destruct Hin as (p0 & <- & Hp0).
  cbn [snd]. pose proof (built_val_zero _ H) as Hz. rewrite Forall_forall in Hz. exact (Hz _ Hp0).
Qed.

Definition vals_zero (m : positions) : Prop := Forall (fun x : pentry => is_zero (snd (snd x)) = true) m.

Lemma is_zero_add_zero a b : is_zero a = true -> is_zero b = true -> is_zero (add a b) = true.
Proof. rewrite !is_zero_value, dvalue_add. intros -> ->. ring. Qed.

Lemma pos_get0_vz m a c : vals_zero m -> is_zero (match pos_get m a c with Some x => x | None => dec_nil end) = true.
Proof.
  intros H. unfold pos_get. destruct (sm_get m (pos_key a c)) as [[[a0 c0] q0]|] eqn:E; [|reflexivity].
  apply sm_get_in in E. unfold vals_zero in H. rewrite Forall_forall in H. exact (H _ E).
Qed.

Lemma pos_add_vz m a c x : vals_zero m -> is_zero x = true -> vals_zero (pos_add m a c x).
Proof.
  intros Hm Hx. unfold pos_add. unfold vals_zero. rewrite Forall_forall. intros y Hy.
  apply sm_put_in in Hy. destruct Hy as [->|Hy].
  - cbn [snd]. apply is_zero_add_zero; [apply pos_get0_vz; exact Hm|exact Hx].
  - unfold vals_zero in Hm. rewrite Forall_forall in Hm. apply Hm. exact Hy.
Qed.

Lemma pvals_zero_app l1 l2 : pvals_zero (l1 ++ l2) <-> pvals_zero l1 /\ pvals_zero l2.
Proof.
  unfold pvals_zero. split.
  - intros H. split; intros dp Hin; apply H, in_or_app; auto.
  - intros [H1 H2] dp Hin. apply in_app_or in Hin. destruct Hin; auto.
Qed.

Lemma close_txns_vz cds ts s s' ts' :
  vals_zero (c_val s) -> pvals_zero (txns_postings ts) -> fold_txns (close_proc cds) s ts = ROk (s', ts') -> vals_zero (c_val s').
Proof.
  intros Hv Hp H.
  refine (proj2 (fold_txns_trace (close_proc cds) close_posting eq_refl eq_refl
            (fun done s1 => pvals_zero done -> vals_zero (c_val s1)) _ ts [] s s' ts' (fun _ => Hv) H) Hp).
  intros done s1 t p s2 p' HI E. unfold close_posting in E.
  destruct (is_AL (p_acc p) || acc_eqb (p_acc p) equity_account); injection E as <- <-; (split; [reflexivity|]);
    intros Hz; apply pvals_zero_app in Hz; destruct Hz as [Hd Hz]; [exact (HI Hd)|].
  cbn [c_val]. apply pos_add_vz; [exact (HI Hd)|]. exact (Hz (t_date t, p) (or_introl eq_refl)).
Qed.

Lemma closing_txns_vz date vs : vals_zero vs -> forall m, Forall tvz (closing_txns date m vs).
Proof.
  intros Hv. induction m as [|[k0 [[a c] qy]] m IH]; cbn [closing_txns]; [constructor|].
  destruct (is_zero qy && is_zero _); [exact IH|]. constructor; [|exact IH].
  unfold tvz. cbn [t_postings]. pose proof (pos_get0_vz vs a c Hv) as Hz. unfold pair_build.
  destruct (is_neg qy || is_zero qy && is_neg _); repeat constructor; unfold pvz; cbn [p_val]; rewrite ?is_zero_neg; exact Hz.
Qed.

Lemma close_day_vz cds s d s' d' :
  vals_zero (c_val s) -> pvals_zero (day_postings d) -> process_day (close_proc cds) s d = ROk (s', d') -> vals_zero (c_val s').
Proof.
  intros Hv Hp H.
  destruct (process_day_ok _ _ _ _ _ H) as (s1 & d1 & s2 & s3 & s4 & ts & s5 & s6 & E1 & E2 & E3 & E4 & E5 & E6 & E7).
  rewrite (fold_asserts_none (close_proc cds) _ _ eq_refl) in E5.
  injection E2 as <-. injection E3 as <-. injection E5 as <-. injection E6 as <-. injection E7 as <- _.
  cbn [close_proc pr_day_start cb_day] in E1. unfold close_day_start in E1.
  destruct (existsb (Z.eqb (d_date d)) cds); injection E1 as <- <-;
    apply (close_txns_vz cds _ _ _ _ Hv) in E4; try exact E4; [|exact Hp].
  cbn [set_txns d_txns]. rewrite txns_postings_app. apply pvals_zero_app. split; [exact Hp|].
  intros dp Hin. apply in_concat in Hin. destruct Hin as (l & Hl & Hin). apply in_map_iff in Hl. destruct Hl as (t & <- & Ht).
  apply in_map_iff in Hin. destruct Hin as (p0 & <- & Hp0). cbn [snd].
  pose proof (closing_txns_vz (d_date d) (c_val s) Hv (c_qty s)) as Hz. rewrite Forall_forall in Hz.
  specialize (Hz _ Ht). unfold tvz in Hz. rewrite Forall_forall in Hz. exact (Hz _ Hp0).
Qed.

(* a state the close stage can have on the closing day S: its quantities are what the closable
   postings of ALL owe to S, its values are zero *)
Definition close_state_at (starts : list Z) (ALL : list (Z * posting)) (S : Z) (m vs : positions) : Prop :=
  map_ok m /\ vals_zero vs /\ forall g, msum g m == owed starts (Some S) g ALL.

Definition ind (k : account * commodity) (a : account) (c : commodity) : Q := if keq (a, c) k then 1 else 0.

Lemma closing_txns_keys S vs : vals_zero vs -> forall m ac,
  (exists x, In x (txns_postings (closing_txns S m vs)) /\ key_of x = ac) <->
  (exists e : pentry, In e m /\ is_zero (snd (snd e)) = false /\ snd ac = snd (fst (snd e))
                      /\ (fst ac = fst (fst (snd e)) \/ fst ac = equity_account)).
Proof.
  intros Hv. induction m as [|[k0 [[a c] qy]] m IH]; intros ac; cbn [closing_txns].
  - split; [intros (x & [] & _)|intros (e & [] & _)].
  - rewrite (pos_get0_vz vs a c Hv), andb_true_r. destruct (is_zero qy) eqn:Ez.
    + rewrite IH. split; intros (e & He & H1 & H2).
      * exists e. split; [right; exact He|split; assumption].
      * destruct He as [<-|He]; [cbn [snd] in H1; congruence|]. exists e. split; [exact He|split; assumption].
    + unfold txns_postings in *. cbn [map concat t_date t_postings]. split.
      * intros (x & Hx & Hk). apply in_app_or in Hx. destruct Hx as [Hx|Hx].
        -- exists (k0, (a, c, qy)). split; [left; reflexivity|]. cbn [fst snd]. split; [exact Ez|]. subst ac.
           unfold pair_build in Hx. destruct (is_neg qy || is_zero qy && is_neg _); cbn [map] in Hx;
             destruct Hx as [<-|[<-|[]]]; unfold key_of; cbn [fst snd p_acc p_com]; tauto.
        -- destruct (proj1 (IH ac) (ex_intro _ x (conj Hx Hk))) as (e & He & H1). exists e. split; [right; exact He|exact H1].
      * intros (e & He & H1 & H2 & H3). destruct He as [<-|He].
        -- cbn [fst snd] in H2, H3. destruct ac as [a' c']. cbn [fst snd] in H2, H3. subst c'.
           unfold pair_build. destruct (is_neg qy || is_zero qy && is_neg _); cbn [map];
             destruct H3 as [->| ->];
             first [ eexists; split; [apply in_or_app; left; left; reflexivity|reflexivity]
                   | eexists; split; [apply in_or_app; left; right; left; reflexivity|reflexivity] ].
        -- destruct (proj2 (IH ac) (ex_intro _ e (conj He (conj H1 (conj H2 H3))))) as (x & Hx & Hk).
           exists x. split; [apply in_or_app; right; exact Hx|exact Hk].
Qed.

Lemma msum_ind_absent m k : Forall entry_ok_closable m -> account_ok (fst k) = true ->
  (forall e : pentry, In e m -> fst e <> pos_key (fst k) (snd k)) -> msum (ind k) m == 0.
Proof.
  intros Hok Hk Hne. apply qsum_zero. intros [k0 [[a c] qy]] Hin. cbn [fst snd]. unfold ind.
  destruct (keq (a, c) k) eqn:E; [|ring]. exfalso.
  rewrite Forall_forall in Hok. destruct (Hok _ Hin) as (H1 & H2 & _). cbn [fst snd] in H1, H2.
  assert (Ek : (a, c) = k) by (apply keq_eq; assumption). subst k. apply (Hne _ Hin). exact H1.
Qed.

Lemma msum_ind_present : forall m k0 a c qy, map_ok m -> In (k0, (a, c, qy)) m -> msum (ind (a, c)) m == dvalue qy.
Proof.
  induction m as [|e m IH]; intros k0 a c qy [Hs Hok] Hin; [destruct Hin|].
  inversion Hs as [|? ? Hs' Hall]; subst. inversion Hok as [|? ? He Hok']; subst. rewrite Forall_forall in Hall.
  assert (Hthis : forall e0 : pentry, In e0 (e :: m) -> entry_ok_closable e0) by (apply Forall_forall; exact Hok).
  destruct (Hthis _ Hin) as (Hk0 & Ha & _). cbn [fst snd] in Hk0, Ha.
  rewrite msum_cons. destruct Hin as [->|Hin].
  - cbn [fst snd]. unfold ind at 1. rewrite keq_refl.
    rewrite (msum_ind_absent m (a, c) Hok' Ha); [ring|].
    intros e0 He0 Heq. specialize (Hall _ He0). unfold key_lt in Hall. cbn [fst snd] in Hall, Heq.
    rewrite Heq, <- Hk0 in Hall. exact (str_cmp_lt_irrefl _ Hall).
  - rewrite (IH k0 a c qy (conj Hs' Hok') Hin).
    destruct e as [k1 [[a1 c1] q1]]. cbn [fst snd]. unfold ind.
    destruct (keq (a1, c1) (a, c)) eqn:E; [|ring]. exfalso.
    destruct He as (H1 & H2 & _). cbn [fst snd] in H1, H2.
    assert (Ek : (a1, c1) = (a, c)) by (apply keq_eq; assumption). inversion Ek; subst a1 c1.
    specialize (Hall _ Hin). unfold key_lt in Hall. cbn [fst] in Hall. rewrite H1, <- Hk0 in Hall.
    exact (str_cmp_lt_irrefl _ Hall).
Qed.

Lemma state_nonzero starts ALL S m vs k :
  close_state_at starts ALL S m vs -> account_ok (fst k) = true ->
  ((exists e : pentry, In e m /\ is_zero (snd (snd e)) = false /\ (fst (fst (snd e)), snd (fst (snd e))) = k)
   <-> ~ owed starts (Some S) (ind k) ALL == 0).
Proof.
  intros (Hm & _ & Hsum) Hk. rewrite <- (Hsum (ind k)). split.
  - intros ([k0 [[a c] qy]] & Hin & Hz & Hkk). cbn [fst snd] in Hz, Hkk. subst k.
    rewrite (msum_ind_present m k0 a c qy Hm Hin). intros H0. apply is_zero_value in H0. congruence.
  - intros Hnz. destruct k as [a c]. cbn [fst snd] in Hk.
    destruct (sm_get m (pos_key a c)) as [[[a0 c0] q0]|] eqn:Eg.
    + apply sm_get_in in Eg. destruct Hm as [Hs Hok]. pose proof Hok as Hok2. rewrite Forall_forall in Hok2.
      destruct (Hok2 _ Eg) as (H1 & H2 & _). cbn [fst snd] in H1, H2.
      destruct (pos_key_inj _ _ _ _ Hk H2 H1) as [<- <-].
      exists (pos_key a c, (a, c, q0)). split; [exact Eg|]. cbn [fst snd]. split; [|reflexivity].
      destruct (is_zero q0) eqn:Ez; [|reflexivity]. exfalso. apply Hnz.
      rewrite (msum_ind_present m _ a c q0 (conj Hs Hok) Eg). apply is_zero_value. exact Ez.
    + exfalso. apply Hnz. apply msum_ind_absent; [exact (proj2 Hm)|exact Hk|].
      intros e He Heq. cbn [fst snd] in Heq. destruct e as [k1 v1]. cbn [fst] in Heq. subst k1.
      assert (Hg : sm_get m (pos_key a c) = Some v1) by (apply sm_get_in_sorted; [exact (proj1 Hm)|exact He]).
      congruence.
Qed.

Definition ekey (e : entry) : account * commodity := (snd (fst (fst e)), snd (fst e)).

Section SpecKeys.
  Variable posts : list (Z * posting).
  Variable keys : list (account * commodity).

  Definition specV (prev : Z) (sts : list Z) (S : Z) (k : account * commodity) : Q :=
    qsum (fun dp => if (prev <=? fst dp)%Z && oz_eqb (nxt sts (fst dp)) (Some S) && keq (key_of dp) k
                    then dvalue (p_qty (snd dp)) else 0) posts.

  Lemma specV_head prev S rest k : StronglySorted Z.lt (S :: rest) ->
    dvalue (sum_between posts k prev (S - 1)) == specV prev (S :: rest) S k.
  Proof.
    intros Hs. rewrite sum_between_value. apply qsum_ext. intros dp _.
    inversion Hs as [|? ? _ Hall]; subst. rewrite Forall_forall in Hall.
    assert (E : ((prev <=? fst dp) && (fst dp <=? S - 1))%Z = ((prev <=? fst dp)%Z && oz_eqb (nxt (S :: rest) (fst dp)) (Some S))).
    { f_equal. unfold nxt. cbn [find]. destruct (fst dp <? S)%Z eqn:E1.
      - cbn [oz_eqb]. rewrite Z.eqb_refl. lia.
      - destruct (find (fun s => (fst dp <? s)%Z) rest) as [s2|] eqn:Ef; cbn [oz_eqb]; [|lia].
        apply find_some in Ef. destruct Ef as [Hin _]. specialize (Hall _ Hin). lia. }
    rewrite E. reflexivity.
  Qed.

  Lemma specV_tail prev S rest S' k : StronglySorted Z.lt (S :: rest) -> (prev <= S)%Z -> In S' rest ->
    specV S rest S' k == specV prev (S :: rest) S' k.
  Proof.
    intros Hs Hp Hin. apply qsum_ext. intros dp _.
    inversion Hs as [|? ? _ Hall]; subst. rewrite Forall_forall in Hall. specialize (Hall _ Hin).
    assert (E : ((S <=? fst dp)%Z && oz_eqb (nxt rest (fst dp)) (Some S')) = ((prev <=? fst dp)%Z && oz_eqb (nxt (S :: rest) (fst dp)) (Some S'))).
    { unfold nxt. cbn [find]. destruct (fst dp <? S)%Z eqn:E1.
      - cbn [oz_eqb]. replace (S <=? fst dp)%Z with false by lia. replace (S =? S')%Z with false by lia.
        rewrite andb_false_r. reflexivity.
      - replace (S <=? fst dp)%Z with true by lia. replace (prev <=? fst dp)%Z with true by lia. reflexivity. }
    rewrite E. reflexivity.
  Qed.

  Lemma spec_close_keys : forall ps prev ac,
    StronglySorted Z.lt (map p_start ps) -> Forall (fun p => (prev <= p_start p)%Z) ps ->
    ((exists e, In e (closing_entries posts keys prev ps) /\ ekey e = ac) <->
     (exists p k, In p ps /\ In k keys /\ ~ specV prev (map p_start ps) (p_start p) k == 0
                  /\ snd ac = snd k /\ (fst ac = fst k \/ fst ac = equity_account))).
  Proof.
    induction ps as [|p ps IH]; intros prev ac Hs Hall; cbn [closing_entries].
    - split; [intros (e & [] & _)|intros (p & k & [] & _)].
    - cbn [map] in Hs. inversion Hs as [|? ? Hs' Hlt]; subst. rewrite Forall_forall in Hlt.
      inversion Hall as [|? ? Hp Hall']; subst.
      assert (Hall2 : Forall (fun x => (p_start p <= p_start x)%Z) ps).
      { rewrite Forall_forall. intros x Hx. assert (Hi : In (p_start x) (map p_start ps)) by (apply in_map; exact Hx).
        specialize (Hlt _ Hi). lia. }
      specialize (IH (p_start p) ac Hs' Hall2).
      split.
      + intros (e & He & Hk). apply in_app_or in He. destruct He as [He|He].
        * apply in_concat in He. destruct He as (l & Hl & He). apply in_map_iff in Hl. destruct Hl as (k & <- & Hkin).
          destruct (is_zero (sum_between posts k prev (p_start p - 1))) eqn:Ez; [destruct He|].
          exists p, k. split; [left; reflexivity|]. split; [exact Hkin|]. split.
          -- cbn [map]. rewrite <- (specV_head prev (p_start p) (map p_start ps) k Hs). intros H0.
             apply is_zero_value in H0. congruence.
          -- subst ac. destruct He as [<-|[<-|[]]]; unfold ekey; cbn [fst snd]; tauto.
        * destruct (proj1 IH (ex_intro _ e (conj He Hk))) as (p' & k & Hp' & Hkin & Hnz & H1).
          exists p', k. split; [right; exact Hp'|]. split; [exact Hkin|]. split; [|exact H1].
          cbn [map]. rewrite <- (specV_tail prev (p_start p) (map p_start ps) (p_start p') k Hs Hp); [exact Hnz|].
          apply in_map. exact Hp'.
      + intros (p' & k & Hp' & Hkin & Hnz & H1 & H2). destruct Hp' as [<-|Hp'].
        * cbn [map] in Hnz. rewrite <- (specV_head prev (p_start p) (map p_start ps) k Hs) in Hnz.
          assert (Ez : is_zero (sum_between posts k prev (p_start p - 1)) = false).
          { destruct (is_zero (sum_between posts k prev (p_start p - 1))) eqn:E; [|reflexivity].
            exfalso. apply Hnz. apply is_zero_value. exact E. }
          destruct ac as [a' c']. cbn [fst snd] in H1, H2. subst c'.
          destruct H2 as [->| ->].
          -- exists (p_end p, fst k, snd k, neg (sum_between posts k prev (p_start p - 1))). split; [|reflexivity].
             apply in_or_app. left. apply in_concat. eexists. split; [apply in_map_iff; exists k; split; [reflexivity|exact Hkin]|].
             cbn beta. rewrite Ez. left. reflexivity.
          -- exists (p_end p, [s_Equity; s_Equity], snd k, sum_between posts k prev (p_start p - 1)). split; [|reflexivity].
             apply in_or_app. left. apply in_concat. eexists. split; [apply in_map_iff; exists k; split; [reflexivity|exact Hkin]|].
             cbn beta. rewrite Ez. right. left. reflexivity.
        * cbn [map] in Hnz. rewrite <- (specV_tail prev (p_start p) (map p_start ps) (p_start p') k Hs Hp) in Hnz by (apply in_map; exact Hp').
          destruct (proj2 IH (ex_intro _ p' (ex_intro _ k (conj Hp' (conj Hkin (conj Hnz (conj H1 H2))))))) as (e & He & Hk).
          exists e. split; [apply in_or_app; right; exact He|exact Hk].
  Qed.
End SpecKeys.

Definition e_rows (cfg : balance_cfg) (ac : account * commodity) : list account :=
  if cfg_where cfg (fst ac) (snd ac) then
    match shorten (bc_mapping cfg) (remap (bc_remap cfg) (fst ac)) with ShAcc a' => prefixes_from [] a' | _ => [] end
  else [].

Lemma q_rows_balance cfg part x : q_rows (balance_query cfg part) x = e_rows cfg (key_of x).
Proof. reflexivity. Qed.

Lemma mapped_rows cfg es row :
  (exists e, In e (mapped_entries cfg es) /\ (let '(_, a, _, _) := e in In row (prefixes_from [] a))) <->
  (exists e, In e es /\ In row (e_rows cfg (ekey e))).
Proof.
  unfold mapped_entries. split.
  - intros (e & He & Hr). apply in_concat in He. destruct He as (l & Hl & He). apply in_map_iff in Hl.
    destruct Hl as ([[[col a] c] v] & <- & Hin). exists (col, a, c, v). split; [exact Hin|].
    unfold e_rows, ekey. cbn [fst snd]. destruct (cfg_where cfg a c); [|destruct He].
    destruct (shorten (bc_mapping cfg) (remap (bc_remap cfg) a)) as [a'| |]; try destruct He as [<-|[]]; try destruct He. exact Hr.
  - intros ([[[col a] c] v] & Hin & Hr). unfold e_rows, ekey in Hr. cbn [fst snd] in Hr.
    destruct (cfg_where cfg a c) eqn:Ew; [|destruct Hr].
    destruct (shorten (bc_mapping cfg) (remap (bc_remap cfg) a)) as [a'| |] eqn:Es; try destruct Hr.
    exists (col, a', c, v). split; [|exact Hr]. apply in_concat. eexists. split; [apply in_map_iff; exists (col, a, c, v); split; [reflexivity|exact Hin]|].
    cbn beta iota. rewrite Ew, Es. left. reflexivity.
Qed.

Lemma column_some : forall ps s e d, tiles s e ps -> (d <= e)%Z -> column_for ps d <> None.
Proof.
  induction ps as [|p ps IH]; intros s e d Ht Hd; [destruct Ht|]. cbn [tiles] in Ht. destruct Ht as (_ & _ & Hrest).
  cbn [column_for]. destruct (d <=? p_end p)%Z eqn:E; [discriminate|].
  destruct ps as [|p2 ps]; [lia|]. eapply IH; eauto.
Qed.

Lemma user_entries_keys sp ps posts ac :
  (forall d, in_span sp d = true -> column_for ps d <> None) ->
  ((exists e, In e (user_entries sp ps posts) /\ ekey e = ac) <->
   (exists dp, In dp posts /\ in_span sp (fst dp) = true /\ key_of dp = ac)).
Proof.
  intros Hcol. unfold user_entries. split.
  - intros (e & He & Hk). apply in_concat in He. destruct He as (l & Hl & He). apply in_map_iff in Hl.
    destruct Hl as ([d p] & <- & Hin). exists (d, p). split; [exact Hin|]. cbn [fst]. unfold in_span.
    destruct ((p_start sp <=? d)%Z && (d <=? p_end sp)%Z); [|destruct He]. split; [reflexivity|].
    destruct (column_for ps d); [|destruct He]. destruct He as [<-|[]]. exact Hk.
  - intros ([d p] & Hin & Hsp & Hk). cbn [fst] in Hsp. pose proof (Hcol d Hsp) as Hc.
    destruct (column_for ps d) as [col|] eqn:Ec; [|congruence].
    exists (col, p_acc p, p_com p, p_qty p). split; [|exact Hk].
    apply in_concat. eexists. split; [apply in_map_iff; exists (d, p); split; [reflexivity|exact Hin]|].
    cbn beta iota. unfold in_span in Hsp. rewrite Hsp, Ec. left. reflexivity.
Qed.

Lemma closing_entries_nokeys posts : forall ps prev, closing_entries posts [] prev ps = [].
Proof. induction ps as [|p ps IH]; intros prev; cbn [closing_entries map concat app]; [reflexivity|apply IH]. Qed.

(* model and specification agree on what a key owes to a period start *)
Lemma owed_specV part dl k S :
  part_facts part -> (p_start (span part) <= p_end (span part))%Z ->
  postings_syntactic dl -> account_ok (fst k) = true -> closable (fst k) = true -> In S (start_dates part) ->
  owed (start_dates part) (Some S) (ind k) (days_postings (close_input part dl))
  == specV (flat_postings dl) (p_start (span part)) (map p_start (periods part)) S k.
Proof.
  intros [Hss Htiles] Hle Hsyn Hk Hck HS. destruct (Htiles Hle) as [Ht Hfs]. destruct (tiles_facts _ _ _ Ht) as [_ Hb].
  unfold owed. rewrite close_input_sum. unfold specV. apply qsum_ext. intros [d p] Hin. cbn [fst snd].
  unfold start_dates. unfold ind, key_of. cbn [fst snd].
  destruct (keq (p_acc p, p_com p) k) eqn:Ek.
  2: { rewrite andb_false_r. destruct (in_span (span part) d); [|reflexivity].
       destruct (closable_dp (d, p) && oz_eqb (nxt (map p_start (periods part)) d) (Some S)); ring. }
  assert (Ekk : (p_acc p, p_com p) = k) by (apply keq_eq; [apply (Hsyn d p Hin)|exact Hk|exact Ek]).
  assert (Hcl : closable_dp (d, p) = true) by (unfold closable_dp; cbn [snd]; rewrite <- Ekk in Hck; exact Hck).
  rewrite Hcl, andb_true_r. cbn [andb].
  destruct (oz_eqb (nxt (map p_start (periods part)) d) (Some S)) eqn:En.
  - apply oz_eqb_eq in En. apply nxt_gt in En. destruct En as [Hlt _].
    unfold start_dates in HS. apply in_map_iff in HS. destruct HS as (p0 & <- & Hp0).
    rewrite Forall_forall in Hb. specialize (Hb _ Hp0).
    unfold in_span. rewrite andb_true_r. replace (d <=? p_end (span part))%Z with true by lia. rewrite andb_true_r.
    destruct (p_start (span part) <=? d)%Z; ring.
  - rewrite andb_false_r. destruct (in_span (span part) d); reflexivity.
Qed.

Lemma user_keys_equiv part posts days0 :
  part_facts part -> Permutation (days_postings days0) posts -> days_dated days0 ->
  forall ac,
    (exists x, In x (days_postings (map (filt (span part)) days0)) /\ key_of x = ac) <->
    (exists e, In e (user_entries (span part) (periods part) posts) /\ ekey e = ac).
Proof.
  intros [_ Htiles] Hperm Hdated ac.
  assert (Hcol : forall d, in_span (span part) d = true -> column_for (periods part) d <> None).
  { intros d Hs. unfold in_span in Hs. destruct (Htiles ltac:(lia)) as [Ht _]. apply (column_some _ _ _ d Ht). lia. }
  rewrite (user_entries_keys _ _ posts ac Hcol). split; intros (x & Hx & Hk).
  - apply (filt_in_iff _ _ _ Hdated) in Hx. destruct Hx as [A B]. exists x. split; [eapply Permutation_in; [exact Hperm|exact A]|]. tauto.
  - destruct Hk as [Hk1 Hk2]. exists x. split; [|exact Hk2]. apply (filt_in_iff _ _ _ Hdated).
    split; [eapply Permutation_in; [apply Permutation_sym; exact Hperm|exact Hx]|exact Hk1].
Qed.

Lemma close_keys_equiv part dl s5 d5 :
  part_facts part -> postings_syntactic dl -> pvals_zero (flat_postings dl) ->
  process_days (close_proc (start_dates part)) (mkClose [] []) (close_input part dl) = ROk (s5, d5) ->
  forall ac,
    (exists x, In x (days_postings d5) /\ key_of x = ac) <->
    (exists e, In e (user_entries (span part) (periods part) (flat_postings dl) ++
                     closing_entries (flat_postings dl) (closable_keys (span part) (flat_postings dl)) (p_start (span part)) (periods part))
               /\ ekey e = ac).
Proof.
  intros Hpf Hsyn Hpvz H. pose proof Hpf as [Hss Htiles].
  set (sp := span part) in *. set (ps := periods part) in *. set (posts := flat_postings dl) in *.
  set (days1 := close_input part dl) in *.
  assert (Hin1 : forall dp, In dp (days_postings days1) <-> In dp posts /\ in_span sp (fst dp) = true)
    by (intros dp; apply close_input_in).
  assert (Hok : posts_ok posts) by (intros [d p] Hin; apply (Hsyn d p Hin)).
  assert (Hgood : Forall (fun d => pvals_zero (day_postings d)) days1).
  { apply Forall_forall. intros d Hd dp Hdp. apply Hpvz, Hin1. unfold days_postings. apply in_concat.
    exists (day_postings d). split; [apply in_map; exact Hd|exact Hdp]. }
  destruct (close_stage_run part dl (fun s => vals_zero (c_val s)) (fun d => pvals_zero (day_postings d)) s5 d5
              (close_day_vz (start_dates part)) Hpf Hsyn (Forall_nil _) Hgood H) as (cl & HP & _ & Hcl & HC).
  rewrite Forall_forall in HC.
  (* the postings after the stage: those before it and the closing transactions *)
  assert (HA : forall x, In x (days_postings d5) <-> In x (days_postings days1) \/
             exists Ss, In Ss cl /\ In x (txns_postings (closing_txns (fst Ss) (c_qty (snd Ss)) (c_val (snd Ss))))).
  { intros x. split.
    - intros Hx. apply (Permutation_in _ HP), in_app_or in Hx. destruct Hx as [Hx|Hx]; [left; exact Hx|right].
      apply in_flat_map in Hx. exact Hx.
    - intros Hx. apply (Permutation_in _ (Permutation_sym HP)), in_or_app. destruct Hx as [Hx|Hx]; [left; exact Hx|right].
      apply in_flat_map. exact Hx. }
  assert (Hle_of : forall dp, In dp (days_postings days1) -> (p_start sp <= p_end sp)%Z).
  { intros dp Hin. apply Hin1 in Hin. destruct Hin as [_ Hs]. unfold in_span in Hs. lia. }
  pose proof (user_keys_equiv part posts _ Hpf (close_input_perm part dl) (builder_touch_dated _ _ (builder_of_dated dl))) as Huser.
  assert (Hkeys_ok : forall k, In k (closable_keys sp posts) -> account_ok (fst k) = true /\ closable (fst k) = true
                                 /\ (p_start sp <= p_end sp)%Z).
  { intros k Hk. rewrite closable_keys_fold in Hk. destruct (keys_sound sp k posts [] Hk) as [[]|(dp & A & -> & C & D)].
    split; [apply Hok; exact A|]. split; [exact D|]. unfold span_dp, in_span in C. lia. }
  assert (Hfacts : (p_start sp <= p_end sp)%Z ->
            StronglySorted Z.lt (map p_start ps) /\ Forall (fun p => (p_start sp <= p_start p)%Z) ps).
  { intros Hle. destruct (Htiles Hle) as [Ht Hfs]. destruct (tiles_facts _ _ _ Ht) as [_ Hb].
    split; [exact Hss|]. eapply Forall_impl; [|exact Hb]. cbn. intros x Hx. fold sp ps in Hfs. lia. }
  intros ac. split.
  - intros (x & Hx & Hk). destruct (proj1 (HA x) Hx) as [H1|([S sS] & HinS & Hxin)].
    + destruct (proj1 (Huser ac) (ex_intro _ x (conj H1 Hk))) as (e & He & Hek).
      exists e. split; [apply in_or_app; left; exact He|exact Hek].
    + cbn [fst snd] in Hxin. pose proof (HC _ HinS) as Hst. cbn [fst snd] in Hst.
      assert (HSs : In S (start_dates part)) by (apply Hcl; exact (in_map fst _ _ HinS)).
      pose proof Hst as (Hm & Hvz & _).
      destruct (proj1 (closing_txns_keys S (c_val sS) Hvz (c_qty sS) ac) (ex_intro _ x (conj Hxin Hk))) as (e0 & He0 & Hz0 & Hc0 & Ha0).
      set (k := (fst (fst (snd e0)), snd (fst (snd e0)))).
      destruct Hm as [_ Hmok]. rewrite Forall_forall in Hmok. destruct (Hmok _ He0) as (_ & Hka & Hkc).
      assert (Hnz : ~ owed (start_dates part) (Some S) (ind k) (days_postings days1) == 0).
      { apply (proj1 (state_nonzero _ _ _ _ _ k Hst Hka)). exists e0. split; [exact He0|split; [exact Hz0|reflexivity]]. }
      destruct (existsb (fun dp => closable_dp dp && keq (key_of dp) k) (days_postings days1)) eqn:Ex.
      2: { exfalso. apply Hnz. apply qsum_zero. intros dp Hin.
           assert (Hf : closable_dp dp && keq (key_of dp) k = false).
           { destruct (closable_dp dp && keq (key_of dp) k) eqn:E; [|reflexivity].
             assert (Ht : existsb (fun dp0 => closable_dp dp0 && keq (key_of dp0) k) (days_postings days1) = true)
               by (apply existsb_exists; exists dp; split; assumption).
             congruence. }
           unfold ind. change (p_acc (snd dp), p_com (snd dp)) with (key_of dp).
           destruct (closable_dp dp); cbn [andb] in *; [rewrite Hf; destruct (oz_eqb _ _); ring|reflexivity]. }
      apply existsb_exists in Ex. destruct Ex as (dp & Hdp & Hck). apply andb_true_iff in Hck. destruct Hck as [Hcd Hkq].
      pose proof (Hle_of dp Hdp) as Hle. apply Hin1 in Hdp. destruct Hdp as [Hdpin Hdpsp].
      assert (Ekk : key_of dp = k) by (apply keq_eq; [apply Hok; exact Hdpin|exact Hka|exact Hkq]).
      assert (Hkin : In k (closable_keys sp posts)).
      { pose proof (keys_complete sp dp posts [] Hdpin Hdpsp Hcd) as Hex. rewrite <- closable_keys_fold in Hex.
        apply existsb_exists in Hex. destruct Hex as (k' & Hk' & Hkq').
        destruct (Hkeys_ok k' Hk') as (Hk'a & _).
        assert (E' : key_of dp = k') by (apply keq_eq; [apply Hok; exact Hdpin|exact Hk'a|exact Hkq']).
        rewrite <- Ekk, E'. exact Hk'. }
      destruct (Hfacts Hle) as [Hst1 Hall1].
      pose proof HSs as HSs2. unfold start_dates in HSs2. apply in_map_iff in HSs2. destruct HSs2 as (p0 & Hp0s & Hp0).
      assert (Hnz2 : ~ specV posts (p_start sp) (map p_start ps) S k == 0).
      { intros H0. apply Hnz. exact (Qeq_trans _ _ _ (owed_specV part dl k S Hpf Hle Hsyn Hka Hkc HSs) H0). }
      destruct (proj2 (spec_close_keys posts (closable_keys sp posts) ps (p_start sp) ac Hst1 Hall1)) as (e & He & Hek).
      { exists p0, k. split; [exact Hp0|]. split; [exact Hkin|]. split; [rewrite Hp0s; exact Hnz2|]. split; [exact Hc0|exact Ha0]. }
      exists e. split; [apply in_or_app; right; exact He|exact Hek].
  - intros (e & He & Hek). apply in_app_or in He. destruct He as [He|He].
    + destruct (proj2 (Huser ac) (ex_intro _ e (conj He Hek))) as (x & Hx & Hk). exists x. split; [apply HA; left; exact Hx|exact Hk].
    + destruct (Z_le_gt_dec (p_start sp) (p_end sp)) as [Hle|Hgt].
      2: { exfalso. rewrite (closable_keys_empty sp posts) in He by (intros d; unfold in_span; lia).
           rewrite closing_entries_nokeys in He. destruct He. }
      destruct (Hfacts Hle) as [Hst1 Hall1].
      destruct (proj1 (spec_close_keys posts (closable_keys sp posts) ps (p_start sp) ac Hst1 Hall1) (ex_intro _ e (conj He Hek)))
        as (p0 & k & Hp0 & Hkin & Hnz & Hc0 & Ha0).
      destruct (Hkeys_ok k Hkin) as (Hka & Hkc & _).
      assert (HSs : In (p_start p0) (start_dates part)) by (unfold start_dates; apply in_map; exact Hp0).
      destruct (proj1 (in_map_iff fst cl (p_start p0)) (proj2 (Hcl _) HSs)) as ([S sS] & ES & HinS). cbn [fst] in ES. subst S.
      pose proof (HC _ HinS) as Hst. cbn [fst snd] in Hst.
      assert (Hnz2 : ~ owed (start_dates part) (Some (p_start p0)) (ind k) (days_postings days1) == 0).
      { intros H0. apply Hnz. exact (Qeq_trans _ _ _ (Qeq_sym _ _ (owed_specV part dl k (p_start p0) Hpf Hle Hsyn Hka Hkc HSs)) H0). }
      destruct (proj2 (state_nonzero _ _ _ _ _ k Hst Hka) Hnz2) as (e0 & He0 & Hz0 & Hk0).
      pose proof Hst as (_ & Hvz & _).
      destruct (proj2 (closing_txns_keys (p_start p0) (c_val sS) Hvz (c_qty sS) ac)) as (x & Hx & Hk).
      { exists e0. split; [exact He0|]. split; [exact Hz0|]. rewrite <- Hk0 in Hc0, Ha0. cbn [fst snd] in Hc0, Ha0. split; assumption. }
      exists x. split; [|exact Hk]. apply HA. right. exists (p_start p0, sS). split; [exact HinS|exact Hx].
Qed.

Lemma rows_from_keys cfg part (r : report) L ES :
  (forall x, In x (rows r) <-> In x (flat_map (q_rows (balance_query cfg part)) L)) ->
  (forall ac, (exists x, In x L /\ key_of x = ac) <-> (exists e : entry, In e ES /\ ekey e = ac)) ->
  forall row, In row (rows r) <->
    (exists e, In e (mapped_entries cfg ES) /\ (let '(_, a, _, _) := e in In row (prefixes_from [] a))).
Proof.
  intros Hr Hk row. rewrite mapped_rows, Hr, in_flat_map. split.
  - intros (x & Hx & Hin). rewrite q_rows_balance in Hin.
    destruct (proj1 (Hk (key_of x)) (ex_intro _ x (conj Hx eq_refl))) as (e & He & Hek).
    exists e. split; [exact He|]. rewrite Hek. exact Hin.
  - intros (e & He & Hin).
    destruct (proj2 (Hk (ekey e)) (ex_intro _ e (conj He eq_refl))) as (x & Hx & Hxk).
    exists x. split; [exact Hx|]. rewrite q_rows_balance, Hxk. exact Hin.
Qed.

(* which rows the report has *)
Theorem report_rows cfg ds r part :
  bc_valuation cfg = None ->
  balance_report cfg ds = COk (r, part) ->
  exists dl,
    parse_directives ds = MOk dl /\
    ((bc_close cfg = true -> postings_syntactic dl) ->
     forall row, In row (rows r) <-> ledger_row cfg dl row).
Proof.
  intros Hv H. destruct (unvalued_stages _ _ _ _ Hv H) as (dl & d5 & d6 & Ep & Epart & E5 & E6).
  exists dl. split; [exact Ep|]. intros Hsyn.
  pose proof (partition_facts _ _ _ _ Epart) as Hpf. unfold ledger_row. rewrite Epart.
  destruct (query_days_rows (balance_query cfg part) _ _ _ _ wf_new_report E6) as (_ & Hrows).
  assert (Hr : forall x, In x (rows r) <-> In x (flat_map (q_rows (balance_query cfg part)) (days_postings d5))).
  { intros x. rewrite Hrows. split; [intros [Hf|Hx]; [destruct (rows_new _ Hf)|exact Hx]|intros Hx; right; exact Hx]. }
  apply (rows_from_keys cfg part r (days_postings d5) _ Hr).
  destruct (bc_close cfg).
  - destruct E5 as (s5 & E5). exact (close_keys_equiv part dl s5 d5 Hpf (Hsyn eq_refl) (parse_directives_vz _ _ Ep) E5).
  - subst d5. rewrite app_nil_r.
    exact (user_keys_equiv part (flat_postings dl) (b_days (builder_of dl)) Hpf (builder_of_perm dl) (builder_of_dated dl)).
Qed.
