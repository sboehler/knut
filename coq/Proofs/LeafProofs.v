(* C07, lexical classes of the leaves: a successful parse returns a tree whose every leaf is in
   its class, as the EXECUTABLE Spec/LeafSpec.v states it ([wf_leaves_b]).  The inversion of the
   parser (Proofs/RoundTripInv.v, for every directive of a file Proofs/RoundTripFile.v) gives the classes as predicates on what the scanner consumed;
   Proofs/LexBytes.v turns them into the regular expressions over the decoded runes.  No
   hypothesis on the classification of letters and digits is needed: the classes are regular
   expressions in terms of that classification.                                              *)
From Coq Require Import ZArith List Bool.
From Knut Require Import Proofs.ListFacts Model.Bytes Model.Utf8 Model.Scanner Model.Parser Spec.LeafSpec Proofs.RoundTripInv Proofs.RoundTripFile.
Import ListNotations.
Open Scope Z_scope.

Theorem parse_text_leaves letter digit t f :
  parse_text letter digit t = ParseOk f -> wf_leaves_b letter digit t f = true.
Proof.
  intros Hp. apply (Forall_forallb _ _ _ (fun d H => proj1 (proj2 H)) (parse_text_directives _ _ _ _ Hp)).
Qed.
