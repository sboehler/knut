(* C02: refinement of the stateful balance pipeline (unvalued) to the closed-form ledger
   computation of Spec/LedgerSpec.v.  In order: the sum of a report tree over the nodes of one
   row and what report_insert adds to it (rcell); the dated postings of the days and the query
   stage as a fold over them (process_days_trace, query_days); the stages that return the days
   they are given, and the filter; sums over lists (qsum) and the builder, which keeps every
   posting once, in the day of its date; the cells without --close (report_cells_noclose);
   the numbers of one rendered row (row_values). *)
From Coq Require Import ZArith QArith List Bool Lia Permutation.
From Knut Require Import Proofs.ListFacts Model.Str Model.Dec Model.Date Model.Account Model.Ledger Model.Price
     Model.Journal Model.Check Model.Pipeline Model.Table Model.Report Model.Cli
     Spec.LedgerSpec
     Proofs.DecProofs Proofs.DecValue Proofs.StrProofs Proofs.CheckLemmas Proofs.JournalFacts Proofs.PairProofs Proofs.ReportSum Proofs.Conservation.
Import ListNotations.
Open Scope Q_scope.


(* total value stored under key k in the nodes whose path is (name-)equal to row *)
Fixpoint psum (row : account) (k : rkey) (n : node) : Q :=
  match n with
  | Node _ p _ a ch =>
    (if acc_eqb p row then esum idk k a else 0) + fold_right (fun c acc => psum row k c + acc) 0 ch
  end.

Definition pcsum (row : account) (k : rkey) (ch : list node) : Q :=
  fold_right (fun c acc => psum row k c + acc) 0 ch.

Lemma psum_unfold row k s p hv a ch :
  psum row k (Node s p hv a ch) = (if acc_eqb p row then esum idk k a else 0) + pcsum row k ch.
Proof. reflexivity. Qed.

(* every child's stored path is its parent's path extended by the child's segment *)
Fixpoint wf_node (n : node) : Prop :=
  match n with
  | Node _ p _ _ ch =>
    (fix go (l : list node) : Prop :=
       match l with
       | [] => True
       | c :: l' => n_path c = p ++ [n_seg c] /\ wf_node c /\ go l'
       end) ch
  end.

Definition wf_children (p : account) (l : list node) : Prop :=
  Forall (fun c => n_path c = p ++ [n_seg c] /\ wf_node c) l.

Lemma wf_node_children s p hv a ch : wf_node (Node s p hv a ch) <-> wf_children p ch.
Proof.
  unfold wf_children. cbn [wf_node]. induction ch as [|c ch IH]; [split; [constructor|trivial]|].
  split.
  - intros (H1 & H2 & H3). constructor; [split; assumption|]. apply IH. exact H3.
  - intros H. inversion H as [|? ? [H1 H2] H3]; subst. repeat split; try assumption. apply IH. exact H3.
Qed.

Definition delta_at (row : account) (k : rkey) (a : account) (k0 : rkey) (v : dec) : Q :=
  if acc_eqb a row then contrib idk k k0 v else 0.

Lemma pcsum_children_insert row k rec h p (delta : Q) l :
  wf_children p l ->
  (forall c, n_path c = p ++ [h] -> wf_node c ->
             psum row k (rec c) == psum row k c + delta /\ wf_node (rec c) /\ n_path (rec c) = p ++ [h] /\ n_seg (rec c) = n_seg c) ->
  pcsum row k (children_insert rec h (p ++ [h]) l) == pcsum row k l + delta
  /\ wf_children p (children_insert rec h (p ++ [h]) l).
Proof.
  intros Hwf Hrec.
  assert (Hnew : n_path (Node h (p ++ [h]) false [] []) = p ++ [h] /\ wf_node (Node h (p ++ [h]) false [] [])) by (split; [reflexivity|exact I]).
  destruct Hnew as [Hn1 Hn2].
  destruct (Hrec _ Hn1 Hn2) as (Hs & Hw & Hp & Hsg).
  induction Hwf as [|c l [Hc1 Hc2] Hl IH]; cbn [children_insert].
  - split.
    + unfold pcsum. cbn [fold_right]. rewrite Hs. cbn [psum fold_right esum].
      destruct (acc_eqb (p ++ [h]) row); ring.
    + constructor; [|constructor]. split; [|exact Hw]. rewrite Hp, Hsg. reflexivity.
  - destruct (str_cmp h (n_seg c)) eqn:E.
    + apply str_cmp_eq in E. subst h.
      destruct (Hrec c Hc1 Hc2) as (Hs' & Hw' & Hp' & Hsg').
      split.
      * unfold pcsum. cbn [fold_right]. rewrite Hs'. ring.
      * constructor; [|exact Hl]. split; [|exact Hw']. rewrite Hp', Hsg'. reflexivity.
    + split.
      * unfold pcsum. cbn [fold_right]. rewrite Hs. cbn [psum fold_right esum].
        destruct (acc_eqb (p ++ [h]) row); ring.
      * constructor; [|constructor; [split; assumption|exact Hl]].
        split; [|exact Hw]. rewrite Hp, Hsg. reflexivity.
    + destruct IH as [IH1 IH2]. split.
      * unfold pcsum in *. cbn [fold_right]. rewrite IH1. ring.
      * constructor; [split; assumption|exact IH2].
Qed.

Lemma psum_node_insert row k k0 v : forall fuel prefix rest n,
  (length rest <= fuel)%nat -> n_path n = prefix -> wf_node n ->
  psum row k (node_insert fuel prefix rest k0 v n) == psum row k n + delta_at row k (prefix ++ rest) k0 v
  /\ wf_node (node_insert fuel prefix rest k0 v n)
  /\ n_path (node_insert fuel prefix rest k0 v n) = prefix
  /\ n_seg (node_insert fuel prefix rest k0 v n) = n_seg n.
Proof.
  induction fuel as [|fu IH]; intros prefix rest [s p hv a ch] Hlen Hp Hwf; cbn [n_path] in Hp; subst p.
  - destruct rest; [|cbn in Hlen; lia]. cbn [node_insert]. rewrite app_nil_r.
    split; [|split; [exact Hwf|split; reflexivity]].
    rewrite !psum_unfold. unfold delta_at. destruct (acc_eqb prefix row); [rewrite esum_ra_add|]; ring.
  - destruct rest as [|h tail].
    + cbn [node_insert]. rewrite app_nil_r.
      split; [|split; [exact Hwf|split; reflexivity]].
      rewrite !psum_unfold. unfold delta_at. destruct (acc_eqb prefix row); [rewrite esum_ra_add|]; ring.
    + cbn [node_insert].
      apply wf_node_children in Hwf.
      destruct (pcsum_children_insert row k (node_insert fu (prefix ++ [h]) tail k0 v) h prefix
                  (delta_at row k (prefix ++ h :: tail) k0 v) ch Hwf) as [H1 H2].
      * intros c Hc Hwc.
        destruct (IH (prefix ++ [h]) tail c ltac:(cbn in Hlen; lia) Hc Hwc) as (A & B & C & D).
        rewrite <- app_assoc in A. cbn [app] in A. repeat split; assumption.
      * split; [|split; [apply wf_node_children; exact H2|split; reflexivity]].
        rewrite !psum_unfold, H1. ring.
Qed.

Definition rcell (row : account) (k : rkey) (r : report) : Q := psum row k (r_al r) + psum row k (r_eie r).
Definition wf_report (r : report) : Prop :=
  wf_node (r_al r) /\ wf_node (r_eie r) /\ n_path (r_al r) = [] /\ n_path (r_eie r) = [].

Lemma rcell_insert row k r date a c v :
  wf_report r ->
  rcell row k (report_insert r date a c v) == rcell row k r + delta_at row k a (date, Some c) v
  /\ wf_report (report_insert r date a c v).
Proof.
  intros (W1 & W2 & P1 & P2). unfold report_insert, rcell, wf_report.
  (* S (length a) is the fuel report_insert hands to node_insert *)
  destruct (is_AL a); cbn [r_al r_eie].
  - destruct (psum_node_insert row k (date, Some c) v (S (length a)) [] a (r_al r) ltac:(lia) P1 W1) as (A & B & C & D).
    cbn [app] in A. split; [rewrite A; ring|repeat split; assumption].
  - destruct (psum_node_insert row k (date, Some c) v (S (length a)) [] a (r_eie r) ltac:(lia) P2 W2) as (A & B & C & D).
    cbn [app] in A. split; [rewrite A; ring|repeat split; assumption].
Qed.

Lemma wf_report_insert r date a c v : wf_report r -> wf_report (report_insert r date a c v).
Proof. intros H. exact (proj2 (rcell_insert [] (None, None) r date a c v H)). Qed.

Lemma wf_new_report : wf_report new_report.
Proof. unfold wf_report, new_report, empty_root. cbn. tauto. Qed.

Lemma rcell_new row k : rcell row k new_report == 0.
Proof. unfold rcell, new_report, empty_root. cbn. destruct (acc_eqb [] row); ring. Qed.


(* the dated postings of a list of days, in processing order *)
Definition day_postings (d : day) : list (Z * posting) :=
  concat (map (fun t => map (fun p => (t_date t, p)) (t_postings t)) (d_txns d)).
Definition days_postings (ds : list day) : list (Z * posting) := concat (map day_postings ds).

Definition txns_postings (ts : list txn) : list (Z * posting) :=
  concat (map (fun t => map (fun p => (t_date t, p)) (t_postings t)) ts).

Lemma day_postings_txns d : day_postings d = txns_postings (d_txns d).
Proof. reflexivity. Qed.

Lemma txns_postings_app a b : txns_postings (a ++ b) = txns_postings a ++ txns_postings b.
Proof. unfold txns_postings. rewrite map_app, concat_app. reflexivity. Qed.

Definition qsum {A} (f : A -> Q) (l : list A) : Q := fold_right (fun x acc => f x + acc) 0 l.

Lemma qsum_app {A} (f : A -> Q) l1 l2 : qsum f (l1 ++ l2) == qsum f l1 + qsum f l2.
Proof. unfold qsum. induction l1 as [|x l1 IH]; cbn [app fold_right]; [ring|]. rewrite IH. ring. Qed.

Lemma qsum_ext {A} (f g : A -> Q) l : (forall x, In x l -> f x == g x) -> qsum f l == qsum g l.
Proof.
  unfold qsum. induction l as [|x l IH]; intros H; cbn [fold_right]; [reflexivity|].
  rewrite (H x (or_introl eq_refl)), IH; [reflexivity|]. intros y Hy. apply H. right. exact Hy.
Qed.

Lemma qsum_perm {A} (f : A -> Q) l1 l2 : Permutation l1 l2 -> qsum f l1 == qsum f l2.
Proof.
  unfold qsum. induction 1; cbn [fold_right]; try reflexivity.
  - rewrite IHPermutation. reflexivity.
  - ring.
  - rewrite IHPermutation1. exact IHPermutation2.
Qed.

Lemma qsum_concat_map {A B} (f : B -> Q) (g : A -> list B) l :
  qsum f (concat (map g l)) == qsum (fun x => qsum f (g x)) l.
Proof.
  induction l as [|x l IH]; cbn [map concat]; [reflexivity|].
  rewrite qsum_app, IH. unfold qsum at 3. cbn [fold_right]. reflexivity.
Qed.

Lemma qsum_zero {A} (f : A -> Q) l : (forall x, In x l -> f x == 0) -> qsum f l == 0.
Proof.
  intros H. rewrite (qsum_ext f (fun _ => 0) l H). clear H. unfold qsum.
  induction l as [|x l IH]; cbn [fold_right]; [reflexivity|]. rewrite IH. ring.
Qed.

Lemma qsum_plus {A} (f g : A -> Q) l : qsum (fun x => f x + g x) l == qsum f l + qsum g l.
Proof. unfold qsum. induction l as [|x l IH]; cbn [fold_right]; [ring|]. rewrite IH. ring. Qed.

Lemma qsum_scale {A} (c : Q) (f : A -> Q) l : qsum (fun x => c * f x) l == c * qsum f l.
Proof. unfold qsum. induction l as [|x l IH]; cbn [fold_right]; [ring|]. rewrite IH. ring. Qed.

Lemma qsum_map {A B} (f : B -> Q) (g : A -> B) l : qsum f (map g l) = qsum (fun x => f (g x)) l.
Proof. unfold qsum. induction l as [|x l IH]; cbn [map fold_right]; [reflexivity|]. rewrite IH. reflexivity. Qed.

Lemma qsum_const0 {A} (l : list A) : qsum (fun _ => 0) l == 0.
Proof. apply qsum_zero. intros; reflexivity. Qed.

Lemma qsum_swap {A B} (F : A -> B -> Q) la lb :
  qsum (fun a => qsum (fun b => F a b) lb) la == qsum (fun b => qsum (fun a => F a b) la) lb.
Proof.
  induction la as [|a la IH].
  - unfold qsum at 1. cbn [fold_right]. symmetry. apply qsum_const0.
  - unfold qsum at 1. cbn [fold_right]. fold (qsum (fun a0 => qsum (fun b => F a0 b) lb) la). rewrite IH.
    rewrite <- qsum_plus. apply qsum_ext. intros b _. reflexivity.
Qed.

Lemma qsum_pick (f : Z -> Q) cd L : NoDup L -> In cd L -> qsum (fun S => if (cd =? S)%Z then f S else 0) L == f cd.
Proof.
  induction 1 as [|x L Hx _ IH]; intros Hin; [destruct Hin|]. unfold qsum. cbn [fold_right]. fold (qsum (fun S => if (cd =? S)%Z then f S else 0) L).
  destruct Hin as [->|Hin].
  - rewrite Z.eqb_refl, qsum_zero; [ring|]. intros y Hy. destruct (cd =? y)%Z eqn:E; [|reflexivity].
    apply Z.eqb_eq in E. subst y. contradiction.
  - rewrite (IH Hin). destruct (cd =? x)%Z eqn:E; [|ring]. apply Z.eqb_eq in E. subst x. contradiction.
Qed.

Lemma dvalue_dsum l : dvalue (dsum l) == qsum dvalue l.
Proof.
  unfold dsum.
  assert (H : forall acc, dvalue (fold_left add l acc) == dvalue acc + qsum dvalue l).
  { induction l as [|x l IH]; intros acc; cbn [fold_left]; [unfold qsum; cbn; ring|].
    rewrite IH, dvalue_add. unfold qsum. cbn [fold_right]. ring. }
  rewrite H, dvalue_nil. ring.
Qed.

(* what the query inserts for one dated posting *)
Definition q_contrib (q : query) (row : account) (k : rkey) (dp : Z * posting) : Q :=
  let '(d, p) := dp in
  if q_where q (p_acc p) (p_com p) then
    match q_account q (p_acc p) with
    | ShAcc a => delta_at row k a (q_date q d, Some (p_com p)) (if q_valued q then p_val p else p_qty p)
    | _ => 0
    end
  else 0.

(* A stage whose only callback is Posting, and that returns the posting, is a fold over the dated
   postings.  [I done s]: s is the state after the postings [done]. *)
Section PostingStage.
  Context {S : Type} (p : processor S) (f : S -> txn -> posting -> presult (S * posting)).
  Hypothesis p_posting : pr_posting p = Some f.
  Hypothesis p_txn : pr_txn p = None.
  Variable I : list (Z * posting) -> S -> Prop.
  Hypothesis step : forall done s t x s' x', I done s -> f s t x = ROk (s', x') ->
    x' = x /\ I (done ++ [(t_date t, x)]) s'.

  Lemma fold_postings_trace t : forall ps done s s' ps',
    I done s -> fold_postings f t s ps = ROk (s', ps') ->
    ps' = ps /\ I (done ++ map (fun x => (t_date t, x)) ps) s'.
  Proof.
    induction ps as [|x ps IH]; intros done s s' ps' HI H.
    - injection H as <- <-. rewrite app_nil_r. auto.
    - apply fold_postings_cons_ok in H. destruct H as (s1 & y & ps1 & E1 & E2 & ->).
      destruct (step _ _ _ _ _ _ HI E1) as [-> HI1]. destruct (IH _ _ _ _ HI1 E2) as [-> HI2].
      rewrite <- app_assoc in HI2. auto.
  Qed.

  Lemma fold_txns_trace : forall ts done s s' ts',
    I done s -> fold_txns p s ts = ROk (s', ts') ->
    ts' = ts /\ I (done ++ txns_postings ts) s'.
  Proof.
    induction ts as [|t ts IH]; intros done s s' ts' HI H.
    - injection H as <- <-. rewrite app_nil_r. auto.
    - destruct (fold_txns_cons p f _ _ _ _ _ p_txn p_posting H) as (s1 & ps & ts1 & E1 & E2 & ->).
      destruct (fold_postings_trace _ _ _ _ _ _ HI E1) as [-> HI1]. rewrite txn_rebuild.
      destruct (IH _ _ _ _ HI1 E2) as [-> HI2]. rewrite <- app_assoc in HI2. auto.
  Qed.

End PostingStage.

Definition posting_only {S} (p : processor S) (f : S -> txn -> posting -> presult (S * posting)) : Prop :=
  pr_posting p = Some f /\ pr_txn p = None /\ pr_day_start p = None /\ pr_price p = None /\
  pr_open p = None /\ pr_balance p = None /\ pr_close p = None /\ pr_day_end p = None.

Lemma process_days_trace {S} (p : processor S) f (I : list (Z * posting) -> S -> Prop) :
  posting_only p f ->
  (forall done s t x s' x', I done s -> f s t x = ROk (s', x') -> x' = x /\ I (done ++ [(t_date t, x)]) s') ->
  forall ds done s s' ds',
    I done s -> process_days p s ds = ROk (s', ds') -> ds' = ds /\ I (done ++ days_postings ds) s'.
Proof.
  intros (p_posting & p_txn & p_day_start & p_price & p_open & p_balance & p_close & p_day_end) step.
  induction ds as [|d ds IH]; intros done s s' ds' HI H.
  - injection H as <- <-. rewrite app_nil_r. auto.
  - apply process_days_cons_ok in H. destruct H as (s0 & d0 & ds0 & E & H & ->).
    destruct (process_day_ok _ _ _ _ _ E) as (s1 & d1 & s2 & s3 & s4 & ts & s5 & s6 & E1 & E2 & E3 & E4 & E5 & E6 & E7).
    rewrite p_day_start in E1. rewrite p_price in E2. rewrite p_open in E3. rewrite p_close in E6. rewrite p_day_end in E7.
    rewrite (fold_asserts_none p _ _ p_balance) in E5.
    injection E1 as <- <-. injection E2 as <-. injection E3 as <-. injection E5 as <-. injection E6 as <-.
    destruct (fold_txns_trace p f p_posting p_txn I step _ _ _ _ _ HI E4) as [-> HI1]. rewrite day_rebuild in E7. injection E7 as <- <-.
    destruct (IH _ _ _ _ HI1 H) as [-> HI2]. rewrite <- app_assoc in HI2. auto.
Qed.

Lemma query_proc_posting_only {C} q (ins : C -> option Z -> account -> commodity -> dec -> C) :
  posting_only (query_proc q ins) (query_posting q ins).
Proof. repeat split. Qed.

Lemma query_days q row k ds r r' ds' :
  wf_report r ->
  process_days (query_proc q report_insert) r ds = ROk (r', ds') ->
  ds' = ds /\ wf_report r' /\ rcell row k r' == rcell row k r + qsum (q_contrib q row k) (days_postings ds).
Proof.
  intros Hwf H.
  refine (process_days_trace _ _
            (fun done r1 => wf_report r1 /\ rcell row k r1 == rcell row k r + qsum (q_contrib q row k) done)
            (query_proc_posting_only q report_insert) _ ds [] r r' ds' _ H).
  2: { split; [exact Hwf|]. cbn. ring. }
  intros done r1 t p r2 p' [Hwf1 Hc1] E. rewrite qsum_app.
  assert (Hc : qsum (q_contrib q row k) [(t_date t, p)] == q_contrib q row k (t_date t, p)) by (unfold qsum; cbn [fold_right]; ring).
  rewrite Hc, Qplus_assoc, <- Hc1. clear Hc. unfold query_posting in E. unfold q_contrib.
  destruct (q_where q (p_acc p) (p_com p)).
  - destruct (q_account q (p_acc p)) as [a| |]; try discriminate; injection E as <- <-.
    + destruct (rcell_insert row k r1 (q_date q (t_date t)) a (p_com p) (if q_valued q then p_val p else p_qty p) Hwf1) as [A B]. auto.
    + split; [reflexivity|split; [assumption|ring]].
  - injection E as <- <-. split; [reflexivity|split; [assumption|ring]].
Qed.



Lemma check_current_stage_id b s ds s' ds' :
  process_days (check_proc_current b) s ds = ROk (s', ds') -> ds' = ds.
Proof. unfold check_proc_current. destruct b; apply checker_stage_id; reflexivity. Qed.

(* the filter stage keeps the days inside the span and empties the others *)
Definition filt (sp : period) (d : day) : day := if period_contains sp (d_date d) then d else set_txns d [].

Lemma filter_stage_spec sp : forall ds s s' ds',
  process_days (filter_proc sp) s ds = ROk (s', ds') ->
  ds' = map (filt sp) ds.
Proof.
  intros ds s s' ds' H. rewrite process_days_fold_map in H. apply Forall2_eq_map.
  refine (fold_map_rel _ _ ds _ s s' ds' H). intros s0 d s1 d1 _ E.
  destruct (process_day_ok _ _ _ _ _ E) as (? & d0 & ? & ? & ? & ts & ? & ? & E1 & _ & _ & E4 & _ & _ & E7).
  injection E1 as _ <-. injection E7 as _ <-.
  rewrite (fold_txns_id (filter_proc sp) (fun f s t x s' x' Hf => ltac:(discriminate Hf)) _ _ _ _ E4), day_rebuild.
  reflexivity.
Qed.


Definition days_dated (ds : list day) : Prop :=
  Forall (fun d => Forall (fun t => t_date t = d_date d) (d_txns d)) ds.

Lemma upd_day_perm days dt f extra :
  (forall x, d_date x = dt -> Permutation (day_postings (f x)) (day_postings x ++ extra)) ->
  Permutation (days_postings (upd_day days dt f)) (days_postings days ++ extra).
Proof.
  intros Hf. assert (He : Permutation (day_postings (f (empty_day dt))) extra) by (apply (Hf (empty_day dt)); reflexivity).
  induction days as [|x days IH]; cbn [upd_day].
  - unfold days_postings. cbn [map concat]. rewrite app_nil_r. exact He.
  - destruct (dt =? d_date x)%Z eqn:E.
    + apply Z.eqb_eq in E. unfold days_postings. cbn [map concat].
      rewrite (Hf x (eq_sym E)). rewrite <- !app_assoc. apply Permutation_app_head. apply Permutation_app_comm.
    + destruct (dt <? d_date x)%Z.
      * unfold days_postings. cbn [map concat]. rewrite He.
        change (concat (map day_postings days)) with (days_postings days).
        rewrite Permutation_app_comm. rewrite <- app_assoc. reflexivity.
      * unfold days_postings in *. cbn [map concat]. rewrite IH. rewrite app_assoc. reflexivity.
Qed.

Definition directive_postings (d : directive) : list (Z * posting) :=
  match d with DTxn t => map (fun p => (t_date t, p)) (t_postings t) | _ => [] end.

Lemma flat_postings_cons d ds : flat_postings (d :: ds) = directive_postings d ++ flat_postings ds.
Proof. destruct d; reflexivity. Qed.

Lemma builder_add_perm b d :
  Permutation (days_postings (b_days (builder_add b d))) (days_postings (b_days b) ++ directive_postings d).
Proof.
  destruct d; cbn [builder_add b_days directive_postings]; apply upd_day_perm; intros x _;
    unfold day_postings; cbn [d_txns]; try (rewrite app_nil_r; reflexivity).
  unfold add_txn_day. cbn [d_txns]. rewrite map_app, concat_app. cbn [map concat]. rewrite app_nil_r. reflexivity.
Qed.

Lemma builder_of_perm dl : Permutation (days_postings (b_days (builder_of dl))) (flat_postings dl).
Proof.
  unfold builder_of.
  assert (H : forall b, Permutation (days_postings (b_days (fold_left builder_add dl b))) (days_postings (b_days b) ++ flat_postings dl)).
  { induction dl as [|d dl IH]; intros b; cbn [fold_left].
    - unfold flat_postings. cbn. rewrite app_nil_r. reflexivity.
    - rewrite IH, builder_add_perm, flat_postings_cons, app_assoc. reflexivity. }
  rewrite H. reflexivity.
Qed.

Lemma builder_of_dated dl : days_dated (b_days (builder_of dl)).
Proof.
  apply (builder_of_txns (fun dt t => t_date t = dt)). apply Forall_forall. intros [| | | |t] _; cbn [on_txn]; auto.
Qed.

Lemma builder_touch_perm b dates : Permutation (days_postings (b_days (builder_touch b dates))) (days_postings (b_days b)).
Proof.
  unfold builder_touch. cbn [b_days]. generalize (b_days b). induction dates as [|d ds IH]; intros days; cbn [fold_left]; [reflexivity|].
  rewrite IH. rewrite (upd_day_perm days d (fun x => x) []); [rewrite app_nil_r; reflexivity|].
  intros x _. rewrite app_nil_r. reflexivity.
Qed.

Lemma builder_touch_dated b dates : days_dated (b_days b) -> days_dated (b_days (builder_touch b dates)).
Proof. exact (builder_touch_txns (fun dt t => t_date t = dt) b dates). Qed.

Lemma builder_period_spec dl : builder_period (builder_of dl) = journal_period dl.
Proof.
  unfold builder_of, journal_period, builder_period.
  assert (H : forall b, mkPeriod (b_min (fold_left builder_add dl b)) (b_max (fold_left builder_add dl b)) =
     fold_left (fun p d => match d with
       | DTxn t => mkPeriod (Z.min (p_start p) (t_date t)) (Z.max (p_end p) (t_date t))
       | DPrice dt _ _ _ => mkPeriod (p_start p) (Z.max (p_end p) dt)
       | _ => p end) dl (mkPeriod (b_min b) (b_max b))).
  { induction dl as [|d dl IH]; intros b; cbn [fold_left]; [reflexivity|].
    rewrite IH. f_equal. destruct d; cbn [builder_add b_min b_max p_start p_end]; try reflexivity.
    - f_equal. destruct (b_max b <? date)%Z eqn:E; lia.
    - f_equal; [destruct (t_date t <? b_min b)%Z eqn:E; lia|destruct (b_max b <? t_date t)%Z eqn:E; lia]. }
  rewrite H. reflexivity.
Qed.


Lemma align_list_column_for ps d : align_list ps d = column_for ps d.
Proof.
  induction ps as [|p ps IH]; cbn [align_list column_for]; [reflexivity|].
  destruct (p_end p <? d)%Z eqn:E1, (d <=? p_end p)%Z eqn:E2; cbn [negb]; try lia; [exact IH|reflexivity].
Qed.

Definition in_span (sp : period) (d : Z) : bool := (p_start sp <=? d)%Z && (d <=? p_end sp)%Z.

Lemma period_contains_in_span sp d : period_contains sp d = in_span sp d.
Proof.
  unfold period_contains, in_span.
  destruct (d <? p_start sp)%Z eqn:E1, (p_end sp <? d)%Z eqn:E2, (p_start sp <=? d)%Z eqn:E3, (d <=? p_end sp)%Z eqn:E4; cbn; try reflexivity; lia.
Qed.

(* the contribution of one dated posting to cell (row, c, col), in the words of the spec *)
Definition s_contrib (cfg : balance_cfg) (sp : period) (ps : list period) (row : account) (c : commodity) (col : Z)
           (dp : Z * posting) : Q :=
  let '(d, p) := dp in
  if in_span sp d then
    match column_for ps d with
    | Some e =>
      if cfg_where cfg (p_acc p) (p_com p) then
        match shorten (bc_mapping cfg) (remap (bc_remap cfg) (p_acc p)) with
        | ShAcc a' => if (e =? col)%Z && acc_eqb row a' && str_eqb (p_com p) c then dvalue (p_qty p) else 0
        | _ => 0
        end
      else 0
    | None => 0
    end
  else 0.

Lemma period_amount_user cfg sp ps posts row c col :
  dvalue (period_amount (mapped_entries cfg (user_entries sp ps posts)) (acc_eqb row) c col)
  == qsum (s_contrib cfg sp ps row c col) posts.
Proof.
  unfold period_amount. rewrite dvalue_dsum, qsum_concat_map.
  unfold mapped_entries. rewrite qsum_concat_map.
  unfold user_entries. rewrite qsum_concat_map.
  apply qsum_ext. intros [d p] _. unfold s_contrib, in_span.
  destruct ((p_start sp <=? d)%Z && (d <=? p_end sp)%Z); [|reflexivity].
  destruct (column_for ps d) as [e|]; [|reflexivity].
  unfold qsum at 1. cbn [fold_right].
  destruct (cfg_where cfg (p_acc p) (p_com p)); [|cbn; ring].
  destruct (shorten (bc_mapping cfg) (remap (bc_remap cfg) (p_acc p))) as [a'| |]; try (cbn; ring).
  unfold qsum. cbn [fold_right].
  destruct ((e =? col)%Z && acc_eqb row a' && str_eqb (p_com p) c); cbn [fold_right]; ring.
Qed.

(* what the query does with a posting, as an indicator times the amount *)
Definition q_ind (q : query) (row : account) (k : rkey) (d : Z) (a : account) (c : commodity) : Q :=
  if q_where q a c then
    match q_account q a with
    | ShAcc a' => if acc_eqb a' row then (if rkey_eqb (q_date q d, Some c) k then 1 else 0) else 0
    | _ => 0
    end
  else 0.

Lemma q_contrib_ind q row k d p :
  q_contrib q row k (d, p) == q_ind q row k d (p_acc p) (p_com p) * dvalue (if q_valued q then p_val p else p_qty p).
Proof.
  unfold q_contrib, q_ind. destruct (q_where q (p_acc p) (p_com p)); [|ring].
  destruct (q_account q (p_acc p)) as [a'| |]; try ring.
  unfold delta_at, contrib, idk. destruct (acc_eqb a' row); [|ring].
  destruct (rkey_eqb (q_date q d, Some (p_com p)) k); ring.
Qed.

(* what one entry of the ledger adds to the cell (row, c0, col0) *)
Definition s_ind (cfg : balance_cfg) (row : account) (c0 : commodity) (col0 : Z) (col : Z) (a : account) (c : commodity) : Q :=
  if cfg_where cfg a c then
    match shorten (bc_mapping cfg) (remap (bc_remap cfg) a) with
    | ShAcc a' => if (col =? col0)%Z && acc_eqb row a' && str_eqb c c0 then 1 else 0
    | _ => 0
    end
  else 0.

Lemma q_ind_balance cfg part row c0 col0 d a c :
  q_ind (balance_query cfg part) row (Some col0, Some c0) d a c ==
  match column_for (periods part) d with Some e => s_ind cfg row c0 col0 e a c | None => 0 end.
Proof.
  unfold q_ind, s_ind, balance_query. cbn [q_where q_account q_date].
  assert (Hw : (match bc_accounts cfg with [] => true | rs => rxs_match rs (acc_name a) end
                && match bc_commodities cfg with [] => true | rs => rxs_match rs c end) = cfg_where cfg a c) by reflexivity.
  rewrite Hw. destruct (cfg_where cfg a c); [|destruct (column_for (periods part) d); reflexivity].
  destruct (shorten (bc_mapping cfg) (remap (bc_remap cfg) a)) as [a'| |]; try (destruct (column_for (periods part) d); reflexivity).
  unfold Date.align. rewrite align_list_column_for, (acc_eqb_sym a' row).
  destruct (column_for (periods part) d) as [e|]; unfold rkey_eqb; cbn [fst snd oz_eqb ocom_eqb andb].
  - destruct (acc_eqb row a'); [|rewrite andb_false_r; reflexivity].
    destruct (e =? col0)%Z; cbn [andb]; [|reflexivity]. destruct (str_eqb c c0); reflexivity.
  - destruct (acc_eqb row a'); reflexivity.
Qed.

Lemma s_contrib_ind cfg sp ps row c col d p :
  s_contrib cfg sp ps row c col (d, p) ==
  if in_span sp d
  then match column_for ps d with Some e => s_ind cfg row c col e (p_acc p) (p_com p) * dvalue (p_qty p) | None => 0 end
  else 0.
Proof.
  unfold s_contrib, s_ind. destruct (in_span sp d); [|reflexivity]. destruct (column_for ps d) as [e|]; [|reflexivity].
  destruct (cfg_where cfg (p_acc p) (p_com p)); [|ring].
  destruct (shorten (bc_mapping cfg) (remap (bc_remap cfg) (p_acc p))); try ring.
  destruct ((e =? col)%Z && acc_eqb row a && str_eqb (p_com p) c); ring.
Qed.

(* the user's postings inside the span: model and specification agree *)
Lemma user_total cfg part row c col posts :
  bc_valuation cfg = None ->
  qsum (fun dp => if in_span (span part) (fst dp) then q_contrib (balance_query cfg part) row (Some col, Some c) dp else 0) posts
  == qsum (s_contrib cfg (span part) (periods part) row c col) posts.
Proof.
  intros Hv. apply qsum_ext. intros [d p] _. cbn [fst]. rewrite s_contrib_ind.
  destruct (in_span (span part) d); [|reflexivity]. rewrite q_contrib_ind, q_ind_balance.
  unfold balance_query at 1. cbn [q_valued]. rewrite Hv. destruct (column_for (periods part) d); reflexivity.
Qed.

Lemma day_postings_date d dp :
  Forall (fun t => t_date t = d_date d) (d_txns d) -> In dp (day_postings d) -> fst dp = d_date d.
Proof.
  intros Hx Hin. unfold day_postings in Hin. apply in_concat in Hin. destruct Hin as (l & Hl & Hin).
  apply in_map_iff in Hl. destruct Hl as (t & <- & Ht). apply in_map_iff in Hin. destruct Hin as (p0 & <- & _).
  cbn [fst]. rewrite Forall_forall in Hx. apply Hx. exact Ht.
Qed.

(* filtering the days by the span = filtering the dated postings *)
Lemma filt_sum (f : Z * posting -> Q) sp ds : days_dated ds ->
  qsum f (days_postings (map (filt sp) ds)) == qsum (fun dp => if in_span sp (fst dp) then f dp else 0) (days_postings ds).
Proof.
  intros Hd. unfold days_postings. induction Hd as [|d ds Hx _ IH]; cbn [map concat]; [reflexivity|].
  rewrite !qsum_app, IH. apply Qplus_comp; [|reflexivity].
  unfold filt. rewrite period_contains_in_span. destruct (in_span sp (d_date d)) eqn:E.
  - apply qsum_ext. intros dp Hin. rewrite (day_postings_date d dp Hx Hin), E. reflexivity.
  - unfold day_postings at 1. cbn [set_txns d_txns map concat]. unfold qsum at 1. cbn [fold_right].
    symmetry. apply qsum_zero. intros dp Hin. rewrite (day_postings_date d dp Hx Hin), E. reflexivity.
Qed.

Lemma cfg_partition_ok cfg dl part :
  cfg_partition cfg (builder_of dl) = COk part ->
  new_partition (clip (mkPeriod (bc_from cfg) (bc_to cfg)) (journal_period dl)) (bc_interval cfg) (bc_last cfg) = POk part.
Proof. unfold cfg_partition. rewrite builder_period_spec. destruct (new_partition _ _ _); congruence. Qed.

(* without valuation: the days the close stage and the query see *)
Lemma unvalued_stages cfg ds r part :
  bc_valuation cfg = None -> balance_report cfg ds = COk (r, part) ->
  exists dl d5 d6,
    parse_directives ds = MOk dl /\
    new_partition (clip (mkPeriod (bc_from cfg) (bc_to cfg)) (journal_period dl)) (bc_interval cfg) (bc_last cfg) = POk part /\
    (if bc_close cfg
     then exists s5, process_days (close_proc (start_dates part)) (mkClose [] [])
                       (map (filt (span part)) (b_days (builder_touch (builder_of dl) (start_dates part)))) = ROk (s5, d5)
     else d5 = map (filt (span part)) (b_days (builder_of dl))) /\
    process_days (query_proc (balance_query cfg part) report_insert) new_report d5 = ROk (r, d6).
Proof.
  intros Hv H.
  destruct (balance_report_stages _ _ _ _ H) as (dl & s1 & d1 & d3 & s4 & d4 & d5 & d6 & Ep & Epart & E1 & E3 & E4 & E5 & E6).
  rewrite Hv in E3. subst d3. apply check_current_stage_id in E1. subst d1. apply filter_stage_spec in E4. subst d4.
  exists dl, d5, d6. split; [exact Ep|]. split; [exact (cfg_partition_ok _ _ _ Epart)|]. split; [|exact E6].
  destruct (bc_close cfg); exact E5.
Qed.

Theorem report_cells_noclose cfg ds r part :
  bc_valuation cfg = None -> bc_close cfg = false ->
  balance_report cfg ds = COk (r, part) ->
  exists dl,
    parse_directives ds = MOk dl /\
    new_partition (clip (mkPeriod (bc_from cfg) (bc_to cfg)) (journal_period dl)) (bc_interval cfg) (bc_last cfg) = POk part /\
    forall row c col,
      rcell row (Some col, Some c) r ==
      dvalue (period_amount (mapped_entries cfg (user_entries (span part) (periods part) (flat_postings dl))) (acc_eqb row) c col).
Proof.
  intros Hv Hc H. destruct (unvalued_stages _ _ _ _ Hv H) as (dl & d5 & d6 & Ep & Epart & E5 & E6).
  rewrite Hc in E5. subst d5. exists dl. split; [exact Ep|]. split; [exact Epart|]. intros row c col.
  destruct (query_days (balance_query cfg part) row (Some col, Some c) _ _ _ _ wf_new_report E6) as (_ & _ & Hcell).
  rewrite Hcell, rcell_new, Qplus_0_l, (filt_sum _ _ _ (builder_of_dated dl)).
  rewrite (qsum_perm _ _ _ (builder_of_perm dl)), period_amount_user. apply user_total. exact Hv.
Qed.


Fixpoint row_values (diff neg_ : bool) (vals : ramounts) (c : option commodity) (dates : list Z) (total : Q) : list Q :=
  match dates with
  | [] => []
  | d :: rest =>
    let v := dvalue (ra_get0 vals (Some d, c)) in
    let total' := total + v in
    (if neg_ then - (if diff then v else total') else (if diff then v else total')) :: row_values diff neg_ vals c rest total'
  end.

Definition cell_is (cl : cell) (q : Q) : Prop := match cl with CNum n => dvalue n == q | _ => False end.

Lemma row_numbers_values diff neg_ vals c dates : forall total qt,
  dvalue total == qt ->
  Forall2 cell_is (row_numbers diff neg_ vals c dates total) (row_values diff neg_ vals c dates qt).
Proof.
  induction dates as [|d rest IH]; intros total qt Ht; cbn [row_numbers row_values]; constructor.
  - cbn [cell_is]. destruct neg_, diff; rewrite ?dvalue_neg, ?dvalue_add, ?Ht; reflexivity.
  - apply IH. rewrite dvalue_add, Ht. reflexivity.
Qed.
