(* Lexical classes and separators as bytes and runes; nothing here runs the parser.

   Runes (any decoder with [decoder_ok]): a string that is a sequence of chunks decodes
   ([decodes w rs -> runes w = Some rs]), and each lexical class of Proofs/RoundTripLeaf.v
   (predicates recording what the scanner consumed) implies the regular expression of
   Spec/LeafSpec.v over the decoded runes.
   Bytes: blanks, keyword windows (Spec/LeafSpec.v) and the separator classes of
   Spec/SepSpec.v, built from their parts.                                                   *)
From Coq Require Import ZArith List Bool Lia ZifyBool.
From Knut Require Import Model.Bytes Model.Utf8 Model.Scanner Model.Parser Spec.SyntaxSpec Spec.FormatSpec
  Spec.LeafSpec Spec.SepSpec Proofs.ScannerProofs Proofs.RoundTripBase Proofs.RoundTripLeaf.
Import ListNotations.
Open Scope bool_scope.
Open Scope Z_scope.

Section Dec.
Variable dec : str -> Z * Z.
Hypothesis Hdec : decoder_ok dec.
Variables letter digit : Z -> bool.

Notation chunk := (chunk dec).
Notation cls := (cls dec).
Notation fr := (fr dec).
Notation runes := (runes dec).
Notation in_class := (in_class dec).

Inductive decodes : str -> list Z -> Prop :=
| decodes_nil : decodes [] []
| decodes_cons c b x rs : chunk c b -> decodes x rs -> decodes (b ++ x) (c :: rs).

Lemma decodes_fuel w rs : decodes w rs -> forall n, (length w <= n)%nat -> runes_fuel dec n w = Some rs.
Proof using.
  induction 1 as [|c b x rs Hc Hx IH]; intros n Hn.
  - destruct n; reflexivity.
  - pose proof Hc as (Hne & Hd & Hv). pose proof (chunk_len dec c b Hc) as Hl.
    destruct b as [|b0 b']; [congruence|].
    rewrite app_length in Hn. cbn [length] in Hn.
    destruct n as [|n]; [lia|].
    cbn [app runes_fuel]. change (b0 :: b' ++ x) with ((b0 :: b') ++ x). rewrite (Hd x).
    assert (H1 : (zlen (b0 :: b') <? 1) = false) by lia. rewrite H1. cbn [orb].
    assert (H2 : (c =? rune_error) && (zlen (b0 :: b') =? 1) = false).
    { destruct (Z.eqb_spec c rune_error) as [Hc1|Hc1]; [|reflexivity].
      destruct (Z.eqb_spec (zlen (b0 :: b')) 1) as [Hc2|Hc2]; [|reflexivity]. exfalso. apply Hv. auto. }
    rewrite H2. rewrite skipn_zlen_app. rewrite IH by lia. reflexivity.
Qed.

Lemma decodes_runes w rs : decodes w rs -> runes w = Some rs.
Proof using. intros H. unfold LeafSpec.runes. apply decodes_fuel; [assumption|lia]. Qed.

Lemma decodes_in_class (c : list Z -> bool) w rs : decodes w rs -> c rs = true -> in_class c w = true.
Proof using. intros H Hc. unfold LeafSpec.in_class. now rewrite (decodes_runes w rs H). Qed.

Lemma decodes_app x y a b : decodes x a -> decodes y b -> decodes (x ++ y) (a ++ b).
Proof using.
  induction 1 as [|c b0 x0 rs Hc Hx IH]; intros Hy; [exact Hy|].
  rewrite <- app_assoc. cbn [app]. constructor; auto.
Qed.

Lemma decodes_nil_inv w : decodes w [] -> w = [].
Proof using. intros H. inversion H. reflexivity. Qed.

Lemma decodes_fr w c rs : decodes w (c :: rs) -> fr w = c.
Proof using. intros H. inversion H as [|c' b x rs' Hc Hx]. subst. now apply fr_chunk. Qed.

Lemma decodes_nonnil w rs : decodes w rs -> w <> [] -> nonnil rs = true.
Proof using. intros H Hne. destruct rs; [apply decodes_nil_inv in H; congruence|reflexivity]. Qed.

Lemma cls_decodes p w : cls p w -> exists rs, decodes w rs /\ forallb p rs = true.
Proof using.
  induction 1 as [|c b x Hc Hp Hx (rs & Hr & Hf)].
  - exists []. split; [constructor|reflexivity].
  - exists (c :: rs). split; [now constructor|]. cbn [forallb]. now rewrite Hp, Hf.
Qed.

Lemma digs_decodes k w : digs dec digit k w ->
  exists rs, decodes w rs /\ length rs = k /\ forallb digit rs = true.
Proof using.
  induction 1 as [|k c b x Hc Hp Hx (rs & Hr & Hl & Hf)].
  - exists []. split; [constructor|]. split; reflexivity.
  - exists (c :: rs). split; [now constructor|]. cbn [length forallb]. rewrite Hp, Hf, Hl. split; reflexivity.
Qed.

Lemma ascii_decodes x : Forall ascii x -> decodes x x.
Proof using Hdec.
  induction 1 as [|a l Ha Hl IH]; [constructor|].
  change (a :: l) with ([a] ++ l). constructor; [|exact IH]. apply chunk_ascii; assumption.
Qed.

Lemma match_pat_app p1 r1 p2 r2 :
  match_pat p1 r1 = true -> match_pat p2 r2 = true -> match_pat (p1 ++ p2) (r1 ++ r2) = true.
Proof using.
  revert r1. induction p1 as [|p p1 IH]; intros [|c r1] H1 H2; cbn [match_pat app] in *; try discriminate; [exact H2|].
  apply andb_true_iff in H1. destruct H1 as (Hp & H1). rewrite Hp. cbn [andb]. now apply IH.
Qed.

Lemma match_pat_repeat (p : Z -> bool) rs : forallb p rs = true -> match_pat (repeat p (length rs)) rs = true.
Proof using.
  induction rs as [|c rs IH]; intros H; cbn [length repeat match_pat forallb] in *; [reflexivity|].
  apply andb_true_iff in H. destruct H as (Hp & H). rewrite Hp. cbn [andb]. now apply IH.
Qed.

Lemma date_class w : lex_date dec digit w -> in_class (date_rs digit) w = true.
Proof using Hdec.
  intros (y & m & d & -> & Hy & Hm & Hd).
  destruct (digs_decodes _ _ Hy) as (ry & Dy & Ly & Fy).
  destruct (digs_decodes _ _ Hm) as (rm & Dm & Lm & Fm).
  destruct (digs_decodes _ _ Hd) as (rd & Dd & Ld & Fd).
  assert (D45 : decodes [45] [45]) by (apply ascii_decodes; now apply ascii_b_ok).
  apply (decodes_in_class _ _ (ry ++ [45] ++ rm ++ [45] ++ rd)).
  - change (45 :: m ++ 45 :: d) with ([45] ++ m ++ [45] ++ d).
    repeat (apply decodes_app; try assumption).
  - unfold date_rs, date_pat.
    change [digit; digit; digit; digit; is_b 45; digit; digit; is_b 45; digit; digit]
      with (repeat digit 4 ++ [is_b 45] ++ repeat digit 2 ++ [is_b 45] ++ repeat digit 2).
    pose proof (match_pat_repeat digit ry Fy) as My. rewrite Ly in My.
    pose proof (match_pat_repeat digit rm Fm) as Mm. rewrite Lm in Mm.
    pose proof (match_pat_repeat digit rd Fd) as Md. rewrite Ld in Md.
    apply match_pat_app; [exact My|]. apply (match_pat_app [is_b 45] [45]); [reflexivity|].
    apply match_pat_app; [exact Mm|]. apply (match_pat_app [is_b 45] [45]); [reflexivity|]. exact Md.
Qed.

Lemma commodity_class w : lex_commodity dec letter digit w -> in_class (commodity_rs letter digit) w = true.
Proof using.
  intros (Hc & Hne). destruct (cls_decodes _ _ Hc) as (rs & Dr & Fr).
  apply (decodes_in_class _ _ rs Dr). unfold commodity_rs.
  rewrite (decodes_nonnil _ _ Dr Hne). exact Fr.
Qed.

Lemma frac_ok : forall ip seen fp, forallb digit ip = true -> (ip = [] -> seen = true) ->
  (fp = [] \/ exists f, fp = 46 :: f /\ nonnil f = true /\ forallb digit f = true) ->
  frac_b digit seen (ip ++ fp) = true.
Proof using.
  induction ip as [|c ip IH]; intros seen fp Hd Hs Hfp.
  - rewrite (Hs eq_refl). cbn [app]. destruct Hfp as [->|(f & -> & Hn & Hf)]; [reflexivity|].
    cbn [frac_b]. rewrite Hn, Hf. reflexivity.
  - cbn [forallb] in Hd. apply andb_true_iff in Hd. destruct Hd as (Hc & Hd).
    cbn [app frac_b]. rewrite Hc, (IH true fp Hd (fun _ => eq_refl) Hfp). apply orb_true_r.
Qed.

Lemma decimal_class w : lex_decimal dec digit w -> in_class (decimal_rs digit) w = true.
Proof using Hdec.
  intros (sg & ip & fp & -> & Hsg & Hip & Hipne & Hfp).
  destruct (cls_decodes _ _ Hip) as (ri & Di & Fi).
  assert (Hfr : exists rf, decodes fp rf /\
            (rf = [] \/ exists f, rf = 46 :: f /\ nonnil f = true /\ forallb digit f = true)).
  { destruct Hfp as [->|(_ & f & -> & Hf & Hfne)].
    - exists []. split; [constructor|now left].
    - destruct (cls_decodes _ _ Hf) as (rf & Df & Ff). exists (46 :: rf). split.
      + change (46 :: f) with ([46] ++ f). change (46 :: rf) with ([46] ++ rf).
        apply decodes_app; [|exact Df]. apply ascii_decodes. repeat constructor. unfold ascii. lia.
      + right. exists rf. split; [reflexivity|]. split; [|exact Ff]. now apply (decodes_nonnil f). }
  destruct Hfr as (rf & Df & Hrf).
  assert (Hbody : frac_b digit false (ri ++ rf) = true).
  { apply frac_ok; [exact Fi| |exact Hrf]. intros ->. apply decodes_nil_inv in Di. congruence. }
  destruct Hsg as [->|(-> & _)].
  - apply (decodes_in_class _ _ ([45] ++ ri ++ rf)).
    + apply decodes_app; [|now apply decodes_app]. apply ascii_decodes. repeat constructor. unfold ascii. lia.
    + unfold decimal_rs. cbn [app]. rewrite Hbody, Z.eqb_refl. apply orb_true_r.
  - apply (decodes_in_class _ _ (ri ++ rf)).
    + cbn [app]. now apply decodes_app.
    + unfold decimal_rs. now rewrite Hbody.
Qed.

Notation alnum_b := (alnum_b letter digit).
Notation segs_b := (segs_b letter digit).

Lemma segs_run : forall x seen rest, segs_b true rest = true -> forallb alnum_b x = true ->
  (x = [] -> seen = true) -> segs_b seen (x ++ rest) = true.
Proof using.
  induction x as [|c x IH]; intros seen rest Hr Hx Hs.
  - now rewrite (Hs eq_refl).
  - cbn [forallb] in Hx. apply andb_true_iff in Hx. destruct Hx as (Hc & Hx).
    cbn [app LeafSpec.segs_b]. rewrite Hc, (IH true rest Hr Hx (fun _ => eq_refl)). apply orb_true_r.
Qed.

Definition seg_rs (x : list Z) : Prop := nonnil x = true /\ forallb alnum_b x = true.

Lemma segs_tail : forall l, Forall seg_rs l -> segs_b true (concat (map (cons 58) l)) = true.
Proof using.
  induction 1 as [|x l (Hn & Hx) Hl IH]; [reflexivity|].
  cbn [map concat app LeafSpec.segs_b]. rewrite Z.eqb_refl. cbn [andb].
  rewrite (segs_run x false _ IH Hx); [reflexivity|]. intros ->. discriminate.
Qed.

Lemma segs_decodes segs : Forall (seg_ok dec letter digit) segs ->
  exists l, decodes (concat (map (cons 58) segs)) (concat (map (cons 58) l)) /\ Forall seg_rs l.
Proof using Hdec.
  induction 1 as [|x segs (Hx & Hne) Hs (l & Dl & Fl)].
  - exists []. split; constructor.
  - destruct (cls_decodes _ _ Hx) as (rx & Dx & Fx). exists (rx :: l). split.
    + cbn [map concat]. change (58 :: x) with ([58] ++ x). change (58 :: rx) with ([58] ++ rx).
      rewrite <- !app_assoc. apply decodes_app; [|now apply decodes_app].
      apply ascii_decodes. repeat constructor. unfold ascii. lia.
    + constructor; [|exact Fl]. split; [now apply (decodes_nonnil x)|exact Fx].
Qed.

Lemma account_class w macro : lex_account dec letter digit w macro ->
  in_class (account_rs letter digit macro) w = true.
Proof using Hdec.
  destruct macro; cbn [lex_account].
  - intros (l & -> & Hl & Hne). destruct (cls_decodes _ _ Hl) as (rl & Dl & Fl).
    apply (decodes_in_class _ _ ([36] ++ rl)).
    + change (36 :: l) with ([36] ++ l). apply decodes_app; [|exact Dl].
      apply ascii_decodes. repeat constructor. unfold ascii. lia.
    + cbn [app account_rs]. rewrite Z.eqb_refl, (decodes_nonnil _ _ Dl Hne), Fl. reflexivity.
  - intros (H36 & seg & segs & -> & (Hseg & Hsegne) & Hsegs & _).
    destruct (cls_decodes _ _ Hseg) as (rs & Ds & Fs).
    destruct (segs_decodes segs Hsegs) as (l & Dl & Fl).
    pose proof (decodes_app _ _ _ _ Ds Dl) as D.
    apply (decodes_in_class _ _ _ D). cbn [account_rs].
    destruct rs as [|c rs]; [apply decodes_nil_inv in Ds; congruence|].
    cbn [app] in D |- *. rewrite (decodes_fr _ _ _ D) in H36.
    assert (Hc : negb (c =? 36) = true) by lia. rewrite Hc. cbn [andb].
    change (c :: rs ++ concat (map (cons 58) l)) with ((c :: rs) ++ concat (map (cons 58) l)).
    apply segs_run; [now apply segs_tail|exact Fs|discriminate].
Qed.

Lemma quoted_class c : lex_quoted dec c -> in_class (forallb notquote_b) c = true.
Proof using.
  intros H. destruct (cls_decodes _ _ H) as (rs & Dr & Fr). now apply (decodes_in_class _ _ rs Dr).
Qed.

Lemma interval_class w : lex_interval w ->
  existsb (str_eqb w) [kw_daily; kw_weekly; kw_monthly; kw_quarterly] = true.
Proof using.
  unfold lex_interval. cbn [In existsb].
  intros [<-|[<-|[<-|[<-|[]]]]]; rewrite str_eqb_refl; rewrite ?orb_true_r; reflexivity.
Qed.

End Dec.

Lemma drop_prefix_app p r : drop_prefix p (p ++ r) = Some r.
Proof. induction p as [|a p IH]; cbn [app drop_prefix]; [reflexivity|]. now rewrite Z.eqb_refl. Qed.

Lemma drop_blanks_app W r : blanks_b W = true -> drop_blanks (W ++ r) = drop_blanks r.
Proof.
  induction W as [|b W IH]; cbn [app drop_blanks blanks_b forallb]; intros H; [reflexivity|].
  apply andb_true_iff in H. destruct H as (Hb & H). rewrite Hb. now apply IH.
Qed.

Lemma blanks1_intro W : blanks_b W = true -> W <> [] -> blanks1_b W = true.
Proof. intros H Hne. unfold blanks1_b. rewrite H. destruct W; [congruence|reflexivity]. Qed.

Lemma kw_glue_ok k kw' nl W1 r : blanks1_b W1 = true -> is_ws_byte k = false ->
  (blanks1_b r = true \/ (nl = true /\ exists W2, blanks_b W2 = true /\ r = W2 ++ [10])) ->
  kw_glue (k :: kw') nl (W1 ++ (k :: kw') ++ r) = true.
Proof.
  intros H1 Hk Hr. destruct W1 as [|b W1]; [discriminate|].
  unfold blanks1_b in H1. cbn [nonnil andb] in H1. pose proof H1 as H1'.
  cbn [blanks_b forallb] in H1. apply andb_true_iff in H1. destruct H1 as (Hb & _).
  cbn [app kw_glue]. rewrite Hb. cbn [andb].
  change (b :: W1 ++ k :: kw' ++ r) with ((b :: W1) ++ (k :: kw') ++ r).
  rewrite (drop_blanks_app _ _ H1'). cbn [app drop_blanks]. rewrite Hk.
  change (k :: kw' ++ r) with ((k :: kw') ++ r). rewrite drop_prefix_app.
  destruct Hr as [->|(-> & W2 & HW2 & ->)]; [reflexivity|].
  rewrite (drop_blanks_app _ _ HW2). cbn [drop_blanks]. apply orb_true_r.
Qed.

Lemma kw_then_blanks_ok kw W : blanks1_b W = true -> kw_then_blanks kw (kw ++ W) = true.
Proof. intros H. unfold kw_then_blanks. now rewrite drop_prefix_app. Qed.

Section Dec.
Variable dec : str -> Z * Z.
Hypothesis Hdec : decoder_ok dec.

Lemma wsl_blanks W : wsl dec W -> blanks_b W = true.
Proof using Hdec.
  induction 1 as [|c b x Hc Hp Hx IH]; [reflexivity|].
  assert (Hr : 0 <= c < 128) by (unfold is_whitespace in Hp; lia).
  rewrite (chunk_ascii_inv dec Hdec c b Hc Hr). cbn [app blanks_b forallb].
  unfold blanks_b in IH. rewrite IH. unfold is_ws_byte. unfold is_whitespace in Hp. rewrite Hp. reflexivity.
Qed.

End Dec.

Lemma restline_ok W : blanks_b W = true -> restline_b (W ++ [10]) = true.
Proof. intros H. unfold restline_b. rewrite (drop_blanks_app _ _ H). reflexivity. Qed.

Lemma restline_end_nl eofok W : blanks_b W = true -> restline_end_b eofok (W ++ [10]) = true.
Proof. intros H. unfold restline_end_b. now rewrite restline_ok. Qed.

Lemma restline_end_eof W : blanks_b W = true -> restline_end_b true W = true.
Proof. intros H. unfold restline_end_b. rewrite H. apply orb_true_r. Qed.

Lemma restline_end_false w : restline_end_b false w = restline_b w.
Proof. unfold restline_end_b. cbn [andb]. apply orb_false_r. Qed.

Lemma comma_ok W1 W2 : blanks_b W1 = true -> blanks_b W2 = true -> comma_b (W1 ++ 44 :: W2) = true.
Proof. intros H1 H2. unfold comma_b. rewrite (drop_blanks_app _ _ H1).
  change (drop_blanks (44 :: W2)) with (44 :: W2). cbv beta iota. now rewrite H2. Qed.

Lemma restline_nonnil w : restline_b w = true -> w <> [].
Proof. intros H ->. discriminate H. Qed.

Lemma slice_nonnil_lt (t : str) a b : slice t a b <> [] -> a < b.
Proof.
  intros H. destruct (Z_lt_ge_dec a b) as [Hlt|Hge]; [exact Hlt|]. exfalso. apply H. unfold slice.
  replace (Z.to_nat (b - a)) with O by lia. reflexivity.
Qed.

Lemma restline_last w d : restline_b w = true -> last w d = 10.
Proof.
  unfold restline_b. induction w as [|b w IH]; cbn [drop_blanks]; [discriminate|].
  destruct (is_ws_byte b) eqn:Hb.
  - intros H. specialize (IH H). destruct w as [|c w]; [discriminate H|]. exact IH.
  - destruct w as [|c w]; [|discriminate]. intros H. apply Z.eqb_eq in H. exact H.
Qed.

Lemma last_app_ne (a b : str) d : b <> [] -> last (a ++ b) d = last b d.
Proof.
  intros Hb. induction a as [|x a IH]; [reflexivity|]. cbn [app]. cbn [last].
  destruct (a ++ b) eqn:Hab; [|exact IH]. apply app_eq_nil in Hab. tauto.
Qed.

Section Addons.
Variable t : str.

Lemma restline_lt a b : restline_b (slice t a b) = true -> a < b.
Proof. intros H. apply (slice_nonnil_lt t). now apply restline_nonnil. Qed.

Lemma is_zero_perf_false a b ts : 0 <= a -> a < b -> is_zero_perf (mkPerf (mkRange a b) ts) = false.
Proof.
  intros H0 Hlt. unfold is_zero_perf, is_zero_range. cbn [pf_range r_start r_end].
  destruct (Z.eqb_spec b 0); [lia|]. now rewrite andb_false_r.
Qed.

Lemma is_zero_accrual_false a b iv st en acc : 0 <= a -> a < b ->
  is_zero_accrual (mkAccrual (mkRange a b) iv st en acc) = false.
Proof.
  intros H0 Hlt. unfold is_zero_accrual, is_zero_range. cbn [ac_range r_start r_end].
  destruct (Z.eqb_spec b 0); [lia|]. now rewrite andb_false_r.
Qed.

(* the loop of parseAddons: an addon read at [a, b) where none of its kind was present, the
   addons read before filling [lo, a), is the first one (lo = a) or follows the rest of the
   line of the other *)
Lemma tile_add_perf eofok lo a b hi p c ts : 0 <= a -> a < b ->
  tile_ad_b t false lo a p c = true -> range_empty (pf_range p) = true ->
  restline_end_b eofok (slice t b hi) = true ->
  tile_ad_b t eofok lo hi (mkPerf (mkRange a b) ts) c = true.
Proof.
  intros H0 Hlt Ht Hre Hrl. unfold tile_ad_b in *. unfold range_empty in Hre.
  rewrite (is_zero_perf_false a b ts H0 Hlt). cbn [pf_range r_start r_end].
  destruct (is_zero_perf p); [|exfalso; destruct (is_zero_accrual c); lia].
  destruct (is_zero_accrual c); [rewrite Hrl; lia|].
  apply andb_true_iff in Ht. destruct Ht as (Ht & Hr3). rewrite restline_end_false in Hr3.
  pose proof (restline_lt _ _ Hr3).
  destruct (Z.ltb_spec a (r_start (ac_range c))); [lia|]. rewrite Hr3, Hrl. lia.
Qed.

Lemma tile_add_accrual eofok lo a b hi p c iv st en acc : 0 <= a -> a < b ->
  tile_ad_b t false lo a p c = true -> range_empty (ac_range c) = true ->
  restline_end_b eofok (slice t b hi) = true ->
  tile_ad_b t eofok lo hi p (mkAccrual (mkRange a b) iv st en acc) = true.
Proof.
  intros H0 Hlt Ht Hre Hrl. unfold tile_ad_b in *. unfold range_empty in Hre.
  rewrite (is_zero_accrual_false a b iv st en acc H0 Hlt). cbn [ac_range r_start r_end].
  destruct (is_zero_accrual c); [|exfalso; destruct (is_zero_perf p); lia].
  destruct (is_zero_perf p); [rewrite Hrl; lia|].
  apply andb_true_iff in Ht. destruct Ht as (Ht & Hr3). rewrite restline_end_false in Hr3.
  pose proof (restline_lt _ _ Hr3).
  destruct (Z.ltb_spec (r_start (pf_range p)) a); [|lia]. rewrite Hr3, Hrl. lia.
Qed.

Lemma tile_last_nl lo hi p c : tile_ad_b t false lo hi p c = true -> lo < hi ->
  exists x, lo <= x /\ x < hi /\ restline_b (slice t x hi) = true.
Proof.
  intros H Hlt. unfold tile_ad_b in H. rewrite ?restline_end_false in H.
  destruct (is_zero_perf p), (is_zero_accrual c); [lia| | |].
  - apply andb_true_iff in H. destruct H as (H & H3). pose proof (restline_lt _ _ H3).
    exists (r_end (ac_range c)). split; [lia|]. split; [lia|exact H3].
  - apply andb_true_iff in H. destruct H as (H & H3). pose proof (restline_lt _ _ H3).
    exists (r_end (pf_range p)). split; [lia|]. split; [lia|exact H3].
  - apply andb_true_iff in H. destruct H as (H & H3).
    destruct (r_start (pf_range p) <? r_start (ac_range c));
      apply andb_true_iff in H3; destruct H3 as (H3 & H5); apply andb_true_iff in H3; destruct H3 as (H3 & H4);
      pose proof (restline_lt _ _ H4); pose proof (restline_lt _ _ H5).
    + exists (r_end (ac_range c)). split; [lia|]. split; [lia|exact H5].
    + exists (r_end (pf_range p)). split; [lia|]. split; [lia|exact H5].
Qed.

(* `@performance` at [a, a1), the parenthesised list at [a1, b) *)
Lemma perf_addon_ok a a1 b ts : 0 <= a -> a1 = a + 12 -> a1 + 2 <= b ->
  slice t a a1 = kw_performance -> slice t a1 (a1 + 1) = [40] -> slice t (b - 1) b = [41] ->
  sep_targets t true (a1 + 1) ts (b - 1) = true ->
  kw_perf t (mkPerf (mkRange a b) ts) = true /\ sep_perf t (mkPerf (mkRange a b) ts) = true.
Proof.
  intros H0 -> Hb H1 H2 H3 H4. unfold kw_perf, sep_perf. cbn [pf_range pf_targets r_start r_end].
  change (zlen kw_paren) with 13. replace (a + 12 + 1) with (a + 13) in * by lia.
  rewrite H4, H3, (slice_app t a (a + 12) (a + 13)), H1, H2 by lia.
  split; [|apply orb_true_r]. apply orb_true_iff. right.
  assert (Hle : (a + 13 + 1 <=? b) = true) by lia. rewrite Hle. reflexivity.
Qed.

(* `@accrue` at [a, a1), blanks up to the interval *)
Lemma kw_accrual_intro a a1 b iv st en acc : 0 <= a <= a1 -> a1 <= r_start iv ->
  slice t a a1 = kw_accrue -> blanks1_b (slice t a1 (r_start iv)) = true ->
  kw_accrual t (mkAccrual (mkRange a b) iv st en acc) = true.
Proof.
  intros H0 H1 H2 H3. unfold kw_accrual. cbn [ac_range ac_interval r_start]. apply orb_true_iff. right.
  rewrite (slice_app t a a1 (r_start iv)), H2 by lia. now apply kw_then_blanks_ok.
Qed.

End Addons.
