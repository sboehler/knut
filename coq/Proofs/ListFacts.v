(* Facts about lists (map, flat_map, filter, find, fold_left, Forall2, Permutation, NoDup,
   StronglySorted) and one about options that Coq 8.16's standard library does not have. *)
From Coq Require Import List Permutation Sorting.Sorted.
Import ListNotations.

Lemma map_flat_map {A B C} (f : B -> C) (g : A -> list B) l :
  map f (flat_map g l) = flat_map (fun x => map f (g x)) l.
Proof. induction l as [|x l IH]; cbn [flat_map map]; [reflexivity|]. rewrite map_app, IH. reflexivity. Qed.

Lemma flat_map_map {A B C} (f : B -> list C) (g : A -> B) l : flat_map f (map g l) = flat_map (fun x => f (g x)) l.
Proof. induction l as [|x l IH]; cbn [map flat_map]; [reflexivity|]. rewrite IH. reflexivity. Qed.

Lemma flat_map_ext_in {A B} (f g : A -> list B) l : (forall x, In x l -> f x = g x) -> flat_map f l = flat_map g l.
Proof.
  induction l as [|x l IH]; intros H; cbn [flat_map]; [reflexivity|].
  rewrite (H x (or_introl eq_refl)), IH; [reflexivity|]. intros y Hy. apply H. right. exact Hy.
Qed.

Lemma flat_map_flat_map {A B C} (g : B -> list C) (h : A -> list B) l :
  flat_map g (flat_map h l) = flat_map (fun x => flat_map g (h x)) l.
Proof. induction l as [|x l IH]; cbn [flat_map]; [reflexivity|]. rewrite flat_map_app, IH. reflexivity. Qed.

Lemma flat_map_nil {A B} (g : A -> list B) l : (forall x, In x l -> g x = []) -> flat_map g l = [].
Proof.
  induction l as [|x l IH]; intros H; cbn [flat_map]; [reflexivity|].
  rewrite (H x (or_introl eq_refl)), IH; [reflexivity|]. intros y Hy. apply H. right. exact Hy.
Qed.

Lemma filter_all {A} (f : A -> bool) l : (forall x, In x l -> f x = true) -> filter f l = l.
Proof.
  induction l as [|x l IH]; intros H; cbn [filter]; [reflexivity|].
  rewrite (H x (or_introl eq_refl)), IH; [reflexivity|]. intros y Hy. apply H. right. exact Hy.
Qed.

Lemma filter_none {A} (f : A -> bool) l : (forall x, In x l -> f x = false) -> filter f l = [].
Proof.
  induction l as [|x l IH]; intros H; cbn [filter]; [reflexivity|].
  rewrite (H x (or_introl eq_refl)). apply IH. intros y Hy. apply H. right. exact Hy.
Qed.

Lemma filter_map_comm {A B} (g : A -> B) (f : B -> bool) (l : list A) :
  filter f (map g l) = map g (filter (fun x => f (g x)) l).
Proof.
  induction l as [|x l IH]; [reflexivity|]. cbn [map filter]. destruct (f (g x)); cbn [map]; rewrite IH; reflexivity.
Qed.

Lemma filter_comm {A} (f g : A -> bool) l : filter f (filter g l) = filter g (filter f l).
Proof.
  induction l as [|x l IH]; cbn [filter]; [reflexivity|].
  destruct (f x) eqn:Ef, (g x) eqn:Eg; cbn [filter]; rewrite ?Ef, ?Eg, IH; reflexivity.
Qed.

Lemma find_none_all {A} (f : A -> bool) l : (forall x, In x l -> f x = false) -> find f l = None.
Proof.
  induction l as [|x l IH]; intros H; cbn [find]; [reflexivity|].
  rewrite (H x (or_introl eq_refl)). apply IH. intros y Hy. apply H. right. exact Hy.
Qed.

Lemma find_ext_in {A} (f g : A -> bool) l : (forall x, In x l -> f x = g x) -> find f l = find g l.
Proof.
  induction l as [|x l IH]; intros H; cbn [find]; [reflexivity|].
  rewrite (H x (or_introl eq_refl)). rewrite IH; [reflexivity|]. intros y Hy. apply H. right. exact Hy.
Qed.

Lemma find_map {A B} (f : B -> bool) (g : A -> B) l : find f (map g l) = option_map g (find (fun x => f (g x)) l).
Proof. induction l as [|x l IH]; cbn [map find option_map]; [reflexivity|]. destruct (f (g x)); [reflexivity|exact IH]. Qed.

Lemma map_const_repeat {A B} (x : B) (l : list A) : map (fun _ => x) l = repeat x (length l).
Proof. induction l as [|a l IH]; cbn [map length repeat]; [reflexivity|]. rewrite IH. reflexivity. Qed.

Lemma map_repeat {A B} (f : A -> B) x n : map f (repeat x n) = repeat (f x) n.
Proof. induction n as [|n IH]; cbn [repeat map]; [reflexivity|]. rewrite IH. reflexivity. Qed.

Lemma fold_left_invariant {A B} (P : A -> Prop) (f : A -> B -> A) :
  (forall a b, P a -> P (f a b)) -> forall l a, P a -> P (fold_left f l a).
Proof. intros Hf. induction l as [|b l IH]; intros a Ha; cbn [fold_left]; [exact Ha|]. apply IH, Hf, Ha. Qed.

(* the members of a list grown by fold_left, when every step adds the elements Q b *)
Lemma in_fold_left_iff {A B} (f : list A -> B -> list A) (Q : B -> A -> Prop) :
  (forall l b x, In x (f l b) <-> In x l \/ Q b x) ->
  forall bs l x, In x (fold_left f bs l) <-> In x l \/ exists b, In b bs /\ Q b x.
Proof.
  intros Hf. induction bs as [|b bs IH]; intros l x; cbn [fold_left].
  - split; [tauto|]. intros [H|(b & [] & _)]. exact H.
  - rewrite IH, Hf. split.
    + intros [[H|H]|(b' & H1 & H2)]; [tauto|right; exists b; split; [left; reflexivity|exact H]|
                                       right; exists b'; split; [right; exact H1|exact H2]].
    + intros [H|(b' & [<-|H1] & H2)]; [tauto|tauto|right; exists b'; tauto].
Qed.

Lemma Forall2_right {A B} (Q : B -> Prop) (l : list A) l' : Forall2 (fun _ b => Q b) l l' -> Forall Q l'.
Proof. induction 1; constructor; assumption. Qed.

Lemma Forall2_eq_map {A B} (g : A -> B) l l' : Forall2 (fun a b => b = g a) l l' -> l' = map g l.
Proof. induction 1 as [|a b l l' -> _ ->]; reflexivity. Qed.

Lemma Forall_forallb {A} (P : A -> Prop) (f : A -> bool) l :
  (forall x, P x -> f x = true) -> Forall P l -> forallb f l = true.
Proof. intros Hf. induction 1 as [|x l Hx Hl IH]; cbn [forallb]; [reflexivity|]. now rewrite (Hf x Hx), IH. Qed.

Lemma Forall2_map_r {A B} (R : A -> B -> Prop) (f : A -> B) l : Forall (fun a => R a (f a)) l -> Forall2 R l (map f l).
Proof. induction 1; cbn [map]; constructor; assumption. Qed.

Lemma map_rel {A B} (R : A -> A -> Prop) (f : A -> B) l l' :
  Forall2 R l l' -> (forall a a', R a a' -> f a = f a') -> map f l = map f l'.
Proof. intros H Hf. induction H as [|a a' l l' Ha Hl IH]; cbn [map]; [reflexivity|]. now rewrite (Hf a a' Ha), IH. Qed.

Lemma Forall2_refl {A} (R : A -> A -> Prop) : (forall x, R x x) -> forall l, Forall2 R l l.
Proof. intros H l. induction l; constructor; auto. Qed.

Lemma Forall2_in_r {A B} (R : A -> B -> Prop) l l' b :
  Forall2 R l l' -> In b l' -> exists a, In a l /\ R a b.
Proof.
  induction 1 as [|a0 b0 l l' H0 _ IH]; intros Hin; [destruct Hin|].
  destruct Hin as [<-|Hin]; [exists a0; split; [left; reflexivity|exact H0]|].
  destruct (IH Hin) as (a & Ha & Hr). exists a. split; [right; exact Ha|exact Hr].
Qed.

Lemma Permutation_filter {A} (f : A -> bool) l1 l2 : Permutation l1 l2 -> Permutation (filter f l1) (filter f l2).
Proof.
  induction 1 as [|x l1 l2 _ IH|x y l|l1 l2 l3 _ IH1 _ IH2]; cbn [filter].
  - constructor.
  - destruct (f x); [now constructor|exact IH].
  - destruct (f x), (f y); try apply Permutation_refl. apply perm_swap.
  - eapply Permutation_trans; eassumption.
Qed.

Lemma Permutation_filter_length {A} (f : A -> bool) l1 l2 :
  Permutation l1 l2 -> length (filter f l1) = length (filter f l2).
Proof. intros H. apply Permutation_length, Permutation_filter, H. Qed.

(* related folds; the step need only respect the relations on the members of the list *)
Lemma fold_left_rel {A B} (RA : A -> A -> Prop) (RB : B -> B -> Prop) (f f' : B -> A -> B) l l' :
  Forall2 RA l l' -> (forall b b' a a', In a l -> RB b b' -> RA a a' -> RB (f b a) (f' b' a')) ->
  forall b b', RB b b' -> RB (fold_left f l b) (fold_left f' l' b').
Proof.
  induction 1 as [|a a' l l' Ha Hl IH]; intros Hf b b' Hb; cbn [fold_left]; [exact Hb|].
  apply IH; [intros; apply Hf; auto; now right|apply Hf; auto; now left].
Qed.

(* a case distinction on a callback that leaves the hypotheses about it alone *)
Lemma opt_dec {A} (o : option A) : {x | o = Some x} + {o = None}.
Proof. destruct o; eauto. Qed.

Lemma NoDup_app_intro {A} (a b : list A) : NoDup a -> NoDup b -> (forall x, In x a -> ~ In x b) -> NoDup (a ++ b).
Proof.
  induction 1 as [|x a Hx Ha IH]; intros Hb Hd; cbn [app]; [exact Hb|].
  constructor.
  - rewrite in_app_iff. intros [H|H]; [exact (Hx H)|exact (Hd x (or_introl eq_refl) H)].
  - apply IH; [exact Hb|]. intros y Hy. apply Hd. right. exact Hy.
Qed.

Lemma NoDup_snoc {A} (l : list A) x : NoDup l -> ~ In x l -> NoDup (l ++ [x]).
Proof.
  intros Hl Hx. apply NoDup_app_intro; [exact Hl|constructor; [intros []|constructor]|].
  intros y Hy [<-|[]]. exact (Hx Hy).
Qed.

Lemma NoDup_map_inj {A B} (f : A -> B) l x y : NoDup (map f l) -> In x l -> In y l -> f x = f y -> x = y.
Proof.
  induction l as [|z l IH]; intros Hnd Hx Hy E; [destruct Hx|].
  cbn [map] in Hnd. inversion Hnd as [|? ? Hz Hl]; subst.
  destruct Hx as [->|Hx], Hy as [->|Hy]; [reflexivity| | |exact (IH Hl Hx Hy E)]; exfalso; apply Hz.
  - rewrite E. apply in_map. exact Hy.
  - rewrite <- E. apply in_map. exact Hx.
Qed.

Lemma NoDup_app_inv {A} (a b : list A) : NoDup (a ++ b) -> NoDup a /\ NoDup b.
Proof.
  induction a as [|x a IH]; cbn [app]; intros H; [split; [constructor|exact H]|].
  inversion H as [|? ? Hx Hr]; subst. destruct (IH Hr) as [Ha Hb]. split; [|exact Hb].
  constructor; [|exact Ha]. intros Hin. apply Hx. apply in_or_app. left. exact Hin.
Qed.

Lemma StronglySorted_app {A} (R : A -> A -> Prop) l1 l2 :
  StronglySorted R l1 -> StronglySorted R l2 -> (forall x y, In x l1 -> In y l2 -> R x y) -> StronglySorted R (l1 ++ l2).
Proof.
  intros H1 H2 H. induction H1 as [|a l1 S1 IH A1]; cbn [app]; [exact H2|].
  constructor; [apply IH; intros x y Hx Hy; apply H; [right; exact Hx|exact Hy]|].
  rewrite Forall_forall in *. intros y Hy. apply in_app_or in Hy.
  destruct Hy as [Hy|Hy]; [exact (A1 y Hy)|apply H; [left; reflexivity|exact Hy]].
Qed.

Lemma StronglySorted_weaken_in {A} (R R' : A -> A -> Prop) l :
  (forall x y, In x l -> In y l -> R x y -> R' x y) -> StronglySorted R l -> StronglySorted R' l.
Proof.
  intros H Hs. induction Hs as [|a l Hl IH Ha]; constructor.
  - apply IH. intros x y Hx Hy. apply H; right; assumption.
  - rewrite Forall_forall in *. intros y Hy. apply H; [left; reflexivity|right; exact Hy|exact (Ha y Hy)].
Qed.

(* lists in order, one after the other in the order S of where they come from *)
Lemma StronglySorted_flat_map {A B} (R : B -> B -> Prop) (S : A -> A -> Prop) (f : A -> list B) l :
  StronglySorted S l -> (forall x, In x l -> StronglySorted R (f x)) ->
  (forall x y a b, In x l -> In y l -> S x y -> In a (f x) -> In b (f y) -> R a b) ->
  StronglySorted R (flat_map f l).
Proof.
  intros Hs Hin Hcross. induction Hs as [|x l Hl IH Hx]; cbn [flat_map]; [constructor|].
  apply StronglySorted_app.
  - apply Hin. left. reflexivity.
  - apply IH; [intros y Hy; apply Hin; right; exact Hy|].
    intros y z a b Hy Hz. apply Hcross; right; assumption.
  - intros a b Ha Hb. apply in_flat_map in Hb. destruct Hb as (y & Hy & Hb). rewrite Forall_forall in Hx.
    exact (Hcross x y a b (or_introl eq_refl) (or_intror Hy) (Hx y Hy) Ha Hb).
Qed.

Lemma StronglySorted_NoDup {A} (R : A -> A -> Prop) : (forall x, ~ R x x) -> forall l, StronglySorted R l -> NoDup l.
Proof.
  intros Hirr l H. induction H as [|a l _ IH Ha]; constructor; [|exact IH].
  intros Hin. rewrite Forall_forall in Ha. exact (Hirr a (Ha a Hin)).
Qed.

Lemma StronglySorted_ext {A} (R : A -> A -> Prop) :
  (forall x, ~ R x x) -> (forall x y z, R x y -> R y z -> R x z) ->
  forall l1 l2, StronglySorted R l1 -> StronglySorted R l2 -> (forall x, In x l1 <-> In x l2) -> l1 = l2.
Proof.
  intros Hirr Htr. induction l1 as [|a l1 IH]; intros l2 H1 H2 Hm.
  - destruct l2 as [|b l2]; [reflexivity|]. exfalso. apply (proj2 (Hm b)). left. reflexivity.
  - destruct l2 as [|b l2]; [exfalso; apply (proj1 (Hm a)); left; reflexivity|].
    apply StronglySorted_inv in H1, H2. destruct H1 as [S1 A1], H2 as [S2 B1]. rewrite Forall_forall in A1, B1.
    assert (Hab : a = b).
    { destruct (proj1 (Hm a) (or_introl eq_refl)) as [E|Hin]; [symmetry; exact E|].
      destruct (proj2 (Hm b) (or_introl eq_refl)) as [E|Hin2]; [exact E|].
      exfalso. exact (Hirr a (Htr _ _ _ (A1 _ Hin2) (B1 _ Hin))). }
    subst b. f_equal. apply IH; [exact S1|exact S2|]. intros x. split; intros Hx.
    + destruct (proj1 (Hm x) (or_intror Hx)) as [E|Hin]; [|exact Hin]. subst x. exfalso. exact (Hirr a (A1 _ Hx)).
    + destruct (proj2 (Hm x) (or_intror Hx)) as [E|Hin]; [|exact Hin]. subst x. exfalso. exact (Hirr a (B1 _ Hx)).
Qed.
