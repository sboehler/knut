(* The include loader (Model/Loader.v): the repaired loader terminates on every finite file
   system whatever its include graph; the pinned loader does not terminate on a cyclic one;
   an error in any reachable file fails the load; every directive of every reachable file is
   in the result. *)
From Coq Require Import ZArith List Bool Lia.
From Knut Require Import Model.Str Model.Ledger Model.Loader Proofs.StrProofs.
Import ListNotations.

Lemma path_eqb_eq a b : path_eqb a b = true <-> a = b.
Proof.
  revert b. induction a as [|x a IH]; intros [|y b]; cbn [path_eqb].
  - tauto.
  - split; discriminate.
  - split; discriminate.
  - rewrite andb_true_iff, str_eqb_eq, IH. split.
    + intros [Hx Ha]. subst. reflexivity.
    + intros H. inversion H. auto.
Qed.

Lemma path_eqb_refl a : path_eqb a a = true.
Proof. apply path_eqb_eq. reflexivity. Qed.

Lemma lookup_in fs p c : lookup fs p = Some c -> In p (map fst fs).
Proof.
  induction fs as [|[q c'] fs IH]; cbn [lookup map fst]; [discriminate|].
  destruct (path_eqb p q) eqn:E.
  - apply path_eqb_eq in E. subst. intros _. left. reflexivity.
  - intros H. right. apply IH. exact H.
Qed.

Lemma mem_path_in p l : mem_path p l = true <-> In p l.
Proof.
  unfold mem_path. rewrite existsb_exists. split.
  - intros (q & Hq & E). apply path_eqb_eq in E. subst. exact Hq.
  - intros H. exists p. split; [exact H|apply path_eqb_refl].
Qed.

Lemma seq_fuel r1 r2 : seq r1 r2 = LOutOfFuel <-> r1 = LOutOfFuel \/ r2 = LOutOfFuel.
Proof.
  destruct r1, r2; cbn [seq]; split; intros H; try discriminate; try tauto;
    try (destruct H as [H|H]; discriminate).
Qed.

Lemma seq_ok r1 r2 ds : seq r1 r2 = LOk ds -> exists a b, r1 = LOk a /\ r2 = LOk b /\ ds = a ++ b.
Proof.
  destruct r1, r2; cbn [seq]; intros H; try discriminate.
  inversion H. eauto.
Qed.

Lemma load_items_fuel sub its :
  load_items sub its = LOutOfFuel <-> exists t, In (IInc t) its /\ sub t = LOutOfFuel.
Proof.
  induction its as [|[d|t] its IH]; cbn [load_items].
  - split; [discriminate|]. intros (t & [] & _).
  - rewrite seq_fuel, IH. split.
    + intros [H|(t & Hin & Ht)]; [discriminate|]. exists t. split; [right; exact Hin|exact Ht].
    + intros (t & [Hin|Hin] & Ht); [discriminate|]. right. exists t. auto.
  - rewrite seq_fuel, IH. split.
    + intros [H|(t' & Hin & Ht)]; [exists t; split; [left; reflexivity|exact H]|].
      exists t'. split; [right; exact Hin|exact Ht].
    + intros (t' & [Hin|Hin] & Ht).
      * inversion Hin. subst. left. exact Ht.
      * right. exists t'. auto.
Qed.

Lemma load_items_ok sub its ds :
  load_items sub its = LOk ds ->
  (forall t, In (IInc t) its -> exists d', sub t = LOk d' /\ incl d' ds) /\
  (forall d, In (IDir d) its -> In d ds).
Proof.
  revert ds. induction its as [|[d|t] its IH]; cbn [load_items]; intros ds H.
  - split; intros ? [].
  - apply seq_ok in H. destruct H as (a & b & Ha & Hb & ->). inversion Ha. subst a.
    destruct (IH _ Hb) as [I1 I2]. split.
    + intros t [Hin|Hin]; [discriminate|]. destruct (I1 _ Hin) as (d' & Hs & Hi).
      exists d'. split; [exact Hs|]. intros x Hx. right. apply Hi. exact Hx.
    + intros d0 [Hin|Hin]; [inversion Hin; left; reflexivity|]. right. apply I2. exact Hin.
  - apply seq_ok in H. destruct H as (a & b & Ha & Hb & ->).
    destruct (IH _ Hb) as [I1 I2]. split.
    + intros t' [Hin|Hin].
      * inversion Hin. subst t'. exists a. split; [exact Ha|]. intros x Hx. apply in_or_app. left. exact Hx.
      * destruct (I1 _ Hin) as (d' & Hs & Hi). exists d'. split; [exact Hs|].
        intros x Hx. apply in_or_app. right. apply Hi. exact Hx.
    + intros d0 [Hin|Hin]; [discriminate|]. apply in_or_app. right. apply I2. exact Hin.
Qed.

Lemma load_file_terminates fs : forall f anc p,
  NoDup anc -> incl anc (map fst fs) -> (length fs < length anc + f)%nat ->
  load_file f fs anc p <> LOutOfFuel.
Proof.
  induction f as [|f IH]; intros anc p Hnd Hincl Hlen.
  - exfalso. pose proof (NoDup_incl_length Hnd Hincl) as Hle. rewrite map_length in Hle. lia.
  - cbn [load_file]. destruct (mem_path p anc) eqn:Hm; [discriminate|].
    destruct (lookup fs p) as [[items|]|] eqn:Hl; try discriminate.
    intros Hf. apply load_items_fuel in Hf. destruct Hf as (t & _ & Ht).
    revert Ht. apply IH.
    + constructor; [|exact Hnd]. intros Hin. apply mem_path_in in Hin. congruence.
    + intros q [Hq|Hq]; [subst q; eapply lookup_in; exact Hl|apply Hincl; exact Hq].
    + cbn [length]. lia.
Qed.

Theorem load_terminates fs root : load (fuel_for fs) fs root <> LOutOfFuel.
Proof.
  unfold load, fuel_for. apply load_file_terminates.
  - constructor.
  - intros q [].
  - cbn [length]. lia.
Qed.

(* more fuel changes nothing once the load has ended *)
Lemma load_items_ext sub1 sub2 its :
  (forall t, In (IInc t) its -> sub1 t = sub2 t) -> load_items sub1 its = load_items sub2 its.
Proof.
  induction its as [|[d|t] its IH]; cbn [load_items]; intros H; [reflexivity| |].
  - rewrite IH; [reflexivity|]. intros t Ht. apply H. right. exact Ht.
  - rewrite (H t (or_introl eq_refl)), IH; [reflexivity|]. intros t' Ht. apply H. right. exact Ht.
Qed.

Lemma load_file_fuel_mono fs : forall f anc p,
  load_file f fs anc p <> LOutOfFuel -> load_file (S f) fs anc p = load_file f fs anc p.
Proof.
  induction f as [|f IH]; intros anc p H; [exfalso; apply H; reflexivity|].
  cbn [load_file] in H |- *. destruct (mem_path p anc); [reflexivity|].
  destruct (lookup fs p) as [[items|]|]; try reflexivity.
  apply load_items_ext. intros t Ht. apply (IH (p :: anc) (resolve p t)).
  intros Hf. apply H. apply load_items_fuel. exists t. auto.
Qed.

(* a set of files closed under "includes some file of the set": from any of them an include
   chain can be followed for ever *)
Definition closed (fs : fsys) (S : path -> Prop) : Prop :=
  forall p, S p -> exists items t, lookup fs p = Some (FOk items) /\ In (IInc t) items /\ S (resolve p t).

Theorem pinned_diverges fs S : closed fs S -> forall fuel p, S p -> load_pinned fuel fs p = LOutOfFuel.
Proof.
  intros Hc. induction fuel as [|f IH]; intros p Hp; [reflexivity|].
  cbn [load_pinned]. destruct (Hc p Hp) as (items & t & Hl & Hin & Hs). rewrite Hl.
  apply load_items_fuel. exists t. split; [exact Hin|apply IH; exact Hs].
Qed.

Lemma repaired_not_ok fs S : closed fs S -> forall fuel anc p ds, S p -> load_file fuel fs anc p <> LOk ds.
Proof.
  intros Hc. induction fuel as [|f IH]; intros anc p ds Hp; [discriminate|].
  cbn [load_file]. destruct (mem_path p anc); [discriminate|].
  destruct (Hc p Hp) as (items & t & Hl & Hin & Hs). rewrite Hl.
  intros H. apply load_items_ok in H. destruct H as [H _].
  destruct (H t Hin) as (d' & Hd & _). revert Hd. apply IH. exact Hs.
Qed.

Theorem cycle_is_error fs S root : closed fs S -> S root -> exists e, load (fuel_for fs) fs root = LErr e.
Proof.
  intros Hc Hr. destruct (load (fuel_for fs) fs root) as [ds|e|] eqn:E.
  - exfalso. revert E. apply (repaired_not_ok fs S Hc). exact Hr.
  - exists e. reflexivity.
  - exfalso. revert E. apply load_terminates.
Qed.

Inductive reach (fs : fsys) (root : path) : path -> Prop :=
| reach_root : reach fs root root
| reach_inc p items t :
    reach fs root p -> lookup fs p = Some (FOk items) -> In (IInc t) items -> reach fs root (resolve p t).

Lemma load_file_ok_inv f fs anc p ds :
  load_file f fs anc p = LOk ds ->
  exists f' items, f = S f' /\ lookup fs p = Some (FOk items) /\
    load_items (fun t => load_file f' fs (p :: anc) (resolve p t)) items = LOk ds.
Proof.
  destruct f as [|f]; cbn [load_file]; [discriminate|].
  destruct (mem_path p anc); [discriminate|].
  destruct (lookup fs p) as [[items|]|]; try discriminate.
  intros H. exists f, items. auto.
Qed.

Lemma reach_loaded fs root f ds :
  load f fs root = LOk ds ->
  forall p, reach fs root p -> exists f' anc ds', load_file f' fs anc p = LOk ds' /\ incl ds' ds.
Proof.
  intros Hl p Hr. induction Hr as [|p items t Hr IH Hlk Hin].
  - exists f, [], ds. split; [exact Hl|apply incl_refl].
  - destruct IH as (f' & anc & ds' & Hp & Hi).
    apply load_file_ok_inv in Hp. destruct Hp as (f'' & items' & -> & Hlk' & Hit).
    rewrite Hlk in Hlk'. inversion Hlk'. subst items'.
    apply load_items_ok in Hit. destruct Hit as [H1 _].
    destruct (H1 t Hin) as (d' & Hd & Hi').
    exists f'', (p :: anc), d'. split; [exact Hd|]. intros x Hx. apply Hi. apply Hi'. exact Hx.
Qed.

(* a missing, unreadable or unparseable file anywhere in the include graph fails the load *)
Theorem included_error_fails_all fs root p :
  reach fs root p -> (lookup fs p = None \/ lookup fs p = Some FBad) ->
  forall f ds, load f fs root <> LOk ds.
Proof.
  intros Hr Hbad f ds Hl.
  destruct (reach_loaded fs root f ds Hl p Hr) as (f' & anc & ds' & Hp & _).
  apply load_file_ok_inv in Hp. destruct Hp as (_ & items & _ & Hlk & _).
  destruct Hbad as [Hb|Hb]; rewrite Hb in Hlk; discriminate.
Qed.

(* nothing is lost: every directive of every reachable file is in the result *)
Theorem included_directive_loaded fs root p items d :
  reach fs root p -> lookup fs p = Some (FOk items) -> In (IDir d) items ->
  forall f ds, load f fs root = LOk ds -> In d ds.
Proof.
  intros Hr Hlk Hin f ds Hl.
  destruct (reach_loaded fs root f ds Hl p Hr) as (f' & anc & ds' & Hp & Hi).
  apply load_file_ok_inv in Hp. destruct Hp as (f'' & items' & _ & Hlk' & Hit).
  rewrite Hlk in Hlk'. inversion Hlk'. subst items'.
  apply load_items_ok in Hit. apply Hi. apply Hit. exact Hin.
Qed.

(* model-level errors: a directive that lib/model rejects (or on which it panics) anywhere
   in the loaded list makes ParseDirectives fail for the whole list *)
Lemma parse_directives_ok_all l out :
  parse_directives l = MOk out -> forall d, In d l -> exists o, parse_directive d = MOk o.
Proof.
  revert out. induction l as [|x l IH]; intros out H d Hin; [destruct Hin|].
  cbn [parse_directives] in H. destruct (parse_directive x) as [o| |] eqn:Ex; cbn [mbind] in H; try discriminate.
  destruct (parse_directives l) as [o'| |] eqn:El; cbn [mbind] in H; try discriminate.
  destruct Hin as [<-|Hin]; [eauto|]. eapply IH; [reflexivity|exact Hin].
Qed.

(* "a" includes "a" *)
Definition fs_selfinclude : fsys := [([[97]], FOk [IInc [97]])].
(* "a" includes "s/b", "s/b" includes "../a" *)
Definition fs_mutual : fsys := [([[97]], FOk [IInc [115; 47; 98]]); ([[115]; [98]], FOk [IInc [46; 46; 47; 97]])].
(* a diamond: "a" includes "b" and "c", both include "d" *)
Definition fs_diamond (d : sdirective) : fsys :=
  [([[97]], FOk [IInc [98]; IInc [99]]); ([[98]], FOk [IInc [100]]); ([[99]], FOk [IInc [46; 47; 100]]);
   ([[100]], FOk [IDir d])].

Lemma selfinclude_closed : closed fs_selfinclude (fun p => p = [[97]]).
Proof. intros p ->. exists [IInc [97]], [97]. repeat split. left. reflexivity. Qed.

Lemma mutual_closed : closed fs_mutual (fun p => p = [[97]] \/ p = [[115]; [98]]).
Proof.
  intros p [->| ->].
  - exists [IInc [115; 47; 98]], [115; 47; 98]. split; [reflexivity|]. split; [left; reflexivity|]. right. reflexivity.
  - exists [IInc [46; 46; 47; 97]], [46; 46; 47; 97]. split; [reflexivity|]. split; [left; reflexivity|]. left. reflexivity.
Qed.
