(* The include loader (Model/Loader.v) and the visit relation of Proofs/OrderLayout.v, the
   converse of C05_layout: if the include tree below a file is FINITE -- [visits fs root vs]
   has a derivation: every file of the tree exists and parses, no file is below itself -- then
   the repaired loader succeeds on it.  Together with [load_layout]: the loader succeeds
   exactly on the finite include trees, and then returns the directives of the visit list.

   [visits] is an inductive predicate nested in Forall2; [visits_ind2] is its induction
   principle with the induction hypothesis for every include target. *)
From Coq Require Import ZArith List Bool Lia Permutation.
From Knut Require Import Proofs.ListFacts Model.Str Model.Ledger Model.Loader Proofs.LoaderProofs Proofs.OrderLayout.
Import ListNotations.

Lemma visits_ind2 (fs : fsys) (P : path -> list path -> Prop) :
  (forall p items vss, lookup fs p = Some (FOk items) ->
     Forall2 (fun t vs => visits fs (resolve p t) vs /\ P (resolve p t) vs) (inc_targets items) vss ->
     P p (p :: concat vss)) ->
  forall p vs, visits fs p vs -> P p vs.
Proof.
  intros Hstep. fix IH 3. intros p vs H. destruct H as [p items vss Hl HF].
  apply (Hstep p items vss Hl). revert HF. generalize (inc_targets items) as ts. revert vss.
  fix IHF 3. intros vss ts HF. destruct HF as [|t vs ts' vss' Hv HF']; constructor.
  - split; [exact Hv|apply IH; exact Hv].
  - apply IHF. exact HF'.
Qed.

Lemma Forall2_weaken {A B} (R S : A -> B -> Prop) l l' :
  (forall a b, R a b -> S a b) -> Forall2 R l l' -> Forall2 S l l'.
Proof. intros H. induction 1; constructor; auto. Qed.

Lemma Forall2_in_l {A B} (R : A -> B -> Prop) l l' a :
  Forall2 R l l' -> In a l -> exists b, In b l' /\ R a b.
Proof.
  induction 1 as [|a0 b0 l l' H0 _ IH]; intros Hin; [destruct Hin|].
  destruct Hin as [<-|Hin]; [exists b0; split; [now left|assumption]|].
  destruct (IH Hin) as (b & Hb & HR). exists b. split; [now right|assumption].
Qed.

Lemma length_concat_in {A} (l : list A) ls : In l ls -> (length l <= length (concat ls))%nat.
Proof.
  induction ls as [|x ls IH]; intros H; [destruct H|]. cbn [concat]. rewrite app_length.
  destruct H as [->|H]; [lia|]. specialize (IH H). lia.
Qed.

Section Visits.
Variable fs : fsys.

(* every visited file exists and parses *)
Lemma visits_lookup p vs : visits fs p vs -> forall q, In q vs -> exists items, lookup fs q = Some (FOk items).
Proof.
  intros H. induction H as [p items vss Hl HF] using visits_ind2. intros q [<-|Hq]; [eauto|].
  apply in_concat in Hq. destruct Hq as (vs_t & Hvt & Hq).
  destruct (Forall2_in_r _ _ _ _ HF Hvt) as (t & _ & _ & IH). exact (IH q Hq).
Qed.

(* the visit list of a file is determined by the file system *)
Lemma visits_det p vs : visits fs p vs -> forall vs', visits fs p vs' -> vs = vs'.
Proof.
  intros H. induction H as [p items vss Hl HF] using visits_ind2. intros vs' H'.
  inversion H' as [p' items' vss' Hl' HF' E1 E2]. subst. rewrite Hl in Hl'. inversion Hl'. subst items'.
  f_equal. f_equal. clear H' Hl Hl'. revert vss' HF'.
  induction HF as [|t vs ts vss (_ & IHv) _ IH]; intros vss' HF'; inversion HF'; subst; [reflexivity|].
  f_equal; [apply IHv; assumption|apply IH; assumption].
Qed.

(* a file visited below [p] has its own, not longer, visit list *)
Lemma visits_sub p vs : visits fs p vs ->
  forall q, In q vs -> exists vs_q, visits fs q vs_q /\ (length vs_q <= length vs)%nat.
Proof.
  intros H. induction H as [p items vss Hl HF] using visits_ind2. intros q [<-|Hq].
  - exists (p :: concat vss). split; [|lia].
    econstructor; [exact Hl|]. eapply Forall2_weaken; [|exact HF]. intros a b (Hv & _). exact Hv.
  - apply in_concat in Hq. destruct Hq as (vs_t & Hvt & Hq).
    destruct (Forall2_in_r _ _ _ _ HF Hvt) as (t & _ & _ & IH).
    destruct (IH q Hq) as (vs_q & Hv & Hlen). exists vs_q. split; [exact Hv|].
    pose proof (length_concat_in _ _ Hvt). cbn [length]. lia.
Qed.

(* a file is not visited below itself *)
Lemma visits_not_below p items vss vs_t :
  lookup fs p = Some (FOk items) ->
  Forall2 (fun t vs => visits fs (resolve p t) vs) (inc_targets items) vss ->
  In vs_t vss -> ~ In p vs_t.
Proof.
  intros Hl HF Hvt Hp.
  destruct (Forall2_in_r _ _ _ _ HF Hvt) as (t & _ & Hv).
  destruct (visits_sub _ _ Hv p Hp) as (vs_p & Hvp & Hlen).
  assert (Hfull : visits fs p (p :: concat vss)) by (econstructor; eassumption).
  rewrite (visits_det _ _ Hvp _ Hfull) in Hlen.
  pose proof (length_concat_in _ _ Hvt). cbn [length] in Hlen. lia.
Qed.

Lemma load_items_err sub its : forall e,
  load_items sub its = LErr e -> exists t e', In (IInc t) its /\ sub t = LErr e'.
Proof.
  induction its as [|[d|t] its IH]; intros e; cbn [load_items]; [discriminate| |].
  - destruct (load_items sub its) as [b|e'|] eqn:E; cbn [seq]; try discriminate.
    intros _. destruct (IH e' eq_refl) as (t & e'' & Hin & Ht). exists t, e''. split; [now right|assumption].
  - destruct (sub t) as [a|e1|] eqn:Es.
    + destruct (load_items sub its) as [b|e'|] eqn:E; cbn [seq]; try discriminate.
      intros _. destruct (IH e' eq_refl) as (t' & e'' & Hin & Ht). exists t', e''. split; [now right|assumption].
    + intros _. exists t, e1. split; [now left|assumption].
    + cbn [seq]. discriminate.
Qed.

Lemma in_inc_targets t its : In (IInc t) its -> In t (inc_targets its).
Proof.
  unfold inc_targets. intros H. apply in_flat_map. exists (IInc t). split; [assumption|now left].
Qed.

(* on a finite include tree the repaired loader reports no error, whatever chain of including
   files it starts with, as long as none of them is in the tree *)
Lemma visits_no_error p vs : visits fs p vs ->
  forall f anc, (forall a, In a anc -> ~ In a vs) -> forall e, load_file f fs anc p <> LErr e.
Proof.
  intros H. induction H as [p items vss Hl HF] using visits_ind2. intros f anc Hdis e.
  destruct f as [|f]; [discriminate|]. cbn [load_file].
  destruct (mem_path p anc) eqn:Hm.
  - apply mem_path_in in Hm. exfalso. apply (Hdis p Hm). now left.
  - rewrite Hl. intros Herr. apply load_items_err in Herr. destruct Herr as (t & e' & Hin & Ht).
    destruct (Forall2_in_l _ _ _ _ HF (in_inc_targets _ _ Hin)) as (vs_t & Hvt & _ & IH).
    revert Ht. apply IH. intros a [<-|Ha].
    + eapply visits_not_below; [exact Hl| |exact Hvt].
      eapply Forall2_weaken; [|exact HF]. intros x y (Hv & _). exact Hv.
    + intros Hin'. apply (Hdis a Ha). right. apply in_concat. exists vs_t. split; assumption.
Qed.

(* THE CONVERSE OF C05_layout: a finite include tree loads *)
Theorem visits_load root vs : visits fs root vs -> exists ds, load (fuel_for fs) fs root = LOk ds.
Proof.
  intros H. destruct (load (fuel_for fs) fs root) as [ds|e|] eqn:E.
  - eauto.
  - exfalso. revert E. unfold load. apply (visits_no_error _ _ H). intros a [].
  - exfalso. revert E. apply load_terminates.
Qed.

(* and what it returns is, up to order, the directives of THE visit list *)
Theorem visits_load_layout root vs : visits fs root vs ->
  exists ds, load (fuel_for fs) fs root = LOk ds /\ Permutation ds (flat_map (file_directives fs) vs).
Proof.
  intros H. destruct (visits_load root vs H) as (ds & Hl). exists ds. split; [exact Hl|].
  destruct (load_layout _ _ _ _ Hl) as (vs' & Hv' & Hp). now rewrite (visits_det _ _ H _ Hv').
Qed.

End Visits.
