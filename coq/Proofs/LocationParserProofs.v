(* Every error of a chain that the parser returns ENDS AT A RUNE of the text (or at its end):
   the scanner only ever stands at offsets that Go's walk over the runes of the text reaches
   (Advance moves by the width of the decoded rune, Backtrack returns to an earlier offset), and
   every error range ends at a scanner offset.  Hence the position that Range.Location()
   renders for an error denotes exactly the byte the error points at
   ([parse_text_errs_roundtrip], with LocationProofs.location_roundtrip).

   The proof is compositional over the monadic structure of Model/Parser.v: [gpost Q r] says
   of a result r that an Ok state is in [BInv] (ScannerProofs.Inv and "the offset is a
   boundary"), that the state of an Err stands at a boundary and every error of its chain ends
   at one; a lemma per combinator (bind, annot, ifM, ret, ...), per scanner primitive and per
   parser function.  Fuel exhaustion is excluded elsewhere (C07_fuel) and is [True] here.   *)
From Coq Require Import ZArith List Bool Lia ZifyBool.
From Knut Require Import Model.Bytes Model.Utf8 Model.Scanner Model.Parser Spec.SyntaxSpec
  Spec.LocationSpec Proofs.ScannerProofs Proofs.ParserProofs Proofs.LocationProofs.
Import ListNotations.
Open Scope bool_scope.
Open Scope Z_scope.

Section WithEnv.
Variable E : env.
Hypothesis Hlen : e_len E = Z.of_nat (length (e_text E)).
Hypothesis Hfuel : (length (e_text E) < e_fuel E)%nat.
Hypothesis Hdec : decoder_ok (e_decode E).

Notation t := (e_text E).
Notation len := (e_len E).
Notation dec := (e_decode E).
Notation Inv := (Inv E).
Local Notation inv_facts := (ScannerProofs.inv_facts E Hlen Hfuel Hdec).

(* o is the start of a rune of Go's walk over the text, or its end *)
Definition bd (o : Z) : Prop := In o (boundaries (runes_with dec t) 0).
Definition BInv (s : state) : Prop := Inv s /\ bd (off s).
Definition eb (x : err) : Prop := bd (er_end x).

Definition gpost {A} (Q : A -> state -> Prop) (r : res A) : Prop :=
  match r with
  | Ok a s' => BInv s' /\ Q a s'
  | Err e s' => bd (off s') /\ Forall eb e
  | OutOfFuel => True
  end.

Definition TT {A} : A -> state -> Prop := fun _ _ => True.
(* a returned range ends at the scanner's offset *)
Definition ends_here : range -> state -> Prop := fun r s => r_end r = off s.

Lemma bd_zero : bd 0.
Proof. unfold bd. apply boundaries_head. Qed.

Lemma gpost_weaken {A} (Q Q' : A -> state -> Prop) r :
  gpost Q r -> (forall a s, Q a s -> Q' a s) -> gpost Q' r.
Proof. destruct r; simpl; intuition. Qed.

Lemma gpost_tt {A} (Q : A -> state -> Prop) r : gpost Q r -> gpost TT r.
Proof. intros H. eapply gpost_weaken; [exact H|]. intros; exact I. Qed.

Lemma gpost_bind {A B} (m : M A) (f : A -> M B) s (Q1 : A -> state -> Prop) (Q : B -> state -> Prop) :
  gpost Q1 (m s) -> (forall a s1, BInv s1 -> Q1 a s1 -> gpost Q (f a s1)) -> gpost Q (bind m f s).
Proof.
  intros Hm Hf. unfold bind. destruct (m s) as [a s1|e s1|]; simpl in Hm; [|exact Hm|exact I].
  destruct Hm as (HI & Hq). now apply Hf.
Qed.

Lemma gpost_annot {A} sc (m : M A) s (Q : A -> state -> Prop) : gpost Q (m s) -> gpost Q (annot sc m s).
Proof.
  intros Hm. unfold annot. destruct (m s) as [a s1|e s1|]; simpl in Hm; [exact Hm| |exact I].
  destruct Hm as (Hb & He). simpl. split; [assumption|]. unfold annotate. constructor; [exact Hb|assumption].
Qed.

Lemma gpost_ifM {A} c (a b : M A) s (Q : A -> state -> Prop) :
  gpost Q (a s) -> gpost Q (b s) -> gpost Q (ifM c a b s).
Proof. intros Ha Hb. unfold ifM. now destruct (c s). Qed.

Lemma gpost_ret {A} (a : A) s : BInv s -> gpost TT (ret a s).
Proof. intros H. simpl. split; [assumption|exact I]. Qed.

Lemma gpost_ret_with {A} sc (f : range -> A) s : BInv s -> gpost TT (ret_with sc f s).
Proof. intros H. simpl. split; [assumption|exact I]. Qed.

Lemma gpost_replace_err {A} (m : M A) s (Q : A -> state -> Prop) : gpost Q (m s) -> gpost Q (replace_err m s).
Proof.
  intros Hm. unfold replace_err. destruct (m s) as [a s1|e s1|]; simpl in Hm; [exact Hm| |exact I].
  simpl. split; [tauto|]. constructor; [exact bd_zero|constructor].
Qed.

Lemma gpost_err1 {A} (Q : A -> state -> Prop) k a s : BInv s -> gpost Q (Err [mkErr k a (off s)] s).
Proof. intros (_ & Hb). simpl. split; [assumption|]. constructor; [exact Hb|constructor]. Qed.

Lemma advance_shape s :
  match advance E s with
  | Ok _ s' => off s' = off s + clen s
  | Err e s' => off s' = off s + clen s /\ Forall (fun x => er_end x = off s + clen s) e
  | OutOfFuel => False
  end.
Proof.
  unfold advance. destruct ((off s + clen s =? len) && negb (cur s =? eof)); [reflexivity|].
  destruct (dec (skipn (Z.to_nat (clen s)) (rest s))) as [c w].
  destruct (c =? rune_error); [|reflexivity].
  destruct (w =? 0); [split; [reflexivity|repeat constructor]|].
  destruct (w =? 1); [split; [reflexivity|repeat constructor]|reflexivity].
Qed.

Lemma bd_next s : BInv s -> bd (off s + clen s).
Proof using All.
  intros (HI & Hb). pose proof (inv_facts s HI) as (H0 & _ & _ & Heof & Hne).
  destruct (Z.eq_dec (cur s) eof) as [Hc|Hc].
  - destruct (Heof Hc) as (Hw & _). now rewrite Hw, Z.add_0_r.
  - destruct (Hne Hc) as (_ & _ & Ho & Hd). destruct HI as (_ & Hrest & _).
    apply (boundary_step dec Hdec t (off s) (cur s) (clen s)); [exact Hb|unfold zlen; lia|].
    now rewrite <- Hrest.
Qed.

Lemma g_advance s : BInv s -> gpost TT (advance E s).
Proof using All.
  intros H. pose proof (bd_next s H) as Hn. destruct H as (HI & Hb).
  pose proof (advance_spec E Hlen Hfuel Hdec s HI) as Ha. pose proof (advance_shape s) as Hs.
  destruct (advance E s) as [[] s1|e s1|]; cbn [ScannerProofs.post] in Ha; simpl.
  - split; [|exact I]. split; [tauto|]. now rewrite Hs.
  - destruct Hs as (Ho & He). split; [now rewrite Ho|].
    eapply Forall_impl; [|exact He]. intros x Hx. unfold eb. now rewrite Hx.
  - exact I.
Qed.

(* the scanner's loops step with Advance; their own error ends where Advance stopped *)
Lemma g_advance_then {A} (Q : A -> state -> Prop) k start (f : state -> res A) s : BInv s ->
  (forall s1, BInv s1 -> gpost Q (f s1)) ->
  gpost Q match advance E s with
          | Ok _ s1 => f s1
          | Err e s1 => Err (mkErr k start (off s1) :: e) s1
          | OutOfFuel => OutOfFuel
          end.
Proof using All.
  intros H Hf. pose proof (g_advance s H) as Ha. destruct (advance E s) as [[] s1|e s1|]; simpl in Ha.
  - apply Hf. tauto.
  - simpl. split; [tauto|]. constructor; [exact (proj1 Ha)|tauto].
  - exact I.
Qed.

Lemma g_read_while_loop p start : forall n s, BInv s -> gpost ends_here (read_while_loop E p start n s).
Proof using All.
  induction n as [|n IH]; intros s H; [exact I|]. cbn [read_while_loop].
  destruct (p (cur s) && negb (cur s =? eof)).
  - apply g_advance_then; [assumption|]. intros s1 H1. now apply IH.
  - simpl. split; [assumption|reflexivity].
Qed.

Lemma g_read_while p s : BInv s -> gpost ends_here (read_while E p s).
Proof using All. intros H. unfold read_while. now apply g_read_while_loop. Qed.

Lemma g_read_while1 p s : BInv s -> gpost ends_here (read_while1 E p s).
Proof using All.
  intros H. unfold read_while1. destruct (cur s =? eof); [now apply gpost_err1|].
  destruct (negb (p (cur s))); [now apply gpost_err1|]. now apply g_read_while_loop.
Qed.

Lemma g_read_character_with p s : BInv s -> gpost ends_here (read_character_with E p s).
Proof using All.
  intros H. unfold read_character_with. destruct (cur s =? eof); [now apply gpost_err1|].
  destruct (negb (p (cur s))); [now apply gpost_err1|].
  apply g_advance_then; [assumption|]. intros s1 H1. simpl. split; [assumption|reflexivity].
Qed.

Lemma g_read_character c s : BInv s -> gpost ends_here (read_character E c s).
Proof using All. intros H. unfold read_character. now apply g_read_character_with. Qed.

Lemma g_read_string_loop start : forall cs s, BInv s -> gpost ends_here (read_string_loop E cs start s).
Proof using All.
  induction cs as [|ch cs IH]; intros s H; cbn [read_string_loop].
  - simpl. split; [assumption|reflexivity].
  - destruct (negb (ch =? cur s)); [now apply gpost_err1|].
    apply g_advance_then; [assumption|]. intros s1 H1. now apply IH.
Qed.

Lemma g_read_string cs s : BInv s -> gpost ends_here (read_string E cs s).
Proof using All. intros H. unfold read_string. now apply g_read_string_loop. Qed.

(* ReadAlternative backtracks to the state it started from *)
Lemma g_read_alternative_loop s0 : BInv s0 -> cur s0 <> eof ->
  forall ss s, BInv s -> gpost ends_here (read_alternative_loop E ss (off s0) s).
Proof using All.
  intros H0 Hc. induction ss as [|x ss IH]; intros s H; cbn [read_alternative_loop].
  - now apply gpost_err1.
  - pose proof (g_read_string x s H) as Hr. destruct (read_string E x s) as [r s1|e s1|].
    + exact Hr.
    + destruct H0 as (HI0 & Hb0). rewrite (backtrack_id E Hlen Hfuel Hdec s0 HI0 Hc). apply IH. now split.
    + exact I.
Qed.

Lemma g_read_alternative ss s : BInv s -> gpost ends_here (read_alternative E ss s).
Proof using All.
  intros H. unfold read_alternative. destruct (Z.eqb_spec (cur s) eof) as [Hc|Hc]; [now apply gpost_err1|].
  now apply (g_read_alternative_loop s H Hc).
Qed.

Local Hint Resolve g_read_while g_read_while1 g_read_character g_read_character_with g_read_string
  g_read_alternative : gdb.

(* One walk over the monadic structure of a parser function: at a node the lemma of its
   combinator, at a leaf the lemma of the function called there, from the hint database gdb --
   as it is stated where the result of the leaf is still open, weakened to TT otherwise. *)
Ltac gsolve :=
  repeat (cbv zeta;
    match goal with
    | |- gpost _ OutOfFuel => exact I
    | |- gpost _ (out_of_fuel _) => exact I
    | |- gpost _ (bind _ _ _) => eapply gpost_bind; [|intros ? ? ? _]
    | |- gpost _ (annot _ _ _) => apply gpost_annot
    | |- gpost _ (ifM _ _ _ _) => apply gpost_ifM
    | |- gpost _ (replace_err _ _) => apply gpost_replace_err
    | |- gpost _ (ret _ _) => apply gpost_ret; assumption
    | |- gpost _ (ret_with _ _ _) => apply gpost_ret_with; assumption
    | |- gpost _ ((if ?c then _ else _) _) => destruct c
    | |- gpost ?Q _ => first [ is_evar Q; solve [eauto with gdb] | eapply gpost_tt; solve [eauto with gdb] ]
    end).

Lemma g_read_comment s : BInv s -> gpost TT (read_comment E s).
Proof using All. intros H. unfold read_comment. gsolve. Qed.

Lemma g_read_whitespace1 s : BInv s -> gpost TT (read_whitespace1 E s).
Proof using All.
  intros H. unfold read_whitespace1. destruct (_ && _); [now apply gpost_err1|]. gsolve.
Qed.

Lemma g_read_rest s : BInv s -> gpost TT (read_rest_of_whitespace_line E s).
Proof using All. intros H. unfold read_rest_of_whitespace_line. gsolve. Qed.

Local Hint Resolve g_read_comment g_read_whitespace1 g_read_rest : gdb.

Lemma g_parse_commodity s : BInv s -> gpost TT (parse_commodity E s).
Proof using All. intros H. unfold parse_commodity. gsolve. Qed.

Lemma g_parse_decimal s : BInv s -> gpost TT (parse_decimal E s).
Proof using All. intros H. unfold parse_decimal. gsolve. Qed.

Lemma g_account_loop sc : forall n s, BInv s -> gpost TT (account_loop E sc n s).
Proof using All. induction n as [|n IH]; intros s H; cbn [account_loop]; gsolve; try (now apply IH). Qed.

Local Hint Resolve g_parse_commodity g_parse_decimal g_account_loop : gdb.

Lemma g_parse_account s : BInv s -> gpost TT (parse_account E s).
Proof using All. intros H. unfold parse_account. gsolve. Qed.

Lemma g_repeat_m {A} (m : M A) : (forall s, BInv s -> gpost TT (m s)) ->
  forall k s, BInv s -> gpost TT (repeat_m k m s).
Proof using All.
  intros Hm. induction k as [|k IH]; intros s H; cbn [repeat_m]; [now apply gpost_ret|].
  eapply gpost_bind; [now apply Hm|]. intros ? s1 H1 _. now apply IH.
Qed.

Lemma g_parse_date s : BInv s -> gpost TT (parse_date E s).
Proof using All.
  intros H. unfold parse_date. cbv zeta. apply gpost_annot.
  assert (Hd : forall s, BInv s -> gpost TT (read_character_with E (e_digit E) s)).
  { intros s0 H0. eapply gpost_tt. now apply g_read_character_with. }
  eapply gpost_bind; [apply g_repeat_m; assumption|]. intros ? s1 H1 _.
  eapply gpost_bind; [|intros ? s2 H2 _; now apply gpost_ret_with].
  apply g_repeat_m; [|assumption]. intros s0 H0.
  eapply gpost_bind; [eapply gpost_tt; now apply g_read_character|]. intros ? s3 H3 _.
  now apply g_repeat_m.
Qed.

Lemma g_parse_quoted_string s : BInv s -> gpost TT (parse_quoted_string E s).
Proof using All. intros H. unfold parse_quoted_string. gsolve. Qed.

Lemma g_parse_interval s : BInv s -> gpost TT (parse_interval E s).
Proof using All. intros H. unfold parse_interval. gsolve. Qed.

Local Hint Resolve g_parse_account g_parse_date g_parse_quoted_string g_parse_interval : gdb.

Lemma g_parse_booking s : BInv s -> gpost TT (parse_booking E s).
Proof using All. intros H. unfold parse_booking. gsolve. Qed.

Lemma g_parse_balance s : BInv s -> gpost TT (parse_balance E s).
Proof using All. intros H. unfold parse_balance. gsolve. Qed.

Lemma g_performance_loop : forall n s, BInv s -> gpost TT (performance_loop E n s).
Proof using All. induction n as [|n IH]; intros s H; cbn [performance_loop]; gsolve; try (now apply IH). Qed.

Local Hint Resolve g_parse_booking g_parse_balance g_performance_loop : gdb.

Lemma g_parse_performance s : BInv s -> gpost TT (parse_performance E s).
Proof using All. intros H. unfold parse_performance. gsolve. Qed.

Lemma g_parse_accrual s : BInv s -> gpost TT (parse_accrual E s).
Proof using All. intros H. unfold parse_accrual. gsolve. Qed.

Local Hint Resolve g_parse_performance g_parse_accrual : gdb.

(* the range of a duplicate annotation is the keyword just read: it ends at the offset *)
Lemma g_addons_loop sc : forall n ad s, BInv s -> gpost TT (addons_loop E sc n ad s).
Proof using All.
  induction n as [|n IH]; intros ad s H; cbn [addons_loop]; [exact I|].
  eapply gpost_bind; [now apply g_read_alternative|]. intros r s1 H1 Hr. unfold ends_here in Hr.
  assert (Hdup : forall (Q : addons -> state -> Prop), gpost Q (Err [mkErr KDup (r_start r) (r_end r)] s1)).
  { intros Q. rewrite Hr. now apply gpost_err1. }
  eapply gpost_bind with (Q1 := TT).
  { cbv zeta.
    destruct (str_eqb (extract E r) kw_performance).
    - destruct (negb (range_empty (pf_range (ad_perf ad)))); [apply Hdup|]. gsolve.
    - destruct (str_eqb (extract E r) kw_accrue).
      + destruct (negb (range_empty (ac_range (ad_accrual ad)))); [apply Hdup|]. gsolve.
      + simpl. split; [assumption|exact I]. }
  intros ad' s2 H2 _. gsolve; try (now apply IH).
Qed.

Local Hint Resolve g_addons_loop : gdb.

Lemma g_parse_addons s : BInv s -> gpost TT (parse_addons E s).
Proof using All. intros H. unfold parse_addons. gsolve. Qed.

Lemma g_parse_include s : BInv s -> gpost TT (parse_include E s).
Proof using All. intros H. unfold parse_include. gsolve. Qed.

Lemma g_parse_open sc date s : BInv s -> gpost TT (parse_open E sc date s).
Proof using All. intros H. unfold parse_open. gsolve. Qed.

Lemma g_parse_close sc date s : BInv s -> gpost TT (parse_close E sc date s).
Proof using All. intros H. unfold parse_close. gsolve. Qed.

Lemma g_balances_loop : forall n s, BInv s -> gpost TT (balances_loop E n s).
Proof using All. induction n as [|n IH]; intros s H; cbn [balances_loop]; gsolve; try (now apply IH). Qed.

Lemma g_bookings_loop : forall n s, BInv s -> gpost TT (bookings_loop E n s).
Proof using All. induction n as [|n IH]; intros s H; cbn [bookings_loop]; gsolve; try (now apply IH). Qed.

Local Hint Resolve g_parse_addons g_parse_include g_parse_open g_parse_close g_balances_loop g_bookings_loop : gdb.

Lemma g_parse_assertion sc date s : BInv s -> gpost TT (parse_assertion E sc date s).
Proof using All. intros H. unfold parse_assertion. gsolve. Qed.

Lemma g_parse_price sc date s : BInv s -> gpost TT (parse_price E sc date s).
Proof using All. intros H. unfold parse_price. gsolve. Qed.

Lemma g_parse_transaction sc date ad s : BInv s -> gpost TT (parse_transaction E sc date ad s).
Proof using All. intros H. unfold parse_transaction. gsolve. Qed.

Local Hint Resolve g_parse_assertion g_parse_price g_parse_transaction : gdb.

Lemma g_parse_directive s : BInv s -> gpost TT (parse_directive E s).
Proof using All. intros H. unfold parse_directive. gsolve. Qed.

Local Hint Resolve g_parse_directive : gdb.

Lemma g_file_loop : forall n s, BInv s -> gpost TT (file_loop E n s).
Proof using All. induction n as [|n IH]; intros s H; cbn [file_loop]; gsolve; try (now apply IH). Qed.

Local Hint Resolve g_file_loop : gdb.

Lemma g_parse_file s : BInv s -> gpost TT (parse_file E s).
Proof using All. intros H. unfold parse_file. gsolve. Qed.

(* syntax.ParseFile: New; Advance; ParseFile *)
Theorem parse_env_errs_at_runes e : parse_env E = ParseErr e -> Forall eb e.
Proof using All.
  unfold parse_env. pose proof (advance_init E Hlen Hfuel Hdec) as Ha.
  pose proof (advance_shape (init_state E)) as Hs. cbn [init_state off clen] in Hs.
  destruct (advance E (init_state E)) as [[] s|e0 s|]; cbn [ScannerProofs.post] in Ha.
  - assert (HB : BInv s). { split; [tauto|]. rewrite Hs. exact bd_zero. }
    pose proof (g_parse_file s HB) as Hf.
    destruct (parse_file E s) as [f s'|e1 s'|]; simpl in Hf; intros Heq; inversion Heq; subst. tauto.
  - intros Heq; inversion Heq; subst. destruct Hs as (_ & He).
    eapply Forall_impl; [|exact He]. intros x Hx. unfold eb. rewrite Hx. exact bd_zero.
  - discriminate.
Qed.

End WithEnv.

Lemma parse_text_errs_at_runes letter digit t e :
  parse_text letter digit t = ParseErr e -> forallb (fun x => rune_boundary_b t (er_end x)) e = true.
Proof.
  unfold parse_text. intros H.
  pose proof (parse_env_errs_at_runes (mk_env Utf8M.decode letter digit t) eq_refl) as HE.
  cbn [mk_env e_text e_fuel] in HE. specialize (HE ltac:(lia) utf8_decoder_ok e H).
  apply forallb_forall. intros x Hx. rewrite Forall_forall in HE. specialize (HE x Hx).
  unfold eb, bd in HE. cbn [mk_env e_text e_decode] in HE.
  now apply (boundary_in Utf8M.decode).
Qed.

(* the position rendered for every error of the chain denotes the byte the error points at *)
Lemma parse_text_errs_roundtrip letter digit t e :
  parse_text letter digit t = ParseErr e -> errs_roundtrip_b t e = true.
Proof. intros H. apply errs_roundtrip_of_boundaries. exact (parse_text_errs_at_runes letter digit t e H). Qed.

Lemma parse_text_errs_verdict letter digit t e :
  parse_text letter digit t = ParseErr e ->
  forallb (fun x => observed_loc_ok_b t (er_end x) (location t (er_end x))) e = true.
Proof.
  intros H. pose proof (parse_text_errs_at_runes letter digit t e H) as Hb.
  rewrite forallb_forall in *. intros x Hx. apply observed_loc_ok_location. now apply Hb.
Qed.
