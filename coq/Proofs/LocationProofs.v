(* Proofs about Spec/LocationSpec.v: the position that directives.Range.Location() renders.

   On lists of runes, without a decoder: the loop of Location() stops after a prefix
   [flat done ++ cur] of the runes -- [done] the complete lines with their newline runes, [cur]
   the runes of the current line -- and returns (1 + |done|, 1 + |cur|); such a position lies
   inside the text ([rloc_inside_prefix]) and denotes the byte offset of the end of the prefix
   ([roffset_prefix]); if the offset asked for is a boundary of the walk the loop stops exactly
   there ([loc_loop_prefix], last conjunct).
   With a decoder ([decoder_ok] of Proofs/ScannerProofs.v): a newline rune is one byte;
   the widths of the runes of t add up to |t|; boundaries lie in [0,|t|].
   Last, the theorems stated in Properties/C07.v.                                              *)
From Coq Require Import ZArith List Bool Lia ZifyBool.
From Knut Require Import Proofs.ListFacts Model.Bytes Model.Utf8 Model.Scanner Model.Parser
  Spec.SyntaxSpec Spec.LocationSpec Proofs.ScannerProofs Proofs.ParserProofs.
Import ListNotations.
Open Scope bool_scope.
Open Scope Z_scope.

Definition nlfree (l : list rune_w) : Prop := Forall (fun r => is_nl r = false) l.
(* a newline rune is one byte wide *)
Definition nl1 (r : rune_w) : Prop := is_nl r = true -> snd r = 1.

(* a complete line: its runes and its newline rune *)
Definition cline := (list rune_w * rune_w)%type.
Definition cline_ok (p : cline) : Prop := nlfree (fst p) /\ is_nl (snd p) = true /\ snd (snd p) = 1.
Definition done_ok (done : list cline) : Prop := Forall cline_ok done.
Definition flat (done : list cline) : list rune_w := concat (map (fun p => fst p ++ [snd p]) done).

Lemma sumw_app a b : sumw (a ++ b) = sumw a + sumw b.
Proof. induction a as [|r a IH]; simpl; [reflexivity|]. rewrite IH. lia. Qed.

Lemma sumw_nonneg rs : Forall (fun r => 1 <= snd r) rs -> 0 <= sumw rs.
Proof. induction 1; simpl; lia. Qed.

Lemma flat_snoc done p : flat (done ++ [p]) = flat done ++ fst p ++ [snd p].
Proof. unfold flat. rewrite map_app, concat_app. simpl. now rewrite app_nil_r. Qed.

Lemma rlines_nonnil rs : exists x more, rlines rs = x :: more.
Proof.
  destruct rs as [|r rs]; simpl; [now exists [], []|].
  destruct (is_nl r); [now eexists; eexists|].
  destruct (rlines rs); now eexists; eexists.
Qed.

Lemma rlines_line l n rest : nlfree l -> is_nl n = true -> rlines (l ++ n :: rest) = l :: rlines rest.
Proof.
  intros Hl Hn. induction Hl as [|r l Hr Hl IH]; simpl; [now rewrite Hn|].
  now rewrite Hr, IH.
Qed.

Lemma rlines_flat done rest : done_ok done -> rlines (flat done ++ rest) = map fst done ++ rlines rest.
Proof.
  intros Hd. induction Hd as [|p done (Hp1 & Hp2 & _) Hd IH]; [reflexivity|].
  unfold flat in *. cbn [map concat]. rewrite <- !app_assoc. cbn [app].
  rewrite rlines_line by assumption. cbn [app]. now rewrite IH.
Qed.

Lemma rlines_head cur post : nlfree cur -> exists x more, rlines (cur ++ post) = (cur ++ x) :: more.
Proof.
  intros Hc. induction Hc as [|r cur Hr Hc IH]; [apply rlines_nonnil|].
  destruct IH as (x & more & IH). exists x, more. simpl. now rewrite Hr, IH.
Qed.

(* the lines of a text of which [flat done ++ cur] is a prefix *)
Lemma rlines_prefix done cur post : done_ok done -> nlfree cur ->
  exists x more, rlines (flat done ++ cur ++ post) = map fst done ++ (cur ++ x) :: more.
Proof.
  intros Hd Hc. destruct (rlines_head cur post Hc) as (x & more & H).
  exists x, more. now rewrite rlines_flat, H.
Qed.

Lemma loc_loop_prefix end_ : forall post done cur pos,
  Forall nl1 post -> done_ok done -> nlfree cur -> pos = sumw (flat done ++ cur) ->
  exists done' cur' post',
    flat done ++ cur ++ post = flat done' ++ cur' ++ post' /\ done_ok done' /\ nlfree cur' /\
    loc_loop post pos end_ (1 + Z.of_nat (length done)) (1 + Z.of_nat (length cur)) =
      (1 + Z.of_nat (length done'), 1 + Z.of_nat (length cur')) /\
    (In end_ (boundaries post pos) -> sumw (flat done' ++ cur') = end_).
Proof.
  induction post as [|r post IH]; intros done cur pos Hnl Hd Hc Hpos.
  - exists done, cur, []. repeat split; try assumption.
    simpl. intros [H|[]]. lia.
  - cbn [loc_loop]. destruct (Z.eqb_spec pos end_) as [He|He].
    + exists done, cur, (r :: post). repeat split; try assumption. intros _. lia.
    + inversion Hnl as [|r' post' Hr Hnl']; subst r' post'.
      destruct (is_nl r) eqn:Hn.
      * (* a newline: the current line is complete *)
        destruct (IH (done ++ [(cur, r)]) [] (pos + snd r) Hnl') as (done' & cur' & post' & Heq & Hd' & Hc' & Hl & Hb).
        { apply Forall_app. split; [assumption|]. constructor; [|constructor].
          unfold cline_ok. cbn [fst snd]. auto. }
        { constructor. }
        { rewrite flat_snoc, app_nil_r. cbn [fst snd]. rewrite Hpos, !sumw_app. simpl. lia. }
        exists done', cur', post'. repeat split; try assumption.
        -- rewrite <- Heq, flat_snoc. cbn [fst snd]. rewrite <- !app_assoc. reflexivity.
        -- rewrite <- Hl. rewrite app_length. cbn [length]. f_equal; lia.
        -- intros Hin. apply Hb. cbn [boundaries] in Hin. destruct Hin as [Hin|Hin]; [lia|exact Hin].
      * destruct (IH done (cur ++ [r]) (pos + snd r) Hnl' Hd) as (done' & cur' & post' & Heq & Hd' & Hc' & Hl & Hb).
        { apply Forall_app. split; [assumption|]. constructor; [assumption|constructor]. }
        { rewrite Hpos, !app_assoc, !sumw_app. simpl. lia. }
        exists done', cur', post'. repeat split; try assumption.
        -- rewrite <- Heq. rewrite <- !app_assoc. reflexivity.
        -- rewrite <- Hl. rewrite app_length. cbn [length]. f_equal; lia.
        -- intros Hin. apply Hb. cbn [boundaries] in Hin. destruct Hin as [Hin|Hin]; [lia|exact Hin].
Qed.

Lemma to_nat_succ n : Z.to_nat (1 + Z.of_nat n - 1) = n.
Proof. lia. Qed.

Lemma nth_error_mid {A} (a : list A) x b : nth_error (a ++ x :: b) (length a) = Some x.
Proof. rewrite nth_error_app2 by lia. now rewrite Nat.sub_diag. Qed.

Lemma rloc_inside_prefix done cur post : done_ok done -> nlfree cur ->
  rloc_inside_b (flat done ++ cur ++ post) (1 + Z.of_nat (length done), 1 + Z.of_nat (length cur)) = true.
Proof.
  intros Hd Hc. destruct (rlines_prefix done cur post Hd Hc) as (x & more & H).
  unfold rloc_inside_b. rewrite H, to_nat_succ.
  replace (length done) with (length (map fst done)) at 2 by apply map_length.
  rewrite nth_error_mid, app_length. lia.
Qed.

Lemma sum_done done : done_ok done ->
  fold_right (fun l a => sumw l + 1 + a) 0 (map fst done) = sumw (flat done).
Proof.
  intros Hd. induction Hd as [|p done (_ & _ & Hw) Hd IH]; [reflexivity|].
  unfold flat in *. cbn [map concat fold_right]. rewrite IH, !sumw_app. simpl. lia.
Qed.

Lemma roffset_prefix done cur post : done_ok done -> nlfree cur ->
  roffset_of (flat done ++ cur ++ post) (1 + Z.of_nat (length done), 1 + Z.of_nat (length cur)) =
  sumw (flat done ++ cur).
Proof.
  intros Hd Hc. destruct (rlines_prefix done cur post Hd Hc) as (x & more & H).
  unfold roffset_of. rewrite H, !to_nat_succ.
  replace (length done) with (length (map fst done)) by apply map_length.
  rewrite firstn_app, Nat.sub_diag, firstn_all, firstn_O, app_nil_r.
  rewrite app_nth2 by lia. rewrite Nat.sub_diag. cbn [nth].
  rewrite firstn_app, Nat.sub_diag, firstn_all, firstn_O, app_nil_r.
  rewrite sum_done by assumption. now rewrite sumw_app.
Qed.

(* Location() on any list of runes whose newlines are one byte wide *)
Lemma rlocation_prefix rs end_ : Forall nl1 rs ->
  exists done cur post, rs = flat done ++ cur ++ post /\ done_ok done /\ nlfree cur /\
    loc_loop rs 0 end_ 1 1 = (1 + Z.of_nat (length done), 1 + Z.of_nat (length cur)) /\
    (In end_ (boundaries rs 0) -> sumw (flat done ++ cur) = end_).
Proof.
  intros Hnl.
  destruct (loc_loop_prefix end_ rs [] [] 0 Hnl) as (done & cur & post & Heq & Hd & Hc & Hl & Hb);
    try constructor.
  exists done, cur, post. repeat split; assumption.
Qed.

Lemma rlocation_inside rs end_ : Forall nl1 rs -> rloc_inside_b rs (loc_loop rs 0 end_ 1 1) = true.
Proof.
  intros Hnl. destruct (rlocation_prefix rs end_ Hnl) as (done & cur & post & Heq & Hd & Hc & Hl & _).
  rewrite Hl. rewrite Heq at 1. now apply rloc_inside_prefix.
Qed.

Lemma rlocation_roundtrip rs end_ : Forall nl1 rs -> In end_ (boundaries rs 0) ->
  roffset_of rs (loc_loop rs 0 end_ 1 1) = end_.
Proof.
  intros Hnl Hin. destruct (rlocation_prefix rs end_ Hnl) as (done & cur & post & Heq & Hd & Hc & Hl & Hb).
  rewrite Hl. rewrite Heq at 1. rewrite roffset_prefix by assumption. now apply Hb.
Qed.

Lemma removelast_cons {A} (a : A) l : l <> [] -> removelast (a :: l) = a :: removelast l.
Proof. destruct l; [congruence|reflexivity]. Qed.

Lemma boundaries_nonnil rs pos : boundaries rs pos <> [].
Proof. destruct rs; discriminate. Qed.

(* when the offset is no boundary the comparison never succeeds: the loop runs to the end, as
   it does for the offset of the end of the text *)
Lemma loc_loop_miss e1 e2 : forall rs pos line col,
  ~ In e1 (removelast (boundaries rs pos)) -> ~ In e2 (removelast (boundaries rs pos)) ->
  loc_loop rs pos e1 line col = loc_loop rs pos e2 line col.
Proof.
  induction rs as [|r rs IH]; intros pos line col H1 H2; [reflexivity|].
  cbn [loc_loop]. cbn [boundaries] in H1, H2.
  rewrite removelast_cons in H1, H2 by apply boundaries_nonnil.
  destruct (Z.eqb_spec pos e1) as [He|He]; [exfalso; apply H1; now left|].
  destruct (Z.eqb_spec pos e2) as [He2|He2]; [exfalso; apply H2; now left|].
  destruct (is_nl r); apply IH; intros Hin; (apply H1 + apply H2); now right.
Qed.

Lemma boundaries_ge rs : Forall (fun r => 1 <= snd r) rs -> forall pos x, In x (boundaries rs pos) -> pos <= x.
Proof.
  induction 1 as [|r rs Hr Hrs IH]; intros pos x Hin; simpl in Hin.
  - destruct Hin as [Hin|[]]. lia.
  - destruct Hin as [Hin|Hin]; [lia|]. apply IH in Hin. lia.
Qed.

Lemma boundaries_last rs : forall pos, last (boundaries rs pos) 0 = pos + sumw rs.
Proof.
  induction rs as [|r rs IH]; intros pos; [simpl; lia|].
  cbn [boundaries]. pose proof (boundaries_nonnil rs (pos + snd r)) as Hb.
  destruct (boundaries rs (pos + snd r)) as [|y ys] eqn:Hy; [congruence|].
  change (last (pos :: y :: ys) 0) with (last (y :: ys) 0). rewrite <- Hy, IH. simpl. lia.
Qed.

Lemma boundaries_total_in rs pos : In (pos + sumw rs) (boundaries rs pos).
Proof.
  revert pos. induction rs as [|r rs IH]; intros pos; simpl; [left; lia|]. right.
  replace (pos + (snd r + sumw rs)) with (pos + snd r + sumw rs) by lia. apply IH.
Qed.

Lemma boundaries_le rs : Forall (fun r => 1 <= snd r) rs -> forall pos x,
  In x (boundaries rs pos) -> x <= pos + sumw rs.
Proof.
  induction 1 as [|r rs Hr Hrs IH]; intros pos x Hin; simpl in Hin.
  - destruct Hin as [Hin|[]]. simpl. lia.
  - pose proof (sumw_nonneg rs Hrs). destruct Hin as [Hin|Hin]; [simpl; lia|].
    apply IH in Hin. simpl. lia.
Qed.

(* with positive widths the end of the text is not among the earlier boundaries *)
Lemma total_not_earlier rs : Forall (fun r => 1 <= snd r) rs -> forall pos,
  ~ In (pos + sumw rs) (removelast (boundaries rs pos)).
Proof.
  induction 1 as [|r rs Hr Hrs IH]; intros pos; [simpl; tauto|].
  cbn [boundaries]. rewrite removelast_cons by apply boundaries_nonnil.
  intros [Hin|Hin].
  - pose proof (sumw_nonneg rs Hrs). simpl in Hin. lia.
  - apply (IH (pos + snd r)). simpl in Hin. replace (pos + snd r + sumw rs) with (pos + (snd r + sumw rs)) by lia.
    exact Hin.
Qed.

Lemma removelast_in {A} (l : list A) x : In x (removelast l) -> In x l.
Proof.
  induction l as [|a l IH]; [simpl; tauto|]. destruct l as [|b l]; [simpl; tauto|].
  cbn [removelast]. intros [H|H]; [now left|right; now apply IH].
Qed.

Section WithDecoder.
Variable dec : str -> Z * Z.
Hypothesis Hdec : decoder_ok dec.

Lemma dec_newline b l c w : dec (b :: l) = (c, w) -> c = 10 -> w = 1.
Proof using Hdec.
  intros H Hc. destruct (dec_cases dec (b :: l) c w Hdec) as [(_ & _ & _ & _ & _ & Hw)|(Hr & _)];
    [discriminate|assumption|assumption|lia].
Qed.

Lemma runes_newline_width : forall s skip, Forall nl1 (runes_go dec s skip).
Proof using Hdec.
  induction s as [|b s IH]; intros skip; [constructor|].
  destruct skip as [|k]; cbn [runes_go]; [|apply IH].
  constructor; [|apply IH].
  destruct (dec (b :: s)) as [c w] eqn:Hd. unfold nl1, is_nl. cbn [fst snd]. intros Hc.
  apply (dec_newline b s c w Hd). lia.
Qed.

Lemma runes_width_pos : forall s skip, Forall (fun r => 1 <= snd r) (runes_go dec s skip).
Proof using Hdec.
  induction s as [|b s IH]; intros skip; [constructor|].
  destruct skip as [|k]; cbn [runes_go]; [|apply IH].
  constructor; [|apply IH].
  destruct (dec (b :: s)) as [c w] eqn:Hd. cbn [snd].
  assert (Hne : b :: s <> []) by discriminate. pose proof (dec_width _ Hdec _ _ _ Hne Hd). lia.
Qed.

Lemma runes_sumw : forall s skip, (skip <= length s)%nat ->
  sumw (runes_go dec s skip) = Z.of_nat (length s) - Z.of_nat skip.
Proof using Hdec.
  induction s as [|b s IH]; intros skip Hs; [simpl in *; lia|].
  destruct skip as [|k]; cbn [runes_go].
  - destruct (dec (b :: s)) as [c w] eqn:Hd. cbn [sumw fold_right snd].
    assert (Hne : b :: s <> []) by discriminate. pose proof (dec_width _ Hdec _ _ _ Hne Hd) as Hw.
    cbn [length] in Hw. fold (sumw (runes_go dec s (Z.to_nat (w - 1)))). rewrite IH by lia.
    cbn [length]. lia.
  - cbn [length] in *. rewrite IH by lia. lia.
Qed.

Lemma runes_total t : sumw (runes_with dec t) = zlen t.
Proof using Hdec. unfold runes_with, zlen. rewrite runes_sumw by lia. lia. Qed.

Lemma boundary_in t o : rune_boundary_with dec t o = true <-> In o (boundaries (runes_with dec t) 0).
Proof.
  unfold rune_boundary_with. rewrite existsb_exists. split.
  - intros (x & Hin & Hx). apply Z.eqb_eq in Hx. now subst.
  - intros Hin. exists o. split; [assumption|apply Z.eqb_refl].
Qed.

Lemma boundary_bounds t o : rune_boundary_with dec t o = true -> 0 <= o <= zlen t.
Proof using Hdec.
  intros H. apply boundary_in in H. split.
  - apply (boundaries_ge _ (runes_width_pos t 0%nat) 0 o H).
  - rewrite <- runes_total. apply (boundaries_le _ (runes_width_pos t 0%nat) 0 o H).
Qed.

Lemma boundary_zero t : rune_boundary_with dec t 0 = true.
Proof. apply boundary_in. destruct (runes_with dec t); simpl; auto. Qed.

Lemma boundary_end t : rune_boundary_with dec t (zlen t) = true.
Proof using Hdec.
  apply boundary_in. rewrite <- runes_total. apply (boundaries_total_in (runes_with dec t) 0).
Qed.

Lemma runes_go_skip : forall s k, (k <= length s)%nat -> runes_go dec s k = runes_go dec (skipn k s) 0.
Proof.
  induction s as [|b s IH]; intros k Hk.
  - simpl in Hk. assert (k = 0%nat) by lia. subst. reflexivity.
  - destruct k as [|k]; [reflexivity|]. cbn [runes_go skipn]. apply IH. simpl in Hk. lia.
Qed.

Lemma runes_unfold s c w : s <> [] -> dec s = (c, w) ->
  runes_with dec s = (c, w) :: runes_with dec (skipn (Z.to_nat w) s).
Proof using Hdec.
  intros Hne Hd. pose proof (dec_width _ Hdec _ _ _ Hne Hd) as Hw.
  destruct s as [|b s']; [congruence|]. unfold runes_with. cbn [runes_go]. rewrite Hd. cbn [snd]. f_equal.
  cbn [length] in Hw. rewrite runes_go_skip by lia.
  replace (Z.to_nat w) with (S (Z.to_nat (w - 1))) by lia. reflexivity.
Qed.

Lemma boundaries_head rs pos : In pos (boundaries rs pos).
Proof. destruct rs; simpl; auto. Qed.

(* from a boundary inside the text the next rune leads to a boundary: the scanner's Advance *)
Lemma boundary_step_gen : forall n s p o c w, (length s <= n)%nat ->
  In o (boundaries (runes_with dec s) p) -> o - p < Z.of_nat (length s) ->
  dec (skipn (Z.to_nat (o - p)) s) = (c, w) ->
  In (o + w) (boundaries (runes_with dec s) p).
Proof using Hdec.
  induction n as [|n IH]; intros s p o c w Hn Hin Hlt Hd.
  - destruct s; [|simpl in Hn; lia]. simpl in Hin. destruct Hin as [Hin|[]]. simpl in Hlt. lia.
  - destruct s as [|b s'] eqn:Hs; [simpl in Hin; destruct Hin as [Hin|[]]; simpl in Hlt; lia|].
    rewrite <- Hs in *. assert (Hne : s <> []) by (rewrite Hs; discriminate).
    destruct (dec s) as [c0 w0] eqn:Hd0.
    pose proof (dec_width _ Hdec _ _ _ Hne Hd0) as Hw0.
    rewrite (runes_unfold s c0 w0 Hne Hd0) in *. cbn [boundaries snd] in *.
    destruct Hin as [Hin|Hin].
    + subst o. replace (p - p) with 0 in Hd by lia. simpl in Hd. rewrite Hd0 in Hd. inversion Hd; subst.
      right. apply boundaries_head.
    + right.
      pose proof (boundaries_ge _ (runes_width_pos (skipn (Z.to_nat w0) s) 0%nat) _ _ Hin) as Hge.
      apply (IH (skipn (Z.to_nat w0) s) (p + w0) o c w).
      * rewrite skipn_length. lia.
      * exact Hin.
      * rewrite skipn_length. lia.
      * rewrite skipn_add. replace (Z.to_nat w0 + Z.to_nat (o - (p + w0)))%nat with (Z.to_nat (o - p)) by lia. exact Hd.
Qed.

Lemma boundary_step t o c w : In o (boundaries (runes_with dec t) 0) -> o < zlen t ->
  dec (skipn (Z.to_nat o) t) = (c, w) -> In (o + w) (boundaries (runes_with dec t) 0).
Proof using Hdec.
  intros Hin Hlt Hd. apply (boundary_step_gen (length t) t 0 o c w); try assumption; try lia.
  - unfold zlen in Hlt. lia.
  - now rewrite Z.sub_0_r.
Qed.

(* newlines: a rune is '\n' iff its bytes contain the byte 10 (then it is that byte) *)
Definition nlb (l : str) : nat := length (filter (fun b => b =? 10) l).
Definition nlr (rs : list rune_w) : nat := length (filter is_nl rs).

Lemma nlb_app a b : nlb (a ++ b) = (nlb a + nlb b)%nat.
Proof. unfold nlb. now rewrite filter_app, app_length. Qed.

Lemma nlr_app a b : nlr (a ++ b) = (nlr a + nlr b)%nat.
Proof. unfold nlr. now rewrite filter_app, app_length. Qed.

Lemma nlb_rune s c w : s <> [] -> dec s = (c, w) ->
  nlb (firstn (Z.to_nat w) s) = if c =? 10 then 1%nat else 0%nat.
Proof using Hdec.
  intros Hne Hd. unfold nlb.
  destruct (dec_cases dec s c w Hdec Hne Hd) as [(b & s' & -> & _ & -> & ->)|(Hr & Hh)].
  - change (Z.to_nat 1) with 1%nat. cbn [firstn filter]. now destruct (b =? 10).
  - destruct (Z.eqb_spec c 10); [lia|].
    rewrite filter_none; [reflexivity|]. intros x Hx. rewrite Forall_forall in Hh. specialize (Hh x Hx).
    unfold high in Hh. lia.
Qed.

(* the bytes of a prefix of the runes contain as many bytes 10 as the prefix has newline runes *)
Lemma nlb_prefix : forall pre s post, runes_with dec s = pre ++ post ->
  nlb (firstn (Z.to_nat (sumw pre)) s) = nlr pre.
Proof using Hdec.
  induction pre as [|r pre IH]; intros s post Hr; [reflexivity|].
  destruct s as [|b s'] eqn:Hs; [discriminate|]. rewrite <- Hs in *.
  assert (Hne : s <> []) by (rewrite Hs; discriminate).
  destruct (dec s) as [c w] eqn:Hd. pose proof (dec_width _ Hdec _ _ _ Hne Hd) as Hw.
  rewrite (runes_unfold s c w Hne Hd) in Hr. cbn [app] in Hr. inversion Hr as [[Hr0 Hr1]]. subst r.
  assert (Hp : 0 <= sumw pre).
  { pose proof (runes_width_pos (skipn (Z.to_nat w) s) 0%nat) as Hpos. fold (runes_with dec (skipn (Z.to_nat w) s)) in Hpos.
    rewrite Hr1 in Hpos. apply Forall_app in Hpos. now apply sumw_nonneg. }
  cbn [sumw fold_right snd]. fold (sumw pre).
  replace (Z.to_nat (w + sumw pre)) with (Z.to_nat w + Z.to_nat (sumw pre))%nat by lia.
  rewrite firstn_add, nlb_app, (IH _ _ Hr1), (nlb_rune s c w Hne Hd).
  unfold nlr. cbn [filter]. replace (is_nl (c, w)) with (c =? 10) by reflexivity. destruct (c =? 10); reflexivity.
Qed.

Lemma nlr_nlfree l : nlfree l -> nlr l = 0%nat.
Proof. intros H. unfold nlr. rewrite filter_none; [reflexivity|]. intros x Hx. unfold nlfree in H. rewrite Forall_forall in H. now apply H. Qed.

Lemma nlr_flat done : done_ok done -> nlr (flat done) = length done.
Proof.
  intros Hd. induction Hd as [|p done (Hp1 & Hp2 & _) Hd IH]; [reflexivity|].
  unfold flat in *. cbn [map concat]. rewrite !nlr_app, IH, (nlr_nlfree _ Hp1).
  unfold nlr. cbn [filter]. rewrite Hp2. simpl. lia.
Qed.

(* for EVERY offset -- inside the text or not, at a rune or not -- the rendered position exists *)
Theorem location_inside_with t off : loc_inside_with dec t (location_with dec t off) = true.
Proof using Hdec.
  unfold loc_inside_with, location_with. apply rlocation_inside. apply runes_newline_width.
Qed.

(* at a rune of the text (or at its end) the rendered position denotes exactly that byte *)
Theorem location_roundtrip_with t off : rune_boundary_with dec t off = true ->
  offset_of_with dec t (location_with dec t off) = off.
Proof using Hdec.
  intros H. unfold offset_of_with, location_with. apply rlocation_roundtrip.
  - apply runes_newline_width.
  - now apply boundary_in.
Qed.

(* the rendered line, in bytes: one more than the newline bytes in front of the offset *)
Theorem location_line_with t off : rune_boundary_with dec t off = true ->
  fst (location_with dec t off) = 1 + Z.of_nat (nlb (firstn (Z.to_nat off) t)).
Proof using Hdec.
  intros H. apply boundary_in in H. unfold location_with.
  destruct (rlocation_prefix (runes_with dec t) off (runes_newline_width t 0%nat)) as (done & cur & post & Heq & Hd & Hc & Hl & Hb).
  rewrite Hl. cbn [fst]. rewrite <- (Hb H). rewrite app_assoc in Heq.
  rewrite (nlb_prefix _ _ _ Heq), nlr_app, (nlr_flat _ Hd), (nlr_nlfree _ Hc). lia.
Qed.

(* anywhere else Go's loop never meets pos == End and returns the position of the end *)
Theorem location_off_rune_with t off : rune_boundary_with dec t off = false ->
  location_with dec t off = location_with dec t (zlen t).
Proof using Hdec.
  intros H. unfold location_with. apply loc_loop_miss.
  - intros Hin. apply removelast_in in Hin. apply boundary_in in Hin. congruence.
  - rewrite <- runes_total. apply (total_not_earlier _ (runes_width_pos t 0%nat) 0).
Qed.

End WithDecoder.

Lemma location_inside t off : loc_inside_b t (location t off) = true.
Proof. exact (location_inside_with Utf8M.decode utf8_decoder_ok t off). Qed.

Lemma location_roundtrip t off : rune_boundary_b t off = true -> offset_of t (location t off) = off.
Proof. exact (location_roundtrip_with Utf8M.decode utf8_decoder_ok t off). Qed.

Lemma location_line t off : rune_boundary_b t off = true -> fst (location t off) = byte_line t off.
Proof. exact (location_line_with Utf8M.decode utf8_decoder_ok t off). Qed.

Lemma location_off_rune t off : rune_boundary_b t off = false -> location t off = location t (zlen t).
Proof. exact (location_off_rune_with Utf8M.decode utf8_decoder_ok t off). Qed.

Lemma rune_boundary_bounds t off : rune_boundary_b t off = true -> 0 <= off <= zlen t.
Proof. exact (boundary_bounds Utf8M.decode utf8_decoder_ok t off). Qed.

(* what the check accepts for a rendered position is exactly the model's position *)
Lemma observed_loc_ok_location t off : rune_boundary_b t off = true ->
  observed_loc_ok_b t off (location t off) = true.
Proof.
  intros H. unfold observed_loc_ok_b. rewrite location_inside, (location_roundtrip t off H). now rewrite Z.eqb_refl.
Qed.

Lemma errs_located t e : errs_located_b t e = true.
Proof. unfold errs_located_b. apply forallb_forall. intros x _. apply location_inside. Qed.

Lemma parse_text_error_location_inside letter digit t e :
  parse_text letter digit t = ParseErr e -> err_in_bounds_b t e = true /\ errs_located_b t e = true.
Proof. intros H. split; [exact (parse_text_err_in_bounds letter digit t e H)|apply errs_located]. Qed.

Lemma errs_roundtrip_of_boundaries t e :
  forallb (fun x => rune_boundary_b t (er_end x)) e = true -> errs_roundtrip_b t e = true.
Proof.
  unfold errs_roundtrip_b. rewrite !forallb_forall. intros H x Hx.
  apply Z.eqb_eq. apply location_roundtrip. now apply H.
Qed.
