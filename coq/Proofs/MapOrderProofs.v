(* C06, map iteration order.  Where the Go code ranges over a map the model takes an
   association list (kept in key order by Model/Price.v [sm_put]); here each such function is
   shown not to depend on the order of that list: any permutation of the entries gives the
   same result, in the sense that reaches the output.

   - lookups in a list with distinct keys do not depend on its order;
   - the DayStart loop of CloseAccounts: the closing transactions are the same multiset;
   - the DayStart loop of Valuate: the adjustment transactions are the same multiset, and the
     loop fails (missing price) for one order iff it fails for every order;
   - sorting siblings (balance report): the comparator with the name tie-break of bffd269
     is a strict total order on siblings with distinct names, so the sorted list does not
     depend on the order in which the children map is enumerated, and it is the list the
     model computes (stable sort by weight of the children in name order); without the
     tie-break two enumeration orders give two results;
   - portfolio weights: the r.Add calls of a day are the same multiset;
   - report totals: every cell of the report is the same for every order of the insertions.
   (infer: Proofs/InferOrder.v.) *)
From Coq Require Import ZArith QArith List Bool Lia Permutation Sorting.Sorted.
From Knut Require Import Proofs.ListFacts Model.Str Model.Dec Model.Date Model.Account Model.Ledger Model.Price
     Model.Journal Model.Check Model.Pipeline Model.Report Model.Perf Model.Weights
     Proofs.SMapProofs Proofs.StrProofs Proofs.StableSort Proofs.DecValue.
Import ListNotations.
Open Scope bool_scope.
Open Scope Z_scope.

Lemma sm_get_nodup {V} (m : smap V) k v : NoDup (map fst m) -> In (k, v) m -> sm_get m k = Some v.
Proof.
  induction m as [|[k' v'] m IH]; cbn; intros Hnd Hin; [contradiction|].
  inversion Hnd as [|? ? Hnot Hnd']; subst. destruct Hin as [H|H].
  - inversion H; subst. rewrite str_eqb_refl. reflexivity.
  - destruct (str_eqb k k') eqn:E.
    + apply str_eqb_eq in E. subst. exfalso. apply Hnot. apply (in_map fst) in H. exact H.
    + apply IH; assumption.
Qed.

(* a Go map lookup: the entries have distinct keys, their order is immaterial *)
Theorem sm_get_perm {V} (m1 m2 : smap V) k :
  NoDup (map fst m1) -> Permutation m1 m2 -> sm_get m1 k = sm_get m2 k.
Proof.
  intros Hnd P.
  assert (Hnd2 : NoDup (map fst m2)) by (eapply Permutation_NoDup; [apply Permutation_map; exact P|exact Hnd]).
  destruct (sm_get m1 k) as [v|] eqn:E1.
  - symmetry. apply sm_get_nodup; [exact Hnd2|]. eapply Permutation_in; [exact P|]. apply sm_get_in. exact E1.
  - destruct (sm_get m2 k) as [v|] eqn:E2; [|reflexivity].
    apply sm_get_in in E2. apply (Permutation_in _ (Permutation_sym P)) in E2.
    apply (sm_get_nodup _ _ _ Hnd) in E2. congruence.
Qed.

Corollary pos_get_perm (m1 m2 : positions) a c :
  NoDup (map fst m1) -> Permutation m1 m2 -> pos_get m1 a c = pos_get m2 a c.
Proof. intros Hnd P. unfold pos_get. rewrite (sm_get_perm m1 m2 _ Hnd P). reflexivity. Qed.

Lemma closing_txns_values date qs vs1 vs2 :
  (forall a c, pos_get vs1 a c = pos_get vs2 a c) -> closing_txns date qs vs1 = closing_txns date qs vs2.
Proof.
  intros H. induction qs as [|[k [[a c] q]] qs IH]; cbn [closing_txns]; [reflexivity|].
  rewrite H, IH. reflexivity.
Qed.

(* `for k, quantity := range quantities` with `values[k]` looked up: any enumeration order of
   either map gives the same closing transactions, up to their order *)
Theorem closing_txns_perm date qs1 qs2 vs1 vs2 :
  Permutation qs1 qs2 -> NoDup (map fst vs1) -> Permutation vs1 vs2 ->
  Permutation (closing_txns date qs1 vs1) (closing_txns date qs2 vs2).
Proof.
  intros P Hnd Pv.
  rewrite (closing_txns_values date qs2 vs2 vs1) by (intros a c; symmetry; apply pos_get_perm; assumption).
  clear Pv Hnd vs2.
  induction P as [|[k [[a c] q]] l l' P IH|[k1 [[a1 c1] q1]] [k2 [[a2 c2] q2]] l|l l' l'' P1 IH1 P2 IH2].
  - constructor.
  - cbn [closing_txns]. destruct (_ && _); [exact IH|constructor; exact IH].
  - cbn [closing_txns]. destruct (is_zero q2 && _); destruct (is_zero q1 && _); try reflexivity. apply perm_swap.
  - eapply perm_trans; eassumption.
Qed.

(* one iteration of the loop *)
Inductive adj := AdjSkip | AdjErr (c : commodity) | AdjTxn (t : txn).

Definition adj_of (v : commodity) (date : Z) (prev cur : option nprices) (e : str * (account * commodity * dec)) : adj :=
  let '(_, (a, c, q)) := e in
  if str_eqb c v || negb (is_AL a) || is_zero q then AdjSkip
  else match np_price_opt prev c with
       | None => AdjErr c
       | Some pp =>
         match np_price_opt cur c with
         | None => AdjErr c
         | Some cp =>
           let delta := sub cp pp in
           if is_zero delta then AdjSkip
           else AdjTxn (mkTxn date (s_adjust c a)
                              (pair_build (valuation_account_for a) a c dec_nil (multiply delta q)) (Some [c]))
         end
       end.

Lemma val_adjustments_cons v date prev cur e rest :
  val_adjustments v date prev cur (e :: rest) =
  match adj_of v date prev cur e with
  | AdjSkip => val_adjustments v date prev cur rest
  | AdjErr c => RErr k_no_price c
  | AdjTxn t => rbind (val_adjustments v date prev cur rest) (fun ts => ROk (t :: ts))
  end.
Proof.
  destruct e as [k [[a c] q]]. cbn [val_adjustments adj_of].
  destruct (str_eqb c v || negb (is_AL a) || is_zero q); [reflexivity|].
  destruct (np_price_opt prev c); [|reflexivity]. destruct (np_price_opt cur c); [|reflexivity].
  destruct (is_zero _); reflexivity.
Qed.

(* same transactions up to order; or both fail for a missing price (which commodity the message
   names may differ: the message goes to stderr, the exit status is the same) *)
Definition adj_equiv (r1 r2 : presult (list txn)) : Prop :=
  match r1, r2 with
  | ROk a, ROk b => Permutation a b
  | RErr k1 _, RErr k2 _ => k1 = k_no_price /\ k2 = k_no_price
  | _, _ => False
  end.

Lemma val_adjustments_no_panic v date prev cur pos :
  match val_adjustments v date prev cur pos with
  | ROk _ => True | RErr k _ => k = k_no_price | RPanic _ => False end.
Proof.
  induction pos as [|e pos IH]; [exact I|]. rewrite val_adjustments_cons.
  destruct (adj_of v date prev cur e); [exact IH|reflexivity|].
  destruct (val_adjustments v date prev cur pos); cbn [rbind]; auto.
Qed.

Lemma adj_equiv_refl v date prev cur pos :
  adj_equiv (val_adjustments v date prev cur pos) (val_adjustments v date prev cur pos).
Proof.
  pose proof (val_adjustments_no_panic v date prev cur pos) as H. unfold adj_equiv.
  destruct (val_adjustments v date prev cur pos); [reflexivity|split; assumption|contradiction].
Qed.

Lemma adj_equiv_trans r1 r2 r3 : adj_equiv r1 r2 -> adj_equiv r2 r3 -> adj_equiv r1 r3.
Proof.
  unfold adj_equiv. destruct r1, r2, r3; try tauto.
  intros H1 H2. eapply perm_trans; eassumption.
Qed.

(* `for pos, qty := range quantities`: any enumeration order of the position map *)
Theorem val_adjustments_perm v date prev cur pos1 pos2 :
  Permutation pos1 pos2 ->
  adj_equiv (val_adjustments v date prev cur pos1) (val_adjustments v date prev cur pos2).
Proof.
  intros P. induction P as [|e l l' P IH|e1 e2 l|l l' l'' P1 IH1 P2 IH2].
  - cbn. constructor.
  - rewrite !val_adjustments_cons. destruct (adj_of v date prev cur e).
    + exact IH.
    + cbn. split; reflexivity.
    + unfold adj_equiv in *. destruct (val_adjustments v date prev cur l), (val_adjustments v date prev cur l');
        cbn [rbind]; try tauto. constructor. exact IH.
  - rewrite !val_adjustments_cons.
    pose proof (val_adjustments_no_panic v date prev cur l) as Hl.
    destruct (adj_of v date prev cur e1), (adj_of v date prev cur e2);
      destruct (val_adjustments v date prev cur l); cbn [rbind adj_equiv]; try tauto;
      try reflexivity; try (split; reflexivity); try (split; [reflexivity|assumption]);
      try (split; [assumption|reflexivity]); try (split; assumption).
    apply perm_swap.
  - eapply adj_equiv_trans; eassumption.
Qed.

From Coq Require Import Lqa.
From Knut Require Import Proofs.DecProofs Proofs.CheckPerm.

(* Decimal.LessThan compares values *)
Lemma coef_neg_value d : (coef d < 0)%Z <-> (dvalue d < 0)%Q.
Proof.
  unfold dvalue. pose proof (Qpower_ten_pos (ex d)) as Hp. split; intros H.
  - assert (H1 : (inject_Z (coef d) < 0)%Q) by (rewrite (Zlt_Qlt (coef d) 0) in H; exact H).
    assert (H2 : (inject_Z (coef d) * Qpower ten (ex d) < 0 * Qpower ten (ex d))%Q)
      by (apply Qmult_lt_compat_r; assumption).
    lra.
  - destruct (Z_lt_le_dec (coef d) 0) as [Hlt|Hge]; [exact Hlt|exfalso].
    assert (H1 : (0 <= inject_Z (coef d))%Q) by (rewrite (Zle_Qle 0 (coef d)) in Hge; exact Hge).
    assert (H2 : (0 <= inject_Z (coef d) * Qpower ten (ex d))%Q) by (apply Qmult_le_0_compat; lra).
    lra.
Qed.

Lemma less_than_value a b : less_than a b = true <-> (dvalue a < dvalue b)%Q.
Proof.
  unfold less_than, cmp.
  assert (Hs : (let '(p, q) := rescale_pair a b in coef p - coef q)%Z = coef (sub a b)).
  { unfold sub. destruct (rescale_pair a b). reflexivity. }
  assert (Hz : (coef (sub a b) < 0)%Z <-> (dvalue a < dvalue b)%Q).
  { rewrite coef_neg_value, dvalue_sub. split; intros H; lra. }
  rewrite <- Hz, <- Hs. destruct (rescale_pair a b) as [p q].
  destruct (coef p ?= coef q)%Z eqn:E.
  - apply Z.compare_eq in E. split; [discriminate|lia].
  - rewrite Z.compare_lt_iff in E. split; [lia|reflexivity].
  - rewrite Z.compare_gt_iff in E. split; [discriminate|lia].
Qed.

Lemma less_than_irrefl a : less_than a a = false.
Proof.
  destruct (less_than a a) eqn:E; [|reflexivity]. apply less_than_value in E. lra.
Qed.

Lemma less_than_trans a b c : less_than a b = true -> less_than b c = true -> less_than a c = true.
Proof. rewrite !less_than_value. lra. Qed.

Lemma less_than_cotrans a b c : less_than a b = true -> less_than a c = true \/ less_than c b = true.
Proof.
  rewrite !less_than_value. intros H.
  destruct (Qlt_le_dec (dvalue a) (dvalue c)) as [H1|H1]; [left; exact H1|right; lra].
Qed.

(* the sums that make a weight: `for _, ch := range n.Children { w = w.Add(ch.Value.Weight) }`
   and Amounts.SumOver range over maps; decimal addition is exact, so any order gives the
   same decimal (coefficient and exponent) *)
Lemma fold_add_perm {B} (f : B -> dec) l1 l2 : Permutation l1 l2 ->
  forall w, fold_left (fun w c => add w (f c)) l1 w = fold_left (fun w c => add w (f c)) l2 w.
Proof.
  intros P. apply fold_left_perm; [|exact P].
  intros a x y. rewrite !add_assoc. f_equal. apply add_comm.
Qed.

Theorem node_weight_perm valued s p hv a1 a2 ch1 ch2 :
  Permutation a1 a2 -> Permutation ch1 ch2 ->
  node_weight valued (Node s p hv a1 ch1) = node_weight valued (Node s p hv a2 ch2).
Proof.
  intros Pa Pc. cbn [node_weight].
  rewrite (fold_add_perm (node_weight valued) ch1 ch2 Pc).
  destruct valued; [|reflexivity].
  rewrite (fold_add_perm (fun kv : rkey * dec => snd kv) a1 a2 Pa). reflexivity.
Qed.

(* the three comparators between siblings *)
Definition by_rank (a b : node) : bool := top_ltb a b.
Definition by_name (a b : node) : bool := str_ltb (n_seg a) (n_seg b).
Definition by_weight (valued : bool) (a b : node) : bool := less_than (node_weight valued a) (node_weight valued b).
(* SortWeighted since bffd269: weight, then name *)
Definition by_weight_name (valued : bool) : node -> node -> bool := lex (by_weight valued) by_name.

Lemma by_name_irrefl a : by_name a a = false.
Proof. apply str_ltb_irrefl. Qed.
Lemma by_name_trans a b c : by_name a b = true -> by_name b c = true -> by_name a c = true.
Proof. apply str_ltb_trans. Qed.
Lemma by_name_cotrans a b c : by_name a b = true -> by_name a c = true \/ by_name c b = true.
Proof. apply (klt_cotrans str_ltb str_ltb_trans str_ltb_total). Qed.
Lemma eqv_by_name a b : eqv by_name a b = true <-> n_seg a = n_seg b.
Proof. apply (eqv_by_key str_ltb n_seg str_ltb_irrefl str_ltb_total). Qed.

Lemma by_weight_irrefl valued a : by_weight valued a a = false.
Proof. apply less_than_irrefl. Qed.
Lemma by_weight_trans valued a b c : by_weight valued a b = true -> by_weight valued b c = true -> by_weight valued a c = true.
Proof. apply less_than_trans. Qed.
Lemma by_weight_cotrans valued a b c : by_weight valued a b = true -> by_weight valued a c = true \/ by_weight valued c b = true.
Proof. apply less_than_cotrans. Qed.

Lemma zltb_trans a b c : (a <? b) = true -> (b <? c) = true -> (a <? c) = true.
Proof. rewrite !Z.ltb_lt. lia. Qed.
Lemma zltb_total a b : (a <? b) = false -> (b <? a) = false -> a = b.
Proof. rewrite !Z.ltb_ge. lia. Qed.

Lemma by_rank_irrefl a : by_rank a a = false.
Proof. apply Z.ltb_irrefl. Qed.
Lemma by_rank_trans a b c : by_rank a b = true -> by_rank b c = true -> by_rank a c = true.
Proof. apply zltb_trans. Qed.
Lemma by_rank_cotrans a b c : by_rank a b = true -> by_rank a c = true \/ by_rank c b = true.
Proof. apply (klt_cotrans Z.ltb zltb_trans zltb_total). Qed.
Lemma eqv_by_rank a b : eqv by_rank a b = true <-> acc_rank (n_path a) = acc_rank (n_path b).
Proof. apply (eqv_by_key Z.ltb (fun n => acc_rank (n_path n)) Z.ltb_irrefl zltb_total). Qed.

(* the children of a node are the values of a map keyed by segment: distinct names, any order.
   With the comparators of the repaired code the sorted list does not depend on that order. *)
Theorem sort_weight_name_unique valued l1 l2 :
  Permutation l1 l2 -> NoDup (map n_seg l1) ->
  sort_by (by_weight_name valued) l1 = sort_by (by_weight_name valued) l2.
Proof.
  intros P Hnd. unfold by_weight_name.
  apply (sort_by_perm_inj _
           (lex_irrefl _ _ (by_weight_irrefl valued) by_name_irrefl)
           (lex_trans _ _ (by_weight_trans valued) (by_weight_cotrans valued) by_name_trans)
           (lex_cotrans _ _ (by_weight_cotrans valued) by_name_cotrans) l1 l2 P).
  intros x y Hx Hy E. apply eqv_lex in E. destruct E as [_ E]. apply eqv_by_name in E.
  exact (NoDup_map_inj n_seg l1 x y Hnd Hx Hy E).
Qed.

Theorem sort_name_unique l1 l2 :
  Permutation l1 l2 -> NoDup (map n_seg l1) -> sort_by by_name l1 = sort_by by_name l2.
Proof.
  intros P Hnd. apply (sort_by_perm_inj _ by_name_irrefl by_name_trans by_name_cotrans l1 l2 P).
  intros x y Hx Hy E. apply eqv_by_name in E. exact (NoDup_map_inj n_seg l1 x y Hnd Hx Hy E).
Qed.

(* top level: the account types; the (at most five) top-level accounts have distinct types *)
Theorem sort_rank_unique l1 l2 :
  Permutation l1 l2 -> NoDup (map (fun n => acc_rank (n_path n)) l1) -> sort_by by_rank l1 = sort_by by_rank l2.
Proof.
  intros P Hnd. apply (sort_by_perm_inj _ by_rank_irrefl by_rank_trans by_rank_cotrans l1 l2 P).
  intros x y Hx Hy E. apply eqv_by_rank in E.
  exact (NoDup_map_inj (fun n => acc_rank (n_path n)) l1 x y Hnd Hx Hy E).
Qed.

(* the model keeps the children in name order and sorts them stably by weight alone
   (Model/Report.v sibling_ltb): that is the sort by weight, then name *)
Theorem model_sort_is_tiebreak valued l :
  StronglySorted (fun a b => by_name a b = true) l ->
  sort_by (by_weight valued) l = sort_by (by_weight_name valued) l.
Proof. apply (sort_by_tiebreak _ _ by_name_irrefl by_name_trans). Qed.

(* Model/Report.v [sibling_ltb] on siblings below the top level, and at the top level *)
Lemma sibling_ltb_below alpha valued a b :
  acc_level (n_path a) <> 1 ->
  sibling_ltb alpha valued a b = if alpha then by_name a b else by_weight valued a b.
Proof.
  intros H. unfold sibling_ltb. apply Z.eqb_neq in H. rewrite H. reflexivity.
Qed.

Lemma sibling_ltb_top alpha valued a b :
  acc_level (n_path a) = 1 -> acc_level (n_path b) = 1 -> sibling_ltb alpha valued a b = by_rank a b.
Proof. intros Ha Hb. unfold sibling_ltb. rewrite Ha, Hb. reflexivity. Qed.

(* the model's sorted children = the Go comparator applied to any enumeration [l'] of the
   children map *)
Theorem sibling_sort_order_free alpha valued l l' :
  StronglySorted (fun a b => by_name a b = true) l -> NoDup (map n_seg l) -> Permutation l l' ->
  (forall n, In n l -> acc_level (n_path n) <> 1) ->
  sort_by (sibling_ltb alpha valued) l = sort_by (if alpha then by_name else by_weight_name valued) l'.
Proof.
  intros Hs Hnd P Hlev.
  rewrite (sort_by_ext_in (sibling_ltb alpha valued) (if alpha then by_name else by_weight valued) l).
  - destruct alpha.
    + apply sort_name_unique; assumption.
    + rewrite (model_sort_is_tiebreak valued l Hs). apply sort_weight_name_unique; assumption.
  - intros x y Hx Hy. rewrite (sibling_ltb_below alpha valued x y (Hlev x Hx)). destruct alpha; reflexivity.
Qed.

Theorem top_sort_order_free alpha valued l l' :
  NoDup (map (fun n => acc_rank (n_path n)) l) -> Permutation l l' ->
  (forall n, In n l -> acc_level (n_path n) = 1) ->
  sort_by (sibling_ltb alpha valued) l = sort_by by_rank l'.
Proof.
  intros Hnd P Hlev.
  rewrite (sort_by_ext_in (sibling_ltb alpha valued) by_rank l).
  - apply sort_rank_unique; assumption.
  - intros x y Hx Hy. apply sibling_ltb_top; apply Hlev; assumption.
Qed.

(* before bffd269: weight only.  Two accounts without valued amounts (an unvalued report: all
   weights are zero) come out in the order in which the map was enumerated. *)
Definition w_node (name : str) : node := Node name [s_Assets; name] true [] [].

Theorem pinned_sort_refuted :
  exists l1 l2, Permutation l1 l2 /\ NoDup (map n_seg l1) /\
    sort_by (by_weight false) l1 <> sort_by (by_weight false) l2.
Proof.
  exists [w_node [65]; w_node [66]], [w_node [66]; w_node [65]]. split; [apply perm_swap|]. split.
  - cbn. repeat constructor; cbn; intuition discriminate.
  - vm_compute. discriminate.
Qed.

Definition entries_equiv (r1 r2 : wresult (list entry)) : Prop :=
  match r1, r2 with
  | WOk a, WOk b => Permutation a b
  | WPanic, WPanic => True
  | _, _ => False
  end.

Lemma entries_equiv_refl r : entries_equiv r r.
Proof. destruct r; cbn; auto. Qed.

Lemma entries_equiv_trans r1 r2 r3 : entries_equiv r1 r2 -> entries_equiv r2 r3 -> entries_equiv r1 r3.
Proof. destruct r1, r2, r3; cbn; try tauto. apply perm_trans. Qed.

(* `for c, v := range V1 { r.Add(path(c), date, v/total) }`: the same calls in any order (the
   total is the exact sum here; Go adds float64 in map order, see LEVEL_NOTE) *)
Theorem day_entries_perm u m date total v1 v1' :
  Permutation v1 v1' -> entries_equiv (day_entries u m date total v1) (day_entries u m date total v1').
Proof.
  intros P. induction P as [|[c v] l l' P IH|[c1 x1] [c2 x2] l|l l' l'' P1 IH1 P2 IH2].
  - cbn. constructor.
  - cbn [day_entries]. destruct (map_path m (locate u c)); [|exact I].
    destruct (day_entries u m date total l), (day_entries u m date total l'); cbn in *; try tauto.
    constructor. exact IH.
  - cbn [day_entries].
    destruct (map_path m (locate u c1)), (map_path m (locate u c2));
      destruct (day_entries u m date total l); cbn; auto. apply perm_swap.
  - eapply entries_equiv_trans; eassumption.
Qed.

From Coq Require Import Setoid Morphisms.
From Knut Require Import Proofs.ReportSum.
Open Scope Q_scope.

(* a booking into the report: Report.Insert(date, account, commodity, amount) *)
Definition booking_ins := (option Z * account * commodity * dec)%type.

Definition insert_all (l : list booking_ins) (r : report) : report :=
  fold_left (fun r x => let '(d, a, c, v) := x in report_insert r d a c v) l r.

Definition contrib_sum (f : rkey -> rkey) (k' : rkey) (l : list booking_ins) : Q :=
  fold_right (fun x acc => (let '(d, a, c, v) := x in contrib f k' (d, Some c) v) + acc) 0 l.

Lemma rsum_insert_all f k' l : forall r, rsum f k' (insert_all l r) == rsum f k' r + contrib_sum f k' l.
Proof.
  induction l as [|[[[d a] c] v] l IH]; intros r; cbn [insert_all fold_left contrib_sum fold_right].
  - ring.
  - change (fold_left _ l ?r0) with (insert_all l r0). rewrite IH, rsum_insert.
    change (fold_right _ 0 l) with (contrib_sum f k' l). ring.
Qed.

Lemma contrib_sum_perm f k' l1 l2 : Permutation l1 l2 -> contrib_sum f k' l1 == contrib_sum f k' l2.
Proof.
  intros P. induction P as [|x l l' P IH|x y l|l l' l'' P1 IH1 P2 IH2]; cbn [contrib_sum fold_right].
  - reflexivity.
  - change (fold_right _ 0 l) with (contrib_sum f k' l). change (fold_right _ 0 l') with (contrib_sum f k' l').
    rewrite IH. reflexivity.
  - ring.
  - rewrite IH1. exact IH2.
Qed.

(* every total of the report (any cell: f maps the keys of the bookings to the cell's key) is
   the same for every order in which the bookings are inserted -- in particular for every
   order of the adjustment and closing transactions above *)
Theorem report_totals_order_free f k' l1 l2 r :
  Permutation l1 l2 -> rsum f k' (insert_all l1 r) == rsum f k' (insert_all l2 r).
Proof. intros P. rewrite !rsum_insert_all, (contrib_sum_perm f k' l1 l2 P). reflexivity. Qed.
