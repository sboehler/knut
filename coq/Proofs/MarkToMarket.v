(* C03, end to end over days: the values the Valuate stage puts on the postings of an asset or
   liability position (bookings valued on their booking day plus the daily "Adjust value"
   revaluations) add up to quantity * price at the end, up to one truncation error per
   multiplication.

   Shape of the proof.  Everything is stated for one cell (account a, commodity c) and in
   "delta form": over any run of the stage from any reachable state
       posted value  -  (Q_end * p_end  -  Q_start * p_start)
   is a sum of one error term per Multiply call.  Per day (Abel summation, C03_abel):
       adjustments  ~  (p_cur - p_prev) * Q_start      (val_adjustments over the position map)
       bookings     ~  p_cur * (Q_end - Q_start)       (val_posting on each posting)
   The per-step error is abstract (Section Cell: [eps], with side predicates on quantities and
   prices that are closed under the additions/subtractions the stage performs); it is
   instantiated twice: eps = 10^-8 without conditions, and eps = 0 when quantities have at most
   kq and prices at most kp decimals with kq + kp <= 8. *)
From Coq Require Import ZArith QArith Qabs Qpower List Bool Lia Lqa Sorting.Sorted.
From Knut Require Import Proofs.SMapProofs Model.Str Model.Dec Model.Date Model.Account Model.Ledger Model.Price
     Model.Journal Model.Check Model.Pipeline
     Spec.WellformedSpec
     Proofs.DecProofs Proofs.DecValue Proofs.CheckLemmas Proofs.CheckProofs Proofs.PairProofs
     Proofs.ValuationProofs Proofs.BuiltPostings.
From Knut Require Export Proofs.StageRun.
From Knut Require Import Spec.MarkToMarketSpec.
From Knut Require Import Spec.PriceSpec Spec.PriceDaySpec Proofs.PriceDayProofs.
Import ListNotations.
Open Scope Q_scope.

Definition eps8 : Q := 1 # 100000000.

Definition merr (a b : dec) : Q := dvalue (multiply a b) - dvalue a * dvalue b.

Lemma eps8_pow : eps8 == Qpower ten (-8).
Proof. reflexivity. Qed.

Lemma merr_exact a b : (- 8 <= ex a + ex b)%Z -> merr a b == 0.
Proof. intros H. unfold merr. rewrite (multiply_value_exact a b H). ring. Qed.

(* truncation toward zero at 8 decimals moves the value by less than 10^-8: with P = 10^(-8 - ex)
   the coefficient is q * P + r, |r| < P, and the error is r * 10^ex *)
Lemma truncate8_err d : Qabs (dvalue (truncate d 8) - dvalue d) <= eps8.
Proof.
  unfold truncate. cbn [Z.leb Z.compare andb]. change (Z.opp 8) with (-8)%Z.
  destruct (ex d <? - 8)%Z eqn:E.
  2:{ setoid_replace (dvalue d - dvalue d) with 0 by ring. discriminate. }
  apply Z.ltb_lt in E. cbn [andb].
  unfold rescale. replace (ex d =? - 8)%Z with false by lia. replace (ex d <? - 8)%Z with true by lia.
  replace (Z.abs (- 8 - ex d)) with (- 8 - ex d)%Z by lia.
  pose proof (pow10_nonneg_pos (- 8 - ex d) ltac:(lia)) as Hpos.
  set (P := pow10 (- 8 - ex d)) in *.
  assert (HP : Qpower ten (-8) == inject_Z P * Qpower ten (ex d)).
  { unfold P. rewrite pow10_as_Q by lia. rewrite <- (Qpower_plus ten _ _ ten_nz).
    replace (- 8 - ex d + ex d)%Z with (-8)%Z by ring. reflexivity. }
  unfold dvalue at 1. cbn [coef ex]. unfold dvalue.
  pose proof (Z.quot_rem' (coef d) P) as Hqr.
  pose proof (Z.rem_bound_abs (coef d) P ltac:(lia)) as Hb.
  set (q := Z.quot (coef d) P) in *. set (r := Z.rem (coef d) P) in *.
  assert (Hd : inject_Z q * Qpower ten (-8) - inject_Z (coef d) * Qpower ten (ex d)
               == inject_Z (- r) * Qpower ten (ex d)).
  { rewrite HP. rewrite Hqr at 1. rewrite inject_Z_opp, inject_Z_plus, inject_Z_mult. ring. }
  rewrite Hd, eps8_pow, HP.
  rewrite Qabs_Qmult. rewrite (Qabs_pos (Qpower ten (ex d))) by (apply Qlt_le_weak, Qpower_ten_pos).
  apply Qmult_le_compat_r; [|apply Qlt_le_weak, Qpower_ten_pos].
  rewrite Qabs_Qle_condition. rewrite <- inject_Z_opp. rewrite <- !Zle_Qle. rewrite (Z.abs_eq P) in Hb by lia. lia.
Qed.

Lemma merr_bound a b : Qabs (merr a b) <= eps8.
Proof.
  unfold merr, multiply. rewrite <- (dvalue_mul a b). apply truncate8_err.
Qed.

Lemma eps8_nonneg : 0 <= eps8.
Proof. discriminate. Qed.

Lemma qsum_app f l1 l2 : qsum f (l1 ++ l2) == qsum f l1 + qsum f l2.
Proof.
  induction l1 as [|p l1 IH]; cbn [app qsum]; [ring|]. rewrite IH. ring.
Qed.

Lemma cell_value_app a c l1 l2 : cell_value a c (l1 ++ l2) == cell_value a c l1 + cell_value a c l2.
Proof. apply qsum_app. Qed.

Lemma cell_qty_app a c l1 l2 : cell_qty a c (l1 ++ l2) == cell_qty a c l1 + cell_qty a c l2.
Proof. apply qsum_app. Qed.

Lemma cell_count_app a c l1 l2 : cell_count a c (l1 ++ l2) = (cell_count a c l1 + cell_count a c l2)%Z.
Proof.
  induction l1 as [|p l1 IH]; cbn [app cell_count]; [reflexivity|]. rewrite IH. ring.
Qed.

Lemma cell_count_nonneg a c l : (0 <= cell_count a c l)%Z.
Proof. induction l as [|p l IH]; cbn [cell_count]; [lia|]. destruct (cellb a c p); lia. Qed.

Lemma cell_value_cons a c p l :
  cell_value a c (p :: l) == (if cellb a c p then dvalue (p_val p) else 0) + cell_value a c l.
Proof. reflexivity. Qed.

Lemma cell_qty_cons a c p l :
  cell_qty a c (p :: l) == (if cellb a c p then dvalue (p_qty p) else 0) + cell_qty a c l.
Proof. reflexivity. Qed.

Lemma bound_add eps x y z n1 n2 :
  Qabs x <= inject_Z n1 * eps -> Qabs y <= inject_Z n2 * eps -> z == x + y ->
  Qabs z <= inject_Z (n1 + n2) * eps.
Proof.
  intros Hx Hy Hz. rewrite Hz, inject_Z_plus.
  eapply Qle_trans; [apply Qabs_triangle|]. rewrite Qmult_plus_distr_l. apply Qplus_le_compat; assumption.
Qed.

Lemma bound_eq eps x y n : Qabs y <= inject_Z n * eps -> x == y -> Qabs x <= inject_Z n * eps.
Proof. intros H E. rewrite E. exact H. Qed.

Lemma bound_zero eps x : x == 0 -> Qabs x <= inject_Z 0 * eps.
Proof. intros H. rewrite H. cbn. rewrite Qmult_0_l. discriminate. Qed.

Lemma bound_one eps x : Qabs x <= eps -> Qabs x <= inject_Z 1 * eps.
Proof. intros H. rewrite Qmult_1_l. exact H. Qed.

Lemma bound_exact n x : Qabs x <= inject_Z n * 0 -> x == 0.
Proof.
  rewrite Qmult_0_r. intros H. apply Qabs_Qle_condition in H. destruct H as [L U]. apply Qle_antisym; assumption.
Qed.

Definition zero_qty_txn (t : txn) : Prop := Forall (fun p => is_zero (p_qty p) = true) (t_postings t).
Definition txns_postings (ts : list txn) : list posting := concat (map t_postings ts).

(* zero-quantity postings (the revaluation transactions) pass the Posting callback untouched *)
Lemma fold_postings_zero v t ps : forall s,
  Forall (fun p => is_zero (p_qty p) = true) ps -> fold_postings (val_posting v) t s ps = ROk (s, ps).
Proof.
  induction ps as [|p ps IH]; intros s H; cbn [fold_postings]; [reflexivity|].
  inversion H as [|? ? Hp Hr]; subst. unfold val_posting at 1. rewrite Hp. cbn [rbind fst snd].
  rewrite (IH _ Hr). reflexivity.
Qed.

Lemma fold_txns_zero v ts : forall s,
  Forall zero_qty_txn ts -> fold_txns (valuate_proc v) s ts = ROk (s, ts).
Proof.
  induction ts as [|t ts IH]; intros s H; cbn [fold_txns]; [reflexivity|].
  inversion H as [|? ? Ht Hr]; subst.
  cbn [valuate_proc pr_txn pr_posting rbind]. rewrite (fold_postings_zero v t _ s Ht). cbn [rbind fst snd].
  rewrite (IH _ Hr). cbn [rbind fst snd]. destruct t; reflexivity.
Qed.

(* the state after a booking of a non-zero quantity: the position map of asset/liability accounts *)
Definition val_book (s : val_state) (p : posting) : val_state :=
  if is_AL (p_acc p) then mkVal (v_prev s) (v_cur s) (pos_add (v_qty s) (p_acc p) (p_com p) (p_qty p)) else s.

Lemma val_posting_state v s t p s' p' :
  val_posting v s t p = ROk (s', p') -> s' = if is_zero (p_qty p) then s else val_book s p.
Proof.
  unfold val_posting. fold (val_book s p). destruct (is_zero (p_qty p)); [intros H; injection H as <- _; reflexivity|].
  destruct (str_eqb v (p_com p)); [intros H; injection H as <- _; reflexivity|].
  destruct (v_cur s) as [n|]; [|discriminate]. destruct (np_valuate n (p_com p) (p_qty p)); [|discriminate].
  intros H. injection H as <- _. reflexivity.
Qed.

Lemma val_posting_cellb v s t p s' p' b cb : val_posting v s t p = ROk (s', p') -> cellb b cb p' = cellb b cb p.
Proof. intros H. destruct (val_posting_value _ _ _ _ _ _ H) as (Ea & _ & Ec & _). unfold cellb. rewrite Ea, Ec. reflexivity. Qed.

Lemma val_run_cur v s ps s' ps' : val_run v s ps s' ps' -> v_cur s' = v_cur s.
Proof.
  intros H. induction H as [|? ? ? ? ? ? ? ? E1 _ IH]; [reflexivity|].
  rewrite IH. exact (val_posting_cur _ _ _ _ _ _ E1).
Qed.

Lemma val_run_count v b cb s ps s' ps' : val_run v s ps s' ps' -> cell_count b cb ps' = cell_count b cb ps.
Proof.
  intros H. induction H as [|? ? ? ? ? ? ? ? E1 _ IH]; [reflexivity|].
  cbn [cell_count]. rewrite IH, (val_posting_cellb _ _ _ _ _ _ b cb E1). reflexivity.
Qed.

Lemma pair_build_zero_qty cr db com gain :
  Forall (fun p => is_zero (p_qty p) = true) (pair_build cr db com dec_nil gain).
Proof. unfold pair_build. destruct (is_neg dec_nil || is_zero dec_nil && is_neg gain); repeat constructor. Qed.

Lemma adjustments_zero_qty v date prev cur pos ts :
  val_adjustments v date prev cur pos = ROk ts -> Forall zero_qty_txn ts.
Proof.
  intros H. apply val_adjustments_run in H.
  induction H; try assumption; constructor; [apply pair_build_zero_qty|assumption].
Qed.

(* every revaluation transaction is for an open position of an asset or liability account in a
   commodity other than V; it books between that account and its Income mirror.  Positions of
   other accounts never enter the position map (good: entry_ok), so nothing else is revalued *)
Lemma val_adjustments_only_AL v date prev cur pos : forall ts,
  val_adjustments v date prev cur pos = ROk ts ->
  Forall (fun t => exists k a c q gain, In (k, (a, c, q)) pos /\
                   is_AL a = true /\ str_eqb c v = false /\ is_zero q = false /\
                   t_postings t = pair_build (valuation_account_for a) a c dec_nil gain) ts.
Proof.
  intros ts H. apply val_adjustments_run in H.
  enough (G : forall pos0, incl pos pos0 ->
            Forall (fun t => exists k a c q gain, In (k, (a, c, q)) pos0 /\
                     is_AL a = true /\ str_eqb c v = false /\ is_zero q = false /\
                     t_postings t = pair_build (valuation_account_for a) a c dec_nil gain) ts)
    by exact (G pos (incl_refl pos)).
  induction H as [|? ? ? ? ? ? _ _ IH|? ? ? ? ? ? ? ? _ _ _ _ _ _ _ IH|k a c q pp cp ? ? Ev EAL Ez _ _ _ _ IH];
    intros pos0 Hi.
  - constructor.
  - exact (IH pos0 (fun x Hx => Hi x (or_intror Hx))).
  - exact (IH pos0 (fun x Hx => Hi x (or_intror Hx))).
  - constructor; [|exact (IH pos0 (fun x Hx => Hi x (or_intror Hx)))].
    exists k, a, c, q, (multiply (sub cp pp) q). split; [exact (Hi _ (or_introl eq_refl))|]. auto.
Qed.

(* no price moved: no revaluation at all *)
Lemma adj_same v date p : forall pos ts, val_adjustments v date p p pos = ROk ts -> ts = [].
Proof.
  intros pos ts H. apply val_adjustments_run in H.
  induction H as [| | |? ? ? ? pp cp ? ? _ _ _ Epp Ecp Ed]; try assumption; [reflexivity|].
  rewrite Epp in Ecp. injection Ecp as <-. rewrite sub_self_zero in Ed. discriminate.
Qed.

Lemma valuate_day_inv v s d s' d' :
  process_day (valuate_proc v) s d = ROk (s', d') ->
  exists ts s2 txns',
    val_adjustments v (d_date d) (v_prev s) (d_normalized d) (v_qty s) = ROk ts /\
    fold_txns (valuate_proc v) (mkVal (v_prev s) (d_normalized d) (v_qty s)) (d_txns d ++ ts) = ROk (s2, txns') /\
    s' = mkVal (d_normalized d) (v_cur s2) (v_qty s2) /\
    d_txns d' = txns' /\ d_normalized d' = d_normalized d /\ d_date d' = d_date d.
Proof.
  intros H. destruct (process_day_ok _ _ _ _ _ H) as (s1 & d1 & s2 & s3 & s4 & ts' & s5 & s6 & E1 & E2 & E3 & E4 & E5 & E6 & E7).
  cbn [valuate_proc pr_day_start pr_price pr_open pr_close pr_day_end cb_day cb_each] in E1, E2, E3, E6, E7.
  apply rbind_ok in E1. destruct E1 as (ts & Eadj & E1). injection E1 as <- <-.
  injection E2 as <-. injection E3 as <-. rewrite fold_asserts_none in E5 by reflexivity. injection E5 as <-. injection E6 as <-.
  injection E7 as <- <-. exists ts, s4, ts'. split; [exact Eadj|]. split; [exact E4|]. repeat split; reflexivity.
Qed.

(* a day of the stage: the revaluations of the open positions at the prices of the day against
   those of the day before; then the bookings of the day, valued at the prices of the day; the
   revaluation transactions are appended to the day as they are *)
Lemma valuate_day_run v s d s' d' :
  process_day (valuate_proc v) s d = ROk (s', d') ->
  exists ts s2 out,
    val_adjustments v (d_date d) (v_prev s) (d_normalized d) (v_qty s) = ROk ts /\
    val_run v (mkVal (v_prev s) (d_normalized d) (v_qty s)) (day_postings d) s2 out /\
    s' = mkVal (d_normalized d) (v_cur s2) (v_qty s2) /\
    day_postings d' = out ++ txns_postings ts /\ d_normalized d' = d_normalized d.
Proof.
  intros H. destruct (valuate_day_inv _ _ _ _ _ H) as (ts & s2 & txns' & Eadj & Efold & -> & Etx & En & _).
  destruct (fold_txns_app _ _ _ _ _ _ Efold) as (s1 & o1 & o2 & E1 & E2 & ->).
  rewrite (fold_txns_zero v ts s1 (adjustments_zero_qty _ _ _ _ _ _ Eadj)) in E2. injection E2 as <- <-.
  exists ts, s1, (txns_postings o1). split; [exact Eadj|]. split; [exact (fold_txns_val_run _ _ _ _ _ E1)|].
  split; [reflexivity|]. split; [|exact En]. unfold day_postings, txns_postings. rewrite Etx, map_app. apply concat_app.
Qed.

Lemma valuate_day_prev v s d s' d' :
  process_day (valuate_proc v) s d = ROk (s', d') -> v_prev s' = d_normalized d /\ d_normalized d' = d_normalized d.
Proof.
  intros H. destruct (valuate_day_run _ _ _ _ _ H) as (? & ? & ? & _ & _ & -> & _ & En). split; [reflexivity|exact En].
Qed.

Section Cell.
  Variables (v : commodity) (a : account) (c : commodity).
  Hypothesis Ha : account_ok a = true.
  Hypothesis HAL : is_AL a = true.
  Hypothesis Hcv : c <> v.

  (* the abstract per-step error: quantities satisfy Pq, prices Pp, price differences Pd *)
  Variables (Pq Pp Pd : dec -> Prop) (eps : Q).
  Hypothesis Pq_nil : Pq dec_nil.
  Hypothesis Pq_add : forall x y, Pq x -> Pq y -> Pq (add x y).
  Hypothesis Pd_sub : forall x y, Pp x -> Pp y -> Pd (sub x y).
  Hypothesis step_booking : forall q p, Pq q -> Pp p -> Qabs (merr q p) <= eps.
  Hypothesis step_adjust : forall d q, Pd d -> Pq q -> Qabs (merr d q) <= eps.
  Hypothesis eps_nonneg : 0 <= eps.

  Definition pentry := (str * (account * commodity * dec))%type.
  Definition ematch (x : pentry) : bool := acc_eqb (fst (fst (snd x))) a && str_eqb (snd (fst (snd x))) c.

  (* the position map: sorted keys, well-formed entries, the cell's quantity satisfies Pq *)
  Definition good (m : positions) : Prop :=
    keys_sorted m /\ (forall x, In x m -> entry_ok x) /\ (forall x, In x m -> ematch x = true -> Pq (snd (snd x))).

  Definition posq (m : positions) : Q := dvalue (getd m a c).

  Lemma key_match a' c' : account_ok a' = true ->
    (acc_eqb a' a && str_eqb c' c = true <-> pos_key a' c' = pos_key a c).
  Proof.
    intros Ha'. split; intros H.
    - apply andb_true_iff in H. destruct H as [H1 H2]. apply acc_eqb_name in H1. apply str_eqb_eq in H2.
      unfold pos_key. rewrite H1, H2. reflexivity.
    - apply pos_key_inj in H; [|assumption|assumption]. destruct H as [-> ->].
      rewrite acc_eqb_refl, str_eqb_refl. reflexivity.
  Qed.

  Lemma getd_key m a1 c1 a2 c2 : pos_key a1 c1 = pos_key a2 c2 -> getd m a1 c1 = getd m a2 c2.
  Proof. intros H. unfold getd, pos_get. rewrite H. reflexivity. Qed.

  Lemma good_nil : good [].
  Proof. split; [constructor|]. split; intros x []. Qed.

  Lemma good_add m a' c' q :
    good m -> account_ok a' = true -> is_AL a' = true ->
    (acc_eqb a' a && str_eqb c' c = true -> Pq q) -> good (pos_add m a' c' q).
  Proof.
    intros (Hs & He & Hp) Ha' HAL' Hq. unfold pos_add. split; [apply sm_put_sorted; exact Hs|]. split.
    - intros x Hin. apply sm_put_in in Hin. destruct Hin as [->|Hin]; [|apply He; exact Hin].
      unfold entry_ok. cbn [fst snd]. auto.
    - intros x Hin Hm. apply sm_put_in in Hin. destruct Hin as [->|Hin]; [|apply Hp; assumption].
      unfold ematch in Hm. cbn [fst snd] in Hm |- *. apply Pq_add; [|apply Hq; exact Hm].
      unfold pos_get. destruct (sm_get m (pos_key a' c')) as [[[a2 c2] q2]|] eqn:G; [|exact Pq_nil].
      apply sm_get_in in G. pose proof (He _ G) as (K & Ha2 & _). cbn [fst snd] in K, Ha2.
      apply pos_key_inj in K; [|assumption|assumption]. destruct K as [<- <-].
      apply (Hp _ G). exact Hm.
  Qed.

  Lemma posq_add m a' c' q : account_ok a' = true ->
    posq (pos_add m a' c' q) == posq m + (if acc_eqb a' a && str_eqb c' c then dvalue q else 0).
  Proof.
    intros Ha'. unfold posq, pos_add. destruct (acc_eqb a' a && str_eqb c' c) eqn:E.
    - apply (key_match a' c' Ha') in E.
      rewrite (getd_key _ a c a' c' (eq_sym E)), getd_put_same, dvalue_add.
      rewrite (getd_key m a c a' c' (eq_sym E)). reflexivity.
    - rewrite getd_put_other; [ring|]. intros K. symmetry in K. apply (key_match a' c' Ha') in K. congruence.
  Qed.

  Definition pin (p : posting) : Prop := posting_in_ok p /\ (cellb a c p = true -> Pq (p_qty p)).
  Definition cur_ok (n : option nprices) : Prop := forall pr, np_price_opt n c = Some pr -> Pp pr.

  Definition dq (p : posting) : Q := if cellb a c p then dvalue (p_qty p) else 0.
  Definition dv (p : posting) : Q := if cellb a c p then dvalue (p_val p) else 0.

  Lemma cell_not_AL p : account_ok (p_acc p) = true -> is_AL (p_acc p) = false -> cellb a c p = false.
  Proof.
    intros Hok Hn. unfold cellb. destruct (acc_eqb (p_acc p) a) eqn:E; [|reflexivity].
    apply acc_eqb_name in E. apply acc_name_inj in E; [|assumption|assumption]. congruence.
  Qed.

  Lemma cellb_com p : cellb a c p = true -> p_com p = c.
  Proof. unfold cellb. intros H. apply andb_true_iff in H. apply str_eqb_eq. exact (proj2 H). Qed.

  (* the booking of a quantity keeps the position map good and adds the quantity to the cell *)
  Lemma val_book_cell s p :
    pin p -> good (v_qty s) ->
    good (v_qty (val_book s p)) /\ posq (v_qty (val_book s p)) == posq (v_qty s) + dq p.
  Proof.
    intros [[Hok Hz] HPq] Hg. unfold val_book. destruct (is_AL (p_acc p)) eqn:EAL; cbn [v_qty].
    - split; [apply good_add; assumption|apply posq_add; exact Hok].
    - split; [exact Hg|]. unfold dq. rewrite (cell_not_AL p Hok EAL). ring.
  Qed.

  Lemma val_posting_cell s t p s' p' :
    val_posting v s t p = ROk (s', p') ->
    pin p -> good (v_qty s) -> cur_ok (v_cur s) ->
    good (v_qty s') /\ posq (v_qty s') == posq (v_qty s) + dq p /\
    Qabs (dv p' - dq p * price_value (v_cur s) c) <= inject_Z (if cellb a c p then 1 else 0) * eps.
  Proof.
    intros H Hpin Hg HPp. pose proof (val_book_cell s p Hpin Hg) as (U3 & U4).
    destruct Hpin as [[Hok Hz] HPq].
    rewrite (val_posting_state _ _ _ _ _ _ H).
    destruct (val_posting_value _ _ _ _ _ _ H) as (_ & _ & _ & _ & Vz & _ & Vn).
    unfold dv. rewrite (val_posting_cellb _ _ _ _ _ _ a c H). unfold dq in *.
    destruct (is_zero (p_qty p)) eqn:Ez.
    - (* a booking of zero: nothing moves, and it carries no value *)
      split; [exact Hg|]. rewrite (Vz eq_refl). destruct (cellb a c p).
      + rewrite (Hz eq_refl), (proj1 (is_zero_value _) Ez). split; [ring|]. apply bound_one.
        setoid_replace (0 - 0 * price_value (v_cur s) c) with 0 by ring. exact eps_nonneg.
      + split; [ring|]. apply bound_zero. ring.
    - split; [exact U3|]. split; [exact U4|].
      destruct (cellb a c p) eqn:Ec; [|apply bound_zero; ring].
      pose proof (cellb_com p Ec) as Hc.
      assert (Ev : str_eqb v (p_com p) = false) by (apply str_eqb_neq; congruence).
      destruct (Vn eq_refl Ev) as (np & pr & Ecur & Epr & ->). rewrite Hc in Epr.
      assert (Hpr : np_price_opt (v_cur s) c = Some pr) by (rewrite Ecur; exact Epr).
      unfold price_value. rewrite Hpr. apply bound_one. exact (step_booking _ _ (HPq eq_refl) (HPp _ Hpr)).
  Qed.

  Lemma val_run_cell s ps s' ps' :
    val_run v s ps s' ps' -> Forall pin ps -> good (v_qty s) -> cur_ok (v_cur s) ->
    good (v_qty s') /\ posq (v_qty s') == posq (v_qty s) + cell_qty a c ps /\
    Qabs (cell_value a c ps' - cell_qty a c ps * price_value (v_cur s) c) <= inject_Z (cell_count a c ps) * eps.
  Proof.
    intros H. induction H as [s|s t p ps s1 p1 s' ps1 E1 _ IH]; intros Hpin Hg Hcur.
    - split; [exact Hg|]. split; [cbn; ring|]. apply bound_zero. cbn. ring.
    - inversion Hpin as [|? ? Hp Hrest]; subst.
      destruct (val_posting_cell _ _ _ _ _ E1 Hp Hg Hcur) as (A3 & A5 & A6).
      pose proof (val_posting_cur _ _ _ _ _ _ E1) as A2. rewrite <- A2 in Hcur, A6.
      destruct (IH Hrest A3 Hcur) as (B3 & B5 & B6). rewrite <- A2.
      split; [exact B3|]. split.
      + rewrite B5, A5, cell_qty_cons. unfold dq. ring.
      + cbn [cell_count]. eapply bound_add; [exact A6|exact B6|].
        rewrite cell_value_cons, cell_qty_cons. unfold dv, dq. ring.
  Qed.

  (* of the two postings of a revaluation, the one on the Income mirror is outside the cell *)
  Lemma adjust_pair a' c' gain : account_ok a' = true ->
    let ps := pair_build (valuation_account_for a') a' c' dec_nil gain in
    cell_value a c ps == (if acc_eqb a' a && str_eqb c' c then dvalue gain else 0) /\
    cell_count a c ps = (if acc_eqb a' a && str_eqb c' c then 1 else 0)%Z.
  Proof.
    intros Ha'.
    assert (Hm : forall q x, cellb a c (mkPosting (valuation_account_for a') a' c' q x) = false).
    { intros q x. apply cell_not_AL; [apply account_ok_valuation; exact Ha'|reflexivity]. }
    unfold pair_build. change (is_neg dec_nil) with false. change (is_zero dec_nil) with true. cbn [orb andb].
    destruct (is_neg gain); cbv beta iota zeta; unfold cell_value; cbn [qsum cell_count]; rewrite Hm;
      unfold cellb; cbn [p_acc p_com p_val]; rewrite ?neg_involutive;
      destruct (acc_eqb a' a && str_eqb c' c); split; try reflexivity; ring.
  Qed.

  Fixpoint entries_qty (m : positions) : Q :=
    match m with
    | [] => 0
    | x :: r => (if ematch x then dvalue (snd (snd x)) else 0) + entries_qty r
    end.

  Lemma adj_cell date prev cur pos ts :
    val_adjustments v date prev cur pos = ROk ts -> cur_ok prev -> cur_ok cur ->
    (forall x, In x pos -> entry_ok x) -> (forall x, In x pos -> ematch x = true -> Pq (snd (snd x))) ->
    Qabs (cell_value a c (txns_postings ts) - (price_value cur c - price_value prev c) * entries_qty pos)
      <= inject_Z (cell_count a c (txns_postings ts)) * eps.
  Proof.
    intros H Hprev Hcur. apply val_adjustments_run in H.
    induction H as [|k a' c' q rest ts E0 _ IH|k a' c' q pp cp rest ts _ _ _ Epp Ecp Ed _ IH
                    |k a' c' q pp cp rest ts _ _ _ Epp Ecp _ _ IH]; intros He Hp.
    1: apply bound_zero; cbn; ring.
    all: specialize (IH (fun x Hx => He x (or_intror Hx)) (fun x Hx => Hp x (or_intror Hx)));
      pose proof (He _ (or_introl eq_refl)) as (_ & Ha' & HAL'); cbn [fst snd] in Ha', HAL';
      cbn [entries_qty]; unfold ematch at 1; cbn [fst snd].
    - (* passed over, no transaction: the entry is outside the cell, or its quantity is zero *)
      apply (bound_eq _ _ _ _ IH). destruct (acc_eqb a' a && str_eqb c' c) eqn:Em; [|ring].
      apply andb_true_iff in Em. destruct Em as [_ Em]. apply str_eqb_eq in Em. subst c'.
      rewrite HAL', (proj2 (str_eqb_neq _ _) Hcv) in E0. cbn [negb orb] in E0.
      apply is_zero_value in E0. rewrite E0. ring.
    - (* the price did not move, no transaction: the term of the entry is zero *)
      apply (bound_eq _ _ _ _ IH). destruct (acc_eqb a' a && str_eqb c' c) eqn:Em; [|ring].
      apply andb_true_iff in Em. destruct Em as [_ Em]. apply str_eqb_eq in Em. subst c'.
      unfold price_value. rewrite Epp, Ecp. apply is_zero_value in Ed. rewrite dvalue_sub in Ed.
      setoid_replace (dvalue cp - dvalue pp) with 0 by exact Ed. ring.
    - destruct (adjust_pair a' c' (multiply (sub cp pp) q) Ha') as (P2 & P3).
      unfold txns_postings in *. cbn [map concat t_postings]. rewrite cell_count_app, P3.
      destruct (acc_eqb a' a && str_eqb c' c) eqn:Em.
      + pose proof Em as Em0.
        apply andb_true_iff in Em. destruct Em as [_ Em]. apply str_eqb_eq in Em. subst c'.
        eapply bound_add; [apply bound_one|exact IH|].
        * apply (step_adjust (sub cp pp) q); [apply Pd_sub; [apply Hcur|apply Hprev]; assumption|].
          apply (Hp _ (or_introl eq_refl)). unfold ematch. cbn [fst snd]. exact Em0.
        * rewrite cell_value_app, P2. unfold merr, price_value. rewrite Epp, Ecp, dvalue_sub. ring.
      + eapply bound_add; [apply (bound_zero eps 0); reflexivity|exact IH|].
        rewrite cell_value_app, P2. ring.
  Qed.

  (* the cell's entry of a good position map is the one under its key *)
  Lemma ematch_key x : entry_ok x -> ematch x = true -> fst x = pos_key a c.
  Proof. intros (K & Ha' & _) Em. unfold ematch in Em. apply (key_match _ _ Ha') in Em. congruence. Qed.

  Lemma sorted_head_fresh (x : pentry) m : keys_sorted (x :: m) -> forall y, In y m -> fst y <> fst x.
  Proof.
    intros Hs y Hy E. inversion Hs as [|? ? _ Hall]; subst. rewrite Forall_forall in Hall.
    specialize (Hall y Hy). unfold key_lt in Hall. rewrite E in Hall. exact (str_cmp_lt_irrefl _ Hall).
  Qed.

  Lemma entries_nokey m :
    (forall x, In x m -> entry_ok x) -> (forall x, In x m -> fst x <> pos_key a c) -> entries_qty m == 0.
  Proof.
    induction m as [|x m IH]; intros He Hk; cbn [entries_qty]; [reflexivity|].
    rewrite IH; [|intros y Hy; apply He; right; exact Hy|intros y Hy; apply Hk; right; exact Hy].
    destruct (ematch x) eqn:Em; [|ring].
    destruct (Hk x (or_introl eq_refl) (ematch_key x (He x (or_introl eq_refl)) Em)).
  Qed.

  Lemma entries_qty_posq m : keys_sorted m -> (forall x, In x m -> entry_ok x) -> entries_qty m == posq m.
  Proof.
    induction m as [|x m IH]; intros Hs He; [reflexivity|].
    assert (He' : forall y, In y m -> entry_ok y) by (intros y Hy; apply He; right; exact Hy).
    pose proof (He _ (or_introl eq_refl)) as Hx.
    cbn [entries_qty]. destruct (ematch x) eqn:Em.
    - pose proof (ematch_key x Hx Em) as K.
      rewrite entries_nokey; [|exact He'|intros y Hy; rewrite <- K; exact (sorted_head_fresh x m Hs y Hy)].
      unfold posq, getd, pos_get. destruct x as [k [[a' c'] q]]. cbn [fst snd] in *. cbn [sm_get].
      rewrite K, str_eqb_refl. ring.
    - inversion Hs as [|? ? Hs' _]; subst. rewrite (IH Hs' He').
      destruct Hx as (K & Ha' & _). unfold posq, getd, pos_get. destruct x as [k [[a' c'] q]]. cbn [fst snd] in *. cbn [sm_get].
      rewrite (proj2 (str_eqb_neq _ _)); [ring|]. intros E. rewrite K in E. symmetry in E. apply (key_match _ _ Ha') in E.
      unfold ematch in Em. cbn [fst snd] in Em. congruence.
  Qed.

  Definition day_in (d : day) : Prop := Forall pin (day_postings d) /\ cur_ok (d_normalized d).

  Lemma day_cell s d s' d' :
    process_day (valuate_proc v) s d = ROk (s', d') ->
    day_in d -> good (v_qty s) -> cur_ok (v_prev s) ->
    good (v_qty s') /\ posq (v_qty s') == posq (v_qty s) + cell_qty a c (day_postings d) /\
    Qabs (cell_value a c (day_postings d')
          - (posq (v_qty s') * price_value (d_normalized d) c - posq (v_qty s) * price_value (v_prev s) c))
      <= inject_Z (cell_count a c (day_postings d')) * eps.
  Proof.
    intros H Hin (Hs & He & Hp) Hprev.
    destruct (valuate_day_run _ _ _ _ _ H) as (ts & s2 & out & Eadj & Erun & -> & Eout & _).
    pose proof (adj_cell _ _ _ _ _ Eadj Hprev (proj2 Hin) He Hp) as Badj.
    destruct (val_run_cell _ _ _ _ Erun (proj1 Hin) (conj Hs (conj He Hp)) (proj2 Hin)) as (B3 & B5 & B6).
    cbn [v_prev v_cur v_qty] in *. rewrite (entries_qty_posq _ Hs He) in Badj.
    split; [exact B3|]. split; [exact B5|].
    rewrite Eout, cell_count_app, (val_run_count _ a c _ _ _ _ Erun).
    eapply bound_add; [exact B6|exact Badj|]. rewrite cell_value_app, B5. ring.
  Qed.

  Lemma days_cell ds : forall s s' ds',
    process_days (valuate_proc v) s ds = ROk (s', ds') ->
    Forall day_in ds -> good (v_qty s) -> cur_ok (v_prev s) ->
    v_prev s' = last_normalized (v_prev s) ds /\ good (v_qty s') /\ cur_ok (v_prev s') /\
    map d_normalized ds' = map d_normalized ds /\
    posq (v_qty s') == posq (v_qty s) + cell_qty a c (days_postings ds) /\
    Qabs (cell_value a c (days_postings ds')
          - (posq (v_qty s') * price_value (v_prev s') c - posq (v_qty s) * price_value (v_prev s) c))
      <= inject_Z (cell_count a c (days_postings ds')) * eps.
  Proof.
    intros s s' ds' H. apply process_days_run in H.
    induction H as [s|s d ds s1 d1 s' ds1 E1 _ IH]; intros Hin Hg Hprev.
    - split; [reflexivity|]. split; [exact Hg|]. split; [exact Hprev|]. split; [reflexivity|].
      split; [cbn; ring|]. apply bound_zero. cbn. ring.
    - inversion Hin as [|? ? Hd Hrest]; subst.
      destruct (valuate_day_prev _ _ _ _ _ E1) as [A1 A2].
      destruct (day_cell _ _ _ _ E1 Hd Hg Hprev) as (A3 & A4 & A5).
      assert (Hprev1 : cur_ok (v_prev s1)) by (rewrite A1; apply Hd).
      destruct (IH Hrest A3 Hprev1) as (B1 & B2 & B3 & B4 & B5 & B6).
      split; [rewrite B1, A1; reflexivity|]. split; [exact B2|]. split; [exact B3|].
      split; [cbn [map]; rewrite A2, B4; reflexivity|].
      unfold days_postings in *. cbn [map concat].
      split; [rewrite B5, A4, cell_qty_app; ring|].
      rewrite cell_count_app. eapply bound_add; [exact A5|exact B6|].
      rewrite cell_value_app, A1. ring.
  Qed.
End Cell.

Lemma days_in_intro a c (Pq Pp : dec -> Prop) ds :
  Forall posting_in_ok (days_postings ds) ->
  Forall (fun p => cellb a c p = true -> Pq (p_qty p)) (days_postings ds) ->
  Forall (fun d => cur_ok c Pp (d_normalized d)) ds ->
  Forall (day_in a c Pq Pp) ds.
Proof.
  unfold days_postings. rewrite !Forall_concat, !Forall_map. intros H1 H2 H3.
  rewrite Forall_forall in *. intros d Hd. split; [|exact (H3 d Hd)].
  specialize (H1 d Hd). specialize (H2 d Hd). rewrite Forall_forall in *.
  intros p Hp. split; [exact (H1 p Hp)|exact (H2 p Hp)].
Qed.

Lemma days_postings_app l1 l2 : days_postings (l1 ++ l2) = days_postings l1 ++ days_postings l2.
Proof. unfold days_postings. rewrite map_app. apply concat_app. Qed.

Definition val_init : val_state := mkVal None None [].

Lemma posq_nil a c : posq a c [] == 0.
Proof. reflexivity. Qed.

Definition PT (_ : dec) : Prop := True.

Lemma cur_ok_PT c n : cur_ok c PT n.
Proof. intros pr _. exact I. Qed.

Lemma days_in_PT a c ds : Forall posting_in_ok (days_postings ds) -> Forall (day_in a c PT PT) ds.
Proof.
  intros H. apply days_in_intro; [exact H| |].
  - apply Forall_forall. intros p _ _. exact I.
  - apply Forall_forall. intros d _. apply cur_ok_PT.
Qed.

(* delta form, from any state whose position map is well formed (every state the stage reaches) *)
Theorem mtm_delta v a c ds s s' ds' :
  account_ok a = true -> is_AL a = true -> c <> v ->
  Forall posting_in_ok (days_postings ds) ->
  good a c PT (v_qty s) ->
  process_days (valuate_proc v) s ds = ROk (s', ds') ->
  v_prev s' = last_normalized (v_prev s) ds /\ good a c PT (v_qty s') /\
  posq a c (v_qty s') == posq a c (v_qty s) + cell_qty a c (days_postings ds) /\
  Qabs (cell_value a c (days_postings ds')
        - (posq a c (v_qty s') * price_value (v_prev s') c - posq a c (v_qty s) * price_value (v_prev s) c))
    <= inject_Z (cell_count a c (days_postings ds')) * eps8.
Proof.
  intros Ha HAL Hcv Hin Hg H.
  destruct (days_cell v a c Ha HAL Hcv PT PT PT eps8 I (fun _ _ _ _ => I) (fun _ _ _ _ => I)
              (fun q p _ _ => merr_bound q p) (fun d q _ _ => merr_bound d q) eps8_nonneg
              ds s s' ds' H (days_in_PT a c ds Hin) Hg (cur_ok_PT c _)) as (B1 & B2 & _ & _ & B5 & B6).
  split; [exact B1|]. split; [exact B2|]. split; [exact B5|exact B6].
Qed.

(* the accumulated posted value of an asset/liability position is quantity * latest price, up to
   one 10^-8 per contributing multiplication *)
Theorem mark_to_market_stage v a c ds s' ds' :
  account_ok a = true -> is_AL a = true -> c <> v ->
  Forall posting_in_ok (days_postings ds) ->
  process_days (valuate_proc v) val_init ds = ROk (s', ds') ->
  Qabs (cell_value a c (days_postings ds')
        - cell_qty a c (days_postings ds) * price_value (last_normalized None ds) c)
    <= inject_Z (cell_count a c (days_postings ds')) * eps8.
Proof.
  intros Ha HAL Hcv Hin H.
  destruct (mtm_delta v a c ds val_init s' ds' Ha HAL Hcv Hin (good_nil a c PT) H) as (B1 & _ & B5 & B6).
  cbn [val_init v_prev v_qty] in *. rewrite posq_nil in *.
  eapply Qle_trans; [|exact B6]. apply Qle_lteq. right. apply Qabs_wd.
  rewrite B5, B1. ring.
Qed.

(* windowed: the value posted on the days after the first k is the change of the market value *)
Theorem mark_to_market_window v a c ds1 ds2 s' out :
  account_ok a = true -> is_AL a = true -> c <> v ->
  Forall posting_in_ok (days_postings (ds1 ++ ds2)) ->
  process_days (valuate_proc v) val_init (ds1 ++ ds2) = ROk (s', out) ->
  Qabs (cell_value a c (days_postings (skipn (length ds1) out))
        - (cell_qty a c (days_postings (ds1 ++ ds2)) * price_value (last_normalized None (ds1 ++ ds2)) c
           - cell_qty a c (days_postings ds1) * price_value (last_normalized None ds1) c))
    <= inject_Z (cell_count a c (days_postings (skipn (length ds1) out))) * eps8.
Proof.
  intros Ha HAL Hcv Hin H.
  destruct (process_days_app _ _ _ _ _ _ H) as (s1 & o1 & o2 & E1 & E2 & ->).
  pose proof Hin as Hin12. rewrite days_postings_app in Hin12. apply Forall_app in Hin12. destruct Hin12 as [Hin1 Hin2].
  destruct (mtm_delta v a c ds1 val_init s1 o1 Ha HAL Hcv Hin1 (good_nil a c PT) E1) as (A1 & A2 & A5 & _).
  destruct (mtm_delta v a c ds2 s1 s' o2 Ha HAL Hcv Hin2 A2 E2) as (B1 & _ & B5 & B6).
  rewrite <- (process_days_length _ _ _ _ _ E1), skipn_app, skipn_all, Nat.sub_diag. cbn [skipn app].
  cbn [val_init v_prev v_qty] in *. rewrite posq_nil in A5.
  eapply Qle_trans; [|exact B6]. apply Qle_lteq. right. apply Qabs_wd.
  assert (EL : last_normalized None (ds1 ++ ds2) = v_prev s').
  { rewrite B1, A1. unfold last_normalized. rewrite fold_left_app. reflexivity. }
  rewrite EL, <- A1.
  assert (EQ : cell_qty a c (days_postings (ds1 ++ ds2)) == posq a c (v_qty s')).
  { rewrite days_postings_app, cell_qty_app, B5, A5. ring. }
  rewrite EQ. rewrite A5. ring.
Qed.

Definition decimals_le (k : Z) (d : dec) : Prop := (- k <= ex d)%Z.

(* when quantities have at most kq decimals and prices at most kp, kq + kp <= 8, no product is
   truncated and the posted value is exactly quantity * latest price *)
Theorem mark_to_market_exact v a c kq kp ds s' ds' :
  account_ok a = true -> is_AL a = true -> c <> v ->
  (0 <= kq)%Z -> (kq + kp <= 8)%Z ->
  Forall posting_in_ok (days_postings ds) ->
  Forall (fun p => cellb a c p = true -> decimals_le kq (p_qty p)) (days_postings ds) ->
  Forall (fun d => forall pr, np_price_opt (d_normalized d) c = Some pr -> decimals_le kp pr) ds ->
  process_days (valuate_proc v) val_init ds = ROk (s', ds') ->
  cell_value a c (days_postings ds') == cell_qty a c (days_postings ds) * price_value (last_normalized None ds) c.
Proof.
  intros Ha HAL Hcv Hkq Hk Hin Hq Hp H.
  assert (Hinit : cur_ok c (decimals_le kp) (v_prev val_init)) by (intros pr Hpr; discriminate).
  assert (P1 : decimals_le kq dec_nil) by (unfold decimals_le; cbn; lia).
  assert (P2 : forall x y, decimals_le kq x -> decimals_le kq y -> decimals_le kq (add x y))
    by (unfold decimals_le; intros x y Hx Hy; rewrite ex_add; lia).
  assert (P3 : forall x y, decimals_le kp x -> decimals_le kp y -> decimals_le kp (sub x y))
    by (unfold decimals_le; intros x y Hx Hy; rewrite ex_sub; lia).
  assert (P4 : forall q p, decimals_le kq q -> decimals_le kp p -> Qabs (merr q p) <= 0)
    by (unfold decimals_le; intros q p Hq' Hp'; rewrite merr_exact by lia; discriminate).
  assert (P5 : forall d q, decimals_le kp d -> decimals_le kq q -> Qabs (merr d q) <= 0)
    by (unfold decimals_le; intros d q Hd Hq'; rewrite merr_exact by lia; discriminate).
  assert (P6 : 0 <= 0) by discriminate.
  destruct (days_cell v a c Ha HAL Hcv (decimals_le kq) (decimals_le kp) (decimals_le kp) 0 P1 P2 P3 P4 P5 P6
              ds val_init s' ds' H (days_in_intro a c _ _ ds Hin Hq Hp) (good_nil a c _) Hinit)
    as (B1 & _ & _ & _ & B5 & B6).
  cbn [val_init v_prev v_qty] in *. rewrite posq_nil in *. apply bound_exact in B6.
  rewrite B5, B1 in B6. rewrite <- (Qplus_0_l (_ * _)), <- B6. ring.
Qed.

Open Scope Q_scope.

(* ComputePrices, one day: the transactions pass; the state remembers the day's prices; a day
   without declarations gets the remembered ones *)
Lemma cp_day v s d s1 d1 :
  process_day (compute_prices_proc v) s d = ROk (s1, d1) ->
  d_txns d1 = d_txns d /\ d_prices d1 = d_prices d /\
  cp_previous s1 = d_normalized d1 /\ (d_prices d = [] -> d_normalized d1 = cp_previous s).
Proof.
  intros H. unfold process_day in H.
  cbn [compute_prices_proc pr_day_start pr_price pr_open pr_close pr_day_end rbind fst snd] in H.
  destruct (fold_res cp_price_cb s (d_prices d)) as [s2| |] eqn:F; cbn [rbind] in H; try discriminate.
  rewrite fold_txns_cp in H. cbn [rbind fst snd] in H.
  rewrite fold_asserts_cp in H. cbn [rbind] in H.
  destruct (fold_cp_prices _ _ _ F) as [_ P2].
  unfold cp_day_end in H. cbn [d_prices d_date d_opens d_txns d_asserts d_closes d_normalized] in H.
  destruct (d_prices d) as [|x l].
  - injection H as <- <-. repeat split. intros _. exact P2.
  - destruct (normalize (cp_prices s2) v); [|discriminate]. injection H as <- <-. repeat split. discriminate.
Qed.

Lemma cp_days_postings v ds : forall s s' ds',
  process_days (compute_prices_proc v) s ds = ROk (s', ds') -> days_postings ds' = days_postings ds.
Proof.
  intros s s' ds' H. apply process_days_run in H. induction H as [|s d ds s1 d1 s' ds1 E1 _ IH]; [reflexivity|].
  unfold days_postings in *. cbn [map concat]. rewrite IH.
  unfold day_postings. destruct (cp_day _ _ _ _ _ E1) as (-> & _). reflexivity.
Qed.

Lemma last_normalized_nth ds : forall n0, ds <> [] ->
  exists d, nth_error ds (pred (length ds)) = Some d /\ last_normalized n0 ds = d_normalized d.
Proof.
  induction ds as [|d r IH]; intros n0 Hne; [contradiction|].
  destruct r as [|d2 r2].
  - exists d. split; reflexivity.
  - destruct (IH (d_normalized d) ltac:(discriminate)) as (x & Hx & Hl). exists x. split; [exact Hx|exact Hl].
Qed.

(* C03 for the two stages in sequence: the price is the one in force on the last day according to
   the declarations up to it (Spec/PriceDaySpec.v price_on: C12 "on a given day") *)
Theorem mark_to_market_pipeline v a c ds0 s1 ds1 s2 ds2 :
  account_ok a = true -> is_AL a = true -> c <> v -> ds0 <> [] ->
  Forall posting_in_ok (days_postings ds0) ->
  process_days (compute_prices_proc v) (mkCp [] None) ds0 = ROk (s1, ds1) ->
  process_days (valuate_proc v) val_init ds1 = ROk (s2, ds2) ->
  Qabs (cell_value a c (days_postings ds2)
        - cell_qty a c (days_postings ds0) * price_value (price_on v ds0 (pred (length ds0))) c)
    <= inject_Z (cell_count a c (days_postings ds2)) * eps8.
Proof.
  intros Ha HAL Hcv Hne Hin H1 H2.
  pose proof (cp_days_postings _ _ _ _ _ H1) as EP.
  destruct (compute_prices_days v _ _ _ H1) as [Hlen Hn].
  assert (Hne1 : ds1 <> []) by (intros ->; destruct ds0; [contradiction|discriminate]).
  destruct (last_normalized_nth ds1 None Hne1) as (d & Hd & Hl).
  rewrite Hlen in Hd. rewrite <- (Hn _ _ Hd), <- Hl, <- EP.
  apply (mark_to_market_stage v a c ds1 s2 ds2 Ha HAL Hcv); [rewrite EP; exact Hin|exact H2].
Qed.

Lemma history_upto_snoc ds : forall k d,
  nth_error ds (S k) = Some d -> history_upto ds (S k) = history_upto ds k ++ d_prices d.
Proof.
  induction ds as [|x r IH]; intros k d H; [discriminate|].
  cbn [nth_error] in H. rewrite history_upto_S. destruct k as [|k].
  - rewrite history_upto_0. destruct r as [|y r']; [discriminate|]. injection H as ->.
    rewrite history_upto_0. reflexivity.
  - rewrite history_upto_S, (IH _ _ H), app_assoc. reflexivity.
Qed.

(* prices are carried forward: a day without price declarations has the prices of the day before *)
Theorem prices_carried_forward v ds k d :
  nth_error ds (S k) = Some d -> d_prices d = [] -> price_on v ds (S k) = price_on v ds k.
Proof.
  intros H Hp. unfold price_on. rewrite (history_upto_snoc _ _ _ H), Hp, app_nil_r. reflexivity.
Qed.

Section Held.
  Variables (v : commodity) (a : account) (c : commodity).
  Hypothesis Ha : account_ok a = true.
  Hypothesis HAL : is_AL a = true.
  Hypothesis Hcv : c <> v.

  (* revaluation succeeded: every open non-V asset/liability position has a price that day *)
  Lemma adj_requires_price date prev cur pos ts :
    val_adjustments v date prev cur pos = ROk ts ->
    forall k a' c' q, In (k, (a', c', q)) pos -> is_AL a' = true -> c' <> v -> is_zero q = false ->
    exists cp, np_price_opt cur c' = Some cp.
  Proof.
    intros H. apply val_adjustments_run in H.
    induction H as [|k0 a0 c0 q0 rest ts E0 _ IH|k0 a0 c0 q0 pp cp rest ts _ _ _ _ Ecp _ _ IH|k0 a0 c0 q0 pp cp rest ts _ _ _ _ Ecp _ _ IH];
      intros k a' c' q Hin HAL' Hc' Hq; [destruct Hin| | |];
      (destruct Hin as [E|Hin]; [injection E as -> -> -> ->|exact (IH _ _ _ _ Hin HAL' Hc' Hq)]).
    - rewrite HAL', Hq, (proj2 (str_eqb_neq c' v) Hc') in E0. discriminate.
    - exists cp. exact Ecp.
    - exists cp. exact Ecp.
  Qed.

  Definition hp (s : val_state) : Prop :=
    is_zero (getd (v_qty s) a c) = false -> exists pr, np_price_opt (v_cur s) c = Some pr.

  Lemma val_posting_hp s t p s' p' :
    val_posting v s t p = ROk (s', p') -> account_ok (p_acc p) = true -> hp s -> hp s'.
  Proof.
    intros H Hok Hhp. pose proof (val_posting_cur _ _ _ _ _ _ H) as Ecur.
    pose proof (val_posting_state _ _ _ _ _ _ H) as Es.
    destruct (is_zero (p_qty p)) eqn:Ez; [subst s'; exact Hhp|].
    destruct (cellb a c p) eqn:Ec.
    - (* a booking of the cell itself needs the price *)
      intros _. rewrite Ecur. pose proof (cellb_com a c p Ec) as Hc.
      assert (Ev : str_eqb v (p_com p) = false) by (apply str_eqb_neq; congruence).
      destruct (val_posting_value _ _ _ _ _ _ H) as (_ & _ & _ & _ & _ & _ & Vn).
      destruct (Vn Ez Ev) as (np & pr & E1 & E2 & _). exists pr. rewrite E1, <- Hc. exact E2.
    - (* any other booking leaves the cell's quantity alone *)
      assert (Eq : getd (v_qty s') a c = getd (v_qty s) a c).
      { rewrite Es. unfold val_book. destruct (is_AL (p_acc p)); [|reflexivity]. cbn [v_qty]. unfold pos_add.
        apply getd_put_other. intros K. symmetry in K. apply (key_match a c Ha _ _ Hok) in K.
        unfold cellb in Ec. congruence. }
      unfold hp. rewrite Eq, Ecur. exact Hhp.
  Qed.

  Lemma val_run_hp s ps s' ps' :
    val_run v s ps s' ps' -> Forall (fun p => account_ok (p_acc p) = true) ps -> hp s -> hp s'.
  Proof.
    intros H. induction H as [|s t p ps s1 p1 s' ps1 E1 _ IH]; intros Hok Hhp; [exact Hhp|].
    inversion Hok as [|? ? Hp Hrest]; subst. exact (IH Hrest (val_posting_hp _ _ _ _ _ E1 Hp Hhp)).
  Qed.

  (* after a day that the stage accepted, a non-zero position of the cell has a price that day *)
  Lemma day_held_has_price s d s' d' :
    process_day (valuate_proc v) s d = ROk (s', d') ->
    Forall posting_in_ok (day_postings d) -> (forall x, In x (v_qty s) -> entry_ok x) ->
    is_zero (getd (v_qty s') a c) = false -> exists pr, np_price_opt (d_normalized d) c = Some pr.
  Proof.
    intros H Hin He.
    destruct (valuate_day_run _ _ _ _ _ H) as (ts & s2 & out & Eadj & Erun & -> & _).
    assert (H0 : hp (mkVal (v_prev s) (d_normalized d) (v_qty s))).
    { unfold hp. cbn [v_qty v_cur]. intros Hz. unfold getd, pos_get in Hz.
      destruct (sm_get (v_qty s) (pos_key a c)) as [[[a2 c2] q2]|] eqn:G; [|discriminate].
      apply sm_get_in in G. pose proof (He _ G) as (K & Ha2 & _). cbn [fst snd] in K, Ha2.
      apply pos_key_inj in K; [|assumption|assumption]. destruct K as [<- <-].
      exact (adj_requires_price _ _ _ _ _ Eadj _ _ _ _ G HAL Hcv Hz). }
    assert (Hok : Forall (fun p => account_ok (p_acc p) = true) (day_postings d))
      by (eapply Forall_impl; [|exact Hin]; intros p Hp; exact (proj1 Hp)).
    pose proof (val_run_hp _ _ _ _ Erun Hok H0) as H1. unfold hp in H1.
    rewrite (val_run_cur _ _ _ _ _ Erun) in H1. exact H1.
  Qed.
End Held.

(* whenever the final quantity of the cell is not zero, its price on the last day exists: the
   0 that price_value returns for a missing price is never multiplied with a non-zero quantity *)
Theorem held_has_price v a c ds s' ds' :
  account_ok a = true -> is_AL a = true -> c <> v ->
  Forall posting_in_ok (days_postings ds) ->
  process_days (valuate_proc v) val_init ds = ROk (s', ds') ->
  ~ cell_qty a c (days_postings ds) == 0 ->
  exists pr, np_price_opt (last_normalized None ds) c = Some pr.
Proof.
  intros Ha HAL Hcv Hin H Hq.
  destruct (mtm_delta v a c ds val_init s' ds' Ha HAL Hcv Hin (good_nil a c PT) H) as (_ & _ & B5 & _).
  cbn [val_init v_qty] in B5. rewrite posq_nil, Qplus_0_l in B5.
  assert (Hz : is_zero (getd (v_qty s') a c) = false).
  { destruct (is_zero (getd (v_qty s') a c)) eqn:Ez; [|reflexivity].
    destruct Hq. rewrite <- B5. apply is_zero_value. exact Ez. }
  (* only the last day matters: the run up to it leaves a well-formed position map *)
  assert (Hne : ds <> []) by (intros ->; apply Hq; reflexivity).
  destruct (exists_last Hne) as (ds0 & d & ->).
  destruct (process_days_app _ _ _ _ _ _ H) as (s1 & o1 & o2 & E1 & E2 & ->).
  rewrite days_postings_app in Hin. apply Forall_app in Hin. destruct Hin as [Hin0 Hd].
  destruct (mtm_delta v a c ds0 val_init s1 o1 Ha HAL Hcv Hin0 (good_nil a c PT) E1) as (_ & (_ & He & _) & _).
  apply process_days_run in E2. inversion E2 as [|? ? ? s2 d1 ? ? F1 F2]; subst. inversion F2; subst.
  unfold last_normalized. rewrite fold_left_app. cbn [fold_left].
  unfold days_postings in Hd. cbn [map concat] in Hd. rewrite app_nil_r in Hd.
  exact (day_held_has_price v a c Ha HAL Hcv _ _ _ _ F1 Hd He Hz).
Qed.

(* the position map of the stage only ever holds asset/liability accounts *)
Lemma val_posting_positions_AL v s t p s' p' :
  val_posting v s t p = ROk (s', p') ->
  (forall x, In x (v_qty s) -> is_AL (fst (fst (snd x))) = true) ->
  (forall x, In x (v_qty s') -> is_AL (fst (fst (snd x))) = true).
Proof.
  intros H Hs. rewrite (val_posting_state _ _ _ _ _ _ H). destruct (is_zero (p_qty p)); [exact Hs|].
  unfold val_book. destruct (is_AL (p_acc p)) eqn:EAL; [|exact Hs]. cbn [v_qty]. unfold pos_add.
  intros x Hin. apply sm_put_in in Hin. destruct Hin as [->|Hin]; [exact EAL|apply Hs; exact Hin].
Qed.

Definition entries_ok (m : positions) : Prop := keys_sorted m /\ (forall x, In x m -> entry_ok x).

Lemma entries_ok_good a c m : entries_ok m <-> good a c PT m.
Proof.
  unfold entries_ok, good. split.
  - intros [H1 H2]. split; [exact H1|]. split; [exact H2|]. intros; exact I.
  - intros (H1 & H2 & _). split; assumption.
Qed.

Lemma entries_ok_add m a c q : entries_ok m -> account_ok a = true -> is_AL a = true -> entries_ok (pos_add m a c q).
Proof.
  intros He Ha HAL. apply (entries_ok_good a c).
  apply (good_add a c PT I (fun _ _ _ _ => I)); [apply entries_ok_good; exact He|exact Ha|exact HAL|intros _; exact I].
Qed.

(* the position map stays well formed over any run of the stage: the revaluations leave it alone,
   a booking adds to the position of an asset or liability account *)
Lemma day_entries_ok v s d s1 d1 :
  process_day (valuate_proc v) s d = ROk (s1, d1) ->
  Forall posting_in_ok (day_postings d) -> entries_ok (v_qty s) -> entries_ok (v_qty s1).
Proof.
  intros H Hin Hs. destruct (valuate_day_run _ _ _ _ _ H) as (ts & s2 & out & _ & Erun & -> & _).
  refine (proj1 (val_run_inv v entries_ok (fun p => account_ok (p_acc p) = true) _ _ _ _ _ Erun _ Hs)).
  - intros s0 t p s' p' E Hp He. split; [|rewrite (proj1 (val_posting_value _ _ _ _ _ _ E)); exact Hp].
    rewrite (val_posting_state _ _ _ _ _ _ E). destruct (is_zero (p_qty p)); [exact He|]. unfold val_book.
    destruct (is_AL (p_acc p)) eqn:EAL; [|exact He]. exact (entries_ok_add _ _ _ _ He Hp EAL).
  - eapply Forall_impl; [|exact Hin]. intros p Hp. exact (proj1 Hp).
Qed.

Lemma days_entries_ok v ds s s' ds' :
  Forall posting_in_ok (days_postings ds) -> entries_ok (v_qty s) ->
  process_days (valuate_proc v) s ds = ROk (s', ds') -> entries_ok (v_qty s').
Proof.
  intros Hin Hs H. apply process_days_run in H. induction H as [|s d ds s1 d1 s' ds1 E1 _ IH]; [exact Hs|].
  unfold days_postings in Hin. cbn [map concat] in Hin. apply Forall_app in Hin.
  exact (IH (proj2 Hin) (day_entries_ok _ _ _ _ _ E1 (proj1 Hin) Hs)).
Qed.

(* the revaluation transactions touch asset/liability accounts and Income accounts only *)
Lemma adjustments_other_accounts v date prev cur pos ts b cb :
  val_adjustments v date prev cur pos = ROk ts ->
  (forall x, In x pos -> entry_ok x) ->
  account_ok b = true -> is_AL b = false -> acc_type b <> Some Income ->
  cell_count b cb (txns_postings ts) = 0%Z.
Proof.
  intros H He Hb HnAL HnI. pose proof (val_adjustments_only_AL _ _ _ _ _ _ H) as F.
  clear H. induction F as [|t ts (k & a & c & q & gain & Hin & HAL & _ & _ & Hps) _ IH]; [reflexivity|].
  unfold txns_postings in *. cbn [map concat]. rewrite cell_count_app, IH, Hps, Z.add_0_r.
  pose proof (He _ Hin) as (_ & Ha & _). cbn [fst snd] in Ha.
  assert (N1 : acc_eqb a b = false).
  { destruct (acc_eqb a b) eqn:E; [|reflexivity]. apply acc_eqb_name in E. apply acc_name_inj in E; [|assumption|assumption]. congruence. }
  assert (N2 : acc_eqb (valuation_account_for a) b = false).
  { destruct (acc_eqb (valuation_account_for a) b) eqn:E; [|reflexivity]. apply acc_eqb_name in E.
    apply acc_name_inj in E; [|apply account_ok_valuation; assumption|assumption].
    exfalso. apply HnI. rewrite <- E. reflexivity. }
  unfold pair_build. destruct (is_neg dec_nil || is_zero dec_nil && is_neg gain); cbv beta iota zeta;
    cbn [cell_count]; unfold cellb; cbn [p_acc]; rewrite N1, N2; reflexivity.
Qed.

Theorem other_accounts_not_revalued v b cb : 
  account_ok b = true -> is_AL b = false -> acc_type b <> Some Income ->
  forall ds s s' ds',
  Forall posting_in_ok (days_postings ds) -> entries_ok (v_qty s) ->
  process_days (valuate_proc v) s ds = ROk (s', ds') ->
  cell_count b cb (days_postings ds') = cell_count b cb (days_postings ds).
Proof.
  intros Hb HnAL HnI ds s s' ds' Hin Hs H. apply process_days_run in H.
  induction H as [|s d ds s1 d1 s' ds1 E1 _ IH]; [reflexivity|].
  unfold days_postings in *. cbn [map concat] in Hin |- *. apply Forall_app in Hin. destruct Hin as [Hd Hr].
  rewrite !cell_count_app, (IH Hr (day_entries_ok _ _ _ _ _ E1 Hd Hs)). f_equal.
  destruct (valuate_day_run _ _ _ _ _ E1) as (ts & s2 & out & Eadj & Erun & _ & Eout & _).
  rewrite Eout, cell_count_app, (val_run_count _ b cb _ _ _ _ Erun),
    (adjustments_other_accounts _ _ _ _ _ _ b cb Eadj (proj2 Hs) Hb HnAL HnI). lia.
Qed.

(* Assets:B buys 1.5 A on day 1 and 0.3 A on day 3; A is declared at 1.23456789 C on day 1,
   2.00000001 C on day 2 and 3.33333333 C on day 4 (two price changes while the position is open,
   day 3 carries the price of day 2 forward). *)
Definition ex_v : commodity := [67%Z].
Definition ex_c : commodity := [65%Z].
Definition ex_a : account := [s_Assets; [66%Z]].
Definition ex_o : account := [s_Equity; [69%Z]].
Definition ex_buy (dt : Z) (q : dec) : txn := mkTxn dt [] (pair_build ex_o ex_a ex_c q dec_nil) None.
Definition ex_days : list day :=
  [ mkDay 1 [(ex_c, mkDec 123456789 (-8), ex_v)] [] [ex_buy 1 (mkDec 15 (-1))] [] [] None;
    mkDay 2 [(ex_c, mkDec 200000001 (-8), ex_v)] [] [] [] [] None;
    mkDay 3 [] [] [ex_buy 3 (mkDec 3 (-1))] [] [] None;
    mkDay 4 [(ex_c, mkDec 333333333 (-8), ex_v)] [] [] [] [] None ].

Lemma ex_days_in_ok : Forall posting_in_ok (days_postings ex_days).
Proof.
  repeat constructor; cbn; intros; try reflexivity; try discriminate.
Qed.

(* at most one revaluation per day for a cell, and none on a day whose prices are those of the day
   before: n_steps <= bookings of the cell + number of days that declare a price *)
Section StepCount.
  Variables (v : commodity) (a : account) (c : commodity).
  Hypothesis Ha : account_ok a = true.
  Hypothesis HAL : is_AL a = true.

  Fixpoint ematch_count (m : positions) : Z :=
    match m with [] => 0%Z | x :: r => ((if ematch a c x then 1 else 0) + ematch_count r)%Z end.

  Lemma ematch_count_nokey m :
    (forall x, In x m -> entry_ok x) -> (forall x, In x m -> fst x <> pos_key a c) -> ematch_count m = 0%Z.
  Proof.
    induction m as [|x m IH]; intros He Hk; cbn [ematch_count]; [reflexivity|].
    rewrite IH; [|intros y Hy; apply He; right; exact Hy|intros y Hy; apply Hk; right; exact Hy].
    destruct (ematch a c x) eqn:Em; [|reflexivity].
    destruct (Hk x (or_introl eq_refl) (ematch_key a c Ha x (He x (or_introl eq_refl)) Em)).
  Qed.

  Lemma ematch_count_le_one m : entries_ok m -> (ematch_count m <= 1)%Z.
  Proof.
    intros [Hs He]. induction m as [|x m IH]; cbn [ematch_count]; [lia|].
    assert (He' : forall y, In y m -> entry_ok y) by (intros y Hy; apply He; right; exact Hy).
    destruct (ematch a c x) eqn:Em.
    - pose proof (ematch_key a c Ha x (He x (or_introl eq_refl)) Em) as K.
      rewrite ematch_count_nokey; [lia|exact He'|].
      intros y Hy. rewrite <- K. exact (sorted_head_fresh x m Hs y Hy).
    - inversion Hs as [|? ? Hs' _]; subst. specialize (IH Hs' He'). lia.
  Qed.

  Lemma adj_count date prev cur pos : forall ts,
    val_adjustments v date prev cur pos = ROk ts -> (forall x, In x pos -> entry_ok x) ->
    (cell_count a c (txns_postings ts) <= ematch_count pos)%Z.
  Proof.
    intros ts H. apply val_adjustments_run in H.
    induction H as [|k a' c' q rest ts _ _ IH|k a' c' q pp cp rest ts _ _ _ _ _ _ _ IH|k a' c' q pp cp rest ts _ _ _ _ _ _ _ IH];
      intros He; [cbn; lia| | |];
      specialize (IH (fun x Hx => He x (or_intror Hx))); cbn [ematch_count]; unfold ematch at 1; cbn [fst snd].
    1, 2: destruct (acc_eqb a' a && str_eqb c' c); lia.
    pose proof (He _ (or_introl eq_refl)) as (_ & Ha' & _). cbn [fst snd] in Ha'.
    destruct (adjust_pair a c Ha HAL a' c' (multiply (sub cp pp) q) Ha') as (_ & P3).
    unfold txns_postings in *. cbn [map concat t_postings]. rewrite cell_count_app, P3. lia.
  Qed.

  (* a day adds at most one posting to the cell, and none when the prices did not move *)
  Lemma day_count s d s1 d1 :
    process_day (valuate_proc v) s d = ROk (s1, d1) -> entries_ok (v_qty s) ->
    (cell_count a c (day_postings d1) <= cell_count a c (day_postings d) + 1)%Z /\
    (v_prev s = d_normalized d -> cell_count a c (day_postings d1) = cell_count a c (day_postings d)).
  Proof.
    intros H Hs. destruct (valuate_day_run _ _ _ _ _ H) as (ts & s2 & out & Eadj & Erun & _ & Eout & _).
    rewrite Eout, cell_count_app, (val_run_count _ a c _ _ _ _ Erun). split.
    - pose proof (adj_count _ _ _ _ _ Eadj (proj2 Hs)). pose proof (ematch_count_le_one _ Hs). lia.
    - intros E. rewrite E in Eadj. rewrite (adj_same _ _ _ _ _ Eadj). cbn. lia.
  Qed.

  Lemma days_count ds : forall s s' ds',
    Forall posting_in_ok (days_postings ds) -> entries_ok (v_qty s) ->
    process_days (valuate_proc v) s ds = ROk (s', ds') ->
    (cell_count a c (days_postings ds') <= cell_count a c (days_postings ds) + Z.of_nat (length ds))%Z.
  Proof.
    intros s s' ds' Hin Hs H. apply process_days_run in H.
    induction H as [|s d ds s1 d1 s' ds1 E1 _ IH]; [cbn; lia|].
    unfold days_postings in *. cbn [map concat] in Hin |- *. apply Forall_app in Hin. destruct Hin as [Hd Hr].
    specialize (IH Hr (day_entries_ok _ _ _ _ _ E1 Hd Hs)). pose proof (proj1 (day_count _ _ _ _ E1 Hs)).
    rewrite !cell_count_app. cbn [length]. lia.
  Qed.

  (* ComputePrices then Valuate over the same days, from states that agree on the remembered
     prices: ComputePrices hands a day without declarations the prices of the day before, so the
     cell gains at most one posting per day of [may], any selection of the days that contains those
     with a price declaration *)
  Lemma cp_val_count (may : day -> bool) : (forall d, may d = false -> d_prices d = []) ->
    forall ds sc sc' dsP, process_days (compute_prices_proc v) sc ds = ROk (sc', dsP) ->
    forall sv sv' dsV, process_days (valuate_proc v) sv dsP = ROk (sv', dsV) ->
    cp_previous sc = v_prev sv -> Forall posting_in_ok (days_postings dsP) -> entries_ok (v_qty sv) ->
    cp_previous sc' = v_prev sv' /\
    (cell_count a c (days_postings dsV) <= cell_count a c (days_postings dsP) + Z.of_nat (length (filter may ds)))%Z.
  Proof.
    intros Hmay ds sc sc' dsP HP. apply process_days_run in HP.
    induction HP as [sc|sc d ds sc1 d1 sc' dsP E1 _ IH]; intros sv sv' dsV HV Hprev Hin Hs; apply process_days_run in HV.
    - inversion HV; subst. split; [exact Hprev|]. cbn. lia.
    - inversion HV as [|? ? ? sv1 e1 ? es F1 F2]; subst. apply process_days_run in F2.
      unfold days_postings in *. cbn [map concat] in Hin |- *. apply Forall_app in Hin. destruct Hin as [Hd Hr].
      destruct (cp_day _ _ _ _ _ E1) as (_ & _ & C1 & C2).
      pose proof (proj1 (valuate_day_prev _ _ _ _ _ F1)) as V1.
      destruct (IH _ _ _ F2 (eq_trans C1 (eq_sym V1)) Hr (day_entries_ok _ _ _ _ _ F1 Hd Hs)) as [I1 I2].
      split; [exact I1|]. rewrite !cell_count_app. destruct (day_count _ _ _ _ F1 Hs) as [Hle Hsame].
      cbn [filter]. destruct (may d) eqn:Em; [cbn [length]; lia|].
      rewrite Hsame; [lia|]. rewrite <- Hprev. symmetry. exact (C2 (Hmay d Em)).
  Qed.
End StepCount.

(* every posting that posting.Builder creates has the zero Value (Proofs/BuiltPostings.v
   built_val_zero), and the day builder only moves transactions *)
Definition val0 (p : posting) : Prop := is_zero (p_val p) = true.

(* the days the balance command hands to its pipeline (with or without the days that --close
   touches) satisfy the side condition as soon as the posting accounts are syntactically valid *)
Theorem built_days_in_ok l dl dates touch :
  parse_directives l = MOk dl ->
  let days := b_days (if touch : bool then builder_touch (builder_of dl) dates else builder_of dl) in
  Forall (fun p => account_ok (p_acc p) = true) (days_postings days) ->
  Forall posting_in_ok (days_postings days).
Proof.
  intros H days Ha.
  pose proof (builder_of_txns (fun _ t => Forall val0 (t_postings t)) dl
                (on_txn_impl txn_built _ (fun t => built_val_zero _) _ (parse_directives_built l dl H))) as Hb.
  assert (Hv : Forall (fun d => Forall (fun t => Forall val0 (t_postings t)) (d_txns d)) days)
    by (unfold days; destruct touch; [apply (builder_touch_txns (fun _ t => Forall val0 (t_postings t)))|]; exact Hb).
  assert (Hv' : Forall val0 (days_postings days)).
  { unfold days_postings, day_postings. rewrite Forall_concat, Forall_map. eapply Forall_impl; [|exact Hv].
    intros d Hd. rewrite Forall_concat, Forall_map. exact Hd. }
  rewrite Forall_forall in *. intros p Hp. split; [apply Ha; exact Hp|].
  intros _. apply is_zero_value. apply Hv'. exact Hp.
Qed.
