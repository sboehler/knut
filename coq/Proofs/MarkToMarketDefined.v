(* C03: the expectation of the runtime check is defined whenever the run succeeds.
   ValuationSpec.market_value dl V a T is None only if a commodity the account holds with a
   non-zero quantity on day T has no price (in V) from the declarations dated up to T.  A
   successful run of ComputePrices and Valuate over the journal's days excludes that for every
   asset/liability account and EVERY date T (not only the period ends): the prefix of the run over
   the days dated up to T is itself a successful run, and at the end of a successful run every
   non-zero asset/liability position has a price (Proofs/MarkToMarket.v held_has_price: a position
   that is open at the start of a day is revalued, which needs the day's price; a booking of a
   non-zero quantity needs the price of its day).

   - a held commodity has a price on every date (through Proofs/MarkToMarketJournal.v
     price_after_days_journal: the days' prices are ValuationSpec.price_on, None included)
   - market_value, mtm_expected, mtm_row are defined
   - the accounts the runtime check visits (ValuationSpec.al_accounts)
   - the statements of Properties/C03.v *)
From Coq Require Import ZArith QArith Qabs List Bool Lia Permutation Sorting.Sorted.
From Knut Require Import Model.Str Model.Dec Model.Date Model.Account Model.Ledger Model.Price
     Model.Journal Model.Check Model.Pipeline Model.Table Model.Report Model.Cli
     Spec.DateSpec Spec.WellformedSpec Spec.LedgerSpec Spec.LedgerSyntax Spec.MarkToMarketSpec
     Spec.PriceSpec Spec.PriceDaySpec Spec.ValuationSpec Spec.MarkToMarketReportSpec
     Proofs.DecProofs Proofs.DecValue Proofs.CheckLemmas Proofs.CheckProofs Proofs.PairProofs
     Proofs.DateProofs Proofs.BuilderProofs Proofs.StableSort Proofs.BeancountProofs
     Proofs.LedgerProofs Proofs.CloseProofs Proofs.PriceDayProofs Proofs.ValuationProofs
     Proofs.MarkToMarket Proofs.MarkToMarketReport Proofs.MarkToMarketWindow Proofs.MarkToMarketJournal
     Proofs.MarkToMarketRow Proofs.MarkToMarketFinal.
Import ListNotations.
Open Scope Q_scope.

(* on the days: the two stages succeed on the whole list, hence on the days dated up to T *)
Theorem held_price_on_days V a c days0 T sP dsP sV dsV :
  account_ok a = true -> is_AL a = true -> c <> V ->
  StronglySorted Z.lt (dates days0) -> Forall posting_in_ok (vposts days0) ->
  process_days (compute_prices_proc V) (mkCp [] None) days0 = ROk (sP, dsP) ->
  process_days (valuate_proc V) val_init dsP = ROk (sV, dsV) ->
  ~ qty_on_days a c days0 T == 0 ->
  exists pr, np_price_opt (prices_after V days0 (length (days_upto T days0))) c = Some pr.
Proof.
  intros Ha HAL Hcv Hsorted Hin HP HV Hq. pose proof (sorted_split T days0 Hsorted) as Esplit.
  set (U := days_upto T days0) in *. set (R := days_after T days0) in *.
  pose proof HP as HP0. rewrite Esplit in HP, Hin.
  apply in_ok_app in Hin. destruct Hin as [HinU _].
  destruct (process_days_app _ _ _ _ _ _ HP) as (pu & PU & PR & EPU & EPR & EdsP).
  rewrite EdsP in HV.
  destruct (process_days_app _ _ _ _ _ _ HV) as (vu & VU & VR & EVU & _ & _).
  destruct (cp_days_shape _ _ _ _ _ EPU) as (_ & SU & _).
  assert (HinPU : Forall posting_in_ok (vposts PU)) by (rewrite (vposts_of_dposts _ _ SU); exact HinU).
  assert (HqPU : ~ cell_qty a c (vposts PU) == 0).
  { rewrite (vposts_of_dposts _ _ SU). exact Hq. }
  destruct (held_has_price V a c PU vu VU Ha HAL Hcv HinPU EVU HqPU) as [pr Hpr].
  exists pr. rewrite <- Hpr. f_equal.
  assert (LU : length PU = length U) by (eapply process_days_length; exact EPU).
  rewrite <- LU. symmetry. exact (prefix_prices V days0 sP dsP PU PR HP0 EdsP).
Qed.

(* what the Valuate stage of a valued balance command guarantees, on the directives: whenever the
   bookings of an asset/liability account a in a commodity c other than V, dated up to T, do not
   add up to zero, the declarations dated up to T give c a price in V *)
Theorem held_price_journal cfg V l dl part dsP dsV a c T :
  parse_directives l = MOk dl -> postings_syntactic dl ->
  valued_run cfg V dl part dsP dsV ->
  account_ok a = true -> is_AL a = true -> c <> V ->
  is_zero (qty_upto (flat_postings dl) a c T) = false ->
  exists pr, ValuationSpec.price_on dl V c T = Some pr.
Proof.
  intros Ep Hsyn (sP & sV & EP & EV) Ha HAL Hcv Hz.
  rewrite <- (price_after_days_journal (bc_close cfg) dl part V c T Hcv).
  apply (held_price_on_days V a c _ T sP dsP sV dsV Ha HAL Hcv
           (built_days_sorted _ _ _) (built_days_in_ok' _ l dl part Ep Hsyn) EP EV).
  rewrite qty_on_days_journal. intros Hq. apply is_zero_value in Hq. rewrite Hq in Hz. discriminate.
Qed.

Lemma mv_fold_defined dl V a T : forall coms s,
  (forall c, In c coms -> is_zero (qty_upto (flat_postings dl) a c T) = false ->
             exists pr, ValuationSpec.price_on dl V c T = Some pr) ->
  exists x, fold_left (mv_step dl V a T) coms (Some s) = Some x.
Proof.
  induction coms as [|c coms IH]; intros s H; cbn [fold_left]; [exists s; reflexivity|].
  unfold mv_step at 2. destruct (is_zero (qty_upto (flat_postings dl) a c T)) eqn:Ez.
  - apply IH. intros c' Hc'. apply H. right. exact Hc'.
  - destruct (H c (or_introl eq_refl) Ez) as [pr ->].
    apply IH. intros c' Hc'. apply H. right. exact Hc'.
Qed.

Lemma price_on_V dl V T : ValuationSpec.price_on dl V V T = Some one.
Proof. unfold ValuationSpec.price_on. rewrite str_eqb_refl. reflexivity. Qed.

(* the valuation commodity has the price one; every other commodity needs one only where the
   quantity is not zero *)
Lemma mv_defined dl V a T coms :
  (forall c, c <> V -> is_zero (qty_upto (flat_postings dl) a c T) = false ->
             exists pr, ValuationSpec.price_on dl V c T = Some pr) ->
  exists x, fold_left (mv_step dl V a T) coms (Some dec_nil) = Some x.
Proof.
  intros Hp. apply mv_fold_defined. intros c _ Hz.
  destruct (str_eqb c V) eqn:Ecv.
  - apply str_eqb_eq in Ecv. subst c. exists one. apply price_on_V.
  - apply Hp; [|exact Hz]. intros ->. rewrite str_eqb_refl in Ecv. discriminate.
Qed.

Theorem market_value_defined cfg V l dl part dsP dsV a T :
  parse_directives l = MOk dl -> postings_syntactic dl ->
  valued_run cfg V dl part dsP dsV ->
  account_ok a = true -> is_AL a = true ->
  exists x, market_value dl V a T = Some x.
Proof.
  intros Ep Hsyn Hrun Ha HAL.
  exact (mv_defined dl V a T _ (fun c Hcv Hz => held_price_journal cfg V l dl part dsP dsV a c T Ep Hsyn Hrun Ha HAL Hcv Hz)).
Qed.

(* C03_expected_defined: a successful valued balance command has every price the check's
   expectation needs -- for every asset/liability account with a valid name (every account of the
   journal has one: postings_syntactic), every window start W and every date E, in particular for
   the window of the report and each of its columns.  No condition on the mapping, the filters or
   the window. *)
Theorem expected_defined cfg ds r part V :
  bc_valuation cfg = Some V ->
  balance_report cfg ds = COk (r, part) ->
  exists dl,
    parse_directives ds = MOk dl /\
    (postings_syntactic dl ->
     forall a, account_ok a = true -> is_AL a = true ->
       (forall T, exists x, market_value dl V a T = Some x) /\
       (forall W E, exists e, mtm_expected dl V a W E = Some e) /\
       exists exps,
         mtm_row cfg dl a = Some exps /\ length exps = length (end_dates part) /\
         forall j eo n, nth_error exps j = Some (eo, n) -> exists e, eo = Some e).
Proof.
  intros Hv H. destruct (valued_report_cells cfg ds r part V Hv H) as (dl & dsP & dsV & Ep & Epart & Hrun & _).
  exists dl. split; [exact Ep|].
  intros Hsyn a Ha HAL.
  assert (Hmv : forall T, exists x, market_value dl V a T = Some x).
  { intros T. exact (market_value_defined cfg V ds dl part dsP dsV a T Ep Hsyn Hrun Ha HAL). }
  assert (Hexp : forall W E, exists e, mtm_expected dl V a W E = Some e).
  { intros W E. unfold mtm_expected. destruct (Hmv E) as [x ->]. destruct (Hmv (W - 1)%Z) as [y ->].
    exists (sub x y). reflexivity. }
  split; [exact Hmv|]. split; [exact Hexp|].
  exists (map (fun p => (mtm_expected dl V a (p_start (span part)) (p_end p), step_bound dl a (p_start (span part)) (p_end p)))
              (periods part)).
  split; [unfold mtm_row; rewrite Hv, Epart; reflexivity|].
  split; [unfold end_dates; rewrite !map_length; reflexivity|].
  intros j eo n Hj. rewrite nth_error_map in Hj.
  destruct (nth_error (periods part) j) as [p|]; cbn [option_map] in Hj; [|discriminate].
  injection Hj as <- _. exact (Hexp _ _).
Qed.

Lemma insert_row_in r x : forall l, In x (insert_row r l) -> x = r \/ In x l.
Proof.
  induction l as [|y l IH]; cbn [insert_row]; intros H.
  - destruct H as [<-|[]]. left. reflexivity.
  - destruct (row_ltb r y).
    + destruct H as [<-|H]; [left; reflexivity|right; exact H].
    + destruct (row_ltb y r); [|right; exact H].
      destruct H as [<-|H]; [right; left; reflexivity|].
      destruct (IH H) as [->|Hl]; [left; reflexivity|right; right; exact Hl].
Qed.

Lemma al_accounts_in dl a : In a (al_accounts dl) ->
  is_AL a = true /\ exists d p, In (d, p) (flat_postings dl) /\ p_acc p = a.
Proof.
  unfold al_accounts.
  assert (G : forall posts acc,
            (forall x, In x acc -> is_AL x = true /\ exists d p, In (d, p) (flat_postings dl) /\ p_acc p = x) ->
            (forall dp, In dp posts -> In dp (flat_postings dl)) ->
            forall x, In x (fold_left (fun l (dp : Z * posting) => let '(_, p) := dp in
                                         if is_AL (p_acc p) then insert_row (p_acc p) l else l) posts acc) ->
            is_AL x = true /\ exists d p, In (d, p) (flat_postings dl) /\ p_acc p = x).
  { induction posts as [|[d p] posts IH]; intros acc Hacc Hsub x Hx; cbn [fold_left] in Hx; [exact (Hacc x Hx)|].
    refine (IH _ _ (fun dp Hdp => Hsub dp (or_intror Hdp)) x Hx).
    intros y Hy. destruct (is_AL (p_acc p)) eqn:EAL; [|exact (Hacc y Hy)].
    destruct (insert_row_in _ _ _ Hy) as [->|Hl]; [|exact (Hacc y Hl)].
    split; [exact EAL|]. exists d, p. split; [apply Hsub; left; reflexivity|reflexivity]. }
  intros Hin. apply (G (flat_postings dl) [] (fun x Hx => match Hx with end) (fun dp Hdp => Hdp) a Hin).
Qed.

(* the journal of C03_example_windowed_report with one more booking: on 03-03 Assets:B also
   receives 0 Z, a commodity that is never priced.  Valuate asks for no price of a zero quantity,
   so the command succeeds; Z is among the held commodities of Assets:B and has no price on any
   day: market_value must skip it (is_zero), otherwise the expectation would be undefined *)
Open Scope Z_scope.
Definition exd_z : commodity := [90].
Definition exd_journal : list sdirective :=
  [ SOpen exr_d0 exr_a; SOpen exr_d0 exr_o;
    SPrice exr_d0 exr_c (mkDec 123456789 (-8)) exr_V;
    STxn (mkStxn exr_d0 [] [mkBooking exr_o exr_a (mkDec 15 (-1)) exr_c] None None);
    SPrice (exr_d0 + 1) exr_c (mkDec 200000001 (-8)) exr_V;
    STxn (mkStxn (exr_d0 + 2) [] [mkBooking exr_o exr_a (mkDec 3 (-1)) exr_c; mkBooking exr_o exr_a (mkDec 0 0) exd_z] None None);
    SPrice (exr_d0 + 3) exr_c (mkDec 333333333 (-8)) exr_V ].

(* the contrapositive of C03_missing_price_fails, lifted to the report: if the command succeeds,
   every commodity other than V of which an asset/liability account holds a non-zero quantity on a
   date T has a price in V from the declarations dated up to T -- for every T *)
Theorem held_price_report cfg ds r part V :
  bc_valuation cfg = Some V ->
  balance_report cfg ds = COk (r, part) ->
  exists dl,
    parse_directives ds = MOk dl /\
    (postings_syntactic dl ->
     forall a c T, account_ok a = true -> is_AL a = true -> c <> V ->
       is_zero (qty_upto (flat_postings dl) a c T) = false ->
       exists pr, ValuationSpec.price_on dl V c T = Some pr).
Proof.
  intros Hv H. destruct (valued_report_cells cfg ds r part V Hv H) as (dl & dsP & dsV & Ep & Epart & Hrun & _).
  exists dl. split; [exact Ep|].
  intros Hsyn a c T Ha HAL Hcv Hz.
  exact (held_price_journal cfg V ds dl part dsP dsV a c T Ep Hsyn Hrun Ha HAL Hcv Hz).
Qed.

