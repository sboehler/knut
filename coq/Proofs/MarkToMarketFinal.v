(* C03 on the rendered report, one commodity: the statements (Properties/C03.v C03_windowed_cell,
   C03_mark_to_market_report) for journals as loaded: the cells of an asset/liability account in a
   valued balance report against the market values computed from the directives. *)
From Coq Require Import ZArith QArith Qabs List Bool Lia Permutation Sorting.Sorted.
From Knut Require Import Model.Str Model.Dec Model.Date Model.Account Model.Ledger Model.Price
     Model.Journal Model.Check Model.Pipeline Model.Table Model.Report Model.Cli
     Spec.DateSpec Spec.WellformedSpec Spec.LedgerSpec Spec.LedgerSyntax Spec.MarkToMarketSpec
     Spec.PriceSpec Spec.PriceDaySpec Spec.ValuationSpec Spec.MarkToMarketReportSpec
     Proofs.DecProofs Proofs.DecValue Proofs.CheckLemmas Proofs.CheckProofs Proofs.PairProofs
     Proofs.DateProofs Proofs.BeancountProofs
     Proofs.LedgerProofs Proofs.CloseProofs Proofs.PriceDayProofs Proofs.ValuationProofs
     Proofs.MarkToMarket Proofs.MarkToMarketReport Proofs.MarkToMarketWindow Proofs.MarkToMarketJournal.
Import ListNotations.
Open Scope Q_scope.

(* the values posted inside the window against the directives: quantities, prices and bookings of
   the builder's days are those of the journal.  One 10^-8 per booking of the cell and per date of
   the journal in the window: only a day that declares a price revalues (Proofs/MarkToMarket.v
   cp_val_count), and the days --close adds declare none *)
Lemma window_journal_dates cfg ds dl part V dsP dsV a c col :
  parse_directives ds = MOk dl -> postings_syntactic dl -> valued_run cfg V dl part dsP dsV ->
  account_ok a = true -> is_AL a = true -> c <> V -> (p_start (span part) - 1 <= col)%Z ->
  Qabs (lsum (fun dp => if in_window (p_start (span part)) col (fst dp) then cval a c dp else 0) (dposts dsV)
        - (mv_cell dl V a c col - mv_cell dl V a c (p_start (span part) - 1)))
    <= inject_Z (bookings_in dl a c (p_start (span part)) col + days_in dl (p_start (span part)) col) * (1 # 100000000).
Proof.
  intros Ep Hsyn (sP & sV & EP & EV) Ha HAL Hcv Hle.
  set (W := p_start (span part)) in *. set (days := built_days (bc_close cfg) dl part).
  set (may := fun d : day => match d_prices d with [] => false | _ => true end).
  assert (Hmay : forall d, may d = false -> d_prices d = [])
    by (intros d; unfold may; destruct (d_prices d); [reflexivity|discriminate]).
  pose proof (window_stage_may may V a c days W col sP dsP sV dsV Hmay Ha HAL Hcv
                (built_days_sorted _ _ _) (built_days_dated _ _ _) (built_days_in_ok' _ ds dl part Ep Hsyn) Hle EP EV) as Hst.
  unfold days in Hst. rewrite !qty_on_days_journal, !(price_on_days_journal _ _ _ V c _ Hcv) in Hst.
  unfold day_steps_may in Hst. rewrite !count_on_days in Hst.
  rewrite (split_count (fun dp : Z * posting => fst dp) (fun dp => cellb a c (snd dp)) W col Hle) in Hst.
  eapply Qle_trans; [exact Hst|].
  apply Qmult_le_compat_r; [|discriminate]. rewrite <- Zle_Qle.
  pose proof (may_days_window may (bc_close cfg) dl part W col (fun d => eq_refl) Hle). unfold bookings_in. lia.
Qed.

(* the window, per commodity: what the report accumulated for (a, c) up to the period end col is
   the change of the position's market value between the day before the window and col *)
Theorem windowed_report_dates cfg ds r part V :
  bc_valuation cfg = Some V ->
  balance_report cfg ds = COk (r, part) ->
  exists dl,
    parse_directives ds = MOk dl /\
    new_partition (clip (mkPeriod (bc_from cfg) (bc_to cfg)) (journal_period dl)) (bc_interval cfg) (bc_last cfg) = POk part /\
    (postings_syntactic dl ->
     forall a c col, account_ok a = true -> is_AL a = true -> shows_account cfg a -> cfg_where cfg a c = true -> c <> V ->
       (p_start (span part) <= p_end (span part))%Z -> In col (end_dates part) ->
       Qabs (cum_cell a c part col r
             - (mv_cell dl V a c col - mv_cell dl V a c (p_start (span part) - 1)))
         <= inject_Z (bookings_in dl a c (p_start (span part)) col + days_in dl (p_start (span part)) col) * (1 # 100000000)).
Proof.
  intros Hv H.
  destruct (cum_cell_window cfg ds r part V Hv H) as (dl & dsP & dsV & Ep & Epart & Hrun & Hcum).
  exists dl. split; [exact Ep|]. split; [exact Epart|].
  intros Hsyn a c col Ha HAL Hsh Hw Hcv Hspan Hcol.
  rewrite (Hcum Hsyn a c col Ha HAL Hsh Hw Hspan Hcol).
  exact (window_journal_dates cfg ds dl part V dsP dsV a c col Ep Hsyn Hrun Ha HAL Hcv (col_from_start _ _ _ _ _ Epart Hspan Hcol)).
Qed.

(* every day of the journal and every day --close adds counted: Spec/MarkToMarketReportSpec.v cell_steps *)
Theorem windowed_report cfg ds r part V :
  bc_valuation cfg = Some V ->
  balance_report cfg ds = COk (r, part) ->
  exists dl,
    parse_directives ds = MOk dl /\
    new_partition (clip (mkPeriod (bc_from cfg) (bc_to cfg)) (journal_period dl)) (bc_interval cfg) (bc_last cfg) = POk part /\
    (postings_syntactic dl ->
     forall a c col, account_ok a = true -> is_AL a = true -> shows_account cfg a -> cfg_where cfg a c = true -> c <> V ->
       (p_start (span part) <= p_end (span part))%Z -> In col (end_dates part) ->
       Qabs (cum_cell a c part col r
             - (mv_cell dl V a c col - mv_cell dl V a c (p_start (span part) - 1)))
         <= inject_Z (cell_steps cfg dl part a c col) * (1 # 100000000)).
Proof.
  intros Hv H. destruct (windowed_report_dates cfg ds r part V Hv H) as (dl & Ep & Epart & Hw).
  exists dl. split; [exact Ep|]. split; [exact Epart|].
  intros Hsyn a c col Ha HAL Hsh Hwh Hcv Hspan Hcol.
  eapply Qle_trans; [exact (Hw Hsyn a c col Ha HAL Hsh Hwh Hcv Hspan Hcol)|].
  apply Qmult_le_compat_r; [|discriminate]. rewrite <- Zle_Qle. unfold cell_steps. destruct (bc_close cfg); lia.
Qed.

(* nothing booked on (a, c) before the window (in particular: the default window, which starts at
   the first transaction of the journal): no market value to subtract *)
Definition no_booking_before (dl : list directive) (a : account) (c : commodity) (W : Z) : Prop :=
  forall d p, In (d, p) (flat_postings dl) -> cellb a c p = true -> (W <= d)%Z.

Lemma mv_before_zero dl V a c W : no_booking_before dl a c W -> mv_cell dl V a c (W - 1) == 0.
Proof.
  intros H. unfold mv_cell, qty_upto. rewrite dvalue_dsum, qsum_concat_map.
  rewrite LedgerProofs.qsum_zero; [ring|]. intros [d p] Hin.
  destruct ((d <=? W - 1)%Z && acc_eqb (p_acc p) a && str_eqb (p_com p) c) eqn:E; [|reflexivity].
  exfalso. rewrite <- andb_assoc in E. apply andb_true_iff in E. destruct E as [E1 E2].
  specialize (H d p Hin E2). lia.
Qed.

(* Assets:B buys 1.5 A on 2021-03-01 and 0.3 A on 03-03; A is declared at 1.23456789 C on 03-01,
   2.00000001 C on 03-02 and 3.33333333 C on 03-04.  The report is valued in C, daily, over the
   window 03-02 .. 03-04 (the first purchase lies before the window), with --close. *)
Open Scope Z_scope.
Definition exr_V : commodity := [67].
Definition exr_c : commodity := [65].
Definition exr_a : account := [s_Assets; [66]].
Definition exr_o : account := [s_Equity; [69]].
Definition exr_d0 : Z := Date.of_civil 2021 3 1.
Definition exr_journal : list sdirective :=
  [ SOpen exr_d0 exr_a; SOpen exr_d0 exr_o;
    SPrice exr_d0 exr_c (mkDec 123456789 (-8)) exr_V;
    STxn (mkStxn exr_d0 [] [mkBooking exr_o exr_a (mkDec 15 (-1)) exr_c] None None);
    SPrice (exr_d0 + 1) exr_c (mkDec 200000001 (-8)) exr_V;
    STxn (mkStxn (exr_d0 + 2) [] [mkBooking exr_o exr_a (mkDec 3 (-1)) exr_c] None None);
    SPrice (exr_d0 + 3) exr_c (mkDec 333333333 (-8)) exr_V ].
Definition exr_cfg (close : bool) : balance_cfg :=
  mkBalanceCfg (exr_d0 + 1) (exr_d0 + 3) Daily 0 false close (Some exr_V) true [] [] [] [] [] true.
