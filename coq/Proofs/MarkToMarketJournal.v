(* C03 on the rendered report, the journal side: quantities and prices of the builder's days are those of the
   directives as loaded (Spec/ValuationSpec.v qty_upto, price_on: no days, no processors).

   - quantities: the bookings dated up to T
   - price declarations: the days up to T carry, in date order and within a day in journal
     order, the declarations dated up to T = the stable sort by date of ValuationSpec
   - prices: PriceDaySpec.price_on on the days = ValuationSpec.price_on on the directives *)
From Coq Require Import ZArith QArith Qabs List Bool Lia Permutation Sorting.Sorted.
From Knut Require Import Proofs.ListFacts Model.Str Model.Dec Model.Date Model.Account Model.Ledger Model.Price
     Model.Journal Model.Check Model.Pipeline Model.Table Model.Report Model.Cli
     Spec.DateSpec Spec.WellformedSpec Spec.LedgerSpec Spec.LedgerSyntax Spec.MarkToMarketSpec
     Spec.PriceSpec Spec.PriceDaySpec Spec.ValuationSpec Spec.MarkToMarketReportSpec
     Proofs.DecProofs Proofs.DecValue Proofs.CheckLemmas Proofs.CheckProofs Proofs.PairProofs
     Proofs.DateProofs Proofs.BuilderProofs Proofs.StableSort Proofs.BeancountProofs
     Proofs.LedgerProofs Proofs.CloseProofs Proofs.PriceDayProofs Proofs.ValuationProofs
     Proofs.MarkToMarket Proofs.MarkToMarketReport Proofs.MarkToMarketWindow.
Import ListNotations.
Open Scope Q_scope.

Theorem qty_on_days_journal close dl part a c T :
  qty_on_days a c (built_days close dl part) T == dvalue (qty_upto (flat_postings dl) a c T).
Proof.
  unfold qty_on_days, days_upto. rewrite cell_qty_dposts.
  rewrite (dated_filter_sum (fun d => (d <=? T)%Z) (cqty a c) _ (built_days_dated close dl part)).
  rewrite (LedgerProofs.qsum_perm _ _ _ (built_days_perm close dl part)).
  unfold qty_upto. rewrite dvalue_dsum, qsum_concat_map. apply LedgerProofs.qsum_ext. intros [d p] _.
  unfold cqty, cellb. cbn [fst snd]. rewrite <- andb_assoc.
  destruct (d <=? T)%Z; cbn [andb]; [|reflexivity].
  destruct (acc_eqb (p_acc p) a && str_eqb (p_com p) c); unfold LedgerProofs.qsum; cbn [fold_right]; ring.
Qed.

Definition tdecl := (Z * commodity * dec * commodity)%type.
Definition tkey (x : tdecl) : Z := fst (fst (fst x)).
Definition tlt (x y : tdecl) : bool := (tkey x <? tkey y)%Z.
Definition untag (x : tdecl) : decl := (snd (fst (fst x)), snd (fst x), snd x).
Definition tag (dt : Z) (p : decl) : tdecl := (dt, fst (fst p), snd (fst p), snd p).

(* the tagged declarations of a directive / of a day *)
Definition pd (d : directive) : list tdecl := match d with DPrice dt c p t => [(dt, c, p, t)] | _ => [] end.
Definition dd (x : day) : list tdecl := map (tag (d_date x)) (d_prices x).

Lemma tlt_irrefl x : tlt x x = false.
Proof. unfold tlt. lia. Qed.
Lemma tlt_trans x y z : tlt x y = true -> tlt y z = true -> tlt x z = true.
Proof. unfold tlt. lia. Qed.
Lemma tlt_cotrans x y z : tlt x y = true -> tlt x z = true \/ tlt z y = true.
Proof. unfold tlt. intros H. destruct (tkey x <? tkey z)%Z eqn:E; [left; reflexivity|right; lia]. Qed.

Lemma teqv x y : eqv tlt x y = (tkey y =? tkey x)%Z.
Proof. unfold eqv, tlt. lia. Qed.

Lemma price_decls_raw dl T :
  price_decls dl T = sort_by tlt (filter (fun x => (tkey x <=? T)%Z) (concat (map pd dl))).
Proof.
  unfold price_decls. f_equal. induction dl as [|d dl IH]; [reflexivity|].
  cbn [map concat]. rewrite filter_app, IH. f_equal.
  destruct d; cbn [pd filter]; reflexivity.
Qed.

Lemma dd_key x y : In y (dd x) -> tkey y = d_date x.
Proof. unfold dd. intros H. apply in_map_iff in H. destruct H as (p & <- & _). reflexivity. Qed.

Lemma days_decls_sorted : forall ds, StronglySorted Z.lt (map d_date ds) ->
  sorted tlt (concat (map dd ds)).
Proof.
  unfold sorted. induction ds as [|x ds IH]; intros Hs; cbn [map concat]; [constructor|].
  cbn [map] in Hs. inversion Hs as [|? ? Hs' Hall]; subst. rewrite Forall_forall in Hall.
  apply StronglySorted_app; [|exact (IH Hs')|].
  - assert (G : forall l, (forall y, In y l -> tkey y = d_date x) -> StronglySorted (fun a b => tlt b a = false) l).
    { induction l as [|y l IHl]; intros Hk; constructor.
      - apply IHl. intros z Hz. apply Hk. right. exact Hz.
      - apply Forall_forall. intros z Hz. unfold tlt. rewrite (Hk y (or_introl eq_refl)), (Hk z (or_intror Hz)). lia. }
    apply G. intros y Hy. exact (dd_key x y Hy).
  - intros a b Ha Hb. apply in_concat in Hb. destruct Hb as (l & Hl & Hb). apply in_map_iff in Hl. destruct Hl as (z & <- & Hz).
    unfold tlt. rewrite (dd_key x a Ha), (dd_key z b Hb).
    assert (Hd : In (d_date z) (map d_date ds)) by (apply in_map; exact Hz). specialize (Hall _ Hd). lia.
Qed.

(* in a list of days with strictly ascending dates, selecting by date picks one day *)
Lemma select_day {B} (g : day -> list B) k : forall ds x, StronglySorted Z.lt (map d_date ds) ->
  In x ds -> d_date x = k ->
  concat (map (fun y => if (d_date y =? k)%Z then g y else []) ds) = g x.
Proof.
  induction ds as [|y ds IH]; intros x Hs Hin Hk; [destruct Hin|].
  cbn [map] in Hs. inversion Hs as [|? ? Hs' Hall]; subst. rewrite Forall_forall in Hall. cbn [map concat].
  destruct Hin as [->|Hin].
  - rewrite Z.eqb_refl. rewrite <- flat_map_concat_map, flat_map_nil; [apply app_nil_r|].
    intros z Hz. assert (Hd : In (d_date z) (map d_date ds)) by (apply in_map; exact Hz). specialize (Hall _ Hd).
    replace (d_date z =? d_date x)%Z with false by lia. reflexivity.
  - assert (Hd : In (d_date x) (map d_date ds)) by (apply in_map; exact Hin). specialize (Hall _ Hd).
    replace (d_date y =? d_date x)%Z with false by lia. cbn [app]. apply IH; auto.
Qed.

Lemma filter_key_dd k x : filter (fun z => (tkey z =? k)%Z) (dd x) = if (d_date x =? k)%Z then dd x else [].
Proof.
  destruct (d_date x =? k)%Z eqn:E.
  - apply filter_all. intros z Hz. rewrite (dd_key x z Hz). exact E.
  - apply filter_none. intros z Hz. rewrite (dd_key x z Hz). exact E.
Qed.

Lemma pd_sel dl k : concat (map pd (sel dl k 0)) = filter (fun z => (tkey z =? k)%Z) (concat (map pd dl)).
Proof.
  unfold sel. induction dl as [|d dl IH]; [reflexivity|]. cbn [filter map concat]. rewrite filter_app, <- IH.
  destruct d; cbn [ddate dkind pd]; rewrite ?andb_false_r; cbn [filter app]; try reflexivity.
  unfold tkey. cbn [fst]. rewrite andb_true_r. destruct (date =? k)%Z; reflexivity.
Qed.

Lemma pd_price_directives k l : concat (map pd (map (price_directive k) l)) = map (tag k) l.
Proof. induction l as [|[[c p] t] l IH]; [reflexivity|]. cbn [map concat pd price_directive fst snd app]. rewrite IH. reflexivity. Qed.

(* the declarations carried by the days up to T are the journal's declarations dated up to T in
   the order ValuationSpec gives them *)
Theorem days_decls_journal dl T :
  concat (map dd (days_upto T (b_days (builder_of dl)))) = price_decls dl T.
Proof.
  rewrite price_decls_raw.
  destruct (builder_canonical dl) as (Hsorted & _ & Hdates & Hmatch). cbn zeta in *.
  set (days := b_days (builder_of dl)) in *.
  apply (sort_by_unique tlt tlt_irrefl tlt_trans tlt_cotrans).
  - apply days_decls_sorted.
    pose proof (sorted_split T days Hsorted) as E. rewrite E in Hsorted. rewrite map_app in Hsorted.
    exact (proj1 (ss_app_l _ _ _ Hsorted)).
  - intros a0. set (k := tkey a0).
    rewrite (filter_ext (eqv tlt a0) (fun z => (tkey z =? k)%Z)) by (intros z; apply teqv).
    rewrite (filter_ext (eqv tlt a0) (fun z => (tkey z =? k)%Z)) by (intros z; apply teqv).
    rewrite <- concat_filter_map, map_map.
    rewrite (map_ext _ (fun x => if (d_date x =? k)%Z then dd x else [])) by (intros x; apply filter_key_dd).
    (* right-hand side: the class of k in the raw list *)
    assert (ER : filter (fun z => (tkey z =? k)%Z) (filter (fun x => (tkey x <=? T)%Z) (concat (map pd dl)))
                 = if (k <=? T)%Z then concat (map pd (sel dl k 0)) else []).
    { rewrite pd_sel. destruct (k <=? T)%Z eqn:E.
      - apply filter_filter_impl. intros z Hz. lia.
      - apply filter_none. intros z Hz. apply filter_In in Hz. lia. }
    rewrite ER. clear ER.
    destruct (k <=? T)%Z eqn:ET.
    + destruct (in_dec Z.eq_dec k (map d_date days)) as [Hin|Hnin].
      * apply in_map_iff in Hin. destruct Hin as (x & Hxk & Hx).
        assert (Hxu : In x (days_upto T days)) by (unfold days_upto; apply filter_In; split; [exact Hx|lia]).
        assert (HsU : StronglySorted Z.lt (map d_date (days_upto T days))).
        { pose proof (sorted_split T days Hsorted) as E. rewrite E in Hsorted. rewrite map_app in Hsorted.
          exact (proj1 (ss_app_l _ _ _ Hsorted)). }
        rewrite (select_day dd k _ x HsU Hxu Hxk).
        destruct (Hmatch x Hx) as (Hp & _). rewrite Hxk in Hp. rewrite <- Hp, pd_price_directives.
        unfold dd. rewrite Hxk. reflexivity.
      * rewrite <- flat_map_concat_map, flat_map_nil.
        2: { intros x Hx. unfold days_upto in Hx. apply filter_In in Hx. destruct Hx as [Hx _].
             destruct (d_date x =? k)%Z eqn:E; [|reflexivity]. exfalso. apply Hnin. apply in_map_iff. exists x. split; [lia|exact Hx]. }
        rewrite sel_nil; [reflexivity|]. intros Hc. apply Hnin. apply Hdates. exact Hc.
    + rewrite <- flat_map_concat_map. apply flat_map_nil. intros x Hx. unfold days_upto in Hx. apply filter_In in Hx.
      replace (d_date x =? k)%Z with false by lia. reflexivity.
Qed.

Lemma untag_tag k p : untag (tag k p) = p.
Proof. destruct p as [[c p] t]. reflexivity. Qed.

Lemma untag_dd x : map untag (dd x) = d_prices x.
Proof. unfold dd. rewrite map_map. rewrite (map_ext _ (fun p => p)) by (intros p; apply untag_tag). apply map_id. Qed.

Lemma days_history_journal dl T :
  concat (map d_prices (days_upto T (b_days (builder_of dl)))) = map untag (price_decls dl T).
Proof.
  rewrite <- days_decls_journal, concat_map, map_map. f_equal. apply map_ext. intros x. symmetry. apply untag_dd.
Qed.

(* the days --close touches carry no declarations *)
Lemma upd_day_id_prices (P : day -> bool) d : forall days,
  concat (map d_prices (filter P (upd_day days d (fun x => x)))) = concat (map d_prices (filter P days)).
Proof.
  assert (He : forall l, concat (map d_prices (filter P (empty_day d :: l))) = concat (map d_prices (filter P l))).
  { intros l. cbn [filter]. destruct (P (empty_day d)); reflexivity. }
  induction days as [|x days IH]; cbn [upd_day]; [apply (He [])|].
  destruct (d =? d_date x)%Z; [reflexivity|]. destruct (d <? d_date x)%Z; [apply He|].
  cbn [filter]. destruct (P x); cbn [map concat]; rewrite IH; reflexivity.
Qed.

Lemma built_days_history close dl part T :
  concat (map d_prices (days_upto T (built_days close dl part))) = map untag (price_decls dl T).
Proof.
  rewrite <- days_history_journal. unfold built_days. destruct close; [|reflexivity].
  unfold builder_touch. cbn [b_days]. generalize (b_days (builder_of dl)). generalize (start_dates part).
  induction l as [|d l IH]; intros days; cbn [fold_left]; [reflexivity|].
  rewrite IH. apply upd_day_id_prices.
Qed.

Lemma fold_prices_build (l : list tdecl) : forall acc,
  fold_left (fun acc x =>
    match acc with
    | None => None
    | Some ps => let '(_, c, p, t) := x in
                 match prices_insert ps c p t with InsOk ps' => Some ps' | _ => None end
    end) l acc
  = match acc with None => None | Some ps => build_from ps (map untag l) end.
Proof.
  induction l as [|[[[dt c] p] t] l IH]; intros acc; cbn [fold_left map build_from untag fst snd].
  - destruct acc; reflexivity.
  - rewrite IH. destruct acc as [ps|]; [|reflexivity]. destruct (prices_insert ps c p t); reflexivity.
Qed.

Lemma prices_upto_build dl T : prices_upto dl T = build (map untag (price_decls dl T)).
Proof. unfold prices_upto, build. apply fold_prices_build. Qed.

Lemma normalize_nil V : normalize [] V = Some [(V, one)].
Proof. reflexivity. Qed.

Lemma no_price_in_nil V c : c <> V -> np_price [(V, one)] c = None.
Proof. intros H. unfold np_price. cbn [sm_get]. rewrite (proj2 (str_eqb_neq _ _) H). reflexivity. Qed.

Lemma firstn_prefix {A} (l1 l2 : list A) : firstn (length l1) (l1 ++ l2) = l1.
Proof. rewrite firstn_app, Nat.sub_diag, firstn_all. cbn [firstn]. apply app_nil_r. Qed.

(* the price of c in force after the days dated up to T IS the price ValuationSpec computes from
   the declarations dated up to T, None included *)
Theorem price_after_days_journal close dl part V c T : c <> V ->
  np_price_opt (prices_after V (built_days close dl part) (length (days_upto T (built_days close dl part)))) c
  = ValuationSpec.price_on dl V c T.
Proof.
  intros Hcv. unfold ValuationSpec.price_on. rewrite (proj2 (str_eqb_neq _ _) Hcv).
  rewrite prices_upto_build, <- (built_days_history close dl part T).
  set (days := built_days close dl part). set (U := days_upto T days).
  assert (Hnil : match build [] with
                 | Some ps => match normalize ps V with Some np => np_price np c | None => None end
                 | None => None end = None).
  { cbn [build build_from]. rewrite normalize_nil. exact (no_price_in_nil V c Hcv). }
  destruct U as [|x U'] eqn:EU.
  - cbn [length prices_after map concat np_price_opt]. symmetry. exact Hnil.
  - rewrite <- EU. assert (Hlen : length U = S (length U')) by (rewrite EU; reflexivity). rewrite Hlen.
    cbn [prices_after]. unfold PriceDaySpec.price_on, history_upto. rewrite <- Hlen.
    pose proof (sorted_split T days (built_days_sorted close dl part)) as Esplit. fold U in Esplit.
    rewrite Esplit at 1. rewrite firstn_prefix.
    unfold prices_of_history. destruct (concat (map d_prices U)) as [|h0 h] eqn:Eh.
    + cbn [np_price_opt]. symmetry. exact Hnil.
    + destruct (build (h0 :: h)) as [ps|]; [|reflexivity].
      destruct (normalize ps V) as [np|]; reflexivity.
Qed.

(* ... and so as rationals, a missing price read as 0 on both sides *)
Theorem price_on_days_journal close dl part V c T : c <> V ->
  price_on_days V c (built_days close dl part) T = price_q (ValuationSpec.price_on dl V c T).
Proof. intros Hcv. rewrite <- (price_after_days_journal close dl part V c T Hcv). reflexivity. Qed.

Open Scope Z_scope.

Lemma cell_count_filter a c l : cell_count a c l = Z.of_nat (length (filter (cellb a c) l)).
Proof.
  induction l as [|p l IH]; [reflexivity|]. cbn [cell_count filter]. rewrite IH.
  destruct (cellb a c p); cbn [length]; lia.
Qed.

Lemma filter_map_length {A B} (f : B -> bool) (g : A -> B) l : length (filter f (map g l)) = length (filter (fun x => f (g x)) l).
Proof. induction l as [|x l IH]; [reflexivity|]. cbn [map filter]. destruct (f (g x)); cbn [length]; rewrite IH; reflexivity. Qed.

Lemma filter_filter_and {A} (f g : A -> bool) l : filter f (filter g l) = filter (fun x => g x && f x) l.
Proof.
  induction l as [|x l IH]; [reflexivity|]. cbn [filter]. destruct (g x); cbn [filter andb]; [|exact IH].
  destruct (f x); rewrite IH; reflexivity.
Qed.

Lemma count_on_days close dl part a c T :
  cell_count a c (vposts (days_upto T (built_days close dl part)))
  = Z.of_nat (length (filter (fun dp : Z * posting => (fst dp <=? T) && cellb a c (snd dp)) (flat_postings dl))).
Proof.
  rewrite cell_count_filter, <- snd_dposts, filter_map_length. unfold days_upto.
  rewrite (dposts_filter (fun d => d <=? T) _ (built_days_dated close dl part)), filter_filter_and.
  f_equal. apply Permutation_length. apply Permutation_filter. apply built_days_perm.
Qed.

Lemma split_count {A} (key : A -> Z) (g : A -> bool) W col : W - 1 <= col -> forall l,
  length (filter (fun x => (key x <=? col) && g x) l)
  = Nat.add (length (filter (fun x => (key x <=? W - 1) && g x) l)) (length (filter (fun x => in_window W col (key x) && g x) l)).
Proof.
  intros Hle. induction l as [|x l IH]; [reflexivity|]. cbn [filter]. unfold in_window in *.
  destruct (g x); rewrite ?andb_false_r, ?andb_true_r; [|exact IH].
  destruct (key x <=? col) eqn:E1, (key x <=? W - 1) eqn:E2, (W <=? key x) eqn:E3; cbn [andb length]; try lia.
Qed.

(* the days --close touches carry nothing: invisible to any selection that rejects empty days *)
Lemma upd_day_id_filter (Q : day -> bool) d : Q (empty_day d) = false ->
  forall days, filter Q (upd_day days d (fun x => x)) = filter Q days.
Proof.
  intros HQ. induction days as [|x days IH]; cbn [upd_day].
  - cbn [filter]. rewrite HQ. reflexivity.
  - destruct (d =? d_date x); [reflexivity|]. destruct (d <? d_date x).
    + cbn [filter]. rewrite HQ. reflexivity.
    + cbn [filter]. rewrite IH. reflexivity.
Qed.

Lemma built_days_filter (Q : day -> bool) close dl part : (forall d, Q (empty_day d) = false) ->
  filter Q (built_days close dl part) = filter Q (b_days (builder_of dl)).
Proof.
  intros HQ. unfold built_days. destruct close; [|reflexivity].
  unfold builder_touch. cbn [b_days]. generalize (b_days (builder_of dl)). generalize (start_dates part).
  induction l as [|d l IH]; intros days; cbn [fold_left]; [reflexivity|].
  rewrite IH. apply upd_day_id_filter. apply HQ.
Qed.

Lemma filter_le_impl {A} (f g : A -> bool) l : (forall x, f x = true -> g x = true) ->
  (length (filter f l) <= length (filter g l))%nat.
Proof.
  intros H. induction l as [|x l IH]; [apply le_n|]. cbn [filter].
  destruct (f x) eqn:Ef; [rewrite (H x Ef); cbn [length]; lia|]. destruct (g x); cbn [length]; lia.
Qed.

(* the days dated in [W, col] that a selection [may] picks, when it rejects empty days, are among
   the dates of the journal in [W, col], with and without --close *)
Lemma may_days_window (may : day -> bool) close dl part W col :
  (forall d, may (empty_day d) = false) -> W - 1 <= col ->
  Z.of_nat (length (filter may (days_upto col (built_days close dl part))))
  - Z.of_nat (length (filter may (days_upto (W - 1) (built_days close dl part))))
  <= days_in dl W col.
Proof.
  intros Hmay Hle. unfold days_upto, days_in. rewrite !filter_filter_and.
  rewrite (split_count d_date may W col Hle).
  set (Q := fun x : day => in_window W col (d_date x) && may x).
  rewrite (built_days_filter Q close dl part) by (intros d; unfold Q; rewrite Hmay; apply andb_false_r).
  destruct (builder_canonical dl) as (_ & Hd & _). cbn zeta in Hd. rewrite <- Hd.
  rewrite (filter_map_length (in_window W col) d_date).
  pose proof (filter_le_impl Q (fun x : day => in_window W col (d_date x)) (b_days (builder_of dl))
                (fun x Hx => proj1 (andb_prop _ _ Hx))). lia.
Qed.
