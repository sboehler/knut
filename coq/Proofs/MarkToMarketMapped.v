(* C03 on the rendered report, rows aggregated by --mapping / --remap.  A row b of an
   asset/liability type holds the sum, over the accounts that land on b, of the values Valuate
   posted on them; each of these obeys the windowed mark-to-market bound (Proofs/MarkToMarketSteps.v).

   - the asset/liability accounts of the valued days are accounts of the journal
   - remap and shorten keep an account syntactically valid and in its class (A/L or not)
   - the cells of a mapped row
   - the window of one account on the directives; the sum over the aggregated accounts *)
From Coq Require Import ZArith QArith Qabs List Bool Lia Permutation Sorting.Sorted.
From Knut Require Import Model.Str Model.Dec Model.Date Model.Account Model.Ledger Model.Price
     Model.Journal Model.Check Model.Pipeline Model.Table Model.Report Model.Cli
     Spec.DateSpec Spec.WellformedSpec Spec.LedgerSpec Spec.LedgerSyntax Spec.MarkToMarketSpec
     Spec.PriceSpec Spec.PriceDaySpec Spec.ValuationSpec Spec.MarkToMarketReportSpec Spec.MarkToMarketMappedSpec
     Proofs.DecProofs Proofs.DecValue Proofs.CheckLemmas Proofs.CheckProofs Proofs.PairProofs
     Proofs.ReportSum Proofs.Conservation Proofs.DateProofs Proofs.BuilderProofs Proofs.BeancountProofs
     Proofs.LedgerProofs Proofs.CloseProofs Proofs.PriceDayProofs Proofs.ValuationProofs
     Proofs.MarkToMarket Proofs.MarkToMarketReport Proofs.MarkToMarketWindow Proofs.MarkToMarketJournal
     Proofs.MarkToMarketFinal Proofs.MarkToMarketRow Proofs.MarkToMarketSteps.
Import ListNotations.
Open Scope Q_scope.

Section From.
  Variable S : account -> Prop.

  Definition acc_from (p : posting) : Prop := S (p_acc p) \/ is_AL (p_acc p) = false.

  Lemma val_days_from v ds s s' ds' :
    process_days (valuate_proc v) s ds = ROk (s', ds') -> Forall acc_from (vposts ds) -> pos_from S (v_qty s) ->
    Forall acc_from (vposts ds').
  Proof.
    apply (val_days_accounts S (fun a => S a \/ is_AL a = false)).
    - intros a [H|H] HAL; [exact H|congruence].
    - intros a H. split; [left; exact H|right; reflexivity].
  Qed.
End From.

Lemma in_firstn {A} (x : A) n l : In x (firstn n l) -> In x l.
Proof. intros H. rewrite <- (firstn_skipn n l). apply in_or_app. left. exact H. Qed.
Lemma in_skipn {A} (x : A) n l : In x (skipn n l) -> In x l.
Proof. intros H. rewrite <- (firstn_skipn n l). apply in_or_app. right. exact H. Qed.

Lemma account_ok_cons s tail :
  account_ok (s :: tail) = true <->
  (exists t, parse_atype s = Some t) /\ seg_ok s = true /\
  (forall x, In x tail -> x <> [] /\ seg_ok x = true).
Proof.
  unfold account_ok. cbn [valid_account forallb]. rewrite !andb_true_iff, !forallb_forall. split.
  - intros [[H1 H2] [H3 H4]]. split; [destruct (parse_atype s) as [t|]; [exists t; reflexivity|discriminate]|].
    split; [exact H3|]. intros x Hx. split; [|exact (H4 x Hx)]. specialize (H2 x Hx). destruct x; [discriminate|discriminate].
  - intros [[t Ht] [H3 H4]]. rewrite Ht. split; [split; [reflexivity|]|split; [exact H3|]].
    + intros x Hx. destruct (H4 x Hx) as [Hn _]. destruct x; [contradiction|reflexivity].
    + intros x Hx. exact (proj2 (H4 x Hx)).
Qed.

Lemma swap_type_ok a : account_ok a = true -> account_ok (swap_type a) = true /\ is_AL (swap_type a) = is_AL a.
Proof.
  intros H. destruct a as [|s tail]; [discriminate|]. pose proof H as H0. apply account_ok_cons in H. destruct H as [[t Ht] [H3 H4]].
  unfold swap_type. rewrite Ht.
  destruct t; (split; [first [exact H0|apply account_ok_cons; split; [eexists; reflexivity|split; [reflexivity|exact H4]]]
                      |unfold is_AL, acc_type; rewrite ?Ht; reflexivity]).
Qed.

Lemma remap_ok rs a : account_ok a = true -> account_ok (remap rs a) = true /\ is_AL (remap rs a) = is_AL a.
Proof. intros H. unfold remap. destruct (rxs_match rs (acc_name a)); [apply swap_type_ok; exact H|split; [exact H|reflexivity]]. Qed.

Lemma shorten_ok m a b' : account_ok a = true -> shorten m a = ShAcc b' -> account_ok b' = true /\ is_AL b' = is_AL a.
Proof.
  intros Ha H. unfold shorten in H. destruct m as [|r m]; [injection H as <-; auto|].
  destruct (mapping_level (r :: m) (acc_name a)) as [[level suffix]|]; [|injection H as <-; auto].
  destruct (level =? 0)%Z eqn:E0; [discriminate|].
  destruct (acc_level a <=? suffix)%Z; [injection H as <-; auto|].
  destruct (acc_level a - suffix <? level)%Z eqn:E2; [injection H as <-; auto|].
  destruct ((level <? 0) || (suffix <? 0))%Z eqn:E3; [discriminate|].
  injection H as <-. apply orb_false_iff in E3. destruct E3 as [E3 _].
  destruct (Z.to_nat level) as [|l'] eqn:El; [lia|].
  destruct (Z.to_nat (acc_level a - suffix)) as [|k'] eqn:Ek; [lia|].
  destruct a as [|s tail]; [discriminate|]. cbn [firstn skipn app].
  split; [|reflexivity].
  apply account_ok_cons in Ha. destruct Ha as [Ht [H3 H4]]. apply account_ok_cons. split; [exact Ht|]. split; [exact H3|].
  intros x Hx. apply H4. apply in_app_or in Hx. destruct Hx as [Hx|Hx].
  - apply in_firstn in Hx. apply in_firstn in Hx. exact Hx.
  - apply in_skipn in Hx. exact Hx.
Qed.

(* an account that lands on a valid row b is of b's class *)
Lemma lands_class cfg b a :
  account_ok a = true -> account_ok b = true -> lands_on cfg b a = true -> is_AL a = is_AL b.
Proof.
  intros Ha Hb H. unfold lands_on in H. destruct (remap_ok (bc_remap cfg) a Ha) as [R1 R2].
  destruct (shorten (bc_mapping cfg) (remap (bc_remap cfg) a)) as [b'| |] eqn:E; try discriminate.
  destruct (shorten_ok _ _ _ R1 E) as [S1 S2].
  apply acc_eqb_name in H. apply acc_name_inj in H; [|assumption|assumption]. subst b'. congruence.
Qed.

(* what a dated posting contributes to row b under commodity c *)
Definition mval (cfg : balance_cfg) (b : account) (c : commodity) (dp : Z * posting) : Q :=
  if lands_on cfg b (p_acc (snd dp)) && cfg_where cfg (p_acc (snd dp)) (p_com (snd dp)) && str_eqb (p_com (snd dp)) c
  then dvalue (p_val (snd dp)) else 0.

Lemma q_contrib_mapped cfg part V b c col d p :
  bc_valuation cfg = Some V ->
  q_contrib (balance_query cfg part) b (Some col, Some c) (d, p)
  == if in_col (periods part) col d then mval cfg b c (d, p) else 0.
Proof. exact (q_contrib_balance cfg part V b c col d p). Qed.

(* the cell of a row b of asset/liability type, whatever --mapping and --remap do: the values
   Valuate posted inside the window on the postings that land on b and pass the filters *)
Theorem mapped_report_cells cfg ds r part V :
  bc_valuation cfg = Some V ->
  balance_report cfg ds = COk (r, part) ->
  exists dl dsP dsV,
    parse_directives ds = MOk dl /\
    new_partition (clip (mkPeriod (bc_from cfg) (bc_to cfg)) (journal_period dl)) (bc_interval cfg) (bc_last cfg) = POk part /\
    valued_run cfg V dl part dsP dsV /\
    (postings_syntactic dl ->
     Forall acc_ok_p (vposts dsV) /\
     Forall (acc_from (fun a => exists d p, In (d, p) (flat_postings dl) /\ p_acc p = a)) (vposts dsV) /\
     forall b c col, account_ok b = true -> is_AL b = true ->
       rcell b (Some col, Some c) r ==
       lsum (fun dp => if in_span (span part) (fst dp) && in_col (periods part) col (fst dp) then mval cfg b c dp else 0) (dposts dsV)).
Proof.
  intros Hv H. destruct (valued_cells cfg ds r part V Hv H) as (dl & dsP & dsV & Ep & Epart & Hrun & Hcells).
  exists dl, dsP, dsV. split; [exact Ep|]. split; [exact Epart|]. split; [exact Hrun|].
  intros Hsyn. destruct (Hcells Hsyn) as [HokV Hcell]. split; [exact HokV|]. split.
  { destruct Hrun as (sP & sV & E2 & E3). destruct (cp_days_shape _ _ _ _ _ E2) as (_ & Hposts2 & _).
    apply (val_days_from _ V dsP val_init sV dsV E3); [|intros x []].
    rewrite <- snd_dposts, Hposts2. rewrite Forall_forall. intros p Hp. apply in_map_iff in Hp.
    destruct Hp as ([d p0] & <- & Hdp). cbn [snd]. left. exists d, p0. split; [|reflexivity].
    eapply Permutation_in; [apply built_days_perm|exact Hdp]. }
  intros b c col Hb HAL. rewrite Hcell.
  - apply LedgerProofs.qsum_ext. intros [d p] _. cbn [fst].
    destruct (in_span (span part) d); cbn [andb]; [|reflexivity].
    exact (q_contrib_mapped cfg part V b c col d p Hv).
  - intros [d p] Hp Hn. cbn [snd] in Hp, Hn. rewrite (q_contrib_mapped cfg part V b c col d p Hv).
    unfold mval. cbn [snd]. destruct (lands_on cfg b (p_acc p)) eqn:El.
    + pose proof (lands_class cfg b (p_acc p) Hp Hb El). congruence.
    + destruct (in_col (periods part) col d); reflexivity.
Qed.

Lemma window_journal_row cfg ds dl part V dsP dsV a col :
  parse_directives ds = MOk dl -> postings_syntactic dl -> valued_run cfg V dl part dsP dsV ->
  account_ok a = true -> is_AL a = true -> (p_start (span part) - 1 <= col)%Z ->
  forall coms,
  Qabs (lsum (window_value (p_start (span part)) col dsV a) coms
        - (mv_row dl V a col coms - mv_row dl V a (p_start (span part) - 1) coms))
    <= inject_Z (row_steps_tight dl V a (p_start (span part)) col coms) * (1 # 100000000).
Proof.
  intros Ep Hsyn Hrun Ha HAL Hle coms. unfold mv_row. rewrite <- lsum_sub.
  apply (row_bound _ V _ _ (fun c => cell_steps_tight dl a c (p_start (span part)) col)
           (row_steps_tight dl V a (p_start (span part)) col) eq_refl (fun _ _ => eq_refl)).
  - intros c _ Hcv. exact (window_journal_dates cfg ds dl part V dsP dsV a c col Ep Hsyn Hrun Ha HAL Hcv Hle).
  - intros _. exact (window_journal_V cfg ds dl part V dsP dsV a col Ep Hsyn Hrun Hle).
Qed.

(* a posting that lands on b belongs to exactly one of the aggregated accounts *)
Lemma sum_pick_in (x : account) (v : Q) : forall l, NoDup l -> (forall y, In y l -> account_ok y = true) -> account_ok x = true ->
  In x l -> lsum (fun y => if acc_eqb x y then v else 0) l == v.
Proof.
  intros l Hnd Hok Hx. apply lsum_pick; [|apply acc_eqb_refl|exact Hnd].
  intros y Hy E. apply acc_eqb_name in E. exact (acc_name_inj _ _ Hx (Hok y Hy) E).
Qed.

Definition in_journal (dl : list directive) (a : account) : Prop := exists d p, In (d, p) (flat_postings dl) /\ p_acc p = a.

Lemma cfg_where_split cfg a c : cfg_where cfg a c = acc_pass cfg a && com_pass cfg c.
Proof. reflexivity. Qed.

Lemma mval_sources cfg dl b c srcs dp :
  account_ok b = true -> is_AL b = true -> row_sources cfg dl b srcs -> com_pass cfg c = true ->
  account_ok (p_acc (snd dp)) = true -> acc_from (in_journal dl) (snd dp) ->
  mval cfg b c dp == lsum (fun a => cval a c dp) srcs.
Proof.
  intros Hb HAL (Hnd & Hsrc & Hcov) Hc Hp Hfrom. destruct dp as [d p]. cbn [snd] in *.
  unfold mval, cval, cellb. cbn [snd]. rewrite cfg_where_split.
  destruct (str_eqb (p_com p) c) eqn:Ec.
  2: { rewrite andb_false_r. symmetry. apply LedgerProofs.qsum_zero. intros a _. rewrite andb_false_r. reflexivity. }
  apply str_eqb_eq in Ec. rewrite Ec, Hc, !andb_true_r.
  rewrite (LedgerProofs.qsum_ext _ (fun a => if acc_eqb (p_acc p) a then dvalue (p_val p) else 0) srcs)
    by (intros a _; rewrite andb_true_r; reflexivity).
  destruct (lands_on cfg b (p_acc p) && acc_pass cfg (p_acc p)) eqn:E.
  - apply andb_true_iff in E. destruct E as [El Ea].
    assert (HALp : is_AL (p_acc p) = true) by (rewrite (lands_class cfg b (p_acc p) Hp Hb El); exact HAL).
    destruct Hfrom as [(d0 & p0 & Hin0 & Eacc)|Hn]; [|congruence].
    assert (Hins : In (p_acc p) srcs) by (rewrite <- Eacc; apply (Hcov d0 p0 Hin0); rewrite Eacc; assumption).
    symmetry. apply sum_pick_in; [exact Hnd|intros y Hy; exact (proj1 (Hsrc y Hy))|exact Hp|exact Hins].
  - symmetry. apply LedgerProofs.qsum_zero. intros a Hin. destruct (acc_eqb (p_acc p) a) eqn:Ee; [|reflexivity]. exfalso.
    destruct (Hsrc a Hin) as (Hoka & Hla & Hpa).
    apply acc_eqb_name in Ee. apply acc_name_inj in Ee; [|assumption|assumption]. subst a.
    rewrite Hla, Hpa in E. discriminate.
Qed.

Lemma sources_AL cfg dl b srcs a :
  account_ok b = true -> is_AL b = true -> row_sources cfg dl b srcs -> In a srcs ->
  account_ok a = true /\ is_AL a = true /\ acc_pass cfg a = true.
Proof.
  intros Hb HAL (_ & Hsrc & _) Hin. destruct (Hsrc a Hin) as (Hok & Hl & Hp). split; [exact Hok|]. split; [|exact Hp].
  rewrite (lands_class cfg b a Hok Hb Hl). exact HAL.
Qed.

(* a row b of asset/liability type, over commodities that pass --commodity, cumulated up to a period
   end: the sum over the accounts that land on b of what Valuate posted on them inside the window *)
Lemma mapped_row_window cfg ds r part V :
  bc_valuation cfg = Some V ->
  balance_report cfg ds = COk (r, part) ->
  exists dl dsP dsV,
    parse_directives ds = MOk dl /\
    new_partition (clip (mkPeriod (bc_from cfg) (bc_to cfg)) (journal_period dl)) (bc_interval cfg) (bc_last cfg) = POk part /\
    valued_run cfg V dl part dsP dsV /\
    (postings_syntactic dl ->
     forall b srcs col coms, account_ok b = true -> is_AL b = true -> row_sources cfg dl b srcs ->
       (forall c, In c coms -> com_pass cfg c = true) ->
       (p_start (span part) <= p_end (span part))%Z -> In col (end_dates part) ->
       row_value b part col r coms == lsum (fun a => lsum (window_value (p_start (span part)) col dsV a) coms) srcs).
Proof.
  intros Hv H. destruct (mapped_report_cells cfg ds r part V Hv H) as (dl & dsP & dsV & Ep & Epart & Hrun & Hcells).
  exists dl, dsP, dsV. split; [exact Ep|]. split; [exact Epart|]. split; [exact Hrun|].
  intros Hsyn b srcs col coms Hb HAL Hsrcs Hcoms Hspan Hcol.
  destruct (Hcells Hsyn) as (HokV & HfromV & Hcell). rewrite Forall_forall in HokV, HfromV.
  unfold row_value. rewrite qsum_swap. apply LedgerProofs.qsum_ext. intros c Hc.
  rewrite (cum_window_generic (mval cfg b c) b c part col r (dposts dsV) _ _ _ Epart Hspan Hcol (fun e => Hcell b c e Hb HAL)).
  unfold window_value. rewrite qsum_swap. apply LedgerProofs.qsum_ext. intros dp Hdp.
  destruct (in_window (p_start (span part)) col (fst dp)).
  - assert (Hin : In (snd dp) (vposts dsV)) by (rewrite <- snd_dposts; apply in_map; exact Hdp).
    exact (mval_sources cfg dl b c srcs dp Hb HAL Hsrcs (Hcoms c Hc) (HokV _ Hin) (HfromV _ Hin)).
  - symmetry. apply LedgerProofs.qsum_zero. intros a _. reflexivity.
Qed.

(* THE WINDOW for a row that aggregates accounts (--mapping, --remap): the row is the sum of the
   mark-to-market changes of the accounts that land on it, up to the sum of their step counts *)
Theorem windowed_row_mapped cfg ds r part V :
  bc_valuation cfg = Some V ->
  balance_report cfg ds = COk (r, part) ->
  exists dl,
    parse_directives ds = MOk dl /\
    new_partition (clip (mkPeriod (bc_from cfg) (bc_to cfg)) (journal_period dl)) (bc_interval cfg) (bc_last cfg) = POk part /\
    (postings_syntactic dl ->
     forall b srcs col coms, account_ok b = true -> is_AL b = true -> row_sources cfg dl b srcs ->
       (forall c, In c coms -> com_pass cfg c = true) ->
       (p_start (span part) <= p_end (span part))%Z -> In col (end_dates part) ->
       Qabs (row_value b part col r coms
             - (mv_row_sum dl V srcs col coms - mv_row_sum dl V srcs (p_start (span part) - 1) coms))
         <= inject_Z (steps_sum dl V srcs (p_start (span part)) col coms) * (1 # 100000000)).
Proof.
  intros Hv H. destruct (mapped_row_window cfg ds r part V Hv H) as (dl & dsP & dsV & Ep & Epart & Hrun & Hrow).
  exists dl. split; [exact Ep|]. split; [exact Epart|].
  intros Hsyn b srcs col coms Hb HAL Hsrcs Hcoms Hspan Hcol.
  rewrite (Hrow Hsyn b srcs col coms Hb HAL Hsrcs Hcoms Hspan Hcol). unfold mv_row_sum.
  pose proof (col_from_start _ _ _ _ _ Epart Hspan Hcol) as Hle.
  pose proof (fun a Ha => sources_AL cfg dl b srcs a Hb HAL Hsrcs Ha) as Hall.
  clear Hsrcs. induction srcs as [|a srcs IH].
  - apply bound_zero. unfold LedgerProofs.qsum. cbn [fold_right]. ring.
  - cbn [steps_sum]. destruct (Hall a (or_introl eq_refl)) as (Hoka & HALa & _).
    eapply (bound_add (1 # 100000000)
              (lsum (window_value (p_start (span part)) col dsV a) coms
               - (mv_row dl V a col coms - mv_row dl V a (p_start (span part) - 1) coms))).
    + exact (window_journal_row cfg ds dl part V dsP dsV a col Ep Hsyn Hrun Hoka HALa Hle coms).
    + exact (IH (fun a' Ha' => Hall a' (or_intror Ha'))).
    + unfold LedgerProofs.qsum. cbn [fold_right]. ring.
Qed.

Lemma dedup_acc_in x : forall l, In x (dedup_acc l) -> In x l.
Proof.
  induction l as [|y l IH]; cbn [dedup_acc]; intros H; [exact H|].
  destruct (existsb (acc_eqb y) l); [right; exact (IH H)|].
  destruct H as [<-|H]; [left; reflexivity|right; exact (IH H)].
Qed.

Lemma dedup_acc_nodup : forall l, NoDup (dedup_acc l).
Proof.
  induction l as [|y l IH]; cbn [dedup_acc]; [constructor|].
  destruct (existsb (acc_eqb y) l) eqn:E; [exact IH|]. constructor; [|exact IH].
  intros Hin. apply dedup_acc_in in Hin.
  assert (Ht : existsb (acc_eqb y) l = true) by (apply existsb_exists; exists y; split; [exact Hin|apply acc_eqb_refl]).
  congruence.
Qed.

Lemma dedup_acc_keeps x : forall l, (forall y, In y l -> account_ok y = true) -> In x l -> In x (dedup_acc l).
Proof.
  induction l as [|y l IH]; intros Hok Hin; [destruct Hin|]. cbn [dedup_acc].
  assert (Hok' : forall z, In z l -> account_ok z = true) by (intros z Hz; apply Hok; right; exact Hz).
  destruct (existsb (acc_eqb y) l) eqn:E.
  - destruct Hin as [->|Hin]; [|exact (IH Hok' Hin)].
    apply existsb_exists in E. destruct E as (z & Hz & Ez).
    apply acc_eqb_name in Ez. apply acc_name_inj in Ez; [|apply Hok; left; reflexivity|apply Hok'; exact Hz].
    subst z. exact (IH Hok' Hz).
  - destruct Hin as [->|Hin]; [left; reflexivity|right; exact (IH Hok' Hin)].
Qed.

Theorem sources_of_spec cfg dl b : postings_syntactic dl -> row_sources cfg dl b (sources_of cfg dl b).
Proof.
  intros Hsyn. unfold sources_of.
  set (L := filter (fun a => lands_on cfg b a && acc_pass cfg a) (map (fun dp : Z * posting => p_acc (snd dp)) (flat_postings dl))).
  assert (HL : forall y, In y L -> account_ok y = true /\ lands_on cfg b y = true /\ acc_pass cfg y = true).
  { intros y Hy. unfold L in Hy. apply filter_In in Hy. destruct Hy as [Hy Hf]. apply andb_true_iff in Hf.
    apply in_map_iff in Hy. destruct Hy as ([d p] & <- & Hdp). split; [exact (Hsyn d p Hdp)|exact Hf]. }
  split; [apply dedup_acc_nodup|]. split.
  - intros a Ha. apply HL. apply dedup_acc_in. exact Ha.
  - intros d p Hdp Hl Hp. apply dedup_acc_keeps; [intros y Hy; exact (proj1 (HL y Hy))|].
    unfold L. apply filter_In. split; [|rewrite Hl, Hp; reflexivity].
    apply in_map_iff. exists (d, p). split; [reflexivity|exact Hdp].
Qed.

(* an account shown as itself is the only one on its row *)
Lemma lands_on_self cfg a : account_ok a = true -> shows_account cfg a -> lands_on cfg a a = true.
Proof.
  intros Ha Hsh. specialize (Hsh a Ha). unfold lands_on.
  destruct (shorten (bc_mapping cfg) (remap (bc_remap cfg) a)) as [b'| |]; [rewrite Hsh|rewrite acc_eqb_refl in Hsh; discriminate..].
  apply acc_eqb_refl.
Qed.

(* Assets:B:X buys 1.5 A on 2021-03-01, Assets:B:Y buys 0.3 A on 03-03; prices of A in C as in
   MarkToMarketFinal.exr_journal; the report is valued in C, daily over 03-02 .. 03-04, with --close
   and --mapping 2 (every account is cut to two segments): both accounts are shown on the row
   Assets:B. *)
Open Scope Z_scope.
Definition exm_x : account := [s_Assets; [66]; [88]].
Definition exm_y : account := [s_Assets; [66]; [89]].
Definition exm_b : account := [s_Assets; [66]].
Definition exm_journal : list sdirective :=
  [ SOpen exr_d0 exm_x; SOpen exr_d0 exm_y; SOpen exr_d0 exr_o;
    SPrice exr_d0 exr_c (mkDec 123456789 (-8)) exr_V;
    STxn (mkStxn exr_d0 [] [mkBooking exr_o exm_x (mkDec 15 (-1)) exr_c] None None);
    SPrice (exr_d0 + 1) exr_c (mkDec 200000001 (-8)) exr_V;
    STxn (mkStxn (exr_d0 + 2) [] [mkBooking exr_o exm_y (mkDec 3 (-1)) exr_c] None None);
    SPrice (exr_d0 + 3) exr_c (mkDec 333333333 (-8)) exr_V ].
Definition exm_cfg : balance_cfg :=
  mkBalanceCfg (exr_d0 + 1) (exr_d0 + 3) Daily 0 false true (Some exr_V) true [mkRule 2 0 None] [] [] [] [] true.
