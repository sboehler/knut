(* C03: the verdict the runtime check evaluates on a row aggregated by --mapping / --remap holds of
   the model (Spec/ValuationMappedSpec.v mtm_row_mapped: the sum over the accounts that land on the
   row of ValuationSpec.mtm_expected, within the sum of ValuationSpec.step_bound).

   C03_windowed_mapped charges every aggregated account one step per journal day and commodity of
   the ROW.  The allowance of the check charges an account only for the commodities it holds
   itself.  The difference is closed here: on a cell (a, c) without a booking of a non-zero
   quantity the Valuate stage posts nothing of value: its position, zero at the start, stays zero and
   is never revalued, so every posting on the cell is one of the bookings of quantity zero
   (Proofs/MarkToMarketRow.v val_days_quiet).

   - a cell that is not booked carries no value
   - a commodity the account does not hold
   - sums over a list of commodities and over a sub-list that carries all non-zero terms
   - the row, every aggregated account with a list of commodities of its own (windowed_row_sources)
   - expected_sum, bound_sum; the model meets mtm_row_mapped *)
From Coq Require Import ZArith QArith Qabs List Bool Lia Permutation Sorting.Sorted.
From Knut Require Import Model.Str Model.Dec Model.Date Model.Account Model.Ledger Model.Price
     Model.Journal Model.Check Model.Pipeline Model.Table Model.Report Model.Cli
     Spec.DateSpec Spec.WellformedSpec Spec.LedgerSpec Spec.LedgerSyntax Spec.MarkToMarketSpec
     Spec.PriceSpec Spec.PriceDaySpec Spec.ValuationSpec Spec.MarkToMarketReportSpec Spec.MarkToMarketMappedSpec
     Spec.ValuationMappedSpec
     Proofs.DecProofs Proofs.DecValue Proofs.CheckLemmas Proofs.CheckProofs Proofs.PairProofs
     Proofs.DateProofs Proofs.BuilderProofs Proofs.StableSort Proofs.BeancountProofs
     Proofs.LedgerProofs Proofs.CloseProofs Proofs.PriceDayProofs Proofs.ValuationProofs
     Proofs.MarkToMarket Proofs.MarkToMarketReport Proofs.MarkToMarketWindow Proofs.MarkToMarketJournal
     Proofs.MarkToMarketRow Proofs.MarkToMarketFinal Proofs.MarkToMarketSteps Proofs.MarkToMarketMapped
     Proofs.MarkToMarketDefined.
From Knut Require Proofs.TranscodeMtmSum.
Import ListNotations.
Open Scope Q_scope.

Definition PZ (q : dec) : Prop := is_zero q = true.

Definition empty_booking (p : posting) : Prop := is_zero (p_qty p) = true /\ dvalue (p_val p) == 0.

Lemma unbooked_quiet a c l :
  Forall posting_in_ok l -> Forall (fun p => cellb a c p = true -> is_zero (p_qty p) = true) l ->
  Forall (quiet a c empty_booking) l.
Proof.
  rewrite !Forall_forall. intros Hin Hz p Hp. destruct (Hin p Hp) as [Hok Hv]. split; [exact Hok|].
  intros Hc. pose proof (Hz p Hp Hc) as Hq. split; [exact Hq|exact (Hv Hq)].
Qed.

Lemma quiet_cval a c ds dp : Forall (quiet a c empty_booking) (vposts ds) -> In dp (dposts ds) -> cval a c dp == 0.
Proof.
  rewrite Forall_forall. intros H Hdp. unfold cval. destruct (cellb a c (snd dp)) eqn:Ec; [|reflexivity].
  apply (H (snd dp)); [rewrite <- snd_dposts; apply in_map; exact Hdp|exact Ec].
Qed.

Lemma Qabs_le_zero x : Qabs x <= 0 -> x == 0.
Proof.
  intros H. apply Qabs_Qle_condition in H. destruct H as [H1 H2]. apply Qle_antisym; [exact H2|].
  setoid_replace 0 with (- 0) by ring. exact H1.
Qed.

(* from the initial state: every posting on such a cell is one of its bookings and carries no value *)
Theorem window_unbooked V a c days0 sP dsP sV dsV :
  account_ok a = true -> is_AL a = true ->
  Forall posting_in_ok (vposts days0) ->
  Forall (fun p => cellb a c p = true -> is_zero (p_qty p) = true) (vposts days0) ->
  process_days (compute_prices_proc V) (mkCp [] None) days0 = ROk (sP, dsP) ->
  process_days (valuate_proc V) val_init dsP = ROk (sV, dsV) ->
  forall W col, window_value W col dsV a c == 0.
Proof.
  intros Ha HAL Hin Hz HP HV W col.
  rewrite <- (vposts_of_dposts _ _ (proj1 (proj2 (cp_days_shape _ _ _ _ _ HP)))) in Hin, Hz.
  pose proof (proj2 (val_days_quiet V a c Ha HAL empty_booking (fun p Hp => proj1 Hp) dsP val_init sV dsV HV
                       (unbooked_quiet a c _ Hin Hz) (good_nil a c _))) as Hout.
  unfold window_value. apply LedgerProofs.qsum_zero. intros dp Hdp. destruct (in_window W col (fst dp)); [|reflexivity].
  exact (quiet_cval a c dsV dp Hout Hdp).
Qed.

Lemma unheld_no_cell dl a c d p :
  ~ In c (held_commodities (flat_postings dl) a) -> In (d, p) (flat_postings dl) -> cellb a c p = false.
Proof.
  intros Hn Hin. destruct (cellb a c p) eqn:E; [|reflexivity]. exfalso. apply Hn.
  unfold cellb in E. apply andb_true_iff in E. destruct E as [E1 E2]. apply str_eqb_eq in E2.
  apply TranscodeMtmSum.held_in. exists d, p. repeat split; assumption.
Qed.

Theorem window_unheld cfg ds dl part V dsP dsV a c col :
  parse_directives ds = MOk dl -> postings_syntactic dl -> valued_run cfg V dl part dsP dsV ->
  account_ok a = true -> is_AL a = true ->
  ~ In c (held_commodities (flat_postings dl) a) ->
  window_value (p_start (span part)) col dsV a c == 0.
Proof.
  intros Ep Hsyn (sP & sV & EP & EV) Ha HAL Hn.
  apply (window_unbooked V a c (built_days (bc_close cfg) dl part) sP dsP sV dsV Ha HAL
           (built_days_in_ok' _ ds dl part Ep Hsyn)); [|exact EP|exact EV].
  rewrite <- snd_dposts. rewrite Forall_forall. intros p Hin Hc. exfalso.
  apply in_map_iff in Hin. destruct Hin as ([d p0] & <- & Hin). cbn [snd] in Hc.
  assert (Hj : In (d, p0) (flat_postings dl)) by (eapply Permutation_in; [apply built_days_perm|exact Hin]).
  rewrite (unheld_no_cell dl a c d p0 Hn Hj) in Hc. discriminate.
Qed.

Definition in_coms (l : list commodity) (c : commodity) : bool := existsb (str_eqb c) l.

Lemma in_coms_iff l c : in_coms l c = true <-> In c l.
Proof.
  unfold in_coms. rewrite existsb_exists. split.
  - intros (x & Hx & E). apply str_eqb_eq in E. subst x. exact Hx.
  - intros H. exists c. split; [exact H|apply str_eqb_refl].
Qed.

Lemma lsum_filter_split {A} (p : A -> bool) (f : A -> Q) l :
  lsum f l == lsum f (filter p l) + lsum f (filter (fun x => negb (p x)) l).
Proof.
  unfold LedgerProofs.qsum. induction l as [|x l IH]; cbn [filter fold_right]; [ring|].
  destruct (p x); cbn [negb fold_right]; rewrite IH; ring.
Qed.

Lemma lsum_restrict (f : commodity -> Q) sub coms : NoDup sub -> NoDup coms -> incl sub coms ->
  (forall c, In c coms -> ~ In c sub -> f c == 0) -> lsum f coms == lsum f sub.
Proof.
  intros Hs Hc Hincl Hz. rewrite (lsum_filter_split (in_coms sub) f coms).
  rewrite (LedgerProofs.qsum_zero f (filter (fun x => negb (in_coms sub x)) coms)).
  2: { intros c Hin. apply filter_In in Hin. destruct Hin as [Hin Hn]. apply Hz; [exact Hin|].
       intros Hsub. apply in_coms_iff in Hsub. rewrite Hsub in Hn. discriminate. }
  rewrite Qplus_0_r. apply LedgerProofs.qsum_perm. apply NoDup_Permutation; [apply NoDup_filter; exact Hc|exact Hs|].
  intros c. rewrite filter_In, in_coms_iff. split; [tauto|]. intros H. split; [apply Hincl; exact H|exact H].
Qed.

Notation held dl a := (held_commodities (flat_postings dl) a).

(* one aggregated account a against a duplicate-free list sub that has every commodity a holds
   among the commodity keys coms of the row *)
Lemma window_journal_row_sub cfg ds dl part V dsP dsV a col coms sub :
  parse_directives ds = MOk dl -> postings_syntactic dl -> valued_run cfg V dl part dsP dsV ->
  account_ok a = true -> is_AL a = true -> (p_start (span part) - 1 <= col)%Z ->
  NoDup coms -> NoDup sub -> incl sub coms -> (forall c, In c coms -> In c (held dl a) -> In c sub) ->
  Qabs (lsum (window_value (p_start (span part)) col dsV a) coms
        - (mv_row dl V a col sub - mv_row dl V a (p_start (span part) - 1) sub))
    <= inject_Z (row_steps_tight dl V a (p_start (span part)) col sub) * (1 # 100000000).
Proof.
  intros Ep Hsyn Hrun Ha HAL Hle Hnd Hns Hincl Hsub.
  rewrite (lsum_restrict _ sub coms Hns Hnd Hincl).
  - exact (window_journal_row cfg ds dl part V dsP dsV a col Ep Hsyn Hrun Ha HAL Hle sub).
  - intros c Hc Hn. apply (window_unheld cfg ds dl part V dsP dsV a c col Ep Hsyn Hrun Ha HAL).
    intros Hh. exact (Hn (Hsub c Hc Hh)).
Qed.

(* THE WINDOW for any row of asset/liability type of any valued report, every aggregated account a
   charged for a list sub a of commodities of its own: coms, the commodity keys of the row, is
   duplicate-free, passes --commodity, and what a holds among coms is in sub a *)
Theorem windowed_row_sources cfg ds r part V :
  bc_valuation cfg = Some V ->
  balance_report cfg ds = COk (r, part) ->
  exists dl,
    parse_directives ds = MOk dl /\
    new_partition (clip (mkPeriod (bc_from cfg) (bc_to cfg)) (journal_period dl)) (bc_interval cfg) (bc_last cfg) = POk part /\
    (postings_syntactic dl ->
     forall b srcs col coms (sub : account -> list commodity),
       account_ok b = true -> is_AL b = true -> row_sources cfg dl b srcs ->
       NoDup coms -> (forall c, In c coms -> com_pass cfg c = true) ->
       (forall a, In a srcs -> acc_pass cfg a = true ->
          NoDup (sub a) /\ incl (sub a) coms /\ forall c, In c coms -> In c (held dl a) -> In c (sub a)) ->
       (p_start (span part) <= p_end (span part))%Z -> In col (end_dates part) ->
       Qabs (row_value b part col r coms
             - (lsum (fun a => mv_row dl V a col (sub a)) srcs - lsum (fun a => mv_row dl V a (p_start (span part) - 1) (sub a)) srcs))
         <= inject_Z (fold_right (fun a n => (row_steps_tight dl V a (p_start (span part)) col (sub a) + n)%Z) 0%Z srcs)
            * (1 # 100000000)).
Proof.
  intros Hv H. destruct (mapped_row_window cfg ds r part V Hv H) as (dl & dsP & dsV & Ep & Epart & Hrun & Hrow).
  exists dl. split; [exact Ep|]. split; [exact Epart|].
  intros Hsyn b srcs col coms sub Hb HAL Hsrcs Hnd Hcoms Hsub Hspan Hcol.
  rewrite (Hrow Hsyn b srcs col coms Hb HAL Hsrcs Hcoms Hspan Hcol).
  pose proof (col_from_start _ _ _ _ _ Epart Hspan Hcol) as Hle.
  pose proof (fun a Ha => sources_AL cfg dl b srcs a Hb HAL Hsrcs Ha) as Hall.
  clear Hsrcs. induction srcs as [|a srcs IH].
  - apply bound_zero. unfold LedgerProofs.qsum. cbn [fold_right]. ring.
  - cbn [fold_right]. destruct (Hall a (or_introl eq_refl)) as (Hoka & HALa & Hpa).
    destruct (Hsub a (or_introl eq_refl) Hpa) as (S1 & S2 & S3).
    eapply (bound_add (1 # 100000000)
              (lsum (window_value (p_start (span part)) col dsV a) coms
               - (mv_row dl V a col (sub a) - mv_row dl V a (p_start (span part) - 1) (sub a)))).
    + exact (window_journal_row_sub cfg ds dl part V dsP dsV a col coms (sub a) Ep Hsyn Hrun Hoka HALa Hle Hnd S1 S2 S3).
    + exact (IH (fun a' Ha' => Hsub a' (or_intror Ha')) (fun a' Ha' => Hall a' (or_intror Ha'))).
    + unfold LedgerProofs.qsum. cbn [fold_right]. ring.
Qed.

Definition mv_held_sum (dl : list directive) (V : commodity) (srcs : list account) (T : Z) : Q :=
  lsum (fun a => mv_row dl V a T (held dl a)) srcs.

Fixpoint steps_held_sum (dl : list directive) (V : commodity) (srcs : list account) (W E : Z) : Z :=
  match srcs with
  | [] => 0%Z
  | a :: rest => (row_steps_tight dl V a W E (held dl a) + steps_held_sum dl V rest W E)%Z
  end.

Lemma steps_held_fold dl V W E srcs :
  steps_held_sum dl V srcs W E = fold_right (fun a n => (row_steps_tight dl V a W E (held dl a) + n)%Z) 0%Z srcs.
Proof. induction srcs as [|a srcs IH]; cbn [steps_held_sum fold_right]; congruence. Qed.

(* C03_windowed_mapped with every aggregated account charged for its own commodities only; coms is
   any duplicate-free list that contains them all (the commodity keys of the row) *)
Theorem windowed_row_mapped_held cfg ds r part V :
  bc_valuation cfg = Some V ->
  balance_report cfg ds = COk (r, part) ->
  exists dl,
    parse_directives ds = MOk dl /\
    new_partition (clip (mkPeriod (bc_from cfg) (bc_to cfg)) (journal_period dl)) (bc_interval cfg) (bc_last cfg) = POk part /\
    (postings_syntactic dl ->
     forall b srcs col coms, account_ok b = true -> is_AL b = true -> row_sources cfg dl b srcs ->
       NoDup coms -> (forall c, In c coms -> com_pass cfg c = true) ->
       (forall a, In a srcs -> incl (held dl a) coms) ->
       (p_start (span part) <= p_end (span part))%Z -> In col (end_dates part) ->
       Qabs (row_value b part col r coms
             - (mv_held_sum dl V srcs col - mv_held_sum dl V srcs (p_start (span part) - 1)))
         <= inject_Z (steps_held_sum dl V srcs (p_start (span part)) col) * (1 # 100000000)).
Proof.
  intros Hv H. destruct (windowed_row_sources cfg ds r part V Hv H) as (dl & Ep & Epart & Hw).
  exists dl. split; [exact Ep|]. split; [exact Epart|].
  intros Hsyn b srcs col coms Hb HAL Hsrcs Hnd Hcoms Hheld Hspan Hcol. rewrite steps_held_fold.
  apply (Hw Hsyn b srcs col coms (fun a => held dl a) Hb HAL Hsrcs Hnd Hcoms); [|exact Hspan|exact Hcol].
  intros a Ha _. split; [apply held_commodities_nodup|]. split; [exact (Hheld a Ha)|]. intros c _ Hc. exact Hc.
Qed.

Lemma expected_sum_value dl V W E : forall srcs e, expected_sum dl V srcs W E = Some e ->
  dvalue e == mv_held_sum dl V srcs E - mv_held_sum dl V srcs (W - 1).
Proof.
  unfold mv_held_sum. induction srcs as [|a srcs IH]; intros e H; cbn [expected_sum] in H.
  - injection H as <-. rewrite dvalue_nil. unfold LedgerProofs.qsum. cbn [fold_right]. ring.
  - destruct (mtm_expected dl V a W E) as [x|] eqn:E1; [|discriminate].
    destruct (expected_sum dl V srcs W E) as [s|] eqn:E2; [|discriminate].
    injection H as <-. rewrite dvalue_add, (mtm_expected_sum _ _ _ _ _ _ E1), (IH s eq_refl).
    unfold LedgerProofs.qsum. cbn [fold_right]. ring.
Qed.

Lemma expected_sum_defined dl V W E : forall srcs,
  (forall a, In a srcs -> exists e, mtm_expected dl V a W E = Some e) -> exists e, expected_sum dl V srcs W E = Some e.
Proof.
  induction srcs as [|a srcs IH]; intros H; cbn [expected_sum]; [exists dec_nil; reflexivity|].
  destruct (H a (or_introl eq_refl)) as [x ->]. destruct (IH (fun a' Ha' => H a' (or_intror Ha'))) as [s ->].
  exists (add x s). reflexivity.
Qed.

Lemma steps_held_bound dl V W E : forall srcs, (steps_held_sum dl V srcs W E <= bound_sum dl srcs W E)%Z.
Proof.
  induction srcs as [|a srcs IH]; cbn [steps_held_sum bound_sum]; [lia|].
  pose proof (row_steps_step_bound dl V a W E). lia.
Qed.

(* For every configuration with a valuation commodity and every journal on which the balance command
   succeeds, every row b of asset/liability type (whatever --mapping and --remap do): the entry of
   mtm_row_mapped exists, lists the accounts the row adds up, has one entry per column, every entry
   carries an expectation, and the model's row -- the sum of the node's cells over any duplicate-free
   list of commodities that pass --commodity and include what the aggregated accounts hold -- lies
   within the allowance: as rationals and as the boolean within_bound the check evaluates. *)
Theorem model_meets_spec_mapped cfg ds r part V :
  bc_valuation cfg = Some V ->
  balance_report cfg ds = COk (r, part) ->
  exists dl,
    parse_directives ds = MOk dl /\
    (postings_syntactic dl ->
     forall b, account_ok b = true -> is_AL b = true ->
       (p_start (span part) <= p_end (span part))%Z ->
       exists srcs exps,
         mtm_row_mapped cfg dl b = Some (srcs, exps) /\ row_sources cfg dl b srcs /\
         length exps = length (end_dates part) /\
         forall j col eo n, nth_error (end_dates part) j = Some col -> nth_error exps j = Some (eo, n) ->
           exists e, eo = Some e /\
           forall coms, NoDup coms -> (forall c, In c coms -> com_pass cfg c = true) ->
             (forall a, In a srcs -> incl (held_commodities (flat_postings dl) a) coms) ->
             Qabs (row_value b part col r coms - dvalue e) <= inject_Z n * (1 # 100000000) /\
             forall o, dvalue o == row_value b part col r coms -> within_bound o e n = true).
Proof.
  intros Hv H. destruct (windowed_row_mapped_held cfg ds r part V Hv H) as (dl & Ep & Epart & Hw).
  destruct (expected_defined cfg ds r part V Hv H) as (dl' & Ep' & Hdef).
  assert (dl' = dl) by congruence. subst dl'.
  exists dl. split; [exact Ep|].
  intros Hsyn b Hb HAL Hspan.
  pose proof (sources_of_spec cfg dl b Hsyn) as Hsrcs. set (srcs := sources_of cfg dl b) in *.
  set (W := p_start (span part)) in *.
  exists srcs, (map (fun p => (expected_sum dl V srcs W (p_end p), bound_sum dl srcs W (p_end p))) (periods part)).
  split; [unfold mtm_row_mapped; rewrite Hv, Epart; reflexivity|]. split; [exact Hsrcs|].
  split; [unfold end_dates; rewrite !map_length; reflexivity|].
  intros j col eo n Hcol Hexp.
  destruct (nth_column _ part j col _ Hcol Hexp) as (p & Hin & -> & E). injection E as -> ->. set (col := p_end p) in *.
  destruct (expected_sum_defined dl V W col srcs) as [e He].
  { intros a Ha. destruct (sources_AL cfg dl b srcs a Hb HAL Hsrcs Ha) as (Hoka & HALa & _).
    exact (proj1 (proj2 (Hdef Hsyn a Hoka HALa)) W col). }
  exists e. split; [exact He|].
  intros coms Hnd Hcoms Hheld.
  apply (within_allowance _ e (steps_held_sum dl V srcs W col)); [|apply steps_held_bound].
  rewrite (expected_sum_value dl V W col srcs e He).
  exact (Hw Hsyn b srcs col coms Hb HAL Hsrcs Hnd Hcoms Hheld Hspan Hin).
Qed.
