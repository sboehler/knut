(* C03 on the rendered report, the cells: the cell of an asset/liability account in a valued balance
   report is the sum of the values the Valuate stage put on the account's postings inside the
   window (the valued analogue of C02_cells).

   - shapes: ComputePrices and Valuate keep the dates of the days, every transaction of a
     day carries the day's date; invariants of the Valuate stage (val_days_inv), among them:
     every posting account stays syntactically valid
   - CloseAccounts in a valued run: the closing transactions book between accounts that are
     neither assets nor liabilities, so sums over asset/liability postings are unchanged
   - what the query of the balance command adds to a cell for one dated posting; the case of
     an account that is shown as itself (no mapping rule or remap touches it)
   - assembly: valued_cells, valued_report_cells *)
From Coq Require Import ZArith QArith Qabs List Bool Lia Permutation Sorting.Sorted.
From Knut Require Import Model.Str Model.Dec Model.Date Model.Account Model.Ledger Model.Price
     Model.Journal Model.Check Model.Pipeline Model.Table Model.Report Model.Cli
     Spec.DateSpec Spec.WellformedSpec Spec.LedgerSpec Spec.LedgerSyntax Spec.MarkToMarketSpec
     Spec.PriceSpec Spec.PriceDaySpec Spec.MarkToMarketReportSpec
     Proofs.DecProofs Proofs.DecValue Proofs.CheckLemmas Proofs.CheckProofs Proofs.PairProofs
     Proofs.ReportSum Proofs.Conservation Proofs.DateProofs Proofs.BeancountProofs
     Proofs.LedgerProofs Proofs.CloseProofs Proofs.PriceDayProofs Proofs.ValuationProofs
     Proofs.MarkToMarket.
Import ListNotations.
Open Scope Q_scope.

(* two vocabularies meet here: dated postings (Proofs/LedgerProofs.v, the report side) and plain
   postings (Spec/MarkToMarketSpec.v, the valuation side) *)
Notation dposts := LedgerProofs.days_postings.
Notation dday := LedgerProofs.day_postings.
Notation vposts := MarkToMarketSpec.days_postings.
Notation vday := MarkToMarketSpec.day_postings.
Notation lsum := LedgerProofs.qsum.
Notation vsum := MarkToMarketSpec.qsum.

Lemma snd_dday d : map snd (dday d) = vday d.
Proof.
  unfold LedgerProofs.day_postings, MarkToMarketSpec.day_postings. rewrite concat_map, map_map.
  f_equal. apply map_ext. intros t. rewrite map_map. cbn [snd]. apply map_id.
Qed.

Lemma snd_dposts ds : map snd (dposts ds) = vposts ds.
Proof.
  unfold LedgerProofs.days_postings, MarkToMarketSpec.days_postings. rewrite concat_map, map_map.
  f_equal. apply map_ext. intros d. apply snd_dday.
Qed.

Lemma vsum_lsum (f : posting -> Q) (l : list (Z * posting)) :
  vsum f (map snd l) == lsum (fun dp => f (snd dp)) l.
Proof.
  unfold LedgerProofs.qsum. induction l as [|x l IH]; cbn [map MarkToMarketSpec.qsum fold_right]; [reflexivity|].
  rewrite IH. reflexivity.
Qed.

Lemma lsum_pick {A} (eqb : A -> A -> bool) (x : A) (v : Q) : forall l,
  (forall y, In y l -> eqb x y = true -> x = y) -> eqb x x = true -> NoDup l -> In x l ->
  lsum (fun y => if eqb x y then v else 0) l == v.
Proof.
  unfold LedgerProofs.qsum. induction l as [|y l IH]; intros Heq Hxx Hnd Hin; [destruct Hin|].
  inversion Hnd as [|? ? Hy Hnd']; subst. cbn [fold_right].
  assert (Hl : forall z, In z l -> eqb x z = true -> x = z) by (intros z Hz; apply Heq; right; exact Hz).
  destruct Hin as [->|Hin].
  - rewrite Hxx. rewrite (LedgerProofs.qsum_zero (fun y => if eqb x y then v else 0) l); [ring|].
    intros z Hz. destruct (eqb x z) eqn:E; [|reflexivity]. rewrite <- (Hl z Hz E) in Hz. contradiction.
  - rewrite (IH Hl Hxx Hnd' Hin). destruct (eqb x y) eqn:E; [|ring].
    rewrite <- (Heq y (or_introl eq_refl) E) in Hy. contradiction.
Qed.

Lemma lsum_sub {A} (f g : A -> Q) l : lsum (fun x => f x - g x) l == lsum f l - lsum g l.
Proof. unfold LedgerProofs.qsum. induction l as [|x l IH]; cbn [fold_right]; [ring|]. rewrite IH. ring. Qed.

(* a row adds up commodities: each commodity other than V within its own number of steps, V itself
   exact; N is the sum of these numbers, given by its two equations *)
Lemma row_bound eps (V : commodity) (x y : commodity -> Q) (n : commodity -> Z) (N : list commodity -> Z) :
  N (@nil commodity) = 0%Z -> (forall c l, N (c :: l) = ((if str_eqb c V then 0 else n c) + N l)%Z) ->
  forall coms : list commodity,
  (forall c : commodity, In c coms -> c <> V -> Qabs (x c - y c) <= inject_Z (n c) * eps) -> (In V coms -> x V == y V) ->
  Qabs (lsum x coms - lsum y coms) <= inject_Z (N coms) * eps.
Proof.
  intros N0 N1. induction coms as [|c coms IH]; intros Hc HV.
  - rewrite N0. apply bound_zero. unfold LedgerProofs.qsum. cbn [fold_right]. ring.
  - rewrite N1. eapply (bound_add eps (x c - y c)).
    + destruct (str_eqb c V) eqn:Ec.
      * apply str_eqb_eq in Ec. subst c. apply bound_zero. rewrite (HV (or_introl eq_refl)). ring.
      * apply Hc; [left; reflexivity|]. intros ->. rewrite str_eqb_refl in Ec. discriminate.
    + apply IH; [intros c' H'; apply Hc; right; exact H'|intros H'; apply HV; right; exact H'].
    + unfold LedgerProofs.qsum. cbn [fold_right]. ring.
Qed.

(* the three quantities of a cell as sums over dated postings *)
Definition cval (a : account) (c : commodity) (dp : Z * posting) : Q :=
  if cellb a c (snd dp) then dvalue (p_val (snd dp)) else 0.
Definition cqty (a : account) (c : commodity) (dp : Z * posting) : Q :=
  if cellb a c (snd dp) then dvalue (p_qty (snd dp)) else 0.

Lemma cell_value_dposts a c ds : cell_value a c (vposts ds) == lsum (cval a c) (dposts ds).
Proof. unfold cell_value. rewrite <- snd_dposts, vsum_lsum. reflexivity. Qed.

Lemma cell_qty_dposts a c ds : cell_qty a c (vposts ds) == lsum (cqty a c) (dposts ds).
Proof. unfold cell_qty. rewrite <- snd_dposts, vsum_lsum. reflexivity. Qed.

Lemma dposts_app l1 l2 : dposts (l1 ++ l2) = dposts l1 ++ dposts l2.
Proof. unfold LedgerProofs.days_postings. rewrite map_app, concat_app. reflexivity. Qed.

Lemma vposts_app l1 l2 : vposts (l1 ++ l2) = vposts l1 ++ vposts l2.
Proof. unfold MarkToMarketSpec.days_postings. rewrite map_app, concat_app. reflexivity. Qed.

Lemma days_dated_app l1 l2 : days_dated (l1 ++ l2) <-> days_dated l1 /\ days_dated l2.
Proof. unfold days_dated. apply Forall_app. Qed.

(* a stage that adds only transactions carrying the day's date keeps dates, and days dated *)
Lemma days_step_dated (Q : Z -> txn -> Prop) l l' :
  (forall dt t, Q dt t -> t_date t = dt) -> Forall2 (day_step Q) l l' ->
  dates l' = dates l /\ (days_dated l -> days_dated l').
Proof.
  intros HQ. induction 1 as [|d d' l l' (Ed & _ & _ & extra & mid & He & Hs & Hp) _ [I1 I2]]; [split; [reflexivity|auto]|].
  split; [unfold dates in *; cbn [map]; congruence|].
  intros Hd. inversion Hd as [|? ? Hx Hrest]; subst. constructor; [|exact (I2 Hrest)].
  rewrite Ed. eapply Permutation_Forall; [exact Hp|].
  eapply (Forall2_Forall_r txn_sim (fun t => t_date t = d_date d)); [|exact Hs|].
  - intros t t' (E & _) Ht. congruence.
  - apply Forall_app. split; [exact Hx|]. eapply Forall_impl; [|exact He]. intros t. apply HQ.
Qed.

Lemma val_days_dated v : forall ds s s' ds',
  process_days (valuate_proc v) s ds = ROk (s', ds') -> days_dated ds ->
  days_dated ds' /\ dates ds' = dates ds.
Proof.
  intros ds s s' ds' H Hd. destruct (days_step_dated adjustment ds ds') as [D1 D2]; [|exact (valuate_stage_step _ _ _ _ _ H)|auto].
  intros dt t (c & a & g & _ & E & _). exact E.
Qed.

Lemma cp_days_shape v : forall ds s s' ds',
  process_days (compute_prices_proc v) s ds = ROk (s', ds') ->
  dates ds' = dates ds /\ dposts ds' = dposts ds /\ (days_dated ds -> days_dated ds').
Proof.
  intros ds s s' ds' H.
  destruct (days_step_dated no_extra ds ds' (fun _ _ F => match F with end) (prices_stage_step _ _ _ _ _ H)) as [D1 D2].
  split; [exact D1|]. split; [|exact D2].
  clear D1 D2. apply process_days_run in H. induction H as [|s d ds s1 d1 s' ds1 E1 _ IH]; [reflexivity|].
  unfold LedgerProofs.days_postings in *. cbn [map concat]. rewrite IH.
  unfold LedgerProofs.day_postings. rewrite (proj1 (cp_day _ _ _ _ _ E1)). reflexivity.
Qed.

(* an invariant I of the position map and a property P of postings go through the Valuate stage
      when a booking keeps both and the revaluations booked from a map with I have P *)
Section ValuateInvariant.
  Variables (v : commodity) (I : positions -> Prop) (P : posting -> Prop).
  Hypothesis booking : forall s t p s' p',
    val_posting v s t p = ROk (s', p') -> P p -> I (v_qty s) -> I (v_qty s') /\ P p'.
  Hypothesis revaluation : forall date prev cur pos ts,
    val_adjustments v date prev cur pos = ROk ts -> I pos -> Forall P (MarkToMarket.txns_postings ts).

  Lemma val_days_inv ds s s' ds' :
    process_days (valuate_proc v) s ds = ROk (s', ds') -> Forall P (vposts ds) -> I (v_qty s) ->
    I (v_qty s') /\ Forall P (vposts ds').
  Proof.
    intros H. apply process_days_run in H.
    induction H as [|s d ds s1 d1 s' ds1 E1 _ IH]; intros HP HI; [split; [exact HI|constructor]|].
    unfold MarkToMarketSpec.days_postings in *. cbn [map concat] in *. apply Forall_app in HP. destruct HP as [Hd Hr].
    destruct (valuate_day_run _ _ _ _ _ E1) as (ts & s2 & out & Eadj & Erun & -> & Eout & _).
    destruct (val_run_inv v I P booking _ _ _ _ Erun Hd HI) as [A1 A2].
    destruct (IH Hr A1) as [B1 B2]. split; [exact B1|]. apply Forall_app. split; [|exact B2].
    rewrite Eout. apply Forall_app. split; [exact A2|exact (revaluation _ _ _ _ _ Eadj HI)].
  Qed.
End ValuateInvariant.

(* accounts: with S the accounts of the position map and R those of the postings, a booking puts
      its account into the map if it is an asset or a liability, a revaluation books between an
      account of the map and its Income mirror *)
Definition pos_from (S : account -> Prop) (m : positions) : Prop := forall x, In x m -> S (fst (fst (snd x))).

Lemma adjustments_accounts (S R : account -> Prop) v date prev cur pos ts :
  (forall a, S a -> R a /\ R (valuation_account_for a)) ->
  val_adjustments v date prev cur pos = ROk ts -> pos_from S pos ->
  Forall (fun p => R (p_acc p)) (MarkToMarket.txns_postings ts).
Proof.
  intros HSR H Hs. pose proof (val_adjustments_only_AL _ _ _ _ _ _ H) as F. clear H.
  induction F as [|t ts (k & a & c & q & gain & Hin & _ & _ & _ & Hps) _ IH]; [constructor|].
  unfold MarkToMarket.txns_postings in *. cbn [map concat]. apply Forall_app. split; [|exact IH].
  rewrite Hps. destruct (HSR _ (Hs _ Hin)) as [H1 H2]. unfold pair_build.
  destruct (is_neg dec_nil || is_zero dec_nil && is_neg gain); cbv beta iota zeta; repeat constructor; assumption.
Qed.

Lemma val_days_accounts (S R : account -> Prop) v ds s s' ds' :
  (forall a, R a -> is_AL a = true -> S a) -> (forall a, S a -> R a /\ R (valuation_account_for a)) ->
  process_days (valuate_proc v) s ds = ROk (s', ds') ->
  Forall (fun p => R (p_acc p)) (vposts ds) -> pos_from S (v_qty s) -> Forall (fun p => R (p_acc p)) (vposts ds').
Proof.
  intros HRS HSR H HP HI.
  refine (proj2 (val_days_inv v (pos_from S) (fun p => R (p_acc p)) _ _ ds s s' ds' H HP HI)).
  - clear - HRS. intros s t p s' p' H Hp Hs. destruct (val_posting_value _ _ _ _ _ _ H) as (Ea & _).
    split; [|rewrite Ea; exact Hp]. rewrite (val_posting_state _ _ _ _ _ _ H).
    destruct (is_zero (p_qty p)); [exact Hs|]. unfold val_book. destruct (is_AL (p_acc p)) eqn:EAL; [|exact Hs]. cbn [v_qty].
    intros x Hin. apply sm_put_in in Hin. destruct Hin as [->|Hin]; [exact (HRS _ Hp EAL)|apply Hs; exact Hin].
  - intros date prev cur pos ts. apply adjustments_accounts. exact HSR.
Qed.

Definition acc_ok_p (p : posting) : Prop := account_ok (p_acc p) = true.

Lemma entries_ok_nil : entries_ok [].
Proof. split; [constructor|intros x []]. Qed.

Lemma in_ok_acc_ok l : Forall posting_in_ok l -> Forall acc_ok_p l.
Proof. apply Forall_impl. intros p [H _]. exact H. Qed.

Lemma val_days_acc_ok v ds s s' ds' :
  Forall posting_in_ok (vposts ds) -> entries_ok (v_qty s) ->
  process_days (valuate_proc v) s ds = ROk (s', ds') -> Forall acc_ok_p (vposts ds').
Proof.
  intros Hin [_ Hs] H.
  apply (val_days_accounts (fun a => account_ok a = true) (fun a => account_ok a = true) v ds s s' ds'); try assumption.
  - auto.
  - intros a Ha. split; [exact Ha|apply account_ok_valuation; exact Ha].
  - exact (in_ok_acc_ok _ Hin).
  - intros x Hx. exact (proj1 (proj2 (Hs x Hx))).
Qed.

Lemma acc_ok_posts_ok ds : Forall acc_ok_p (vposts ds) -> posts_ok (dposts ds).
Proof.
  intros H dp Hin. rewrite <- snd_dposts in H. rewrite Forall_forall in H. apply H. apply in_map. exact Hin.
Qed.

Lemma closing_txns_nonAL date vs : forall m, Forall CloseProofs.entry_ok_closable m ->
  forall dp, In dp (LedgerProofs.txns_postings (closing_txns date m vs)) -> is_AL (p_acc (snd dp)) = false.
Proof.
  induction m as [|[k0 [[a c] qy]] m IH]; intros Hok dp Hin; cbn [closing_txns] in Hin.
  - destruct Hin.
  - inversion Hok as [|? ? Hx Hrest]; subst. destruct Hx as (_ & _ & Hc). cbn [fst snd] in Hc.
    destruct (is_zero qy && is_zero (match pos_get vs a c with Some x => x | None => dec_nil end)).
    + apply IH; assumption.
    + unfold LedgerProofs.txns_postings in Hin. cbn [map concat t_date t_postings] in Hin.
      apply in_app_or in Hin. destruct Hin as [Hin|Hin]; [|apply IH; assumption].
      assert (Hna : is_AL a = false).
      { unfold closable in Hc. apply andb_true_iff in Hc. destruct Hc as [Hc _]. apply negb_true_iff in Hc. exact Hc. }
      unfold pair_build in Hin.
      destruct (is_neg qy || is_zero qy && is_neg _); cbn [map] in Hin; destruct Hin as [<-|[<-|[]]]; cbn [snd p_acc];
        try exact Hna; reflexivity.
Qed.

(* a weight that vanishes on accounts that are not assets or liabilities does not see the close stage *)
Lemma close_days_AL cds (f : Z * posting -> Q) :
  (forall dp, account_ok (p_acc (snd dp)) = true -> is_AL (p_acc (snd dp)) = false -> f dp == 0) ->
  forall ds s s' ds',
  map_ok (c_qty s) -> posts_ok (dposts ds) ->
  process_days (close_proc cds) s ds = ROk (s', ds') ->
  lsum f (dposts ds') == lsum f (dposts ds).
Proof.
  intros Hf ds s s' ds' Hm Hok H. apply process_days_run in H.
  induction H as [|s d ds s1 d1 s' ds1 E1 _ IH]; [reflexivity|].
  - unfold LedgerProofs.days_postings in Hok. cbn [map concat] in Hok. apply posts_ok_app in Hok. destruct Hok as [Hd Hds].
    destruct (close_day _ _ _ _ _ Hm Hd E1) as (Hd1 & Hm1 & _).
    specialize (IH Hm1 Hds).
    unfold LedgerProofs.days_postings in *. cbn [map concat]. rewrite !LedgerProofs.qsum_app, IH.
    apply Qplus_comp; [|reflexivity]. subst d1.
    destruct (existsb (Z.eqb (d_date d)) cds); [|reflexivity].
    rewrite !day_postings_txns. cbn [set_txns d_txns]. rewrite txns_postings_app, LedgerProofs.qsum_app.
    rewrite (LedgerProofs.qsum_zero f (LedgerProofs.txns_postings (closing_txns (d_date d) (c_qty s) (c_val s)))); [ring|].
    intros dp Hin. apply Hf.
    + apply (proj2 (closing_txns_psum (fun _ _ => 0) (d_date d) (c_val s) (c_qty s) (proj2 Hm))). exact Hin.
    + apply (closing_txns_nonAL (d_date d) (c_val s) (c_qty s) (proj2 Hm)). exact Hin.
Qed.

Definition in_col (ps : list period) (col d : Z) : bool :=
  match column_for ps d with Some e => (e =? col)%Z | None => false end.

Lemma acc_eqb_AL b a : account_ok b = true -> account_ok a = true -> is_AL b = false -> is_AL a = true -> acc_eqb b a = false.
Proof.
  intros Hb Ha Hnb Hna. destruct (acc_eqb b a) eqn:E; [|reflexivity].
  apply acc_eqb_name in E. apply acc_name_inj in E; [|assumption|assumption]. congruence.
Qed.

(* what a dated posting adds to the cell (b, col, c) of a valued report: its value, if remap and the
   first matching mapping rule send its account onto b and it passes the filters *)
Lemma q_contrib_balance cfg part V b c col d p :
  bc_valuation cfg = Some V ->
  q_contrib (balance_query cfg part) b (Some col, Some c) (d, p)
  == if in_col (periods part) col d
     then if match shorten (bc_mapping cfg) (remap (bc_remap cfg) (p_acc p)) with ShAcc b' => acc_eqb b' b | _ => false end
             && cfg_where cfg (p_acc p) (p_com p) && str_eqb (p_com p) c
          then dvalue (p_val p) else 0
     else 0.
Proof.
  intros Hv. rewrite q_contrib_ind. unfold q_ind, balance_query. cbn [q_where q_account q_date q_valued].
  rewrite Hv. unfold in_col.
  fold (cfg_where cfg (p_acc p) (p_com p)).
  unfold Date.align. rewrite align_list_column_for.
  destruct (cfg_where cfg (p_acc p) (p_com p)).
  - destruct (shorten (bc_mapping cfg) (remap (bc_remap cfg) (p_acc p))) as [b'| |].
    + destruct (acc_eqb b' b); cbn [andb].
      * destruct (column_for (periods part) d) as [e|]; unfold rkey_eqb; cbn [fst snd oz_eqb ocom_eqb].
        -- destruct (e =? col)%Z, (str_eqb (p_com p) c); cbn [andb]; ring.
        -- cbn [andb]. ring.
      * destruct (column_for (periods part) d) as [e|]; [destruct (e =? col)%Z|]; ring.
    + cbn [andb]. destruct (column_for (periods part) d) as [e|]; [destruct (e =? col)%Z|]; ring.
    + cbn [andb]. destruct (column_for (periods part) d) as [e|]; [destruct (e =? col)%Z|]; ring.
  - rewrite andb_false_r. cbn [andb]. destruct (column_for (periods part) d) as [e|]; [destruct (e =? col)%Z|]; ring.
Qed.

Lemma q_contrib_valued cfg part V a c col d p :
  bc_valuation cfg = Some V -> shows_account cfg a -> account_ok a = true -> cfg_where cfg a c = true ->
  account_ok (p_acc p) = true ->
  q_contrib (balance_query cfg part) a (Some col, Some c) (d, p)
  == if in_col (periods part) col d then cval a c (d, p) else 0.
Proof.
  intros Hv Hsh Ha Hw Hp. rewrite (q_contrib_balance cfg part V a c col d p Hv).
  destruct (in_col (periods part) col d); [|reflexivity]. unfold cval, cellb. cbn [snd].
  specialize (Hsh _ Hp).
  assert (E : match shorten (bc_mapping cfg) (remap (bc_remap cfg) (p_acc p)) with ShAcc b' => acc_eqb b' a | _ => false end
              = acc_eqb (p_acc p) a)
    by (destruct (shorten _ _); congruence).
  rewrite E. destruct (acc_eqb (p_acc p) a) eqn:Ea; [|reflexivity].
  apply acc_eqb_name in Ea. apply acc_name_inj in Ea; [|assumption|assumption].
  destruct (str_eqb (p_com p) c) eqn:Ec; [|rewrite andb_false_r; reflexivity].
  apply str_eqb_eq in Ec. rewrite Ea, Ec, Hw. reflexivity.
Qed.

Lemma col_from_start P iv n part col :
  new_partition P iv n = POk part -> (p_start (span part) <= p_end (span part))%Z -> In col (end_dates part) ->
  (p_start (span part) - 1 <= col)%Z.
Proof.
  intros Epart Hspan Hcol. destruct (partition_facts _ _ _ _ Epart) as [_ Htiles]. destruct (Htiles Hspan) as [Ht _].
  destruct (tiles_facts _ _ _ Ht) as [_ Hb]. rewrite Forall_forall in Hb.
  apply in_map_iff in Hcol. destruct Hcol as (q & <- & Hq). specialize (Hb _ Hq). lia.
Qed.

Lemma built_days_perm close dl part : Permutation (dposts (built_days close dl part)) (flat_postings dl).
Proof.
  unfold built_days. destruct close; [rewrite builder_touch_perm|]; apply builder_of_perm.
Qed.

Lemma built_days_dated close dl part : days_dated (built_days close dl part).
Proof.
  unfold built_days. destruct close; [apply builder_touch_dated|]; apply builder_of_dated.
Qed.

Lemma built_days_sorted close dl part : StronglySorted Z.lt (dates (built_days close dl part)).
Proof.
  apply Sorted_StronglySorted; [intros x y z; apply Z.lt_trans|].
  unfold built_days. destruct close; [|apply builder_of_sorted].
  unfold builder_touch. cbn [b_days]. apply touch_sorted. apply builder_of_sorted.
Qed.

Lemma built_days_in_ok' close l dl part :
  parse_directives l = MOk dl -> postings_syntactic dl -> Forall posting_in_ok (vposts (built_days close dl part)).
Proof.
  intros Hl Hsyn. apply (built_days_in_ok l dl (start_dates part) close Hl).
  cbn zeta. fold (built_days close dl part). rewrite <- snd_dposts. rewrite Forall_forall. intros p Hin.
  apply in_map_iff in Hin. destruct Hin as ([d p0] & <- & Hin). cbn [snd].
  apply (Hsyn d p0). eapply Permutation_in; [apply built_days_perm|exact Hin].
Qed.

(* what leaves the Valuate stage of a valued balance command *)
Definition valued_run (cfg : balance_cfg) (V : commodity) (dl : list directive) (part : partition)
           (dsP dsV : list day) : Prop :=
  exists sP sV,
    process_days (compute_prices_proc V) (mkCp [] None) (built_days (bc_close cfg) dl part) = ROk (sP, dsP) /\
    process_days (valuate_proc V) val_init dsP = ROk (sV, dsV).

(* a cell of a valued balance report to which accounts that are neither assets nor liabilities
   contribute nothing: the contributions of the postings that leave Valuate dated inside the window
   (Filter drops whole days; CloseAccounts books between other accounts only) *)
Lemma valued_cells cfg ds r part V :
  bc_valuation cfg = Some V ->
  balance_report cfg ds = COk (r, part) ->
  exists dl dsP dsV,
    parse_directives ds = MOk dl /\
    new_partition (clip (mkPeriod (bc_from cfg) (bc_to cfg)) (journal_period dl)) (bc_interval cfg) (bc_last cfg) = POk part /\
    valued_run cfg V dl part dsP dsV /\
    (postings_syntactic dl ->
     Forall acc_ok_p (vposts dsV) /\
     forall b key,
       (forall dp, account_ok (p_acc (snd dp)) = true -> is_AL (p_acc (snd dp)) = false ->
                   q_contrib (balance_query cfg part) b key dp == 0) ->
       rcell b key r ==
       lsum (fun dp => if in_span (span part) (fst dp) then q_contrib (balance_query cfg part) b key dp else 0) (dposts dsV)).
Proof.
  intros Hv H.
  destruct (balance_report_stages _ _ _ _ H) as (dl & s1 & d1 & dsV & s4 & d4 & dsC & d6 & Ep & Epart & E1 & E3 & E4 & E5 & E6).
  rewrite Hv in E3. destruct E3 as (sP & dsP & sV & E2 & E3). apply cfg_partition_ok in Epart.
  change (b_days (if bc_close cfg then builder_touch (builder_of dl) (start_dates part) else builder_of dl))
    with (built_days (bc_close cfg) dl part) in E1.
  apply check_current_stage_id in E1. subst d1. apply filter_stage_spec in E4. subst d4.
  exists dl, dsP, dsV. split; [exact Ep|]. split; [exact Epart|].
  split; [exists sP, sV; split; assumption|].
  intros Hsyn.
  pose proof (built_days_in_ok' (bc_close cfg) ds dl part Ep Hsyn) as Hin0.
  destruct (cp_days_shape _ _ _ _ _ E2) as (_ & Hposts2 & Hdated2).
  assert (HinP : Forall posting_in_ok (vposts dsP)) by (rewrite <- snd_dposts, Hposts2, snd_dposts; exact Hin0).
  pose proof (val_days_acc_ok V dsP val_init sV dsV HinP entries_ok_nil E3) as HokV.
  destruct (val_days_dated V dsP _ _ _ E3 (Hdated2 (built_days_dated _ _ _))) as [HdatedV _].
  split; [exact HokV|]. intros b key Hq0.
  destruct (query_days (balance_query cfg part) b key _ _ _ _ wf_new_report E6) as (_ & _ & ->).
  rewrite rcell_new, Qplus_0_l, <- (filt_sum _ _ _ HdatedV).
  assert (HokF : posts_ok (dposts (map (filt (span part)) dsV))).
  { intros dp Hdp. apply (acc_ok_posts_ok dsV HokV). eapply filt_in. exact Hdp. }
  destruct (bc_close cfg); [|subst dsC; reflexivity]. destruct E5 as (s5 & E).
  exact (close_days_AL (start_dates part) _ Hq0 _ (mkClose [] []) _ _ map_ok_nil HokF E).
Qed.

(* the valued analogue of C02_cells for asset/liability accounts: the cell of account a, column
   col, commodity c holds the sum of the values that Valuate put on the postings of (a, c) dated
   inside the window and attributed to that column *)
Theorem valued_report_cells cfg ds r part V :
  bc_valuation cfg = Some V ->
  balance_report cfg ds = COk (r, part) ->
  exists dl dsP dsV,
    parse_directives ds = MOk dl /\
    new_partition (clip (mkPeriod (bc_from cfg) (bc_to cfg)) (journal_period dl)) (bc_interval cfg) (bc_last cfg) = POk part /\
    valued_run cfg V dl part dsP dsV /\
    (postings_syntactic dl ->
     forall a c col, account_ok a = true -> is_AL a = true -> shows_account cfg a -> cfg_where cfg a c = true ->
       rcell a (Some col, Some c) r ==
       lsum (fun dp => if in_span (span part) (fst dp) && in_col (periods part) col (fst dp) then cval a c dp else 0) (dposts dsV)).
Proof.
  intros Hv H. destruct (valued_cells cfg ds r part V Hv H) as (dl & dsP & dsV & Ep & Epart & Hrun & Hcells).
  exists dl, dsP, dsV. split; [exact Ep|]. split; [exact Epart|]. split; [exact Hrun|].
  intros Hsyn a c col Ha HAL Hsh Hw. destruct (Hcells Hsyn) as [HokV Hcell].
  rewrite Hcell.
  - apply LedgerProofs.qsum_ext. intros [d p] Hdp. cbn [fst].
    destruct (in_span (span part) d); cbn [andb]; [|reflexivity].
    apply (q_contrib_valued cfg part V a c col d p Hv Hsh Ha Hw). exact (acc_ok_posts_ok dsV HokV (d, p) Hdp).
  - intros [d p] Hp Hn. cbn [snd] in Hp, Hn. rewrite (q_contrib_valued cfg part V a c col d p Hv Hsh Ha Hw Hp).
    unfold cval, cellb. cbn [snd]. rewrite (acc_eqb_AL _ _ Hp Ha Hn HAL). destruct (in_col (periods part) col d); reflexivity.
Qed.
