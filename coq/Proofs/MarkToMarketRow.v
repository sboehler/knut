(* C03 on the rendered report, the whole row.  A valued row adds up the commodities of an
   account; the valuation commodity itself is carried at its quantity (no Multiply, no
   revaluation), every other commodity obeys the windowed bound; the sum over the commodities the
   account holds is compared with Spec.ValuationSpec.market_value / mtm_expected.

   - the valuation commodity: posted value = quantity, exactly
   - a cell all of whose bookings have quantity zero is never revalued
   - sums over a list of commodities: windowed_row
   - market_value / mtm_expected as sums of mv_cell *)
From Coq Require Import ZArith QArith Qabs List Bool Lia Permutation Sorting.Sorted.
From Knut Require Import Proofs.SMapProofs Model.Str Model.Dec Model.Date Model.Account Model.Ledger Model.Price
     Model.Journal Model.Check Model.Pipeline Model.Table Model.Report Model.Cli
     Spec.DateSpec Spec.WellformedSpec Spec.LedgerSpec Spec.LedgerSyntax Spec.MarkToMarketSpec
     Spec.PriceSpec Spec.PriceDaySpec Spec.ValuationSpec Spec.MarkToMarketReportSpec
     Proofs.DecProofs Proofs.DecValue Proofs.CheckLemmas Proofs.CheckProofs Proofs.PairProofs
     Proofs.DateProofs Proofs.BeancountProofs
     Proofs.LedgerProofs Proofs.CloseProofs Proofs.PriceDayProofs Proofs.ValuationProofs
     Proofs.MarkToMarket Proofs.MarkToMarketReport Proofs.MarkToMarketWindow Proofs.MarkToMarketJournal
     Proofs.MarkToMarketFinal.
Import ListNotations.
Open Scope Q_scope.

Lemma val_posting_V v a s t p s' p' :
  val_posting v s t p = ROk (s', p') -> posting_in_ok p ->
  (if cellb a v p' then dvalue (p_val p') else 0) == (if cellb a v p then dvalue (p_qty p) else 0).
Proof.
  intros H [_ Hz]. destruct (val_posting_value _ _ _ _ _ _ H) as (Ea & _ & Ec & Eq & Z1 & Z2 & Z3).
  assert (Ecb : cellb a v p' = cellb a v p) by (unfold cellb; rewrite Ea, Ec; reflexivity). rewrite Ecb.
  destruct (cellb a v p) eqn:E; [|reflexivity].
  destruct (is_zero (p_qty p)) eqn:Ez.
  - rewrite (Z1 eq_refl), (Hz eq_refl). symmetry. apply is_zero_value. exact Ez.
  - unfold cellb in E. apply andb_true_iff in E. destruct E as [_ E]. apply str_eqb_eq in E.
    rewrite (Z2 eq_refl); [reflexivity|]. rewrite E. apply str_eqb_refl.
Qed.

Lemma val_run_V v a s ps s' ps' :
  val_run v s ps s' ps' -> Forall posting_in_ok ps -> cell_value a v ps' == cell_qty a v ps.
Proof.
  intros H. induction H as [|s t p ps s1 p1 s' ps1 E1 _ IH]; intros Hin; [reflexivity|].
  inversion Hin as [|? ? Hp Hrest]; subst.
  rewrite cell_value_cons, cell_qty_cons, (IH Hrest), (val_posting_V v a _ _ _ _ _ E1 Hp). reflexivity.
Qed.

Lemma adjustments_V0 v a date prev cur pos ts :
  val_adjustments v date prev cur pos = ROk ts -> cell_value a v (MarkToMarket.txns_postings ts) == 0.
Proof.
  intros H. pose proof (val_adjustments_only_AL _ _ _ _ _ _ H) as F. clear H.
  induction F as [|t ts (k & a' & c & q & gain & _ & _ & Hc & _ & Hps) _ IH]; [reflexivity|].
  unfold MarkToMarket.txns_postings in *. cbn [map concat]. rewrite cell_value_app, IH, Hps.
  assert (N : forall p, p_com p = c -> cellb a v p = false).
  { intros p Hp. unfold cellb. rewrite Hp, Hc. apply andb_false_r. }
  unfold pair_build. destruct (is_neg dec_nil || is_zero dec_nil && is_neg gain); cbv beta iota zeta;
    unfold cell_value; cbn [MarkToMarketSpec.qsum]; rewrite !N by reflexivity; ring.
Qed.

Lemma val_days_V v a ds s s' ds' :
  process_days (valuate_proc v) s ds = ROk (s', ds') -> Forall posting_in_ok (vposts ds) ->
  cell_value a v (vposts ds') == cell_qty a v (vposts ds).
Proof.
  intros H. apply process_days_run in H. induction H as [|s d ds s1 d1 s' ds1 E1 _ IH]; intros Hin; [reflexivity|].
  unfold MarkToMarketSpec.days_postings in *. cbn [map concat] in *. apply Forall_app in Hin. destruct Hin as [Hd Hr].
  rewrite cell_value_app, cell_qty_app, (IH Hr). apply Qplus_comp; [|reflexivity].
  destruct (valuate_day_run _ _ _ _ _ E1) as (ts & s2 & out & Eadj & Erun & _ & Eout & _).
  unfold MarkToMarketSpec.day_postings in Eout |- *. rewrite Eout, cell_value_app, (adjustments_V0 v a _ _ _ _ _ Eadj), Qplus_0_r.
  exact (val_run_V v a _ _ _ _ Erun Hd).
Qed.

(* the values posted in the valuation commodity up to a date are the quantities booked up to it *)
Lemma prefix_V V a days0 T sP dsP sV dsV :
  StronglySorted Z.lt (dates days0) -> days_dated days0 -> Forall posting_in_ok (vposts days0) ->
  process_days (compute_prices_proc V) (mkCp [] None) days0 = ROk (sP, dsP) ->
  process_days (valuate_proc V) val_init dsP = ROk (sV, dsV) ->
  lsum (fun dp => if (fst dp <=? T)%Z then cval a V dp else 0) (dposts dsV) == qty_on_days a V days0 T.
Proof.
  intros Hsorted Hdated Hin HP HV. pose proof (sorted_split T days0 Hsorted) as Esplit.
  set (U := days_upto T days0) in *. set (R := days_after T days0) in *.
  assert (HU : forall x, In x U -> (d_date x <=? T)%Z = true).
  { intros x Hx. unfold U, days_upto in Hx. apply filter_In in Hx. tauto. }
  assert (HR : forall x, In x R -> (d_date x <=? T)%Z = false).
  { intros x Hx. unfold R, days_after in Hx. apply filter_In in Hx. lia. }
  rewrite Esplit in Hdated, Hin, HP.
  apply days_dated_app in Hdated. destruct Hdated as [HdU HdR].
  apply in_ok_app in Hin. destruct Hin as [HinU HinR].
  destruct (process_days_app _ _ _ _ _ _ HP) as (pu & PU & PR & EPU & EPR & ->).
  destruct (process_days_app _ _ _ _ _ _ HV) as (vu & VU & VR & EVU & EVR & ->).
  destruct (cp_days_shape _ _ _ _ _ EPU) as (DU & SU & TU).
  destruct (cp_days_shape _ _ _ _ _ EPR) as (DR & SR & TR).
  destruct (val_days_dated _ _ _ _ _ EVU (TU HdU)) as [HdVU DVU].
  destruct (val_days_dated _ _ _ _ _ EVR (TR HdR)) as [HdVR DVR].
  rewrite dposts_app, LedgerProofs.qsum_app.
  rewrite (dated_sum_sel (fun d => (d <=? T)%Z) true _ VU HdVU).
  2: { apply (dates_transfer (fun d => (d <=? T)%Z = true) VU U); [congruence|exact HU]. }
  rewrite (dated_sum_sel (fun d => (d <=? T)%Z) false _ VR HdVR).
  2: { apply (dates_transfer (fun d => (d <=? T)%Z = false) VR R); [congruence|exact HR]. }
  rewrite Qplus_0_r, <- cell_value_dposts.
  assert (HinPU : Forall posting_in_ok (vposts PU)) by (rewrite (vposts_of_dposts _ _ SU); exact HinU).
  rewrite (val_days_V V a PU _ _ _ EVU HinPU). unfold qty_on_days. fold U.
  rewrite (vposts_of_dposts _ _ SU). reflexivity.
Qed.

Lemma window_minus (f : Z * posting -> Q) W col l : (W - 1 <= col)%Z ->
  lsum (fun dp => if in_window W col (fst dp) then f dp else 0) l
  == lsum (fun dp => if (fst dp <=? col)%Z then f dp else 0) l - lsum (fun dp => if (fst dp <=? W - 1)%Z then f dp else 0) l.
Proof.
  intros Hle. unfold LedgerProofs.qsum. induction l as [|x l IH]; cbn [fold_right]; [ring|]. rewrite IH.
  unfold in_window. destruct (fst x <=? col)%Z eqn:E1, (fst x <=? W - 1)%Z eqn:E2, (W <=? fst x)%Z eqn:E3; cbn [andb]; try lia; ring.
Qed.

(* the values Valuate posted on the cell (a, c) on the days dated inside [W, col] *)
Definition window_value (W col : Z) (ds : list day) (a : account) (c : commodity) : Q :=
  lsum (fun dp => if in_window W col (fst dp) then cval a c dp else 0) (dposts ds).

(* the cells of the valuation commodity itself: exactly the quantity booked inside the window *)
Lemma window_journal_V cfg ds dl part V dsP dsV a col :
  parse_directives ds = MOk dl -> postings_syntactic dl -> valued_run cfg V dl part dsP dsV ->
  (p_start (span part) - 1 <= col)%Z ->
  window_value (p_start (span part)) col dsV a V == mv_cell dl V a V col - mv_cell dl V a V (p_start (span part) - 1).
Proof.
  intros Ep Hsyn (sP & sV & EP & EV) Hle. unfold window_value.
  rewrite (window_minus _ _ _ _ Hle).
  rewrite !(prefix_V V a _ _ sP dsP sV dsV (built_days_sorted _ _ _) (built_days_dated _ _ _)
              (built_days_in_ok' _ ds dl part Ep Hsyn) EP EV).
  rewrite !qty_on_days_journal. unfold mv_cell, ValuationSpec.price_on. rewrite str_eqb_refl. cbn [price_q].
  assert (E1 : dvalue one == 1) by reflexivity. rewrite E1. ring.
Qed.

Theorem windowed_report_V cfg ds r part V :
  bc_valuation cfg = Some V ->
  balance_report cfg ds = COk (r, part) ->
  exists dl,
    parse_directives ds = MOk dl /\
    new_partition (clip (mkPeriod (bc_from cfg) (bc_to cfg)) (journal_period dl)) (bc_interval cfg) (bc_last cfg) = POk part /\
    (postings_syntactic dl ->
     forall a col, account_ok a = true -> is_AL a = true -> shows_account cfg a -> cfg_where cfg a V = true ->
       (p_start (span part) <= p_end (span part))%Z -> In col (end_dates part) ->
       cum_cell a V part col r == mv_cell dl V a V col - mv_cell dl V a V (p_start (span part) - 1)).
Proof.
  intros Hv H. destruct (cum_cell_window cfg ds r part V Hv H) as (dl & dsP & dsV & Ep & Epart & Hrun & Hcum).
  exists dl. split; [exact Ep|]. split; [exact Epart|].
  intros Hsyn a col Ha HAL Hsh Hw Hspan Hcol.
  rewrite (Hcum Hsyn a V col Ha HAL Hsh Hw Hspan Hcol).
  exact (window_journal_V cfg ds dl part V dsP dsV a col Ep Hsyn Hrun (col_from_start _ _ _ _ _ Epart Hspan Hcol)).
Qed.

Lemma cell_count_zero a c l : cell_count a c l = 0%Z -> Forall (fun p => cellb a c p = false) l.
Proof.
  induction l as [|p l IH]; intros H; constructor; cbn [cell_count] in H;
    pose proof (cell_count_nonneg a c l) as Hn; destruct (cellb a c p); try reflexivity; try lia; apply IH; lia.
Qed.

Section Unbooked.
  Variables (v : commodity) (a : account) (c : commodity).
  Hypothesis Ha : account_ok a = true.
  Hypothesis HAL : is_AL a = true.
  (* what is known of the bookings of the cell; they have quantity zero *)
  Variable B : posting -> Prop.
  Hypothesis B_zero : forall p, B p -> is_zero (p_qty p) = true.

  Definition quiet (p : posting) : Prop := account_ok (p_acc p) = true /\ (cellb a c p = true -> B p).
  (* the position of the cell, if the map has it, is zero *)
  Definition unheld (m : positions) : Prop := good a c (fun q => is_zero q = true) m.

  Lemma unheld_posq m : unheld m -> posq a c m == 0.
  Proof.
    intros (_ & He & Hz). unfold posq, getd, pos_get.
    destruct (sm_get m (pos_key a c)) as [[[a2 c2] q]|] eqn:G; [|apply dvalue_nil].
    apply sm_get_in in G. pose proof (He _ G) as (K & Ha2 & _). cbn [fst snd] in K, Ha2.
    apply pos_key_inj in K; [|assumption|assumption]. destruct K as [<- <-].
    apply is_zero_value. apply (Hz _ G). unfold ematch. cbn [fst snd]. rewrite acc_eqb_refl. apply str_eqb_refl.
  Qed.

  (* a zero position is never revalued and a booking of quantity zero leaves it alone: after Valuate
     the postings of the cell are its bookings, as they came in *)
  Lemma val_days_quiet ds s s' ds' :
    process_days (valuate_proc v) s ds = ROk (s', ds') -> Forall quiet (vposts ds) -> unheld (v_qty s) ->
    unheld (v_qty s') /\ Forall quiet (vposts ds').
  Proof.
    apply (val_days_inv v unheld quiet).
    - intros s0 t p s1 p' H [Hok Hb] Hg.
      destruct (val_posting_value _ _ _ _ _ _ H) as (Ea & _ & Ec & _).
      rewrite (val_posting_state _ _ _ _ _ _ H).
      destruct (is_zero (p_qty p)) eqn:Ez.
      + split; [exact Hg|]. split; [rewrite Ea; exact Hok|].
        unfold cellb. rewrite Ea, Ec. fold (cellb a c p). intros Hc.
        unfold val_posting in H. rewrite Ez in H. injection H as _ <-. exact (Hb Hc).
      + assert (Hc : cellb a c p = false).
        { destruct (cellb a c p); [|reflexivity]. rewrite (B_zero _ (Hb eq_refl)) in Ez. discriminate. }
        split; [|split; [rewrite Ea; exact Hok|unfold cellb; rewrite Ea, Ec; fold (cellb a c p); rewrite Hc; discriminate]].
        unfold val_book. destruct (is_AL (p_acc p)) eqn:EAL; [|exact Hg]. cbn [v_qty].
        apply (good_add a c _ eq_refl (fun x y Hx Hy => eq_trans (is_zero_add_l x y Hx) Hy)); [exact Hg|exact Hok|exact EAL|].
        intros Hm. unfold cellb in Hc. rewrite Hc in Hm. discriminate.
    - intros date prev cur pos ts H (_ & He & Hz).
      pose proof (adjustments_accounts (fun x => account_ok x = true) (fun x => account_ok x = true) _ _ _ _ _ _
                    (fun x Hx => conj Hx (account_ok_valuation x Hx)) H (fun x Hx => proj1 (proj2 (He x Hx)))) as Hk.
      pose proof (val_adjustments_only_AL _ _ _ _ _ _ H) as F. clear H.
      assert (Hn : Forall (fun p => cellb a c p = false) (MarkToMarket.txns_postings ts)).
      { induction F as [|t ts (k & a' & c' & q & gain & Hin & _ & _ & Hq & Hps) _ IH]; [constructor|].
        unfold MarkToMarket.txns_postings in *. cbn [map concat] in *. apply Forall_app in Hk.
        apply Forall_app. split; [|exact (IH (proj2 Hk))]. rewrite Hps. apply cell_count_zero.
        rewrite (proj2 (adjust_pair a c Ha HAL a' c' gain (proj1 (proj2 (He _ Hin))))).
        destruct (acc_eqb a' a && str_eqb c' c) eqn:E; [|reflexivity]. pose proof (Hz _ Hin E) as Hq'. cbn [snd] in Hq'. congruence. }
      rewrite Forall_forall in *. intros p Hp. split; [exact (Hk p Hp)|]. rewrite (Hn p Hp). discriminate.
  Qed.
End Unbooked.

Theorem windowed_row cfg ds r part V :
  bc_valuation cfg = Some V ->
  balance_report cfg ds = COk (r, part) ->
  exists dl,
    parse_directives ds = MOk dl /\
    new_partition (clip (mkPeriod (bc_from cfg) (bc_to cfg)) (journal_period dl)) (bc_interval cfg) (bc_last cfg) = POk part /\
    (postings_syntactic dl ->
     forall a col coms, account_ok a = true -> is_AL a = true -> shows_account cfg a ->
       (forall c, In c coms -> cfg_where cfg a c = true) ->
       (p_start (span part) <= p_end (span part))%Z -> In col (end_dates part) ->
       Qabs (row_value a part col r coms
             - (mv_row dl V a col coms - mv_row dl V a (p_start (span part) - 1) coms))
         <= inject_Z (row_steps cfg dl part V a col coms) * (1 # 100000000)).
Proof.
  intros Hv H. destruct (windowed_report cfg ds r part V Hv H) as (dl & Ep & Epart & Hw).
  destruct (windowed_report_V cfg ds r part V Hv H) as (dl' & Ep' & _ & HwV).
  assert (dl' = dl) by congruence. subst dl'.
  exists dl. split; [exact Ep|]. split; [exact Epart|].
  intros Hsyn a col coms Ha HAL Hsh Hwh Hspan Hcol.
  unfold row_value, mv_row. rewrite <- lsum_sub.
  apply (row_bound _ V _ _ (fun c => cell_steps cfg dl part a c col) (row_steps cfg dl part V a col) eq_refl (fun _ _ => eq_refl)).
  - intros c Hc Hcv. exact (Hw Hsyn a c col Ha HAL Hsh (Hwh c Hc) Hcv Hspan Hcol).
  - intros HV. rewrite (HwV Hsyn a col Ha HAL Hsh (Hwh V HV) Hspan Hcol). reflexivity.
Qed.

Definition mv_step (dl : list directive) (V : commodity) (a : account) (T : Z) (acc : option dec) (c : commodity) : option dec :=
  match acc with
  | None => None
  | Some s =>
    let q := qty_upto (flat_postings dl) a c T in
    if is_zero q then Some s
    else match ValuationSpec.price_on dl V c T with
         | Some p => Some (add s (mul q p))
         | None => None
         end
  end.

Lemma mv_fold dl V a T : forall coms s x,
  fold_left (mv_step dl V a T) coms (Some s) = Some x -> dvalue x == dvalue s + mv_row dl V a T coms.
Proof.
  unfold mv_row. induction coms as [|c coms IH]; intros s x H; cbn [fold_left] in H.
  - injection H as <-. unfold LedgerProofs.qsum. cbn [fold_right]. ring.
  - unfold LedgerProofs.qsum. cbn [fold_right]. fold (lsum (fun c0 => mv_cell dl V a c0 T) coms).
    unfold mv_step at 2 in H. destruct (is_zero (qty_upto (flat_postings dl) a c T)) eqn:Ez.
    + rewrite (IH _ _ H). unfold mv_cell. apply is_zero_value in Ez. rewrite Ez. ring.
    + destruct (ValuationSpec.price_on dl V c T) as [p|] eqn:Epr.
      * rewrite (IH _ _ H), dvalue_add, dvalue_mul. unfold mv_cell. rewrite Epr. cbn [price_q]. ring.
      * exfalso. clear -H. induction coms as [|c' coms IHc]; cbn [fold_left] in H; [discriminate|]. apply IHc. exact H.
Qed.

Theorem market_value_sum dl V a T x :
  market_value dl V a T = Some x -> dvalue x == mv_row dl V a T (held_commodities (flat_postings dl) a).
Proof.
  intros H. unfold market_value in H. change (fold_left (mv_step dl V a T) (held_commodities (flat_postings dl) a) (Some dec_nil) = Some x) in H.
  rewrite (mv_fold dl V a T _ _ _ H), dvalue_nil. ring.
Qed.

Theorem mtm_expected_sum dl V a W E e :
  mtm_expected dl V a W E = Some e ->
  dvalue e == mv_row dl V a E (held_commodities (flat_postings dl) a) - mv_row dl V a (W - 1) (held_commodities (flat_postings dl) a).
Proof.
  unfold mtm_expected. destruct (market_value dl V a E) as [x|] eqn:E1; [|discriminate].
  destruct (market_value dl V a (W - 1)) as [y|] eqn:E2; [|discriminate].
  intros H. injection H as <-. rewrite dvalue_sub, (market_value_sum _ _ _ _ _ E1), (market_value_sum _ _ _ _ _ E2). reflexivity.
Qed.
