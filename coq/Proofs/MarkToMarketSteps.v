(* C03 on the rendered report, the step count of the runtime check.  The spec verdict of the
   check (Extract/drv/drv_c03.ml) accepts a valued cell when
     ValuationSpec.within_bound observed (mtm_expected ...) (step_bound dl a W E);
   here the model's row is shown to meet exactly that bound (model_meets_spec).

   Valuate books a revaluation of a cell only when the price of the commodity changed (a zero price
   difference is skipped), and ComputePrices hands a day without price declarations the prices of
   the day before.  So the number of the cell's postings after the stage is at most
     bookings of the cell + days that carry a price declaration,
   and the days --close adds at the period starts (they carry nothing) never count.

   - the days that declare a price
   - the window on the days (MarkToMarketWindow.window_stage_may for these days)
   - the count read off the directives; --close adds nothing
   - the row: the sum over the held commodities is at most ValuationSpec.step_bound
   - within_bound as an inequality between rationals
   - model_meets_spec *)
From Coq Require Import ZArith QArith Qabs List Bool Lia Permutation Sorting.Sorted.
From Knut Require Import Model.Str Model.Dec Model.Date Model.Account Model.Ledger Model.Price
     Model.Journal Model.Check Model.Pipeline Model.Table Model.Report Model.Cli
     Spec.DateSpec Spec.WellformedSpec Spec.LedgerSpec Spec.LedgerSyntax Spec.MarkToMarketSpec
     Spec.PriceSpec Spec.PriceDaySpec Spec.ValuationSpec Spec.MarkToMarketReportSpec
     Proofs.DecProofs Proofs.DecValue Proofs.CheckLemmas Proofs.CheckProofs Proofs.PairProofs
     Proofs.DateProofs Proofs.BuilderProofs Proofs.BeancountProofs
     Proofs.LedgerProofs Proofs.CloseProofs Proofs.PriceDayProofs Proofs.ValuationProofs
     Proofs.MarkToMarket Proofs.MarkToMarketReport Proofs.MarkToMarketWindow Proofs.MarkToMarketJournal
     Proofs.MarkToMarketFinal Proofs.MarkToMarketRow.
Import ListNotations.
Open Scope Q_scope.

Definition has_prices (d : day) : bool := match d_prices d with [] => false | _ => true end.
Definition price_days (ds : list day) : Z := Z.of_nat (length (filter has_prices ds)).

Lemma has_prices_false d : has_prices d = false -> d_prices d = [].
Proof. unfold has_prices. destruct (d_prices d); [reflexivity|discriminate]. Qed.

Lemma price_days_nonneg l : (0 <= price_days l)%Z.
Proof. unfold price_days. lia. Qed.

(* bookings of the cell dated in (T1, T2] plus the days dated in (T1, T2] that declare a price *)
Definition day_steps_tight (a : account) (c : commodity) (ds : list day) (T1 T2 : Z) : Z :=
  (cell_count a c (vposts (days_upto T2 ds)) - cell_count a c (vposts (days_upto T1 ds))
   + (price_days (days_upto T2 ds) - price_days (days_upto T1 ds)))%Z.

Theorem window_stage_tight V a c days0 W col sP dsP sV dsV :
  account_ok a = true -> is_AL a = true -> c <> V ->
  StronglySorted Z.lt (dates days0) -> days_dated days0 -> Forall posting_in_ok (vposts days0) ->
  (W - 1 <= col)%Z ->
  process_days (compute_prices_proc V) (mkCp [] None) days0 = ROk (sP, dsP) ->
  process_days (valuate_proc V) val_init dsP = ROk (sV, dsV) ->
  Qabs (lsum (fun dp => if in_window W col (fst dp) then cval a c dp else 0) (dposts dsV)
        - (qty_on_days a c days0 col * price_on_days V c days0 col
           - qty_on_days a c days0 (W - 1) * price_on_days V c days0 (W - 1)))
    <= inject_Z (day_steps_tight a c days0 (W - 1) col) * eps8.
Proof. exact (window_stage_may has_prices V a c days0 W col sP dsP sV dsV has_prices_false). Qed.

Open Scope Z_scope.

(* the days dated in [W, col] that declare a price are among the dates of the journal in [W, col],
   with and without --close *)
Lemma price_days_window close dl part W col : W - 1 <= col ->
  price_days (days_upto col (built_days close dl part)) - price_days (days_upto (W - 1) (built_days close dl part))
  <= days_in dl W col.
Proof. exact (may_days_window has_prices close dl part W col (fun d => eq_refl)). Qed.

Definition cell_steps_tight (dl : list directive) (a : account) (c : commodity) (W E : Z) : Z :=
  bookings_in dl a c W E + days_in dl W E.

Theorem day_steps_tight_journal cfg dl part a c col :
  p_start (span part) - 1 <= col ->
  day_steps_tight a c (built_days (bc_close cfg) dl part) (p_start (span part) - 1) col
  <= cell_steps_tight dl a c (p_start (span part)) col.
Proof.
  intros Hle. unfold day_steps_tight, cell_steps_tight, bookings_in. set (W := p_start (span part)) in *.
  rewrite !count_on_days.
  rewrite (split_count (fun dp : Z * posting => fst dp) (fun dp => cellb a c (snd dp)) W col Hle).
  pose proof (price_days_window (bc_close cfg) dl part W col Hle). lia.
Qed.

(* the window, per commodity, with the tight count *)
Theorem windowed_report_tight cfg ds r part V :
  bc_valuation cfg = Some V ->
  balance_report cfg ds = COk (r, part) ->
  exists dl,
    parse_directives ds = MOk dl /\
    new_partition (clip (mkPeriod (bc_from cfg) (bc_to cfg)) (journal_period dl)) (bc_interval cfg) (bc_last cfg) = POk part /\
    (postings_syntactic dl ->
     forall a c col, account_ok a = true -> is_AL a = true -> shows_account cfg a -> cfg_where cfg a c = true -> c <> V ->
       (p_start (span part) <= p_end (span part))%Z -> In col (end_dates part) ->
       (Qabs (cum_cell a c part col r
             - (mv_cell dl V a c col - mv_cell dl V a c (p_start (span part) - 1)))
         <= inject_Z (cell_steps_tight dl a c (p_start (span part)) col) * (1 # 100000000))%Q).
Proof.
  exact (windowed_report_dates cfg ds r part V).
Qed.

Fixpoint row_steps_tight (dl : list directive) (V : commodity) (a : account) (W E : Z) (coms : list commodity) : Z :=
  match coms with
  | [] => 0
  | c :: rest => (if str_eqb c V then 0 else cell_steps_tight dl a c W E) + row_steps_tight dl V a W E rest
  end.

Theorem windowed_row_tight cfg ds r part V :
  bc_valuation cfg = Some V ->
  balance_report cfg ds = COk (r, part) ->
  exists dl,
    parse_directives ds = MOk dl /\
    new_partition (clip (mkPeriod (bc_from cfg) (bc_to cfg)) (journal_period dl)) (bc_interval cfg) (bc_last cfg) = POk part /\
    (postings_syntactic dl ->
     forall a col coms, account_ok a = true -> is_AL a = true -> shows_account cfg a ->
       (forall c, In c coms -> cfg_where cfg a c = true) ->
       (p_start (span part) <= p_end (span part))%Z -> In col (end_dates part) ->
       (Qabs (row_value a part col r coms
             - (mv_row dl V a col coms - mv_row dl V a (p_start (span part) - 1) coms))
         <= inject_Z (row_steps_tight dl V a (p_start (span part)) col coms) * (1 # 100000000))%Q).
Proof.
  intros Hv H. destruct (windowed_report_tight cfg ds r part V Hv H) as (dl & Ep & Epart & Hw).
  destruct (windowed_report_V cfg ds r part V Hv H) as (dl' & Ep' & _ & HwV).
  assert (dl' = dl) by congruence. subst dl'.
  exists dl. split; [exact Ep|]. split; [exact Epart|].
  intros Hsyn a col coms Ha HAL Hsh Hwh Hspan Hcol.
  unfold row_value, mv_row. rewrite <- lsum_sub.
  apply (row_bound _ V _ _ (fun c => cell_steps_tight dl a c (p_start (span part)) col)
           (row_steps_tight dl V a (p_start (span part)) col) eq_refl (fun _ _ => eq_refl)).
  - intros c Hc Hcv. exact (Hw Hsyn a c col Ha HAL Hsh (Hwh c Hc) Hcv Hspan Hcol).
  - intros HV. rewrite (HwV Hsyn a col Ha HAL Hsh (Hwh V HV) Hspan Hcol). reflexivity.
Qed.

Definition com_lt (x y : commodity) : Prop := str_cmp x y = Lt.

Lemma insert_com_in c x l : In x (insert_com c l) -> x = c \/ In x l.
Proof.
  induction l as [|y l IH]; cbn [insert_com]; intros H.
  - destruct H as [<-|[]]. left; reflexivity.
  - destruct (str_cmp c y); [right; exact H| |].
    + destruct H as [<-|H]; [left; reflexivity|right; exact H].
    + destruct H as [<-|H]; [right; left; reflexivity|]. destruct (IH H) as [->|Hl]; [left; reflexivity|right; right; exact Hl].
Qed.

Lemma insert_com_sorted c l : StronglySorted com_lt l -> StronglySorted com_lt (insert_com c l).
Proof.
  induction l as [|y l IH]; cbn [insert_com]; intros Hs.
  - repeat constructor.
  - inversion Hs as [|? ? Hs' Hall]; subst. destruct (str_cmp c y) eqn:E; [exact Hs| |].
    + constructor; [exact Hs|]. constructor; [exact E|]. rewrite Forall_forall in *. intros z Hz.
      exact (str_cmp_lt_trans _ _ _ E (Hall z Hz)).
    + constructor; [exact (IH Hs')|]. rewrite Forall_forall in *. intros z Hz.
      destruct (insert_com_in _ _ _ Hz) as [->|Hl]; [|exact (Hall z Hl)].
      unfold com_lt. rewrite (str_cmp_antisym c y), E. reflexivity.
Qed.

Lemma sorted_irrefl_nodup {A} (R : A -> A -> Prop) l : (forall x, ~ R x x) -> StronglySorted R l -> NoDup l.
Proof.
  intros HR. induction l as [|x l IH]; intros Hs; [constructor|]. inversion Hs as [|? ? Hs' Hall]; subst.
  constructor; [|exact (IH Hs')]. intros Hin. rewrite Forall_forall in Hall. exact (HR x (Hall x Hin)).
Qed.

Lemma com_sorted_nodup l : StronglySorted com_lt l -> NoDup l.
Proof. apply sorted_irrefl_nodup. exact str_cmp_lt_irrefl. Qed.

Lemma held_commodities_nodup posts a : NoDup (held_commodities posts a).
Proof.
  apply com_sorted_nodup. unfold held_commodities.
  assert (G : forall l acc, StronglySorted com_lt acc ->
            StronglySorted com_lt (fold_left (fun l (dp : Z * posting) => let '(_, p) := dp in
                                     if acc_eqb (p_acc p) a then insert_com (p_com p) l else l) l acc)).
  { induction l as [|[d p] l IH]; intros acc Hacc; cbn [fold_left]; [exact Hacc|].
    apply IH. destruct (acc_eqb (p_acc p) a); [apply insert_com_sorted; exact Hacc|exact Hacc]. }
  apply G. constructor.
Qed.

Lemma count_disjoint {A} (f g h : A -> bool) l :
  (forall x, f x = true -> h x = true) -> (forall x, g x = true -> h x = true) ->
  (forall x, f x = true -> g x = true -> False) ->
  (length (filter f l) + length (filter g l) <= length (filter h l))%nat.
Proof.
  intros Hf Hg Hfg. induction l as [|x l IH]; [apply le_n|]. cbn [filter].
  destruct (f x) eqn:Ef, (g x) eqn:Eg; try (exfalso; exact (Hfg x Ef Eg));
    try rewrite (Hf x Ef); try rewrite (Hg x Eg); cbn [length]; try lia.
  destruct (h x); cbn [length]; lia.
Qed.

Definition acct_in (a : account) (W E : Z) (dp : Z * posting) : bool :=
  let '(d, p) := dp in (W <=? d) && (d <=? E) && acc_eqb (p_acc p) a.

Lemma bookings_split dl V a W E : forall coms, NoDup coms ->
  row_steps_tight dl V a W E coms
  <= Z.of_nat (length (filter (fun dp => acct_in a W E dp && existsb (str_eqb (p_com (snd dp))) coms) (flat_postings dl)))
     + days_in dl W E * Z.of_nat (length coms).
Proof.
  induction coms as [|c coms IH]; intros Hnd; cbn [row_steps_tight]; [cbn; lia|].
  inversion Hnd as [|? ? Hnin Hnd']; subst. specialize (IH Hnd').
  cbn [length]. rewrite Nat2Z.inj_succ, Z.mul_succ_r.
  assert (Hdays : 0 <= days_in dl W E) by (unfold days_in; lia).
  pose proof (count_disjoint
                (fun dp : Z * posting => in_window W E (fst dp) && cellb a c (snd dp))
                (fun dp => acct_in a W E dp && existsb (str_eqb (p_com (snd dp))) coms)
                (fun dp => acct_in a W E dp && existsb (str_eqb (p_com (snd dp))) (c :: coms))
                (flat_postings dl)) as Hc.
  assert (Hc' : (length (filter (fun dp : Z * posting => in_window W E (fst dp) && cellb a c (snd dp)) (flat_postings dl))
                 + length (filter (fun dp => acct_in a W E dp && existsb (str_eqb (p_com (snd dp))) coms) (flat_postings dl))
                 <= length (filter (fun dp => acct_in a W E dp && existsb (str_eqb (p_com (snd dp))) (c :: coms)) (flat_postings dl)))%nat).
  { apply Hc.
    - intros [d p]. unfold acct_in, in_window, cellb. cbn [fst snd existsb]. intros Hx.
      apply andb_true_iff in Hx. destruct Hx as [H1 H2]. apply andb_true_iff in H2. destruct H2 as [H2 H3].
      rewrite H1, H2, H3. reflexivity.
    - intros [d p]. cbn [fst snd existsb]. intros Hx. apply andb_true_iff in Hx. destruct Hx as [H1 H2].
      rewrite H1, H2. apply orb_true_r.
    - intros [d p]. unfold cellb. cbn [fst snd]. intros H1 H2.
      apply andb_true_iff in H1. destruct H1 as [_ H1]. apply andb_true_iff in H1. destruct H1 as [_ H1].
      apply andb_true_iff in H2. destruct H2 as [_ H2]. apply str_eqb_eq in H1.
      apply existsb_exists in H2. destruct H2 as (c' & Hin & Heq). apply str_eqb_eq in Heq.
      apply Hnin. rewrite <- H1, Heq. exact Hin. }
  unfold cell_steps_tight, bookings_in.
  destruct (str_eqb c V); lia.
Qed.

(* the dates of the journal in the window, as step_bound collects them *)
Definition sb_date (d : directive) : Z :=
  match d with DPrice x _ _ _ | DOpen x _ | DClose x _ | DAssert x _ => x | DTxn t => t_date t end.

Definition sb_days (dl : list directive) (W E : Z) : list Z :=
  fold_left (fun l d => let dt := sb_date d in
               if (W <=? dt) && (dt <=? E) && negb (existsb (Z.eqb dt) l) then dt :: l else l) dl [].

Lemma sb_date_ddate d : sb_date d = ddate d.
Proof. destruct d; reflexivity. Qed.

Lemma sb_days_in W E x : forall dl acc,
  In x acc \/ (In x (map ddate dl) /\ in_window W E x = true) ->
  In x (fold_left (fun l d => let dt := sb_date d in
               if (W <=? dt) && (dt <=? E) && negb (existsb (Z.eqb dt) l) then dt :: l else l) dl acc).
Proof.
  induction dl as [|d dl IH]; intros acc H; cbn [fold_left].
  - destruct H as [H|[[] _]]. exact H.
  - apply IH. cbn zeta. rewrite sb_date_ddate.
    destruct H as [H|[H Hw]].
    + left. destruct ((W <=? ddate d) && (ddate d <=? E) && negb (existsb (Z.eqb (ddate d)) acc)); [right; exact H|exact H].
    + cbn [map] in H. destruct H as [H|H]; [|right; split; assumption].
      left. subst x. unfold in_window in Hw. rewrite Hw. cbn [andb].
      destruct (existsb (Z.eqb (ddate d)) acc) eqn:Ex; cbn [negb].
      * apply existsb_exists in Ex. destruct Ex as (y & Hy & Hey). apply Z.eqb_eq in Hey. subst y. exact Hy.
      * left. reflexivity.
Qed.

Lemma days_in_sb dl W E : days_in dl W E <= Z.of_nat (length (sb_days dl W E)).
Proof.
  unfold days_in. apply inj_le. apply NoDup_incl_length.
  - apply NoDup_filter. apply (sorted_irrefl_nodup Z.lt _ Z.lt_irrefl). apply dates_sorted.
  - intros x Hx. apply filter_In in Hx. destruct Hx as [Hx Hw]. unfold sb_days. apply sb_days_in.
    right. split; [apply dates_in; exact Hx|exact Hw].
Qed.

(* the count over a duplicate-free list sub of commodities: the bookings of the account in the window
   in a commodity of sub (g holds of them) and one step per date of the journal in the window and
   commodity of sub *)
Lemma row_steps_bound dl V a W E sub (g : Z * posting -> bool) :
  NoDup sub ->
  (forall dp, acct_in a W E dp = true -> In (p_com (snd dp)) sub -> g dp = true) ->
  row_steps_tight dl V a W E sub
  <= Z.of_nat (length (filter g (flat_postings dl))) + Z.of_nat (length (sb_days dl W E)) * Z.of_nat (length sub).
Proof.
  intros Hnd Hg. pose proof (bookings_split dl V a W E _ Hnd) as H1.
  pose proof (filter_le_impl (fun dp => acct_in a W E dp && existsb (str_eqb (p_com (snd dp))) sub) g (flat_postings dl)) as H2.
  assert (H2' : (length (filter (fun dp => acct_in a W E dp && existsb (str_eqb (p_com (snd dp))) sub) (flat_postings dl))
                 <= length (filter g (flat_postings dl)))%nat).
  { apply H2. intros x Hx. apply andb_true_iff in Hx. destruct Hx as [Hx1 Hx2]. apply (Hg x Hx1).
    apply existsb_exists in Hx2. destruct Hx2 as (c & Hc & Ec). apply str_eqb_eq in Ec. rewrite Ec. exact Hc. }
  pose proof (days_in_sb dl W E) as H3.
  assert (H4 : days_in dl W E * Z.of_nat (length sub) <= Z.of_nat (length (sb_days dl W E)) * Z.of_nat (length sub))
    by (apply Z.mul_le_mono_nonneg_r; [lia|exact H3]).
  lia.
Qed.

(* the count the model obeys is at most the allowance of the runtime check *)
Theorem row_steps_step_bound dl V a W E :
  row_steps_tight dl V a W E (held_commodities (flat_postings dl) a) <= step_bound dl a W E.
Proof.
  pose proof (row_steps_bound dl V a W E _ (acct_in a W E) (held_commodities_nodup (flat_postings dl) a) (fun _ H _ => H)) as H.
  change (step_bound dl a W E)
    with (Z.of_nat (length (filter (acct_in a W E) (flat_postings dl)))
          + Z.of_nat (length (sb_days dl W E)) * Z.of_nat (length (held_commodities (flat_postings dl) a)) + 1).
  lia.
Qed.

Open Scope Q_scope.

Lemma dvalue_pos_coef d : 0 < dvalue d <-> (0 < coef d)%Z.
Proof.
  unfold dvalue. pose proof (Qpower_ten_pos (ex d)) as Hp. split; intros H.
  - destruct (Z_lt_le_dec 0 (coef d)) as [Hl|Hl]; [exact Hl|exfalso].
    assert (Hn : inject_Z (coef d) * Qpower ten (ex d) <= 0).
    { setoid_replace 0 with (0 * Qpower ten (ex d)) by ring.
      apply Qmult_le_compat_r; [|apply Qlt_le_weak; exact Hp]. rewrite Zle_Qle in Hl. exact Hl. }
    exact (Qlt_irrefl 0 (Qlt_le_trans _ _ _ H Hn)).
  - setoid_replace 0 with (0 * Qpower ten (ex d)) by ring.
    apply Qmult_lt_compat_r; [exact Hp|]. rewrite Zlt_Qlt in H. exact H.
Qed.

Lemma greater_than_value a b : greater_than a b = true <-> dvalue b < dvalue a.
Proof.
  assert (Hs : forall x y, (let '(p, q) := rescale_pair x y in coef p - coef q)%Z = coef (sub x y)).
  { intros x y. unfold sub. destruct (rescale_pair x y). reflexivity. }
  assert (Hv : dvalue b < dvalue a <-> (0 < coef (sub a b))%Z).
  { rewrite <- dvalue_pos_coef, dvalue_sub. split; intros H.
    - setoid_replace 0 with (dvalue b - dvalue b) by ring. apply Qplus_lt_l. exact H.
    - setoid_replace (dvalue b) with (0 + dvalue b) by ring.
      setoid_replace (dvalue a) with (dvalue a - dvalue b + dvalue b) by ring. apply Qplus_lt_l. exact H. }
  rewrite Hv, <- Hs. unfold greater_than, cmp. destruct (rescale_pair a b) as [p q].
  destruct (coef p ?= coef q)%Z eqn:E.
  - apply Z.compare_eq in E. split; [discriminate|]. lia.
  - rewrite Z.compare_lt_iff in E. split; [discriminate|]. lia.
  - rewrite Z.compare_gt_iff in E. split; [lia|reflexivity].
Qed.

Lemma dvalue_dabs d : dvalue (dabs d) == Qabs (dvalue d).
Proof.
  unfold dvalue. rewrite Qabs_Qmult, (Qabs_pos (Qpower ten (ex d))) by (apply Qlt_le_weak; apply Qpower_ten_pos).
  assert (Ha : Qabs (inject_Z (coef d)) = inject_Z (Z.abs (coef d))) by reflexivity. rewrite Ha.
  unfold dabs. destruct (coef d <? 0)%Z eqn:E; cbn [coef ex]; [reflexivity|].
  rewrite Z.abs_eq by lia. reflexivity.
Qed.

Lemma dvalue_e8 n : dvalue (mkDec n (-8)) == inject_Z n * (1 # 100000000).
Proof. unfold dvalue. cbn [coef ex]. apply Qmult_comp; [reflexivity|]. reflexivity. Qed.

Theorem within_bound_value o e n :
  within_bound o e n = true <-> Qabs (dvalue o - dvalue e) <= inject_Z n * (1 # 100000000).
Proof.
  unfold within_bound. rewrite negb_true_iff, <- not_true_iff_false, greater_than_value.
  rewrite dvalue_dabs, dvalue_sub, dvalue_e8. split.
  - apply Qnot_lt_le.
  - intros H1 H2. exact (Qlt_irrefl _ (Qle_lt_trans _ _ _ H1 H2)).
Qed.

Lemma nth_column {B} (f : period -> B) part j col x :
  nth_error (end_dates part) j = Some col -> nth_error (map f (periods part)) j = Some x ->
  exists p, In (p_end p) (end_dates part) /\ col = p_end p /\ x = f p.
Proof.
  unfold end_dates. rewrite !nth_error_map. destruct (nth_error (periods part) j) as [p|] eqn:Ej; [|discriminate].
  cbn [option_map]. intros E1 E2. injection E1 as <-. injection E2 as <-. exists p.
  split; [apply in_map; exact (nth_error_In _ _ Ej)|split; reflexivity].
Qed.

(* a value within m steps of the expectation is within every allowance n >= m, as rationals and as
   the boolean the check evaluates *)
Lemma within_allowance x e m n :
  Qabs (x - dvalue e) <= inject_Z m * (1 # 100000000) -> (m <= n)%Z ->
  Qabs (x - dvalue e) <= inject_Z n * (1 # 100000000) /\ forall o, dvalue o == x -> within_bound o e n = true.
Proof.
  intros Hm Hmn.
  assert (Hn : Qabs (x - dvalue e) <= inject_Z n * (1 # 100000000)).
  { eapply Qle_trans; [exact Hm|]. apply Qmult_le_compat_r; [rewrite <- Zle_Qle; exact Hmn|discriminate]. }
  split; [exact Hn|]. intros o Ho. apply within_bound_value. rewrite Ho. exact Hn.
Qed.

(* For every configuration with a valuation commodity and every journal on which the balance command
   succeeds: for an asset/liability account shown as itself, ValuationSpec.mtm_row (what the runtime
   check computes per column: expected value and allowance) exists, has one entry per column, and
   wherever the expected value exists the model's row lies within the allowance -- as an inequality
   between rationals and as the boolean within_bound the check evaluates (on any decimal that
   carries the row's value). *)
Theorem model_meets_spec cfg ds r part V :
  bc_valuation cfg = Some V ->
  balance_report cfg ds = COk (r, part) ->
  exists dl,
    parse_directives ds = MOk dl /\
    (postings_syntactic dl ->
     forall a, account_ok a = true -> is_AL a = true -> shows_account cfg a ->
       (forall c, cfg_where cfg a c = true) ->
       (p_start (span part) <= p_end (span part))%Z ->
       exists exps,
         mtm_row cfg dl a = Some exps /\ length exps = length (end_dates part) /\
         forall j col e n, nth_error (end_dates part) j = Some col -> nth_error exps j = Some (Some e, n) ->
           let coms := held_commodities (flat_postings dl) a in
           Qabs (row_value a part col r coms - dvalue e) <= inject_Z n * (1 # 100000000) /\
           forall o, dvalue o == row_value a part col r coms -> within_bound o e n = true).
Proof.
  intros Hv H. destruct (windowed_row_tight cfg ds r part V Hv H) as (dl & Ep & Epart & Hw).
  exists dl. split; [exact Ep|].
  intros Hsyn a Ha HAL Hsh Hwh Hspan.
  exists (map (fun p => (mtm_expected dl V a (p_start (span part)) (p_end p), step_bound dl a (p_start (span part)) (p_end p)))
              (periods part)).
  split; [unfold mtm_row; rewrite Hv, Epart; reflexivity|].
  split; [unfold end_dates; rewrite !map_length; reflexivity|].
  intros j col e n Hcol Hexp coms.
  destruct (nth_column _ part j col _ Hcol Hexp) as (p & Hin & -> & E). injection E as He ->.
  apply (within_allowance _ e (row_steps_tight dl V a (p_start (span part)) (p_end p) coms)); [|apply row_steps_step_bound].
  rewrite (mtm_expected_sum _ _ _ _ _ _ (eq_sym He)).
  exact (Hw Hsyn a (p_end p) coms Ha HAL Hsh (fun c _ => Hwh c) Hspan Hin).
Qed.
