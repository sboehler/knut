(* C03 on reports restricted by --account / --commodity: the verdict the runtime check evaluates on
   a filtered report (Spec/ValuationWhereSpec.v) holds of the model, for EVERY configuration.

   The filters are the Where predicate of the report's query: the Valuate stage sees every booking
   and every price (Proofs/MarkToMarketMapped.v mapped_report_cells: the cell (b, col, c) adds the
   values Valuate posted on (a, c) for the accounts a that land on b and pass --account, if c
   passes --commodity, and nothing otherwise).  A row over the commodities that pass therefore is
   the sum over the aggregated accounts a of their cells (a, c), c passing; of these only the
   commodities a holds carry anything (MarkToMarketMappedVerdict.window_unheld), and each of those
   is mark-to-market with the prices of the unfiltered journal (window_journal_row): this is
   MarkToMarketMappedVerdict.windowed_row_sources, taken here with what the report shows of each account.

   - held_where, market_value_where, mtm_expected_where as rationals; definedness
   - the allowance: row_steps_tight over the shown commodities <= step_bound_where
   - the row of an account shown as itself (model_meets_spec_where)
   - rows aggregated by --mapping / --remap (windowed_row_mapped_where, model_meets_spec_where_mapped)
   - without filters the specification is that of the unfiltered report (ValuationSpec.mtm_row, ValuationMappedSpec.mtm_row_mapped) *)
From Coq Require Import ZArith QArith Qabs List Bool Lia Permutation Sorting.Sorted.
From Knut Require Import Proofs.ListFacts Model.Str Model.Dec Model.Date Model.Account Model.Ledger Model.Price
     Model.Journal Model.Check Model.Pipeline Model.Table Model.Report Model.Cli
     Spec.DateSpec Spec.WellformedSpec Spec.LedgerSpec Spec.LedgerSyntax Spec.MarkToMarketSpec
     Spec.PriceSpec Spec.PriceDaySpec Spec.ValuationSpec Spec.MarkToMarketReportSpec Spec.MarkToMarketMappedSpec
     Spec.ValuationMappedSpec Spec.ValuationWhereSpec
     Proofs.DecProofs Proofs.DecValue Proofs.CheckLemmas Proofs.CheckProofs Proofs.PairProofs
     Proofs.DateProofs Proofs.BuilderProofs Proofs.StableSort Proofs.BeancountProofs
     Proofs.LedgerProofs Proofs.CloseProofs Proofs.PriceDayProofs Proofs.ValuationProofs
     Proofs.MarkToMarket Proofs.MarkToMarketReport Proofs.MarkToMarketWindow Proofs.MarkToMarketJournal
     Proofs.MarkToMarketRow Proofs.MarkToMarketFinal Proofs.MarkToMarketSteps Proofs.MarkToMarketMapped
     Proofs.MarkToMarketDefined Proofs.MarkToMarketMappedVerdict.
Import ListNotations.
Open Scope Q_scope.

Notation heldw cfg dl a := (held_where cfg (flat_postings dl) a).

Lemma held_where_in cfg dl a c :
  In c (heldw cfg dl a) <-> In c (held_commodities (flat_postings dl) a) /\ cfg_where cfg a c = true.
Proof. unfold held_where. apply filter_In. Qed.

Lemma held_where_nodup cfg dl a : NoDup (heldw cfg dl a).
Proof. unfold held_where. apply NoDup_filter. apply held_commodities_nodup. Qed.

Lemma held_where_pass cfg dl a c : In c (heldw cfg dl a) -> cfg_where cfg a c = true.
Proof. intros H. apply held_where_in in H. tauto. Qed.

Theorem market_value_where_sum cfg dl V a T x :
  market_value_where cfg dl V a T = Some x -> dvalue x == mv_row dl V a T (heldw cfg dl a).
Proof.
  intros H. unfold market_value_where in H.
  change (fold_left (mv_step dl V a T) (heldw cfg dl a) (Some dec_nil) = Some x) in H.
  rewrite (mv_fold dl V a T _ _ _ H), dvalue_nil. ring.
Qed.

Theorem mtm_expected_where_sum cfg dl V a W E e :
  mtm_expected_where cfg dl V a W E = Some e ->
  dvalue e == mv_row dl V a E (heldw cfg dl a) - mv_row dl V a (W - 1) (heldw cfg dl a).
Proof.
  unfold mtm_expected_where. destruct (market_value_where cfg dl V a E) as [x|] eqn:E1; [|discriminate].
  destruct (market_value_where cfg dl V a (W - 1)) as [y|] eqn:E2; [|discriminate].
  intros H. injection H as <-.
  rewrite dvalue_sub, (market_value_where_sum _ _ _ _ _ _ E1), (market_value_where_sum _ _ _ _ _ _ E2). reflexivity.
Qed.

(* a successful run has every price the filtered expectation needs (it has every price the
   unfiltered one needs: C03_held_price_every_day) *)
Lemma market_value_where_defined cfg dl V a T :
  (forall c, c <> V -> is_zero (qty_upto (flat_postings dl) a c T) = false ->
             exists pr, ValuationSpec.price_on dl V c T = Some pr) ->
  exists x, market_value_where cfg dl V a T = Some x.
Proof. exact (mv_defined dl V a T (heldw cfg dl a)). Qed.

Lemma mtm_expected_where_defined cfg dl V a :
  (forall c T, c <> V -> is_zero (qty_upto (flat_postings dl) a c T) = false ->
               exists pr, ValuationSpec.price_on dl V c T = Some pr) ->
  forall W E, exists e, mtm_expected_where cfg dl V a W E = Some e.
Proof.
  intros Hp W E. unfold mtm_expected_where.
  destruct (market_value_where_defined cfg dl V a E (fun c => Hp c E)) as [x ->].
  destruct (market_value_where_defined cfg dl V a (W - 1)%Z (fun c => Hp c (W - 1)%Z)) as [y ->].
  exists (sub x y). reflexivity.
Qed.

Theorem row_steps_step_bound_where cfg dl V a W E :
  (row_steps_tight dl V a W E (heldw cfg dl a) <= step_bound_where cfg dl a W E)%Z.
Proof.
  pose proof (row_steps_bound dl V a W E _ (fun dp => acct_in a W E dp && cfg_where cfg a (p_com (snd dp)))
                (held_where_nodup cfg dl a)) as H.
  assert (Esb : step_bound_where cfg dl a W E
                = (Z.of_nat (length (filter (fun dp => acct_in a W E dp && cfg_where cfg a (p_com (snd dp))) (flat_postings dl)))
                  + Z.of_nat (length (sb_days dl W E)) * Z.of_nat (length (heldw cfg dl a)) + 1)%Z).
  { unfold step_bound_where. cbn zeta.
    rewrite (filter_ext _ (fun dp => acct_in a W E dp && cfg_where cfg a (p_com (snd dp)))) by (intros [d p]; reflexivity).
    reflexivity. }
  rewrite Esb. assert (H' := H (fun dp H1 H2 => eq_trans (f_equal2 andb H1 (held_where_pass cfg dl a _ H2)) eq_refl)). lia.
Qed.

(* For every configuration with a valuation commodity - --account and --commodity included - and
   every journal on which the balance command succeeds: for an asset/liability account shown as
   itself, mtm_row_where exists, has one entry per column, every entry carries an expectation, and
   the model's row over the commodities the report shows of the account (held_where) lies within
   the allowance of it. *)
Theorem model_meets_spec_where cfg ds r part V :
  bc_valuation cfg = Some V ->
  balance_report cfg ds = COk (r, part) ->
  exists dl,
    parse_directives ds = MOk dl /\
    (postings_syntactic dl ->
     forall a, account_ok a = true -> is_AL a = true -> shows_account cfg a ->
       (p_start (span part) <= p_end (span part))%Z ->
       exists exps,
         mtm_row_where cfg dl a = Some exps /\ length exps = length (end_dates part) /\
         forall j col eo n, nth_error (end_dates part) j = Some col -> nth_error exps j = Some (eo, n) ->
           exists e, eo = Some e /\
           let coms := held_where cfg (flat_postings dl) a in
           Qabs (row_value a part col r coms - dvalue e) <= inject_Z n * (1 # 100000000) /\
           forall o, dvalue o == row_value a part col r coms -> within_bound o e n = true).
Proof.
  intros Hv H. destruct (windowed_row_tight cfg ds r part V Hv H) as (dl & Ep & Epart & Hw).
  destruct (held_price_report cfg ds r part V Hv H) as (dl' & Ep' & Hpr).
  assert (dl' = dl) by congruence. subst dl'.
  exists dl. split; [exact Ep|].
  intros Hsyn a Ha HAL Hsh Hspan. set (W := p_start (span part)) in *.
  exists (map (fun p => (mtm_expected_where cfg dl V a W (p_end p), step_bound_where cfg dl a W (p_end p))) (periods part)).
  split; [unfold mtm_row_where; rewrite Hv, Epart; reflexivity|].
  split; [unfold end_dates; rewrite !map_length; reflexivity|].
  intros j col eo n Hcol Hexp.
  destruct (nth_column _ part j col _ Hcol Hexp) as (p & Hin & -> & E). injection E as -> ->. set (col := p_end p) in *.
  destruct (mtm_expected_where_defined cfg dl V a (fun c T => Hpr Hsyn a c T Ha HAL) W col) as [e He].
  exists e. split; [exact He|]. intros coms.
  apply (within_allowance _ e (row_steps_tight dl V a W col coms)); [|apply row_steps_step_bound_where].
  rewrite (mtm_expected_where_sum _ _ _ _ _ _ _ He).
  exact (Hw Hsyn a col coms Ha HAL Hsh (fun c Hc => held_where_pass cfg dl a c Hc) Hspan Hin).
Qed.

Definition mv_where_sum (cfg : balance_cfg) (dl : list directive) (V : commodity) (srcs : list account) (T : Z) : Q :=
  lsum (fun a => mv_row dl V a T (heldw cfg dl a)) srcs.

Fixpoint steps_where_sum (cfg : balance_cfg) (dl : list directive) (V : commodity) (srcs : list account) (W E : Z) : Z :=
  match srcs with
  | [] => 0%Z
  | a :: rest => (row_steps_tight dl V a W E (heldw cfg dl a) + steps_where_sum cfg dl V rest W E)%Z
  end.

Lemma steps_where_fold cfg dl V W E srcs :
  steps_where_sum cfg dl V srcs W E = fold_right (fun a n => (row_steps_tight dl V a W E (heldw cfg dl a) + n)%Z) 0%Z srcs.
Proof. induction srcs as [|a srcs IH]; cbn [steps_where_sum fold_right]; congruence. Qed.

(* THE WINDOW for any row of asset/liability type of any valued report, filtered or not: over any
   duplicate-free list of commodities that pass --commodity and contains what the aggregated
   accounts hold of those (the commodity keys of the row), the row is the sum over the accounts
   that land on it and pass --account of the mark-to-market change of what the report shows of
   them, up to the sum of their step counts.  Prices and quantities are those of the whole
   journal. *)
Theorem windowed_row_mapped_where cfg ds r part V :
  bc_valuation cfg = Some V ->
  balance_report cfg ds = COk (r, part) ->
  exists dl,
    parse_directives ds = MOk dl /\
    new_partition (clip (mkPeriod (bc_from cfg) (bc_to cfg)) (journal_period dl)) (bc_interval cfg) (bc_last cfg) = POk part /\
    (postings_syntactic dl ->
     forall b srcs col coms, account_ok b = true -> is_AL b = true -> row_sources cfg dl b srcs ->
       NoDup coms -> (forall c, In c coms -> com_pass cfg c = true) ->
       (forall a, In a srcs -> incl (heldw cfg dl a) coms) ->
       (p_start (span part) <= p_end (span part))%Z -> In col (end_dates part) ->
       Qabs (row_value b part col r coms
             - (mv_where_sum cfg dl V srcs col - mv_where_sum cfg dl V srcs (p_start (span part) - 1)))
         <= inject_Z (steps_where_sum cfg dl V srcs (p_start (span part)) col) * (1 # 100000000)).
Proof.
  intros Hv H. destruct (windowed_row_sources cfg ds r part V Hv H) as (dl & Ep & Epart & Hw).
  exists dl. split; [exact Ep|]. split; [exact Epart|].
  intros Hsyn b srcs col coms Hb HAL Hsrcs Hnd Hcoms Hheld Hspan Hcol. rewrite steps_where_fold.
  apply (Hw Hsyn b srcs col coms (fun a => heldw cfg dl a) Hb HAL Hsrcs Hnd Hcoms); [|exact Hspan|exact Hcol].
  intros a Ha Hpa. split; [apply held_where_nodup|]. split; [exact (Hheld a Ha)|].
  intros c Hc Hh. apply held_where_in. split; [exact Hh|]. rewrite cfg_where_split, Hpa. exact (Hcoms c Hc).
Qed.

Lemma expected_sum_where_value cfg dl V W E : forall srcs e, expected_sum_where cfg dl V srcs W E = Some e ->
  dvalue e == mv_where_sum cfg dl V srcs E - mv_where_sum cfg dl V srcs (W - 1).
Proof.
  unfold mv_where_sum. induction srcs as [|a srcs IH]; intros e H; cbn [expected_sum_where] in H.
  - injection H as <-. rewrite dvalue_nil. unfold LedgerProofs.qsum. cbn [fold_right]. ring.
  - destruct (mtm_expected_where cfg dl V a W E) as [x|] eqn:E1; [|discriminate].
    destruct (expected_sum_where cfg dl V srcs W E) as [s|] eqn:E2; [|discriminate].
    injection H as <-. rewrite dvalue_add, (mtm_expected_where_sum _ _ _ _ _ _ _ E1), (IH s eq_refl).
    unfold LedgerProofs.qsum. cbn [fold_right]. ring.
Qed.

Lemma expected_sum_where_defined cfg dl V W E : forall srcs,
  (forall a, In a srcs -> exists e, mtm_expected_where cfg dl V a W E = Some e) ->
  exists e, expected_sum_where cfg dl V srcs W E = Some e.
Proof.
  induction srcs as [|a srcs IH]; intros H; cbn [expected_sum_where]; [exists dec_nil; reflexivity|].
  destruct (H a (or_introl eq_refl)) as [x ->]. destruct (IH (fun a' Ha' => H a' (or_intror Ha'))) as [s ->].
  exists (add x s). reflexivity.
Qed.

Lemma steps_where_bound cfg dl V W E : forall srcs, (steps_where_sum cfg dl V srcs W E <= bound_sum_where cfg dl srcs W E)%Z.
Proof.
  induction srcs as [|a srcs IH]; cbn [steps_where_sum bound_sum_where]; [lia|].
  pose proof (row_steps_step_bound_where cfg dl V a W E). lia.
Qed.

(* THE MODEL MEETS THE CHECK'S VERDICT ON EVERY ROW OF ASSET/LIABILITY TYPE OF EVERY VALUED REPORT:
   whatever --mapping, --remap, --account and --commodity are. *)
Theorem model_meets_spec_where_mapped cfg ds r part V :
  bc_valuation cfg = Some V ->
  balance_report cfg ds = COk (r, part) ->
  exists dl,
    parse_directives ds = MOk dl /\
    (postings_syntactic dl ->
     forall b, account_ok b = true -> is_AL b = true ->
       (p_start (span part) <= p_end (span part))%Z ->
       exists srcs exps,
         mtm_row_where_mapped cfg dl b = Some (srcs, exps) /\ row_sources cfg dl b srcs /\
         length exps = length (end_dates part) /\
         forall j col eo n, nth_error (end_dates part) j = Some col -> nth_error exps j = Some (eo, n) ->
           exists e, eo = Some e /\
           forall coms, NoDup coms -> (forall c, In c coms -> com_pass cfg c = true) ->
             (forall a, In a srcs -> incl (held_where cfg (flat_postings dl) a) coms) ->
             Qabs (row_value b part col r coms - dvalue e) <= inject_Z n * (1 # 100000000) /\
             forall o, dvalue o == row_value b part col r coms -> within_bound o e n = true).
Proof.
  intros Hv H. destruct (windowed_row_mapped_where cfg ds r part V Hv H) as (dl & Ep & Epart & Hw).
  destruct (held_price_report cfg ds r part V Hv H) as (dl' & Ep' & Hpr).
  assert (dl' = dl) by congruence. subst dl'.
  exists dl. split; [exact Ep|].
  intros Hsyn b Hb HAL Hspan.
  pose proof (sources_of_spec cfg dl b Hsyn) as Hsrcs. set (srcs := sources_of cfg dl b) in *.
  set (W := p_start (span part)) in *.
  exists srcs, (map (fun p => (expected_sum_where cfg dl V srcs W (p_end p), bound_sum_where cfg dl srcs W (p_end p))) (periods part)).
  split; [unfold mtm_row_where_mapped; rewrite Hv, Epart; reflexivity|]. split; [exact Hsrcs|].
  split; [unfold end_dates; rewrite !map_length; reflexivity|].
  intros j col eo n Hcol Hexp.
  destruct (nth_column _ part j col _ Hcol Hexp) as (p & Hin & -> & E). injection E as -> ->. set (col := p_end p) in *.
  destruct (expected_sum_where_defined cfg dl V W col srcs) as [e He].
  { intros a Ha. destruct (sources_AL cfg dl b srcs a Hb HAL Hsrcs Ha) as (Hoka & HALa & _).
    exact (mtm_expected_where_defined cfg dl V a (fun c T => Hpr Hsyn a c T Hoka HALa) W col). }
  exists e. split; [exact He|].
  intros coms Hnd Hcoms Hheld.
  apply (within_allowance _ e (steps_where_sum cfg dl V srcs W col)); [|apply steps_where_bound].
  rewrite (expected_sum_where_value cfg dl V W col srcs e He).
  exact (Hw Hsyn b srcs col coms Hb HAL Hsrcs Hnd Hcoms Hheld Hspan Hin).
Qed.

(* a row on which no account that passes --account lands (in particular: an account shown as itself
   that does not pass) is zero in every column, exactly *)
Corollary filtered_out_row_zero cfg ds r part V :
  bc_valuation cfg = Some V ->
  balance_report cfg ds = COk (r, part) ->
  exists dl,
    parse_directives ds = MOk dl /\
    (postings_syntactic dl ->
     forall b col coms, account_ok b = true -> is_AL b = true -> sources_of cfg dl b = [] ->
       NoDup coms -> (forall c, In c coms -> com_pass cfg c = true) ->
       (p_start (span part) <= p_end (span part))%Z -> In col (end_dates part) ->
       row_value b part col r coms == 0).
Proof.
  intros Hv H. destruct (windowed_row_mapped_where cfg ds r part V Hv H) as (dl & Ep & Epart & Hw).
  exists dl. split; [exact Ep|].
  intros Hsyn b col coms Hb HAL Hs Hnd Hcoms Hspan Hcol.
  pose proof (sources_of_spec cfg dl b Hsyn) as Hsrcs. rewrite Hs in Hsrcs.
  specialize (Hw Hsyn b [] col coms Hb HAL Hsrcs Hnd Hcoms (fun a Ha => match Ha with end) Hspan Hcol).
  unfold mv_where_sum, LedgerProofs.qsum in Hw. cbn [fold_right steps_where_sum] in Hw.
  setoid_replace (inject_Z 0 * (1 # 100000000)) with 0 in Hw by reflexivity.
  apply Qabs_le_zero in Hw. rewrite <- Hw. ring.
Qed.

Lemma held_where_all cfg dl a : (forall c, cfg_where cfg a c = true) -> heldw cfg dl a = held_commodities (flat_postings dl) a.
Proof. intros H. unfold held_where. apply filter_all. intros c _. apply H. Qed.

Lemma market_value_where_all cfg dl V a T : (forall c, cfg_where cfg a c = true) ->
  market_value_where cfg dl V a T = market_value dl V a T.
Proof. intros H. unfold market_value_where, market_value. cbn zeta. rewrite (held_where_all cfg dl a H). reflexivity. Qed.

Lemma step_bound_where_all cfg dl a W E : (forall c, cfg_where cfg a c = true) ->
  step_bound_where cfg dl a W E = step_bound dl a W E.
Proof.
  intros H. unfold step_bound_where, step_bound. cbn zeta. rewrite (held_where_all cfg dl a H).
  f_equal. f_equal. f_equal. f_equal. apply filter_ext. intros [d p]. rewrite H. apply andb_true_r.
Qed.

(* the specification of the filtered report extends that of the unfiltered report: for an account every commodity of
   which passes (in particular without --account and --commodity) it is mtm_row *)
Theorem mtm_row_where_unfiltered cfg dl a : (forall c, cfg_where cfg a c = true) ->
  mtm_row_where cfg dl a = mtm_row cfg dl a.
Proof.
  intros H. unfold mtm_row_where, mtm_row. destruct (bc_valuation cfg) as [V|]; [|reflexivity].
  destruct (new_partition _ _ _) as [part| |]; try reflexivity.
  f_equal. apply map_ext. intros p. unfold mtm_expected_where, mtm_expected.
  rewrite !(market_value_where_all cfg dl V a _ H), (step_bound_where_all cfg dl a _ _ H). reflexivity.
Qed.

Lemma cfg_where_nofilter cfg a c : bc_accounts cfg = [] -> bc_commodities cfg = [] -> cfg_where cfg a c = true.
Proof. intros H1 H2. unfold cfg_where. rewrite H1, H2. reflexivity. Qed.

Theorem mtm_row_where_mapped_unfiltered cfg dl b : bc_accounts cfg = [] -> bc_commodities cfg = [] ->
  mtm_row_where_mapped cfg dl b = mtm_row_mapped cfg dl b.
Proof.
  intros H1 H2. unfold mtm_row_where_mapped, mtm_row_mapped. destruct (bc_valuation cfg) as [V|]; [|reflexivity].
  destruct (new_partition _ _ _) as [part| |]; try reflexivity.
  f_equal. f_equal. apply map_ext. intros p.
  assert (Hall : forall a c, cfg_where cfg a c = true) by (intros a c; apply cfg_where_nofilter; assumption).
  f_equal.
  - induction (sources_of cfg dl b) as [|a srcs IH]; [reflexivity|]. cbn [expected_sum_where expected_sum].
    rewrite IH. unfold mtm_expected_where, mtm_expected. rewrite !(market_value_where_all cfg dl V a _ (Hall a)). reflexivity.
  - induction (sources_of cfg dl b) as [|a srcs IH]; [reflexivity|]. cbn [bound_sum_where bound_sum].
    rewrite IH, (step_bound_where_all cfg dl a _ _ (Hall a)). reflexivity.
Qed.

(* Assets:B holds two commodities: it buys 1.5 A and 2 D on 2021-03-01 and 0.3 A on 03-03.  A is
   quoted in D only (1.5 D on 03-01, 2 D on 03-04), D in C (2 C on 03-01, 2.5 C on 03-02): the price
   of A in C goes through D (3, 3.75, 5 C).  The report is valued in C, daily over 03-02 .. 03-04,
   with --close and --commodity ^A$: it shows the A of the account only, and needs the prices of D,
   which it does not show, to do so. *)
Open Scope Z_scope.
Definition exw_d : commodity := [68].
Definition exw_journal : list sdirective :=
  [ SOpen exr_d0 exr_a; SOpen exr_d0 exr_o;
    SPrice exr_d0 exw_d (mkDec 2 0) exr_V;
    SPrice exr_d0 exr_c (mkDec 15 (-1)) exw_d;
    STxn (mkStxn exr_d0 [] [mkBooking exr_o exr_a (mkDec 15 (-1)) exr_c; mkBooking exr_o exr_a (mkDec 2 0) exw_d] None None);
    SPrice (exr_d0 + 1) exw_d (mkDec 25 (-1)) exr_V;
    STxn (mkStxn (exr_d0 + 2) [] [mkBooking exr_o exr_a (mkDec 3 (-1)) exr_c] None None);
    SPrice (exr_d0 + 3) exr_c (mkDec 2 0) exw_d ].
Definition exw_cfg : balance_cfg :=
  mkBalanceCfg (exr_d0 + 1) (exr_d0 + 3) Daily 0 false true (Some exr_V) true [] [] [] [mkRx true exr_c true] [] true.
