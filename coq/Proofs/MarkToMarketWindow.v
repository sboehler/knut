(* C03 on the rendered report, the window.  The cells of an asset/liability account,
   cumulated up to a period end col, are the values Valuate posted on the days dated in
   [window start, col]; by the delta form of the stage theorem (Proofs/MarkToMarket.v mtm_delta)
   that is  Q(col) p(col) - Q(W-1) p(W-1)  up to one 10^-8 per contributing Multiply, with
   quantities and prices read off the builder's days (linked to the directives in
   Proofs/MarkToMarketJournal.v).

   - the columns: summing the column indicator over the period ends up to col
   - splitting a date-sorted list of days at a date; sums over dated postings
   - the run of ComputePrices and Valuate over a split list
   - the window on the days (window_stage_may)
   - the cumulated cells of the report hold the values posted inside the window *)
From Coq Require Import ZArith QArith Qabs List Bool Lia Permutation Sorting.Sorted.
From Knut Require Import Proofs.ListFacts Model.Str Model.Dec Model.Date Model.Account Model.Ledger Model.Price
     Model.Journal Model.Check Model.Pipeline Model.Table Model.Report Model.Cli
     Spec.DateSpec Spec.WellformedSpec Spec.LedgerSpec Spec.LedgerSyntax Spec.MarkToMarketSpec
     Spec.PriceSpec Spec.PriceDaySpec Spec.MarkToMarketReportSpec
     Proofs.DecProofs Proofs.DecValue Proofs.CheckLemmas Proofs.CheckProofs Proofs.PairProofs
     Proofs.DateProofs Proofs.BeancountProofs
     Proofs.LedgerProofs Proofs.CloseProofs Proofs.PriceDayProofs Proofs.ValuationProofs
     Proofs.MarkToMarket Proofs.MarkToMarketReport.
Import ListNotations.
Open Scope Q_scope.

Lemma tiles_ends_sorted : forall ps s e, tiles s e ps -> StronglySorted Z.lt (map p_end ps).
Proof.
  induction ps as [|p ps IH]; intros s e H; [destruct H|].
  cbn [tiles] in H. destruct H as (Hs & Hle & Hrest). cbn [map]. destruct ps as [|p2 ps].
  - repeat constructor.
  - constructor; [exact (IH _ _ Hrest)|].
    destruct (tiles_facts _ _ _ Hrest) as [_ Hb]. rewrite Forall_forall in *. intros x Hx.
    apply in_map_iff in Hx. destruct Hx as (q & <- & Hq). specialize (Hb _ Hq). lia.
Qed.

(* column_for picks the first period end that is not before the date *)
Lemma column_for_some : forall ps d e0, StronglySorted Z.lt (map p_end ps) ->
  column_for ps d = Some e0 ->
  In e0 (map p_end ps) /\ (d <= e0)%Z /\ forall e, In e (map p_end ps) -> (d <= e)%Z -> (e0 <= e)%Z.
Proof.
  induction ps as [|p ps IH]; intros d e0 Hs H; cbn [column_for] in H; [discriminate|].
  cbn [map] in Hs. inversion Hs as [|? ? Hs' Hall]; subst. rewrite Forall_forall in Hall.
  destruct (d <=? p_end p)%Z eqn:E.
  - injection H as <-. split; [left; reflexivity|]. split; [lia|].
    intros e [<-|He] _; [lia|]. specialize (Hall _ He). lia.
  - destruct (IH _ _ Hs' H) as (A & B & C). split; [right; exact A|]. split; [exact B|].
    intros e [<-|He] Hd; [lia|]. apply C; assumption.
Qed.

Lemma column_for_none : forall ps d, column_for ps d = None -> forall e, In e (map p_end ps) -> (e < d)%Z.
Proof.
  induction ps as [|p ps IH]; intros d H e He; [destruct He|]. cbn [column_for] in H.
  destruct (d <=? p_end p)%Z eqn:E; [discriminate|]. destruct He as [<-|He]; [lia|]. apply IH; assumption.
Qed.

Lemma count_in_sorted (e0 : Z) : forall l, StronglySorted Z.lt l -> In e0 l ->
  lsum (fun e => if (e0 =? e)%Z then 1 else 0) l == 1.
Proof.
  induction l as [|x l IH]; intros Hs Hin; [destruct Hin|].
  inversion Hs as [|? ? Hs' Hall]; subst. rewrite Forall_forall in Hall.
  unfold LedgerProofs.qsum. cbn [fold_right]. fold (lsum (fun e => if (e0 =? e)%Z then 1 else 0) l).
  destruct Hin as [->|Hin].
  - rewrite Z.eqb_refl. rewrite LedgerProofs.qsum_zero; [ring|].
    intros y Hy. specialize (Hall _ Hy). replace (e0 =? y)%Z with false by lia. reflexivity.
  - rewrite (IH Hs' Hin). specialize (Hall _ Hin). replace (e0 =? x)%Z with false by lia. ring.
Qed.

(* over the period ends up to col, a date inside the window is counted once iff it is <= col *)
Lemma cum_indicator ps col d E :
  StronglySorted Z.lt (map p_end ps) -> In col (map p_end ps) ->
  In E (map p_end ps) -> (d <= E)%Z ->
  lsum (fun e => if (e <=? col)%Z && in_col ps e d then 1 else 0) (map p_end ps) == if (d <=? col)%Z then 1 else 0.
Proof.
  intros Hs Hcol HE Hd. unfold in_col. destruct (column_for ps d) as [e0|] eqn:Ec.
  - destruct (column_for_some _ _ _ Hs Ec) as (A & B & C).
    assert (Heq : (e0 <=? col)%Z = (d <=? col)%Z).
    { destruct (d <=? col)%Z eqn:E1.
      - apply Z.leb_le. apply C; [exact Hcol|lia].
      - apply Z.leb_gt. lia. }
    rewrite <- Heq. destruct (e0 <=? col)%Z eqn:E0.
    + rewrite <- (count_in_sorted e0 _ Hs A). apply LedgerProofs.qsum_ext. intros e _.
      destruct (e0 =? e)%Z eqn:E2; [apply Z.eqb_eq in E2; subst e; rewrite E0; reflexivity|].
      rewrite andb_false_r. reflexivity.
    + apply LedgerProofs.qsum_zero. intros e _. destruct (e0 =? e)%Z eqn:E2; [apply Z.eqb_eq in E2; subst e; rewrite E0; reflexivity|].
      rewrite andb_false_r. reflexivity.
  - pose proof (column_for_none _ _ Ec E HE). lia.
Qed.

Lemma ss_app_l {A} (R : A -> A -> Prop) l1 l2 : StronglySorted R (l1 ++ l2) -> StronglySorted R l1 /\ StronglySorted R l2.
Proof.
  induction l1 as [|x l1 IH]; cbn [app]; intros H; [split; [constructor|exact H]|].
  inversion H as [|? ? H1 H2]; subst. destruct (IH H1) as [I1 I2]. split; [|exact I2].
  constructor; [exact I1|]. apply Forall_app in H2. tauto.
Qed.

Lemma filter_filter_impl {A} (f g : A -> bool) l : (forall x, f x = true -> g x = true) -> filter f (filter g l) = filter f l.
Proof.
  intros H. induction l as [|x l IH]; cbn [filter]; [reflexivity|].
  destruct (g x) eqn:Eg; cbn [filter].
  - rewrite IH. reflexivity.
  - destruct (f x) eqn:Ef; [rewrite (H x Ef) in Eg; discriminate|exact IH].
Qed.

Definition days_after (T : Z) (ds : list day) : list day := filter (fun x => (T <? d_date x)%Z) ds.

Lemma sorted_split T : forall ds, StronglySorted Z.lt (dates ds) -> ds = days_upto T ds ++ days_after T ds.
Proof.
  induction ds as [|x ds IH]; intros Hs; [reflexivity|].
  unfold dates in Hs. cbn [map] in Hs. inversion Hs as [|? ? Hs' Hall]; subst. rewrite Forall_forall in Hall.
  unfold days_upto, days_after. cbn [filter]. destruct (d_date x <=? T)%Z eqn:E.
  - replace (T <? d_date x)%Z with false by lia. cbn [app]. f_equal. apply IH. exact Hs'.
  - replace (T <? d_date x)%Z with true by lia.
    rewrite (filter_none (fun y => (d_date y <=? T)%Z) ds), (filter_all (fun y => (T <? d_date y)%Z) ds); [reflexivity| |].
    + intros y Hy. assert (Hd : In (d_date y) (map d_date ds)) by (apply in_map; exact Hy). specialize (Hall _ Hd). lia.
    + intros y Hy. assert (Hd : In (d_date y) (map d_date ds)) by (apply in_map; exact Hy). specialize (Hall _ Hd). lia.
Qed.

(* three parts: before the window, inside [W, col], after col *)
Lemma sorted_split3 W col ds : StronglySorted Z.lt (dates ds) -> (W - 1 <= col)%Z ->
  exists B, ds = days_upto (W - 1) ds ++ B ++ days_after col ds /\
            days_upto col ds = days_upto (W - 1) ds ++ B /\
            (forall x, In x B -> (W <= d_date x <= col)%Z).
Proof.
  intros Hs Hle. pose proof (sorted_split col ds Hs) as E1.
  assert (HsU : StronglySorted Z.lt (dates (days_upto col ds))).
  { rewrite E1 in Hs. unfold dates in *. rewrite map_app in Hs. exact (proj1 (ss_app_l _ _ _ Hs)). }
  pose proof (sorted_split (W - 1) _ HsU) as E2.
  assert (E3 : days_upto (W - 1) (days_upto col ds) = days_upto (W - 1) ds).
  { unfold days_upto. apply filter_filter_impl. intros x Hx. lia. }
  rewrite E3 in E2. exists (days_after (W - 1) (days_upto col ds)).
  split; [rewrite app_assoc, <- E2; exact E1|]. split; [exact E2|].
  intros x Hx. unfold days_after, days_upto in Hx. apply filter_In in Hx. destruct Hx as [Hx H1].
  apply filter_In in Hx. destruct Hx as [_ H2]. lia.
Qed.

(* the dated postings of the days selected by their date are the dated postings selected by date *)
Lemma dposts_filter (P : Z -> bool) : forall ds, days_dated ds ->
  dposts (filter (fun x => P (d_date x)) ds) = filter (fun dp => P (fst dp)) (dposts ds).
Proof.
  induction ds as [|d ds IH]; intros Hd; [reflexivity|]. inversion Hd as [|? ? Hx Hrest]; subst.
  unfold LedgerProofs.days_postings in *. cbn [filter map concat]. rewrite filter_app, <- (IH Hrest).
  destruct (P (d_date d)) eqn:E; cbn [map concat].
  - f_equal. symmetry. apply filter_all. intros dp Hin. rewrite (day_postings_date d dp Hx Hin). exact E.
  - rewrite (filter_none (fun dp => P (fst dp)) (dday d)); [reflexivity|].
    intros dp Hin. rewrite (day_postings_date d dp Hx Hin). exact E.
Qed.

Lemma lsum_filter {A} (g : A -> bool) (f : A -> Q) l : lsum f (filter g l) == lsum (fun x => if g x then f x else 0) l.
Proof.
  unfold LedgerProofs.qsum. induction l as [|x l IH]; cbn [filter fold_right]; [reflexivity|].
  destruct (g x); cbn [fold_right]; rewrite IH; ring.
Qed.

Lemma dated_filter_sum (P : Z -> bool) (f : Z * posting -> Q) ds : days_dated ds ->
  lsum f (dposts (filter (fun x => P (d_date x)) ds)) == lsum (fun dp => if P (fst dp) then f dp else 0) (dposts ds).
Proof. intros Hd. rewrite (dposts_filter P ds Hd). apply lsum_filter. Qed.

Lemma dated_sum_sel (P : Z -> bool) (b : bool) (f : Z * posting -> Q) : forall ds,
  days_dated ds -> (forall x, In x ds -> P (d_date x) = b) ->
  lsum (fun dp => if P (fst dp) then f dp else 0) (dposts ds) == if b then lsum f (dposts ds) else 0.
Proof.
  intros ds Hd HP. rewrite <- (dated_filter_sum P f ds Hd).
  destruct b; [rewrite filter_all by exact HP|rewrite filter_none by exact HP]; reflexivity.
Qed.

Lemma prefix_prices V ds s dsP PU PR :
  process_days (compute_prices_proc V) (mkCp [] None) ds = ROk (s, dsP) -> dsP = PU ++ PR ->
  last_normalized None PU = prices_after V ds (length PU).
Proof.
  intros H E. destruct PU as [|x PU'] eqn:EP; [reflexivity|]. rewrite <- EP in *.
  assert (Hne : PU <> []) by (rewrite EP; discriminate).
  destruct (last_normalized_nth PU None Hne) as (d & Hd & Hl).
  destruct (compute_prices_days V _ _ _ H) as [_ Hn].
  assert (Hlen : length PU = S (pred (length PU))) by (rewrite EP; reflexivity).
  rewrite Hl, Hlen. cbn [prices_after]. apply Hn. rewrite E, nth_error_app1; [exact Hd|]. lia.
Qed.

Lemma dates_transfer (Q : Z -> Prop) (l1 l2 : list day) :
  dates l1 = dates l2 -> (forall y, In y l2 -> Q (d_date y)) -> forall x, In x l1 -> Q (d_date x).
Proof.
  intros E H x Hx. assert (Hd : In (d_date x) (dates l1)) by (apply in_map; exact Hx).
  rewrite E in Hd. apply in_map_iff in Hd. destruct Hd as (y & <- & Hy). apply H. exact Hy.
Qed.

Lemma vposts_of_dposts l1 l2 : dposts l1 = dposts l2 -> vposts l1 = vposts l2.
Proof. intros E. rewrite <- !snd_dposts, E. reflexivity. Qed.

Lemma in_ok_app l1 l2 : Forall posting_in_ok (vposts (l1 ++ l2)) <-> Forall posting_in_ok (vposts l1) /\ Forall posting_in_ok (vposts l2).
Proof. rewrite vposts_app. apply Forall_app. Qed.

(* number of contributing Multiply calls, read off the days: bookings of the cell dated in
   (T1, T2] plus one revaluation per day dated in (T1, T2] that is selected by [may]: only a day
   that declares a price can revalue, so [may] is any selection that contains those days
   (Proofs/MarkToMarket.v cp_val_count) *)
Definition day_steps_may (may : day -> bool) (a : account) (c : commodity) (ds : list day) (T1 T2 : Z) : Z :=
  (cell_count a c (vposts (days_upto T2 ds)) - cell_count a c (vposts (days_upto T1 ds))
   + (Z.of_nat (length (filter may (days_upto T2 ds))) - Z.of_nat (length (filter may (days_upto T1 ds)))))%Z.

Theorem window_stage_may may V a c days0 W col sP dsP sV dsV :
  (forall d, may d = false -> d_prices d = []) ->
  account_ok a = true -> is_AL a = true -> c <> V ->
  StronglySorted Z.lt (dates days0) -> days_dated days0 -> Forall posting_in_ok (vposts days0) ->
  (W - 1 <= col)%Z ->
  process_days (compute_prices_proc V) (mkCp [] None) days0 = ROk (sP, dsP) ->
  process_days (valuate_proc V) val_init dsP = ROk (sV, dsV) ->
  Qabs (lsum (fun dp => if in_window W col (fst dp) then cval a c dp else 0) (dposts dsV)
        - (qty_on_days a c days0 col * price_on_days V c days0 col
           - qty_on_days a c days0 (W - 1) * price_on_days V c days0 (W - 1)))
    <= inject_Z (day_steps_may may a c days0 (W - 1) col) * eps8.
Proof.
  intros Hmay Ha HAL Hcv Hsorted Hdated Hin Hle HP HV.
  destruct (sorted_split3 W col days0 Hsorted Hle) as (B & Esplit & EU & HB).
  set (A := days_upto (W - 1) days0) in *. set (C := days_after col days0) in *.
  assert (HA : forall x, In x A -> (d_date x <= W - 1)%Z).
  { intros x Hx. unfold A, days_upto in Hx. apply filter_In in Hx. lia. }
  assert (HC : forall x, In x C -> (col < d_date x)%Z).
  { intros x Hx. unfold C, days_after in Hx. apply filter_In in Hx. lia. }
  (* split the inputs *)
  rewrite Esplit in Hdated, Hin.
  apply days_dated_app in Hdated. destruct Hdated as [HdA Hdated]. apply days_dated_app in Hdated. destruct Hdated as [HdB HdC].
  apply in_ok_app in Hin. destruct Hin as [HinA Hin]. apply in_ok_app in Hin. destruct Hin as [HinB HinC].
  (* split the runs *)
  pose proof HP as HP0. rewrite Esplit in HP.
  destruct (process_days_app _ _ _ _ _ _ HP) as (pa & PA & P2 & EPA & EP2 & EdsP).
  destruct (process_days_app _ _ _ _ _ _ EP2) as (pb & PB & PC & EPB & EPC & ->).
  rewrite EdsP in HV, HP0.
  destruct (process_days_app _ _ _ _ _ _ HV) as (va & VA & V2 & EVA & EV2 & ->).
  destruct (process_days_app _ _ _ _ _ _ EV2) as (vb & VB & VC & EVB & EVC & ->).
  destruct (cp_days_shape _ _ _ _ _ EPA) as (DA & SA & TA).
  destruct (cp_days_shape _ _ _ _ _ EPB) as (DB & SB & TB).
  destruct (cp_days_shape _ _ _ _ _ EPC) as (DC & SC & TC).
  destruct (val_days_dated _ _ _ _ _ EVA (TA HdA)) as [HdVA DVA].
  destruct (val_days_dated _ _ _ _ _ EVB (TB HdB)) as [HdVB DVB].
  destruct (val_days_dated _ _ _ _ _ EVC (TC HdC)) as [HdVC DVC].
  (* the window sum sees exactly the middle part *)
  assert (Hsum : lsum (fun dp => if in_window W col (fst dp) then cval a c dp else 0) (dposts (VA ++ VB ++ VC))
                 == lsum (cval a c) (dposts VB)).
  { rewrite !dposts_app, !LedgerProofs.qsum_app.
    rewrite (dated_sum_sel (in_window W col) false _ VA HdVA).
    2: { apply (dates_transfer (fun d => in_window W col d = false) VA A); [congruence|].
         intros y Hy. specialize (HA _ Hy). unfold in_window. lia. }
    rewrite (dated_sum_sel (in_window W col) true _ VB HdVB).
    2: { apply (dates_transfer (fun d => in_window W col d = true) VB B); [congruence|].
         intros y Hy. specialize (HB _ Hy). unfold in_window. lia. }
    rewrite (dated_sum_sel (in_window W col) false _ VC HdVC).
    2: { apply (dates_transfer (fun d => in_window W col d = false) VC C); [congruence|].
         intros y Hy. specialize (HC _ Hy). unfold in_window. lia. }
    ring. }
  rewrite Hsum, <- cell_value_dposts. clear Hsum.
  (* the stage theorem in delta form on the two first parts *)
  assert (HinPA : Forall posting_in_ok (vposts PA)) by (rewrite (vposts_of_dposts _ _ SA); exact HinA).
  assert (HinPB : Forall posting_in_ok (vposts PB)) by (rewrite (vposts_of_dposts _ _ SB); exact HinB).
  destruct (mtm_delta V a c PA val_init va VA Ha HAL Hcv HinPA (good_nil a c PT) EVA) as (A1 & A2 & A5 & _).
  destruct (mtm_delta V a c PB va vb VB Ha HAL Hcv HinPB A2 EVB) as (B1 & B2 & B5 & B6).
  cbn [val_init v_prev v_qty] in A1, A5. rewrite posq_nil, Qplus_0_l in A5.
  (* prices *)
  assert (LA : length PA = length A) by (eapply process_days_length; exact EPA).
  assert (LB : length PB = length B) by (eapply process_days_length; exact EPB).
  assert (PrA : v_prev va = prices_after V days0 (length A)).
  { rewrite A1, <- LA. apply (prefix_prices V days0 sP (PA ++ PB ++ PC) PA (PB ++ PC) HP0 eq_refl). }
  assert (PrB : v_prev vb = prices_after V days0 (length (days_upto col days0))).
  { rewrite B1, A1, EU, app_length, <- LA, <- LB, <- app_length.
    assert (E : last_normalized (last_normalized None PA) PB = last_normalized None (PA ++ PB))
      by (unfold last_normalized; rewrite fold_left_app; reflexivity).
    rewrite E. apply (prefix_prices V days0 sP (PA ++ PB ++ PC) (PA ++ PB) PC HP0). rewrite app_assoc. reflexivity. }
  (* quantities *)
  assert (QA : posq a c (v_qty va) == qty_on_days a c days0 (W - 1)).
  { rewrite A5. unfold qty_on_days. fold A. rewrite (vposts_of_dposts _ _ SA). reflexivity. }
  assert (QB : posq a c (v_qty vb) == qty_on_days a c days0 col).
  { rewrite B5, QA. unfold qty_on_days. fold A. rewrite EU, vposts_app, cell_qty_app, (vposts_of_dposts _ _ SB). reflexivity. }
  (* the number of steps: the two stages stay in step over A, so over B only the selected days revalue *)
  assert (Hn : (cell_count a c (vposts VB) <= day_steps_may may a c days0 (W - 1) col)%Z).
  { assert (Hinit : entries_ok (v_qty val_init)) by (split; [constructor|intros x []]).
    destruct (cp_val_count V a c Ha HAL may Hmay A _ _ _ EPA _ _ _ EVA eq_refl HinPA Hinit) as [SyncA _].
    pose proof (days_entries_ok V PA val_init va VA HinPA Hinit EVA) as Hea.
    destruct (cp_val_count V a c Ha HAL may Hmay B _ _ _ EPB _ _ _ EVB SyncA HinPB Hea) as [_ Hc].
    unfold day_steps_may. fold A. rewrite EU, vposts_app, cell_count_app, filter_app, app_length, Nat2Z.inj_add.
    rewrite (vposts_of_dposts _ _ SB) in Hc. lia. }
  eapply Qle_trans; [|apply Qmult_le_compat_r; [rewrite <- Zle_Qle; exact Hn|exact eps8_nonneg]].
  eapply Qle_trans; [|exact B6]. apply Qle_lteq. right. apply Qabs_wd.
  unfold price_on_days. fold A. rewrite <- PrA, <- PrB, <- QA, <- QB. reflexivity.
Qed.

(* every day may revalue *)
Lemma tiles_last_end : forall ps s e, tiles s e ps -> In e (map p_end ps).
Proof.
  induction ps as [|p ps IH]; intros s e H; [destruct H|]. cbn [tiles] in H. destruct H as (_ & _ & Hrest).
  destruct ps as [|p2 ps]; [left; exact Hrest|right; exact (IH _ _ Hrest)].
Qed.

Lemma lsum_scale_r {A} (f : A -> Q) (k : Q) l : lsum (fun x => f x * k) l == lsum f l * k.
Proof. unfold LedgerProofs.qsum. induction l as [|x l IH]; cbn [fold_right]; [ring|]. rewrite IH. ring. Qed.

(* cells that hold, column by column, the f-sum of the dated postings of the span that fall under
   the column: cumulated over the columns up to col they hold the f-sum over [window start, col] *)
Lemma cum_window_generic (f : Z * posting -> Q) b c part col r (L : list (Z * posting)) P iv n :
  new_partition P iv n = POk part -> (p_start (span part) <= p_end (span part))%Z -> In col (end_dates part) ->
  (forall e, rcell b (Some e, Some c) r
             == lsum (fun dp => if in_span (span part) (fst dp) && in_col (periods part) e (fst dp) then f dp else 0) L) ->
  cum_cell b c part col r == lsum (fun dp => if in_window (p_start (span part)) col (fst dp) then f dp else 0) L.
Proof.
  intros Epart Hspan Hcol Hcells.
  destruct (partition_facts _ _ _ _ Epart) as [_ Htiles]. destruct (Htiles Hspan) as [Ht Hfs].
  pose proof (tiles_ends_sorted _ _ _ Ht) as Hsorted.
  destruct (tiles_end_ge _ _ _ Ht) as [Hends _].
  pose proof (tiles_last_end _ _ _ Ht) as HE.
  unfold cum_cell, end_dates.
  transitivity (lsum (fun e => lsum (fun dp => (if in_span (span part) (fst dp) then f dp else 0)
                                               * (if (e <=? col)%Z && in_col (periods part) e (fst dp) then 1 else 0)) L)
                     (map p_end (periods part))).
  { apply LedgerProofs.qsum_ext. intros e _. destruct (e <=? col)%Z eqn:E.
    - rewrite (Hcells e). apply LedgerProofs.qsum_ext. intros dp _.
      destruct (in_span (span part) (fst dp)), (in_col (periods part) e (fst dp)); cbn [andb]; ring.
    - symmetry. apply LedgerProofs.qsum_zero. intros dp _. cbn [andb]. ring. }
  rewrite qsum_swap. apply LedgerProofs.qsum_ext. intros [d p] _. cbn [fst].
  rewrite qsum_scale.
  unfold in_span, in_window. destruct (p_start (span part) <=? d)%Z eqn:E1; cbn [andb]; [|ring].
  assert (Hcole : (col <= p_end (span part))%Z).
  { rewrite Forall_forall in Hends. apply in_map_iff in Hcol. destruct Hcol as (q & <- & Hq). exact (Hends _ Hq). }
  destruct (d <=? p_end (span part))%Z eqn:E2.
  - rewrite (cum_indicator (periods part) col d (p_end (span part)) Hsorted Hcol HE) by lia.
    destruct (d <=? col)%Z; ring.
  - replace (d <=? col)%Z with false by lia. ring.
Qed.

(* the cells of account a under commodity c, cumulated over the columns up to col, hold the values
   posted inside [window start, col] *)
Theorem cum_cell_window cfg ds r part V :
  bc_valuation cfg = Some V ->
  balance_report cfg ds = COk (r, part) ->
  exists dl dsP dsV,
    parse_directives ds = MOk dl /\
    new_partition (clip (mkPeriod (bc_from cfg) (bc_to cfg)) (journal_period dl)) (bc_interval cfg) (bc_last cfg) = POk part /\
    valued_run cfg V dl part dsP dsV /\
    (postings_syntactic dl ->
     forall a c col, account_ok a = true -> is_AL a = true -> shows_account cfg a -> cfg_where cfg a c = true ->
       (p_start (span part) <= p_end (span part))%Z -> In col (end_dates part) ->
       cum_cell a c part col r ==
       lsum (fun dp => if in_window (p_start (span part)) col (fst dp) then cval a c dp else 0) (dposts dsV)).
Proof.
  intros Hv H. destruct (valued_report_cells cfg ds r part V Hv H) as (dl & dsP & dsV & Ep & Epart & Hrun & Hcells).
  exists dl, dsP, dsV. split; [exact Ep|]. split; [exact Epart|]. split; [exact Hrun|].
  intros Hsyn a c col Ha HAL Hsh Hw Hspan Hcol.
  exact (cum_window_generic (cval a c) a c part col r (dposts dsV) _ _ _ Epart Hspan Hcol
           (fun e => Hcells Hsyn a c e Ha HAL Hsh Hw)).
Qed.
