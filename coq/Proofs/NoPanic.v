(* C14: which inputs reach a Panic in the model, and that the repaired variants never do.

   Panic is reachable in Model/Cli.v through
     - parse_directives  -> expand_posting: new_partition on a zero start (PPanic), quo_rem by
                            the size of an empty partition (DPanic)
     - cfg_partition     -> new_partition on a zero start
     - query_posting     -> shorten with a negative level or suffix (ShPanic)
   and, as artefacts of fuel-bounded recursion that are excluded here for every input:
     - new_partition's POutOfFuel (DateProofs.new_partition_no_fuel_exhaustion)
     - cp_day_end's normalize = None and prices_insert's InsPanic
       (PriceDayProofs.compute_prices_from_empty_no_panic, by the C12 development). *)
From Coq Require Import ZArith List Bool Lia.
From Knut Require Import Model.Str Model.Dec Model.Date Model.Account Model.Ledger Model.Price
     Model.Journal Model.Check Model.Pipeline Model.Table Model.Report Model.JPrinter Model.Cli
     Model.Loader Model.CliSafe Spec.FailSpec.
From Knut Require Import Proofs.JournalFacts Proofs.StrProofs Proofs.CheckLemmas Proofs.DateProofs Proofs.PriceDayProofs Proofs.LoaderProofs.
Import ListNotations.
Open Scope bool_scope.
Open Scope Z_scope.

Definition np {A} (r : Journal.presult A) : Prop := forall m, r <> RPanic m.

Lemma np_ok {A} (a : A) : np (ROk a).
Proof. intros m. discriminate. Qed.
Lemma np_err {A} k d : np (@RErr A k d).
Proof. intros m. discriminate. Qed.

Lemma rbind_np {A B} (x : Journal.presult A) (f : A -> Journal.presult B) :
  np x -> (forall a, np (f a)) -> np (rbind x f).
Proof.
  intros Hx Hf. destruct x as [a|k d|msg]; cbn [rbind].
  - apply Hf.
  - apply np_err.
  - exfalso. exact (Hx msg eq_refl).
Qed.

Section Safe.
  Context {S : Type} (p : processor S).

  (* no callback of the processor panics, whatever its state and argument *)
  Definition proc_safe : Prop :=
    (forall f, pr_day_start p = Some f -> forall s d, np (f s d)) /\
    (forall f, pr_price p = Some f -> forall s x, np (f s x)) /\
    (forall f, pr_open p = Some f -> forall s x, np (f s x)) /\
    (forall f, pr_txn p = Some f -> forall s x, np (f s x)) /\
    (forall f, pr_posting p = Some f -> forall s t x, np (f s t x)) /\
    (forall f, pr_balance p = Some f -> forall s a b, np (f s a b)) /\
    (forall f, pr_close p = Some f -> forall s x, np (f s x)) /\
    (forall f, pr_day_end p = Some f -> forall s d, np (f s d)).

  Lemma fold_res_np {A} (f : S -> A -> Journal.presult S) :
    (forall s x, np (f s x)) -> forall l s, np (fold_res f s l).
  Proof.
    intros Hf. induction l as [|x l IH]; intros s; cbn [fold_res]; [apply np_ok|].
    apply rbind_np; [apply Hf|]. intros s'. apply IH.
  Qed.

  Lemma fold_postings_np f t :
    (forall s x, np (f s t x)) -> forall ps s, np (fold_postings (S:=S) f t s ps).
  Proof.
    intros Hf. induction ps as [|x ps IH]; intros s; cbn [fold_postings]; [apply np_ok|].
    apply rbind_np; [apply Hf|]. intros sp. apply rbind_np; [apply IH|]. intros sr. apply np_ok.
  Qed.

  Hypothesis Hsafe : proc_safe.

  Lemma fold_txns_np : forall ts s, np (fold_txns p s ts).
  Proof.
    destruct Hsafe as (_ & _ & _ & Htxn & Hpost & _).
    induction ts as [|t ts IH]; intros s; cbn [fold_txns]; [apply np_ok|].
    apply rbind_np.
    { destruct (pr_txn p) as [f|] eqn:E; [apply (Htxn f eq_refl)|apply np_ok]. }
    intros s1. apply rbind_np.
    { destruct (pr_posting p) as [f|] eqn:E; [|apply np_ok].
      apply rbind_np; [apply fold_postings_np; intros; apply (Hpost f eq_refl)|]. intros sp. apply np_ok. }
    intros st. apply rbind_np; [apply IH|]. intros sr. apply np_ok.
  Qed.

  Lemma fold_asserts_np : forall l s, np (fold_asserts p s l).
  Proof.
    destruct Hsafe as (_ & _ & _ & _ & _ & Hbal & _).
    induction l as [|a l IH]; intros s; cbn [fold_asserts]; [apply np_ok|].
    apply rbind_np; [|intros s'; apply IH].
    destruct (pr_balance p) as [f|] eqn:E; [|apply np_ok].
    apply fold_res_np. intros s0 b. apply (Hbal f eq_refl).
  Qed.

  Lemma process_day_np s d : np (process_day p s d).
  Proof.
    pose proof Hsafe as (Hds & Hpr & Hop & _ & _ & _ & Hcl & Hde).
    unfold process_day.
    apply rbind_np.
    { destruct (pr_day_start p) as [f|] eqn:E; [apply (Hds f eq_refl)|apply np_ok]. }
    intros sd. apply rbind_np.
    { destruct (pr_price p) as [f|] eqn:E; [apply fold_res_np; apply (Hpr f eq_refl)|apply np_ok]. }
    intros s1. apply rbind_np.
    { destruct (pr_open p) as [f|] eqn:E; [apply fold_res_np; apply (Hop f eq_refl)|apply np_ok]. }
    intros s2. apply rbind_np; [apply fold_txns_np|].
    intros st. apply rbind_np; [apply fold_asserts_np|].
    intros s3. apply rbind_np.
    { destruct (pr_close p) as [f|] eqn:E; [apply fold_res_np; apply (Hcl f eq_refl)|apply np_ok]. }
    intros s4. destruct (pr_day_end p) as [f|] eqn:E; [apply (Hde f eq_refl)|apply np_ok].
  Qed.

  Lemma process_days_np : forall ds s, np (process_days p s ds).
  Proof.
    induction ds as [|d ds IH]; intros s; cbn [process_days]; [apply np_ok|].
    apply rbind_np; [apply process_day_np|]. intros sd.
    apply rbind_np; [apply IH|]. intros sr. apply np_ok.
  Qed.
End Safe.

Ltac some_inv :=
  match goal with
  | |- forall f, Some _ = Some f -> _ => let f := fresh "f" in let E := fresh "E" in intros f E; inversion E; subst f; clear E
  | |- forall f, None = Some f -> _ => let f := fresh "f" in let E := fresh "E" in intros f E; discriminate E
  end.

(* for a callback every branch of which ends in ROk or RErr *)
Ltac np_cases :=
  intros; intros ?m;
  repeat match goal with
         | |- context [if ?c then _ else _] => destruct c
         | |- context [match ?x with _ => _ end] => destruct x
         end; discriminate.

Lemma check_proc_safe lenient : proc_safe (check_proc lenient).
Proof.
  unfold proc_safe, check_proc. cbn [pr_day_start pr_price pr_open pr_txn pr_posting pr_balance pr_close pr_day_end].
  repeat split; some_inv.
  - unfold ck_open_cb. np_cases.
  - unfold ck_posting_cb. np_cases.
  - unfold ck_balance_cb. np_cases.
  - unfold ck_close_cb. np_cases.
Qed.

Lemma check_proc_fixed_safe : proc_safe check_proc_fixed.
Proof.
  unfold proc_safe, check_proc_fixed. cbn [pr_day_start pr_price pr_open pr_txn pr_posting pr_balance pr_close pr_day_end].
  repeat split; some_inv.
  - unfold ck_open_cb. np_cases.
  - unfold ck_posting_cb. np_cases.
  - unfold ck_balance_fixed, ck_balance_cb. np_cases.
  - unfold ck_close_cb. np_cases.
Qed.

Lemma check_proc_current_safe b : proc_safe (check_proc_current b).
Proof. unfold check_proc_current. destruct b; [apply check_proc_fixed_safe|apply check_proc_safe]. Qed.

Lemma val_adjustments_np v date prev cur pos : np (val_adjustments v date prev cur pos).
Proof.
  induction pos as [|[k [[a c] q]] rest IH]; cbn [val_adjustments]; [apply np_ok|].
  destruct (str_eqb c v || negb (is_AL a) || is_zero q); [exact IH|].
  destruct (np_price_opt prev c); [|apply np_err].
  destruct (np_price_opt cur c); [|apply np_err].
  destruct (is_zero _); [exact IH|].
  apply rbind_np; [exact IH|]. intros ts. apply np_ok.
Qed.

Lemma valuate_proc_safe v : proc_safe (valuate_proc v).
Proof.
  unfold proc_safe, valuate_proc. cbn [pr_day_start pr_price pr_open pr_txn pr_posting pr_balance pr_close pr_day_end].
  repeat split; some_inv.
  - intros s d. unfold val_day_start. apply rbind_np; [apply val_adjustments_np|]. intros ts. apply np_ok.
  - unfold val_posting. np_cases.
  - intros s d. apply np_ok.
Qed.

Lemma filter_proc_safe sp : proc_safe (filter_proc sp).
Proof.
  unfold proc_safe, filter_proc. cbn [pr_day_start pr_price pr_open pr_txn pr_posting pr_balance pr_close pr_day_end].
  repeat split; some_inv. intros s d. apply np_ok.
Qed.

Lemma close_proc_safe cds : proc_safe (close_proc cds).
Proof.
  unfold proc_safe, close_proc. cbn [pr_day_start pr_price pr_open pr_txn pr_posting pr_balance pr_close pr_day_end].
  repeat split; some_inv.
  - unfold close_day_start. np_cases.
  - unfold close_posting. np_cases.
Qed.

Lemma query_proc_safe {C} (q : query) (ins : C -> option Z -> account -> commodity -> dec -> C) :
  (forall a, q_account q a <> ShPanic) -> proc_safe (query_proc q ins).
Proof.
  intros Hq.
  unfold proc_safe, query_proc. cbn [pr_day_start pr_price pr_open pr_txn pr_posting pr_balance pr_close pr_day_end].
  repeat split; some_inv.
  intros s t x. unfold query_posting.
  destruct (q_where q (p_acc x) (p_com x)); [|apply np_ok].
  destruct (q_account q (p_acc x)) eqn:E; [apply np_ok|apply np_ok|].
  exfalso. exact (Hq _ E).
Qed.

Definition cnp {A} (r : cresult A) : Prop := forall m, r <> CPanic m.

Lemma cnp_ok {A} (a : A) : cnp (COk a).
Proof. intros m. discriminate. Qed.
Lemma cnp_err {A} k d : cnp (@CErr A k d).
Proof. intros m. discriminate. Qed.

Lemma cbind_np {A B} (x : cresult A) (f : A -> cresult B) : cnp x -> (forall a, cnp (f a)) -> cnp (cbind x f).
Proof.
  intros Hx Hf. destruct x as [a|k d|msg]; cbn [cbind].
  - apply Hf.
  - apply cnp_err.
  - exfalso. exact (Hx msg eq_refl).
Qed.

Lemma run_stage_np {S} (p : processor S) s days : proc_safe p -> cnp (run_stage p s days).
Proof.
  intros Hp m. unfold run_stage. pose proof (process_days_np p Hp days s) as H.
  destruct (process_days p s days) as [a|k d|msg]; cbn [of_presult]; try discriminate.
  exfalso. exact (H msg eq_refl).
Qed.

Lemma compute_prices_stage_np v days : cnp (run_stage (compute_prices_proc v) (mkCp [] None) days).
Proof.
  intros m. unfold run_stage.
  destruct (process_days (compute_prices_proc v) (mkCp [] None) days) as [a|k d|msg] eqn:E; cbn [of_presult]; try discriminate.
  exfalso. exact (compute_prices_from_empty_no_panic v days msg E).
Qed.

Definition mnp {A} (r : mresult A) : Prop := forall m, r <> MPanic m.

(* the repair of transaction.expand turns the panic into an error and changes nothing else *)
Definition depanic {A} (r : mresult A) : mresult A :=
  match r with MPanic m => MErr m | _ => r end.

Lemma depanic_mnp {A} (r : mresult A) : mnp (depanic r).
Proof. intros m. destruct r; discriminate. Qed.

Lemma depanic_id {A} (r : mresult A) : mnp r -> depanic r = r.
Proof. intros H. destruct r as [a|e|m]; try reflexivity. exfalso. exact (H m eq_refl). Qed.

Lemma depanic_mbind {A B} (x : mresult A) (f : A -> mresult B) :
  depanic (mbind x f) = mbind (depanic x) (fun a => depanic (f a)).
Proof. destruct x; reflexivity. Qed.

Lemma mbind_ext {A B} (x : mresult A) (f g : A -> mresult B) : (forall a, f a = g a) -> mbind x f = mbind x g.
Proof. intros H. destruct x; cbn [mbind]; [apply H|reflexivity|reflexivity]. Qed.

Lemma mbind_mnp {A B} (x : mresult A) (f : A -> mresult B) : mnp x -> (forall a, x = MOk a -> mnp (f a)) -> mnp (mbind x f).
Proof.
  intros Hx Hf. destruct x as [a|e|m]; cbn [mbind].
  - apply Hf. reflexivity.
  - intros m. discriminate.
  - exfalso. exact (Hx m eq_refl).
Qed.

Lemma check_account_mnp a : mnp (check_account a).
Proof. intros m. unfold check_account. destruct (valid_account a); discriminate. Qed.

Lemma postings_create_mnp bs : mnp (postings_create bs).
Proof.
  induction bs as [|b bs IH]; cbn [postings_create]; [intros m; discriminate|].
  apply mbind_mnp; [apply check_account_mnp|]. intros _ _.
  apply mbind_mnp; [apply check_account_mnp|]. intros _ _.
  apply mbind_mnp; [exact IH|]. intros ps _ m. discriminate.
Qed.

Lemma check_balances_mnp bs : mnp (check_balances bs).
Proof.
  induction bs as [|b bs IH]; cbn [check_balances]; [intros m; discriminate|].
  apply mbind_mnp; [apply check_account_mnp|]. intros _ _. exact IH.
Qed.

Lemma expand_posting_safe_eq t ac p : expand_posting_safe t ac p = depanic (expand_posting t ac p).
Proof. unfold expand_posting_safe, depanic. destruct (expand_posting t ac p); reflexivity. Qed.

Lemma expand_postings_safe_eq t ac ps : expand_postings_safe t ac ps = depanic (expand_postings t ac ps).
Proof.
  unfold expand_postings.
  induction ps as [|p ps IH]; cbn [expand_postings_safe expand_postings_gen]; [reflexivity|].
  change (expand_posting_gen rebook_fixed t ac p) with (expand_posting t ac p).
  rewrite depanic_mbind, expand_posting_safe_eq.
  apply mbind_ext. intros l1. rewrite depanic_mbind, IH. apply mbind_ext. intros l2. reflexivity.
Qed.

Lemma expand_safe_eq t ac : expand_safe t ac = depanic (expand t ac).
Proof.
  unfold expand_safe, expand, expand_gen. rewrite depanic_mbind, (depanic_id _ (check_account_mnp _)).
  apply mbind_ext. intros _. apply expand_postings_safe_eq.
Qed.

Lemma txn_create_safe_eq s : txn_create_safe s = depanic (txn_create s).
Proof.
  unfold txn_create_safe, txn_create, txn_create_gen. rewrite depanic_mbind, (depanic_id _ (postings_create_mnp _)).
  apply mbind_ext. intros ps. destruct (st_accrual s); [apply expand_safe_eq|reflexivity].
Qed.

Lemma parse_directive_safe_eq s : parse_directive_safe s = depanic (parse_directive s).
Proof.
  destruct s as [d c p t|d a|d a|d bs|t|]; cbn [parse_directive_safe parse_directive]; try reflexivity.
  - symmetry. apply depanic_id. apply mbind_mnp; [apply check_account_mnp|]. intros _ _ m. discriminate.
  - symmetry. apply depanic_id. apply mbind_mnp; [apply check_account_mnp|]. intros _ _ m. discriminate.
  - symmetry. apply depanic_id. apply mbind_mnp; [apply check_balances_mnp|]. intros _ _ m. discriminate.
  - rewrite depanic_mbind, txn_create_safe_eq. apply mbind_ext. intros ts. reflexivity.
Qed.

Lemma parse_directives_safe_eq l : parse_directives_safe l = depanic (parse_directives l).
Proof.
  induction l as [|s l IH]; cbn [parse_directives_safe parse_directives]; [reflexivity|].
  rewrite depanic_mbind, parse_directive_safe_eq. apply mbind_ext. intros ds.
  rewrite depanic_mbind, IH. apply mbind_ext. intros ds'. reflexivity.
Qed.

Lemma load_safe_np ds : cnp (load_safe ds).
Proof.
  unfold load_safe. rewrite parse_directives_safe_eq. intros m.
  pose proof (depanic_mnp (parse_directives ds)) as H.
  destruct (depanic (parse_directives ds)) as [a|e|msg]; cbn [of_mresult cbind]; try discriminate.
  exfalso. exact (H msg eq_refl).
Qed.

Lemma load_safe_agrees ds : mnp (parse_directives ds) -> load_safe ds = Cli.load ds.
Proof. intros H. unfold load_safe, Cli.load. rewrite parse_directives_safe_eq, (depanic_id _ H). reflexivity. Qed.

Lemma quo_rem_panic_iff d d2 prec : quo_rem d d2 prec = DPanic <-> coef d2 = 0.
Proof.
  unfold quo_rem. destruct (coef d2 =? 0) eqn:E.
  - apply Z.eqb_eq in E. tauto.
  - apply Z.eqb_neq in E. split; [|tauto].
    destruct (ex d - ex d2 - - prec <? 0); discriminate.
Qed.

Lemma accrual_partition s e iv :
  s <> 0 -> exists pt, new_partition (mkPeriod s e) iv 0 = POk pt /\ (periods pt = [] <-> (iv <> Once /\ e < s)).
Proof.
  intros Hs. destruct (match iv with Once => true | _ => false end) eqn:Eiv.
  - assert (iv = Once) by (destruct iv; congruence). subst iv.
    rewrite (partition_once s e 0 Hs). eexists. split; [reflexivity|]. cbn [periods].
    split; [discriminate|]. intros [H _]. congruence.
  - assert (Hiv : iv <> Once) by (intros ->; discriminate).
    rewrite (new_partition_unlimited s e iv Hiv Hs). eexists. split; [reflexivity|]. cbn [periods].
    pose proof (full_periods_chain s e iv Hiv) as Hch. split.
    + intros Hnil. split; [exact Hiv|]. destruct (Z_lt_le_dec e s) as [Hlt|Hle]; [exact Hlt|].
      exfalso. exact (chain_nonempty _ _ _ _ Hch Hle Hnil).
    + intros [_ Hlt]. exact (chain_empty _ _ _ _ Hch Hlt).
Qed.

Lemma accrual_window_ok_false ac :
  accrual_window_ok ac = false <-> ac_start ac = 0 \/ (ac_interval ac <> Once /\ ac_end ac < ac_start ac).
Proof.
  unfold accrual_window_ok. destruct (ac_start ac =? 0) eqn:Es; cbn [negb andb].
  - apply Z.eqb_eq in Es. tauto.
  - apply Z.eqb_neq in Es. destruct (ac_interval ac).
    1: { split; [discriminate|]. intros [H|[H _]]; [lia|congruence]. }
    all: rewrite Z.leb_gt; split; [intros H; right; split; [discriminate|exact H]|intros [H|[_ H]]; [lia|exact H]].
Qed.

(* transaction.expand panics on a posting iff the posting is on an income/expense account
   and the accrual window starts on day 0 or is empty *)
Theorem expand_posting_panics_iff t ac p :
  (exists m, expand_posting t ac p = MPanic m) <-> (is_IE (p_acc p) = true /\ accrual_window_ok ac = false).
Proof.
  unfold expand_posting, expand_posting_gen. destruct (is_IE (p_acc p)) eqn:EIE.
  2: { split; [intros [m H]; discriminate|intros [H _]; discriminate]. }
  rewrite accrual_window_ok_false.
  destruct (Z.eq_dec (ac_start ac) 0) as [Hz|Hnz].
  - rewrite Hz. change (new_partition (mkPeriod 0 (ac_end ac)) (ac_interval ac) 0) with (@PPanic partition).
    split; [intros _; split; [reflexivity|left; reflexivity]|intros _; eexists; reflexivity].
  - destruct (accrual_partition (ac_start ac) (ac_end ac) (ac_interval ac) Hnz) as (pt & Hpt & Hnil).
    rewrite Hpt.
    destruct (quo_rem (p_qty p) (of_int (Z.of_nat (length (periods pt)))) 1) as [[am rm]|] eqn:Eq.
    + split; [intros [m H]; discriminate|]. intros [_ [H|H]]; [contradiction|].
      apply Hnil in H. rewrite H in Eq. cbn [length Z.of_nat] in Eq.
      assert (Hp : quo_rem (p_qty p) (of_int 0) 1 = DPanic) by (apply quo_rem_panic_iff; reflexivity).
      congruence.
    + split; [|intros _; eexists; reflexivity]. intros _. split; [reflexivity|]. right.
      apply Hnil. apply quo_rem_panic_iff in Eq. cbn [of_int coef] in Eq.
      destruct (periods pt); [reflexivity|cbn [length] in Eq; lia].
Qed.

Lemma expand_posting_np t ac p :
  (is_IE (p_acc p) = true -> accrual_window_ok ac = true) -> mnp (expand_posting t ac p).
Proof.
  intros H m Hm. assert (Hex : exists m, expand_posting t ac p = MPanic m) by eauto.
  apply expand_posting_panics_iff in Hex. destruct Hex as [H1 H2]. rewrite (H H1) in H2. discriminate.
Qed.

Lemma expand_postings_np t ac ps :
  (forall p, In p ps -> is_IE (p_acc p) = true -> accrual_window_ok ac = true) -> mnp (expand_postings t ac ps).
Proof.
  unfold expand_postings.
  induction ps as [|p ps IH]; intros H; cbn [expand_postings_gen]; [intros m; discriminate|].
  change (expand_posting_gen rebook_fixed t ac p) with (expand_posting t ac p).
  apply mbind_mnp; [apply expand_posting_np; apply H; left; reflexivity|]. intros l1 _.
  apply mbind_mnp; [apply IH; intros q Hq; apply H; right; exact Hq|]. intros l2 _ m. discriminate.
Qed.

Lemma postings_create_accs bs ps :
  postings_create bs = MOk ps -> forall p, In p ps -> exists b, In b bs /\ (p_acc p = b_credit b \/ p_acc p = b_debit b).
Proof.
  revert ps. induction bs as [|b bs IH]; cbn [postings_create]; intros ps H p Hp.
  - inversion H. subst. destruct Hp.
  - destruct (check_account (b_credit b)); cbn [mbind] in H; try discriminate.
    destruct (check_account (b_debit b)); cbn [mbind] in H; try discriminate.
    destruct (postings_create bs) as [ps'| |] eqn:E; cbn [mbind] in H; try discriminate.
    inversion H. subst ps. apply in_app_or in Hp. destruct Hp as [Hp|Hp].
    + exists b. split; [left; reflexivity|]. eapply pair_build_accs. exact Hp.
    + destruct (IH ps' eq_refl p Hp) as (b' & Hb & Hacc). exists b'. split; [right; exact Hb|exact Hacc].
Qed.

Lemma txn_create_np s : sdirective_ok (STxn s) = true -> mnp (txn_create s).
Proof.
  cbn [sdirective_ok]. intros Hok. unfold txn_create, txn_create_gen.
  apply mbind_mnp; [apply postings_create_mnp|]. intros ps Hps.
  destruct (st_accrual s) as [ac|]; [|intros m; discriminate].
  unfold expand_gen. apply mbind_mnp; [apply check_account_mnp|]. intros _ _.
  change (expand_postings_gen rebook_fixed) with expand_postings.
  apply expand_postings_np. cbn [t_postings]. intros p Hp HIE.
  destruct (accrual_window_ok ac); [reflexivity|]. rewrite orb_false_r in Hok.
  apply negb_true_iff in Hok. exfalso.
  destruct (postings_create_accs _ _ Hps p Hp) as (b & Hb & Hacc).
  assert (books_IE s = true); [|congruence].
  unfold books_IE. apply existsb_exists. exists b. split; [exact Hb|].
  destruct Hacc as [<-|<-]; rewrite HIE; [reflexivity|apply orb_true_r].
Qed.

Lemma parse_directive_np s : sdirective_ok s = true -> mnp (parse_directive s).
Proof.
  intros Hok. destruct s as [d c p t|d a|d a|d bs|t|]; cbn [parse_directive]; try (intros m; discriminate).
  - apply mbind_mnp; [apply check_account_mnp|]. intros _ _ m. discriminate.
  - apply mbind_mnp; [apply check_account_mnp|]. intros _ _ m. discriminate.
  - apply mbind_mnp; [apply check_balances_mnp|]. intros _ _ m. discriminate.
  - apply mbind_mnp; [apply txn_create_np; exact Hok|]. intros ts _ m. discriminate.
Qed.

Theorem parse_directives_np ds : accruals_ok ds = true -> mnp (parse_directives ds).
Proof.
  unfold accruals_ok. induction ds as [|s ds IH]; cbn [forallb parse_directives]; intros H; [intros m; discriminate|].
  apply andb_true_iff in H. destruct H as [H1 H2].
  apply mbind_mnp; [apply parse_directive_np; exact H1|]. intros l1 _.
  apply mbind_mnp; [apply IH; exact H2|]. intros l2 _ m. discriminate.
Qed.

Lemma b_min_fold l : forall b,
  b_min (fold_left builder_add l b) =
  fold_left (fun m d => match d with DTxn t => Z.min m (t_date t) | _ => m end) l (b_min b).
Proof.
  induction l as [|d l IH]; intros b; cbn [fold_left]; [reflexivity|].
  rewrite IH. f_equal. destruct d; cbn [builder_add b_min]; try reflexivity.
  destruct (t_date t <? b_min b) eqn:E; [apply Z.ltb_lt in E|apply Z.ltb_ge in E]; lia.
Qed.

Lemma b_min_builder_of l : b_min (builder_of l) = first_txn_date l.
Proof. unfold builder_of, first_txn_date. rewrite b_min_fold. reflexivity. Qed.

Lemma clip_start from to b : p_start (clip (mkPeriod from to) (builder_period b)) = Z.max from (b_min b).
Proof.
  unfold clip, builder_period. cbn [p_start].
  destruct (from <? b_min b) eqn:E; [apply Z.ltb_lt in E|apply Z.ltb_ge in E]; lia.
Qed.

(* date.NewPartition answers on every period that does not start on day 0, and panics on the others *)
Lemma new_partition_cases p iv last :
  (p_start p = 0 /\ new_partition p iv last = PPanic) \/ (p_start p <> 0 /\ exists pt, new_partition p iv last = POk pt).
Proof.
  destruct (new_partition p iv last) as [pt| |] eqn:E.
  - right. split; [|eauto]. intros Hz. unfold new_partition in E. rewrite Hz in E. discriminate.
  - left. split; [|reflexivity]. unfold new_partition in E.
    destruct (p_start p =? 0) eqn:Ez; [apply Z.eqb_eq; exact Ez|].
    destruct iv; try discriminate;
      match type of E with context [np_loop ?f ?s ?iv ?l ?c ?e ?a] => destruct (np_loop f s iv l c e a) end; discriminate.
  - exfalso. exact (new_partition_no_fuel_exhaustion _ _ _ E).
Qed.

(* Multiperiod.Partition panics iff the clipped window starts on day 0 *)
Theorem cfg_partition_panics_iff cfg b :
  (exists m, cfg_partition cfg b = CPanic m) <-> Z.max (bc_from cfg) (b_min b) = 0.
Proof.
  rewrite <- (clip_start _ (bc_to cfg)). unfold cfg_partition. set (p := clip _ _).
  destruct (new_partition_cases p (bc_interval cfg) (bc_last cfg)) as [[Hz ->]|[Hnz [pt ->]]].
  - split; eauto.
  - split; [intros [m H]; discriminate|contradiction].
Qed.

Lemma cfg_partition_safe_np cfg b : cnp (cfg_partition_safe cfg b).
Proof.
  unfold cfg_partition_safe. set (p := clip _ _).
  destruct (p_start p =? 0) eqn:Ez; [apply cnp_err|]. apply Z.eqb_neq in Ez.
  destruct (new_partition_cases p (bc_interval cfg) (bc_last cfg)) as [[Hz _]|[_ [pt ->]]]; [contradiction|apply cnp_ok].
Qed.

Lemma cfg_partition_safe_agrees cfg b :
  Z.max (bc_from cfg) (b_min b) <> 0 -> cfg_partition_safe cfg b = cfg_partition cfg b.
Proof.
  rewrite <- (clip_start _ (bc_to cfg)). intros H. unfold cfg_partition_safe, cfg_partition.
  destruct (p_start _ =? 0) eqn:Ez; [apply Z.eqb_eq in Ez; contradiction|reflexivity].
Qed.

Lemma mapping_level_in m s l sf :
  mapping_level m s = Some (l, sf) -> exists r, In r m /\ r_level r = l /\ r_suffix r = sf.
Proof.
  induction m as [|r m IH]; cbn [mapping_level]; [discriminate|].
  destruct (rule_match r s) as [[l' sf']|] eqn:E.
  - intros H. inversion H. subst. exists r. split; [left; reflexivity|].
    unfold rule_match in E. destruct (r_rx r) as [x|]; [destruct (rx_match x s)|]; inversion E; auto.
  - intros H. destruct (IH H) as (r' & Hin & Hl). exists r'. split; [right; exact Hin|exact Hl].
Qed.

(* account.Shorten panics iff the matching rule applies (level not 0, the account is deep
   enough) and its level or suffix is negative *)
Theorem shorten_panics_iff m a :
  shorten m a = ShPanic <->
  exists level suffix, mapping_level m (acc_name a) = Some (level, suffix) /\
    level <> 0 /\ suffix < acc_level a /\ level <= acc_level a - suffix /\ (level < 0 \/ suffix < 0).
Proof.
  unfold shorten. destruct m as [|r m'].
  - split; [discriminate|]. intros (l & sf & H & _). discriminate.
  - destruct (mapping_level (r :: m') (acc_name a)) as [[l sf]|].
    2: { split; [discriminate|]. intros (l & sf & H & _). discriminate. }
    destruct (l =? 0) eqn:E0; [apply Z.eqb_eq in E0|apply Z.eqb_neq in E0].
    { split; [discriminate|]. intros (l' & sf' & H & Hn & _). inversion H. subst. contradiction. }
    destruct (acc_level a <=? sf) eqn:E1; [apply Z.leb_le in E1|apply Z.leb_gt in E1].
    { split; [discriminate|]. intros (l' & sf' & H & _ & Hs & _). inversion H. subst. lia. }
    destruct (acc_level a - sf <? l) eqn:E2; [apply Z.ltb_lt in E2|apply Z.ltb_ge in E2].
    { split; [discriminate|]. intros (l' & sf' & H & _ & _ & Hl & _). inversion H. subst. lia. }
    destruct ((l <? 0) || (sf <? 0)) eqn:E3.
    + split; [|reflexivity]. intros _. exists l, sf. repeat split; try assumption.
      apply orb_true_iff in E3. destruct E3 as [E3|E3]; apply Z.ltb_lt in E3; auto.
    + split; [discriminate|]. intros (l' & sf' & H & _ & _ & _ & Hneg). inversion H. subst.
      apply orb_false_iff in E3. destruct E3 as [E3 E4]. apply Z.ltb_ge in E3. apply Z.ltb_ge in E4. lia.
Qed.

Lemma mapping_level_nonneg m s l sf :
  mapping_nonneg m = true -> mapping_level m s = Some (l, sf) -> 0 <= l /\ 0 <= sf.
Proof.
  intros Hm Hl. destruct (mapping_level_in _ _ _ _ Hl) as (r & Hin & <- & <-).
  unfold mapping_nonneg in Hm. rewrite forallb_forall in Hm. specialize (Hm r Hin).
  unfold rule_nonneg in Hm. apply andb_true_iff in Hm. destruct Hm as [H1 H2].
  apply Z.leb_le in H1. apply Z.leb_le in H2. auto.
Qed.

Lemma shorten_np m a : mapping_nonneg m = true -> shorten m a <> ShPanic.
Proof.
  intros Hm H. apply shorten_panics_iff in H. destruct H as (l & sf & Hl & _ & _ & _ & Hneg).
  pose proof (mapping_level_nonneg _ _ _ _ Hm Hl). lia.
Qed.

Lemma shorten_safe_agrees m a : mapping_nonneg m = true -> shorten m a = shorten_result_of (shorten_safe m a).
Proof.
  intros Hm. pose proof (shorten_np m a Hm) as Hnp. unfold shorten, shorten_safe in *.
  destruct m as [|r m']; [reflexivity|].
  destruct (mapping_level (r :: m') (acc_name a)) as [[l sf]|]; [|reflexivity].
  destruct (l =? 0); [reflexivity|]. destruct (acc_level a <=? sf); [reflexivity|].
  destruct (acc_level a - sf <? l); [reflexivity|].
  destruct ((l <? 0) || (sf <? 0)); [contradiction|reflexivity].
Qed.

Lemma mapping_flag_ok_eq m : mapping_flag_ok m = mapping_nonneg m.
Proof. reflexivity. Qed.

Theorem balance_table_safe_np cfg ds : cnp (balance_table_safe cfg ds).
Proof.
  unfold balance_table_safe. apply cbind_np; [|intros rp; apply cnp_ok].
  unfold balance_report_safe.
  destruct (mapping_flag_ok (bc_mapping cfg)) eqn:Emf; cbn [negb]; [|apply cnp_err].
  apply cbind_np.
  { destruct (bc_valuation cfg) as [v|]; [destruct (valid_commodity v); [apply cnp_ok|apply cnp_err]|apply cnp_ok]. }
  intros _. apply cbind_np; [apply load_safe_np|]. intros b.
  apply cbind_np; [apply cfg_partition_safe_np|]. intros part. cbv zeta.
  apply cbind_np; [apply run_stage_np, check_proc_current_safe|]. intros r1.
  apply cbind_np.
  { destruct (bc_valuation cfg) as [v|]; [|apply cnp_ok].
    apply cbind_np; [apply compute_prices_stage_np|]. intros r2.
    apply cbind_np; [apply run_stage_np, valuate_proc_safe|]. intros r3. apply cnp_ok. }
  intros days. apply cbind_np; [apply run_stage_np, filter_proc_safe|]. intros r4.
  apply cbind_np.
  { destruct (bc_close cfg); [|apply cnp_ok].
    apply cbind_np; [apply run_stage_np, close_proc_safe|]. intros r5. apply cnp_ok. }
  intros days2. apply cbind_np; [|intros r6; apply cnp_ok].
  apply run_stage_np, query_proc_safe. intros a. cbn [balance_query q_account].
  apply shorten_np. rewrite <- mapping_flag_ok_eq. exact Emf.
Qed.

Theorem check_cmd_safe_np lenient ds : cnp (check_cmd_safe lenient ds).
Proof.
  unfold check_cmd_safe. apply cbind_np; [apply load_safe_np|]. intros b.
  apply cbind_np; [apply run_stage_np, check_proc_safe|]. intros r. apply cnp_ok.
Qed.

Theorem print_cmd_safe_np lenient ds : cnp (print_cmd_safe lenient ds).
Proof.
  unfold print_cmd_safe. apply cbind_np; [apply load_safe_np|]. intros b.
  apply cbind_np; [apply run_stage_np, check_proc_current_safe|]. intros r. apply cnp_ok.
Qed.

Lemma run_fs_np {A} fs root (k : list sdirective -> cresult A) : (forall ds, cnp (k ds)) -> cnp (run_fs fs root k).
Proof.
  intros Hk. unfold run_fs. pose proof (load_terminates fs root) as Ht.
  destruct (LoaderM.load (fuel_for fs) fs root) as [ds|e|]; [apply Hk|apply cnp_err|contradiction].
Qed.

Lemma predict_np {A} (r : cresult A) : cnp r -> predict r <> PredPANIC.
Proof. intros Hr. destruct r as [a|k d|m]; cbn [predict]; try discriminate. exfalso. exact (Hr m eq_refl). Qed.

Lemma cbind_ext_on {A B} (x : cresult A) (f g : A -> cresult B) :
  (forall a, x = COk a -> f a = g a) -> cbind x f = cbind x g.
Proof. intros H. destruct x; cbn [cbind]; [apply H; reflexivity|reflexivity|reflexivity]. Qed.

Lemma load_ok_inv ds b : Cli.load ds = COk b -> exists l, parse_directives ds = MOk l /\ b = builder_of l.
Proof.
  unfold Cli.load. destruct (parse_directives ds) as [l|e|m]; cbn [of_mresult cbind]; intros H; inversion H.
  exists l. auto.
Qed.

Theorem balance_table_safe_agrees cfg ds : guards cfg ds = true -> balance_table_safe cfg ds = balance_table cfg ds.
Proof.
  unfold guards. intros H. apply andb_true_iff in H. destruct H as [H Hw].
  apply andb_true_iff in H. destruct H as [Hm Ha].
  unfold balance_table_safe, balance_table. f_equal.
  unfold balance_report_safe, balance_report.
  rewrite mapping_flag_ok_eq, Hm. cbn [negb].
  apply cbind_ext_on. intros _ _.
  rewrite (load_safe_agrees ds (parse_directives_np ds Ha)).
  apply cbind_ext_on. intros b Hb.
  rewrite cfg_partition_safe_agrees; [reflexivity|].
  destruct (load_ok_inv _ _ Hb) as (l & Hl & ->).
  unfold window_start_ok in Hw. rewrite Hl in Hw. apply negb_true_iff in Hw. apply Z.eqb_neq in Hw.
  rewrite b_min_builder_of. exact Hw.
Qed.

Theorem balance_table_np cfg ds : guards cfg ds = true -> cnp (balance_table cfg ds).
Proof. intros H. rewrite <- (balance_table_safe_agrees cfg ds H). apply balance_table_safe_np. Qed.

Theorem check_cmd_np lenient ds : accruals_ok ds = true -> cnp (check_cmd lenient ds).
Proof.
  intros Ha. pose proof (check_cmd_safe_np lenient ds) as H. unfold check_cmd_safe in H.
  rewrite (load_safe_agrees ds (parse_directives_np ds Ha)) in H. exact H.
Qed.

Theorem print_cmd_np lenient ds : accruals_ok ds = true -> cnp (print_cmd lenient ds).
Proof.
  intros Ha. pose proof (print_cmd_safe_np lenient ds) as H. unfold print_cmd_safe in H.
  rewrite (load_safe_agrees ds (parse_directives_np ds Ha)) in H. exact H.
Qed.

(* the converse for check: without the accrual guard the model panics unless an earlier
   directive fails first *)
Theorem check_cmd_panics_iff lenient ds :
  (exists m, check_cmd lenient ds = CPanic m) <-> (exists m, parse_directives ds = MPanic m).
Proof.
  unfold check_cmd, Cli.load. destruct (parse_directives ds) as [l|e|m]; cbn [of_mresult cbind].
  - split; [|intros [m H]; discriminate]. intros [m H]. exfalso.
    revert H. apply cbind_np; [apply run_stage_np, check_proc_safe|]. intros r. apply cnp_ok.
  - split; intros [m H]; discriminate.
  - split; intros _; eexists; reflexivity.
Qed.

(* each guard is necessary: the inputs of the witnesses here and in Properties/C14.v *)

Definition w_bank : account := [s_Assets; [66]].
Definition w_rent : account := [s_Expenses; [82]].
Definition w_chf : commodity := [67; 72; 70].
Definition w_booking : booking := mkBooking w_bank w_rent (of_int 12) w_chf.

(* open both accounts and book once on day [d] *)
Definition w_journal (d : Z) (ac : option accrual) : list sdirective :=
  [SOpen d w_bank; SOpen d w_rent; STxn (mkStxn d [] [w_booking] None ac)].

Definition w_cfg (mapping : list rule) : balance_cfg :=
  mkBalanceCfg 0 740000 Once 0 false false None true mapping [] [] [] [] true.

Definition w_day : Z := 737425.   (* 2020-01-01 *)

(* -m -1,Assets *)
Definition w_neg_level : list rule := [mkRule (-1) 0 (Some (mkRx false s_Assets false))].
(* -m 1:-2,Assets *)
Definition w_neg_suffix : list rule := [mkRule 1 (-2) (Some (mkRx false s_Assets false))].
(* @accrue monthly 2020-06-01 2020-01-01 *)
Definition w_inverted : accrual := mkAccrual Monthly (w_day + 152) w_day w_bank.
(* @accrue monthly 0001-01-01 0001-03-01 *)
Definition w_zero_accrual : accrual := mkAccrual Monthly 0 59 w_bank.

(* one input per conjunct of [guards]: without it, and with the other conjuncts as far as stated, the model panics *)
Lemma witness_neg_level :
  mapping_nonneg w_neg_level = false /\
  accruals_ok (w_journal w_day None) = true /\ window_start_ok (w_cfg w_neg_level) (w_journal w_day None) = true /\
  balance_table (w_cfg w_neg_level) (w_journal w_day None) = CPanic k_shorten.
Proof. repeat split; vm_compute; reflexivity. Qed.

Lemma witness_inverted_accrual :
  accruals_ok (w_journal w_day (Some w_inverted)) = false /\
  mapping_nonneg [] = true /\
  check_cmd true (w_journal w_day (Some w_inverted)) = CPanic e_divzero /\
  balance_table (w_cfg []) (w_journal w_day (Some w_inverted)) = CPanic e_divzero.
Proof. repeat split; vm_compute; reflexivity. Qed.

Lemma witness_zero_day :
  window_start_ok (w_cfg []) (w_journal 0 None) = false /\
  accruals_ok (w_journal 0 None) = true /\
  check_cmd true (w_journal 0 None) = COk tt /\
  balance_table (w_cfg []) (w_journal 0 None) = CPanic k_zerotime.
Proof. repeat split; vm_compute; reflexivity. Qed.

Lemma load_safe_not_ok ds d :
  In d ds -> (forall o, parse_directive d <> MOk o) -> forall b, load_safe ds <> COk b.
Proof.
  intros Hin Hbad b H. unfold load_safe in H. rewrite parse_directives_safe_eq in H.
  destruct (parse_directives ds) as [l|e|m] eqn:E; cbn [depanic of_mresult cbind] in H; try discriminate.
  destruct (parse_directives_ok_all _ _ E d Hin) as (o & Ho). exact (Hbad o Ho).
Qed.

(* a command that succeeds only on a journal that loads *)
Definition needs_journal {A} (k : list sdirective -> cresult A) : Prop :=
  forall ds a, k ds = COk a -> exists b, load_safe ds = COk b.

Theorem invalid_directive_fails {A} (k : list sdirective -> cresult A) fs root p items d :
  needs_journal k -> reach fs root p -> lookup fs p = Some (FOk items) -> In (IDir d) items ->
  (forall o, parse_directive d <> MOk o) -> forall a, run_fs fs root k <> COk a.
Proof.
  intros Hk Hr Hlk Hin Hbad a. unfold run_fs.
  destruct (LoaderM.load (fuel_for fs) fs root) as [ds|e|] eqn:El; try discriminate.
  intros H. destruct (Hk ds a H) as [b Hb].
  exact (load_safe_not_ok ds d (included_directive_loaded fs root p items d Hr Hlk Hin _ _ El) Hbad b Hb).
Qed.

Lemma check_cmd_safe_needs_journal l : needs_journal (check_cmd_safe l).
Proof. intros ds a H. unfold check_cmd_safe in H. apply cbind_ok in H. destruct H as (b & Hb & _). eauto. Qed.

Lemma print_cmd_safe_needs_journal l : needs_journal (print_cmd_safe l).
Proof. intros ds a H. unfold print_cmd_safe in H. apply cbind_ok in H. destruct H as (b & Hb & _). eauto. Qed.

Lemma balance_table_safe_needs_journal cfg : needs_journal (balance_table_safe cfg).
Proof.
  intros ds t H. unfold balance_table_safe in H. apply cbind_ok in H. destruct H as (rp & H & _).
  unfold balance_report_safe in H. destruct (negb (mapping_flag_ok (bc_mapping cfg))); [discriminate|].
  apply cbind_ok in H. destruct H as (u & _ & H).
  apply cbind_ok in H. destruct H as (b & Hb & _). eauto.
Qed.

(* a failing command has no output: the result type of the commands carries output only in COk *)
Lemma error_no_output (r : cresult str) k d : r = CErr k d -> stdout_of r = [].
Proof. intros ->. reflexivity. Qed.
