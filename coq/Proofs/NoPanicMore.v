(* C14 for transcode, portfolio weights and portfolio returns: which inputs reach a Panic in the model,
   and that the repaired variants (Model/CliSafeMore.v) never do.  The processors, the loader and the
   accrual and mapping guards are those of Proofs/NoPanic.v.

   Panic is reachable in Model/CliTranscode.v and Model/CliPortfolio.v through
     - Cli.load          -> parse_directives -> expand_posting (empty or zero-dated accrual window)
     - pf_partition      -> new_partition on a zero start
     - query_entries     -> map_path with a negative level or suffix (slice bounds)
     - transcode_cmd_pinned without -v (nil commodity; repaired by 864fd70 in transcode_cmd)
   and, excluded for every input: new_partition's fuel, compute_prices' normalize/insert (C12).
   The processors Sort, ComputeValues, ComputeFlows, Perf have no failing callback at all. *)
From Coq Require Import ZArith QArith List Bool Lia.
From Knut Require Import Model.Str Model.Dec Model.Date Model.Account Model.Ledger Model.Price
     Model.Journal Model.Check Model.Pipeline Model.Table Model.Report Model.JPrinter Model.Cli
     Model.Loader Model.CliSafe Model.Beancount Model.CliTranscode Model.Perf Model.Weights Model.CliPortfolio
     Model.CliSafeMore Spec.FailSpec Spec.FailSpecMore.
From Knut Require Import Proofs.JournalFacts Proofs.StrProofs Proofs.DateProofs Proofs.PriceDayProofs Proofs.LoaderProofs Proofs.NoPanic
     Proofs.PortfolioDays.
Import ListNotations.
Open Scope bool_scope.
Open Scope Z_scope.

Lemma sort_proc_safe : proc_safe sort_proc.
Proof.
  unfold proc_safe, sort_proc. cbn [pr_day_start pr_price pr_open pr_txn pr_posting pr_balance pr_close pr_day_end].
  repeat split; some_inv. intros s d. apply np_ok.
Qed.

(* a processor built by Perf.pure_proc (ComputeValues, ComputeFlows) always succeeds *)
Lemma pure_stage_ok {S} (st : option (S -> day -> S)) tx po en s days :
  run_stage (pure_proc st tx po en) s days = COk (pure_days st tx po en s days, days).
Proof. unfold run_stage. rewrite pure_proc_days. reflexivity. Qed.

Lemma day_values_ok cfg days : exists r, day_values cfg days = COk r.
Proof. unfold day_values, compute_values_proc. rewrite pure_stage_ok. cbn [cbind]. eauto. Qed.

Lemma day_flows_ok fx cfg days : exists r, day_flows fx cfg days = COk r.
Proof. unfold day_flows, compute_flows_proc. rewrite pure_stage_ok. cbn [cbind]. eauto. Qed.

Lemma transcode_stages_np lenient v days : cnp (transcode_stages lenient v days).
Proof.
  unfold transcode_stages.
  apply cbind_np; [apply run_stage_np, sort_proc_safe|]. intros r0.
  apply cbind_np; [apply compute_prices_stage_np|]. intros r1.
  apply cbind_np; [apply run_stage_np, check_proc_safe|]. intros r2.
  apply cbind_np; [apply run_stage_np, valuate_proc_safe|]. intros r3. apply cnp_ok.
Qed.

Lemma valued_days_np cfg days : cnp (valued_days cfg days).
Proof.
  unfold valued_days. destruct (pc_valuation cfg) as [v|].
  - apply cbind_np; [apply compute_prices_stage_np|]. intros r1.
    apply cbind_np; [apply run_stage_np, check_proc_safe|]. intros r2.
    apply cbind_np; [apply run_stage_np, valuate_proc_safe|]. intros r3. apply cnp_ok.
  - apply cbind_np; [apply run_stage_np, check_proc_safe|]. intros r2. apply cnp_ok.
Qed.

Lemma valuation_flag_np v : cnp (valuation_flag v).
Proof.
  unfold valuation_flag. destruct v as [c|]; [|apply cnp_ok].
  destruct c as [|x c]; [apply cnp_ok|]. destruct (valid_commodity (x :: c)); [apply cnp_ok|apply cnp_err].
Qed.

Lemma check_valuation_np cfg : cnp (check_valuation cfg).
Proof.
  unfold check_valuation. destruct (pc_valuation cfg) as [v|]; [|apply cnp_ok].
  destruct (valid_commodity v); [apply cnp_ok|apply cnp_err].
Qed.

Lemma universe_class_np class cs : forall u, cnp (universe_class u class cs).
Proof.
  induction cs as [|c cs IH]; intros u; cbn [universe_class]; [apply cnp_ok|].
  destruct (negb (valid_commodity c)); [apply cnp_err|].
  destruct (sm_has u c); [apply cnp_err|apply IH].
Qed.

Lemma universe_load_np y : forall u, cnp (universe_load u y).
Proof.
  induction y as [|[class cs] y IH]; intros u; cbn [universe_load]; [apply cnp_ok|].
  apply cbind_np; [apply universe_class_np|]. intros u'. apply IH.
Qed.

(* weights.Query.Execute panics (slice bounds) on a path iff the matching rule applies (level
   below the kept length) and its level or suffix is negative *)
Theorem map_path_panics_iff m ss :
  map_path m ss = None <->
  exists level suffix, mapping_level m (join [colon] ss) = Some (level, suffix) /\
    level < Z.of_nat (length ss) - suffix /\ (level < 0 \/ suffix < 0).
Proof.
  unfold map_path. destruct (mapping_level m (join [colon] ss)) as [[l sf]|].
  2: { split; [discriminate|]. intros (l & sf & H & _). discriminate. }
  destruct (l <? Z.of_nat (length ss) - sf) eqn:E1.
  2: { split; [discriminate|]. intros (l' & sf' & H & Hl & _). inversion H. subst. lia. }
  destruct ((l <? 0) || (sf <? 0)) eqn:E2.
  - split; [|reflexivity]. intros _. exists l, sf. split; [reflexivity|lia].
  - split; [discriminate|]. intros (l' & sf' & H & _ & Hneg). inversion H. subst. lia.
Qed.

Lemma map_path_np m ss : mapping_nonneg m = true -> map_path m ss <> None.
Proof.
  intros Hm H. apply map_path_panics_iff in H. destruct H as (l & sf & Hl & _ & Hneg).
  pose proof (mapping_level_nonneg _ _ _ _ Hm Hl). lia.
Qed.

Lemma day_entries_panics_iff u m date total v1 :
  day_entries u m date total v1 = WPanic <-> Exists (fun cq => map_path m (locate u (fst cq)) = None) v1.
Proof.
  induction v1 as [|[c v] rest IH]; cbn [day_entries].
  - split; [discriminate|]. intros H. inversion H.
  - rewrite Exists_cons, <- IH. cbn [fst].
    destruct (map_path m (locate u c)) as [ss|]; [|tauto].
    destruct (day_entries u m date total rest) as [l|]; [|tauto].
    split; [discriminate|]. intros [H|H]; discriminate.
Qed.

Lemma query_entries_panics_Exists u m ends l :
  query_entries u m ends l = WPanic <->
  Exists (fun dv => existsb (Z.eqb (fst dv)) ends = true /\
                    Exists (fun cq => map_path m (locate u (fst cq)) = None) (snd (snd dv))) l.
Proof.
  induction l as [|[d [v0 v1]] rest IH]; cbn [query_entries].
  - split; [discriminate|]. intros H. inversion H.
  - rewrite Exists_cons, <- IH, <- (day_entries_panics_iff u m d (pcv_sum v1)). cbn [fst snd].
    destruct (existsb (Z.eqb d) ends); [|split; [tauto|intros [[H _]|H]; [discriminate|exact H]]].
    destruct (day_entries u m d (pcv_sum v1) v1) as [es|]; [|tauto].
    destruct (query_entries u m ends rest) as [es'|]; [|tauto].
    split; [discriminate|]. intros [[_ H]|H]; discriminate.
Qed.

(* the command's Query panics iff on some period end some commodity of the portfolio has a
   class path on which the mapping panics *)
Theorem query_entries_panics_iff u m ends l :
  query_entries u m ends l = WPanic <->
  exists d v0 v1 c q, In (d, (v0, v1)) l /\ existsb (Z.eqb d) ends = true /\ In (c, q) v1 /\
                      map_path m (locate u c) = None.
Proof.
  rewrite query_entries_panics_Exists, Exists_exists. split.
  - intros ([d [v0 v1]] & Hin & He & Hx). apply Exists_exists in Hx. destruct Hx as ([c q] & Hc & Hn).
    exists d, v0, v1, c, q. auto.
  - intros (d & v0 & v1 & c & q & Hin & He & Hc & Hn). exists (d, (v0, v1)). split; [exact Hin|].
    split; [exact He|]. apply Exists_exists. exists (c, q). auto.
Qed.

Lemma query_entries_np u m ends l : mapping_nonneg m = true -> query_entries u m ends l <> WPanic.
Proof.
  intros Hm H. apply query_entries_panics_iff in H. destruct H as (d & v0 & v1 & c & q & _ & _ & _ & Hn).
  exact (map_path_np m _ Hm Hn).
Qed.

(* Multiperiod.Partition (weights, returns) panics iff the clipped window starts on day 0 *)
Theorem pf_partition_panics_iff cfg b :
  (exists m, pf_partition cfg b = CPanic m) <-> Z.max (pc_from cfg) (b_min b) = 0.
Proof.
  rewrite <- (clip_start _ (pc_to cfg)). unfold pf_partition. set (p := clip _ _).
  destruct (new_partition_cases p (pc_interval cfg) (pc_last cfg)) as [[Hz ->]|[Hnz [pt ->]]].
  - split; eauto.
  - split; [intros [m H]; discriminate|contradiction].
Qed.

Lemma pf_partition_safe_np cfg b : cnp (pf_partition_safe cfg b).
Proof.
  unfold pf_partition_safe. set (p := clip _ _).
  destruct (p_start p =? 0) eqn:Ez; [apply cnp_err|]. apply Z.eqb_neq in Ez.
  destruct (new_partition_cases p (pc_interval cfg) (pc_last cfg)) as [[Hz _]|[_ [pt ->]]]; [contradiction|apply cnp_ok].
Qed.

Lemma pf_partition_safe_agrees cfg b :
  Z.max (pc_from cfg) (b_min b) <> 0 -> pf_partition_safe cfg b = pf_partition cfg b.
Proof.
  rewrite <- (clip_start _ (pc_to cfg)). intros H. unfold pf_partition_safe, pf_partition.
  destruct (p_start _ =? 0) eqn:Ez; [apply Z.eqb_eq in Ez; contradiction|reflexivity].
Qed.

Lemma pf_window_of_load cfg ds b :
  pf_window_start_ok cfg ds = true -> Cli.load ds = COk b -> Z.max (pc_from cfg) (b_min b) <> 0.
Proof.
  intros Hw Hb. destruct (load_ok_inv _ _ Hb) as (l & Hl & ->).
  unfold pf_window_start_ok in Hw. rewrite Hl in Hw. apply negb_true_iff in Hw. apply Z.eqb_neq in Hw.
  rewrite b_min_builder_of. exact Hw.
Qed.

Theorem transcode_cmd_safe_np lenient v ds : cnp (transcode_cmd_safe lenient v ds).
Proof.
  unfold transcode_cmd_safe. apply cbind_np; [apply valuation_flag_np|]. intros [c|]; [|apply cnp_err].
  apply cbind_np; [|intros days; apply cnp_ok].
  unfold transcode_days_safe. apply cbind_np; [apply load_safe_np|]. intros b. apply transcode_stages_np.
Qed.

Theorem weights_csv_cmd_safe_np cfg ds : cnp (weights_csv_cmd_safe cfg ds).
Proof.
  unfold weights_csv_cmd_safe. apply cbind_np; [|intros t; apply cnp_ok].
  unfold weights_table_safe. apply cbind_np; [|intros es; apply cnp_ok].
  unfold weights_entries_safe.
  destruct (mapping_flag_ok (pc_mapping cfg)) eqn:Emf; cbn [negb]; [|apply cnp_err].
  apply cbind_np.
  { destruct (pc_universe cfg) as [y|]; [apply universe_load_np|apply cnp_ok]. }
  intros u. apply cbind_np; [apply check_valuation_np|]. intros _.
  apply cbind_np; [apply load_safe_np|]. intros b.
  apply cbind_np; [apply pf_partition_safe_np|]. intros part. cbv zeta.
  apply cbind_np; [apply valued_days_np|]. intros days.
  destruct (day_values_ok cfg days) as (vs & ->). cbn [cbind].
  destruct (query_entries u (pc_mapping cfg) (end_dates part) (fst vs)) as [es|] eqn:Eq; [apply cnp_ok|].
  exfalso. revert Eq. apply query_entries_np. rewrite <- mapping_flag_ok_eq. exact Emf.
Qed.

Theorem returns_cmd_safe_np fx cfg ds : cnp (returns_cmd_safe fx cfg ds).
Proof.
  unfold returns_cmd_safe. apply cbind_np; [|intros l; apply cnp_ok].
  unfold returns_gen_safe.
  apply cbind_np; [apply check_valuation_np|]. intros _.
  apply cbind_np; [apply load_safe_np|]. intros b.
  apply cbind_np; [apply pf_partition_safe_np|]. intros part. cbv zeta.
  apply cbind_np; [apply valued_days_np|]. intros days.
  destruct (day_values_ok cfg days) as (vs & ->). cbn [cbind].
  destruct (day_flows_ok fx cfg (snd vs)) as (fs & ->). cbn [cbind]. apply cnp_ok.
Qed.

Theorem transcode_cmd_safe_agrees lenient v ds :
  accruals_ok ds = true -> transcode_cmd_safe lenient v ds = transcode_cmd lenient v ds.
Proof.
  intros Ha. unfold transcode_cmd_safe, transcode_cmd, transcode_days_safe, transcode_days.
  rewrite (load_safe_agrees ds (parse_directives_np ds Ha)). reflexivity.
Qed.

Theorem weights_csv_cmd_safe_agrees cfg ds :
  pf_guards cfg ds = true -> weights_csv_cmd_safe cfg ds = weights_csv_cmd cfg ds.
Proof.
  unfold pf_guards. intros H. apply andb_true_iff in H. destruct H as [H Hw].
  apply andb_true_iff in H. destruct H as [Hm Ha].
  unfold weights_csv_cmd_safe, weights_csv_cmd, weights_table_safe, weights_table. do 2 f_equal.
  unfold weights_entries_safe, weights_entries.
  rewrite mapping_flag_ok_eq, Hm. cbn [negb].
  apply cbind_ext_on. intros u _. apply cbind_ext_on. intros _ _.
  rewrite (load_safe_agrees ds (parse_directives_np ds Ha)).
  apply cbind_ext_on. intros b Hb.
  rewrite (pf_partition_safe_agrees cfg b (pf_window_of_load cfg ds b Hw Hb)). reflexivity.
Qed.

Theorem returns_cmd_safe_agrees fx cfg ds :
  returns_guards cfg ds = true -> returns_cmd_safe fx cfg ds = returns_cmd fx cfg ds.
Proof.
  unfold returns_guards. intros H. apply andb_true_iff in H. destruct H as [Ha Hw].
  unfold returns_cmd_safe, returns_cmd. f_equal.
  unfold returns_gen_safe, returns_gen.
  apply cbind_ext_on. intros _ _.
  rewrite (load_safe_agrees ds (parse_directives_np ds Ha)).
  apply cbind_ext_on. intros b Hb.
  rewrite (pf_partition_safe_agrees cfg b (pf_window_of_load cfg ds b Hw Hb)). reflexivity.
Qed.

Theorem transcode_cmd_np lenient v ds : accruals_ok ds = true -> cnp (transcode_cmd lenient v ds).
Proof. intros H. rewrite <- (transcode_cmd_safe_agrees lenient v ds H). apply transcode_cmd_safe_np. Qed.

Theorem weights_csv_cmd_np cfg ds : pf_guards cfg ds = true -> cnp (weights_csv_cmd cfg ds).
Proof. intros H. rewrite <- (weights_csv_cmd_safe_agrees cfg ds H). apply weights_csv_cmd_safe_np. Qed.

Theorem returns_cmd_np fx cfg ds : returns_guards cfg ds = true -> cnp (returns_cmd fx cfg ds).
Proof. intros H. rewrite <- (returns_cmd_safe_agrees fx cfg ds H). apply returns_cmd_safe_np. Qed.

(* transcode (after 864fd70) panics iff a valuation commodity was given and accepted and
   lib/model panics on a directive before any earlier directive is rejected *)
Theorem transcode_cmd_panics_iff lenient v ds :
  (exists m, transcode_cmd lenient v ds = CPanic m) <->
  ((exists c, valuation_flag v = COk (Some c)) /\ (exists m, parse_directives ds = MPanic m)).
Proof.
  unfold transcode_cmd. pose proof (valuation_flag_np v) as Hv.
  destruct (valuation_flag v) as [[c|]|k d|msg]; cbn [cbind].
  - unfold transcode_days, Cli.load.
    destruct (parse_directives ds) as [l|e|m]; cbn [of_mresult cbind].
    + split; [|intros [_ [m H]]; discriminate]. intros [m H]. exfalso. revert H.
      apply cbind_np; [apply transcode_stages_np|]. intros days. apply cnp_ok.
    + split; [intros [m H]; discriminate|intros [_ [m H]]; discriminate].
    + split; [intros _; split; eauto|intros _; eauto].
  - split; [intros [m H]; discriminate|intros [[c H] _]; discriminate].
  - split; [intros [m H]; discriminate|intros [[c H] _]; discriminate].
  - exfalso. exact (Hv msg eq_refl).
Qed.

(* the pinned transcode without -v: it panics unless the journal is rejected first *)
Theorem transcode_cmd_pinned_noval lenient ds :
  (exists k d, transcode_cmd_pinned lenient None ds = CErr k d) \/ (exists m, transcode_cmd_pinned lenient None ds = CPanic m).
Proof.
  unfold transcode_cmd_pinned, valuation_flag. cbn [cbind].
  destruct (Cli.load ds) as [b|k d|m]; cbn [cbind]; [|left; eauto|right; eauto].
  destruct (run_stage sort_proc tt (b_days b)) as [r0|k d|m]; cbn [cbind]; [|left; eauto|right; eauto].
  destruct (run_stage (check_proc lenient) check_init (snd r0)) as [r1|k d|m]; cbn [cbind]; [right; eauto|left; eauto|right; eauto].
Qed.

(* portfolio returns panics iff the valuation flag is accepted and either lib/model panics on
   a directive, or the journal loads and the reporting window starts on day 0 *)
Theorem returns_cmd_panics_iff fx cfg ds :
  (exists m, returns_cmd fx cfg ds = CPanic m) <->
  ((exists u, check_valuation cfg = COk u) /\
   ((exists m, parse_directives ds = MPanic m) \/ pf_window_start_ok cfg ds = false)).
Proof.
  unfold returns_cmd, returns_gen. pose proof (check_valuation_np cfg) as Hv.
  destruct (check_valuation cfg) as [u|k d|msg]; cbn [cbind].
  3: { exfalso. exact (Hv msg eq_refl). }
  2: { split; [intros [m H]; discriminate|intros [[u H] _]; discriminate]. }
  unfold pf_window_start_ok, Cli.load.
  destruct (parse_directives ds) as [l|e|m]; cbn [of_mresult cbind].
  - assert (Hw : window_start (pc_from cfg) l = 0 <-> exists m, pf_partition cfg (builder_of l) = CPanic m).
    { unfold window_start. rewrite <- b_min_builder_of. symmetry. apply pf_partition_panics_iff. }
    destruct (pf_partition cfg (builder_of l)) as [part|k d|msg]; cbn [cbind].
    + assert (Hne : window_start (pc_from cfg) l <> 0) by (intros Hz; apply Hw in Hz; destruct Hz; discriminate).
      apply Z.eqb_neq in Hne. rewrite Hne. cbn [negb].
      split; [|intros [_ [[m H]|H]]; discriminate]. intros [m H]. exfalso. revert H.
      apply cbind_np; [|intros r; apply cnp_ok].
      apply cbind_np; [apply valued_days_np|]. intros days.
      destruct (day_values_ok cfg days) as (vs & ->). cbn [cbind].
      destruct (day_flows_ok fx cfg (snd vs)) as (fs & ->). cbn [cbind]. apply cnp_ok.
    + assert (Hne : window_start (pc_from cfg) l <> 0) by (intros Hz; apply Hw in Hz; destruct Hz; discriminate).
      apply Z.eqb_neq in Hne. rewrite Hne. cbn [negb].
      split; [intros [m H]; discriminate|intros [_ [[m H]|H]]; discriminate].
    + rewrite (proj2 Hw (ex_intro _ msg eq_refl)). cbn [Z.eqb negb].
      split; [intros _; split; eauto|intros _; eauto].
  - split; [intros [m H]; discriminate|intros [_ [[m H]|H]]; discriminate].
  - split; [intros _; split; eauto|intros _; eauto].
Qed.

(* each guard is necessary: the inputs of the witnesses in Properties/C14.v *)

(* portfolio flags: no --from, --to 3027-01-27, once, -v CHF; mapping as given *)
Definition w_pf (mapping : list rule) : pf_cfg :=
  mkPfCfg 0 740000 Once 0 (Some w_chf) [] [] mapping true None true.

(* -m -1 (a rule without regex applies to every class path) *)
Definition w_neg_level_all : list rule := [mkRule (-1) 0 None].
(* -m 1:-2 *)
Definition w_neg_suffix_all : list rule := [mkRule 1 (-2) None].

Lemma transcode_cmd_safe_needs_journal l v : needs_journal (transcode_cmd_safe l v).
Proof.
  intros ds s H. unfold transcode_cmd_safe in H. apply cbind_ok in H. destruct H as ([c|] & _ & H); [|discriminate].
  apply cbind_ok in H. destruct H as (days & H & _). unfold transcode_days_safe in H.
  apply cbind_ok in H. destruct H as (b & Hb & _). eauto.
Qed.

Lemma weights_csv_cmd_safe_needs_journal cfg : needs_journal (weights_csv_cmd_safe cfg).
Proof.
  intros ds s H. unfold weights_csv_cmd_safe in H. apply cbind_ok in H. destruct H as (t & H & _).
  unfold weights_table_safe in H. apply cbind_ok in H. destruct H as (es & H & _).
  unfold weights_entries_safe in H. destruct (negb (mapping_flag_ok (pc_mapping cfg))); [discriminate|].
  apply cbind_ok in H. destruct H as (u & _ & H).
  apply cbind_ok in H. destruct H as (u' & _ & H).
  apply cbind_ok in H. destruct H as (b & Hb & _). eauto.
Qed.

Lemma returns_cmd_safe_needs_journal fx cfg : needs_journal (returns_cmd_safe fx cfg).
Proof.
  intros ds s H. unfold returns_cmd_safe in H. apply cbind_ok in H. destruct H as (l & H & _).
  unfold returns_gen_safe in H. apply cbind_ok in H. destruct H as (u' & _ & H).
  apply cbind_ok in H. destruct H as (b & Hb & _). eauto.
Qed.
