(* The numeral of a numeric cell (TextRenderer.numToString): without its commas it is
   shopspring's fixed-point numeral of the amount (divided by 1000 under --thousands) rounded
   half away from zero; it is well grouped; it meets the executable statement
   Spec.TableSpec.num_cell_ok_b that the check evaluates on the Go output.
   With the facts about Decimal.String (DecStringProofs): the text renderer's theorems of
   TableProofs without their hypothesis on the numerals, and the CSV renderer (records = the
   visible rows, a numeric field = Decimal.String of the exact amount). *)
From Coq Require Import ZArith List Bool Lia.
From Knut Require Import Model.Str Model.Dec Model.Table Spec.TableSpec.
From Knut Require Import Proofs.ListFacts Proofs.StrProofs Proofs.DecProofs Proofs.DecRoundProofs Proofs.DecStringProofs
     Proofs.GroupingProofs Proofs.TableProofs.
Import ListNotations.
Open Scope bool_scope.
Open Scope Z_scope.

(* the decimal that is formatted: d itself, or the result of d.Div(1000) *)
Definition shown (cfg : text_cfg) (d d' : dec) : Prop :=
  if tc_thousands cfg then div d k1000 = DOk d' else d' = d.

Lemma shown_exists cfg d : exists d', shown cfg d d'.
Proof.
  unfold shown. destruct (tc_thousands cfg); [|exists d; reflexivity].
  destruct (div d k1000) as [x|] eqn:E; [exists x; reflexivity|].
  exfalso. exact (div_k1000_no_panic d E).
Qed.

Lemma num_str_shown cfg d d' :
  shown cfg d d' -> num_str cfg d = add_thousands_sep (to_string_fixed d' (tc_round cfg)).
Proof.
  unfold shown, num_str, num_to_string. destruct (tc_thousands cfg); intros H.
  - rewrite H. reflexivity.
  - subst d'. reflexivity.
Qed.

(* under --thousands the formatted decimal is the exact quotient when d has <= 13 decimals *)
Lemma shown_value cfg d d' :
  (tc_thousands cfg = true -> - ex d <= 13) ->
  shown cfg d d' -> dec_eqv d' (shown_amount (tc_thousands cfg) d).
Proof.
  unfold shown, shown_amount. destruct (tc_thousands cfg); intros Hex H.
  - destruct (div1000_exact d (Hex eq_refl)) as [E Hv]. rewrite E in H. injection H as <-. exact Hv.
  - subst d'. reflexivity.
Qed.

Lemma to_string_fixed_eq d p : to_string_fixed d p = to_string_gen false (round d p).
Proof. reflexivity. Qed.

(* C17_number, model side *)
Theorem num_str_spec cfg d :
  let p := tc_round cfg in
  exists d',
    shown cfg d d' /\
    (* without the commas: StringFixed of the shown amount *)
    strip_commas (num_str cfg d) = to_string_fixed d' p /\
    (* which is the numeral of the amount rounded half away from zero *)
    to_string_fixed d' p = to_string_gen false (round_haz d' p) /\
    round d' p = round_haz d' p /\
    is_round_haz d' p (round d' p) /\
    (* a plain numeral with max p 0 fractional digits that denotes the rounded value *)
    is_numstr_b (to_string_fixed d' p) = true /\
    frac_len (to_string_fixed d' p) = Z.max p 0 /\
    (exists x, of_string (to_string_fixed d' p) = Some x /\ dec_eqv x (round d' p)) /\
    (* minus sign iff the rounded coefficient is negative *)
    starts_minus (num_str cfg d) = (coef (round d' p) <? 0) /\
    (* grouping *)
    grouping_ok_b (num_str cfg d) = true.
Proof.
  intros p. destruct (shown_exists cfg d) as [d' Hs]. exists d'.
  pose proof (num_str_shown cfg d d' Hs) as En. fold p in En.
  pose proof (to_string_gen_is_numstr false (round d' p)) as Hnum.
  rewrite <- to_string_fixed_eq in Hnum.
  split; [exact Hs|].
  split; [rewrite En; apply add_thousands_sep_strip; exact Hnum|].
  split; [rewrite to_string_fixed_eq, round_eq_haz; reflexivity|].
  split; [apply round_eq_haz|].
  split; [apply round_spec|].
  split; [exact Hnum|].
  split.
  { rewrite to_string_fixed_eq, to_string_gen_frac_len, ex_round. f_equal. lia. }
  split; [rewrite to_string_fixed_eq; apply of_to_string_fixed|].
  split.
  { rewrite En, add_thousands_sep_starts_minus by exact Hnum.
    rewrite to_string_fixed_eq. apply to_string_gen_starts_minus. }
  rewrite En. apply add_thousands_sep_grouping_ok. exact Hnum.
Qed.

(* the model's numeral meets the executable statement evaluated on the Go output *)
Theorem num_str_meets_spec cfg d :
  (tc_thousands cfg = true -> - ex d <= 13) ->
  num_cell_ok_b (tc_thousands cfg) (tc_round cfg) d (num_str cfg d) = true /\
  num_cell_exact_b (tc_thousands cfg) (tc_round cfg) d (num_str cfg d) = true.
Proof.
  intros Hex. destruct (num_str_spec cfg d) as [d' [Hs [Estrip [Efix [Er [_ [Hnum [Hfl [[x [Eof Hx]] [Hmin Hgrp]]]]]]]]]].
  cbv zeta in *.
  pose proof (shown_value cfg d d' Hex Hs) as Hv.
  pose proof (round_haz_eqv _ _ (tc_round cfg) Hv) as Erh.
  split.
  - unfold num_cell_ok_b. rewrite <- Erh, <- Er, Estrip, Hgrp, Hnum, Hfl, Z.eqb_refl, Hmin, Bool.eqb_reflx, Eof.
    cbn [andb]. apply dec_eqv_b_true. exact Hx.
  - unfold num_cell_exact_b. rewrite <- Erh, Estrip, Efix. apply str_eqb_refl.
Qed.

(* the numerals contain no line break: digits, '-', '.', ',' only *)
Lemma num_str_no_nl cfg n : ~ In 10 (num_str cfg n).
Proof.
  destruct (shown_exists cfg n) as [d' Hs]. rewrite (num_str_shown cfg n d' Hs).
  intros Hin. apply add_thousands_sep_chars in Hin. destruct Hin as [Hin|Hin]; [|discriminate].
  rewrite to_string_fixed_eq in Hin. exact (to_string_gen_no_nl _ _ Hin).
Qed.

Theorem render_text_rect_closed cfg t : table_wf t -> rect_b (t_width t) (render_text cfg t) = true.
Proof. apply render_text_rect. apply num_str_no_nl. Qed.

Lemma to_string_numstr n : is_numstr_b (to_string n) = true.
Proof. apply to_string_gen_is_numstr. Qed.

Lemma csv_cell_blank c : is_nil (csv_cell c) = cell_blank c.
Proof.
  destruct c as [| |s al ind|n]; cbn [csv_cell cell_blank]; try reflexivity.
  destruct (to_string n) eqn:E; [|reflexivity]. pose proof (to_string_numstr n) as H. rewrite E in H. discriminate.
Qed.

Lemma csv_record_visible r :
  existsb (fun s : str => match s with [] => false | _ => true end) (map csv_cell r) = csv_row_visible r.
Proof.
  unfold csv_row_visible. induction r as [|c r IH]; [reflexivity|]. cbn [map existsb]. rewrite IH.
  f_equal. rewrite <- csv_cell_blank. destruct (csv_cell c); reflexivity.
Qed.

(* the records are the visible rows, cell by cell: rows of blank cells only are dropped, the
   others keep their order, every record has one field per cell *)
Theorem render_csv_rows_spec_closed t :
  render_csv_rows t = map (map csv_cell) (filter csv_row_visible (t_rows t)).
Proof.
  unfold render_csv_rows. rewrite filter_map_comm. f_equal.
  apply filter_ext. intros r. apply csv_record_visible.
Qed.

Lemma csv_field_ok c : csv_field_ok_b c (csv_cell c) = true.
Proof.
  destruct c as [| |s al ind|n]; cbn [csv_cell csv_field_ok_b]; try reflexivity.
  - apply str_eqb_refl.
  - rewrite to_string_numstr. destruct (of_to_string n) as [x [E Hx]]. rewrite E.
    unfold dec_eqv_b. apply Z.eqb_eq. exact Hx.
Qed.

Lemma forall2b_map {A B : Type} (f : A -> B -> bool) (g : A -> B) (l : list A) :
  (forall x, In x l -> f x (g x) = true) -> forall2b f l (map g l) = true.
Proof.
  induction l as [|x l IH]; intros H; [reflexivity|]. cbn [map forall2b].
  rewrite H by (left; reflexivity). apply IH. intros y Hy. apply H. right. exact Hy.
Qed.

