(* C05 at the command level (Model/Cli.v): loading a permuted list of syntax-level directives,
   the check command. *)
From Coq Require Import ZArith List Bool Lia Permutation.
From Knut Require Import Model.Str Model.Dec Model.Date Model.Account Model.Ledger Model.Price Model.Journal
     Model.Check Model.Pipeline Model.Cli Spec.WellformedSpec Proofs.JournalFacts Proofs.BuilderProofs Proofs.CheckPerm
     Proofs.OrderProofs Proofs.OrderStages.
Import ListNotations.
Open Scope bool_scope.
Open Scope Z_scope.

(* two command results are equivalent: both fail, or both succeed with R-related values *)
Definition ceq {A} (R : A -> A -> Prop) (x y : cresult A) : Prop :=
  match x, y with
  | COk a, COk b => R a b
  | COk _, _ => False
  | _, COk _ => False
  | _, _ => True
  end.

Lemma ceq_bind {A B} (R : A -> A -> Prop) (Q : B -> B -> Prop) x y f g :
  ceq R x y -> (forall a b, R a b -> ceq Q (f a) (g b)) -> ceq Q (cbind x f) (cbind y g).
Proof. destruct x, y; cbn; try tauto. intros H Hf. apply Hf. exact H. Qed.

Lemma ceq_of_presult {A} (R : A -> A -> Prop) x y : req R x y -> ceq R (of_presult x) (of_presult y).
Proof. destruct x, y; cbn; tauto. Qed.

Lemma ceq_impl {A} (R Q : A -> A -> Prop) x y : (forall a b, R a b -> Q a b) -> ceq R x y -> ceq Q x y.
Proof. intros T. destruct x, y; cbn; auto. Qed.

Lemma ceq_eq_ok {A} (x y : cresult A) a : ceq eq x y -> (x = COk a <-> y = COk a).
Proof. destruct x, y; cbn; intros H; try contradiction; split; intros E; try discriminate; congruence. Qed.

(* what the parser guarantees for the accounts of a journal (Spec/WellformedSpec.v [syntactic]),
   stated for the syntax-level list as in Properties/C04.v *)
Definition sd_syntactic (sds : list sdirective) : Prop :=
  forall ds, parse_directives sds = MOk ds -> syntactic ds.

Lemma Forall2_and_l {A B} (R : A -> B -> Prop) (P : A -> Prop) l1 l2 :
  Forall2 R l1 l2 -> Forall P l1 -> Forall2 (fun a b => R a b /\ P a) l1 l2.
Proof.
  induction 1 as [|a b l1 l2 Hab Hl IH]; intros HF; [constructor|].
  inversion HF; subst. constructor; auto.
Qed.

Lemma builder_accs_ok ds : syntactic ds -> Forall day_accs_ok (b_days (builder_of ds)).
Proof.
  intros Hs. apply Forall_forall. intros x Hx t p Ht Hp.
  destruct (builder_canonical ds) as (_ & _ & _ & M). destruct (M x Hx) as (_ & _ & M2 & _).
  assert (Hin : In (DTxn t) ds).
  { assert (H : In (DTxn t) (map DTxn (d_txns x))) by (apply in_map; exact Ht).
    rewrite M2 in H. apply sel_in in H. tauto. }
  apply (Hs (DTxn t) (EPost (p_acc p) (p_com p) (p_qty p)) Hin).
  cbn [events_of]. apply (in_map (fun p => EPost (p_acc p) (p_com p) (p_qty p))). exact Hp.
Qed.

Definition builders_equiv (b1 b2 : builder) : Prop :=
  Forall2 DIok (b_days b1) (b_days b2) /\ b_min b1 = b_min b2 /\ b_max b1 = b_max b2.

Theorem load_perm sds1 sds2 :
  Permutation sds1 sds2 -> sd_syntactic sds1 -> ceq builders_equiv (load sds1) (load sds2).
Proof.
  intros P Hs. unfold load. pose proof (parse_directives_perm sds1 sds2 P) as H.
  specialize (Hs). unfold sd_syntactic in Hs.
  destruct (parse_directives sds1) as [ds1| |], (parse_directives sds2) as [ds2| |]; cbn in *; try tauto.
  destruct (build_perm ds1 ds2 H) as (H1 & H2 & H3). split; [|split; assumption].
  apply Forall2_and_l; [exact H1|]. apply builder_accs_ok. apply Hs. reflexivity.
Qed.

Lemma check_stage_cmd fb l1 l2 :
  (forall s a b s', fb s a b = ROk s' -> s' = s) ->
  (forall s s' a b, Rck s s' -> req Rck (fb s a b) (fb s' a b)) ->
  Forall2 DIok l1 l2 ->
  ceq (fun a b => snd a = l1 /\ snd b = l2) (run_stage (check_proc_with fb) check_init l1)
      (run_stage (check_proc_with fb) check_init l2).
Proof.
  intros H1 H2 HF. unfold run_stage. apply ceq_of_presult.
  eapply req_impl; [|apply (check_stage_rel fb H1 H2 check_init check_init l1 l2 (Rck_refl _) HF)].
  cbn beta. tauto.
Qed.

Lemma check_stage_current r l1 l2 :
  Forall2 DIok l1 l2 ->
  ceq (fun a b => snd a = l1 /\ snd b = l2) (run_stage (check_proc_current r) check_init l1)
      (run_stage (check_proc_current r) check_init l2).
Proof.
  intros HF. destruct r.
  - apply (check_stage_cmd ck_balance_fixed); [exact ck_balance_fixed_pure|exact ck_balance_fixed_resp|exact HF].
  - apply (check_stage_cmd (ck_balance_cb false)); [apply ck_balance_cb_pure|apply ck_balance_cb_resp|exact HF].
Qed.

Theorem check_cmd_perm lenient sds1 sds2 :
  Permutation sds1 sds2 -> sd_syntactic sds1 -> ceq eq (check_cmd lenient sds1) (check_cmd lenient sds2).
Proof.
  intros P Hs. unfold check_cmd. eapply ceq_bind; [apply load_perm; eassumption|].
  intros b1 b2 (HF & _ & _). eapply ceq_bind.
  - apply (check_stage_cmd (ck_balance_cb lenient)); [apply ck_balance_cb_pure|apply ck_balance_cb_resp|exact HF].
  - intros; cbn. reflexivity.
Qed.

Theorem check_cmd_fixed_perm sds1 sds2 :
  Permutation sds1 sds2 -> sd_syntactic sds1 -> ceq eq (check_cmd_fixed sds1) (check_cmd_fixed sds2).
Proof.
  intros P Hs. unfold check_cmd_fixed. eapply ceq_bind; [apply load_perm; eassumption|].
  intros b1 b2 (HF & _ & _). eapply ceq_bind.
  - apply (check_stage_cmd ck_balance_fixed); [exact ck_balance_fixed_pure|exact ck_balance_fixed_resp|exact HF].
  - intros; cbn. reflexivity.
Qed.

Theorem check_cmd_current_perm r sds1 sds2 :
  Permutation sds1 sds2 -> sd_syntactic sds1 -> ceq eq (check_cmd_current r sds1) (check_cmd_current r sds2).
Proof.
  intros P Hs. unfold check_cmd_current. eapply ceq_bind; [apply load_perm; eassumption|].
  intros b1 b2 (HF & _ & _). eapply ceq_bind; [apply check_stage_current; exact HF|].
  intros; cbn. reflexivity.
Qed.

(* the verdict, as an equivalence of acceptance *)
Theorem verdict_perm sds1 sds2 :
  Permutation sds1 sds2 -> sd_syntactic sds1 ->
  (forall l, check_cmd l sds1 = COk tt <-> check_cmd l sds2 = COk tt) /\
  (check_cmd_fixed sds1 = COk tt <-> check_cmd_fixed sds2 = COk tt) /\
  (forall r, check_cmd_current r sds1 = COk tt <-> check_cmd_current r sds2 = COk tt).
Proof.
  intros P Hs. split; [|split]; intros; apply ceq_eq_ok.
  - apply check_cmd_perm; assumption.
  - apply check_cmd_fixed_perm; assumption.
  - apply check_cmd_current_perm; assumption.
Qed.

From Knut Require Import Model.Report Proofs.OrderPipeline.

(* balanceRunner.execute up to the days that reach Query.Into: check, prices, valuate, filter,
   close -- the text of [Cli.balance_report] without its last stage *)
Definition balance_days (cfg : balance_cfg) (ds : list sdirective) : cresult (list day * partition) :=
  cbind (match bc_valuation cfg with
         | Some v => if valid_commodity v then COk tt else CErr k_valuation v
         | None => COk tt end) (fun _ =>
  cbind (load ds) (fun b =>
  cbind (cfg_partition cfg b) (fun part =>
  let b := if bc_close cfg then builder_touch b (start_dates part) else b in
  let days := b_days b in
  cbind (run_stage (check_proc_current (bc_lenient cfg)) check_init days) (fun r1 =>
  cbind (match bc_valuation cfg with
         | Some v =>
           cbind (run_stage (compute_prices_proc v) (mkCp [] None) (snd r1)) (fun r2 =>
           cbind (run_stage (valuate_proc v) (mkVal None None []) (snd r2)) (fun r3 => COk (snd r3)))
         | None => COk (snd r1)
         end) (fun days =>
  cbind (run_stage (filter_proc (span part)) tt days) (fun r4 =>
  cbind (if bc_close cfg
         then cbind (run_stage (close_proc (start_dates part)) (mkClose [] []) (snd r4)) (fun r5 => COk (snd r5))
         else COk (snd r4)) (fun days => COk (days, part)))))))).

Lemma balance_report_days cfg ds :
  balance_report cfg ds =
  cbind (balance_days cfg ds) (fun dp =>
  cbind (run_stage (query_proc (balance_query cfg (snd dp)) report_insert) new_report (fst dp)) (fun r6 =>
  COk (fst r6, snd dp))).
Proof.
  unfold balance_report, balance_days.
  destruct (match bc_valuation cfg with Some v => if valid_commodity v then COk tt else CErr k_valuation v | None => COk tt end);
    cbn [cbind]; try reflexivity.
  destruct (load ds) as [b| |]; cbn [cbind]; try reflexivity.
  destruct (cfg_partition cfg b) as [part| |]; cbn [cbind]; try reflexivity.
  cbv zeta.
  destruct (run_stage (check_proc_current (bc_lenient cfg)) check_init _) as [r1| |]; cbn [cbind]; try reflexivity.
  destruct (match bc_valuation cfg with Some v => _ | None => COk (snd r1) end) as [days| |]; cbn [cbind]; try reflexivity.
  destruct (run_stage (filter_proc (span part)) tt days) as [r4| |]; cbn [cbind]; try reflexivity.
  destruct (if bc_close cfg then _ else COk (snd r4)) as [days'| |]; cbn [cbind]; reflexivity.
Qed.

(* the property's exclusion, on the syntax-level list *)
Definition no_conflicting_prices (sds : list sdirective) : Prop :=
  forall d c p t c' p' t', In (SPrice d c p t) sds -> In (SPrice d c' p' t') sds ->
    same_pair (c, p, t) (c', p', t') -> (c, p, t) = (c', p', t').

Lemma parse_price_origin sds : forall ds d c p t,
  parse_directives sds = MOk ds -> In (DPrice d c p t) ds -> In (SPrice d c p t) sds.
Proof.
  induction sds as [|s sds IH]; intros ds d c p t H Hin; cbn [parse_directives] in H.
  - inversion H; subst. destruct Hin.
  - destruct (parse_directive s) as [o| |] eqn:Es; cbn [mbind] in H; try discriminate.
    destruct (parse_directives sds) as [o'| |] eqn:El; cbn [mbind] in H; try discriminate.
    inversion H; subst ds. apply in_app_or in Hin. destruct Hin as [Hin|Hin]; [|right; eapply IH; [reflexivity|exact Hin]].
    left. destruct s; cbn [parse_directive] in Es.
    + inversion Es; subst o. destruct Hin as [E|[]]. inversion E; subst. reflexivity.
    + destruct (check_account acc); cbn [mbind] in Es; try discriminate. inversion Es; subst o. destruct Hin as [E|[]]. discriminate.
    + destruct (check_account acc); cbn [mbind] in Es; try discriminate. inversion Es; subst o. destruct Hin as [E|[]]. discriminate.
    + destruct (check_balances bals); cbn [mbind] in Es; try discriminate. inversion Es; subst o. destruct Hin as [E|[]]. discriminate.
    + destruct (txn_create t0); cbn [mbind] in Es; try discriminate. inversion Es; subst o.
      apply in_map_iff in Hin. destruct Hin as [x [E _]]. discriminate.
    + inversion Es; subst o. destruct Hin.
Qed.

Lemma builder_prices_consistent sds ds :
  no_conflicting_prices sds -> parse_directives sds = MOk ds ->
  Forall (fun x => prices_consistent (d_prices x)) (b_days (builder_of ds)).
Proof.
  intros Hn Hp. apply Forall_forall. intros x Hx.
  destruct (builder_canonical ds) as (_ & _ & _ & M). destruct (M x Hx) as (M0 & _).
  assert (K : forall y, In y (d_prices x) -> In (SPrice (d_date x) (fst (fst y)) (snd (fst y)) (snd y)) sds).
  { intros y Hy. eapply parse_price_origin; [exact Hp|].
    assert (H : In (price_directive (d_date x) y) (map (price_directive (d_date x)) (d_prices x))) by (apply in_map; exact Hy).
    rewrite M0 in H. apply sel_in in H. apply H. }
  intros [[c p] t] [[c' p'] t'] H1 H2 Hs. apply (Hn (d_date x)); [apply (K _ H1)|apply (K _ H2)|exact Hs].
Qed.

(* Builder.Days only adds empty days *)
Lemma touch_all (P : day -> Prop) b dates :
  (forall dt, P (empty_day dt)) -> Forall P (b_days b) -> Forall P (b_days (builder_touch b dates)).
Proof.
  intros He. unfold builder_touch. cbn [b_days]. generalize (b_days b).
  induction dates as [|d dates IH]; intros l H; cbn [fold_left]; [exact H|].
  apply IH. apply Forall_forall. apply upd_day_all; [apply Forall_forall; exact H|auto|apply He].
Qed.

Lemma Forall2_DIok_split l1 l2 : Forall2 DIok l1 l2 -> Forall2 day_equiv l1 l2 /\ Forall day_accs_ok l1.
Proof. induction 1 as [|a b l1 l2 [H1 H2] Hl [IH1 IH2]]; split; constructor; assumption. Qed.

Lemma Forall2_DIok_join l1 l2 : Forall2 day_equiv l1 l2 -> Forall day_accs_ok l1 -> Forall2 DIok l1 l2.
Proof. intros H1 H2. apply Forall2_and_l; assumption. Qed.

Lemma cfg_partition_equiv cfg b1 b2 : b_min b1 = b_min b2 -> b_max b1 = b_max b2 -> cfg_partition cfg b1 = cfg_partition cfg b2.
Proof. intros H1 H2. unfold cfg_partition, builder_period. rewrite H1, H2. reflexivity. Qed.

(* the days that reach the report: same dates, same normalized prices, the transactions of each
   day (with their values, the value adjustments and the closing transactions) permuted *)
Theorem balance_days_perm cfg sds1 sds2 :
  Permutation sds1 sds2 -> sd_syntactic sds1 -> no_conflicting_prices sds1 ->
  ceq (fun a b => Forall2 DIok (fst a) (fst b) /\ snd a = snd b) (balance_days cfg sds1) (balance_days cfg sds2).
Proof.
  intros P Hs Hn. unfold balance_days.
  destruct (match bc_valuation cfg with Some v => if valid_commodity v then COk tt else CErr k_valuation v | None => COk tt end);
    cbn [cbind ceq]; try exact I.
  (* load, with the price condition *)
  assert (L : ceq (fun b1 b2 => builders_equiv b1 b2 /\ Forall (fun x => prices_consistent (d_prices x)) (b_days b1))
                  (load sds1) (load sds2)).
  { pose proof (load_perm sds1 sds2 P Hs) as H. unfold load in *.
    destruct (parse_directives sds1) as [ds1| |] eqn:E1, (parse_directives sds2) as [ds2| |]; cbn in *; try tauto.
    split; [exact H|]. eapply builder_prices_consistent; eassumption. }
  eapply ceq_bind; [exact L|]. intros b1 b2 [(HF & Hmin & Hmax) Hpc].
  rewrite (cfg_partition_equiv cfg b1 b2 Hmin Hmax).
  destruct (cfg_partition cfg b2) as [part| |]; cbn [cbind ceq]; try exact I. cbv zeta.
  set (c1 := if bc_close cfg then builder_touch b1 (start_dates part) else b1).
  set (c2 := if bc_close cfg then builder_touch b2 (start_dates part) else b2).
  assert (HF' : Forall2 DIok (b_days c1) (b_days c2)).
  { unfold c1, c2. destruct (bc_close cfg); [|exact HF].
    destruct (Forall2_DIok_split _ _ HF) as [A B].
    apply Forall2_DIok_join; [apply builder_touch_equiv; exact A|apply touch_all; [intros dt t p []|exact B]]. }
  assert (Hpc' : Forall (fun x => prices_consistent (d_prices x)) (b_days c1)).
  { unfold c1. destruct (bc_close cfg); [apply touch_all; [intros dt x y []|]|]; exact Hpc. }
  eapply ceq_bind; [apply check_stage_current; exact HF'|].
  intros [s1 r1] [s2 r2] [E1 E2]. cbn [fst snd] in *. subst r1 r2.
  eapply ceq_bind.
  { instantiate (1 := fun l1 l2 => Forall2 DIok l1 l2).
    destruct (bc_valuation cfg) as [v|]; [|exact HF'].
    eapply ceq_bind.
    - unfold run_stage. apply ceq_of_presult. apply cp_stage_rel. apply Forall2_and_l; assumption.
    - intros [u1 q1] [u2 q2] [_ Hq]. cbn [fst snd] in *.
      eapply ceq_bind.
      + unfold run_stage. apply ceq_of_presult. apply val_stage_rel; [intros k0 a0 c0 q0 []|exact Hq].
      + intros [w1 z1] [w2 z2] [_ Hz]. cbn [fst snd ceq] in *. exact Hz. }
  intros l1 l2 Hl. eapply ceq_bind.
  { unfold run_stage. apply ceq_of_presult. apply filter_stage_rel. exact Hl. }
  intros [u1 q1] [u2 q2] [_ Hq]. cbn [fst snd] in *.
  eapply ceq_bind.
  { instantiate (1 := fun l1 l2 => Forall2 DIok l1 l2).
    destruct (bc_close cfg); [|exact Hq].
    eapply ceq_bind.
    - unfold run_stage. apply ceq_of_presult. apply close_stage_rel; [intros k0 a0 c0 q0 []|exact Hq].
    - intros [w1 z1] [w2 z2] [_ Hz]. cbn [fst snd ceq] in *. exact Hz. }
  intros m1 m2 Hm. cbn [ceq fst snd]. split; [exact Hm|reflexivity].
Qed.

From Knut Require Import Model.JPrinter Proofs.StrProofs.

Lemma sort_days_equiv l1 l2 : Forall2 day_equiv l1 l2 -> Forall2 day_equiv (sort_days l1) (sort_days l2).
Proof.
  unfold sort_days. induction 1 as [|x y l1 l2 Hxy Hl IH]; cbn [map]; constructor; [|exact IH].
  apply set_txns_equiv; [exact Hxy|].
  eapply Permutation_trans; [apply sort_by_perm|].
  eapply Permutation_trans; [apply Hxy|]. apply Permutation_sym. apply sort_by_perm.
Qed.

(* both fail, or both print: the texts are journal.Print of day lists that agree in their dates
   and, per day and kind, in the multiset of directives -- before and after journal.Print has
   sorted each day's transactions *)
Definition print_equiv (o1 o2 : str) : Prop :=
  exists days1 days2,
    o1 = print_journal days1 /\ o2 = print_journal days2 /\
    Forall2 day_equiv days1 days2 /\ Forall2 day_equiv (sort_days days1) (sort_days days2).

From Knut Require Import Proofs.OrderReport.

Lemma Forall2_DIok_equiv l1 l2 : Forall2 DIok l1 l2 -> Forall2 day_equiv l1 l2.
Proof. intros H. apply Forall2_DIok_split in H. apply H. Qed.

(* both runs fail, or they produce the same partition and report trees that are equal up to
   the order of each node's amounts list ([OrderReport.report_eq]: same tree shape, same
   segments, paths and flags; per node the same bindings (date, commodity) -> amount) *)
Theorem balance_report_perm cfg sds1 sds2 :
  Permutation sds1 sds2 -> sd_syntactic sds1 -> no_conflicting_prices sds1 ->
  ceq (fun a b => report_eq (fst a) (fst b) /\ snd a = snd b) (balance_report cfg sds1) (balance_report cfg sds2).
Proof.
  intros P Hs Hn. rewrite !balance_report_days.
  eapply ceq_bind; [apply balance_days_perm; eassumption|].
  intros [l1 pt1] [l2 pt2] [HF E]. cbn [fst snd] in *. subst pt2.
  eapply ceq_bind.
  - unfold run_stage. apply ceq_of_presult. apply query_stage_rel. apply Forall2_DIok_equiv. exact HF.
  - intros [r1 x1] [r2 x2] H. cbn [ceq fst snd] in *. split; [exact H|reflexivity].
Qed.
