(* C05: the stages of `knut balance` after the checker -- ComputePrices, Valuate, Filter,
   CloseAccounts -- map equivalent day lists to equivalent day lists (or fail on both).
   States are sorted maps, so "the same state" is Leibniz equality; the transactions a stage
   appends (value adjustments, closings) are functions of such a map and of the date. *)
From Coq Require Import ZArith List Bool Lia Permutation.
From Knut Require Import Model.Str Model.Dec Model.Date Model.Account Model.Ledger Model.Price Model.Journal
     Model.Check Model.Pipeline Spec.WellformedSpec Proofs.DecProofs Proofs.CheckLemmas Proofs.CheckProofs
     Proofs.CheckPerm Proofs.OrderSMap Proofs.JournalFacts Proofs.OrderProofs Proofs.OrderStages.
Import ListNotations.
Open Scope bool_scope.
Open Scope Z_scope.

Ltac proc_fields :=
  cbn [compute_prices_proc valuate_proc filter_proc close_proc query_proc
       pr_day_start pr_price pr_open pr_txn pr_posting pr_balance pr_close pr_day_end].

(* the property's exclusion: two price declarations of one day for the same (unordered)
   commodity pair are the same declaration *)
Definition same_pair (x y : commodity * dec * commodity) : Prop :=
  let '(c, _, t) := x in let '(c', _, t') := y in (c = c' /\ t = t') \/ (c = t' /\ t = c').

Definition prices_consistent (l : list (commodity * dec * commodity)) : Prop :=
  forall x y, In x l -> In y l -> same_pair x y -> x = y.

Lemma add_price_comm ps t1 c1 p1 t2 c2 p2 :
  (t1 <> t2 \/ c1 <> c2) ->
  add_price (add_price ps t1 c1 p1) t2 c2 p2 = add_price (add_price ps t2 c2 p2) t1 c1 p1.
Proof.
  intros H. unfold add_price. destruct (SMapProofs.str_eq_dec t1 t2) as [E|N].
  - subst t2. destruct H as [H|H]; [contradiction|].
    rewrite !SMapProofs.sm_get_put_same, !sm_put_put_same. f_equal. apply sm_put_comm. exact H.
  - rewrite (SMapProofs.sm_get_put_other ps t1 _ t2) by congruence.
    rewrite (SMapProofs.sm_get_put_other ps t2 _ t1) by congruence.
    apply sm_put_comm. exact N.
Qed.

(* Prices.Insert: whether it fails depends on the price alone *)
Definition price_pre (p : dec) : presult dec :=
  if is_zero p then RErr k_price_zero [] else match div one p with DPanic => RPanic k_price_zero | DOk inv => ROk (truncate inv 8) end.

Definition price_upd (ps : prices) (x : commodity * dec * commodity) (inv : dec) : prices :=
  let '(c, p, t) := x in add_price (add_price ps t c p) c t inv.

Lemma cp_price_cb_eq s x :
  cp_price_cb s x =
  match price_pre (snd (fst x)) with
  | ROk inv => ROk (mkCp (price_upd (cp_prices s) x inv) (cp_previous s))
  | RErr k _ => RErr k (fst (fst x))
  | RPanic m => RPanic m
  end.
Proof.
  destruct x as [[c p] t]. unfold cp_price_cb, prices_insert, price_pre, price_upd. cbn [fst snd].
  destruct (is_zero p); [reflexivity|]. destruct (div one p); reflexivity.
Qed.

Lemma price_upd_comm ps x y ix iy :
  ~ same_pair x y -> price_upd (price_upd ps x ix) y iy = price_upd (price_upd ps y iy) x ix.
Proof.
  destruct x as [[c p] t], y as [[c' p'] t']. unfold same_pair, price_upd. intros H.
  assert (H1 : t <> t' \/ c <> c').
  { destruct (SMapProofs.str_eq_dec t t'); [|tauto]. destruct (SMapProofs.str_eq_dec c c'); [|tauto]. exfalso. apply H. tauto. }
  assert (H2 : t <> c' \/ c <> t').
  { destruct (SMapProofs.str_eq_dec t c'); [|tauto]. destruct (SMapProofs.str_eq_dec c t'); [|tauto]. exfalso. apply H. tauto. }
  assert (H3 : c <> t' \/ t <> c') by tauto.
  assert (H4 : c <> c' \/ t <> t') by tauto.
  (* x writes (t,c) then (c,t); y writes (t',c') then (c',t') *)
  rewrite (add_price_comm (add_price ps t c p) c t ix t' c' p') by exact H3.
  rewrite (add_price_comm ps t c p t' c' p') by exact H1.
  rewrite (add_price_comm (add_price (add_price ps t' c' p') t c p) c t ix c' t' iy) by exact H4.
  rewrite (add_price_comm (add_price ps t' c' p') t c p c' t' iy) by exact H2.
  reflexivity.
Qed.

Lemma cp_price_comm s x y :
  (same_pair x y -> x = y) ->
  req eq (rbind (cp_price_cb s x) (fun s1 => cp_price_cb s1 y)) (rbind (cp_price_cb s y) (fun s1 => cp_price_cb s1 x)).
Proof.
  intros H. rewrite (cp_price_cb_eq s x), (cp_price_cb_eq s y).
  destruct (price_pre (snd (fst x))) as [ix| |] eqn:Ex, (price_pre (snd (fst y))) as [iy| |] eqn:Ey; cbn [rbind];
    rewrite ?cp_price_cb_eq, ?Ex, ?Ey; cbn [req cp_prices cp_previous]; try exact I.
  f_equal.
  assert (D : x = y \/ ~ same_pair x y).
  { destruct x as [[c p] t], y as [[c' p'] t']. unfold same_pair in *.
    destruct (SMapProofs.str_eq_dec c c'), (SMapProofs.str_eq_dec t t'), (SMapProofs.str_eq_dec c t'), (SMapProofs.str_eq_dec t c');
      try (left; apply H; tauto); right; tauto. }
  destruct D as [->|D]; [congruence|]. apply price_upd_comm. exact D.
Qed.

Lemma prices_consistent_perm l1 l2 : Permutation l1 l2 -> prices_consistent l1 -> prices_consistent l2.
Proof.
  intros P H x y Hx Hy. apply H; eapply Permutation_in; try (apply Permutation_sym; eassumption); assumption.
Qed.

Definition DIcp (d1 d2 : day) : Prop := DIok d1 d2 /\ prices_consistent (d_prices d1).

Lemma set_normalized_equiv d1 d2 n : day_equiv d1 d2 -> day_equiv (set_normalized d1 n) (set_normalized d2 n).
Proof. intros (E0 & E1 & E2 & E3 & E4 & E5 & E6). repeat split; assumption. Qed.

Lemma set_txns_equiv d1 d2 t1 t2 : day_equiv d1 d2 -> Permutation t1 t2 -> day_equiv (set_txns d1 t1) (set_txns d2 t2).
Proof. intros (E0 & E1 & E2 & E3 & E4 & E5 & E6) P. repeat split; assumption. Qed.

Lemma cp_day_rel v s1 s2 d1 d2 :
  s1 = s2 -> DIcp d1 d2 ->
  req (fun a b => fst a = fst b /\ DIok (snd a) (snd b))
      (process_day (compute_prices_proc v) s1 d1) (process_day (compute_prices_proc v) s2 d2).
Proof.
  intros <- [[De Hok] Hc]. pose proof De as (E0 & E1 & E2 & E3 & E4 & E5 & E6).
  unfold process_day. proc_fields. cbn [rbind fst snd].
  eapply req_bind.
  { apply (fold_res_perm eq cp_price_cb (fun x => In x (d_prices d1))).
    - intros; congruence.
    - intros s s' a _ <-. apply req_refl. reflexivity.
    - intros s a b Ha Hb _. apply cp_price_comm. apply Hc; assumption.
    - exact E1.
    - apply Forall_forall. auto.
    - reflexivity.
    - reflexivity. }
  intros a1 a2 <-. rewrite !fold_txns_none by reflexivity. cbn [rbind fst snd].
  rewrite !fold_asserts_none by reflexivity. cbn [rbind]. rewrite !day_rebuild.
  unfold cp_day_end.
  destruct (d_prices d1) as [|x1 r1] eqn:P1, (d_prices d2) as [|x2 r2] eqn:P2.
  - cbn [req fst snd]. split; [reflexivity|]. split; [apply set_normalized_equiv; exact De|exact Hok].
  - apply Permutation_nil in E1. discriminate.
  - apply Permutation_sym, Permutation_nil in E1. discriminate.
  - destruct (normalize (cp_prices a1) v); cbn [req fst snd]; [|exact I].
    split; [reflexivity|]. split; [apply set_normalized_equiv; exact De|exact Hok].
Qed.

Theorem cp_stage_rel v s l1 l2 :
  Forall2 DIcp l1 l2 ->
  req (fun a b => fst a = fst b /\ Forall2 DIok (snd a) (snd b))
      (process_days (compute_prices_proc v) s l1) (process_days (compute_prices_proc v) s l2).
Proof.
  intros HF. apply (process_days_rel (compute_prices_proc v) eq DIcp DIok); [|exact HF|reflexivity].
  intros; apply cp_day_rel; assumption.
Qed.

Definition pos_accs_ok (m : positions) : Prop := forall k a c q, In (k, (a, c, q)) m -> account_ok a = true.

Lemma pos_add_accs_ok m a c q : account_ok a = true -> pos_accs_ok m -> pos_accs_ok (pos_add m a c q).
Proof.
  intros Ha Hm k a' c' q' Hin. unfold pos_add in Hin. apply sm_put_in in Hin. destruct Hin as [E|Hin].
  - inversion E; subst. exact Ha.
  - eapply Hm; eassumption.
Qed.

Definition val_check (v : commodity) (cur : option nprices) (p : posting) : presult dec :=
  if is_zero (p_qty p) then ROk (p_val p)
  else if str_eqb v (p_com p) then ROk (p_qty p)
  else match cur with
       | None => RErr k_no_price (p_com p)
       | Some n => match np_valuate n (p_com p) (p_qty p) with None => RErr k_no_price (p_com p) | Some x => ROk x end
       end.

Definition val_upd (s : val_state) (p : posting) : val_state :=
  if is_zero (p_qty p) then s
  else if is_AL (p_acc p) then mkVal (v_prev s) (v_cur s) (pos_add (v_qty s) (p_acc p) (p_com p) (p_qty p)) else s.

Definition set_val (p : posting) (x : dec) : posting := mkPosting (p_acc p) (p_other p) (p_com p) (p_qty p) x.

Definition val_g (v : commodity) (cur : option nprices) (p : posting) : posting :=
  match val_check v cur p with ROk x => set_val p x | _ => p end.

Lemma val_posting_eq v s t p :
  val_posting v s t p =
  match val_check v (v_cur s) p with
  | ROk x => ROk (val_upd s p, set_val p x)
  | RErr k d => RErr k d
  | RPanic m => RPanic m
  end.
Proof.
  unfold val_posting, val_check, val_upd, set_val. destruct (is_zero (p_qty p)); [destruct p; reflexivity|].
  destruct (str_eqb v (p_com p)); [reflexivity|].
  destruct (v_cur s) as [n|]; [|reflexivity]. destruct (np_valuate n (p_com p) (p_qty p)); reflexivity.
Qed.

Lemma val_upd_cur s p : v_cur (val_upd s p) = v_cur s.
Proof. unfold val_upd. destruct (is_zero (p_qty p)); [reflexivity|]. destruct (is_AL (p_acc p)); reflexivity. Qed.

Lemma val_pstep_eq v s tp :
  pstep (val_posting v) s tp =
  match val_check v (v_cur s) (snd tp) with
  | ROk _ => ROk (val_upd s (snd tp))
  | RErr k d => RErr k d
  | RPanic m => RPanic m
  end.
Proof. unfold pstep. rewrite val_posting_eq. destruct (val_check v (v_cur s) (snd tp)); reflexivity. Qed.

Definition Rval (s s' : val_state) : Prop := s = s' /\ pos_accs_ok (v_qty s).

Lemma val_upd_accs s p : account_ok (p_acc p) = true -> pos_accs_ok (v_qty s) -> pos_accs_ok (v_qty (val_upd s p)).
Proof.
  intros Ha Hs. unfold val_upd. destruct (is_zero (p_qty p)); [exact Hs|].
  destruct (is_AL (p_acc p)); [|exact Hs]. cbn [v_qty]. apply pos_add_accs_ok; assumption.
Qed.

Lemma val_upd_comm s x y :
  account_ok (p_acc x) = true -> account_ok (p_acc y) = true ->
  val_upd (val_upd s x) y = val_upd (val_upd s y) x.
Proof.
  intros Hx Hy. unfold val_upd.
  destruct (is_zero (p_qty x)), (is_zero (p_qty y)); try reflexivity;
    destruct (is_AL (p_acc x)), (is_AL (p_acc y)); try reflexivity.
  cbn [v_prev v_cur v_qty]. f_equal. apply pos_add_comm; assumption.
Qed.

Lemma val_pstep_resp v s s' tp :
  account_ok (p_acc (snd tp)) = true -> Rval s s' -> req Rval (pstep (val_posting v) s tp) (pstep (val_posting v) s' tp).
Proof.
  intros Ha [<- Hs]. rewrite val_pstep_eq. destruct (val_check v (v_cur s) (snd tp)); cbn [req]; try exact I.
  split; [reflexivity|apply val_upd_accs; assumption].
Qed.

Lemma val_pstep_comm v s x y :
  account_ok (p_acc (snd x)) = true -> account_ok (p_acc (snd y)) = true -> Rval s s ->
  req Rval (rbind (pstep (val_posting v) s x) (fun s1 => pstep (val_posting v) s1 y))
           (rbind (pstep (val_posting v) s y) (fun s1 => pstep (val_posting v) s1 x)).
Proof.
  intros Hx Hy [_ Hs]. rewrite !val_pstep_eq.
  destruct (val_check v (v_cur s) (snd x)) eqn:Ex, (val_check v (v_cur s) (snd y)) eqn:Ey; cbn [rbind];
    rewrite ?val_pstep_eq, ?val_upd_cur, ?Ex, ?Ey; cbn [req]; try exact I.
  split; [apply val_upd_comm; assumption|]. apply val_upd_accs; [assumption|]. apply val_upd_accs; assumption.
Qed.

Lemma val_g_acc v cur p : p_acc (val_g v cur p) = p_acc p.
Proof. unfold val_g. destruct (val_check v cur p); reflexivity. Qed.

Lemma txn_map_accs_ok g ts : (forall p, p_acc (g p) = p_acc p) -> txns_accs_ok ts -> txns_accs_ok (map (txn_map g) ts).
Proof.
  intros Hg H t p Ht Hp. apply in_map_iff in Ht. destruct Ht as [t0 [<- Ht0]].
  cbn [txn_map t_postings] in Hp. apply in_map_iff in Hp. destruct Hp as [p0 [<- Hp0]].
  rewrite Hg. eapply H; eassumption.
Qed.

Lemma val_txns_rel v cur s1 s2 ts1 ts2 :
  Rval s1 s2 -> v_cur s1 = cur -> Permutation ts1 ts2 -> txns_accs_ok ts1 ->
  req (fun a b => Rval (fst a) (fst b) /\ snd a = map (txn_map (val_g v cur)) ts1 /\ snd b = map (txn_map (val_g v cur)) ts2)
      (fold_txns (valuate_proc v) s1 ts1) (fold_txns (valuate_proc v) s2 ts2).
Proof.
  intros Hs Hc P Hok. pose proof Hs as [<- Hs'].
  apply (fold_txns_perm (valuate_proc v) (val_posting v) Rval (fun s => v_cur s = cur) (val_g v cur)
                        (fun tp => account_ok (p_acc (snd tp)) = true) eq_refl eq_refl);
    auto using val_pstep_resp, val_pstep_comm, items_accs_ok.
  - intros a b c [-> Ha] [-> Hb]. split; [reflexivity|assumption].
  - intros s t x s0 x' Hcur H. rewrite val_posting_eq, Hcur in H. unfold val_g.
    destruct (val_check v cur x); inversion H; subst. split; [reflexivity|]. rewrite val_upd_cur. exact Hcur.
Qed.

Lemma val_adjustments_accs v date prev cur pos ts :
  pos_accs_ok pos -> val_adjustments v date prev cur pos = ROk ts -> txns_accs_ok ts.
Proof.
  revert ts. induction pos as [|[k [[a c] q]] rest IH]; intros ts Hp H; cbn [val_adjustments] in H.
  - inversion H. intros t p [].
  - assert (Hr : pos_accs_ok rest) by (intros k' a' c' q' Hin; eapply Hp; right; exact Hin).
    assert (Ha : account_ok a = true) by (eapply Hp; left; reflexivity).
    destruct (str_eqb c v || negb (is_AL a) || is_zero q); [apply IH; assumption|].
    destruct (np_price_opt prev c); try discriminate.
    destruct (np_price_opt cur c); try discriminate.
    destruct (is_zero (sub d0 d)); [apply IH; assumption|].
    destruct (val_adjustments v date prev cur rest) as [ts'| |]; try discriminate. cbn [rbind] in H.
    inversion H. subst ts. intros t p [<-|Ht] Hpp.
    + cbn [t_postings] in Hpp. apply pair_build_accs in Hpp. destruct Hpp as [->| ->]; [apply account_ok_valuation|]; exact Ha.
    + eapply (IH ts' Hr eq_refl); eassumption.
Qed.

Definition DOval (d1 d2 : day) : Prop := DIok d1 d2.

Lemma val_day_rel v s1 s2 d1 d2 :
  Rval s1 s2 -> DIok d1 d2 ->
  req (fun a b => Rval (fst a) (fst b) /\ DIok (snd a) (snd b))
      (process_day (valuate_proc v) s1 d1) (process_day (valuate_proc v) s2 d2).
Proof.
  intros Hs [De Hok]. pose proof Hs as [<- Hs']. pose proof De as (E0 & E1 & E2 & E3 & E4 & E5 & E6).
  unfold process_day. proc_fields. unfold val_day_start. rewrite <- E0, <- E6.
  destruct (val_adjustments v (d_date d1) (v_prev s1) (d_normalized d1) (v_qty s1)) as [ts| |] eqn:Ea; cbn [rbind req]; try exact I.
  cbn [fst snd set_txns d_txns d_date d_prices d_opens d_asserts d_closes d_normalized].
  set (cur := d_normalized d1).
  pose proof (val_adjustments_accs _ _ _ _ _ _ Hs' Ea) as Hts.
  eapply req_bind.
  { apply (val_txns_rel v cur (mkVal (v_prev s1) cur (v_qty s1)) (mkVal (v_prev s1) cur (v_qty s1))
                        (d_txns d1 ++ ts) (d_txns d2 ++ ts)).
    - split; [reflexivity|exact Hs'].
    - reflexivity.
    - apply Permutation_app_tail. exact E3.
    - apply txns_accs_ok_app; assumption. }
  intros [a1 t1] [a2 t2] (Ha & Ht1 & Ht2). cbn [fst snd] in *. subst t1 t2.
  rewrite !fold_asserts_none by reflexivity. cbn [rbind]. unfold val_day_end. cbn [req fst snd d_normalized].
  destruct Ha as [<- Ha]. unfold cur. rewrite <- ?E6. split; [split; [reflexivity|exact Ha]|].
  split.
  - repeat split; cbn [d_date d_prices d_opens d_txns d_asserts d_closes d_normalized]; try assumption.
    apply Permutation_map. apply Permutation_app_tail. exact E3.
  - unfold day_accs_ok. cbn [d_txns]. apply txn_map_accs_ok; [apply val_g_acc|].
    apply txns_accs_ok_app; assumption.
Qed.

Theorem val_stage_rel v s l1 l2 :
  pos_accs_ok (v_qty s) -> Forall2 DIok l1 l2 ->
  req (fun a b => Rval (fst a) (fst b) /\ Forall2 DIok (snd a) (snd b))
      (process_days (valuate_proc v) s l1) (process_days (valuate_proc v) s l2).
Proof.
  intros Hs HF. apply (process_days_rel (valuate_proc v) Rval DIok DIok); [|exact HF|split; [reflexivity|exact Hs]].
  intros; apply val_day_rel; assumption.
Qed.

Lemma filter_day_rel span (s1 s2 : unit) d1 d2 :
  s1 = s2 -> DIok d1 d2 ->
  req (fun a b => fst a = fst b /\ DIok (snd a) (snd b))
      (process_day (filter_proc span) s1 d1) (process_day (filter_proc span) s2 d2).
Proof.
  intros <- [De Hok]. pose proof De as (E0 & _).
  unfold process_day. proc_fields. cbn [rbind fst snd].
  rewrite !fold_txns_none by reflexivity. cbn [rbind fst snd].
  rewrite !fold_asserts_none by reflexivity. cbn [rbind]. rewrite !day_rebuild, <- E0.
  cbn [req fst snd]. split; [reflexivity|].
  destruct (period_contains span (d_date d1)).
  - split; assumption.
  - split; [apply set_txns_equiv; [exact De|constructor]|]. intros t p [].
Qed.

Theorem filter_stage_rel span s l1 l2 :
  Forall2 DIok l1 l2 ->
  req (fun a b => fst a = fst b /\ Forall2 DIok (snd a) (snd b))
      (process_days (filter_proc span) s l1) (process_days (filter_proc span) s l2).
Proof.
  intros HF. apply (process_days_rel (filter_proc span) eq DIok DIok); [|exact HF|reflexivity].
  intros; apply filter_day_rel; assumption.
Qed.

Definition close_upd (s : close_state) (p : posting) : close_state :=
  if is_AL (p_acc p) || acc_eqb (p_acc p) equity_account then s
  else mkClose (pos_add (c_qty s) (p_acc p) (p_com p) (p_qty p)) (pos_add (c_val s) (p_acc p) (p_com p) (p_val p)).

Lemma close_posting_eq s t p : close_posting s t p = ROk (close_upd s p, p).
Proof. unfold close_posting, close_upd. destruct (is_AL (p_acc p) || acc_eqb (p_acc p) equity_account); reflexivity. Qed.

Lemma close_pstep_eq s tp : pstep close_posting s tp = ROk (close_upd s (snd tp)).
Proof. unfold pstep. rewrite close_posting_eq. reflexivity. Qed.

Definition Rclose (s s' : close_state) : Prop := s = s' /\ pos_accs_ok (c_qty s).

Lemma close_upd_accs s p : account_ok (p_acc p) = true -> pos_accs_ok (c_qty s) -> pos_accs_ok (c_qty (close_upd s p)).
Proof.
  intros Ha Hs. unfold close_upd. destruct (is_AL (p_acc p) || acc_eqb (p_acc p) equity_account); [exact Hs|].
  cbn [c_qty]. apply pos_add_accs_ok; assumption.
Qed.

Lemma close_upd_comm s x y :
  account_ok (p_acc x) = true -> account_ok (p_acc y) = true ->
  close_upd (close_upd s x) y = close_upd (close_upd s y) x.
Proof.
  intros Hx Hy. unfold close_upd.
  destruct (is_AL (p_acc x) || acc_eqb (p_acc x) equity_account), (is_AL (p_acc y) || acc_eqb (p_acc y) equity_account);
    try reflexivity.
  cbn [c_qty c_val]. f_equal; apply pos_add_comm; assumption.
Qed.

Lemma close_txns_rel cds s1 s2 ts1 ts2 :
  Rclose s1 s2 -> Permutation ts1 ts2 -> txns_accs_ok ts1 ->
  req (fun a b => Rclose (fst a) (fst b) /\ snd a = ts1 /\ snd b = ts2)
      (fold_txns (close_proc cds) s1 ts1) (fold_txns (close_proc cds) s2 ts2).
Proof.
  intros Hs P Hok. pose proof Hs as [<- Hs'].
  apply (fold_txns_perm_id (close_proc cds) close_posting Rclose (fun tp => account_ok (p_acc (snd tp)) = true)
                           eq_refl eq_refl);
    auto using items_accs_ok.
  - intros a b c [-> Ha] [-> Hb]. split; [reflexivity|assumption].
  - intros s t x s' x'. rewrite close_posting_eq. intros [= _ <-]. reflexivity.
  - intros s s' a Ha [<- Hq]. rewrite close_pstep_eq. cbn [req]. split; [reflexivity|apply close_upd_accs; assumption].
  - intros s a b Ha Hb [_ Hq]. rewrite !close_pstep_eq. cbn [rbind]. rewrite !close_pstep_eq. cbn [req].
    split; [apply close_upd_comm; assumption|]. apply close_upd_accs; [assumption|]. apply close_upd_accs; assumption.
Qed.

Lemma closing_txns_accs date qs vs : pos_accs_ok qs -> txns_accs_ok (closing_txns date qs vs).
Proof.
  induction qs as [|[k [[a c] q]] rest IH]; intros Hp; cbn [closing_txns]; [intros t p []|].
  assert (Hr : pos_accs_ok rest) by (intros k' a' c' q' Hin; eapply Hp; right; exact Hin).
  assert (Ha : account_ok a = true) by (eapply Hp; left; reflexivity).
  destruct (is_zero q && is_zero _); [apply IH; exact Hr|].
  intros t p [<-|Ht] Hpp.
  - cbn [t_postings] in Hpp. apply pair_build_accs in Hpp. destruct Hpp as [->| ->]; [exact Ha|apply account_ok_equity].
  - eapply (IH Hr); eassumption.
Qed.

Lemma close_day_start_eq cds s d :
  close_day_start cds s d =
  ROk (s, if existsb (Z.eqb (d_date d)) cds
          then set_txns d (d_txns d ++ closing_txns (d_date d) (c_qty s) (c_val s)) else d).
Proof. unfold close_day_start. destruct (existsb _ cds); reflexivity. Qed.

Lemma close_day_rel cds s1 s2 d1 d2 :
  Rclose s1 s2 -> DIok d1 d2 ->
  req (fun a b => Rclose (fst a) (fst b) /\ DIok (snd a) (snd b))
      (process_day (close_proc cds) s1 d1) (process_day (close_proc cds) s2 d2).
Proof.
  intros Hs [De Hok]. pose proof Hs as [<- Hs']. pose proof De as (E0 & _ & _ & E3 & _).
  unfold process_day. proc_fields. rewrite !close_day_start_eq, <- E0.
  set (x1 := if existsb (Z.eqb (d_date d1)) cds then _ else d1).
  set (x2 := if existsb (Z.eqb (d_date d1)) cds then _ else d2).
  assert (Dx : DIok x1 x2).
  { subst x1 x2. destruct (existsb (Z.eqb (d_date d1)) cds); [|split; assumption]. split.
    - apply set_txns_equiv; [exact De|]. apply Permutation_app_tail. exact E3.
    - unfold day_accs_ok. cbn [set_txns d_txns]. apply txns_accs_ok_app; [exact Hok|].
      apply closing_txns_accs. exact Hs'. }
  clearbody x1 x2. destruct Dx as [Dx Hx]. pose proof Dx as (_ & _ & _ & F3 & _). cbn [rbind fst snd].
  eapply req_bind; [apply close_txns_rel; [exact Hs|exact F3|exact Hx]|].
  intros [a1 t1] [a2 t2] (Ha & -> & ->). cbn [fst snd].
  rewrite !fold_asserts_none by reflexivity. cbn [rbind req fst snd]. split; [exact Ha|].
  rewrite !day_rebuild. split; assumption.
Qed.

Theorem close_stage_rel cds s l1 l2 :
  pos_accs_ok (c_qty s) -> Forall2 DIok l1 l2 ->
  req (fun a b => Rclose (fst a) (fst b) /\ Forall2 DIok (snd a) (snd b))
      (process_days (close_proc cds) s l1) (process_days (close_proc cds) s l2).
Proof.
  intros Hs HF. apply (process_days_rel (close_proc cds) Rclose DIok DIok); [|exact HF|split; [reflexivity|exact Hs]].
  intros; apply close_day_rel; assumption.
Qed.
