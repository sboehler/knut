(* C05  Directive order does not matter: the generic part, the builder, lib/model's
   ParseDirective over a permuted list.

   - [req R x y]: two processor results are equivalent: both fail (with whatever error), or both
     succeed with R-related values.  The error itself is NOT invariant under reordering: the
     checker reports the first offender in arrival order (witness in Properties/C05.v).
   - [fold_res_perm]: a monadic fold whose steps commute pairwise up to [req R] gives equivalent
     results on permuted lists.
   - [build_perm]: permuted directive lists give builders with the same period and the same
     days, each day's five lists being permutations of each other ([day_equiv]).
   - [parse_directives_perm]: ParseDirective works directive by directive, so a permuted
     syntax-level list gives a permuted model-level list (or both fail). *)
From Coq Require Import ZArith List Bool Lia Permutation Sorting.Sorted.
From Knut Require Import Proofs.ListFacts Model.Str Model.Dec Model.Date Model.Account Model.Ledger Model.Price Model.Journal
     Spec.WellformedSpec Proofs.BuilderProofs Proofs.CheckPerm.
Import ListNotations.
Open Scope bool_scope.
Open Scope Z_scope.

Definition req {A} (R : A -> A -> Prop) (x y : presult A) : Prop :=
  match x, y with
  | ROk a, ROk b => R a b
  | ROk _, _ => False
  | _, ROk _ => False
  | _, _ => True
  end.

Lemma req_trans {A} (R : A -> A -> Prop) :
  (forall a b c, R a b -> R b c -> R a c) -> forall x y z, req R x y -> req R y z -> req R x z.
Proof. intros T [a| |] [b| |] [c| |]; cbn; try tauto; eauto. Qed.

Lemma req_sym {A} (R : A -> A -> Prop) :
  (forall a b, R a b -> R b a) -> forall x y, req R x y -> req R y x.
Proof. intros T [a| |] [b| |]; cbn; try tauto; eauto. Qed.

Lemma req_refl {A} (R : A -> A -> Prop) : (forall a, R a a) -> forall x, req R x x.
Proof. intros T [a| |]; cbn; auto. Qed.

Lemma req_impl {A} (R Q : A -> A -> Prop) x y : (forall a b, R a b -> Q a b) -> req R x y -> req Q x y.
Proof. intros T. destruct x, y; cbn; auto. Qed.

Lemma req_bind {A B} (R : A -> A -> Prop) (Q : B -> B -> Prop) x y f g :
  req R x y -> (forall a b, R a b -> req Q (f a) (g b)) -> req Q (rbind x f) (rbind y g).
Proof. destruct x, y; cbn; try tauto. intros H Hf. apply Hf. exact H. Qed.

Lemma req_ok_l {A} (R : A -> A -> Prop) x y a : req R x y -> x = ROk a -> exists b, y = ROk b /\ R a b.
Proof. intros H ->. destruct y; cbn in H; try contradiction. eauto. Qed.

Section FoldPerm.
  Context {S A : Type} (R : S -> S -> Prop) (f : S -> A -> presult S) (P : A -> Prop).
  Hypothesis R_trans : forall a b c, R a b -> R b c -> R a c.
  (* the step respects the state relation *)
  Hypothesis f_resp : forall s s' a, P a -> R s s' -> req R (f s a) (f s' a).
  (* two steps commute *)
  Hypothesis f_comm : forall s a b, P a -> P b -> R s s ->
    req R (rbind (f s a) (fun s1 => f s1 b)) (rbind (f s b) (fun s1 => f s1 a)).

  Lemma fold_res_resp l : Forall P l -> forall s s', R s s' -> req R (fold_res f s l) (fold_res f s' l).
  Proof.
    induction 1 as [|x l Hx Hl IH]; intros s s' H; cbn [fold_res]; [exact H|].
    apply (req_bind R R); [apply f_resp; assumption|exact IH].
  Qed.

  Lemma fold_res_perm l1 l2 :
    Permutation l1 l2 -> Forall P l1 -> forall s s', R s s -> R s s' -> req R (fold_res f s l1) (fold_res f s' l2).
  Proof.
    induction 1 as [|x l l' HP IH|x y l|l l' l'' HP1 IH1 HP2 IH2]; intros HF s s' Hs H.
    - exact H.
    - inversion HF as [|? ? Hx Hl]; subst. cbn [fold_res].
      pose proof (f_resp s s' x Hx H) as H1. pose proof (f_resp s s x Hx Hs) as H0.
      destruct (f s x) as [s1| |], (f s' x) as [s1'| |]; cbn in *; try tauto.
      apply IH; assumption.
    - inversion HF as [|? ? Hy HF']; subst. inversion HF' as [|? ? Hx Hl]; subst.
      apply (req_trans R R_trans _ (fold_res f s (x :: y :: l))).
      + cbn [fold_res]. pose proof (f_comm s y x Hy Hx Hs) as C.
        destruct (f s y) as [s1| |] eqn:E1; destruct (f s x) as [s2| |] eqn:E2; cbn [rbind] in *;
          try (destruct (f s1 x) as [s3| |] eqn:E3); try (destruct (f s2 y) as [s4| |] eqn:E4);
          cbn [rbind req] in *; try tauto; try exact I.
        apply fold_res_resp; assumption.
      + apply (fold_res_resp (x :: y :: l)); [|exact H]. constructor; [exact Hx|]. constructor; assumption.
    - assert (HF' : Forall P l') by (eapply Permutation_Forall; eassumption).
      apply (req_trans R R_trans _ (fold_res f s l')); [apply IH1; assumption|apply IH2; assumption].
  Qed.
End FoldPerm.

Lemma map_inj_eq {A B} (g : A -> B) : (forall a b, g a = g b -> a = b) ->
  forall l1 l2, map g l1 = map g l2 -> l1 = l2.
Proof.
  intros Hg. induction l1 as [|a l1 IH]; intros [|b l2] H; cbn in H; try discriminate; [reflexivity|].
  injection H as H1 H2. f_equal; auto.
Qed.

Lemma perm_map_inj {A B} (g : A -> B) : (forall a b, g a = g b -> a = b) ->
  forall l1 l2, Permutation (map g l1) (map g l2) -> Permutation l1 l2.
Proof.
  intros Hg l1 l2 H. apply Permutation_map_inv in H. destruct H as [l3 [E P]].
  apply (map_inj_eq g Hg) in E. subst l3. apply Permutation_sym. exact P.
Qed.

Lemma Forall2_of_map_eq {A B} (g : A -> B) (R : A -> A -> Prop) : forall l1 l2,
  map g l1 = map g l2 -> (forall x y, In x l1 -> In y l2 -> g x = g y -> R x y) -> Forall2 R l1 l2.
Proof.
  induction l1 as [|a l1 IH]; intros [|b l2] H HR; cbn in H; try discriminate; [constructor|].
  injection H as H1 H2. constructor.
  - apply HR; [left; reflexivity|left; reflexivity|exact H1].
  - apply IH; [exact H2|]. intros x y Hx Hy. apply HR; right; assumption.
Qed.

(* two days that differ at most in the order of the directives of each kind *)
Definition day_equiv (x y : day) : Prop :=
  d_date x = d_date y /\
  Permutation (d_prices x) (d_prices y) /\
  Permutation (d_opens x) (d_opens y) /\
  Permutation (d_txns x) (d_txns y) /\
  Permutation (d_asserts x) (d_asserts y) /\
  Permutation (d_closes x) (d_closes y) /\
  d_normalized x = d_normalized y.

Lemma day_equiv_refl x : day_equiv x x.
Proof. repeat split; apply Permutation_refl. Qed.

Lemma day_equiv_sym x y : day_equiv x y -> day_equiv y x.
Proof. intros (H0 & H1 & H2 & H3 & H4 & H5 & H6). repeat split; try (apply Permutation_sym; assumption); congruence. Qed.

Lemma day_equiv_trans x y z : day_equiv x y -> day_equiv y z -> day_equiv x z.
Proof.
  intros (H0 & H1 & H2 & H3 & H4 & H5 & H6) (K0 & K1 & K2 & K3 & K4 & K5 & K6).
  repeat split; try (eapply Permutation_trans; eassumption); congruence.
Qed.

Lemma price_directive_inj dt a b : price_directive dt a = price_directive dt b -> a = b.
Proof. destruct a as [[c p] t], b as [[c' p'] t']. unfold price_directive. cbn. intros H. injection H as -> -> ->. reflexivity. Qed.

Lemma upd_day_all (P : day -> Prop) days dt f :
  (forall y, In y days -> P y) -> (forall x, P x -> P (f x)) -> P (f (empty_day dt)) ->
  forall y, In y (upd_day days dt f) -> P y.
Proof.
  intros HP Hf He. induction days as [|x days IH]; cbn.
  - intros y [<-|[]]. exact He.
  - destruct (dt =? d_date x).
    + intros y [<-|H]; [apply Hf; apply HP; left; reflexivity|apply HP; right; exact H].
    + destruct (dt <? d_date x).
      * intros y [<-|H]; [exact He|apply HP; exact H].
      * intros y [<-|H]; [apply HP; left; reflexivity|].
        apply IH; [|exact H]. intros z Hz. apply HP. right. exact Hz.
Qed.

Lemma builder_not_normalized ds : forall x, In x (b_days (builder_of ds)) -> d_normalized x = None.
Proof.
  induction ds as [|d ds IH] using rev_ind; [intros x []|].
  rewrite builder_of_snoc, builder_add_days.
  apply upd_day_all; [exact IH| |destruct d; reflexivity].
  intros x Hx. destruct d; exact Hx.
Qed.

(* Builder.Period does not depend on the order of the directives *)
Definition mm_step (m : Z * Z) (d : directive) : Z * Z :=
  match d with
  | DPrice dt _ _ _ => (fst m, Z.max (snd m) dt)
  | DTxn t => (Z.min (fst m) (t_date t), Z.max (snd m) (t_date t))
  | _ => m
  end.

Lemma builder_mm l : forall b,
  (b_min (fold_left builder_add l b), b_max (fold_left builder_add l b)) = fold_left mm_step l (b_min b, b_max b).
Proof.
  induction l as [|d l IH]; intros b; [reflexivity|].
  cbn [fold_left]. rewrite IH. f_equal.
  destruct d; cbn [builder_add b_min b_max mm_step fst snd]; try reflexivity.
  - f_equal. destruct (b_max b <? date) eqn:E; [apply Z.ltb_lt in E|apply Z.ltb_ge in E]; lia.
  - f_equal.
    + destruct (t_date t <? b_min b) eqn:E; [apply Z.ltb_lt in E|apply Z.ltb_ge in E]; lia.
    + destruct (b_max b <? t_date t) eqn:E; [apply Z.ltb_lt in E|apply Z.ltb_ge in E]; lia.
Qed.

Lemma mm_step_comm m x y : mm_step (mm_step m x) y = mm_step (mm_step m y) x.
Proof.
  destruct m as [a b]. destruct x, y; cbn [mm_step fst snd]; try reflexivity; f_equal; lia.
Qed.

Lemma builder_period_perm l1 l2 :
  Permutation l1 l2 ->
  b_min (builder_of l1) = b_min (builder_of l2) /\ b_max (builder_of l1) = b_max (builder_of l2).
Proof.
  intros P. unfold builder_of.
  pose proof (builder_mm l1 new_builder) as H1. pose proof (builder_mm l2 new_builder) as H2.
  rewrite (fold_left_perm mm_step l1 l2 mm_step_comm P) in H1. rewrite <- H2 in H1.
  apply pair_equal_spec in H1. exact H1.
Qed.

Theorem build_perm ds1 ds2 :
  Permutation ds1 ds2 ->
  Forall2 day_equiv (b_days (builder_of ds1)) (b_days (builder_of ds2)) /\
  b_min (builder_of ds1) = b_min (builder_of ds2) /\
  b_max (builder_of ds1) = b_max (builder_of ds2).
Proof.
  intros P. split; [|apply builder_period_perm; exact P].
  destruct (builder_canonical ds1) as (_ & D1 & _ & M1). destruct (builder_canonical ds2) as (_ & D2 & _ & M2).
  cbn zeta in *.
  apply (Forall2_of_map_eq d_date).
  - rewrite D1, D2. apply dates_perm. exact P.
  - intros x y Hx Hy E.
    destruct (M1 x Hx) as (A0 & A1 & A2 & A3 & A4). destruct (M2 y Hy) as (B0 & B1 & B2 & B3 & B4).
    rewrite E in A0, A1, A2, A3, A4.
    assert (S : forall k, Permutation (sel ds1 (d_date y) k) (sel ds2 (d_date y) k)).
    { intros k. unfold sel. apply Permutation_filter. exact P. }
    split; [exact E|].
    split. { apply (perm_map_inj (price_directive (d_date y))); [apply price_directive_inj|]. rewrite A0, B0. apply S. }
    split. { apply (perm_map_inj (DOpen (d_date y))); [intros a b H; injection H; auto|]. rewrite A1, B1. apply S. }
    split. { apply (perm_map_inj DTxn); [intros a b H; injection H; auto|]. rewrite A2, B2. apply S. }
    split. { apply (perm_map_inj (DAssert (d_date y))); [intros a b H; injection H; auto|]. rewrite A3, B3. apply S. }
    split. { apply (perm_map_inj (DClose (d_date y))); [intros a b H; injection H; auto|]. rewrite A4, B4. apply S. }
    rewrite (builder_not_normalized ds1 x Hx), (builder_not_normalized ds2 y Hy). reflexivity.
Qed.

(* Builder.Days(dates) (used by --close) creates the same empty days on both sides *)
Lemma upd_day_id_equiv dt l1 l2 :
  Forall2 day_equiv l1 l2 -> Forall2 day_equiv (upd_day l1 dt (fun x => x)) (upd_day l2 dt (fun x => x)).
Proof.
  induction 1 as [|x y l1 l2 Hxy Hl IH]; cbn [upd_day].
  - constructor; [apply day_equiv_refl|constructor].
  - assert (E : d_date x = d_date y) by apply Hxy. rewrite E.
    destruct (dt =? d_date y); [constructor; assumption|].
    destruct (dt <? d_date y).
    + constructor; [apply day_equiv_refl|]. constructor; assumption.
    + constructor; assumption.
Qed.

Lemma builder_touch_equiv b1 b2 dates :
  Forall2 day_equiv (b_days b1) (b_days b2) ->
  Forall2 day_equiv (b_days (builder_touch b1 dates)) (b_days (builder_touch b2 dates)).
Proof.
  unfold builder_touch. cbn [b_days]. generalize (b_days b1) (b_days b2).
  induction dates as [|d dates IH]; intros l1 l2 H; cbn [fold_left]; [exact H|].
  apply IH. apply upd_day_id_equiv. exact H.
Qed.

Definition meq {A} (R : A -> A -> Prop) (x y : mresult A) : Prop :=
  match x, y with
  | MOk a, MOk b => R a b
  | MOk _, _ => False
  | _, MOk _ => False
  | _, _ => True
  end.

Lemma meq_trans {A} (R : A -> A -> Prop) :
  (forall a b c, R a b -> R b c -> R a c) -> forall x y z, meq R x y -> meq R y z -> meq R x z.
Proof. intros T [a| |] [b| |] [c| |]; cbn; try tauto; eauto. Qed.

(* every directive is converted on its own: a permuted input gives a permuted output, and a
   directive that is rejected (or panics) makes both fail *)
Theorem parse_directives_perm l1 l2 :
  Permutation l1 l2 -> meq (@Permutation directive) (parse_directives l1) (parse_directives l2).
Proof.
  induction 1 as [|x l l' HP IH|x y l|l l' l'' HP1 IH1 HP2 IH2].
  - cbn. constructor.
  - cbn [parse_directives]. destruct (parse_directive x) as [o| |]; cbn [mbind]; try exact I.
    destruct (parse_directives l) as [a| |], (parse_directives l') as [b| |]; cbn in *; try tauto.
    apply Permutation_app_head. exact IH.
  - cbn [parse_directives].
    destruct (parse_directive x) as [ox| |], (parse_directive y) as [oy| |]; cbn [mbind]; try exact I;
      destruct (parse_directives l) as [a| |]; cbn; try exact I.
    apply Permutation_app_swap_app.
  - eapply meq_trans; [|eassumption|eassumption]. intros a b c. apply Permutation_trans.
Qed.
