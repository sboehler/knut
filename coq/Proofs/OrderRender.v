(* C05: the renderer of the balance report does not look at the order of a node's amounts list:
   report trees that are [OrderReport.report_eq] render to the same table. *)
From Coq Require Import ZArith List Bool Lia Permutation.
From Knut Require Import Model.Str Model.Dec Model.Date Model.Account Model.Ledger Model.Price Model.Journal
     Model.Table Model.Report Proofs.DecProofs Proofs.SMapProofs Proofs.ReportSum
     Proofs.Conservation Proofs.CheckPerm Proofs.MapOrderProofs Proofs.OrderSMap Proofs.OrderProofs Proofs.OrderReport.
Import ListNotations.
Open Scope bool_scope.
Open Scope Z_scope.

Lemma key_absent_get k m : key_absent k m -> ra_get m k = None.
Proof.
  induction 1 as [|[k0 v0] m H _ IH]; cbn [ra_get]; [reflexivity|].
  cbn [fst] in H. assert (rkey_eqb k k0 = false) as -> by (apply rkey_eqb_false; congruence). exact IH.
Qed.

Lemma key_absent_notin k v m : key_absent k m -> ~ In (k, v) m.
Proof. intros H Hin. unfold key_absent in H. rewrite Forall_forall in H. apply (H _ Hin). reflexivity. Qed.

Lemma ra_in_get a k v : ra_unique a -> (In (k, v) a <-> ra_get a k = Some v).
Proof.
  induction 1 as [|k0 v0 m Ha Hu IH]; cbn [In ra_get]; [split; [intros []|discriminate]|].
  split.
  - intros [E|Hin].
    + inversion E; subst. rewrite rkey_eqb_refl. reflexivity.
    + destruct (rkey_eqb k k0) eqn:E; [|apply IH; exact Hin].
      apply rkey_eqb_eq in E. subst k0. exfalso. eapply key_absent_notin; eassumption.
  - destruct (rkey_eqb k k0) eqn:E.
    + apply rkey_eqb_eq in E. subst k0. intros H. inversion H. left. reflexivity.
    + intros H. right. apply IH. exact H.
Qed.

Lemma ra_unique_nodup a : ra_unique a -> NoDup a.
Proof. induction 1 as [|k v m Ha Hu IH]; constructor; [apply key_absent_notin; exact Ha|exact IH]. Qed.

Lemma ra_eqv_perm a b : ra_eqv a b -> Permutation a b.
Proof.
  intros (Ua & Ub & H). apply NoDup_Permutation; try (apply ra_unique_nodup; assumption).
  intros [k v]. rewrite (ra_in_get a k v Ua), (ra_in_get b k v Ub), H. reflexivity.
Qed.

Lemma ra_eqv_nil a b : ra_eqv a b -> (a = [] <-> b = []).
Proof.
  intros H. apply ra_eqv_perm in H. split; intros ->; [apply Permutation_nil; exact H|apply Permutation_nil, Permutation_sym; exact H].
Qed.

Lemma fold_res_pure {S A} (f : S -> A -> S) l : forall s, fold_res (fun s x => ROk (f s x)) s l = ROk (fold_left f l s).
Proof. induction l as [|x l IH]; intros s; cbn [fold_res fold_left rbind]; [reflexivity|apply IH]. Qed.

Lemma fold_ra_add_resp (g : rkey -> rkey) d d' src src' :
  ra_eqv d d' -> ra_eqv src src' ->
  ra_eqv (fold_left (fun d kv => ra_add d (g (fst kv)) (snd kv)) src d)
         (fold_left (fun d kv => ra_add d (g (fst kv)) (snd kv)) src' d').
Proof.
  intros Hd Hs. set (F := fun s (kv : rkey * dec) => ROk (ra_add s (g (fst kv)) (snd kv))).
  enough (G : req ra_eqv (fold_res F d src) (fold_res F d' src'))
    by (unfold F in G; rewrite !fold_res_pure in G; exact G).
  apply (fold_res_perm ra_eqv F (fun _ => True) ra_eqv_trans).
  - intros s s' a _ H. apply ra_add_resp. exact H.
  - intros s a b _ _ H. apply ra_add_comm. apply H.
  - apply ra_eqv_perm. exact Hs.
  - apply Forall_forall. intros; exact I.
  - apply ra_eqv_refl. apply Hd.
  - exact Hd.
Qed.

Lemma ra_get_filter_nz a k : ra_unique a ->
  ra_get (filter (fun kv : rkey * dec => negb (is_zero (snd kv))) a) k =
  match ra_get a k with Some v => if negb (is_zero v) then Some v else None | None => None end.
Proof.
  induction 1 as [|k0 v0 m Ha Hu IH]; cbn [filter ra_get snd]; [reflexivity|].
  destruct (negb (is_zero v0)) eqn:Z; cbn [ra_get].
  - destruct (rkey_eqb k k0); [rewrite Z; reflexivity|exact IH].
  - destruct (rkey_eqb k k0) eqn:E; [|exact IH].
    apply rkey_eqb_eq in E. subst k0. rewrite IH, (key_absent_get k m Ha), Z. reflexivity.
Qed.

Lemma filter_nz_resp a b : ra_eqv a b ->
  ra_eqv (filter (fun kv : rkey * dec => negb (is_zero (snd kv))) a) (filter (fun kv : rkey * dec => negb (is_zero (snd kv))) b).
Proof.
  intros (Ua & Ub & H). repeat split; try (apply filter_unique; assumption).
  intros k. rewrite !ra_get_filter_nz, H by assumption. reflexivity.
Qed.

Lemma ra_sum_into_resp f d d' s s' : ra_eqv d d' -> ra_eqv s s' -> ra_eqv (ra_sum_into d s f) (ra_sum_into d' s' f).
Proof. intros Hd Hs. unfold ra_sum_into. apply filter_nz_resp. apply fold_ra_add_resp; assumption. Qed.

Lemma ra_plus_resp a a' b b' : ra_eqv a a' -> ra_eqv b b' -> ra_eqv (ra_plus a b) (ra_plus a' b').
Proof. intros Ha Hb. unfold ra_plus. apply (fold_ra_add_resp (fun k => k)); assumption. Qed.

Lemma node_weight_eq valued n : forall n', node_eq n n' -> node_weight valued n = node_weight valued n'.
Proof.
  induction n as [s p hv a ch IH] using node_ind_size. intros n' H.
  inversion H as [? ? ? ? a' ? ch' Ha Hch]; subst. cbn [node_weight].
  assert (E : (if valued then fold_left (fun s kv => add s (snd kv)) a dec_nil else dec_nil) =
              (if valued then fold_left (fun s kv => add s (snd kv)) a' dec_nil else dec_nil)).
  { destruct valued; [|reflexivity]. apply (fold_add_perm (fun kv : rkey * dec => snd kv)). apply ra_eqv_perm. exact Ha. }
  rewrite E. generalize (neg (dabs (if valued then fold_left (fun s kv => add s (snd kv)) a' dec_nil else dec_nil))).
  clear - IH Hch. revert ch' Hch. induction IH as [|c ch Hc _ IHch]; intros ch' Hch w; inversion Hch; subst; cbn [fold_left]; [reflexivity|].
  rewrite (Hc _ H1). apply IHch. assumption.
Qed.

Lemma node_eq_path n n' : node_eq n n' -> n_path n = n_path n'.
Proof. intros H. inversion H; reflexivity. Qed.

Lemma sibling_ltb_eq alpha valued x x' y y' :
  node_eq x x' -> node_eq y y' -> sibling_ltb alpha valued x y = sibling_ltb alpha valued x' y'.
Proof.
  intros Hx Hy. unfold sibling_ltb, top_ltb.
  rewrite (node_eq_path _ _ Hx), (node_eq_path _ _ Hy), (node_eq_seg _ _ Hx), (node_eq_seg _ _ Hy),
    (node_weight_eq valued _ _ Hx), (node_weight_eq valued _ _ Hy). reflexivity.
Qed.

Section SortRel.
  Context {A : Type} (lt : A -> A -> bool) (R : A -> A -> Prop).
  Hypothesis lt_R : forall x x' y y', R x x' -> R y y' -> lt x y = lt x' y'.

  Lemma insert_sorted_rel x x' l l' : R x x' -> Forall2 R l l' -> Forall2 R (insert_sorted lt x l) (insert_sorted lt x' l').
  Proof.
    intros Hx. induction 1 as [|y y' l l' Hy Hl IH]; cbn [insert_sorted]; [repeat constructor; exact Hx|].
    rewrite (lt_R x x' y y' Hx Hy). destruct (lt x' y'); repeat constructor; assumption.
  Qed.

  Lemma sort_by_rel l l' : Forall2 R l l' -> Forall2 R (sort_by lt l) (sort_by lt l').
  Proof.
    intros H. unfold sort_by.
    assert (Hr : Forall2 R (rev l) (rev l')).
    { induction H as [|x x' l l' Hx Hl IH]; cbn [rev]; [constructor|]. apply Forall2_app; [exact IH|repeat constructor; exact Hx]. }
    induction Hr as [|x x' r r' Hx Hr IH]; cbn [fold_right]; [constructor|]. apply insert_sorted_rel; assumption.
  Qed.
End SortRel.

Lemma node_sort_resp alpha valued n : forall n', node_eq n n' -> node_eq (node_sort alpha valued n) (node_sort alpha valued n').
Proof.
  induction n as [s p hv a ch IH] using node_ind_size. intros n' H.
  inversion H as [? ? ? ? a' ? ch' Ha Hch]; subst. cbn [node_sort]. constructor; [exact Ha|].
  apply (sort_by_rel (sibling_ltb alpha valued) node_eq).
  - intros; apply sibling_ltb_eq; assumption.
  - clear - IH Hch. revert ch' Hch. induction IH as [|c ch Hc _ IHch]; intros ch' Hch; inversion Hch; subst; cbn [map]; constructor; auto.
Qed.

Lemma node_totals_resp f n : forall n' acc acc', node_eq n n' -> ra_eqv acc acc' -> ra_eqv (node_totals f n acc) (node_totals f n' acc').
Proof.
  induction n as [s p hv a ch IH] using node_ind_size. intros n' acc acc' H Hacc.
  inversion H as [? ? ? ? a' ? ch' Ha Hch]; subst. cbn [node_totals].
  apply ra_sum_into_resp; [|exact Ha].
  clear - IH Hch Hacc. revert ch' Hch acc acc' Hacc.
  induction IH as [|c ch Hc _ IHch]; intros ch' Hch acc acc' Hacc; inversion Hch; subst; cbn [fold_left]; [exact Hacc|].
  apply IHch; [assumption|]. apply Hc; assumption.
Qed.

(* insert_ocom is insertion into a sorted map under an order-preserving encoding of the keys *)
Definition enc_key (c : option commodity) : str := match c with None => [] | Some x => 1 :: x end.
Definition enc (c : option commodity) : str * option commodity := (enc_key c, c).

Lemma enc_key_inj a b : enc_key a = enc_key b -> a = b.
Proof. destruct a, b; cbn; intros H; try discriminate; [inversion H|]; reflexivity. Qed.

Lemma insert_ocom_enc c l : map enc (insert_ocom c l) = sm_put (map enc l) (enc_key c) c.
Proof.
  induction l as [|x rest IH]; cbn [insert_ocom map sm_put]; [reflexivity|].
  destruct c as [a|], x as [b|]; cbn [enc enc_key fst snd str_cmp Z.compare Pos.compare Pos.compare_cont].
  - destruct (str_cmp a b) eqn:E; cbn [map enc enc_key].
    + apply str_cmp_eq in E. subst b. reflexivity.
    + reflexivity.
    + rewrite IH. reflexivity.
  - cbn [map]. rewrite IH. reflexivity.
  - reflexivity.
  - reflexivity.
Qed.

Lemma insert_ocom_comm a b l : insert_ocom a (insert_ocom b l) = insert_ocom b (insert_ocom a l).
Proof.
  apply (map_inj_eq enc); [intros x y H; inversion H; reflexivity|].
  rewrite !insert_ocom_enc. destruct (SMapProofs.str_eq_dec (enc_key a) (enc_key b)) as [E|N].
  - apply enc_key_inj in E. subst b. reflexivity.
  - apply sm_put_comm. congruence.
Qed.

Lemma ra_commodities_eqv a b : ra_eqv a b -> ra_commodities a = ra_commodities b.
Proof.
  intros H. unfold ra_commodities. apply fold_left_perm; [|apply ra_eqv_perm; exact H].
  intros l x y. apply insert_ocom_comm.
Qed.

Lemma row_numbers_eqv diff neg_ vals vals' c dates : ra_eqv vals vals' ->
  forall total, row_numbers diff neg_ vals c dates total = row_numbers diff neg_ vals' c dates total.
Proof.
  intros H. induction dates as [|d rest IH]; intros total; cbn [row_numbers]; [reflexivity|].
  rewrite (ra_eqv_get0 vals vals' _ H), IH. reflexivity.
Qed.

Lemma render_rows_eqv cfg dates indent name neg_ vals vals' coms : ra_eqv vals vals' ->
  forall first, render_rows cfg dates indent name neg_ vals coms first = render_rows cfg dates indent name neg_ vals' coms first.
Proof.
  intros H. induction coms as [|c rest IH]; intros first; cbn [render_rows]; [reflexivity|].
  rewrite (row_numbers_eqv _ _ vals vals' _ _ H), IH. reflexivity.
Qed.

Lemma render_amounts_eqv cfg t dates indent name neg_ vals vals' : ra_eqv vals vals' ->
  render_amounts cfg t dates indent name neg_ vals = render_amounts cfg t dates indent name neg_ vals'.
Proof.
  intros H. unfold render_amounts.
  pose proof (ra_eqv_nil _ _ H) as N. pose proof (ra_commodities_eqv _ _ H) as C.
  pose proof (render_rows_eqv cfg dates indent name neg_ vals vals' (ra_commodities vals') H true) as Rw.
  destruct vals as [|x r], vals' as [|x' r'].
  - reflexivity.
  - destruct N as [N _]. specialize (N eq_refl). discriminate.
  - destruct N as [_ N]. specialize (N eq_refl). discriminate.
  - rewrite C, Rw. reflexivity.
Qed.

Lemma render_node_eq cfg dates neg_ n : forall n' indent t,
  node_eq n n' -> render_node cfg dates indent neg_ t n = render_node cfg dates indent neg_ t n'.
Proof.
  induction n as [s p hv a ch IH] using node_ind_size. intros n' indent t H.
  inversion H as [? ? ? ? a' ? ch' Ha Hch]; subst. cbn [render_node].
  set (show := match rc_valuation cfg with None => true | Some _ => rxs_match (rc_details cfg) (acc_name p) end).
  assert (V : ra_eqv (ra_sum_into [] a (collapse_key show)) (ra_sum_into [] a' (collapse_key show))).
  { apply ra_sum_into_resp; [apply ra_eqv_refl; constructor|exact Ha]. }
  assert (T1 : (match s with [] => t | _ => render_amounts cfg t dates indent s neg_ (ra_sum_into [] a (collapse_key show)) end) =
               (match s with [] => t | _ => render_amounts cfg t dates indent s neg_ (ra_sum_into [] a' (collapse_key show)) end)).
  { destruct s; [reflexivity|]. apply render_amounts_eqv. exact V. }
  rewrite T1. generalize (match s with [] => t | _ => render_amounts cfg t dates indent s neg_ (ra_sum_into [] a' (collapse_key show)) end).
  clear - IH Hch. revert ch' Hch. induction IH as [|c ch Hc _ IHch]; intros ch' Hch t0; inversion Hch; subst; cbn [fold_left]; [reflexivity|].
  rewrite (Hc _ (indent + 2) t0 H1). apply IHch. assumption.
Qed.

Lemma fold_render_nodes_eq cfg dates neg_ l l' : Forall2 node_eq l l' -> forall t,
  fold_left (fun t n => add_empty_row (render_node cfg dates 0 neg_ t n)) l t =
  fold_left (fun t n => add_empty_row (render_node cfg dates 0 neg_ t n)) l' t.
Proof.
  induction 1 as [|c c' l l' Hc Hl IH]; intros t; cbn [fold_left]; [reflexivity|].
  rewrite (render_node_eq cfg dates neg_ c c' 0 t Hc). apply IH.
Qed.

Lemma node_eq_children n n' : node_eq n n' -> Forall2 node_eq (n_children n) (n_children n').
Proof. intros H. inversion H; subst. assumption. Qed.

Theorem render_report_eq cfg r r' dates : report_eq r r' -> render_report cfg r dates = render_report cfg r' dates.
Proof.
  intros [Hal Heie]. unfold render_report.
  set (valued := match rc_valuation cfg with Some _ => true | None => false end).
  pose proof (node_sort_resp (rc_alpha cfg) valued _ _ Hal) as Sal.
  pose proof (node_sort_resp (rc_alpha cfg) valued _ _ Heie) as Seie.
  set (al := node_sort (rc_alpha cfg) valued (r_al r)) in *.
  set (al' := node_sort (rc_alpha cfg) valued (r_al r')) in *.
  set (eie := node_sort (rc_alpha cfg) valued (r_eie r)) in *.
  set (eie' := node_sort (rc_alpha cfg) valued (r_eie r')) in *.
  assert (Tal : ra_eqv (node_totals (collapse_key (negb valued)) al []) (node_totals (collapse_key (negb valued)) al' [])).
  { apply node_totals_resp; [exact Sal|apply ra_eqv_refl; constructor]. }
  assert (Teie : ra_eqv (node_totals (collapse_key (negb valued)) eie []) (node_totals (collapse_key (negb valued)) eie' [])).
  { apply node_totals_resp; [exact Seie|apply ra_eqv_refl; constructor]. }
  cbv zeta.
  rewrite (fold_render_nodes_eq cfg dates false _ _ (node_eq_children _ _ Sal)).
  rewrite (render_amounts_eqv cfg _ dates 0 s_TotalAL false _ _ Tal).
  rewrite (fold_render_nodes_eq cfg dates true _ _ (node_eq_children _ _ Seie)).
  rewrite (render_amounts_eqv cfg _ dates 0 s_TotalEIE true _ _ Teie).
  rewrite (render_amounts_eqv cfg _ dates 0 s_Delta false _ _ (ra_plus_resp _ _ _ _ Tal Teie)).
  reflexivity.
Qed.
