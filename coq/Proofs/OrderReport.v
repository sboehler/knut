(* C05: Query.Into over equivalent day lists gives report trees that are equal up to the order of
   each node's amounts list (an association list in first-insertion order). *)
From Coq Require Import ZArith List Bool Lia Permutation.
From Knut Require Import Model.Str Model.Dec Model.Date Model.Account Model.Ledger Model.Price Model.Journal
     Model.Check Model.Pipeline Model.Table Model.Report Proofs.DecProofs Proofs.SMapProofs Proofs.OrderSMap Proofs.ReportSum
     Proofs.Conservation Proofs.CheckPerm Proofs.JournalFacts Proofs.OrderProofs Proofs.OrderStages.
Import ListNotations.
Open Scope bool_scope.
Open Scope Z_scope.

Lemma rkey_eqb_false a b : rkey_eqb a b = false <-> a <> b.
Proof.
  split.
  - intros H E. apply rkey_eqb_eq in E. congruence.
  - intros H. destruct (rkey_eqb a b) eqn:E; [|reflexivity]. apply rkey_eqb_eq in E. contradiction.
Qed.

Lemma ra_get_add a k v k' :
  ra_get (ra_add a k v) k' = if rkey_eqb k' k then Some (add (ra_get0 a k) v) else ra_get a k'.
Proof.
  induction a as [|[k0 v0] m IH]; cbn [ra_add ra_get].
  - unfold ra_get0. cbn [ra_get]. reflexivity.
  - destruct (rkey_eqb k k0) eqn:E; cbn [ra_get].
    + apply rkey_eqb_eq in E. subst k0. unfold ra_get0. cbn [ra_get]. rewrite rkey_eqb_refl.
      destruct (rkey_eqb k' k); reflexivity.
    + rewrite IH. unfold ra_get0. cbn [ra_get]. rewrite E.
      destruct (rkey_eqb k' k0) eqn:E0, (rkey_eqb k' k) eqn:E1; try reflexivity.
      apply rkey_eqb_eq in E0. apply rkey_eqb_eq in E1. subst. rewrite rkey_eqb_refl in E. discriminate.
Qed.

Lemma ra_get0_add a k v k' :
  ra_get0 (ra_add a k v) k' = if rkey_eqb k' k then add (ra_get0 a k) v else ra_get0 a k'.
Proof. unfold ra_get0 at 1. rewrite ra_get_add. destruct (rkey_eqb k' k); reflexivity. Qed.

(* the same bindings, whatever the order *)
Definition ra_eqv (a b : ramounts) : Prop :=
  ra_unique a /\ ra_unique b /\ forall k, ra_get a k = ra_get b k.

Lemma ra_eqv_refl a : ra_unique a -> ra_eqv a a.
Proof. intros H. repeat split; assumption. Qed.

Lemma ra_eqv_trans a b c : ra_eqv a b -> ra_eqv b c -> ra_eqv a c.
Proof. intros (A1 & A2 & A3) (B1 & B2 & B3). repeat split; try assumption. intros k. rewrite A3. apply B3. Qed.

Lemma ra_eqv_get0 a b k : ra_eqv a b -> ra_get0 a k = ra_get0 b k.
Proof. intros (_ & _ & H). unfold ra_get0. rewrite H. reflexivity. Qed.

Lemma ra_add_resp a b k v : ra_eqv a b -> ra_eqv (ra_add a k v) (ra_add b k v).
Proof.
  intros H. pose proof H as (A1 & A2 & A3). repeat split; try (apply ra_add_unique; assumption).
  intros k'. rewrite !ra_get_add, (ra_eqv_get0 a b k H), A3. reflexivity.
Qed.

Lemma ra_add_comm a k v k' v' :
  ra_unique a -> ra_eqv (ra_add (ra_add a k v) k' v') (ra_add (ra_add a k' v') k v).
Proof.
  intros H. repeat split; try (apply ra_add_unique, ra_add_unique; assumption).
  intros x. rewrite !ra_get_add, !ra_get0_add, ?rkey_eqb_refl.
  destruct (rkey_eqb k' k) eqn:E.
  - apply rkey_eqb_eq in E. subst k'. rewrite rkey_eqb_refl.
    destruct (rkey_eqb x k); [|reflexivity]. f_equal. rewrite !add_assoc. f_equal. apply add_comm.
  - assert (E' : rkey_eqb k k' = false).
    { apply rkey_eqb_false. apply rkey_eqb_false in E. congruence. }
    rewrite E'. destruct (rkey_eqb x k') eqn:E1, (rkey_eqb x k) eqn:E2; try reflexivity.
    apply rkey_eqb_eq in E1. apply rkey_eqb_eq in E2. subst. rewrite rkey_eqb_refl in E. discriminate.
Qed.

Inductive node_eq : node -> node -> Prop :=
| NodeEq s p hv a a' ch ch' :
    ra_eqv a a' -> Forall2 node_eq ch ch' -> node_eq (Node s p hv a ch) (Node s p hv a' ch').

Lemma node_eq_seg n n' : node_eq n n' -> n_seg n = n_seg n'.
Proof. intros H. inversion H; reflexivity. Qed.

Lemma Forall2_trans_in {A} (R : A -> A -> Prop) l1 : forall l2 l3,
  Forall (fun x => forall y z, R x y -> R y z -> R x z) l1 ->
  Forall2 R l1 l2 -> Forall2 R l2 l3 -> Forall2 R l1 l3.
Proof.
  induction l1 as [|x l1 IH]; intros l2 l3 HT H12 H23; inversion H12; subst; inversion H23; subst; constructor.
  - inversion HT; subst. eauto.
  - inversion HT; subst. eapply IH; eassumption.
Qed.

Lemma node_eq_trans a : forall b c, node_eq a b -> node_eq b c -> node_eq a c.
Proof.
  induction a as [s p hv am ch IH] using node_ind_size. intros b c H1 H2.
  inversion H1; subst. inversion H2; subst. constructor.
  - eapply ra_eqv_trans; eassumption.
  - eapply Forall2_trans_in; eassumption.
Qed.

Lemma node_eq_left n n' : node_eq n n' -> node_eq n n.
Proof.
  revert n'. induction n as [s p hv am ch IH] using node_ind_size. intros n' H. inversion H as [? ? ? ? a' ? ch' Ha Hch]; subst.
  constructor; [apply ra_eqv_refl; apply Ha|].
  clear - IH Hch. revert ch' Hch. induction IH as [|c ch Hc _ IHch]; intros ch' Hch; inversion Hch; subst; constructor; eauto.
Qed.

Definition new_child (h : str) (path : account) : node := Node h path false [] [].

Lemma new_child_wf h path : node_eq (new_child h path) (new_child h path).
Proof. constructor; [apply ra_eqv_refl; constructor|constructor]. Qed.

Lemma children_insert_upsert rec h p l :
  children_insert rec h p l = upsert n_seg (rec (new_child h p)) rec h l.
Proof. induction l as [|c l IH]; cbn [children_insert upsert]; [|rewrite IH]; reflexivity. Qed.

Section ChildrenInsert.
  Variables (rec1 : node -> node) (h1 : str) (p1 : account).
  Hypothesis resp1 : forall c c', node_eq c c' -> node_eq (rec1 c) (rec1 c').

  Lemma children_insert_resp l l' :
    Forall2 node_eq l l' -> Forall2 node_eq (children_insert rec1 h1 p1 l) (children_insert rec1 h1 p1 l').
  Proof.
    intros H. rewrite !children_insert_upsert.
    apply upsert_resp; [apply resp1, new_child_wf|exact resp1|exact node_eq_seg|exact H].
  Qed.
End ChildrenInsert.

(* Two insertions at different segments commute on the nose; at the same segment both orders
   update the one child found or created there, by rec1 after rec2 or rec2 after rec1. *)
Lemma children_insert_comm rec1 rec2 h1 h2 p1 p2 l :
  (forall c c', node_eq c c' -> node_eq (rec1 c) (rec1 c')) ->
  (forall c c', node_eq c c' -> node_eq (rec2 c) (rec2 c')) ->
  (forall c, n_seg (rec1 c) = n_seg c) -> (forall c, n_seg (rec2 c) = n_seg c) ->
  (h1 = h2 -> p1 = p2 /\ forall c, node_eq c c -> node_eq (rec1 (rec2 c)) (rec2 (rec1 c))) ->
  Forall2 node_eq l l ->
  Forall2 node_eq (children_insert rec1 h1 p1 (children_insert rec2 h2 p2 l))
                  (children_insert rec2 h2 p2 (children_insert rec1 h1 p1 l)).
Proof.
  intros resp1 resp2 seg1 seg2 comm Hl.
  assert (K1 : forall h c, n_seg c = h -> n_seg (rec1 c) = h) by (intros h c <-; apply seg1).
  assert (K2 : forall h c, n_seg c = h -> n_seg (rec2 c) = h) by (intros h c <-; apply seg2).
  rewrite !children_insert_upsert. destruct (str_eq_dec h1 h2) as [E|N].
  - destruct (comm E) as [<- C]. subst h2. rewrite !upsert_upsert_same by auto.
    apply upsert_resp; [apply C, new_child_wf| |exact node_eq_seg|exact Hl].
    intros c c' Hc. apply node_eq_trans with (rec2 (rec1 c)).
    + apply C. exact (node_eq_left c c' Hc).
    + apply resp2, resp1, Hc.
  - rewrite (upsert_comm n_seg _ _ rec1 rec2 h1 h2) by auto.
    rewrite <- !children_insert_upsert. apply children_insert_resp, children_insert_resp; assumption.
Qed.

Lemma node_insert_seg f pre rest k v n : n_seg (node_insert f pre rest k v n) = n_seg n.
Proof. destruct n, rest, f; reflexivity. Qed.

Lemma node_insert_resp : forall f pre rest k v n n',
  node_eq n n' -> node_eq (node_insert f pre rest k v n) (node_insert f pre rest k v n').
Proof.
  induction f as [|f IH]; intros pre rest k v n n' H; inversion H as [s p hv a a' ch ch' Ha Hch]; subst;
    destruct rest as [|h t]; cbn [node_insert].
  - constructor; [apply ra_add_resp|]; assumption.
  - exact H.
  - constructor; [apply ra_add_resp|]; assumption.
  - constructor; [assumption|]. apply children_insert_resp; [intros; apply IH; assumption|assumption].
Qed.

Lemma node_insert_comm : forall f1 f2 pre rest1 rest2 k1 v1 k2 v2 n,
  node_eq n n ->
  node_eq (node_insert f1 pre rest1 k1 v1 (node_insert f2 pre rest2 k2 v2 n))
          (node_insert f2 pre rest2 k2 v2 (node_insert f1 pre rest1 k1 v1 n)).
Proof.
  induction f1 as [|f1 IH]; intros f2 pre rest1 rest2 k1 v1 k2 v2 n H;
    pose proof H as H0; destruct n as [s p hv a ch]; inversion H as [? ? ? ? ? ? ? Ha Hch]; subst;
    assert (Ua : ra_unique a) by apply Ha;
    destruct rest1 as [|h1 t1], rest2 as [|h2 t2], f2 as [|f2]; cbn [node_insert];
    try (constructor;
         [first [apply ra_add_comm; exact Ua | apply ra_eqv_refl; repeat apply ra_add_unique; exact Ua]
         |first [assumption | apply children_insert_resp; [intros; apply node_insert_resp; assumption|assumption]]]).
  constructor; [exact Ha|]. apply children_insert_comm.
  - intros; apply node_insert_resp; assumption.
  - intros; apply node_insert_resp; assumption.
  - intros; apply node_insert_seg.
  - intros; apply node_insert_seg.
  - intros E. subst h2. split; [reflexivity|]. intros c Hc. apply IH. exact Hc.
  - exact Hch.
Qed.

Definition report_eq (r r' : report) : Prop := node_eq (r_al r) (r_al r') /\ node_eq (r_eie r) (r_eie r').

Lemma report_eq_trans a b c : report_eq a b -> report_eq b c -> report_eq a c.
Proof. intros [A1 A2] [B1 B2]. split; eapply node_eq_trans; eassumption. Qed.

Lemma new_report_wf : report_eq new_report new_report.
Proof. split; constructor; try constructor; apply ra_eqv_refl; constructor. Qed.

Lemma report_insert_resp r r' d a c v : report_eq r r' -> report_eq (report_insert r d a c v) (report_insert r' d a c v).
Proof.
  intros [H1 H2]. unfold report_insert. destruct (is_AL a); split; cbn [r_al r_eie]; try assumption; apply node_insert_resp; assumption.
Qed.

Lemma report_insert_comm r d a c v d' a' c' v' :
  report_eq r r ->
  report_eq (report_insert (report_insert r d a c v) d' a' c' v') (report_insert (report_insert r d' a' c' v') d a c v).
Proof.
  intros [H1 H2]. unfold report_insert.
  destruct (is_AL a), (is_AL a'); split; cbn [r_al r_eie]; try assumption;
    try (apply node_insert_resp; assumption); apply node_insert_comm; assumption.
Qed.

(* what a posting does to the collection: panic (Shorten), nothing, or one insertion *)
Inductive qaction := QPanic | QSkip | QInsert (d : option Z) (a : account) (c : commodity) (v : dec).

Definition qact (q : query) (tp : txn * posting) : qaction :=
  let p := snd tp in
  if q_where q (p_acc p) (p_com p) then
    match q_account q (p_acc p) with
    | ShPanic => QPanic
    | ShHidden => QSkip
    | ShAcc a => QInsert (q_date q (t_date (fst tp))) a (p_com p) (if q_valued q then p_val p else p_qty p)
    end
  else QSkip.

Lemma query_pstep_eq q r tp :
  pstep (query_posting q report_insert) r tp =
  match qact q tp with
  | QPanic => RPanic k_shorten
  | QSkip => ROk r
  | QInsert d a c v => ROk (report_insert r d a c v)
  end.
Proof.
  unfold pstep, query_posting, qact. destruct (q_where q (p_acc (snd tp)) (p_com (snd tp))); [|reflexivity].
  destruct (q_account q (p_acc (snd tp))); reflexivity.
Qed.

Lemma query_txns_rel q r1 r2 ts1 ts2 :
  report_eq r1 r1 -> report_eq r1 r2 -> Permutation ts1 ts2 ->
  req (fun a b => report_eq (fst a) (fst b) /\ snd a = ts1 /\ snd b = ts2)
      (fold_txns (query_proc q report_insert) r1 ts1) (fold_txns (query_proc q report_insert) r2 ts2).
Proof.
  intros Hw Hr P.
  apply (fold_txns_perm_id (query_proc q report_insert) (query_posting q report_insert) report_eq (fun _ => True)
                           eq_refl eq_refl report_eq_trans); auto.
  - intros s t x s' x'. unfold query_posting. destruct (q_where q (p_acc x) (p_com x)); [|intros [= _ <-]; reflexivity].
    destruct (q_account q (p_acc x)); intros [= _ <-]; reflexivity.
  - intros s s' a _ H. rewrite !query_pstep_eq. destruct (qact q a); cbn [req]; [exact I|exact H|apply report_insert_resp; exact H].
  - intros s a b _ _ H. rewrite !query_pstep_eq.
    destruct (qact q a) as [| |d1 a1 c1 v1] eqn:Ea, (qact q b) as [| |d2 a2 c2 v2] eqn:Eb; cbn [rbind];
      rewrite ?query_pstep_eq, ?Ea, ?Eb; cbn [req]; try exact I; try exact H;
      try (apply report_insert_resp; exact H).
    apply report_insert_comm. exact H.
  - apply Forall_forall. intros; exact I.
Qed.

Definition Rrep (r r' : report) : Prop := report_eq r r /\ report_eq r r'.

Lemma report_eq_left r r' : report_eq r r' -> report_eq r r.
Proof. intros [H1 H2]. split; eapply node_eq_left; eassumption. Qed.

Lemma query_day_rel q r1 r2 d1 d2 :
  Rrep r1 r2 -> day_equiv d1 d2 ->
  req (fun a b => Rrep (fst a) (fst b) /\ True)
      (process_day (query_proc q report_insert) r1 d1) (process_day (query_proc q report_insert) r2 d2).
Proof.
  intros [Hw Hr] (E0 & E1 & E2 & E3 & E4 & E5 & E6).
  unfold process_day. cbn [query_proc pr_day_start pr_price pr_open pr_close pr_day_end rbind fst snd].
  eapply req_bind; [apply query_txns_rel; [exact Hw|exact Hr|exact E3]|].
  intros [a1 t1] [a2 t2] (Ha & _ & _). cbn [fst snd].
  rewrite !fold_asserts_none by reflexivity. cbn [rbind req fst snd].
  split; [|exact I]. split; [eapply report_eq_left; exact Ha|exact Ha].
Qed.

Theorem query_stage_rel q l1 l2 :
  Forall2 day_equiv l1 l2 ->
  req (fun a b => report_eq (fst a) (fst b))
      (process_days (query_proc q report_insert) new_report l1) (process_days (query_proc q report_insert) new_report l2).
Proof.
  intros HF.
  eapply req_impl; [|apply (process_days_rel (query_proc q report_insert) Rrep day_equiv (fun _ _ => True));
                     [intros; apply query_day_rel; assumption|exact HF|split; apply new_report_wf]].
  intros a b [[_ H] _]. exact H.
Qed.
