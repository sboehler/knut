(* C05: insertion into a list kept in key order (Model/Price.v sm_put, the children of a report
   node in Model/Report.v) commutes on distinct keys and composes on equal keys -- without any
   sortedness assumption on the list. *)
From Coq Require Import ZArith List Bool Lia.
From Knut Require Import Model.Str Model.Price Proofs.SMapProofs.
Import ListNotations.
Open Scope Z_scope.

Lemma str_cmp_gt_trans a b c : str_cmp a b = Gt -> str_cmp b c = Gt -> str_cmp a c = Gt.
Proof.
  intros H1 H2. apply str_cmp_gt_lt in H1. apply str_cmp_gt_lt in H2.
  pose proof (str_cmp_lt_trans _ _ _ H2 H1) as H. rewrite (str_cmp_antisym c a), H. reflexivity.
Qed.

(* The common shape of sm_put and Report.children_insert: walk to the first element whose key is
   not below k; update it if its key is k, else put [new] in front of it. *)
Section Upsert.
  Context {A : Type} (key : A -> str).

  Fixpoint upsert (new : A) (upd : A -> A) (k : str) (l : list A) : list A :=
    match l with
    | [] => [new]
    | c :: l' =>
      match str_cmp k (key c) with
      | Eq => upd c :: l'
      | Lt => new :: l
      | Gt => c :: upsert new upd k l'
      end
    end.

  Lemma upsert_resp (R : A -> A -> Prop) n n' u u' k l l' :
    R n n' -> (forall c c', R c c' -> R (u c) (u' c')) -> (forall c c', R c c' -> key c = key c') ->
    Forall2 R l l' -> Forall2 R (upsert n u k l) (upsert n' u' k l').
  Proof.
    intros Hn Hu Hk. induction 1 as [|c c' l l' Hc Hl IH]; cbn [upsert].
    - constructor; [exact Hn|constructor].
    - rewrite <- (Hk c c' Hc). destruct (str_cmp k (key c)); constructor; auto.
  Qed.

  Lemma upsert_upsert_same n1 n2 u1 u2 k l :
    key n2 = k -> (forall c, key c = k -> key (u2 c) = k) ->
    upsert n1 u1 k (upsert n2 u2 k l) = upsert (u1 n2) (fun c => u1 (u2 c)) k l.
  Proof.
    intros key_n2 key_u2. induction l as [|c l IH]; cbn [upsert].
    - rewrite key_n2, str_cmp_refl. reflexivity.
    - destruct (str_cmp k (key c)) eqn:E; cbn [upsert].
      + rewrite key_u2, str_cmp_refl by (symmetry; apply str_cmp_eq, E). reflexivity.
      + rewrite key_n2, str_cmp_refl. reflexivity.
      + rewrite E, IH. reflexivity.
  Qed.

  Section Two.
    Variables (n1 n2 : A) (u1 u2 : A -> A) (k1 k2 : str).
    Hypothesis key_n1 : key n1 = k1.
    Hypothesis key_n2 : key n2 = k2.
    Hypothesis key_u1 : forall c, key c = k1 -> key (u1 c) = k1.
    Hypothesis key_u2 : forall c, key c = k2 -> key (u2 c) = k2.

    (* k1 is inserted where the walk first meets a key >= k1; an insertion at k2 > k1 changes
       nothing before that point and leaves the key found there >= k1. *)
    Lemma upsert_comm_lt l :
      str_cmp k1 k2 = Lt -> upsert n1 u1 k1 (upsert n2 u2 k2 l) = upsert n2 u2 k2 (upsert n1 u1 k1 l).
    Proof.
      intros Hlt. assert (Hgt : str_cmp k2 k1 = Gt) by (rewrite str_cmp_antisym, Hlt; reflexivity).
      induction l as [|c l IH]; cbn [upsert].
      - rewrite key_n1, key_n2, Hlt, Hgt. reflexivity.
      - destruct (str_cmp k1 (key c)) eqn:E1.
        + pose proof (proj1 (str_cmp_eq _ _) E1) as Q. rewrite <- Q, Hgt. cbn [upsert].
          rewrite <- Q, str_cmp_refl, key_u1, Hgt by (symmetry; exact Q). reflexivity.
        + cbn [upsert]. rewrite key_n1, Hgt. f_equal.
          destruct (str_cmp k2 (key c)) eqn:E2; cbn [upsert].
          * rewrite key_u2, Hlt by (symmetry; apply str_cmp_eq, E2). reflexivity.
          * rewrite key_n2, Hlt. reflexivity.
          * rewrite E1. reflexivity.
        + assert (E2 : str_cmp k2 (key c) = Gt) by (eapply str_cmp_gt_trans; eassumption).
          rewrite E2. cbn [upsert]. rewrite E1, E2, IH. reflexivity.
    Qed.
  End Two.

  Lemma upsert_comm n1 n2 u1 u2 k1 k2 l :
    key n1 = k1 -> key n2 = k2 ->
    (forall c, key c = k1 -> key (u1 c) = k1) -> (forall c, key c = k2 -> key (u2 c) = k2) ->
    k1 <> k2 -> upsert n1 u1 k1 (upsert n2 u2 k2 l) = upsert n2 u2 k2 (upsert n1 u1 k1 l).
  Proof.
    intros N1 N2 U1 U2 Hne. destruct (str_cmp k1 k2) eqn:E.
    - apply str_cmp_eq in E. contradiction.
    - apply upsert_comm_lt; assumption.
    - symmetry. apply upsert_comm_lt; try assumption. apply str_cmp_gt_lt. exact E.
  Qed.
End Upsert.

Section SMapComm.
  Context {V : Type}.
  Implicit Types (m : smap V) (k : str) (v : V).

  Lemma sm_put_upsert m k v : sm_put m k v = upsert fst (k, v) (fun _ => (k, v)) k m.
  Proof.
    induction m as [|[k0 v0] m IH]; cbn [sm_put upsert fst]; [reflexivity|].
    rewrite IH. reflexivity.
  Qed.

  Lemma sm_put_put_same m k v v' : sm_put (sm_put m k v) k v' = sm_put m k v'.
  Proof. rewrite !sm_put_upsert, upsert_upsert_same; reflexivity. Qed.

  Lemma sm_put_comm m k1 v1 k2 v2 :
    k1 <> k2 -> sm_put (sm_put m k1 v1) k2 v2 = sm_put (sm_put m k2 v2) k1 v1.
  Proof. intros Hne. rewrite !sm_put_upsert. apply upsert_comm; auto. Qed.
End SMapComm.
