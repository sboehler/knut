(* C05: every stage of the balance pipeline maps equivalent day lists (same dates, each kind's
   list permuted, [OrderProofs.day_equiv]) to equivalent day lists, or fails on both.
   Generic part: the transaction loop of Processor.Process as a fold over (transaction, posting)
   items; then the checker. *)
From Coq Require Import ZArith List Bool Lia Permutation.
From Knut Require Import Proofs.ListFacts Proofs.SMapProofs Model.Str Model.Dec Model.Date Model.Account Model.Ledger Model.Price Model.Journal
     Model.Check Model.Pipeline Spec.WellformedSpec Proofs.DecProofs Proofs.CheckLemmas Proofs.CheckProofs
     Proofs.JournalFacts Proofs.PairProofs Proofs.CheckPerm Proofs.OrderSMap Proofs.OrderProofs.
Import ListNotations.
Open Scope bool_scope.
Open Scope Z_scope.

Definition rfst {A B} (x : presult (A * B)) : presult A :=
  match x with ROk p => ROk (fst p) | RErr k d => RErr k d | RPanic m => RPanic m end.

Lemma req_from_rfst {A B} (R : A -> A -> Prop) (P Q : B -> Prop) (x y : presult (A * B)) :
  req R (rfst x) (rfst y) -> (forall a, x = ROk a -> P (snd a)) -> (forall b, y = ROk b -> Q (snd b)) ->
  req (fun a b => R (fst a) (fst b) /\ P (snd a) /\ Q (snd b)) x y.
Proof.
  destruct x as [a| |], y as [b| |]; cbn; try tauto. intros H HP HQ. repeat split; auto.
Qed.

Definition items (ts : list txn) : list (txn * posting) := flat_map (fun t => map (pair t) (t_postings t)) ts.

Definition pstep {S} (f : S -> txn -> posting -> presult (S * posting)) (s : S) (tp : txn * posting) : presult S :=
  rfst (f s (fst tp) (snd tp)).

Definition txn_map (g : posting -> posting) (t : txn) : txn :=
  mkTxn (t_date t) (t_desc t) (map g (t_postings t)) (t_targets t).

Lemma txn_map_id t : txn_map (fun p => p) t = t.
Proof. destruct t. unfold txn_map. cbn. rewrite map_id. reflexivity. Qed.

Lemma map_txn_map_id ts : map (txn_map (fun p => p)) ts = ts.
Proof. induction ts as [|t ts IH]; cbn [map]; [reflexivity|]. rewrite txn_map_id, IH. reflexivity. Qed.

Lemma items_perm ts1 ts2 : Permutation ts1 ts2 -> Permutation (items ts1) (items ts2).
Proof. apply Permutation_flat_map. Qed.

Lemma fold_postings_state {S} (f : S -> txn -> posting -> presult (S * posting)) t ps : forall s,
  rfst (fold_postings f t s ps) = fold_res (pstep f) s (map (pair t) ps).
Proof.
  induction ps as [|x ps IH]; intros s; cbn [fold_postings map fold_res]; [reflexivity|].
  unfold pstep at 1. cbn [fst snd].
  destruct (f s t x) as [[s1 x1]| |]; cbn [rbind rfst fst snd]; try reflexivity.
  rewrite <- IH. destruct (fold_postings f t s1 ps) as [[s2 r]| |]; reflexivity.
Qed.

Lemma fold_txns_state {S} (p : processor S) f ts :
  pr_txn p = None -> pr_posting p = Some f ->
  forall s, rfst (fold_txns p s ts) = fold_res (pstep f) s (items ts).
Proof.
  intros Hn Hf. induction ts as [|t ts IH]; intros s; cbn [fold_txns items flat_map]; [reflexivity|].
  rewrite Hn, Hf. cbn [rbind]. rewrite fold_res_app, <- fold_postings_state.
  destruct (fold_postings f t s (t_postings t)) as [[s1 ps]| |]; cbn [rbind rfst fst snd]; try reflexivity.
  fold (items ts). rewrite <- IH. destruct (fold_txns p s1 ts) as [[s2 r]| |]; reflexivity.
Qed.

Section TxnOut.
  Context {S : Type} (p : processor S) (f : S -> txn -> posting -> presult (S * posting))
          (I : S -> Prop) (g : posting -> posting).
  Hypothesis Hn : pr_txn p = None.
  Hypothesis Hf : pr_posting p = Some f.
  Hypothesis Hg : forall s t x s' x', I s -> f s t x = ROk (s', x') -> x' = g x /\ I s'.

  Lemma fold_postings_out t ps : forall s s' ps',
    I s -> fold_postings f t s ps = ROk (s', ps') -> ps' = map g ps /\ I s'.
  Proof.
    induction ps as [|x ps IH]; intros s s' ps' Hs H.
    - inversion H; subst. split; [reflexivity|exact Hs].
    - apply fold_postings_cons_ok in H. destruct H as (s1 & x1 & r & E & E2 & ->).
      destruct (Hg _ _ _ _ _ Hs E) as [-> Hs1]. destruct (IH _ _ _ Hs1 E2) as [-> Hs2]. split; [reflexivity|exact Hs2].
  Qed.

  Lemma fold_txns_out ts : forall s s' ts',
    I s -> fold_txns p s ts = ROk (s', ts') -> ts' = map (txn_map g) ts /\ I s'.
  Proof.
    induction ts as [|t ts IH]; intros s s' ts' Hs H.
    - inversion H; subst. split; [reflexivity|exact Hs].
    - destruct (fold_txns_cons p f _ _ _ _ _ Hn Hf H) as (s1 & ps & r & E & E2 & ->).
      destruct (fold_postings_out _ _ _ _ _ Hs E) as [-> Hs1]. destruct (IH _ _ _ Hs1 E2) as [-> Hs2].
      split; [reflexivity|exact Hs2].
  Qed.
End TxnOut.

(* The transaction loop over permuted transactions: if the posting callback rewrites each posting
   by [g] (under an invariant [I] of the state) and its state steps respect [R] and commute up
   to [R] on postings satisfying [P], both runs fail or end in related states, each with its
   own transactions mapped by [g]. *)
Section TxnPerm.
  Context {S : Type} (p : processor S) (f : S -> txn -> posting -> presult (S * posting))
          (R : S -> S -> Prop) (I : S -> Prop) (g : posting -> posting) (P : txn * posting -> Prop).
  Hypothesis Hn : pr_txn p = None.
  Hypothesis Hf : pr_posting p = Some f.
  Hypothesis R_trans : forall a b c, R a b -> R b c -> R a c.
  Hypothesis f_out : forall s t x s' x', I s -> f s t x = ROk (s', x') -> x' = g x /\ I s'.
  Hypothesis f_resp : forall s s' tp, P tp -> R s s' -> req R (pstep f s tp) (pstep f s' tp).
  Hypothesis f_comm : forall s a b, P a -> P b -> R s s ->
    req R (rbind (pstep f s a) (fun s1 => pstep f s1 b)) (rbind (pstep f s b) (fun s1 => pstep f s1 a)).

  Lemma fold_txns_perm s1 s2 ts1 ts2 :
    R s1 s1 -> R s1 s2 -> I s1 -> I s2 -> Permutation ts1 ts2 -> Forall P (items ts1) ->
    req (fun a b => R (fst a) (fst b) /\ snd a = map (txn_map g) ts1 /\ snd b = map (txn_map g) ts2)
        (fold_txns p s1 ts1) (fold_txns p s2 ts2).
  Proof.
    intros H1 H12 I1 I2 Pm HP.
    apply (req_from_rfst R (fun t => t = map (txn_map g) ts1) (fun t => t = map (txn_map g) ts2)).
    - rewrite !(fold_txns_state p f) by assumption.
      apply (fold_res_perm R (pstep f) P); auto using items_perm.
    - intros [s' ts'] E. exact (proj1 (fold_txns_out p f I g Hn Hf f_out ts1 s1 s' ts' I1 E)).
    - intros [s' ts'] E. exact (proj1 (fold_txns_out p f I g Hn Hf f_out ts2 s2 s' ts' I2 E)).
  Qed.
End TxnPerm.

(* the same for a callback that leaves the postings as they are *)
Lemma fold_txns_perm_id {S} (p : processor S) f (R : S -> S -> Prop) (P : txn * posting -> Prop) :
  pr_txn p = None -> pr_posting p = Some f ->
  (forall a b c, R a b -> R b c -> R a c) ->
  (forall s t x s' x', f s t x = ROk (s', x') -> x' = x) ->
  (forall s s' tp, P tp -> R s s' -> req R (pstep f s tp) (pstep f s' tp)) ->
  (forall s a b, P a -> P b -> R s s ->
     req R (rbind (pstep f s a) (fun s1 => pstep f s1 b)) (rbind (pstep f s b) (fun s1 => pstep f s1 a))) ->
  forall s1 s2 ts1 ts2, R s1 s1 -> R s1 s2 -> Permutation ts1 ts2 -> Forall P (items ts1) ->
  req (fun a b => R (fst a) (fst b) /\ snd a = ts1 /\ snd b = ts2) (fold_txns p s1 ts1) (fold_txns p s2 ts2).
Proof.
  intros Hn Hf T Hout Hr Hc s1 s2 ts1 ts2 H1 H12 Pm HP.
  assert (Hout' : forall s t x s' x', True -> f s t x = ROk (s', x') -> x' = x /\ True)
    by (intros s t x s' x' _ E; split; [exact (Hout _ _ _ _ _ E)|exact I]).
  pose proof (fold_txns_perm p f R (fun _ => True) (fun x => x) P Hn Hf T Hout' Hr Hc
                             s1 s2 ts1 ts2 H1 H12 I I Pm HP) as G.
  rewrite !map_txn_map_id in G. exact G.
Qed.

(* the assertion loop as a fold over (assertion, balance line) items *)
Definition bitems (l : list (list balance)) : list (list balance * balance) := flat_map (fun a => map (pair a) a) l.

Lemma fold_asserts_state {S} (p : processor S) f l :
  pr_balance p = Some f ->
  forall s, fold_asserts p s l = fold_res (fun s ab => f s (fst ab) (snd ab)) s (bitems l).
Proof.
  intros Hf. induction l as [|a l IH]; intros s; cbn [fold_asserts bitems flat_map]; [reflexivity|].
  rewrite Hf, fold_res_app. fold (bitems l).
  assert (E : forall (bs : list balance) s0, fold_res (fun s b => f s a b) s0 bs =
              fold_res (fun s ab => f s (fst ab) (snd ab)) s0 (map (pair a) bs)).
  { induction bs as [|b bs IHb]; intros s0; cbn [fold_res map fst snd]; [reflexivity|].
    destruct (f s0 a b); cbn [rbind]; [apply IHb|reflexivity|reflexivity]. }
  rewrite E. destruct (fold_res _ s (map (pair a) a)); cbn [rbind]; [apply IH|reflexivity|reflexivity].
Qed.

Lemma process_days_rel {S} (p : processor S) (R : S -> S -> Prop) (DI DO : day -> day -> Prop) :
  (forall s1 s2 d1 d2, R s1 s2 -> DI d1 d2 ->
     req (fun a b => R (fst a) (fst b) /\ DO (snd a) (snd b)) (process_day p s1 d1) (process_day p s2 d2)) ->
  forall l1 l2, Forall2 DI l1 l2 -> forall s1 s2, R s1 s2 ->
  req (fun a b => R (fst a) (fst b) /\ Forall2 DO (snd a) (snd b)) (process_days p s1 l1) (process_days p s2 l2).
Proof.
  intros Hd l1 l2 HF. induction HF as [|d1 d2 l1 l2 Hdd Hl IH]; intros s1 s2 Hs; cbn [process_days].
  - cbn. split; [exact Hs|constructor].
  - eapply req_bind; [apply Hd; eassumption|].
    intros [s1' d1'] [s2' d2'] [H1 H2]. cbn [fst snd] in *.
    eapply req_bind; [apply IH; exact H1|].
    intros [s1'' r1] [s2'' r2] [H3 H4]. cbn [fst snd req] in *. split; [exact H3|constructor; assumption].
Qed.

Definition txns_accs_ok (ts : list txn) : Prop :=
  forall t p, In t ts -> In p (t_postings t) -> account_ok (p_acc p) = true.
Definition day_accs_ok (d : day) : Prop := txns_accs_ok (d_txns d).

Lemma txns_accs_ok_perm ts1 ts2 : Permutation ts1 ts2 -> txns_accs_ok ts1 -> txns_accs_ok ts2.
Proof. intros P H t p Ht Hp. apply (H t p); [eapply Permutation_in; [apply Permutation_sym; eassumption|exact Ht]|exact Hp]. Qed.

Lemma txns_accs_ok_app ts1 ts2 : txns_accs_ok ts1 -> txns_accs_ok ts2 -> txns_accs_ok (ts1 ++ ts2).
Proof. intros H1 H2 t p Ht. apply in_app_or in Ht. destruct Ht; [apply H1|apply H2]; assumption. Qed.

Lemma items_accs_ok ts : txns_accs_ok ts -> Forall (fun tp : txn * posting => account_ok (p_acc (snd tp)) = true) (items ts).
Proof.
  intros H. apply Forall_forall. intros [t p] Hin. unfold items in Hin. apply in_flat_map in Hin.
  destruct Hin as [t' [Ht Hp]]. apply in_map_iff in Hp. destruct Hp as [p' [E Hp]]. inversion E; subst.
  cbn [snd]. eapply H; eassumption.
Qed.

Lemma pos_add_comm m a c q b c' q' :
  account_ok a = true -> account_ok b = true ->
  pos_add (pos_add m a c q) b c' q' = pos_add (pos_add m b c' q') a c q.
Proof.
  intros Ha Hb. unfold pos_add, pos_get.
  destruct (WellformedSpec.str_eq_dec (pos_key a c) (pos_key b c')) as [E|N].
  - destruct (pos_key_inj _ _ _ _ Ha Hb E) as [-> ->].
    rewrite !sm_get_put_same, !sm_put_put_same.
    f_equal. f_equal. rewrite !add_assoc. f_equal. apply add_comm.
  - rewrite (sm_get_put_other m (pos_key a c) _ (pos_key b c')) by congruence.
    rewrite (sm_get_put_other m (pos_key b c') _ (pos_key a c)) by congruence.
    apply sm_put_comm. exact N.
Qed.

(* checker states that mean the same: the same accounts are open (the list of open accounts is
   in arrival order), the same quantities *)
Definition Rck (s s' : check_state) : Prop :=
  (forall a, is_open s a = is_open s' a) /\ ck_qty s = ck_qty s'.

Lemma Rck_refl s : Rck s s.
Proof. split; reflexivity. Qed.

Lemma Rck_trans a b c : Rck a b -> Rck b c -> Rck a c.
Proof. intros [H1 H2] [K1 K2]. split; [intros x; rewrite H1; apply K1|congruence]. Qed.

Lemma ck_open_resp s s' a : Rck s s' -> req Rck (ck_open_cb s a) (ck_open_cb s' a).
Proof.
  intros [Ho Hq]. unfold ck_open_cb. rewrite (Ho a). destruct (is_open s' a); cbn [req]; [exact I|].
  split; [|exact Hq]. intros b. rewrite !is_open_cons. f_equal.
  specialize (Ho b). unfold is_open in *. exact Ho.
Qed.

Lemma ck_open_comm s a b :
  req Rck (rbind (ck_open_cb s a) (fun s1 => ck_open_cb s1 b)) (rbind (ck_open_cb s b) (fun s1 => ck_open_cb s1 a)).
Proof.
  unfold ck_open_cb. destruct (is_open s a) eqn:Ea, (is_open s b) eqn:Eb; cbn [rbind].
  - exact I.
  - rewrite is_open_cons. replace (is_open (mkCheck (ck_open s) (ck_qty s)) a) with true by (symmetry; exact Ea).
    rewrite orb_true_r. exact I.
  - rewrite is_open_cons. replace (is_open (mkCheck (ck_open s) (ck_qty s)) b) with true by (symmetry; exact Eb).
    rewrite orb_true_r. exact I.
  - rewrite !is_open_cons.
    replace (is_open (mkCheck (ck_open s) (ck_qty s)) a) with false by (symmetry; exact Ea).
    replace (is_open (mkCheck (ck_open s) (ck_qty s)) b) with false by (symmetry; exact Eb).
    rewrite !orb_false_r, (acc_eqb_sym b a). destruct (acc_eqb a b); cbn [req]; [exact I|].
    split; [|reflexivity]. intros c. cbn [ck_open ck_qty]. rewrite !is_open_cons.
    destruct (acc_eqb c a), (acc_eqb c b); reflexivity.
Qed.

Lemma ck_pstep_eq s tp :
  pstep ck_posting_cb s tp =
  if negb (is_open s (p_acc (snd tp))) then RErr k_not_open (acc_name (p_acc (snd tp)))
  else if is_AL (p_acc (snd tp))
       then ROk (mkCheck (ck_open s) (pos_add (ck_qty s) (p_acc (snd tp)) (p_com (snd tp)) (p_qty (snd tp))))
       else ROk s.
Proof.
  unfold pstep, ck_posting_cb. destruct (negb (is_open s (p_acc (snd tp)))); [reflexivity|].
  destruct (is_AL (p_acc (snd tp))); reflexivity.
Qed.

Lemma ck_pstep_resp s s' tp : Rck s s' -> req Rck (pstep ck_posting_cb s tp) (pstep ck_posting_cb s' tp).
Proof.
  intros [Ho Hq]. rewrite !ck_pstep_eq, (Ho (p_acc (snd tp))), Hq.
  destruct (negb (is_open s' (p_acc (snd tp)))); cbn [req]; [exact I|].
  destruct (is_AL (p_acc (snd tp))); cbn [req]; (split; [|first [reflexivity|exact Hq]]); intros b; apply Ho.
Qed.

Lemma ck_pstep_comm s x y :
  account_ok (p_acc (snd x)) = true -> account_ok (p_acc (snd y)) = true ->
  req Rck (rbind (pstep ck_posting_cb s x) (fun s1 => pstep ck_posting_cb s1 y))
          (rbind (pstep ck_posting_cb s y) (fun s1 => pstep ck_posting_cb s1 x)).
Proof.
  intros Hx Hy. rewrite !ck_pstep_eq.
  assert (K : forall q a, is_open (mkCheck (ck_open s) q) a = is_open s a) by reflexivity.
  destruct (is_open s (p_acc (snd x))) eqn:Ex, (is_open s (p_acc (snd y))) eqn:Ey; cbn [negb rbind];
    destruct (is_AL (p_acc (snd x))) eqn:Ax, (is_AL (p_acc (snd y))) eqn:Ay; cbn [negb rbind];
    rewrite ?ck_pstep_eq, ?K, ?Ex, ?Ey, ?Ax, ?Ay; cbn [negb rbind req ck_open ck_qty]; try exact I;
    (split; [intros b; reflexivity|]); try reflexivity.
  cbn [ck_qty]. apply pos_add_comm; assumption.
Qed.

Definition close_ok (m : positions) (a : account) : bool :=
  forallb (fun x => negb (acc_eqb a (entry_acc x)) || is_zero (snd (snd x))) m.
Definition close_rest (m : positions) (a : account) : positions :=
  filter (fun x => negb (acc_eqb a (entry_acc x))) m.

Lemma close_positions_eq m a : close_positions m a = if close_ok m a then Some (close_rest m a) else None.
Proof.
  induction m as [|[k [[a' c] q]] rest IH]; cbn [close_positions close_ok close_rest forallb filter]; [reflexivity|].
  unfold entry_acc at 1 3. cbn [fst snd]. fold (close_ok rest a). fold (close_rest rest a).
  destruct (acc_eqb a a'); cbn [negb orb andb].
  - destruct (is_zero q); cbn [andb]; [exact IH|reflexivity].
  - rewrite IH. destruct (close_ok rest a); reflexivity.
Qed.

Lemma close_ok_rest m a b : acc_eqb a b = false -> close_ok (close_rest m a) b = close_ok m b.
Proof.
  intros N. unfold close_ok, close_rest. induction m as [|x m IH]; cbn [filter forallb]; [reflexivity|].
  destruct (acc_eqb a (entry_acc x)) eqn:E; cbn [negb forallb].
  - rewrite IH. assert (acc_eqb b (entry_acc x) = false) as ->.
    { destruct (acc_eqb b (entry_acc x)) eqn:E2; [|reflexivity].
      apply acc_eqb_name in E. apply acc_eqb_name in E2.
      assert (acc_eqb a b = true) by (apply acc_eqb_name; congruence). congruence. }
    reflexivity.
  - rewrite IH. reflexivity.
Qed.

Lemma ck_close_eq s a :
  ck_close_cb s a =
  if close_ok (ck_qty s) a then
    if negb (is_open s a) then RErr k_not_open (acc_name a)
    else ROk (mkCheck (filter (fun x => negb (acc_eqb a x)) (ck_open s)) (close_rest (ck_qty s) a))
  else RErr k_nonzero (acc_name a).
Proof. unfold ck_close_cb. rewrite close_positions_eq. destruct (close_ok (ck_qty s) a); reflexivity. Qed.

Lemma is_open_filtered o q a b :
  is_open (mkCheck (filter (fun x => negb (acc_eqb a x)) o) q) b = negb (acc_eqb a b) && existsb (acc_eqb b) o.
Proof. unfold is_open. cbn [ck_open]. apply existsb_filter_acc. Qed.

Lemma ck_close_resp s s' a : Rck s s' -> req Rck (ck_close_cb s a) (ck_close_cb s' a).
Proof.
  intros [Ho Hq]. rewrite !ck_close_eq, (Ho a), Hq.
  destruct (close_ok (ck_qty s') a); cbn [req]; [|exact I].
  destruct (negb (is_open s' a)); cbn [req]; [exact I|].
  split; [|reflexivity]. intros b. rewrite !is_open_filtered. f_equal. apply Ho.
Qed.

Lemma ck_close_comm s a b :
  req Rck (rbind (ck_close_cb s a) (fun s1 => ck_close_cb s1 b)) (rbind (ck_close_cb s b) (fun s1 => ck_close_cb s1 a)).
Proof.
  rewrite !ck_close_eq.
  destruct (acc_eqb a b) eqn:Eab.
  - (* the same account twice: whenever the first close succeeds the second finds the account
       closed, so both sides fail in all cases *)
    assert (Eba : acc_eqb b a = true) by (rewrite acc_eqb_sym; exact Eab).
    destruct (close_ok (ck_qty s) a), (close_ok (ck_qty s) b); cbn [rbind]; try exact I;
      destruct (negb (is_open s a)), (negb (is_open s b)); cbn [rbind]; try exact I;
      rewrite ?ck_close_eq; cbn [ck_qty ck_open];
      try (destruct (close_ok (close_rest (ck_qty s) a) b)); try (destruct (close_ok (close_rest (ck_qty s) b) a));
      rewrite ?is_open_filtered, ?Eab, ?Eba; cbn [negb andb req]; exact I.
  - (* different accounts: closing one changes neither whether the other may be closed
       (close_ok_rest) nor whether it is open (is_open_filtered), so every case but one fails
       on both sides; when both closes succeed the two states differ in the order of two filters *)
    assert (Eba : acc_eqb b a = false) by (rewrite acc_eqb_sym; exact Eab).
    destruct (close_ok (ck_qty s) a) eqn:Ca, (close_ok (ck_qty s) b) eqn:Cb; cbn [rbind];
      destruct (is_open s a) eqn:Oa, (is_open s b) eqn:Ob; cbn [negb rbind];
      rewrite ?ck_close_eq; cbn [ck_qty ck_open];
      rewrite ?(close_ok_rest _ _ _ Eab), ?(close_ok_rest _ _ _ Eba), ?Ca, ?Cb, ?is_open_filtered, ?Eab, ?Eba;
      unfold is_open in Oa, Ob; rewrite ?Oa, ?Ob; cbn [negb andb req]; try exact I.
    split.
    + intros c. unfold is_open. cbn [ck_open]. rewrite filter_comm. reflexivity.
    + cbn [ck_qty]. unfold close_rest. apply filter_comm.
Qed.

(* The checker as a processor, with the balance callback [fb] left open: Model/Check.v
   [check_proc] and [check_proc_fixed] are [check_proc_with (ck_balance_cb lenient)] and
   [check_proc_with ck_balance_fixed].  What is proved below holds for any callback that leaves
   the state alone and respects equivalent states; all variants of Checker.balance do. *)
Definition check_proc_with (fb : check_state -> list balance -> balance -> presult check_state) : processor check_state :=
  mkProc None None (Some ck_open_cb) None (Some ck_posting_cb) (Some fb) (Some ck_close_cb) None.

Section CheckStage.
  Variable fb : check_state -> list balance -> balance -> presult check_state.
  Hypothesis fb_pure : forall s a b s', fb s a b = ROk s' -> s' = s.
  Hypothesis fb_resp : forall s s' a b, Rck s s' -> req Rck (fb s a b) (fb s' a b).

  Let p := check_proc_with fb.

  Lemma check_txns_rel s1 s2 ts1 ts2 :
    Rck s1 s2 -> Permutation ts1 ts2 -> txns_accs_ok ts1 ->
    req (fun a b => Rck (fst a) (fst b) /\ snd a = ts1 /\ snd b = ts2) (fold_txns p s1 ts1) (fold_txns p s2 ts2).
  Proof.
    intros Hs P Hok.
    apply (fold_txns_perm_id p ck_posting_cb Rck (fun tp => account_ok (p_acc (snd tp)) = true) eq_refl eq_refl Rck_trans);
      auto using Rck_refl, ck_pstep_resp, ck_pstep_comm, items_accs_ok.
    exact ck_posting_id.
  Qed.

  Lemma check_asserts_rel s1 s2 l1 l2 :
    Rck s1 s2 -> Permutation l1 l2 -> req Rck (fold_asserts p s1 l1) (fold_asserts p s2 l2).
  Proof.
    intros Hs P. rewrite !(fold_asserts_state p fb) by reflexivity.
    apply (fold_res_perm Rck _ (fun _ => True)).
    - exact Rck_trans.
    - intros; apply fb_resp; assumption.
    - intros s x y _ _ _.
      destruct (fb s (fst x) (snd x)) as [sx| |] eqn:Ex; destruct (fb s (fst y) (snd y)) as [sy| |] eqn:Ey; cbn [rbind];
        try (pose proof (fb_pure _ _ _ _ Ex); subst sx); try (pose proof (fb_pure _ _ _ _ Ey); subst sy);
        rewrite ?Ex, ?Ey; cbn [req]; try exact I.
      apply Rck_refl.
    - unfold bitems. apply Permutation_flat_map. exact P.
    - apply Forall_forall. intros; exact I.
    - apply Rck_refl.
    - exact Hs.
  Qed.

  Definition DIok (d1 d2 : day) : Prop := day_equiv d1 d2 /\ day_accs_ok d1.

  Lemma check_day_rel s1 s2 d1 d2 :
    Rck s1 s2 -> DIok d1 d2 ->
    req (fun a b => Rck (fst a) (fst b) /\ (snd a = d1 /\ snd b = d2)) (process_day p s1 d1) (process_day p s2 d2).
  Proof.
    intros Hs [(E0 & E1 & E2 & E3 & E4 & E5 & E6) Hok]. unfold process_day. cbn [p check_proc_with pr_day_start pr_price pr_open pr_close pr_day_end rbind fst snd].
    eapply req_bind.
    { apply (fold_res_perm Rck ck_open_cb (fun _ => True) Rck_trans).
      - intros; apply ck_open_resp; assumption.
      - intros; apply ck_open_comm.
      - exact E2.
      - apply Forall_forall. intros; exact I.
      - apply Rck_refl.
      - exact Hs. }
    intros a1 a2 Ha. eapply req_bind; [apply check_txns_rel; [exact Ha|exact E3|exact Hok]|].
    intros [b1 t1] [b2 t2] (Hb & -> & ->). cbn [fst snd].
    eapply req_bind; [apply check_asserts_rel; [exact Hb|exact E4]|].
    intros c1 c2 Hc. eapply req_bind.
    { apply (fold_res_perm Rck ck_close_cb (fun _ => True) Rck_trans).
      - intros; apply ck_close_resp; assumption.
      - intros; apply ck_close_comm.
      - exact E5.
      - apply Forall_forall. intros; exact I.
      - apply Rck_refl.
      - exact Hc. }
    intros e1 e2 He. cbn [req fst snd]. split; [exact He|]. split; [destruct d1|destruct d2]; reflexivity.
  Qed.

  (* the stage: same verdict, and the days come out as they went in *)
  Theorem check_stage_rel s1 s2 l1 l2 :
    Rck s1 s2 -> Forall2 DIok l1 l2 ->
    req (fun a b => Rck (fst a) (fst b) /\ snd a = l1 /\ snd b = l2) (process_days p s1 l1) (process_days p s2 l2).
  Proof.
    intros Hs HF.
    revert s1 s2 Hs. induction HF as [|d1 d2 l1 l2 Hd Hl IH]; intros s1 s2 Hs; cbn [process_days].
    - cbn. auto.
    - eapply req_bind; [apply check_day_rel; eassumption|].
      intros [s1' d1'] [s2' d2'] (H1 & -> & ->). cbn [fst snd].
      eapply req_bind; [apply IH; exact H1|].
      intros [s1'' r1] [s2'' r2] (H3 & -> & ->). cbn [fst snd req]. auto.
  Qed.
End CheckStage.

(* the three variants of Checker.balance *)
Lemma ck_balance_cb_pure l s a b s' : ck_balance_cb l s a b = ROk s' -> s' = s.
Proof.
  unfold ck_balance_cb. destruct (negb (is_open s (bal_acc b))); [discriminate|].
  destruct (pos_get (ck_qty s) (bal_acc b) (bal_com b)).
  - destruct (dec_equal d (bal_qty b)); [intros H; inversion H; reflexivity|discriminate].
  - destruct (l && dec_equal dec_nil (bal_qty b)); [intros H; inversion H; reflexivity|discriminate].
Qed.

Lemma ck_balance_cb_resp l s s' a b : Rck s s' -> req Rck (ck_balance_cb l s a b) (ck_balance_cb l s' a b).
Proof.
  intros [Ho Hq]. unfold ck_balance_cb. rewrite (Ho (bal_acc b)), Hq.
  destruct (negb (is_open s' (bal_acc b))); cbn [req]; [exact I|].
  destruct (pos_get (ck_qty s') (bal_acc b) (bal_com b)).
  - destruct (dec_equal d (bal_qty b)); cbn [req]; [split; assumption|exact I].
  - destruct (l && dec_equal dec_nil (bal_qty b)); cbn [req]; [split; assumption|exact I].
Qed.

Lemma ck_balance_fixed_pure s a b s' : ck_balance_fixed s a b = ROk s' -> s' = s.
Proof.
  unfold ck_balance_fixed. destruct (negb (is_open s (bal_acc b))); [discriminate|].
  destruct (negb (is_AL (bal_acc b))); [intros H; inversion H; reflexivity|apply ck_balance_cb_pure].
Qed.

Lemma ck_balance_fixed_resp s s' a b : Rck s s' -> req Rck (ck_balance_fixed s a b) (ck_balance_fixed s' a b).
Proof.
  intros H. unfold ck_balance_fixed. rewrite (proj1 H (bal_acc b)).
  destruct (negb (is_open s' (bal_acc b))); cbn [req]; [exact I|].
  destruct (negb (is_AL (bal_acc b))); cbn [req]; [exact H|apply ck_balance_cb_resp; exact H].
Qed.
