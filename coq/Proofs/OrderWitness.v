(* C05 witnesses: a journal with same-day transactions, prices, a valuation and closing; a
   permutation of it; the hypotheses of the theorems hold and the tables are equal
   (vm_compute).  And: the error of a failing run depends on the order. *)
From Coq Require Import ZArith List Bool Permutation.
From Knut Require Import Model.Str Model.Dec Model.Date Model.Account Model.Ledger Model.Journal Model.Check
     Model.Pipeline Model.Table Model.Report Model.Cli Spec.WellformedSpec Proofs.CheckMain
     Proofs.OrderProofs Proofs.OrderStages Proofs.OrderPipeline Proofs.OrderCmd.
Import ListNotations.
Open Scope Z_scope.

Definition w_A : account := acc_of_name [65;115;115;101;116;115;58;66].          (* Assets:B *)
Definition w_E : account := acc_of_name [69;120;112;101;110;115;101;115;58;82].  (* Expenses:R *)
Definition w_I : account := acc_of_name [73;110;99;111;109;101;58;83].           (* Income:S *)
Definition w_chf : commodity := [67;72;70].
Definition w_usd : commodity := [85;83;68].
Definition w_d0 : Z := Eval vm_compute in Date.of_civil 2020 1 5.

Definition w_o1 := SOpen w_d0 w_A.
Definition w_o2 := SOpen w_d0 w_E.
Definition w_o3 := SOpen w_d0 w_I.
Definition w_p1 := SPrice w_d0 w_usd (mkDec 95 (-2)) w_chf.
Definition w_p2 := SPrice (w_d0 + 40) w_usd (mkDec 91 (-2)) w_chf.
Definition w_t1 := STxn (mkStxn (w_d0 + 1) [49] [mkBooking w_A w_E (mkDec 1234 (-2)) w_usd] None None).
Definition w_t2 := STxn (mkStxn (w_d0 + 1) [50] [mkBooking w_I w_A (mkDec 500 0) w_chf] None None).
Definition w_t3 := STxn (mkStxn (w_d0 + 1) [51] [mkBooking w_I w_A (mkDec 77 (-1)) w_usd] None None).
Definition w_t4 := STxn (mkStxn (w_d0 + 50) [] [mkBooking w_E w_A (mkDec (-7) 0) w_chf] None None).
Definition w_a1 := SAssert (w_d0 + 1) [mkBalance w_A (mkDec 500 0) w_chf].

Definition w_journal : list sdirective := [w_o1; w_o2; w_o3; w_p1; w_p2; w_t1; w_t2; w_t3; w_t4; w_a1].
Definition w_permuted : list sdirective := [w_t3; w_a1; w_p2; w_t2; w_o3; w_t4; w_t1; w_o2; w_p1; w_o1].

Definition w_cfg : balance_cfg :=
  mkBalanceCfg 0 (w_d0 + 90) Monthly 0 false true (Some w_chf) true [] [] [] [] [] true.
Definition w_cfg_plain : balance_cfg :=
  mkBalanceCfg 0 (w_d0 + 90) Monthly 0 false false None false [] [] [] [] [] true.

Lemma w_perm : Permutation w_journal w_permuted.
Proof.
  unfold w_journal, w_permuted.
  apply NoDup_Permutation.
  - repeat constructor; cbn [In]; intros H; repeat (destruct H as [H|H]; [discriminate H|]); exact H.
  - repeat constructor; cbn [In]; intros H; repeat (destruct H as [H|H]; [discriminate H|]); exact H.
  - intros x. cbn [In]. tauto.
Qed.

Lemma w_syntactic : sd_syntactic w_journal.
Proof.
  intros ds H. apply syntactic_b_spec. vm_compute in H. inversion H. vm_compute. reflexivity.
Qed.

Lemma w_prices : no_conflicting_prices w_journal.
Proof.
  intros d c p t c' p' t' H1 H2 _. unfold w_journal in *. cbn [In] in H1, H2.
  repeat (destruct H1 as [H1|H1]; [try discriminate H1|]); try contradiction;
    repeat (destruct H2 as [H2|H2]; [try discriminate H2|]); try contradiction;
    inversion H1; inversion H2; subst; try reflexivity; discriminate.
Qed.

(* same-day transactions, two commodities, valuation, closing: equal tables *)
Lemma w_tables_equal :
  balance_table w_cfg w_journal = balance_table w_cfg w_permuted /\
  balance_table w_cfg_plain w_journal = balance_table w_cfg_plain w_permuted /\
  (exists t, balance_table w_cfg w_journal = COk t) /\
  check_cmd_fixed w_journal = COk tt /\ check_cmd_fixed w_permuted = COk tt.
Proof.
  assert (exists t, balance_table w_cfg w_journal = COk t /\ balance_table w_cfg w_permuted = COk t)
    as (t & -> & ->) by (eexists; split; vm_compute; reflexivity).
  split; [reflexivity|]. split; [vm_compute; reflexivity|]. split; [exists t; reflexivity|].
  split; vm_compute; reflexivity.
Qed.

(* the error is not invariant: two assertions of one day, one on an account that is not open,
   one with a wrong amount; whichever comes first is reported *)
Definition w_bad1 := SAssert (w_d0 + 2) [mkBalance w_A (mkDec 1 0) w_chf].        (* wrong amount *)
Definition w_bad2 := SAssert (w_d0 + 2) [mkBalance [s_Assets; [90]] (mkDec 0 0) w_chf].  (* Assets:Z not open *)

Lemma w_error_depends_on_order :
  Permutation (w_journal ++ [w_bad1; w_bad2]) (w_journal ++ [w_bad2; w_bad1]) /\
  sd_syntactic (w_journal ++ [w_bad1; w_bad2]) /\
  (exists d, check_cmd_fixed (w_journal ++ [w_bad1; w_bad2]) = CErr k_assertion d) /\
  (exists d, check_cmd_fixed (w_journal ++ [w_bad2; w_bad1]) = CErr k_not_open d).
Proof.
  split; [apply Permutation_app_head; apply perm_swap|].
  split; [intros ds H; apply syntactic_b_spec; vm_compute in H; inversion H; vm_compute; reflexivity|].
  split; vm_compute; eexists; reflexivity.
Qed.
