(* The posting-pair invariant of Proofs/PairProofs.v, with the accounts: the postings of every
   transaction anywhere in the pipeline are a concatenation of pairs (p, p') with equal commodity,
   qty p = neg (qty p'), val p = neg (val p'), AND p booked on the account p' names as the other
   side and vice versa.  Established by pair_build; preserved by accrual expansion, by the builder,
   and by the processors of the portfolio commands (ComputePrices, Check, Valuate): the second
   instance of PairProofs.pair_pred. *)
From Coq Require Import ZArith List Bool.
From Knut Require Import Model.Str Model.Dec Model.Date Model.Account Model.Ledger Model.Price
     Model.Journal Model.Check Model.Pipeline Proofs.DecProofs Proofs.JournalFacts Proofs.PairProofs.
Import ListNotations.
Open Scope bool_scope.
Open Scope Z_scope.

Definition pair2_ok (p p' : posting) : Prop :=
  p_com p = p_com p' /\ p_qty p = neg (p_qty p') /\ p_val p = neg (p_val p') /\
  p_acc p = p_other p' /\ p_other p = p_acc p'.

Inductive paired2 : list posting -> Prop :=
| paired2_nil : paired2 []
| paired2_cons p p' rest : pair2_ok p p' -> paired2 rest -> paired2 (p :: p' :: rest).

Definition txn2_ok (t : txn) : Prop := paired2 (t_postings t).
Definition day2_ok (d : day) : Prop := Forall txn2_ok (d_txns d).

Definition directive2_ok (d : directive) : Prop :=
  match d with DTxn t => txn2_ok t | _ => True end.

Lemma pair_build_paired cr db com q v : paired2 (pair_build cr db com q v).
Proof.
  unfold pair_build.
  destruct (is_neg q || is_zero q && is_neg v); constructor; try constructor;
    unfold pair2_ok; cbn [p_com p_qty p_val]; repeat split; reflexivity.
Qed.

Lemma paired2_pred : pair_pred pair2_ok paired2.
Proof.
  split.
  - constructor.
  - exact paired2_cons.
  - intros Q H0 Hs l Hl. induction Hl; auto.
  - intros x y (Hc & Hq & _). auto.
  - intros x y vx vy (Hc & Hq & _ & Ha & Ho) Hv. repeat split; assumption.
  - exact pair_build_paired.
Qed.

Lemma paired2_app l1 l2 : paired2 l1 -> paired2 l2 -> paired2 (l1 ++ l2).
Proof. exact (pairs_app paired2_pred l1 l2). Qed.

Lemma parse_directives_ok l ds : parse_directives l = MOk ds -> Forall directive2_ok ds.
Proof. exact (parse_directives_pairs paired2_pred l ds). Qed.

Lemma builder_of_ok ds : Forall directive2_ok ds -> Forall day2_ok (b_days (builder_of ds)).
Proof. exact (builder_of_txns (fun _ => txn2_ok) ds). Qed.

Lemma builder_touch_ok b dates : Forall day2_ok (b_days b) -> Forall day2_ok (b_days (builder_touch b dates)).
Proof. exact (builder_touch_txns (fun _ => txn2_ok) b dates). Qed.

Lemma check_stage_ok lenient s ds s' ds' :
  Forall day2_ok ds -> process_days (check_proc lenient) s ds = ROk (s', ds') -> Forall day2_ok ds'.
Proof. exact (check_stage_pairs (P:=paired2) lenient s ds s' ds'). Qed.

Lemma prices_stage_ok v s ds s' ds' :
  Forall day2_ok ds -> process_days (compute_prices_proc v) s ds = ROk (s', ds') -> Forall day2_ok ds'.
Proof. exact (prices_stage_pairs (P:=paired2) v s ds s' ds'). Qed.

Lemma valuate_stage_ok v s ds s' ds' :
  Forall day2_ok ds -> process_days (valuate_proc v) s ds = ROk (s', ds') -> Forall day2_ok ds'.
Proof. exact (valuate_stage_pairs paired2_pred v s ds s' ds'). Qed.
