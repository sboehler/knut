(* The posting-pair invariant: the postings of every transaction anywhere in the pipeline are a
   concatenation of pairs (p, p') with equal commodity, qty p = neg (qty p'), val p = neg (val p').
   Established by pair_build; preserved by accrual expansion, by the builder, and by every
   processor (Valuate rewrites values with an odd function; the others leave postings alone
   or append pair_build transactions).
   The argument is written for any relation between the two postings of a pair that pair_build
   establishes and revaluation keeps ([pair_pred]); Proofs/PairAccounts.v has a second instance. *)
From Coq Require Import ZArith List Bool.
From Knut Require Import Model.Str Model.Dec Model.Date Model.Account Model.Ledger Model.Price
     Model.Journal Model.Check Model.Pipeline Proofs.DecProofs Proofs.StageRun Proofs.BuiltPostings.
Import ListNotations.
Open Scope bool_scope.
Open Scope Z_scope.

Definition pair_ok (p p' : posting) : Prop :=
  p_com p = p_com p' /\ p_qty p = neg (p_qty p') /\ p_val p = neg (p_val p').

Inductive paired : list posting -> Prop :=
| paired_nil : paired []
| paired_cons p p' rest : pair_ok p p' -> paired rest -> paired (p :: p' :: rest).

Definition txn_ok (t : txn) : Prop := paired (t_postings t).
Definition day_ok (d : day) : Prop := Forall txn_ok (d_txns d).

(* [P]: the lists that are concatenations of [R]-pairs.  [pp_ind] is the induction principle of
   such a list, pair by pair: the processors are followed along it (fold_postings_pairs), and an
   instance gives the one of its own inductive predicate *)
Record pair_pred (R : posting -> posting -> Prop) (P : list posting -> Prop) : Prop := {
  pp_nil : P [];
  pp_cons : forall p p' rest, R p p' -> P rest -> P (p :: p' :: rest);
  pp_ind : forall Q : list posting -> Prop,
      Q [] -> (forall p p' rest, R p p' -> Q rest -> Q (p :: p' :: rest)) -> forall l, P l -> Q l;
  pp_mirror : forall x y, R x y -> p_com x = p_com y /\ p_qty x = neg (p_qty y);
  pp_value : forall x y vx vy, R x y -> vx = neg vy ->
      R (mkPosting (p_acc x) (p_other x) (p_com x) (p_qty x) vx)
        (mkPosting (p_acc y) (p_other y) (p_com y) (p_qty y) vy);
  pp_build : forall cr db com q v, P (pair_build cr db com q v) }.
Arguments pp_nil {R P}. Arguments pp_cons {R P}. Arguments pp_ind {R P}.
Arguments pp_mirror {R P}. Arguments pp_value {R P}. Arguments pp_build {R P}.

Lemma pair_build_paired cr db com q v : paired (pair_build cr db com q v).
Proof.
  unfold pair_build.
  destruct (is_neg q || is_zero q && is_neg v); constructor; try constructor;
    unfold pair_ok; cbn [p_com p_qty p_val]; repeat split; reflexivity.
Qed.

Lemma paired_pred : pair_pred pair_ok paired.
Proof.
  split.
  - constructor.
  - exact paired_cons.
  - intros Q H0 Hs l Hl. induction Hl; auto.
  - intros x y (Hc & Hq & _). auto.
  - intros x y vx vy (Hc & Hq & _) Hv. repeat split; assumption.
  - exact pair_build_paired.
Qed.

(* what the parser builds: Proofs/BuiltPostings.v *)

Lemma multiply_neg_l a b : multiply (neg a) b = neg (multiply a b).
Proof. unfold multiply. rewrite mul_neg_l, truncate_odd. reflexivity. Qed.

(* the value Valuate gives a quantity of commodity c *)
Definition val_of (v : commodity) (cur : option nprices) (c : commodity) (q : dec) : option dec :=
  if str_eqb v c then Some q else match cur with Some n => np_valuate n c q | None => None end.

Lemma val_of_neg v cur c q x : val_of v cur c q = Some x -> val_of v cur c (neg q) = Some (neg x).
Proof.
  unfold val_of, np_valuate. destruct (str_eqb v c); [intros [= <-]; reflexivity|].
  destruct cur as [n|]; [|discriminate]. destruct (sm_get n c); [|discriminate].
  intros [= <-]. rewrite multiply_neg_l. reflexivity.
Qed.

Lemma val_posting_ok v s t p s' p' :
  val_posting v s t p = ROk (s', p') ->
  v_cur s' = v_cur s /\
  if is_zero (p_qty p) then p' = p
  else exists x, val_of v (v_cur s) (p_com p) (p_qty p) = Some x /\
                 p' = mkPosting (p_acc p) (p_other p) (p_com p) (p_qty p) x.
Proof.
  unfold val_posting, val_of. destruct (is_zero (p_qty p)); [intros [= <- <-]; auto|].
  assert (Hc : v_cur (if is_AL (p_acc p) then mkVal (v_prev s) (v_cur s) (pos_add (v_qty s) (p_acc p) (p_com p) (p_qty p)) else s) = v_cur s)
    by (destruct (is_AL (p_acc p)); reflexivity).
  destruct (str_eqb v (p_com p)); [intros [= <- <-]; eauto|].
  destruct (v_cur s) as [n|]; [|discriminate].
  destruct (np_valuate n (p_com p) (p_qty p)); [|discriminate]. intros [= <- <-]. eauto.
Qed.

Lemma val_posting_cur v s t p s' p' : val_posting v s t p = ROk (s', p') -> v_cur s' = v_cur s.
Proof. intros H. exact (proj1 (val_posting_ok _ _ _ _ _ _ H)). Qed.

Lemma ck_posting_id s t p s' p' : ck_posting_cb s t p = ROk (s', p') -> p' = p.
Proof.
  unfold ck_posting_cb. destruct (negb (is_open s (p_acc p))); [discriminate|].
  destruct (is_AL (p_acc p)); intros [= _ <-]; reflexivity.
Qed.

Lemma close_posting_id s t p s' p' : close_posting s t p = ROk (s', p') -> p' = p.
Proof. unfold close_posting. destruct (_ || _); intros [= _ <-]; reflexivity. Qed.

Lemma checker_stage_id (p : processor check_state) :
  pr_day_start p = None -> pr_day_end p = None -> pr_posting p = Some ck_posting_cb ->
  forall s ds s' ds', process_days p s ds = ROk (s', ds') -> ds' = ds.
Proof.
  intros H1 H2 H3 s ds s' ds'. apply (process_days_id p H1 H2).
  intros f s0 t x s1 x' Hf. rewrite H3 in Hf. injection Hf as <-. apply ck_posting_id.
Qed.

Lemma check_stage_id lenient s ds s' ds' :
  process_days (check_proc lenient) s ds = ROk (s', ds') -> ds' = ds.
Proof. apply checker_stage_id; reflexivity. Qed.

Section Pairs.
  Context {R : posting -> posting -> Prop} {P : list posting -> Prop} (PP : pair_pred R P).

  Let tok (t : txn) : Prop := P (t_postings t).
  Let dok (d : day) : Prop := Forall tok (d_txns d).

  Lemma pairs_app l1 l2 : P l1 -> P l2 -> P (l1 ++ l2).
  Proof.
    intros H1 H2. revert l1 H1. apply (pp_ind PP (fun l => P (l ++ l2))); [exact H2|].
    intros p p' rest Hr IH. exact (pp_cons PP _ _ _ Hr IH).
  Qed.

  Lemma built_pairs l : built l -> P l.
  Proof. induction 1; [apply (pp_nil PP)|apply pairs_app; [apply (pp_build PP)|assumption]]. Qed.

  Lemma parse_directives_pairs l ds : parse_directives l = MOk ds -> Forall (on_txn tok) ds.
  Proof. intros H. apply (on_txn_impl txn_built); [exact (fun t => built_pairs _)|exact (parse_directives_built _ _ H)]. Qed.

  Section Stage.
    Context {S : Type} (p : processor S).
    (* a state invariant that the callbacks preserve and under which the posting callback maps
       pairs to pairs *)
    Variable Inv : S -> Prop.
    Hypothesis day_start_ok : forall f s d s' d', pr_day_start p = Some f -> Inv s ->
        f s d = ROk (s', d') -> dok d -> Inv s' /\ dok d'.
    Hypothesis day_end_ok : forall f s d s' d', pr_day_end p = Some f -> Inv s ->
        f s d = ROk (s', d') -> dok d -> Inv s' /\ dok d'.
    Hypothesis price_ok : forall f s x s', pr_price p = Some f -> Inv s -> f s x = ROk s' -> Inv s'.
    Hypothesis open_ok : forall f s x s', pr_open p = Some f -> Inv s -> f s x = ROk s' -> Inv s'.
    Hypothesis close_ok : forall f s x s', pr_close p = Some f -> Inv s -> f s x = ROk s' -> Inv s'.
    Hypothesis txn_cb_ok : forall f s x s', pr_txn p = Some f -> Inv s -> f s x = ROk s' -> Inv s'.
    Hypothesis balance_ok : forall f s a b s', pr_balance p = Some f -> Inv s -> f s a b = ROk s' -> Inv s'.
    Hypothesis posting_ok : forall f s t x y s1 x' s2 y', pr_posting p = Some f -> Inv s ->
        R x y -> f s t x = ROk (s1, x') -> f s1 t y = ROk (s2, y') -> Inv s2 /\ R x' y'.

    Lemma fold_postings_pairs f t : pr_posting p = Some f ->
      forall ps, P ps -> forall s s' ps', Inv s -> fold_postings f t s ps = ROk (s', ps') -> Inv s' /\ P ps'.
    Proof.
      intros Hf. apply (pp_ind PP (fun ps => forall s s' ps', Inv s -> fold_postings f t s ps = ROk (s', ps') -> Inv s' /\ P ps')).
      - intros s s' ps' Hs [= <- <-]. split; [exact Hs|apply (pp_nil PP)].
      - intros x y rest Hxy IH s s' ps' Hs H.
        apply fold_postings_cons_ok in H. destruct H as (s1 & x' & ps1 & E1 & H & ->).
        apply fold_postings_cons_ok in H. destruct H as (s2 & y' & ps2 & E2 & E3 & ->).
        destruct (posting_ok f s t x y s1 x' s2 y' Hf Hs Hxy E1 E2) as [Hs2 Hxy'].
        destruct (IH _ _ _ Hs2 E3) as [Hs3 Hr]. split; [exact Hs3|exact (pp_cons PP _ _ _ Hxy' Hr)].
    Qed.

    Lemma process_days_pairs ds s s' ds' :
      Inv s -> Forall dok ds -> process_days p s ds = ROk (s', ds') -> Inv s' /\ Forall dok ds'.
    Proof.
      apply (process_days_inv p Inv tok); eauto.
      intros f s0 t s1 ps Hf Hs Ht H. exact (fold_postings_pairs f t Hf _ Ht _ _ _ Hs H).
    Qed.
  End Stage.

  (* a stage without state invariant whose posting callback returns the posting *)
  Lemma id_stage_pairs {S} (p : processor S) :
    (forall f s d s' d', pr_day_start p = Some f -> f s d = ROk (s', d') -> dok d -> dok d') ->
    (forall f s d s' d', pr_day_end p = Some f -> f s d = ROk (s', d') -> dok d -> dok d') ->
    (forall f s t x s' x', pr_posting p = Some f -> f s t x = ROk (s', x') -> x' = x) ->
    forall s ds s' ds', Forall dok ds -> process_days p s ds = ROk (s', ds') -> Forall dok ds'.
  Proof.
    intros Hstart Hend Hid s ds s' ds' Hds H.
    refine (proj2 (process_days_inv p (fun _ => True) tok _ _ _ _ _ _ _ _ ds s s' ds' I Hds H)); try (intros; exact I).
    - intros f s0 d s1 d1 Hf _ Hd E. split; [exact I|exact (Hstart f _ _ _ _ Hf E Hd)].
    - intros f s0 d s1 d1 Hf _ Hd E. split; [exact I|exact (Hend f _ _ _ _ Hf E Hd)].
    - intros f s0 t s1 ps Hf _ Ht E. split; [exact I|].
      rewrite (fold_postings_id f t (fun s x s' x' => Hid f s t x s' x' Hf) _ _ _ _ E). exact Ht.
  Qed.

  (* any processor with the checker's Posting callback and no DayStart or DayEnd *)
  Lemma checker_stage_pairs (p : processor check_state) :
    pr_day_start p = None -> pr_day_end p = None -> pr_posting p = Some ck_posting_cb ->
    forall s ds s' ds', Forall dok ds -> process_days p s ds = ROk (s', ds') -> Forall dok ds'.
  Proof.
    intros H1 H2 H3. apply id_stage_pairs; rewrite ?H1, ?H2, ?H3; try discriminate.
    intros f s0 t x s1 x' [= <-]. apply ck_posting_id.
  Qed.

  Lemma check_stage_pairs lenient s ds s' ds' :
    Forall dok ds -> process_days (check_proc lenient) s ds = ROk (s', ds') -> Forall dok ds'.
  Proof. exact (checker_stage_pairs (check_proc lenient) eq_refl eq_refl eq_refl s ds s' ds'). Qed.

  Lemma check_fixed_stage_pairs s ds s' ds' :
    Forall dok ds -> process_days check_proc_fixed s ds = ROk (s', ds') -> Forall dok ds'.
  Proof. exact (checker_stage_pairs check_proc_fixed eq_refl eq_refl eq_refl s ds s' ds'). Qed.

  Lemma prices_stage_pairs v s ds s' ds' :
    Forall dok ds -> process_days (compute_prices_proc v) s ds = ROk (s', ds') -> Forall dok ds'.
  Proof.
    apply id_stage_pairs; cbn [compute_prices_proc pr_day_start pr_day_end pr_posting]; try discriminate.
    intros f s0 d s1 d1 [= <-] Hd Hok. unfold cp_day_end in Hd. destruct (d_prices d).
    - injection Hd as _ <-. exact Hok.
    - destruct (normalize (cp_prices s0) v); [|discriminate]. injection Hd as _ <-. exact Hok.
  Qed.

  Lemma filter_stage_pairs span s ds s' ds' :
    Forall dok ds -> process_days (filter_proc span) s ds = ROk (s', ds') -> Forall dok ds'.
  Proof.
    apply id_stage_pairs; cbn [filter_proc pr_day_start pr_day_end pr_posting]; try discriminate.
    intros f s0 d s1 d1 [= <-] [= _ <-] Hok. destruct (period_contains span (d_date d)); [exact Hok|constructor].
  Qed.

  Lemma closing_txns_pairs date qs vs : Forall tok (closing_txns date qs vs).
  Proof.
    induction qs as [|[k [[a c] q]] rest IH]; cbn [closing_txns]; [constructor|].
    destruct (is_zero q && is_zero _); [exact IH|]. constructor; [apply (pp_build PP)|exact IH].
  Qed.

  Lemma close_stage_pairs cds s ds s' ds' :
    Forall dok ds -> process_days (close_proc cds) s ds = ROk (s', ds') -> Forall dok ds'.
  Proof.
    apply id_stage_pairs; cbn [close_proc pr_day_start pr_day_end pr_posting]; try discriminate.
    - intros f s0 d s1 d1 [= <-] Hd Hok. unfold close_day_start in Hd.
      destruct (existsb (Z.eqb (d_date d)) cds); injection Hd as _ <-; [|exact Hok].
      apply Forall_app. split; [exact Hok|apply closing_txns_pairs].
    - intros f s0 t x s1 x' [= <-]. apply close_posting_id.
  Qed.

  Lemma val_adjustments_pairs v date prev cur pos ts :
    val_adjustments v date prev cur pos = ROk ts -> Forall tok ts.
  Proof.
    intros H. apply val_adjustments_run in H.
    induction H; try assumption; constructor; [apply (pp_build PP)|assumption].
  Qed.

  Lemma valuate_stage_pairs v s ds s' ds' :
    Forall dok ds -> process_days (valuate_proc v) s ds = ROk (s', ds') -> Forall dok ds'.
  Proof.
    intros Hds H.
    refine (proj2 (process_days_pairs (valuate_proc v) (fun _ => True) _ _ _ _ _ _ _ _ ds s s' ds' I Hds H));
      cbn [valuate_proc pr_day_start pr_price pr_open pr_txn pr_posting pr_balance pr_close pr_day_end];
      try discriminate.
    - intros f s0 d s1 d1 [= <-] _ Hd Hok. split; [exact I|].
      unfold val_day_start in Hd. apply rbind_ok in Hd. destruct Hd as (ts & E & [= _ <-]).
      apply Forall_app. split; [exact Hok|exact (val_adjustments_pairs _ _ _ _ _ _ E)].
    - intros f s0 d s1 d1 [= <-] _ [= _ <-] Hok. split; [exact I|exact Hok].
    - (* both postings of a pair are valued at the same prices; the values are odd in the quantity *)
      intros f s0 t x y s1 x' s2 y' [= <-] _ Hxy H1 H2. split; [exact I|].
      destruct (pp_mirror PP _ _ Hxy) as [Hc Hq].
      destruct (val_posting_ok _ _ _ _ _ _ H1) as [Hcur Hx]. destruct (val_posting_ok _ _ _ _ _ _ H2) as [_ Hy].
      replace (is_zero (p_qty x)) with (is_zero (p_qty y)) in Hx by (rewrite Hq; symmetry; apply is_zero_neg).
      destruct (is_zero (p_qty y)).
      + subst x' y'. exact Hxy.
      + destruct Hx as (vx & Ex & ->). destruct Hy as (vy & Ey & ->).
        apply (pp_value PP); [exact Hxy|].
        rewrite Hcur, <- Hc in Ey. rewrite Hq, (val_of_neg _ _ _ _ _ Ey) in Ex. injection Ex as <-. reflexivity.
  Qed.
End Pairs.

Lemma paired_app l1 l2 : paired l1 -> paired l2 -> paired (l1 ++ l2).
Proof. exact (pairs_app paired_pred l1 l2). Qed.

Lemma parse_directives_ok l ds : parse_directives l = MOk ds -> Forall (on_txn txn_ok) ds.
Proof. exact (parse_directives_pairs paired_pred l ds). Qed.

Lemma builder_of_ok ds : Forall (on_txn txn_ok) ds -> Forall day_ok (b_days (builder_of ds)).
Proof. exact (builder_of_txns (fun _ => txn_ok) ds). Qed.

Lemma builder_touch_ok b dates : Forall day_ok (b_days b) -> Forall day_ok (b_days (builder_touch b dates)).
Proof. exact (builder_touch_txns (fun _ => txn_ok) b dates). Qed.

Definition process_days_ok {S : Type} (p : processor S) := process_days_pairs paired_pred p.

Lemma check_stage_ok lenient s ds s' ds' :
  Forall day_ok ds -> process_days (check_proc lenient) s ds = ROk (s', ds') -> Forall day_ok ds'.
Proof. exact (check_stage_pairs (P:=paired) lenient s ds s' ds'). Qed.

Lemma check_fixed_stage_ok s ds s' ds' :
  Forall day_ok ds -> process_days check_proc_fixed s ds = ROk (s', ds') -> Forall day_ok ds'.
Proof. exact (check_fixed_stage_pairs (P:=paired) s ds s' ds'). Qed.

Lemma prices_stage_ok v s ds s' ds' :
  Forall day_ok ds -> process_days (compute_prices_proc v) s ds = ROk (s', ds') -> Forall day_ok ds'.
Proof. exact (prices_stage_pairs (P:=paired) v s ds s' ds'). Qed.

Lemma valuate_stage_ok v s ds s' ds' :
  Forall day_ok ds -> process_days (valuate_proc v) s ds = ROk (s', ds') -> Forall day_ok ds'.
Proof. exact (valuate_stage_pairs paired_pred v s ds s' ds'). Qed.

Lemma filter_stage_ok span s ds s' ds' :
  Forall day_ok ds -> process_days (filter_proc span) s ds = ROk (s', ds') -> Forall day_ok ds'.
Proof. exact (filter_stage_pairs (P:=paired) span s ds s' ds'). Qed.

Lemma close_stage_ok cds s ds s' ds' :
  Forall day_ok ds -> process_days (close_proc cds) s ds = ROk (s', ds') -> Forall day_ok ds'.
Proof. exact (close_stage_pairs paired_pred cds s ds s' ds'). Qed.
