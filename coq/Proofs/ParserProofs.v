(* Proofs about Model/Parser.v: every parser function terminates within its fuel from every
   scanner state in Inv, is monotone in the offset, returns error chains whose ranges lie in
   the text, and returns nodes whose range is [entry offset, exit offset) with well-formed
   children (Spec/SyntaxSpec.v).  Pattern: DESIGN.md Appendix B.3.                        *)
From Coq Require Import ZArith List Bool Lia ZifyBool.
From Knut Require Import Model.Bytes Model.Utf8 Model.Scanner Model.Parser Spec.SyntaxSpec
  Proofs.ScannerProofs.
Import ListNotations.
Open Scope bool_scope.
Open Scope Z_scope.

Ltac prj :=
  cbn [r_start r_end acc_range acc_macro qs_range qs_content bk_range bk_credit bk_debit
       bk_quantity bk_commodity pf_range pf_targets ac_range ac_interval ac_start ac_end
       ac_account ad_range ad_perf ad_accrual tx_range tx_date tx_desc tx_bookings tx_addons
       op_range op_date op_account cl_range cl_date cl_account bl_range bl_account bl_quantity
       bl_commodity as_range as_date as_balances pr_range pr_date pr_commodity pr_target
       pr_price in_range in_path d_range d_body f_range f_directives
       sc_start sc_desc new_scope update_desc scope_range fst snd] in *.

Lemma ordered_in_lo lo lo' hi rs : ordered_in lo hi rs = true -> lo' <= lo -> ordered_in lo' hi rs = true.
Proof. destruct rs; cbn [ordered_in]; lia. Qed.

Lemma ordered_in_app lo mid hi xs ys :
  ordered_in lo mid xs = true -> ordered_in mid hi ys = true -> ordered_in lo hi (xs ++ ys) = true.
Proof.
  revert lo; induction xs as [|r xs IH]; intros lo Hx Hy; cbn [ordered_in app] in *.
  - apply (ordered_in_lo mid); [assumption|lia].
  - assert (H1 : ordered_in (r_end r) mid xs = true) by lia. specialize (IH _ H1 Hy). lia.
Qed.

Lemma ordered_in_bounds lo hi rs : ordered_in lo hi rs = true -> lo <= hi.
Proof.
  revert lo; induction rs as [|r rs IH]; intros lo H; cbn [ordered_in] in *; [lia|].
  assert (H1 : ordered_in (r_end r) hi rs = true) by lia. specialize (IH _ H1). lia.
Qed.

(* the annotations read so far lie inside [S, o], apart from each other: wf_addons without
   the range of the whole.  Behind a definition, as [lead_ok] and [payload_ok] below: with
   ZifyBool, lia splits on every boolean hypothesis it sees in the context. *)
Definition acc_ok (S o : Z) (ad : addons) : Prop :=
  (is_zero_perf (ad_perf ad) || wf_perf S o (ad_perf ad)) &&
  (is_zero_accrual (ad_accrual ad) || wf_accrual S o (ad_accrual ad)) &&
  (is_zero_perf (ad_perf ad) || is_zero_accrual (ad_accrual ad) ||
   disjoint_b (pf_range (ad_perf ad)) (ac_range (ad_accrual ad))) = true.

Lemma acc_ok_weaken S o o' ad : acc_ok S o ad -> o <= o' -> acc_ok S o' ad.
Proof. unfold acc_ok, wf_perf, wf_accrual, rng_in. lia. Qed.

(* a new annotation in [a, c], after everything read so far, replaces the old one *)
Lemma acc_ok_perf S a c ad p : acc_ok S a ad -> S <= a <= c ->
  pf_range p = mkRange a c -> ordered_in a c (pf_targets p) = true ->
  acc_ok S c (mkAddons (ad_range ad) p (ad_accrual ad)).
Proof.
  unfold acc_ok, wf_perf, wf_accrual, rng_in, disjoint_b. cbn [ad_perf ad_accrual].
  intros H Hs -> Ht. cbn [r_start r_end]. rewrite Ht. lia.
Qed.

Lemma acc_ok_accrual S a c ad x : acc_ok S a ad -> S <= a <= c ->
  ac_range x = mkRange a c ->
  ordered_in a c [ac_interval x; ac_start x; ac_end x; acc_range (ac_account x)] = true ->
  acc_ok S c (mkAddons (ad_range ad) (ad_perf ad) x).
Proof.
  unfold acc_ok, wf_perf, wf_accrual, rng_in, disjoint_b. cbn [ad_perf ad_accrual].
  intros H Hs -> Ht. cbn [r_start r_end]. rewrite Ht. lia.
Qed.

Lemma wf_addons_intro lo hi S o ad : ad_range ad = mkRange S o -> acc_ok S o ad ->
  lo <= S <= o -> o <= hi -> wf_addons lo hi ad = true.
Proof. unfold acc_ok, wf_addons, rng_in. intros ->. cbn [r_start r_end]. lia. Qed.

(* the addons read before the date lie in [S, o] *)
Definition lead_ok (S o : Z) (ad : addons) : Prop :=
  ordered_in S o (addons_ranges ad) = true /\ is_zero_addons ad || wf_addons S o ad = true.

Lemma lead_ok_date S a m o ad date : lead_ok S a ad -> a <= r_start date <= r_end date ->
  r_end date <= m <= o ->
  ordered_in S m (addons_ranges ad ++ [date]) = true /\
  is_zero_addons ad || wf_addons S o ad = true.
Proof.
  intros (Ho & Hw) Hd Hm. pose proof (ordered_in_bounds _ _ _ Ho). split.
  - apply (ordered_in_app _ a); [assumption|]. cbn [ordered_in]. lia.
  - destruct (is_zero_addons ad); [reflexivity|]. cbn [orb] in *. unfold wf_addons in *.
    apply andb_true_iff in Hw. destruct Hw as (Hr & ->). unfold rng_in in *. lia.
Qed.

Lemma nonempty_match {A} (l : list A) : l <> [] -> match l with [] => false | _ => true end = true.
Proof. destruct l; congruence. Qed.

Lemma dispatch4 {B} (P : B -> Prop) x k1 k2 k3 k4 b1 b2 b3 b4 b5 :
  In x [k1; k2; k3; k4] -> P b1 -> P b2 -> P b3 -> P b4 ->
  P (if str_eqb x k1 then b1 else if str_eqb x k2 then b2 else
     if str_eqb x k3 then b3 else if str_eqb x k4 then b4 else b5).
Proof.
  intros Hin H1 H2 H3 H4.
  destruct (str_eqb x k1) eqn:E1; [assumption|]. destruct (str_eqb x k2) eqn:E2; [assumption|].
  destruct (str_eqb x k3) eqn:E3; [assumption|]. destruct (str_eqb x k4) eqn:E4; [assumption|].
  destruct Hin as [<-|[<-|[<-|[<-|[]]]]]; rewrite (proj2 (str_eqb_eq _ _) eq_refl) in *; discriminate.
Qed.

Section WithEnv.
Variable E : env.
Hypothesis Hlen : e_len E = Z.of_nat (length (e_text E)).
Hypothesis Hfuel : (length (e_text E) < e_fuel E)%nat.
Hypothesis Hdec : decoder_ok (e_decode E).

Notation t := (e_text E).
Notation len := (e_len E).
Notation Inv := (Inv E).
Notation post := (@post E _).

(* the scanner lemmas, instantiated with this section's environment *)
Local Notation post_err := (@ScannerProofs.post_err E Hlen Hfuel Hdec _).
Local Notation post_ok := (@ScannerProofs.post_ok E Hlen Hfuel Hdec _).
Local Notation post_weaken := (@ScannerProofs.post_weaken E Hlen Hfuel Hdec _).
Local Notation errs_ok_cons := (ScannerProofs.errs_ok_cons E Hlen Hfuel Hdec).
Local Notation errs_ok_one := (ScannerProofs.errs_ok_one E Hlen Hfuel Hdec).
Local Notation inv_facts := (ScannerProofs.inv_facts E Hlen Hfuel Hdec).
Local Notation inv_eof_len := (ScannerProofs.inv_eof_len E Hlen Hfuel Hdec).
Local Notation rune_bytes_true := (ScannerProofs.rune_bytes_true E Hlen Hfuel Hdec).
Local Notation read_while_spec := (ScannerProofs.read_while_spec E Hlen Hfuel Hdec).
Local Notation read_while1_spec := (ScannerProofs.read_while1_spec E Hlen Hfuel Hdec).
Local Notation read_character_spec := (ScannerProofs.read_character_spec E Hlen Hfuel Hdec).
Local Notation read_character_with_spec := (ScannerProofs.read_character_with_spec E Hlen Hfuel Hdec).
Local Notation read_alternative_spec := (ScannerProofs.read_alternative_spec E Hlen Hfuel Hdec).
Local Notation read_string_spec := (ScannerProofs.read_string_spec E Hlen Hfuel Hdec).

Lemma post_bind {A B} (m : M A) (f : A -> M B) s o (Q1 : A -> state -> Prop) (Q : B -> state -> Prop) :
  post Q1 (off s) (m s) -> o <= off s ->
  (forall a s1, Inv s1 -> off s <= off s1 -> Q1 a s1 -> post Q o (f a s1)) ->
  post Q o (bind m f s).
Proof using All.
  intros Hm Ho Hf. unfold bind. destruct (m s) as [a s1|e s1|]; cbn [ScannerProofs.post] in Hm.
  - destruct Hm as (HI & Hle & Hq). now apply Hf.
  - destruct Hm as (Hle & He). apply post_err; [lia|assumption].
  - contradiction.
Qed.

Lemma post_annot {A} sc (m : M A) s o (Q : A -> state -> Prop) :
  0 <= sc_start sc <= o -> post Q o (m s) -> post Q o (annot sc m s).
Proof using All.
  intros Hsc Hm. unfold annot. destruct (m s) as [a s1|e s1|]; cbn [ScannerProofs.post] in Hm.
  - exact Hm.
  - destruct Hm as (Hle & He). apply post_err; [lia|]. unfold annotate.
    apply errs_ok_cons; [lia|lia|assumption].
  - contradiction.
Qed.

Lemma post_ret {A} (a : A) s o (Q : A -> state -> Prop) :
  Inv s -> o <= off s -> Q a s -> post Q o (ret a s).
Proof using All. intros. unfold ret. now apply post_ok. Qed.

Lemma post_ret_with {A} sc (f : range -> A) s o (Q : A -> state -> Prop) :
  Inv s -> o <= off s -> Q (f (mkRange (sc_start sc) (off s))) s -> post Q o (ret_with sc f s).
Proof using All. intros. unfold ret_with, scope_range. now apply post_ok. Qed.

Tactic Notation "step" uconstr(L) "as" simple_intropattern(xpat) ident(s1) ident(HI) ident(Hle) simple_intropattern(HQ) :=
  eapply post_bind; [ eapply L; eauto | lia | intros xpat s1 HI Hle; cbv beta; intros HQ ].

Definition wsb (b : Z) : Prop := is_ws_byte b = true.
Definition notnl (b : Z) : Prop := b <> 10.

Lemma rb_ws : rune_bytes E is_whitespace wsb.
Proof using All.
  intros l r w Hl Hd Hp.
  destruct (dec_cases _ l r w Hdec Hl Hd) as [(b & l' & -> & Hb & -> & ->)|(Hhi & _)].
  - simpl. constructor; [|constructor]. unfold wsb, is_ws_byte. exact Hp.
  - unfold is_whitespace in Hp. lia.
Qed.

Lemma rb_notnl : rune_bytes E (fun r => negb (is_newline_or_eof r)) notnl.
Proof using All.
  intros l r w Hl Hd Hp.
  destruct (dec_cases _ l r w Hdec Hl Hd) as [(b & l' & -> & Hb & -> & ->)|(Hhi & Hall)].
  - simpl. constructor; [|constructor]. unfold notnl, is_newline_or_eof in *. lia.
  - eapply Forall_impl; [|exact Hall]. unfold high, notnl. intros; lia.
Qed.

Lemma rw_plain p s : Inv s ->
  post (fun r s' => r = mkRange (off s) (off s')) (off s) (read_while E p s).
Proof using All.
  intros HI. eapply post_weaken; [eapply (read_while_spec p (fun _ => True)); eauto using rune_bytes_true|lia|].
  intros r s' _ _ (Hr & _). exact Hr.
Qed.

Lemma rw_ws s : Inv s ->
  post (fun _ s' => Forall wsb (slice t (off s) (off s'))) (off s) (read_while E is_whitespace s).
Proof using All.
  intros HI. eapply post_weaken; [eapply (read_while_spec _ wsb); eauto using rb_ws|lia|].
  intros r s' _ _ (_ & Hr & _). exact Hr.
Qed.

Lemma rw_notnl s : Inv s ->
  post (fun _ s' => Forall notnl (slice t (off s) (off s'))) (off s)
       (read_while E (fun r => negb (is_newline_or_eof r)) s).
Proof using All.
  intros HI. eapply post_weaken; [eapply (read_while_spec _ notnl); eauto using rb_notnl|lia|].
  intros r s' _ _ (_ & Hr & _). exact Hr.
Qed.

Lemma rw1_plain p s : Inv s ->
  post (fun r s' => off s < off s') (off s) (read_while1 E p s).
Proof using All.
  intros HI. eapply post_weaken; [eapply (read_while1_spec p (fun _ => True)); eauto using rune_bytes_true|lia|].
  intros r s' _ _ (_ & _ & Hr). exact Hr.
Qed.

Lemma rc_spec c s : Inv s -> 0 <= c < 128 ->
  post (fun _ s' => off s' = off s + 1 /\ slice t (off s) (off s') = [c]) (off s) (read_character E c s).
Proof using All.
  intros HI Hc. eapply post_weaken; [eapply read_character_spec; eauto|lia|].
  intros r s' _ _ (_ & Ho & Hs). auto.
Qed.

Lemma rcw_spec p s : Inv s ->
  post (fun _ s' => off s < off s') (off s) (read_character_with E p s).
Proof using All.
  intros HI. eapply post_weaken; [eapply read_character_with_spec; eauto|lia|].
  intros r s' _ _ (_ & _ & Ho & _). exact Ho.
Qed.

Lemma kw_ascii : Forall (Forall ascii)
  [kw_include; kw_open; kw_close; kw_balance; kw_price; kw_performance; kw_accrue; kw_daily;
   kw_weekly; kw_monthly; kw_quarterly; kw_star; kw_slashes; kw_hash].
Proof using All. repeat constructor; unfold ascii; lia. Qed.

Lemma ra_spec ss s : Forall (Forall ascii) ss -> Forall (fun x => x <> []) ss -> Inv s ->
  post (fun r s' => r = mkRange (off s) (off s') /\ off s < off s' /\ In (slice t (off s) (off s')) ss)
       (off s) (read_alternative E ss s).
Proof using All.
  intros Hss Hne HI. eapply post_weaken; [eapply read_alternative_spec; eauto|lia|].
  intros r s' _ _ (Hr & Hin & Ho). repeat split; try assumption.
  rewrite Forall_forall in Hne. specialize (Hne _ Hin).
  destruct (slice t (off s) (off s')); [congruence|]. cbn [length] in Ho. lia.
Qed.

Lemma read_whitespace1_spec s : Inv s ->
  post (fun _ _ => True) (off s) (read_whitespace1 E s).
Proof using All.
  intros HI. pose proof (inv_facts s HI) as (H0 & Hc0 & Hle & _).
  unfold read_whitespace1.
  destruct (negb (is_whitespace_or_newline (cur s)) && negb (cur s =? eof)).
  - apply post_err; [lia|]. apply errs_ok_one; lia.
  - eapply post_weaken; [apply rw_plain; assumption|lia|]. auto.
Qed.

(* what readRestOfWhitespaceLine consumes: blanks and a newline, or blanks up to the end *)
Definition rest_line (s s' : state) : Prop :=
  ((exists W, slice t (off s) (off s') = W ++ [10] /\ Forall wsb W) \/
   (cur s' = eof /\ Forall wsb (slice t (off s) (off s')))) /\
  (cur s <> eof -> off s < off s').

Lemma read_rest_spec s : Inv s ->
  post (fun _ s' => rest_line s s') (off s) (read_rest_of_whitespace_line E s).
Proof using All.
  intros HI. pose proof (inv_facts s HI) as (H0 & _ & _ & _ & Hne).
  unfold read_rest_of_whitespace_line. apply post_annot; [prj; lia|].
  step rw_ws as ? s1 HI1 L1 Hw.
  unfold ifM, cur_is. destruct (Z.eqb_spec (cur s1) eof) as [Hc|Hc].
  - apply post_ret_with; [assumption|lia|]. split; [right; auto|].
    intros Hn. pose proof (inv_eof_len s1 HI1 Hc). specialize (Hne Hn). lia.
  - step rc_spec as ? s2 HI2 L2 (Ho & Hs). { lia. }
    apply post_ret_with; [assumption|lia|]. split; [|intros; lia]. left. exists (slice t (off s) (off s1)).
    split; [|assumption]. rewrite (slice_app t (off s) (off s1) (off s2)) by lia. now rewrite Hs.
Qed.

Definition comment_text (s s' : state) : Prop :=
  off s < off s' /\ exists m body, slice t (off s) (off s') = m ++ body /\
                 In m [kw_star; kw_slashes; kw_hash] /\ Forall notnl body.

Lemma read_comment_spec s : Inv s ->
  post (fun _ s' => comment_text s s') (off s) (read_comment E s).
Proof using All.
  intros HI. pose proof (inv_facts s HI) as (H0 & _).
  unfold read_comment. apply post_annot; [prj; lia|].
  step ra_spec as r s1 HI1 L1 (Hr & Hlt & Hin).
  { repeat constructor; unfold ascii; lia. }
  { repeat constructor; discriminate. }
  step rw_notnl as ? s2 HI2 L2 Hb.
  apply post_ret_with; [assumption|lia|]. split; [lia|].
  exists (slice t (off s) (off s1)), (slice t (off s1) (off s2)).
  split; [apply slice_app; lia|]. split; assumption.
Qed.

Definition exact_range (s : state) (r : range) (s' : state) : Prop :=
  r = mkRange (off s) (off s') /\ off s < off s'.

Lemma parse_commodity_spec s : Inv s ->
  post (fun r s' => exact_range s r s') (off s) (parse_commodity E s).
Proof using All.
  intros HI. pose proof (inv_facts s HI) as (H0 & _).
  unfold parse_commodity. apply post_annot; [prj; lia|].
  step rw1_plain as ? s1 HI1 L1 Hlt.
  apply post_ret_with; [assumption|lia|]. prj. split; [reflexivity|lia].
Qed.

Lemma parse_decimal_spec s : Inv s ->
  post (fun r s' => exact_range s r s') (off s) (parse_decimal E s).
Proof using All.
  intros HI. pose proof (inv_facts s HI) as (H0 & _).
  unfold parse_decimal. apply post_annot; [prj; lia|].
  eapply post_bind with (Q1 := fun _ s1 => True); [|lia|].
  { unfold ifM. destruct (cur_is 45 s).
    - step rc_spec as ? s1 HI1 L1 _. { lia. } apply post_ret; auto; lia.
    - apply post_ret; auto; lia. }
  intros _ s1 HI1 L1 _.
  step rw1_plain as ? s2 HI2 L2 Hlt.
  unfold ifM. destruct (negb (cur s2 =? 46)).
  - apply post_ret_with; [assumption|lia|]. prj. split; [reflexivity|lia].
  - step rc_spec as ? s3 HI3 L3 _. { lia. }
    step rw1_plain as ? s4 HI4 L4 Hlt4.
    apply post_ret_with; [assumption|lia|]. prj. split; [reflexivity|lia].
Qed.

Definition exact_account (s : state) (a : account) (s' : state) : Prop :=
  acc_range a = mkRange (off s) (off s') /\ off s < off s'.

Lemma account_loop_spec sc : forall n s, Inv s -> 0 <= sc_start sc < off s ->
  len - off s < Z.of_nat n ->
  post (fun a s' => acc_range a = mkRange (sc_start sc) (off s')) (off s) (account_loop E sc n s).
Proof using All.
  induction n as [|n IH]; intros s HI Hsc Hn;
    pose proof (inv_facts s HI) as (H0 & Hc0 & Hle & _); [lia|].
  cbn [account_loop]. unfold ifM. destruct (negb (cur s =? 58)).
  - apply post_ret_with; [assumption|lia|]. reflexivity.
  - step rc_spec as ? s1 HI1 L1 (Ho1 & _). { lia. }
    step rw1_plain as ? s2 HI2 L2 Hlt.
    eapply post_weaken; [apply (IH s2 HI2); lia|lia|]. auto.
Qed.

Lemma parse_account_spec s : Inv s ->
  post (fun a s' => exact_account s a s') (off s) (parse_account E s).
Proof using All.
  intros HI. pose proof (inv_facts s HI) as (H0 & Hc0 & Hle & _).
  unfold parse_account. apply post_annot; [prj; lia|].
  unfold ifM. destruct (cur_is 36 s).
  - step rc_spec as ? s1 HI1 L1 (Ho1 & _). { lia. }
    step rw1_plain as ? s2 HI2 L2 Hlt.
    apply post_ret_with; [assumption|lia|]. unfold exact_account. prj. split; [reflexivity|lia].
  - step rw1_plain as ? s1 HI1 L1 Hlt.
    eapply post_weaken; [apply (account_loop_spec _ (loop_fuel E) s1 HI1); prj; unfold loop_fuel; try lia|lia|].
    intros acc s' _ Hle' Ha. unfold exact_account. prj. split; [assumption|lia].
Qed.

Lemma repeat_m_spec {A} (m : M A) k :
  (forall s, Inv s -> post (fun _ s' => off s < off s') (off s) (m s)) ->
  forall s, Inv s -> post (fun _ s' => (0 < k)%nat -> off s < off s') (off s) (repeat_m k m s).
Proof using All.
  intros Hm. induction k as [|k IH]; intros s HI.
  - cbn [repeat_m]. apply post_ret; [assumption|lia|lia].
  - cbn [repeat_m]. step Hm as ? s1 HI1 L1 Hlt.
    eapply post_weaken; [apply (IH s1 HI1)|lia|]. intros; lia.
Qed.

Lemma parse_date_spec s : Inv s ->
  post (fun r s' => exact_range s r s') (off s) (parse_date E s).
Proof using All.
  intros HI. pose proof (inv_facts s HI) as (H0 & _).
  unfold parse_date. apply post_annot; [prj; lia|].
  step (repeat_m_spec (read_character_with E (e_digit E)) 4) as ? s1 HI1 L1 Hlt.
  { intros. apply rcw_spec; assumption. }
  eapply post_bind with (Q1 := fun _ _ => True); [|lia|].
  { eapply post_weaken; [apply (repeat_m_spec (do _ <- read_character E 45; repeat_m 2 (read_character_with E (e_digit E))) 2)|lia|auto].
    - intros s0 HI0. step rc_spec as ? s0' HI0' L0' (Ho & _). { lia. }
      eapply post_weaken; [apply (repeat_m_spec (read_character_with E (e_digit E)) 2)|lia|].
      + intros. apply rcw_spec; assumption.
      + assumption.
      + intros; lia.
    - assumption. }
  intros _ s2 HI2 L2 _.
  apply post_ret_with; [assumption|lia|]. unfold exact_range. prj. split; [reflexivity|lia].
Qed.

Definition exact_quoted (s : state) (q : quoted) (s' : state) : Prop :=
  qs_range q = mkRange (off s) (off s') /\ off s + 2 <= off s' /\
  qs_content q = mkRange (off s + 1) (off s' - 1).

Lemma parse_quoted_string_spec s : Inv s ->
  post (fun q s' => exact_quoted s q s') (off s) (parse_quoted_string E s).
Proof using All.
  intros HI. pose proof (inv_facts s HI) as (H0 & _).
  unfold parse_quoted_string. apply post_annot; [prj; lia|].
  step rc_spec as ? s1 HI1 L1 (Ho1 & _). { lia. }
  step rw_plain as c s2 HI2 L2 Hc.
  step rc_spec as ? s3 HI3 L3 (Ho3 & _). { lia. }
  apply post_ret_with; [assumption|lia|]. unfold exact_quoted. prj.
  split; [reflexivity|]. split; [lia|]. rewrite Hc. f_equal; lia.
Qed.

Lemma parse_interval_spec s : Inv s ->
  post (fun r s' => exact_range s r s') (off s) (parse_interval E s).
Proof using All.
  intros HI. pose proof (inv_facts s HI) as (H0 & _).
  unfold parse_interval. apply post_annot; [prj; lia|].
  step ra_spec as r s1 HI1 L1 (Hr & Hlt & _).
  { repeat constructor; unfold ascii; lia. }
  { repeat constructor; discriminate. }
  apply post_ret_with; [assumption|lia|]. unfold exact_range. prj. split; [reflexivity|lia].
Qed.

Definition node_spec {A} (rng : A -> range) (wf : Z -> Z -> A -> bool) (s : state) (a : A) (s' : state) : Prop :=
  rng a = mkRange (off s) (off s') /\ off s < off s' /\
  forall lo hi, lo <= off s -> off s' <= hi -> wf lo hi a = true.

Lemma parse_booking_spec s : Inv s ->
  post (node_spec bk_range wf_booking s) (off s) (parse_booking E s).
Proof using All.
  intros HI. pose proof (inv_facts s HI) as (H0 & _).
  unfold parse_booking. apply post_annot; [prj; lia|].
  step parse_account_spec as c s1 HI1 L1 (Hc & Hc').
  step rw1_plain as ? s2 HI2 L2 Hlt2.
  step parse_account_spec as d s3 HI3 L3 (Hd & Hd').
  step rw1_plain as ? s4 HI4 L4 Hlt4.
  step parse_decimal_spec as q s5 HI5 L5 (Hq & Hq').
  step rw1_plain as ? s6 HI6 L6 Hlt6.
  step parse_commodity_spec as m s7 HI7 L7 (Hm & Hm').
  apply post_ret_with; [assumption|lia|]. unfold node_spec. prj.
  split; [reflexivity|]. split; [lia|]. intros lo hi Hlo Hhi.
  unfold wf_booking, rng_in. prj. rewrite Hc, Hd, Hq, Hm. cbn [ordered_in]. prj. lia.
Qed.

Lemma parse_balance_spec s : Inv s ->
  post (node_spec bl_range wf_balance s) (off s) (parse_balance E s).
Proof using All.
  intros HI. pose proof (inv_facts s HI) as (H0 & _).
  unfold parse_balance. apply post_annot; [prj; lia|].
  step parse_account_spec as c s1 HI1 L1 (Hc & Hc').
  step read_whitespace1_spec as ? s2 HI2 L2 _.
  step parse_decimal_spec as q s3 HI3 L3 (Hq & Hq').
  step read_whitespace1_spec as ? s4 HI4 L4 _.
  step parse_commodity_spec as m s5 HI5 L5 (Hm & Hm').
  apply post_ret_with; [assumption|lia|]. unfold node_spec. prj.
  split; [reflexivity|]. split; [lia|]. intros lo hi Hlo Hhi.
  unfold wf_balance, rng_in. prj. rewrite Hc, Hq, Hm. cbn [ordered_in]. prj. lia.
Qed.

Lemma ordered_in_hi lo hi hi' rs : ordered_in lo hi rs = true -> hi <= hi' -> ordered_in lo hi' rs = true.
Proof using All.
  revert lo; induction rs as [|r rs IH]; intros lo H Hh; cbn [ordered_in] in *; [lia|].
  assert (ordered_in (r_end r) hi rs = true) by lia. specialize (IH _ H0 Hh). lia.
Qed.

Lemma extend_kw a b c : a <= b -> b <= c -> extend (mkRange b c) (mkRange a b) = mkRange a c.
Proof using All.
  intros Hab Hbc. unfold extend. prj.
  destruct (Z.ltb_spec a b); destruct (Z.ltb_spec c b); f_equal; lia.
Qed.

Lemma performance_loop_spec : forall n s, Inv s -> len - off s < Z.of_nat n ->
  post (fun cs s' => forall lo hi, lo <= off s -> off s' <= hi -> ordered_in lo hi cs = true)
       (off s) (performance_loop E n s).
Proof using All.
  induction n as [|n IH]; intros s HI Hn;
    pose proof (inv_facts s HI) as (H0 & Hc0 & Hle & _); [lia|].
  cbn [performance_loop]. unfold ifM. destruct (cur_is 44 s).
  - step rc_spec as ? s1 HI1 L1 (Ho1 & _). { lia. }
    step rw_plain as ? s2 HI2 L2 _.
    step parse_commodity_spec as c s3 HI3 L3 (Hc & Hc').
    step rw_plain as ? s4 HI4 L4 _.
    step IH as cs s5 HI5 L5 Hcs. { lia. }
    apply post_ret; [assumption|lia|]. intros lo hi Hlo Hhi.
    cbn [ordered_in]. rewrite Hc. prj. rewrite (Hcs (off s3) hi) by lia. lia.
  - apply post_ret; [assumption|lia|]. intros lo hi Hlo Hhi. cbn [ordered_in]. lia.
Qed.

Definition perf_spec (s : state) (p : performance) (s' : state) : Prop :=
  pf_range p = mkRange (off s) (off s') /\ off s < off s' /\
  forall lo hi, lo <= off s -> off s' <= hi -> ordered_in lo hi (pf_targets p) = true.

Lemma parse_performance_spec s : Inv s ->
  post (perf_spec s) (off s) (parse_performance E s).
Proof using All.
  intros HI. pose proof (inv_facts s HI) as (H0 & _).
  unfold parse_performance. apply post_annot; [prj; lia|].
  step rc_spec as ? s1 HI1 L1 (Ho1 & _). { lia. }
  step rw_plain as ? s2 HI2 L2 _.
  eapply post_bind with (Q1 := fun first s3 =>
    forall lo mid, lo <= off s2 -> off s3 <= mid -> ordered_in lo mid first = true); [|lia|].
  { unfold ifM. destruct (negb (cur s2 =? 41)).
    - step parse_commodity_spec as c s3 HI3 L3 (Hc & Hc').
      step rw_plain as ? s4 HI4 L4 _.
      apply post_ret; [assumption|lia|]. intros lo mid Hlo Hmid. cbn [ordered_in]. rewrite Hc. prj. lia.
    - apply post_ret; [assumption|lia|]. intros lo mid Hlo Hmid. cbn [ordered_in]. lia. }
  intros first s3 HI3 L3 Hfirst.
  step performance_loop_spec as more s4 HI4 L4 Hmore. { unfold loop_fuel. pose proof (inv_facts s3 HI3). lia. }
  step rc_spec as ? s5 HI5 L5 (Ho5 & _). { lia. }
  apply post_ret_with; [assumption|lia|]. unfold perf_spec. prj.
  split; [reflexivity|]. split; [lia|]. intros lo hi Hlo Hhi.
  apply (ordered_in_app lo (off s3) hi); [apply Hfirst; lia | apply Hmore; lia].
Qed.

Definition accrual_spec (s : state) (a : accrual) (s' : state) : Prop :=
  ac_range a = mkRange (off s) (off s') /\
  forall lo hi, lo <= off s -> off s' <= hi ->
    ordered_in lo hi [ac_interval a; ac_start a; ac_end a; acc_range (ac_account a)] = true.

Lemma parse_accrual_spec s : Inv s ->
  post (accrual_spec s) (off s) (parse_accrual E s).
Proof using All.
  intros HI. pose proof (inv_facts s HI) as (H0 & _).
  unfold parse_accrual. apply post_annot; [prj; lia|].
  step read_whitespace1_spec as ? s1 HI1 L1 _.
  step parse_interval_spec as iv s2 HI2 L2 (Hiv & _).
  step read_whitespace1_spec as ? s3 HI3 L3 _.
  step parse_date_spec as st s4 HI4 L4 (Hst & _).
  step read_whitespace1_spec as ? s5 HI5 L5 _.
  step parse_date_spec as en s6 HI6 L6 (Hen & _).
  step read_whitespace1_spec as ? s7 HI7 L7 _.
  step parse_account_spec as acc s8 HI8 L8 (Ha & _).
  apply post_ret_with; [assumption|lia|]. unfold accrual_spec. prj.
  split; [reflexivity|]. intros lo hi Hlo Hhi. cbn [ordered_in]. rewrite Hiv, Hst, Hen, Ha. prj. lia.
Qed.

Lemma replace_err_spec {A} (m : M A) s o (Q : A -> state -> Prop) :
  post Q o (m s) -> post Q o (replace_err m s).
Proof using All.
  intros Hm. unfold replace_err. destruct (m s) as [a s1|e s1|]; cbn [ScannerProofs.post] in Hm.
  - exact Hm.
  - destruct Hm as (Hle & _). apply post_err; [lia|]. apply errs_ok_one; lia.
  - contradiction.
Qed.

(* the two kinds of annotation, after the keyword [a, off s) *)
Lemma perf_addon_spec S a ad s : Inv s -> 0 <= S <= a -> a <= off s -> acc_ok S a ad ->
  post (fun ad' s' => acc_ok S (off s') ad') (off s)
    ((do p <- parse_performance E;
      ret (mkAddons (ad_range ad) (mkPerf (extend (pf_range p) (mkRange a (off s))) (pf_targets p))
             (ad_accrual ad))) s).
Proof using All.
  intros HI HS Ha Hacc.
  step parse_performance_spec as p s1 HI1 L1 (Hp & Hlt & Ht).
  apply post_ret; [assumption|lia|].
  apply (acc_ok_perf S a); [assumption|lia| |]; cbn [pf_range pf_targets].
  - rewrite Hp. apply extend_kw; lia.
  - apply Ht; lia.
Qed.

Lemma accrual_addon_spec S a ad s : Inv s -> 0 <= S <= a -> a <= off s -> acc_ok S a ad ->
  post (fun ad' s' => acc_ok S (off s') ad') (off s)
    ((do x <- parse_accrual E;
      ret (mkAddons (ad_range ad) (ad_perf ad)
             (mkAccrual (extend (ac_range x) (mkRange a (off s))) (ac_interval x) (ac_start x)
                (ac_end x) (ac_account x)))) s).
Proof using All.
  intros HI HS Ha Hacc.
  step parse_accrual_spec as x s1 HI1 L1 (Hx & Ht).
  apply post_ret; [assumption|lia|].
  apply (acc_ok_accrual S a); [assumption|lia| |];
    cbn [ac_range ac_interval ac_start ac_end ac_account].
  - rewrite Hx. apply extend_kw; lia.
  - apply Ht; lia.
Qed.

Lemma addons_loop_spec sc : forall n s ad, Inv s -> 0 <= sc_start sc <= off s ->
  len - off s < Z.of_nat n -> acc_ok (sc_start sc) (off s) ad ->
  post (fun a s' => ad_range a = mkRange (sc_start sc) (off s') /\ sc_start sc < off s' /\
                    acc_ok (sc_start sc) (off s') a)
       (off s) (addons_loop E sc n ad s).
Proof using All.
  induction n as [|n IH]; intros s ad HI Hsc Hn Hacc;
    pose proof (inv_facts s HI) as (H0 & Hc0 & Hle & _); [lia|].
  cbn [addons_loop].
  step ra_spec as r s1 HI1 L1 (-> & Hlt & _).
  { repeat constructor; unfold ascii; lia. }
  { repeat constructor; discriminate. }
  pose proof (inv_facts s1 HI1) as (_ & Hc1 & Hle1 & _).
  eapply post_bind with (Q1 := fun ad' s2 => acc_ok (sc_start sc) (off s2) ad'); [|lia|].
  { cbv zeta. destruct (str_eqb _ kw_performance); [|destruct (str_eqb _ kw_accrue)].
    - destruct (negb _).
      + apply post_err; [lia|]. prj. apply errs_ok_one; lia.
      + apply perf_addon_spec; (assumption || lia).
    - destruct (negb _).
      + apply post_err; [lia|]. prj. apply errs_ok_one; lia.
      + apply accrual_addon_spec; (assumption || lia).
    - apply post_ok; [assumption|lia|]. apply (acc_ok_weaken _ (off s)); [assumption|lia]. }
  intros ad' s2 HI2 L2 Hacc2.
  eapply post_bind with (Q1 := fun _ s3 => True); [apply replace_err_spec; eapply post_weaken; [apply read_rest_spec; assumption|lia|auto]|lia|].
  intros _ s3 HI3 L3 _.
  unfold ifM. destruct (negb (cur s3 =? 64)).
  - apply post_ret_with; [assumption|lia|]. prj. split; [reflexivity|]. split; [lia|].
    apply (acc_ok_weaken _ (off s2)); [exact Hacc2|lia].
  - eapply post_weaken; [apply (IH s3 ad' HI3); try lia|lia|auto].
    apply (acc_ok_weaken _ (off s2)); [assumption|lia].
Qed.

Definition addons_spec (s : state) (a : addons) (s' : state) : Prop :=
  ad_range a = mkRange (off s) (off s') /\ off s < off s' /\
  forall lo hi, lo <= off s -> off s' <= hi -> wf_addons lo hi a = true.

Lemma parse_addons_spec s : Inv s ->
  post (addons_spec s) (off s) (parse_addons E s).
Proof using All.
  intros HI. pose proof (inv_facts s HI) as (H0 & Hc0 & Hle & _).
  unfold parse_addons. apply post_annot; [prj; lia|].
  eapply post_weaken; [apply (addons_loop_spec _ (loop_fuel E) s zero_addons HI); prj; unfold loop_fuel|lia|].
  - lia.
  - lia.
  - reflexivity.
  - intros a s' _ Hle' (Hr & Hlt & Hacc). prj. unfold addons_spec.
    split; [assumption|]. split; [assumption|]. intros lo hi Hlo Hhi.
    apply (wf_addons_intro lo hi (off s) (off s')); (assumption || lia).
Qed.

Lemma parse_include_spec s : Inv s ->
  post (fun i s' => in_range i = mkRange (off s) (off s') /\ off s < off s' /\
                    forall lo hi, lo <= off s -> off s' <= hi -> wf_include lo hi i = true)
       (off s) (parse_include E s).
Proof using All.
  intros HI. pose proof (inv_facts s HI) as (H0 & _).
  unfold parse_include. apply post_annot; [prj; lia|].
  step read_string_spec as ? s1 HI1 L1 (_ & Ho1 & _). { repeat constructor; unfold ascii; lia. }
  step read_whitespace1_spec as ? s2 HI2 L2 _.
  step parse_quoted_string_spec as q s3 HI3 L3 (Hq & Hq2 & Hqc).
  apply post_ret_with; [assumption|lia|]. prj.
  split; [reflexivity|]. split; [lia|]. intros lo hi Hlo Hhi.
  unfold wf_include, wf_quoted, rng_in. prj. rewrite Hq, Hqc. prj. lia.
Qed.

(* What parse_directive needs of a payload parsed in its scope sc: it is well formed and has
   the scope's range, which is not empty.  The payload parsers below run after the date, which
   lies between the scope's start and the offset. *)
Definition payload_ok {A} (body : A -> dir_body) (sc : scope) (x : A) (s' : state) : Prop :=
  sc_start sc < off s' /\ wf_body (scope_range sc s') (body x) = true.

Lemma parse_open_spec sc date s : Inv s -> 0 <= sc_start sc <= r_start date ->
  r_start date <= r_end date <= off s ->
  post (payload_ok BOpen sc) (off s) (parse_open E sc date s).
Proof using All.
  intros HI Hsc Hd. pose proof (inv_facts s HI) as (H0 & _).
  unfold parse_open. apply post_annot; [prj; lia|].
  step parse_account_spec as a s1 HI1 L1 (Ha & Hlt).
  apply post_ret_with; [assumption|lia|]. split; [prj; lia|].
  unfold wf_body, wf_open, rng_in, range_eqb, scope_range. prj. cbn [ordered_in]. rewrite Ha. prj. lia.
Qed.

Lemma parse_close_spec sc date s : Inv s -> 0 <= sc_start sc <= r_start date ->
  r_start date <= r_end date <= off s ->
  post (payload_ok BClose sc) (off s) (parse_close E sc date s).
Proof using All.
  intros HI Hsc Hd. pose proof (inv_facts s HI) as (H0 & _).
  unfold parse_close. apply post_annot; [prj; lia|].
  step parse_account_spec as a s1 HI1 L1 (Ha & Hlt).
  apply post_ret_with; [assumption|lia|]. split; [prj; lia|].
  unfold wf_body, wf_close, rng_in, range_eqb, scope_range. prj. cbn [ordered_in]. rewrite Ha. prj. lia.
Qed.

Definition list_spec {A} (rng : A -> range) (wf : Z -> Z -> A -> bool) (s : state) (l : list A) (s' : state) : Prop :=
  l <> [] /\ off s < off s' /\
  forall lo hi, lo <= off s -> off s' <= hi ->
    ordered_in lo hi (map rng l) = true /\ forallb (wf lo hi) l = true.

(* one round of the loops over balances and bookings: an item, the rest of its line, and
   either the end of the list or the remaining rounds *)
Lemma items_round_spec {A} (item : M A) (more : M (list A)) rng wf s :
  Inv s -> post (node_spec rng wf s) (off s) (item s) ->
  (forall s2, Inv s2 -> off s < off s2 -> post (list_spec rng wf s2) (off s2) (more s2)) ->
  post (list_spec rng wf s) (off s)
    ((do b <- item;
      do _ <- read_rest_of_whitespace_line E;
      ifM (fun s => is_whitespace_or_newline (cur s) || (cur s =? eof))
        (ret [b])
        (do bs <- more; ret (b :: bs))) s).
Proof using All.
  intros HI Hitem Hmore.
  eapply post_bind; [exact Hitem|lia|]. intros b s1 HI1 L1 (Hb & Hblt & Hbw).
  step read_rest_spec as ? s2 HI2 L2 _.
  unfold ifM. destruct (is_whitespace_or_newline (cur s2) || (cur s2 =? eof)).
  - apply post_ret; [assumption|lia|]. unfold list_spec.
    split; [discriminate|]. split; [lia|]. intros lo hi Hlo Hhi.
    cbn [map ordered_in forallb]. rewrite Hb, (Hbw lo hi) by lia. prj. lia.
  - step Hmore as bs s3 HI3 L3 (Hne & Hlt & Hbs). { lia. }
    apply post_ret; [assumption|lia|]. unfold list_spec.
    split; [discriminate|]. split; [lia|]. intros lo hi Hlo Hhi.
    cbn [map ordered_in forallb]. rewrite Hb, (Hbw lo hi) by lia. prj.
    destruct (Hbs (off s1) hi) as (-> & _); [lia|lia|].
    destruct (Hbs lo hi) as (_ & ->); [lia|lia|]. lia.
Qed.

Lemma balances_loop_spec : forall n s, Inv s -> len - off s < Z.of_nat n ->
  post (list_spec bl_range wf_balance s) (off s) (balances_loop E n s).
Proof using All.
  induction n as [|n IH]; intros s HI Hn; pose proof (inv_facts s HI); [lia|].
  cbn [balances_loop]. apply items_round_spec; [assumption|now apply parse_balance_spec|].
  intros s2 HI2 Hlt. apply IH; [assumption|lia].
Qed.

Lemma bookings_loop_spec : forall n s, Inv s -> len - off s < Z.of_nat n ->
  post (list_spec bk_range wf_booking s) (off s) (bookings_loop E n s).
Proof using All.
  induction n as [|n IH]; intros s HI Hn; pose proof (inv_facts s HI); [lia|].
  cbn [bookings_loop]. apply items_round_spec; [assumption|now apply parse_booking_spec|].
  intros s2 HI2 Hlt. apply IH; [assumption|lia].
Qed.

Lemma parse_assertion_spec sc date s : Inv s -> 0 <= sc_start sc <= r_start date ->
  r_start date <= r_end date <= off s ->
  post (payload_ok BAssertion sc) (off s) (parse_assertion E sc date s).
Proof using All.
  intros HI Hsc Hd. pose proof (inv_facts s HI) as (H0 & Hc0 & Hle & _).
  unfold parse_assertion. apply post_annot; [prj; lia|].
  unfold ifM. destruct (is_newline (cur s)).
  - step read_rest_spec as ? s1 HI1 L1 _.
    step balances_loop_spec as bs s2 HI2 L2 (Hne & Hlt & Hbs).
    { unfold loop_fuel. pose proof (inv_facts s1 HI1). lia. }
    apply post_ret_with; [assumption|lia|]. split; [prj; lia|].
    unfold wf_body, wf_assertion, rng_in, range_eqb, scope_range. prj. cbn [ordered_in].
    destruct (Hbs (r_end date) (off s2)) as (-> & _); [lia|lia|].
    destruct (Hbs (sc_start sc) (off s2)) as (_ & ->); [lia|lia|].
    rewrite (nonempty_match bs Hne). lia.
  - step parse_balance_spec as b s1 HI1 L1 (Hb & Hblt & Hbw).
    apply post_ret_with; [assumption|lia|]. split; [prj; lia|].
    unfold wf_body, wf_assertion, rng_in, range_eqb, scope_range. prj. cbn [map ordered_in forallb].
    rewrite Hb, (Hbw (sc_start sc) (off s1)) by lia. prj. lia.
Qed.

Lemma parse_price_spec sc date s : Inv s -> 0 <= sc_start sc <= r_start date ->
  r_start date <= r_end date <= off s ->
  post (payload_ok BPrice sc) (off s) (parse_price E sc date s).
Proof using All.
  intros HI Hsc Hd. pose proof (inv_facts s HI) as (H0 & _).
  unfold parse_price.
  eapply post_bind with (Q1 := fun cp s4 => ordered_in (off s) (off s4) [fst cp; snd cp] = true); [|lia|].
  { apply post_annot; [prj; lia|].
    step parse_commodity_spec as c s1 HI1 L1 (Hc & _).
    step read_whitespace1_spec as ? s2 HI2 L2 _.
    step parse_decimal_spec as p s3 HI3 L3 (Hp & _).
    step read_whitespace1_spec as ? s4 HI4 L4 _.
    apply post_ret; [assumption|lia|]. prj. cbn [ordered_in]. rewrite Hc, Hp. prj. lia. }
  intros cp s4 HI4 L4 Hcp. cbn [ordered_in] in Hcp.
  step parse_commodity_spec as tg s5 HI5 L5 (Htg & Hlt).
  apply post_ret_with; [assumption|lia|]. split; [prj; lia|].
  unfold wf_body, wf_price, rng_in, range_eqb, scope_range. prj. cbn [ordered_in]. rewrite Htg. prj. lia.
Qed.

Lemma opt_addons_spec s : Inv s ->
  post (fun ad s' => lead_ok (off s) (off s') ad) (off s)
    (ifM (cur_is 64) (parse_addons E) (ret zero_addons) s).
Proof using All.
  intros HI. unfold ifM. destruct (cur_is 64 s).
  - eapply post_weaken; [apply parse_addons_spec; assumption|lia|].
    intros ad s1 _ L1 (Har & Hlt & Hw). unfold lead_ok. rewrite (Hw (off s) (off s1)) by lia.
    split; [|apply orb_true_r]. unfold addons_ranges.
    destruct (is_zero_addons ad); cbn [ordered_in]; [lia|]. rewrite Har. prj. lia.
  - apply post_ret; [assumption|lia|]. split; [|reflexivity].
    unfold addons_ranges. replace (is_zero_addons zero_addons) with true by reflexivity.
    cbn [ordered_in]. lia.
Qed.

Lemma parse_transaction_spec sc date ad a s : Inv s -> 0 <= sc_start sc ->
  lead_ok (sc_start sc) a ad -> a <= r_start date <= r_end date -> r_end date <= off s ->
  post (payload_ok BTrx sc) (off s) (parse_transaction E sc date ad s).
Proof using All.
  intros HI Hsc Had Hd Hde. pose proof (ordered_in_bounds _ _ _ (proj1 Had)) as Ha.
  unfold parse_transaction. apply post_annot; [prj; lia|].
  step parse_quoted_string_spec as q s1 HI1 L1 (Hq & Hq2 & Hqc).
  step read_rest_spec as ? s2 HI2 L2 _.
  step bookings_loop_spec as bs s3 HI3 L3 (Hne & Hlt & Hbs).
  { unfold loop_fuel. pose proof (inv_facts s2 HI2). lia. }
  destruct (lead_ok_date _ _ (off s) (off s3) _ _ Had Hd ltac:(lia)) as (Hpre & Hw).
  apply post_ret_with; [assumption|lia|]. split; [prj; lia|].
  unfold wf_body, wf_transaction, range_eqb, scope_range. prj. rewrite Hw.
  destruct (Hbs (sc_start sc) (off s3)) as (_ & ->); [lia|lia|].
  rewrite (nonempty_match bs Hne).
  replace (addons_ranges ad ++ date :: qs_range q :: map bk_range bs)
    with ((addons_ranges ad ++ [date]) ++ qs_range q :: map bk_range bs)
    by (rewrite <- app_assoc; reflexivity).
  rewrite (ordered_in_app _ (off s) _ _ _ Hpre).
  2:{ cbn [ordered_in]. rewrite Hq. prj. destruct (Hbs (off s1) (off s3)) as (-> & _); lia. }
  unfold wf_quoted, rng_in. rewrite Hq, Hqc. prj. lia.
Qed.

Definition directive_spec (s : state) (d : directive) (s' : state) : Prop :=
  d_range d = mkRange (off s) (off s') /\ off s < off s' /\
  forall lo hi, lo <= off s -> off s' <= hi -> wf_directive lo hi d = true.

Definition dir_ok (sc : scope) (d : directive) (s' : state) : Prop :=
  d_range d = scope_range sc s' /\ sc_start sc < off s' /\ wf_body (d_range d) (d_body d) = true.

Lemma dir_ok_spec sc s d s' : sc_start sc = off s -> dir_ok sc d s' -> directive_spec s d s'.
Proof using All.
  unfold dir_ok, directive_spec, wf_directive, scope_range. intros <- (Hr & Hlt & Hw).
  split; [assumption|]. split; [assumption|]. intros lo hi Hlo Hhi.
  rewrite Hw, Hr. unfold rng_in, nonempty_range. prj. lia.
Qed.

Lemma directive_of {A} (body : A -> dir_body) (m : M A) sc o s :
  o <= off s -> post (payload_ok body sc) (off s) (m s) ->
  post (dir_ok sc) o ((do x <- m; ret_with sc (fun r => mkDirective r (body x))) s).
Proof using All.
  intros Ho Hm. eapply post_bind; [exact Hm|exact Ho|]. intros x s1 HI1 L1 (Hlt & Hx).
  apply post_ret_with; [assumption|lia|]. split; [reflexivity|]. split; assumption.
Qed.

Lemma parse_directive_spec s : Inv s ->
  post (directive_spec s) (off s) (parse_directive E s).
Proof using All.
  intros HI. pose proof (inv_facts s HI) as (H0 & _).
  unfold parse_directive. apply post_annot; [prj; lia|].
  generalize (eq_refl : sc_start (new_scope DDir s) = off s).
  generalize (new_scope DDir s). intros sc Hsc.
  eapply post_weaken with (Q := dir_ok sc) (o := off s); [|lia|intros d s' _ _; now apply dir_ok_spec].
  step opt_addons_spec as ad s1 HI1 L1 Had. rewrite <- Hsc in Had.
  unfold ifM at 1. destruct (cur_is 105 s1).
  - apply directive_of; [lia|].
    eapply post_weaken; [apply parse_include_spec; assumption|lia|].
    intros i s2 _ L2 (Hi & Hlt & Hw). split; [lia|].
    unfold wf_body, scope_range. prj. rewrite (Hw (sc_start sc) (off s2)), Hi by lia. prj. lia.
  - step parse_date_spec as date s2 HI2 L2 (-> & Hdlt).
    step read_whitespace1_spec as ? s3 HI3 L3 _.
    unfold ifM at 1. destruct (cur_is 34 s3).
    + apply directive_of; [lia|].
      apply (parse_transaction_spec _ _ _ (off s1)); prj; (assumption || lia).
    + step ra_spec as kw s4 HI4 L4 (-> & Hkwlt & Hin).
      { repeat constructor; unfold ascii; lia. }
      { repeat constructor; discriminate. }
      step read_whitespace1_spec as ? s5 HI5 L5 _.
      cbv zeta.
      apply (dispatch4 (fun m : M directive => post (dir_ok sc) (off s) (m s5))); [exact Hin|..];
        (cbv beta; apply directive_of; [lia|]).
      * apply parse_open_spec; prj; (assumption || lia).
      * apply parse_close_spec; prj; (assumption || lia).
      * apply parse_assertion_spec; prj; (assumption || lia).
      * apply parse_price_spec; prj; (assumption || lia).
Qed.

Definition line_ok (f : bool) (l : str) : Prop := line_ok_b f l = true /\ Forall notnl l.

(* gap_ok first_ws open_end g: g is a sequence of gap lines *)
Inductive gap_ok : bool -> bool -> str -> Prop :=
| gap_nil f o : gap_ok f o []
| gap_open f l : line_ok f l -> gap_ok f true l
| gap_line f o l g : line_ok f l -> gap_ok false o g -> gap_ok f o (l ++ 10 :: g).

Lemma split_nl_nonnil g : split_nl g <> [].
Proof using All.
  induction g as [|b g IH]; cbn [split_nl]; [discriminate|].
  destruct (b =? 10); [discriminate|]. destruct (split_nl g); [congruence|discriminate].
Qed.

Lemma split_nl_line l g : Forall notnl l -> split_nl (l ++ 10 :: g) = l :: split_nl g.
Proof using All.
  induction 1 as [|b l Hb Hl IH]; cbn [app split_nl].
  - reflexivity.
  - unfold notnl in Hb. destruct (Z.eqb_spec b 10); [contradiction|]. now rewrite IH.
Qed.

Lemma split_nl_open l : Forall notnl l -> split_nl l = [l].
Proof using All.
  induction 1 as [|b l Hb Hl IH]; cbn [split_nl]; [reflexivity|].
  unfold notnl in Hb. destruct (Z.eqb_spec b 10); [contradiction|]. now rewrite IH.
Qed.

Lemma gap_ok_b_complete f o g : gap_ok f o g -> gap_ok_b f o g = true.
Proof using All.
  unfold gap_ok_b. induction 1 as [f o|f l (Hl & Hn)|f o l g (Hl & Hn) Hg IH].
  - reflexivity.
  - rewrite (split_nl_open l Hn). cbn [lines_ok_b]. destruct l; [reflexivity|]. now rewrite Hl.
  - rewrite (split_nl_line l g Hn). pose proof (split_nl_nonnil g) as Hne.
    destruct (split_nl g) as [|x xs]; [congruence|].
    cbn [lines_ok_b] in *. rewrite Hl, IH. reflexivity.
Qed.

Fixpoint gaps (pos : Z) (after : bool) (ds : list directive) : Prop :=
  match ds with
  | [] => gap_ok after true (slice t pos len)
  | d :: ds' =>
    pos <= r_start (d_range d) /\ (after = true -> pos < r_start (d_range d)) /\
    gap_ok after false (slice t pos (r_start (d_range d))) /\
    gaps (r_end (d_range d)) true ds'
  end.

Lemma gaps_b_complete ds : forall pos after, gaps pos after ds -> gaps_b t pos after ds = true.
Proof using All.
  induction ds as [|d ds IH]; intros pos after H; cbn [gaps gaps_b] in *.
  - unfold zlen. rewrite <- Hlen. now apply gap_ok_b_complete.
  - destruct H as (H1 & H2 & H3 & H4).
    rewrite (gap_ok_b_complete _ _ _ H3), (IH _ _ H4).
    destruct after; [specialize (H2 eq_refl)|]; lia.
Qed.

Lemma wsb_notnl l : Forall wsb l -> Forall notnl l.
Proof using All.
  apply Forall_impl. unfold wsb, is_ws_byte, notnl. intros; lia.
Qed.

Lemma wsb_ws_only l : Forall wsb l -> ws_only l = true.
Proof using All.
  intros H. unfold ws_only. apply forallb_forall. rewrite Forall_forall in H. exact H.
Qed.

Lemma ws_only_wsb l : ws_only l = true -> Forall wsb l.
Proof using All.
  unfold ws_only. rewrite forallb_forall, Forall_forall. auto.
Qed.

(* a partial line X followed by blanks W is still a gap line *)
Lemma line_ok_b_app f X W : line_ok_b f X = true -> Forall wsb W -> line_ok_b f (X ++ W) = true.
Proof using All.
  unfold line_ok_b. intros H HW.
  destruct (ws_only X) eqn:Hx.
  - assert (ws_only (X ++ W) = true).
    { apply wsb_ws_only, Forall_app. split; [now apply ws_only_wsb|assumption]. }
    lia.
  - assert (Hc : negb f && is_comment_line X = true) by lia.
    assert (is_comment_line (X ++ W) = true).
    { destruct X as [|b [|c X']]; cbn [is_comment_line app] in *; [lia| |lia].
      destruct W; lia. }
    lia.
Qed.

Lemma gaps_extend a b f l ds :
  0 <= a < b -> b <= len -> slice t a b = l ++ [10] -> line_ok f l ->
  gaps b false ds -> gaps a f ds.
Proof using All.
  intros Hab Hb Hs Hl Hg. destruct ds as [|d ds]; cbn [gaps] in *.
  - rewrite (slice_app t a b len) by lia. rewrite Hs, <- app_assoc. cbn [app].
    now apply gap_line.
  - destruct Hg as (H1 & _ & H3 & H4). split; [lia|]. split; [intros; lia|]. split; [|assumption].
    rewrite (slice_app t a b (r_start (d_range d))) by lia. rewrite Hs, <- app_assoc. cbn [app].
    now apply gap_line.
Qed.

Definition loop_post (p0 : Z) (f : bool) (o : Z) (ds : list directive) (s' : state) : Prop :=
  cur s' = eof /\ gaps p0 f ds /\
  (forall lo, lo <= o -> ordered_in lo len (map d_range ds) = true) /\
  forallb (wf_directive 0 len) ds = true.

Lemma tail_spec n (od : option directive) p0 f s1 :
  (forall s, Inv s -> len - off s < Z.of_nat n ->
     post (loop_post (off s) false (off s)) (off s) (file_loop E n s)) ->
  Inv s1 -> 0 <= p0 <= off s1 -> len - off s1 <= Z.of_nat n ->
  Forall notnl (slice t p0 (off s1)) -> line_ok_b f (slice t p0 (off s1)) = true ->
  post (fun r s' => exists ds, r = opt_cons od ds /\ loop_post p0 f (off s1) ds s') (off s1)
    (ifM (cur_is eof) (ret (opt_cons od []))
       (do _ <- read_rest_of_whitespace_line E; do ds <- file_loop E n; ret (opt_cons od ds)) s1).
Proof using All.
  intros IH HI1 Hp0 Hn HX1 HX2.
  pose proof (inv_facts s1 HI1) as (H0 & Hc0 & Hle & _).
  unfold ifM, cur_is. destruct (Z.eqb_spec (cur s1) eof) as [Hc|Hc].
  - apply post_ret; [assumption|lia|]. exists []. split; [reflexivity|].
    pose proof (inv_eof_len s1 HI1 Hc) as Hend.
    unfold loop_post. cbn [gaps map ordered_in forallb]. rewrite <- Hend.
    split; [assumption|]. split; [apply gap_open; split; assumption|]. split; [intros; lia|reflexivity].
  - step read_rest_spec as ? s2 HI2 L2 (Hrl & Hprog). specialize (Hprog Hc).
    pose proof (inv_facts s2 HI2) as (_ & Hc2 & Hle2 & _).
    step IH as ds s3 HI3 L3 (Heof & Hg & Ho & Hw). { lia. }
    apply post_ret; [assumption|lia|]. exists ds. split; [reflexivity|].
    unfold loop_post. split; [assumption|]. split; [|split; [intros; apply Ho; lia|assumption]].
    destruct Hrl as [(W & HsW & HW)|(Heof2 & HW)].
    + apply (gaps_extend p0 (off s2) f (slice t p0 (off s1) ++ W)); try assumption; try lia.
      * rewrite (slice_app t p0 (off s1) (off s2)) by lia. rewrite HsW. now rewrite app_assoc.
      * split; [now apply line_ok_b_app|]. apply Forall_app. split; [assumption|now apply wsb_notnl].
    + pose proof (inv_eof_len s2 HI2 Heof2) as Hend.
      destruct ds as [|d ds].
      * cbn [gaps]. rewrite (slice_app t p0 (off s1) len) by lia. rewrite <- Hend.
        apply gap_open. split; [now apply line_ok_b_app|].
        apply Forall_app. split; [assumption|now apply wsb_notnl].
      * exfalso. cbn [gaps forallb] in Hg, Hw. destruct Hg as (G1 & _).
        revert Hw. unfold wf_directive, rng_in, nonempty_range. lia.
Qed.

Lemma file_loop_spec : forall n s, Inv s -> len - off s < Z.of_nat n ->
  post (loop_post (off s) false (off s)) (off s) (file_loop E n s).
Proof using All.
  induction n as [|n IH]; intros s HI Hn;
    pose proof (inv_facts s HI) as (H0 & Hc0 & Hle & _); [lia|].
  cbn [file_loop]. unfold ifM at 1. unfold cur_is at 1.
  destruct (Z.eqb_spec (cur s) eof) as [Hc|Hc].
  { apply post_ret; [assumption|lia|].
    pose proof (inv_eof_len s HI Hc) as Hend.
    unfold loop_post. cbn [gaps map ordered_in forallb]. rewrite Hend, slice_nil.
    split; [assumption|]. split; [apply gap_nil|]. split; [intros; lia|reflexivity]. }
  eapply post_bind with (Q1 := fun od s1 =>
    match od with
    | Some d => directive_spec s d s1
    | None => (off s < off s1 \/ s1 = s) /\ Forall notnl (slice t (off s) (off s1)) /\
              line_ok_b false (slice t (off s) (off s1)) = true
    end); [|lia|].
  { unfold ifM. destruct ((cur s =? 42) || (cur s =? 35) || (cur s =? 47)).
    - step read_comment_spec as ? s1 HI1 L1 (Hlt & m & body & Hs & Hm & Hb).
      apply post_ret; [assumption|lia|]. split; [now left|]. rewrite Hs.
      assert (Hmn : Forall notnl m /\ is_comment_line (m ++ body) = true).
      { destruct Hm as [<-|[<-|[<-|[]]]]; (split; [repeat constructor; unfold notnl; lia|reflexivity]). }
      destruct Hmn as (Hmn & Hcl).
      split; [apply Forall_app; split; assumption|]. unfold line_ok_b. rewrite Hcl. cbn [negb andb]. lia.
    - destruct (is_alphanumeric E (cur s) || (cur s =? 64)).
      + step parse_directive_spec as d s1 HI1 L1 Hd.
        apply post_ret; [assumption|lia|]. exact Hd.
      + apply post_ret; [assumption|lia|]. split; [now right|]. rewrite slice_nil.
        split; [constructor|reflexivity]. }
  intros od s1 HI1 L1 Hod.
  pose proof (inv_facts s1 HI1) as (_ & Hc1 & Hle1 & _).
  destruct od as [d|].
  - destruct Hod as (Hdr & Hdlt & Hdw).
    eapply post_weaken; [apply (tail_spec n (Some d) (off s1) true s1 IH HI1); try lia|lia|].
    + rewrite slice_nil. constructor.
    + rewrite slice_nil. reflexivity.
    + intros r s' HI' L' (ds & -> & Heof & Hg & Ho & Hw). cbn [opt_cons].
      unfold loop_post. cbn [gaps map ordered_in forallb]. rewrite Hdr. prj.
      split; [assumption|]. split; [|split].
      * split; [lia|]. split; [discriminate|]. rewrite slice_nil. split; [apply gap_nil|assumption].
      * intros lo Hlo. rewrite (Ho (off s1)) by lia. lia.
      * rewrite (Hdw 0 len) by lia. assumption.
  - destruct Hod as (Hprog & HX1 & HX2).
    eapply post_weaken; [apply (tail_spec n None (off s) false s1 IH HI1); try assumption; try lia|lia|].
    + intros r s' HI' L' (ds & -> & Heof & Hg & Ho & Hw). cbn [opt_cons].
      unfold loop_post. split; [assumption|]. split; [assumption|]. split; [|assumption].
      intros lo Hlo. apply Ho. lia.
Qed.

Lemma strict_from_ordered hi : forall ds lo,
  ordered_in lo hi (map d_range ds) = true -> forallb (wf_directive 0 hi) ds = true ->
  strict_order_b (map d_range ds) = true.
Proof using All.
  induction ds as [|d ds IH]; intros lo Ho Hw; cbn [map strict_order_b ordered_in forallb] in *; [reflexivity|].
  assert (H1 : ordered_in (r_end (d_range d)) hi (map d_range ds) = true) by lia.
  assert (H2 : forallb (wf_directive 0 hi) ds = true) by lia.
  rewrite (IH _ H1 H2).
  assert (H3 : nonempty_range (d_range d) = true) by (revert Hw; unfold wf_directive; lia).
  rewrite H3. destruct ds as [|d' ds]; cbn [map ordered_in] in *; lia.
Qed.

Lemma interleave_slice : forall ds pos, 0 <= pos ->
  ordered_in pos len (map d_range ds) = true -> interleave_from t pos ds = slice t pos len.
Proof using All.
  induction ds as [|d ds IH]; intros pos Hp Ho; cbn [interleave_from map ordered_in] in *.
  - unfold zlen. now rewrite <- Hlen.
  - assert (H1 : ordered_in (r_end (d_range d)) len (map d_range ds) = true) by lia.
    pose proof (ordered_in_bounds _ _ _ H1) as Hb.
    assert (Hp2 : 0 <= r_end (d_range d)) by lia. rewrite (IH _ Hp2 H1).
    rewrite (slice_app t pos (r_start (d_range d)) len) by lia.
    rewrite (slice_app t (r_start (d_range d)) (r_end (d_range d)) len) by lia. reflexivity.
Qed.

Definition file_ok (f : file) : Prop :=
  wf_tree_b t f = true /\ cover_b t f = true /\ interleave t f = t.

Lemma parse_file_spec s : Inv s -> off s = 0 ->
  post (fun f _ => file_ok f) 0 (parse_file E s).
Proof using All.
  intros HI Hs0. pose proof (inv_facts s HI) as (H0 & Hc0 & Hle & _).
  unfold parse_file. rewrite <- Hs0. apply post_annot; [prj; lia|].
  step file_loop_spec as ds s1 HI1 L1 (Heof & Hg & Ho & Hw).
  { unfold loop_fuel. lia. }
  apply post_ret_with; [assumption|lia|]. prj.
  pose proof (inv_eof_len s1 HI1 Heof) as Hend.
  assert (Hz : zlen t = len) by (unfold zlen; now rewrite Hlen).
  unfold file_ok, wf_tree_b, cover_b, interleave, range_eqb. prj. rewrite Hz, Hs0, Hend in *.
  pose proof (Ho 0 ltac:(lia)) as Ho0.
  split; [|split].
  - rewrite Ho0, Hw, (strict_from_ordered len ds 0 Ho0 Hw). lia.
  - now apply gaps_b_complete.
  - rewrite (interleave_slice ds 0) by (lia || assumption). rewrite <- Hz. apply slice_full.
Qed.

Lemma errs_ok_bounds e : errs_ok E e -> err_in_bounds_b t e = true.
Proof using All.
  intros H. unfold err_in_bounds_b. apply forallb_forall. intros x Hx.
  unfold errs_ok in H. rewrite Forall_forall in H. specialize (H x Hx).
  unfold err_ok in H. unfold zlen. rewrite <- Hlen. lia.
Qed.

Theorem parse_env_total :
  match parse_env E with
  | ParseOk f => file_ok f
  | ParseErr e => err_in_bounds_b t e = true
  | ParseFuel => False
  end.
Proof using All.
  unfold parse_env. pose proof (advance_init E Hlen Hfuel Hdec) as Ha.
  destruct (advance E (init_state E)) as [[] s|e s|]; cbn [ScannerProofs.post] in Ha.
  - destruct Ha as (HI & _ & Ho).
    pose proof (parse_file_spec s HI Ho) as Hf.
    destruct (parse_file E s) as [f s'|e s'|]; cbn [ScannerProofs.post] in Hf.
    + tauto.
    + apply errs_ok_bounds. tauto.
    + contradiction.
  - apply errs_ok_bounds. tauto.
  - contradiction.
Qed.

End WithEnv.

Lemma parse_text_total letter digit (t : str) :
  match parse_text letter digit t with
  | ParseOk f => wf_tree_b t f = true /\ cover_b t f = true /\ interleave t f = t
  | ParseErr e => err_in_bounds_b t e = true
  | ParseFuel => False
  end.
Proof.
  unfold parse_text.
  apply (parse_env_total (mk_env Utf8M.decode letter digit t)).
  - reflexivity.
  - cbn [mk_env e_text e_fuel]. lia.
  - apply utf8_decoder_ok.
Qed.

Lemma parse_text_fuel letter digit t : parse_text letter digit t <> ParseFuel.
Proof. pose proof (parse_text_total letter digit t) as H. intros Hf. now rewrite Hf in H. Qed.

Lemma parse_text_err_in_bounds letter digit t e :
  parse_text letter digit t = ParseErr e -> err_in_bounds_b t e = true.
Proof. pose proof (parse_text_total letter digit t) as H. intros Hf. now rewrite Hf in H. Qed.

Lemma parse_text_wf letter digit t f :
  parse_text letter digit t = ParseOk f -> wf_tree_b t f = true.
Proof. pose proof (parse_text_total letter digit t) as H. intros Hf. rewrite Hf in H. tauto. Qed.

Lemma parse_text_cover letter digit t f :
  parse_text letter digit t = ParseOk f -> cover_b t f = true /\ interleave t f = t.
Proof. pose proof (parse_text_total letter digit t) as H. intros Hf. rewrite Hf in H. tauto. Qed.
