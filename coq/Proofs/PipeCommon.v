(* What the proofs about the pipeline models (Model/Pipe.v, Model/PipeLoader.v, Model/PipeFromPath.v,
   Model/PipeFromPathCycle.v) share: facts about a task list with one task replaced ([set_nth] of
   Model/PipeLoader.v), and the termination argument for a step function with a decreasing measure. *)
From Coq Require Import List Bool Arith PeanoNat Lia.
From Knut Require Import Model.PipeLoader.
Import ListNotations.

Section SetNth.
  Variable A : Type.
  Notation cnt := (count_occ Nat.eq_dec).

  Lemma in_set_nth : forall (l : list A) t v x, In x (set_nth l t v) -> x = v \/ In x l.
  Proof.
    induction l as [|y l IH]; intros [|t] v x H; simpl in *; auto.
    - destruct H as [H|H]; auto.
    - destruct H as [H|H]; auto. destruct (IH t v x H); auto.
  Qed.

  Lemma all_set_nth : forall (P : A -> Prop) l t v, (forall x, In x l -> P x) -> P v ->
    forall x, In x (set_nth l t v) -> P x.
  Proof. intros P l t v H V x Hx. apply in_set_nth in Hx. destruct Hx as [->|Hx]; auto. Qed.

  Lemma all_snoc : forall (P : A -> Prop) l v, (forall x, In x l -> P x) -> P v ->
    forall x, In x (l ++ [v]) -> P x.
  Proof. intros P l v H V x Hx. apply in_app_or in Hx. destruct Hx as [Hx|[<-|[]]]; auto. Qed.

  (* the shape of the clauses "while no error is recorded the context is not cancelled and no task has
     failed or been cancelled" of the invariants, for both task stages *)
  Lemma clean_set_nth : forall (E : Type) (errs : list E) (flag : bool) (Q : A -> Prop) l t v,
    (errs = [] -> flag = false /\ forall x, In x l -> Q x) -> Q v ->
    errs = [] -> flag = false /\ forall x, In x (set_nth l t v) -> Q x.
  Proof. intros E errs flag Q l t v H V Ee. destruct (H Ee) as [F B]. split; [exact F|]. apply all_set_nth; auto. Qed.

  Lemma clean_snoc : forall (E : Type) (errs : list E) (flag : bool) (Q : A -> Prop) l v,
    (errs = [] -> flag = false /\ forall x, In x l -> Q x) -> Q v ->
    errs = [] -> flag = false /\ forall x, In x (l ++ [v]) -> Q x.
  Proof. intros E errs flag Q l v H V Ee. destruct (H Ee) as [F B]. split; [exact F|]. apply all_snoc; auto. Qed.

  Lemma sum_set_nth : forall (w : A -> nat) l t v old, nth_error l t = Some old ->
    list_sum (map w (set_nth l t v)) + w old = list_sum (map w l) + w v.
  Proof.
    induction l as [|x l IH]; intros [|t] v old H; simpl in *; try discriminate.
    - injection H as ->. lia.
    - specialize (IH t v old H). lia.
  Qed.

  Lemma cnt_set_nth : forall (pend : A -> list nat) l t v old x, nth_error l t = Some old ->
    cnt (flat_map pend (set_nth l t v)) x + cnt (pend old) x = cnt (flat_map pend l) x + cnt (pend v) x.
  Proof.
    induction l as [|y l IH]; intros [|t] v old x H; simpl in *; try discriminate.
    - injection H as ->. rewrite !count_occ_app. lia.
    - specialize (IH t v old x H). rewrite !count_occ_app. lia.
  Qed.

  Lemma sum_move : forall (w : A -> nat) l t v old kids, nth_error l t = Some old ->
    list_sum (map w (set_nth l t v ++ kids)) + w old = list_sum (map w l) + w v + list_sum (map w kids).
  Proof. intros w l t v old kids N. rewrite map_app, list_sum_app. pose proof (sum_set_nth w l t v old N). lia. Qed.

  Lemma cnt_move : forall (pend : A -> list nat) l t v old kids x, nth_error l t = Some old ->
    cnt (flat_map pend (set_nth l t v ++ kids)) x + cnt (pend old) x =
    cnt (flat_map pend l) x + cnt (pend v) x + cnt (flat_map pend kids) x.
  Proof.
    intros pend l t v old kids x N. rewrite flat_map_app, count_occ_app.
    pose proof (cnt_set_nth pend l t v old x N). lia.
  Qed.

  Lemma map_set_nth_same : forall (B : Type) (g : A -> B) l t v old, nth_error l t = Some old ->
    g v = g old -> map g (set_nth l t v) = map g l.
  Proof.
    induction l as [|x l IH]; intros [|t] v old H E; simpl in *; try discriminate.
    - injection H as ->. rewrite E. reflexivity.
    - rewrite (IH t v old H E). reflexivity.
  Qed.

  Lemma flat_map_set_nth_same : forall (B : Type) (g : A -> list B) l t v old, nth_error l t = Some old ->
    g v = g old -> flat_map g (set_nth l t v) = flat_map g l.
  Proof. intros. rewrite !flat_map_concat_map. f_equal. eapply map_set_nth_same; eassumption. Qed.

  Lemma forallb_nth : forall (p : A -> bool) l t x, forallb p l = true -> nth_error l t = Some x -> p x = true.
  Proof. intros p l t x F N. rewrite forallb_forall in F. apply F. eapply nth_error_In; eassumption. Qed.

  Lemma forallb_false_nth : forall (p : A -> bool) l, forallb p l = false ->
    exists t x, nth_error l t = Some x /\ p x = false.
  Proof.
    induction l as [|y l IH]; intros H; simpl in H; [discriminate|].
    destruct (p y) eqn:P.
    - destruct (IH H) as (t & x & N & Q). exists (S t), x. auto.
    - exists 0, y. auto.
  Qed.
End SetNth.
Arguments in_set_nth {A}.
Arguments all_set_nth {A}.
Arguments all_snoc {A}.
Arguments clean_set_nth {A E}.
Arguments clean_snoc {A E}.
Arguments sum_set_nth {A}.
Arguments cnt_set_nth {A}.
Arguments sum_move {A}.
Arguments cnt_move {A}.
Arguments map_set_nth_same {A B}.
Arguments flat_map_set_nth_same {A B}.
Arguments forallb_nth {A}.
Arguments forallb_false_nth {A}.

(* A step function with a measure that every step decreases, on the states of an invariant that
   every step keeps: a schedule makes at most [mu] effective steps, and a scheduler that finds an
   enabled label in every unfinished state finishes within that fuel.  The run, step count and
   drain functions of the three loader models are instances up to conversion. *)
Section Measure.
  Variables (St Lb : Type) (step : Lb -> St -> option St) (mu : St -> nat) (Inv : St -> Prop).
  Hypothesis step_inv : forall l st st', Inv st -> step l st = Some st' -> Inv st'.
  Hypothesis step_dec : forall l st st', Inv st -> step l st = Some st' -> mu st' < mu st.

  Definition stay (st : St) (l : Lb) : St := match step l st with Some st' => st' | None => st end.

  Fixpoint steps (sched : list Lb) (st : St) : nat :=
    match sched with
    | [] => 0
    | l :: rest => match step l st with Some st' => S (steps rest st') | None => steps rest st end
    end.

  Lemma stay_keeps : forall st l, Inv st -> Inv (stay st l).
  Proof. intros st l HI. unfold stay. destruct (step l st) eqn:E; [eapply step_inv; eassumption|assumption]. Qed.

  Lemma run_keeps : forall sched st, Inv st -> Inv (fold_left stay sched st).
  Proof. induction sched as [|l rest IH]; intros st HI; simpl; [assumption|]. apply IH, stay_keeps, HI. Qed.

  Lemma steps_run_mu : forall sched st, Inv st -> steps sched st + mu (fold_left stay sched st) <= mu st.
  Proof.
    induction sched as [|l rest IH]; intros st HI; simpl; [lia|].
    unfold stay at 2. destruct (step l st) as [st'|] eqn:E; [|apply IH; exact HI].
    pose proof (step_dec l st st' HI E). specialize (IH st' (step_inv l st st' HI E)). lia.
  Qed.

  Lemma steps_le_mu : forall sched st, Inv st -> steps sched st <= mu st.
  Proof. intros sched st HI. pose proof (steps_run_mu sched st HI). lia. Qed.

  Lemma run_mu_le : forall sched st, Inv st -> mu (fold_left stay sched st) <= mu st.
  Proof. intros sched st HI. pose proof (steps_run_mu sched st HI). lia. Qed.

  Variables (pick : St -> option Lb) (fin : St -> bool).
  Hypothesis pick_enabled : forall st l, pick st = Some l -> exists st', step l st = Some st'.
  Hypothesis pick_none : forall st, Inv st -> pick st = None -> fin st = true.

  Fixpoint pick_run (fuel : nat) (st : St) : St :=
    match fuel with
    | 0 => st
    | S k => match pick st with Some l => pick_run k (stay st l) | None => st end
    end.

  Lemma pick_run_keeps : forall fuel st, Inv st -> Inv (pick_run fuel st).
  Proof.
    induction fuel as [|fuel IH]; intros st HI; simpl; [assumption|].
    destruct (pick st); [apply IH, stay_keeps, HI|assumption].
  Qed.

  Lemma pick_finishes : forall fuel st, Inv st -> mu st <= fuel -> fin (pick_run fuel st) = true.
  Proof.
    induction fuel as [|fuel IH]; intros st HI Hm; simpl.
    - destruct (pick st) as [l|] eqn:P; [|apply pick_none; assumption].
      destruct (pick_enabled st l P) as (st' & E). pose proof (step_dec l st st' HI E). lia.
    - destruct (pick st) as [l|] eqn:P; [|apply pick_none; assumption].
      destruct (pick_enabled st l P) as (st' & E). unfold stay. rewrite E.
      apply IH; [eapply step_inv; eassumption|]. pose proof (step_dec l st st' HI E). lia.
  Qed.
End Measure.
