(* Proofs about Model/Pipe.v: the checker is exact.  Every event list accepted by
   [trace_ok] (equivalently: satisfying [tr_spec]) whose items and failures fit an instance
   (n stages, m items, oracle [fails]: Spec/PipeSpec.v [respects]) is the trace of a run of that
   instance from [init] - the converse of trace_ok_complete - and the trace of every run fits
   its instance.  The schedule is built event by event: between two events only silent labels
   (Fetch, Hand, and the sink's Begin/End) are used, nothing is ever cancelled or closed.   *)
From Coq Require Import List Bool Arith PeanoNat Lia.
From Knut Require Import Model.Pipe Spec.PipeSpec Proofs.PipeInv Proofs.PipeProofs Proofs.PipeTrace.
Import ListNotations.

Section Exact.
  Variable n m : nat.
  Variable fails : nat -> nat -> bool.
  Notation step := (step n m fails).
  Notation run := (run n m fails).
  Notation Inv := (Inv n m fails).
  Notation TInv := (TInv n).

  (* nothing cancelled, every goroutine still running *)
  Definition Clean (st : state) : Prop :=
    cancelled st = false /\ forall i, stat (nodes st i) = Running.

  (* labels that emit no event *)
  Definition silent (l : label) : Prop :=
    match l with
    | Fetch | Hand _ => True
    | Begin i | End i => i = S n
    | _ => False
    end.

  Lemma run_app : forall s1 s2 st, run (s1 ++ s2) st = run s2 (run s1 st).
  Proof. intros. unfold Pipe.run. apply fold_left_app. Qed.

  Lemma run_one : forall l st st', step l st = Some st' -> run [l] st = st'.
  Proof. intros l st st' H. unfold Pipe.run. simpl. unfold Pipe.step_or_stay. rewrite H. reflexivity. Qed.

  Record Good (st : state) : Prop := { G_inv : Inv st; G_tinv : TInv st; G_clean : Clean st }.

  Definition quiet (st st' : state) : Prop :=
    (exists sched, run sched st = st') /\ trace_rev st' = trace_rev st /\ Clean st'.

  Lemma quiet_good : forall st st', Good st -> quiet st st' -> Good st'.
  Proof.
    intros st st' HG ((sched & <-) & _ & HC).
    constructor; [apply run_inv, HG | apply (run_preserves n m fails _ (step_tinv n m fails)); apply HG | exact HC].
  Qed.

  Lemma quiet_refl : forall st, Good st -> quiet st st.
  Proof. intros st HG. split; [exists []; reflexivity|]. split; [reflexivity | apply (G_clean _ HG)]. Qed.

  Lemma quiet_trans : forall a b c, quiet a b -> quiet b c -> quiet a c.
  Proof.
    intros a b c ((s1 & <-) & T1 & _) ((s2 & <-) & T2 & C2).
    split; [exists (s1 ++ s2); apply run_app|]. split; [congruence | assumption].
  Qed.

  Lemma running_upd : forall f i v, (forall j, stat (f j) = Running) -> stat v = Running ->
    forall j, stat (upd f i v j) = Running.
  Proof. intros f i v H Hv. apply (upd_forall (fun _ nd => stat nd = Running)); assumption. Qed.

  (* these labels put running nodes in the place of running nodes and cancel nothing *)
  Lemma step_clean : forall l st st', Clean st ->
    match l with Fetch | Hand _ | Begin _ | End _ => True | _ => False end ->
    step l st = Some st' -> Clean st'.
  Proof.
    intros l st st' [HC HR] Hl Hs.
    destruct l as [|i|i|i|i|i|i]; try contradiction; cbn [Pipe.step] in Hs; apply if_some in Hs as [_ Hs];
      rewrite ?HC in Hs; try destruct (_ <=? n); injection Hs as <-;
      (split; [exact HC|]); cbn; repeat apply running_upd; auto.
  Qed.

  Lemma step_silent_trace : forall l st st', silent l -> step l st = Some st' ->
    trace_rev st' = trace_rev st.
  Proof.
    intros l st st' Hl Hs. rewrite (step_trace n m fails l st st' Hs).
    destruct l; try contradiction; try reflexivity; cbn in Hl; subst i;
      rewrite (leb_correct_conv n (S n) (Nat.lt_succ_diag_r n)); reflexivity.
  Qed.

  Lemma quiet_step : forall st l st', Good st -> silent l -> step l st = Some st' -> quiet st st'.
  Proof.
    intros st l st' HG Hl Hs. split; [exists [l]; apply run_one; assumption|]. split.
    - eapply step_silent_trace; eassumption.
    - apply (step_clean l st st' (G_clean _ HG)); [|assumption].
      destruct l; simpl in Hl; auto.
  Qed.

  Lemma hand_step : forall st i, Good st -> i <= n ->
    ph (nodes st i) = PReady -> ph (nodes st (S i)) = PIdle ->
    exists st', quiet st st' /\
      nodes st' i = mkNode PIdle (S (cnt (nodes st i))) Running /\
      nodes st' (S i) = mkNode PHolding (cnt (nodes st i)) Running /\
      forall j, j <> i -> j <> S i -> nodes st' j = nodes st j.
  Proof.
    intros st i HG Hi P1 P2. destruct (G_clean _ HG) as [HC HR]. eexists. split.
    - apply (quiet_step st (Hand i) _ HG I). cbn [Pipe.step].
      rewrite (leb_correct _ _ Hi), (live_intro _ _ (HR i) P1), (live_intro _ _ (HR (S i)) P2), HC.
      reflexivity.
    - cbn. rewrite upd_same, upd_other, upd_same by lia. repeat split.
      intros j A B. rewrite !upd_other by assumption. reflexivity.
  Qed.

  Lemma fetch_step : forall st, Good st -> ph (nodes st 0) = PIdle -> cnt (nodes st 0) < m ->
    exists st', quiet st st' /\
      nodes st' 0 = mkNode PReady (cnt (nodes st 0)) Running /\
      forall j, j <> 0 -> nodes st' j = nodes st j.
  Proof.
    intros st HG P L. destruct (G_clean _ HG) as [HC HR]. eexists. split.
    - apply (quiet_step st Fetch _ HG I). cbn [Pipe.step].
      rewrite (live_intro _ _ (HR 0) P). apply Nat.ltb_lt in L. rewrite L. reflexivity.
    - cbn. split; [reflexivity|]. intros j A. apply upd_other, A.
  Qed.

  (* the guard of Begin i and End i in a clean state *)
  Lemma work_guard : forall st i p, Clean st -> 1 <= i <= S n -> ph (nodes st i) = p ->
    (1 <=? i) && (i <=? S n) && live (nodes st i) p = true.
  Proof.
    intros st i p [_ HR] [H1 Hi] P.
    rewrite (leb_correct _ _ H1), (leb_correct _ _ Hi), (live_intro _ _ (HR i) P). reflexivity.
  Qed.

  Lemma sink_begin : forall st, Good st -> ph (nodes st (S n)) = PHolding ->
    exists st', quiet st st' /\ ph (nodes st' (S n)) = PWorking /\
      forall j, j <= n -> nodes st' j = nodes st j.
  Proof.
    intros st HG P. eexists. split.
    - apply (quiet_step st (Begin (S n)) _ HG eq_refl). cbn [Pipe.step].
      rewrite (work_guard st (S n) _ (G_clean _ HG) ltac:(lia) P), (leb_correct_conv n (S n)) by lia.
      reflexivity.
    - cbn. rewrite upd_same. split; [reflexivity|]. intros j A. apply upd_other. lia.
  Qed.

  Lemma sink_end : forall st, Good st -> ph (nodes st (S n)) = PWorking ->
    exists st', quiet st st' /\ ph (nodes st' (S n)) = PIdle /\
      forall j, j <= n -> nodes st' j = nodes st j.
  Proof.
    intros st HG P. eexists. split.
    - apply (quiet_step st (End (S n)) _ HG eq_refl). cbn [Pipe.step].
      rewrite (work_guard st (S n) _ (G_clean _ HG) ltac:(lia) P), (leb_correct_conv n (S n)) by lia.
      reflexivity.
    - cbn. rewrite upd_same. split; [reflexivity|]. intros j A. apply upd_other. lia.
  Qed.

  Lemma sink_idle : forall st, Good st ->
    exists st', quiet st st' /\ ph (nodes st' (S n)) = PIdle /\
      forall j, j <= n -> nodes st' j = nodes st j.
  Proof.
    intros st HG. destruct (I_sinkph _ _ _ _ (G_inv _ HG)) as [P|[P|P]].
    - exists st. split; [apply quiet_refl; assumption|]. auto.
    - destruct (sink_begin st HG P) as (st1 & Q1 & P1 & F1).
      destruct (sink_end st1 (quiet_good _ _ HG Q1) P1) as (st2 & Q2 & P2 & F2).
      exists st2. split; [eapply quiet_trans; eassumption|]. split; [assumption|].
      intros j A. rewrite F2, F1 by assumption. reflexivity.
    - apply sink_end; assumption.
  Qed.

  (* node i, blocked in Push with item c, can hand it over after silent moves of the nodes after
     it, provided every later stage has ended enough items and none of them has failed *)
  Lemma push_down : forall d i st, i + d = n -> 1 <= i -> Good st ->
    ph (nodes st i) = PReady ->
    (forall j, 1 <= j -> i + j <= n -> cnt (nodes st i) + 1 <= ended (nodes st (i + j)) + j) ->
    (forall j, 1 <= j -> i + j <= n -> j <= cnt (nodes st i) ->
       fails (i + j) (cnt (nodes st i) - j) = false) ->
    exists st', quiet st st' /\
      nodes st' i = mkNode PIdle (S (cnt (nodes st i))) Running /\
      forall j, j < i -> nodes st' j = nodes st j.
  Proof.
    induction d as [|d IH]; intros i st Hd Hi HG P BP NF;
      (* first the node after i is made idle, then i hands over *)
      (cut (exists st1, quiet st st1 /\ ph (nodes st1 (S i)) = PIdle /\
                        forall j, j <= i -> nodes st1 j = nodes st j);
       [ intros (st1 & Q1 & P1 & F1);
         pose proof (quiet_good _ _ HG Q1) as HG1;
         assert (Pn : ph (nodes st1 i) = PReady) by (rewrite F1 by lia; exact P);
         destruct (hand_step st1 i HG1 ltac:(lia) Pn P1) as (st2 & Q2 & A & B & C);
         exists st2; (split; [eapply quiet_trans; eassumption|]); rewrite A, F1 by lia;
         (split; [reflexivity|]); intros j Hj; rewrite C by lia; apply F1; lia
       | ]).
    - replace i with n by lia. apply sink_idle, HG.
    - pose proof (I_chan _ _ _ _ (G_inv _ HG) i ltac:(lia)) as E. unfold sent, recv in E.
      destruct (ph (nodes st (S i))) eqn:P2.
      + exists st. split; [apply quiet_refl; assumption|]. auto.
      + exfalso. specialize (BP 1 (le_n _) ltac:(lia)). replace (i + 1) with (S i) in BP by lia.
        unfold ended in BP. rewrite P2 in BP. lia.
      + exfalso. specialize (BP 1 (le_n _) ltac:(lia)). replace (i + 1) with (S i) in BP by lia.
        unfold ended in BP. rewrite P2 in BP. lia.
      + destruct (IH (S i) st ltac:(lia) ltac:(lia) HG P2) as (st1 & Q1 & A & F).
        * intros j Hj1 Hj2. specialize (BP (S j) ltac:(lia) ltac:(lia)).
          replace (i + S j) with (S i + j) in BP by lia. lia.
        * intros j Hj1 Hj2 Hj3. specialize (NF (S j) ltac:(lia) ltac:(lia) ltac:(lia)).
          replace (i + S j) with (S i + j) in NF by lia.
          replace (cnt (nodes st i) - S j) with (cnt (nodes st (S i)) - j) in NF by lia. exact NF.
        * exists st1. split; [exact Q1|]. rewrite A. split; [reflexivity|]. intros j Hj. apply F. lia.
      + exfalso. destruct (I_failed _ _ _ _ (G_inv _ HG) (S i) P2) as [Ff _].
        specialize (NF 1 (le_n _) ltac:(lia) ltac:(lia)). replace (i + 1) with (S i) in NF by lia.
        replace (cnt (nodes st i) - 1) with (cnt (nodes st (S i))) in NF by lia. congruence.
  Qed.

  Lemma pull_up : forall st i k, Good st -> 1 <= i <= n ->
    ph (nodes st i) = PIdle -> cnt (nodes st i) = k -> k < m ->
    (2 <= i -> k < ended (nodes st (pred i))) ->
    (2 <= i -> fails (pred i) k = false) ->
    exists st', quiet st st' /\ nodes st' i = mkNode PHolding k Running.
  Proof.
    intros st i k HG Hi P C Hk HE HF.
    destruct i as [|i']; [lia|]. simpl in HE, HF.
    pose proof (I_chan _ _ _ _ (G_inv _ HG) i' ltac:(lia)) as E. unfold sent, recv in E.
    rewrite P, C in E.
    assert (X : exists st1, quiet st st1 /\ ph (nodes st1 i') = PReady /\ cnt (nodes st1 i') = k /\
                            ph (nodes st1 (S i')) = PIdle).
    { destruct i' as [|i''].
      - destruct (I_src _ _ _ _ (G_inv _ HG)) as [P0|P0].
        + destruct (fetch_step st HG P0 ltac:(lia)) as (st1 & Q1 & A & F).
          exists st1. split; [exact Q1|]. rewrite A, F by lia. simpl. auto.
        + exists st. split; [apply quiet_refl; assumption|]. auto.
      - specialize (HE ltac:(lia)). specialize (HF ltac:(lia)). unfold ended in HE.
        destruct (ph (nodes st (S i''))) eqn:P0; try lia.
        + exists st. split; [apply quiet_refl; assumption|]. auto.
        + exfalso. destruct (I_failed _ _ _ _ (G_inv _ HG) (S i'') P0) as [Ff _]. congruence. }
    destruct X as (st1 & Q1 & P1 & C1 & P2).
    destruct (hand_step st1 i' (quiet_good _ _ HG Q1) ltac:(lia) P1 P2) as (st2 & Q2 & _ & B & _).
    exists st2. split; [eapply quiet_trans; eassumption|]. rewrite B, C1. reflexivity.
  Qed.

  Lemma begin_step : forall st i, Good st -> 1 <= i <= n -> ph (nodes st i) = PHolding ->
    exists st', step (Begin i) st = Some st' /\
      trace_rev st' = mkEv i EvBegin (cnt (nodes st i)) :: trace_rev st /\ Clean st'.
  Proof.
    intros st i HG Hi P. pose proof (G_clean _ HG) as HC.
    assert (E : exists st', step (Begin i) st = Some st').
    { cbn [Pipe.step]. rewrite (work_guard st i _ HC ltac:(lia) P). eauto. }
    destruct E as [st' E]. exists st'. split; [exact E|]. split; [|exact (step_clean (Begin i) _ _ HC I E)].
    rewrite (step_trace n m fails _ _ _ E), (leb_correct _ _ (proj2 Hi)). reflexivity.
  Qed.

  Lemma end_step : forall st i, Good st -> 1 <= i <= n -> ph (nodes st i) = PWorking ->
    exists st', step (End i) st = Some st' /\
      trace_rev st' = mkEv i EvEnd (cnt (nodes st i)) :: trace_rev st /\ Clean st'.
  Proof.
    intros st i HG Hi P. pose proof (G_clean _ HG) as HC.
    assert (E : exists st', step (End i) st = Some st').
    { cbn [Pipe.step]. rewrite (work_guard st i _ HC ltac:(lia) P). destruct (i <=? n); eauto. }
    destruct E as [st' E]. exists st'. split; [exact E|]. split; [|exact (step_clean (End i) _ _ HC I E)].
    rewrite (step_trace n m fails _ _ _ E), (leb_correct _ _ (proj2 Hi)). reflexivity.
  Qed.

  (* what [ev_ok] after the trace of a good state says about the nodes *)
  Lemma ev_ok_begin_nodes : forall st i k, Good st -> ev_ok n (trace st) (mkEv i EvBegin k) ->
    1 <= i <= n /\ k = begun (nodes st i) /\ begun (nodes st i) = ended (nodes st i) /\
    (i = 1 \/ k < ended (nodes st (pred i))) /\
    (forall j, 1 <= j -> i + j <= n -> k <= ended (nodes st (i + j)) + j).
  Proof.
    intros st i k HG HE. unfold ev_ok, trace in HE. simpl in HE.
    destruct HE as (Hi & A & B & C & D). rewrite !count_ev_rev in *.
    pose proof (T_count _ _ (G_tinv _ HG) i Hi) as [CB CE]. rewrite CB, CE in *.
    split; [assumption|]. split; [assumption|]. split; [assumption|]. split.
    - destruct (Nat.eq_dec i 1) as [->|Hne]; [left; reflexivity|].
      destruct C as [C|C]; [lia|]. right.
      pose proof (T_count _ _ (G_tinv _ HG) (pred i) ltac:(lia)) as [_ CE']. rewrite <- CE'. exact C.
    - intros j H1 H2. specialize (D j H1 H2). rewrite count_ev_rev in D.
      pose proof (T_count _ _ (G_tinv _ HG) (i + j) ltac:(lia)) as [_ CE']. rewrite <- CE'. exact D.
  Qed.

  Lemma exact_run : forall tr, tr_spec n tr -> respects n m fails tr ->
    exists sched, trace (run sched init) = tr /\ Clean (run sched init).
  Proof.
    induction tr as [|e tr IH] using rev_ind; intros HS HR.
    - exists []. split; [reflexivity|]. split; [reflexivity | intros; reflexivity].
    - apply tr_spec_snoc_inv in HS. destruct HS as [HS HE].
      unfold respects in HR. apply Forall_app in HR. destruct HR as [HR1 HR2].
      apply Forall_inv in HR2.
      destruct (IH HS HR1) as (sched & ET & HC).
      remember (run sched init) as st eqn:Est.
      assert (HG : Good st).
      { subst st. constructor; [apply reachable_inv | apply reachable_tinv | exact HC]. }
      rewrite <- ET in HE. destruct e as [i p k]. destruct p.
      + (* begin *)
        destruct (ev_ok_begin_nodes st i k HG HE) as (Hi & A & B & C & D).
        destruct HR2 as [Km HRb]. simpl in Km, HRb. specialize (HRb eq_refl). destruct HRb as [NFp NFd].
        assert (X : exists st1, quiet st st1 /\ nodes st1 i = mkNode PHolding k Running).
        { unfold begun, ended in A, B.
          destruct (ph (nodes st i)) eqn:P.
          - apply (pull_up st i k HG Hi P (eq_sym A) Km).
            + intros H2. destruct C; [lia|assumption].
            + exact NFp.
          - exists st. split; [apply quiet_refl; assumption|].
            pose proof (proj2 (G_clean _ HG) i) as R.
            destruct (nodes st i) as [p c s]. simpl in *. subst. reflexivity.
          - lia.
          - destruct (push_down (n - i) i st ltac:(lia) ltac:(lia) HG P) as (st1 & Q1 & N1 & F1).
            + intros j H1 H2. specialize (D j H1 H2). lia.
            + intros j H1 H2 H3. specialize (NFd j H2 ltac:(lia)).
              replace (k - S j) with (cnt (nodes st i) - j) in NFd by lia. exact NFd.
            + pose proof (quiet_good _ _ HG Q1) as HG1.
              destruct (pull_up st1 i k HG1 Hi) as (st2 & Q2 & N2).
              * rewrite N1; reflexivity.
              * rewrite N1. simpl. lia.
              * exact Km.
              * intros H2. rewrite F1 by lia. destruct C; [lia|assumption].
              * exact NFp.
              * exists st2. split; [eapply quiet_trans; eassumption | exact N2].
          - exfalso. destruct (I_failed _ _ _ _ (G_inv _ HG) i P) as [Ff _].
            specialize (NFd 0 ltac:(lia) ltac:(lia)). rewrite Nat.add_0_r in NFd.
            replace (k - 1) with (cnt (nodes st i)) in NFd by lia. congruence. }
        destruct X as (st1 & Q1 & N1).
        pose proof (quiet_good _ _ HG Q1) as HG1.
        destruct Q1 as ((s1 & R1) & T1 & C1).
        assert (P1 : ph (nodes st1 i) = PHolding) by (rewrite N1; reflexivity).
        destruct (begin_step st1 i HG1 Hi P1) as (st2 & E2 & T2 & C2).
        exists (sched ++ s1 ++ [Begin i]). rewrite !run_app. rewrite <- Est, R1, (run_one _ _ _ E2).
        split; [|exact C2]. unfold trace in *. rewrite T2, T1, N1. simpl. rewrite ET. reflexivity.
      + (* end *)
        unfold ev_ok, trace in HE. simpl in HE. destruct HE as (Hi & A & B). rewrite !count_ev_rev in *.
        pose proof (T_count _ _ (G_tinv _ HG) i Hi) as [CB CE]. rewrite CB, CE in *.
        unfold begun, ended in A, B.
        destruct (ph (nodes st i)) eqn:P; try lia.
        destruct (end_step st i HG Hi P) as (st2 & E2 & T2 & C2).
        exists (sched ++ [End i]). rewrite !run_app. rewrite <- Est, (run_one _ _ _ E2).
        split; [|exact C2]. unfold trace in *. rewrite T2. simpl. rewrite ET, B. reflexivity.
  Qed.

  (* only Begin i and End i of a stage emit an event; its item is the one the node holds *)
  Lemma step_respects : forall l st st', Inv st -> Forall (respects_ev n m fails) (trace_rev st) ->
    step l st = Some st' -> Forall (respects_ev n m fails) (trace_rev st').
  Proof.
    intros l st st' HI HF Hs. rewrite (step_trace n m fails l st st' Hs).
    destruct l as [|i|i|i|i|i|i]; try exact HF;
      (destruct (i <=? n) eqn:Hin; [|exact HF]); apply Nat.leb_le in Hin;
      cbn [Pipe.step] in Hs; apply if_some in Hs as [G _];
      rewrite !andb_true_iff, !Nat.leb_le, live_true in G; destruct G as ((H1 & _) & _ & P);
      pose proof (I_bound _ _ _ _ HI i) as B; unfold bounded in B; rewrite P in B;
      (constructor; [|exact HF]); (split; [exact B|]); cbn; [|discriminate].
    (* a begin: the stage before has passed the item, the stages after their earlier ones *)
    intros _. split.
    - intros Hi2. apply (I_passed _ _ _ _ HI (pred i)); [lia|].
      pose proof (I_chan _ _ _ _ HI (pred i) ltac:(lia)) as E.
      replace (S (pred i)) with i in E by lia. unfold sent, recv in E. rewrite P in E. lia.
    - intros j Hj1 Hj2. apply (I_passed _ _ _ _ HI (i + j)); [lia|].
      pose proof (cnt_chain n m fails st HI j i ltac:(lia)). lia.
  Qed.

  Lemma run_respects : forall sched, respects n m fails (trace (run sched init)).
  Proof.
    intros sched. unfold respects, trace. apply Forall_rev.
    apply (run_preserves n m fails (fun st => Forall (respects_ev n m fails) (trace_rev st)) step_respects);
      [apply inv_init | constructor].
  Qed.

  (* the traces of the instance (n, m, fails) are exactly the accepted event lists that fit it *)
  Theorem trace_exact : forall tr,
    (exists sched, trace (run sched init) = tr) <-> (trace_ok n tr = true /\ respects n m fails tr).
  Proof.
    intros tr. split.
    - intros (sched & <-). split; [apply trace_ok_complete_run | apply run_respects].
    - intros [HT HR]. apply trace_ok_iff in HT. destruct (exact_run tr HT HR) as (sched & E & _).
      exists sched. exact E.
  Qed.
End Exact.

Lemma count_ev_le_length : forall i p l, count_ev i p l <= length l.
Proof.
  intros i p l. unfold count_ev. induction l as [|a l IH]; simpl; [lia|].
  destruct ((ev_stage a =? i) && evphase_eqb (ev_ph a) p); simpl; lia.
Qed.

(* an accepted event list fits the instance with (length tr) items and no failing stage function *)
Lemma tr_spec_respects_nofail : forall n tr, tr_spec n tr ->
  respects n (length tr) (fun _ _ => false) tr.
Proof.
  intros n tr HS. unfold respects. apply Forall_forall. intros e Hin.
  apply in_split in Hin. destruct Hin as (pre & post & ->).
  pose proof (HS pre e post eq_refl) as HE. unfold ev_ok in HE. destruct HE as [_ HE].
  split; [|intros _; split; intros; reflexivity].
  rewrite app_length. simpl.
  destruct (ev_ph e).
  - destruct HE as (K & _). pose proof (count_ev_le_length (ev_stage e) EvBegin pre). lia.
  - destruct HE as (_ & K). pose proof (count_ev_le_length (ev_stage e) EvEnd pre). lia.
Qed.

Theorem trace_ok_exact : forall n tr, trace_ok n tr = true ->
  exists m fails sched, trace (run n m fails sched init) = tr.
Proof.
  intros n tr HT. exists (length tr), (fun _ _ => false).
  apply (trace_exact n (length tr) (fun _ _ => false) tr). split; [exact HT|].
  apply tr_spec_respects_nofail. apply trace_ok_iff. exact HT.
Qed.

(* the checker without the back-pressure clause accepts an event list that no run emits:
   two stages; stage 1 begins its third item although stage 2 has not taken anything yet *)
Definition loose_witness : list event :=
  [mkEv 1 EvBegin 0; mkEv 1 EvEnd 0; mkEv 1 EvBegin 1; mkEv 1 EvEnd 1; mkEv 1 EvBegin 2].

Theorem trace_ok_loose_not_exact :
  trace_ok_loose 2 loose_witness = true /\
  forall m fails sched, trace (run 2 m fails sched init) <> loose_witness.
Proof.
  split; [vm_compute; reflexivity|].
  intros m fails sched E.
  pose proof (trace_ok_complete_run 2 m fails sched) as H. rewrite E in H.
  vm_compute in H. discriminate.
Qed.
