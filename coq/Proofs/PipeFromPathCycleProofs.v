(* Proofs about Model/PipeFromPathCycle.v (journal.FromPath on an arbitrary finite include graph,
   parser tasks with ancestor chains): termination under every schedule with a bound in the number of
   visits (simple paths from the root and their one-edge cycle closings), deadlock freedom, what
   reaches the builder, a reachable cycle is an error of the parser stage, and the schedule
   dependence of the seeded variant with a global set of claimed files. *)
From Coq Require Import List Bool Arith PeanoNat Lia Permutation.
From Knut Require Import Proofs.ListFacts Model.PipeLoader Model.PipeFromPath Spec.IncludeGraph Model.PipeFromPathCycle.
From Knut Require Import Proofs.PipeCommon Proofs.PipeLoaderProofs Proofs.PipeFromPathProofs Proofs.IncludeGraphProofs.
Import ListNotations.

Lemma memn_rev : forall x l, memn x (rev l) = memn x l.
Proof.
  intros x l. destruct (memn x l) eqn:M.
  - apply memn_true. apply -> in_rev. apply memn_true. exact M.
  - apply memn_false. intros H. apply in_rev in H. apply memn_false in M. contradiction.
Qed.

Section FromPathCycleProofs.
  Variable inc : nat -> list nat.
  Variables bad cbad abad : nat -> bool.
  Variable once : bool.

  Notation kstep := (kstep inc bad cbad abad once).
  Notation krun := (krun inc bad cbad abad once).
  Notation keffective := (keffective inc bad cbad abad once).
  Notation kenabled := (kenabled inc bad cbad abad once).
  Notation kpick := (kpick inc bad cbad abad once).
  Notation kdrain := (kdrain inc bad cbad abad once).

  Variable univ : list nat.
  Hypothesis Hclosed : forall f g, In f univ -> In g (inc f) -> In g univ.

  Notation Wk := (Wk inc univ).
  Notation gvalid := (gvalid univ).

  Ltac kred := cbn [k_ptasks k_claimed k_pcancel k_perrs k_synclosed k_disp k_ctasks k_ccancel k_cerrs k_bld
                    k_added k_werrs kset_ptasks kset_claimed kset_pfail kset_ctasks kset_cfail kset_disp
                    kset_bld kset_added kadd_werrs kset_synclosed].

  Definition tvalid (t : ktask) : Prop :=
    gvalid (k_anc t) (k_file t) /\
    match k_st t with
    | KParsing rest => memn (k_file t) (k_anc t) = false /\ incl rest (inc (k_file t))
    | KRdy => memn (k_file t) (k_anc t) = false
    | _ => True
    end.

  Definition KValid (st : kstate) : Prop := forall t, In t (k_ptasks st) -> tvalid t.

  Lemma gvalid_root : forall root, In root univ -> gvalid [] root.
  Proof. intros root Hr. repeat split; [constructor|intros x []|exact Hr]. Qed.

  Lemma kvalid_init : forall root, In root univ -> KValid (kinit root).
  Proof. intros root Hr t [<-|[]]. split; simpl; [apply gvalid_root; exact Hr|exact I]. Qed.

  Lemma kvalid_set : forall st ts, (forall t, In t ts -> tvalid t) -> KValid (kset_ptasks st ts).
  Proof. intros st ts H t Ht. apply H. exact Ht. Qed.

  Lemma kstep_kvalid : forall l st st', KValid st -> kstep l st = Some st' -> KValid st'.
  Proof.
    intros l st st' HV Hs. unfold KValid in *.
    destruct l as [t|t|t|t|t| | | |c|c|c| ]; simpl in Hs.
    1-5: destruct (nth_error (k_ptasks st) t) as [[f anc [|[|g rest]| | | | |]]|] eqn:N; try discriminate.
    1-5: pose proof (HV _ (nth_error_In _ _ N)) as [V M]; cbn [k_anc k_file k_st] in V, M.
    (* the other labels leave the parser tasks as they are *)
    6-8, 12: revert Hs; destruct (_ && _); [intros Hs|discriminate]; injection Hs as <-; exact HV.
    6-8: destruct (nth_error (k_ctasks st) c) as [[f []]|]; try discriminate.
    - destruct (memn f anc) eqn:Mf; [|destruct (once && memn f (k_claimed st))]; injection Hs as <-; kred;
        apply all_set_nth; auto; split; cbn [k_anc k_file k_st]; auto using incl_refl.
    - destruct M as [M I]. injection Hs as <-. kred.
      apply all_snoc; [apply all_set_nth; auto|]; split; cbn [k_anc k_file k_st]; auto.
      + split; [exact M|]. intros y Hy. apply I. right. exact Hy.
      + apply (gvalid_step inc univ Hclosed); auto. apply I. left. reflexivity.
    - destruct M as [M _].
      destruct (bad f); injection Hs as <-; kred; apply all_set_nth; auto; split; cbn [k_anc k_file k_st]; auto.
    - destruct (dstat_eqb (k_disp st) DRecv); [|discriminate].
      injection Hs as <-; kred; apply all_set_nth; auto; split; cbn [k_anc k_file k_st]; auto.
    - destruct (k_pcancel st); [|discriminate].
      injection Hs as <-; kred; apply all_set_nth; auto; split; cbn [k_anc k_file k_st]; auto.
    - destruct (cbad f); injection Hs as <-; exact HV.
    - destruct (bstat_eqb (k_bld st) BRecv); [|discriminate]. destruct (abad f); injection Hs as <-; exact HV.
    - destruct (k_ccancel st); [|discriminate]. injection Hs as <-; exact HV.
  Qed.

  Lemma krun_kvalid : forall sched st, KValid st -> KValid (krun sched st).
  Proof. apply (run_keeps _ _ kstep KValid). apply kstep_kvalid. Qed.

  (* every parser task is about a visit of the enumeration below the root *)
  Definition KTin (root : nat) (st : kstate) : Prop :=
    forall t, In t (k_ptasks st) -> In (k_anc t, k_file t) (Wk [] root).

  (* every visit costs at most six steps: spawn, start, parsed, push (or observe), convert, push *)
  (* the number of visits strictly below (anc, f) *)
  Definition nB (anc : list nat) (f : nat) : nat := length (tl (Wk anc f)).

  Definition kw (t : ktask) : nat :=
    match k_st t with
    | KNew => 5 + 6 * nB (k_anc t) (k_file t)
    | KParsing rest => 4 + 6 * list_sum (map (fun g => 1 + nB (k_anc t ++ [k_file t]) g) rest)
    | KRdy => 3
    | _ => 0
    end.

  Definition sw (closed : bool) : nat := if closed then 0 else 1.

  Definition kmu (st : kstate) : nat :=
    list_sum (map kw (k_ptasks st)) + list_sum (map cw (k_ctasks st)) +
    sw (k_synclosed st) + dw (k_disp st) + bw (k_bld st).

  Lemma nB_length : forall anc f, length (Wk anc f) = 1 + nB anc f.
  Proof.
    intros anc f. unfold nB, IncludeGraphProofs.Wk.
    destruct (walks_head inc (length univ - length anc) anc f) as (tl & ->). reflexivity.
  Qed.

  Lemma nB_unfold : forall anc f, gvalid anc f ->
    nB anc f = if memn f anc then 0 else list_sum (map (fun g => 1 + nB (anc ++ [f]) g) (inc f)).
  Proof.
    intros anc f V. unfold nB at 1. rewrite (Wk_unfold inc univ anc f V). cbn [tl].
    destruct (memn f anc); [reflexivity|]. rewrite length_flat_map. f_equal.
    apply map_ext. intros g. apply nB_length.
  Qed.

  Lemma kstep_decreases : forall l st st', KValid st -> kstep l st = Some st' -> kmu st' < kmu st.
  Proof.
    intros l st st' HV Hs. unfold kmu. destruct l as [t|t|t|t|t| | | |c|c|c| ]; simpl in Hs.
    1-5: destruct (nth_error (k_ptasks st) t) as [[f anc [|[|g rest]| | | | |]]|] eqn:N; try discriminate.
    9-11: destruct (nth_error (k_ctasks st) c) as [[f []]|] eqn:N; try discriminate.
    - pose proof (HV _ (nth_error_In _ _ N)) as [V _]. cbn [k_anc k_file] in V.
      pose proof (nB_unfold anc f V) as U.
      pose proof (fun s' => sum_set_nth kw _ _ (mkK f anc s') _ N) as S.
      destruct (memn f anc); [|destruct (once && memn f (k_claimed st))]; injection Hs as <-; kred;
        [specialize (S KFail)|specialize (S KSkip)|specialize (S (KParsing (inc f)))];
        unfold kw in S at 2 4; cbn [k_st k_anc k_file] in S; lia.
    - injection Hs as <-. kred.
      pose proof (sum_move kw _ _ (mkK f anc (KParsing rest)) _ [mkK g (anc ++ [f]) KNew] N) as S.
      unfold kw in S at 2 4 5. cbn [k_st k_anc k_file map] in S. unfold list_sum in *. cbn [fold_right] in S. lia.
    - pose proof (fun s' => sum_set_nth kw _ _ (mkK f anc s') _ N) as S.
      destruct (bad f); injection Hs as <-; kred; [specialize (S KFail)|specialize (S KRdy)]; cbn in S; lia.
    - destruct (dstat_eqb (k_disp st) DRecv); [|discriminate]. injection Hs as <-. kred.
      pose proof (sum_set_nth kw _ _ (mkK f anc KPushed) _ N) as S. cbn in S.
      rewrite map_app, list_sum_app. simpl. lia.
    - destruct (k_pcancel st); [|discriminate]. injection Hs as <-. kred.
      pose proof (sum_set_nth kw _ _ (mkK f anc KCancel) _ N) as S. cbn in S. lia.
    - destruct (k_synclosed st); [discriminate|].
      destruct (forallb ktask_terminal (k_ptasks st)); [|discriminate]. injection Hs as <-. simpl. lia.
    - destruct (k_disp st); try discriminate. destruct (k_synclosed st) eqn:SC; [|discriminate].
      injection Hs as <-. simpl. rewrite SC. simpl. lia.
    - destruct (k_disp st); try discriminate.
      destruct (forallb ctask_terminal (k_ctasks st)); [|discriminate]. injection Hs as <-. simpl. lia.
    - pose proof (fun s' => sum_set_nth cw _ _ (mkC f s') _ N) as S.
      destruct (cbad f); injection Hs as <-; kred; [specialize (S CFail)|specialize (S CRdy)]; cbn in S; lia.
    - destruct (k_bld st) eqn:B; try discriminate.
      pose proof (sum_set_nth cw _ _ (mkC f CPushed) _ N) as S. cbn in S.
      destruct (abad f); injection Hs as <-; kred; rewrite ?B; simpl; lia.
    - destruct (k_ccancel st); [|discriminate]. injection Hs as <-. kred.
      pose proof (sum_set_nth cw _ _ (mkC f CCancel) _ N) as S. cbn in S. lia.
    - destruct (k_bld st); try discriminate. destruct (k_disp st) eqn:D; try discriminate.
      injection Hs as <-. simpl. rewrite D. simpl. lia.
  Qed.

  Lemma keffective_bound_from : forall sched st, KValid st -> keffective sched st <= kmu st.
  Proof. apply (steps_le_mu _ _ kstep kmu KValid); eauto using kstep_kvalid, kstep_decreases. Qed.

  Lemma krun_kmu : forall sched st, KValid st -> kmu (krun sched st) <= kmu st.
  Proof. apply (run_mu_le _ _ kstep kmu KValid); eauto using kstep_kvalid, kstep_decreases. Qed.

  Lemma kmu_init : forall root, kmu (kinit root) = 6 * length (all_visits inc univ root) + 3.
  Proof.
    intros root. rewrite (all_visits_Wk inc univ root). unfold kmu, PipeFromPathCycle.kinit.
    cbn [k_ptasks k_ctasks k_synclosed k_disp k_bld map]. unfold kw. cbn [k_st k_anc k_file].
    rewrite (nB_length [] root). simpl. lia.
  Qed.

  Section CodeAsItIs.
  Hypothesis Honce : once = false.

  Notation cnt := (count_occ Nat.eq_dec).

  (* the visits that a parser task still stands for: itself unless it has been pushed, and the visits
     below the include directives it has not yet spawned a task for *)
  Definition kpend (t : ktask) : list visit :=
    match k_st t with
    | KNew => Wk (k_anc t) (k_file t)
    | KParsing rest => (k_anc t, k_file t) :: flat_map (Wk (k_anc t ++ [k_file t])) rest
    | KPushed => []
    | _ => [(k_anc t, k_file t)]
    end.
  Definition kfiles (t : ktask) : list nat := map snd (kpend t).
  Definition cycw (t : ktask) : nat := length (filter v_cyc (kpend t)).
  (* the visits a task accounts for: the pending ones, or its own when it has been pushed *)
  Definition tlen (t : ktask) : nat := match k_st t with KPushed => 1 | _ => length (kpend t) end.
  Definition kaddfail (es : list kwerr) : list nat :=
    flat_map (fun e => match e with KWAdd f => [f] | _ => [] end) es.
  (* a recorded error names a stage function that did fail; an include cycle names the chain of a
     visit below the root whose file is among its ancestors *)
  Definition werr_ok (root : nat) (e : kwerr) : Prop :=
    match e with
    | KWParse f => bad f = true
    | KWCycle c => exists anc f, c = anc ++ [f] /\ In (anc, f) (Wk [] root) /\ memn f anc = true
    | KWConv f => cbad f = true
    | KWAdd f => abad f = true
    end.

  Lemma werr_ok_genuine : forall root e, werr_ok root e -> kgenuine bad cbad abad e = true.
  Proof.
    intros root [f|c|f|f] H; simpl in *; auto. destruct H as (anc & f & -> & _ & M).
    rewrite rev_app_distr. cbn [rev app]. rewrite memn_rev. exact M.
  Qed.
  Definition is_add (e : kwerr) : bool := match e with KWAdd _ => true | _ => false end.

  Record KInv (root : nat) (st : kstate) : Prop := {
    Q_valid : KValid st;
    Q_tin : KTin root st;
    Q_count : forall x,
      cnt (k_added st ++ kaddfail (k_werrs st) ++ flat_map cpend (k_ctasks st) ++
           flat_map kfiles (k_ptasks st)) x = cnt (map snd (Wk [] root)) x;
    Q_cyc : list_sum (map cycw (k_ptasks st)) = length (filter v_cyc (Wk [] root));
    Q_len : list_sum (map tlen (k_ptasks st)) = length (Wk [] root);
    Q_closed : k_synclosed st = true -> forallb ktask_terminal (k_ptasks st) = true;
    Q_ddone : k_disp st = DDone -> forallb ctask_terminal (k_ctasks st) = true;
    Q_bdone : k_bld st = BDone -> k_disp st = DDone;
    Q_drain : k_disp st <> DRecv -> k_synclosed st = true;
    Q_bfail : k_bld st = BFail -> exists f, In (KWAdd f) (k_werrs st);
    Q_perrs : forall e, In e (k_perrs st) -> werr_ok root (werr_of_perr e);
    Q_cerrs : forall f, In f (k_cerrs st) -> cbad f = true;
    Q_werrs : forall e, In e (k_werrs st) -> werr_ok root e;
    Q_pclean : k_perrs st = [] ->
      k_pcancel st = false /\ forall t, In t (k_ptasks st) -> k_st t <> KFail /\ k_st t <> KCancel;
    Q_noskip : forall t, In t (k_ptasks st) -> k_st t <> KSkip;
    Q_cclean : k_cerrs st = [] ->
      k_ccancel st = false /\ forall c, In c (k_ctasks st) -> c_st c <> CFail /\ c_st c <> CCancel;
    Q_wparse : k_werrs st = [] -> k_synclosed st = true -> k_perrs st = [];
    Q_wconv : k_werrs st = [] -> k_disp st = DDone -> k_cerrs st = [];
    Q_wopen : k_synclosed st = false -> forallb is_add (k_werrs st) = true;
    Q_wfirst : k_synclosed st = true -> k_perrs st <> [] ->
      exists pre e rest, k_werrs st = pre ++ e :: rest /\ parser_stage e = true /\ forallb is_add pre = true
  }.

  Lemma kinv_init : forall root, In root univ -> KInv root (kinit root).
  Proof.
    intros root Hr. constructor; simpl; try discriminate; try contradiction; auto.
    - apply kvalid_init. exact Hr.
    - intros t [<-|[]]. apply Wk_head_in.
    - intros x. unfold kfiles, kpend. simpl. rewrite app_nil_r. reflexivity.
    - intros _. split; [reflexivity|]. intros t [<-|[]]. simpl. split; discriminate.
    - intros t [<-|[]]. simpl. discriminate.
  Qed.

  Lemma kaddfail_app : forall a b, kaddfail (a ++ b) = kaddfail a ++ kaddfail b.
  Proof. intros. unfold kaddfail. apply flat_map_app. Qed.
  Lemma kaddfail_first_perr : forall l, kaddfail (first_perr l) = [].
  Proof. destruct l as [|[] l]; reflexivity. Qed.
  Lemma kaddfail_first_cerr : forall l, kaddfail (first_cerr l) = [].
  Proof. destruct l; reflexivity. Qed.

  Lemma in_first_perr : forall l e, In e (first_perr l) -> exists p, e = werr_of_perr p /\ In p l.
  Proof. intros [|p l] e H; simpl in H; [contradiction|]. destruct H as [<-|[]]. exists p. simpl. auto. Qed.
  Lemma in_first_cerr : forall l e, In e (first_cerr l) -> exists f, e = KWConv f /\ In f l.
  Proof. intros [|f l] e H; simpl in H; [contradiction|]. destruct H as [<-|[]]. exists f. simpl. auto. Qed.
  Lemma first_perr_nil : forall l, first_perr l = [] -> l = [].
  Proof. intros [|f l] H; [reflexivity|discriminate]. Qed.
  Lemma first_cerr_nil : forall l, first_cerr l = [] -> l = [].
  Proof. intros [|f l] H; [reflexivity|discriminate]. Qed.

  (* replacing a task by one that stands for the same visits changes none of the three censuses *)
  Lemma same_visits : forall l t v old, nth_error l t = Some old -> kpend v = kpend old ->
    k_st v <> KPushed -> k_st old <> KPushed ->
    flat_map kfiles (set_nth l t v) = flat_map kfiles l /\
    map cycw (set_nth l t v) = map cycw l /\ map tlen (set_nth l t v) = map tlen l.
  Proof.
    intros l t v old N E P1 P2. split; [|split].
    - apply (flat_map_set_nth_same kfiles _ _ _ _ N). unfold kfiles. rewrite E. reflexivity.
    - apply (map_set_nth_same cycw _ _ _ _ N). unfold cycw. rewrite E. reflexivity.
    - apply (map_set_nth_same tlen _ _ _ _ N). unfold tlen. rewrite E.
      destruct (k_st v); try congruence; destruct (k_st old); congruence.
  Qed.

  (* As for Proofs/PipeFromPathProofs.v [fstep_fpinv]: the task that moves is not terminal, so its
     worker has not returned ([SC], [DD]).  A parser task that moves keeps its visit [Tin]; except
     for a spawn and a push the new task stands for the visits of the old one [same_visits]. *)
  Lemma kstep_kinv : forall root l st st', In root univ -> KInv root st -> kstep l st = Some st' -> KInv root st'.
  Proof.
    intros root l st st' Hr HI Hs.
    assert (HV' : KValid st') by (eapply kstep_kvalid; [apply (Q_valid _ _ HI)|exact Hs]).
    destruct HI as [Hvalid Htin Hcount Hcyc Hlen Hclosed' Hddone Hbdone Hdrain Hbfail Hperrs Hcerrs Hwerrs Hpclean Hnoskip
                    Hcclean Hwparse Hwconv Hwopen Hwfirst].
    unfold KTin in *.
    destruct l as [t|t|t|t|t| | | |c|c|c| ]; simpl in Hs.
    1-5: destruct (nth_error (k_ptasks st) t) as [[f anc [|[|g rest]| | | | |]]|] eqn:N; try discriminate.
    1-5: pose proof (Hvalid _ (nth_error_In _ _ N)) as [V M]; cbn [k_anc k_file k_st] in V, M.
    1-5: pose proof (Htin _ (nth_error_In _ _ N)) as Tin; cbn [k_anc k_file] in Tin.
    1-5: assert (SC : k_synclosed st <> true)
           by (intros C; pose proof (forallb_nth _ _ _ _ (Hclosed' C) N); discriminate).
    9-11: destruct (nth_error (k_ctasks st) c) as [[f []]|] eqn:N; try discriminate.
    9-11: assert (DD : k_disp st <> DDone) by (apply (cbusy _ _ _ _ _ Hddone N); reflexivity).
    - (* KStart *)
      rewrite Honce in Hs. cbn [andb] in Hs. pose proof (Wk_unfold inc univ anc f V) as U.
      destruct (memn f anc) eqn:Mf; injection Hs as <-.
      + destruct (same_visits _ _ (mkK f anc KFail) _ N) as (S1 & S2 & S3);
          [symmetry; exact U|discriminate|discriminate|].
        constructor; unfold KTin; kred; rewrite ?S1, ?S2, ?S3; auto; try contradiction.
        * apply all_set_nth; assumption.
        * apply all_snoc; [exact Hperrs|]. exists anc, f. auto.
        * intros Pe. destruct (k_perrs st); discriminate.
        * apply all_set_nth; [exact Hnoskip|discriminate].
      + destruct (same_visits _ _ (mkK f anc (KParsing (inc f))) _ N) as (S1 & S2 & S3);
          [symmetry; exact U|discriminate|discriminate|].
        constructor; unfold KTin; kred; rewrite ?S1, ?S2, ?S3; auto; try contradiction.
        * apply all_set_nth; assumption.
        * apply clean_set_nth; [exact Hpclean|split; discriminate].
        * apply all_set_nth; [exact Hnoskip|discriminate].
    - (* KSpawn *)
      destruct M as [M I]. injection Hs as <-. constructor; unfold KTin; kred; auto; try contradiction.
      + apply all_snoc; [apply all_set_nth; assumption|]. cbn [k_anc k_file].
        apply (Wk_closed inc univ Hclosed [] root); auto.
        * apply gvalid_root. exact Hr.
        * apply I. left. reflexivity.
      + intros x. rewrite <- (Hcount x).
        pose proof (cnt_move kfiles _ _ (mkK f anc (KParsing rest)) _ [mkK g (anc ++ [f]) KNew] x N) as S.
        cbn [kfiles kpend k_st k_anc k_file flat_map map snd] in S.
        rewrite app_nil_r, !map_app in S. cbn [count_occ] in S. rewrite !count_occ_app in *.
        unfold visit in *. destruct (Nat.eq_dec f x); lia.
      + rewrite <- Hcyc.
        pose proof (sum_move cycw _ _ (mkK f anc (KParsing rest)) _ [mkK g (anc ++ [f]) KNew] N) as S.
        unfold cycw in S at 2 4 5. cbn [kpend k_st k_anc k_file flat_map map list_sum fold_right filter] in S.
        rewrite !filter_app in S. destruct (v_cyc (anc, f)); cbn [length] in S; rewrite ?app_length in S; lia.
      + rewrite <- Hlen.
        pose proof (sum_move tlen _ _ (mkK f anc (KParsing rest)) _ [mkK g (anc ++ [f]) KNew] N) as S.
        unfold tlen in S at 2 4 5. cbn [kpend k_st k_anc k_file flat_map map list_sum fold_right length] in S.
        rewrite app_length in S. lia.
      + apply clean_snoc; [apply clean_set_nth; [exact Hpclean|]|]; split; discriminate.
      + apply all_snoc; [apply all_set_nth; [exact Hnoskip|]|]; discriminate.
    - (* KParsed *)
      destruct (bad f) eqn:Bf; injection Hs as <-.
      + destruct (same_visits _ _ (mkK f anc KFail) _ N) as (S1 & S2 & S3); [reflexivity|discriminate|discriminate|].
        constructor; unfold KTin; kred; rewrite ?S1, ?S2, ?S3; auto; try contradiction.
        * apply all_set_nth; assumption.
        * apply all_snoc; assumption.
        * intros Pe. destruct (k_perrs st); discriminate.
        * apply all_set_nth; [exact Hnoskip|discriminate].
      + destruct (same_visits _ _ (mkK f anc KRdy) _ N) as (S1 & S2 & S3); [reflexivity|discriminate|discriminate|].
        constructor; unfold KTin; kred; rewrite ?S1, ?S2, ?S3; auto; try contradiction.
        * apply all_set_nth; assumption.
        * apply clean_set_nth; [exact Hpclean|split; discriminate].
        * apply all_set_nth; [exact Hnoskip|discriminate].
    - (* KPush *)
      destruct (k_disp st) eqn:D; try discriminate.
      injection Hs as <-; constructor; unfold KTin; kred; rewrite ?D; auto; try contradiction; try discriminate.
      + apply all_set_nth; assumption.
      + intros x. rewrite <- (Hcount x).
        pose proof (cnt_set_nth kfiles _ _ (mkK f anc KPushed) _ x N) as S.
        cbn [kfiles kpend k_st k_anc k_file map snd] in S. rewrite count_occ_nil in S.
        rewrite flat_map_app. cbn [flat_map cpend c_st c_file app]. rewrite !count_occ_app. lia.
      + rewrite <- Hcyc.
        pose proof (sum_set_nth cycw _ _ (mkK f anc KPushed) _ N) as S.
        unfold cycw in S at 2 4. unfold v_cyc in S. cbn [kpend k_st k_anc k_file filter fst snd] in S. rewrite M in S.
        cbn [length] in S. lia.
      + rewrite <- Hlen.
        pose proof (sum_set_nth tlen _ _ (mkK f anc KPushed) _ N) as S. cbn in S. lia.
      + apply clean_set_nth; [exact Hpclean|split; discriminate].
      + apply all_set_nth; [exact Hnoskip|discriminate].
      + apply clean_snoc; [exact Hcclean|split; discriminate].
    - (* KObserve *)
      destruct (k_pcancel st) eqn:Pc; [|discriminate]. injection Hs as <-.
      destruct (same_visits _ _ (mkK f anc KCancel) _ N) as (S1 & S2 & S3); [reflexivity|discriminate|discriminate|].
      constructor; unfold KTin; kred; rewrite ?S1, ?S2, ?S3; auto; try contradiction.
      + apply all_set_nth; assumption.
      + intros Pe. destruct (Hpclean Pe) as [A B]. congruence.
      + apply all_set_nth; [exact Hnoskip|discriminate].
    - (* KClose *)
      destruct (k_synclosed st) eqn:C1; [discriminate|].
      destruct (forallb ktask_terminal (k_ptasks st)) eqn:C2; [|discriminate].
      injection Hs as <-; constructor; kred; auto.
      + rewrite kaddfail_app, kaddfail_first_perr, app_nil_r. exact Hcount.
      + intros B. destruct (Hbfail B) as (f & Hf). exists f. apply in_or_app. auto.
      + intros e He. apply in_app_or in He. destruct He as [He|He]; [auto|].
        apply in_first_perr in He. destruct He as (p & -> & Hp). apply (Hperrs p Hp).
      + intros We _. apply app_eq_nil in We. destruct We as [_ We]. eapply first_perr_nil; eassumption.
      + intros We. apply app_eq_nil in We. destruct We as [We _]. auto.
      + discriminate.
      + intros _ Pe. destruct (k_perrs st) as [|p ps] eqn:Ep; [contradiction|].
        exists (k_werrs st), (werr_of_perr p), []. split; [reflexivity|]. split; [destruct p; reflexivity|].
        apply Hwopen. reflexivity.
    - (* KDEnd *)
      destruct (k_disp st) eqn:C1; try discriminate. destruct (k_synclosed st) eqn:C2; [|discriminate].
      injection Hs as <-; constructor; kred; rewrite ?C2; auto; try discriminate.
      intros B. specialize (Hbdone B). discriminate.
    - (* KDRet *)
      destruct (k_disp st) eqn:C1; try discriminate.
      destruct (forallb ctask_terminal (k_ctasks st)) eqn:C2; [|discriminate].
      assert (SC : k_synclosed st = true) by (apply Hdrain; discriminate).
      injection Hs as <-; constructor; kred; auto.
      + rewrite kaddfail_app, kaddfail_first_cerr, app_nil_r. exact Hcount.
      + intros B. destruct (Hbfail B) as (f & Hf). exists f. apply in_or_app. auto.
      + intros e He. apply in_app_or in He. destruct He as [He|He]; [auto|].
        apply in_first_cerr in He. destruct He as (f & -> & Hf). cbn [werr_ok]. auto.
      + intros We. apply app_eq_nil in We. destruct We as [We _]. auto.
      + intros We _. apply app_eq_nil in We. destruct We as [_ We]. eapply first_cerr_nil; eassumption.
      + intros C. congruence.
      + intros C Pe. destruct (Hwfirst C Pe) as (pre & e & rest & E & Pg & Fa).
        exists pre, e, (rest ++ first_cerr (k_cerrs st)). rewrite E, <- app_assoc. auto.
    - (* KCConv *)
      destruct (cbad f) eqn:Bf; injection Hs as <-; constructor; unfold KTin; kred; auto; try contradiction.
      + rewrite (flat_map_set_nth_same cpend _ _ (mkC f CFail) _ N eq_refl). exact Hcount.
      + apply all_snoc; assumption.
      + intros Ce. destruct (k_cerrs st); discriminate.
      + rewrite (flat_map_set_nth_same cpend _ _ (mkC f CRdy) _ N eq_refl). exact Hcount.
      + apply clean_set_nth; [exact Hcclean|split; discriminate].
    - (* KCPush *)
      destruct (k_bld st) eqn:B; try discriminate.
      pose proof (fun x => cnt_set_nth cpend _ _ (mkC f CPushed) _ x N) as S.
      cbn [cpend c_st c_file] in S.
      destruct (abad f) eqn:Af; injection Hs as <-; constructor; kred; rewrite ?B; auto; try contradiction; try discriminate.
      + intros x. rewrite <- (Hcount x). specialize (S x). rewrite count_occ_nil in S.
        rewrite kaddfail_app. cbn [kaddfail flat_map app]. rewrite !count_occ_app. lia.
      + intros _. exists f. apply in_or_app. right. left. reflexivity.
      + apply all_snoc; assumption.
      + apply clean_set_nth; [exact Hcclean|split; discriminate].
      + intros We. destruct (k_werrs st); discriminate.
      + intros C. rewrite forallb_app, (Hwopen C). reflexivity.
      + intros C Pe. destruct (Hwfirst C Pe) as (pre & e & rest & E & Pg & Fa).
        exists pre, e, (rest ++ [KWAdd f]). rewrite E, <- app_assoc. auto.
      + intros x. rewrite <- (Hcount x). specialize (S x). rewrite count_occ_nil in S.
        rewrite !count_occ_app. lia.
      + apply clean_set_nth; [exact Hcclean|split; discriminate].
    - (* KCObserve *)
      destruct (k_ccancel st) eqn:Cc; [|discriminate].
      injection Hs as <-; constructor; unfold KTin; kred; auto; try contradiction.
      + rewrite (flat_map_set_nth_same cpend _ _ (mkC f CCancel) _ N eq_refl). exact Hcount.
      + intros Ce. destruct (Hcclean Ce) as [A B]. congruence.
    - (* KBEnd *)
      destruct (k_bld st) eqn:C1; try discriminate. destruct (k_disp st) eqn:C2; try discriminate.
      injection Hs as <-; constructor; kred; rewrite ?C2; auto; try discriminate.
  Qed.

  Lemma krun_kinv : forall root sched st, In root univ -> KInv root st -> KInv root (krun sched st).
  Proof.
    intros root sched st Hr. apply (run_keeps _ _ kstep (KInv root)). intros. eapply kstep_kinv; eassumption.
  Qed.

  Lemma reachable_kinv : forall root sched, In root univ -> KInv root (krun sched (kinit root)).
  Proof. intros. apply krun_kinv; [assumption|]. apply kinv_init. assumption. Qed.

  Lemma kenabled_klabels : forall st l, kenabled st l = true -> In l (klabels st).
  Proof.
    intros st l H. unfold PipeFromPathCycle.kenabled in H. unfold klabels. apply in_or_app.
    destruct l as [t|t|t|t|t| | | |c|c|c| ]; simpl in H.
    1-5: left; apply in_flat_map; exists t.
    9-11: right; apply in_or_app; right; apply in_flat_map; exists c.
    6-8, 12: right; apply in_or_app; left; simpl; auto 6.
    all: (split; [apply in_seq; split; [lia|]; apply nth_error_Some; intros E; rewrite E in H; discriminate
                 |simpl; auto 6]).
  Qed.

  (* with a builder that does not fail: a state in which some worker has not returned has an enabled
     label - on every finite include graph, whatever fails in the parsers and in the conversion *)
  Lemma kdeadlock_free : forall root st, KInv root st -> (forall f, abad f = false) ->
    kfinished st = false -> exists l, In l (klabels st) /\ kenabled st l = true.
  Proof.
    intros root st HI Ha F.
    enough (exists l, kenabled st l = true) as (l & En) by (exists l; auto using kenabled_klabels).
    unfold PipeFromPathCycle.kenabled.
    destruct (forallb ktask_terminal (k_ptasks st)) eqn:PT.
    2:{ destruct (forallb_false_nth _ _ PT) as (t & [f anc s] & N & Q).
        destruct s as [|[|g rest]| | | | |]; try discriminate Q.
        - exists (KStart t). simpl. rewrite N, Honce. simpl. destruct (memn f anc); reflexivity.
        - exists (KParsed t). simpl. rewrite N. destruct (bad f); reflexivity.
        - exists (KSpawn t). simpl. rewrite N. reflexivity.
        - assert (D : k_disp st = DRecv).
          { destruct (k_disp st) eqn:D; [reflexivity| |];
              (assert (C : k_synclosed st = true) by (apply (Q_drain _ _ HI); rewrite D; discriminate));
              pose proof (Q_closed _ _ HI C); congruence. }
          exists (KPush t). simpl. rewrite N, D. reflexivity. }
    destruct (k_synclosed st) eqn:SC.
    2:{ exists KClose. simpl. rewrite SC, PT. reflexivity. }
    destruct (k_disp st) eqn:D.
    - exists KDEnd. simpl. rewrite D, SC. reflexivity.
    - destruct (forallb ctask_terminal (k_ctasks st)) eqn:CT.
      2:{ destruct (forallb_false_nth _ _ CT) as (c & [f s] & N & Q).
          destruct s; try discriminate Q.
          - exists (KCConv c). simpl. rewrite N. destruct (cbad f); reflexivity.
          - assert (B : k_bld st = BRecv).
            { destruct (k_bld st) eqn:B; [reflexivity| |].
              - pose proof (Q_bdone _ _ HI B). congruence.
              - destruct (Q_bfail _ _ HI B) as (f' & Hf'). pose proof (Q_werrs _ _ HI _ Hf') as G.
                cbn [werr_ok] in G. rewrite Ha in G. discriminate. }
            exists (KCPush c). simpl. rewrite N, B. simpl. destruct (abad f); reflexivity. }
      exists KDRet. simpl. rewrite D, CT. reflexivity.
    - unfold kfinished in F. rewrite SC, D in F. simpl in F. apply negb_false_iff in F.
      apply bstat_eqb_eq in F.
      exists KBEnd. simpl. rewrite F, D. reflexivity.
  Qed.

  Lemma kdrain_finishes_from : forall root fuel st, In root univ -> KInv root st ->
    (forall f, abad f = false) -> kmu st <= fuel -> kfinished (kdrain fuel st) = true.
  Proof.
    intros root fuel st Hr HI Ha. apply (pick_finishes _ _ kstep kmu (KInv root)); auto.
    - intros. eapply kstep_kinv; eassumption.
    - intros l st0 st' HI0. apply kstep_decreases. apply (Q_valid _ _ HI0).
    - intros st0 l P. apply find_some in P. destruct P as [_ En]. unfold PipeFromPathCycle.kenabled in En.
      destruct (kstep l st0); [eauto|discriminate].
    - intros st0 HI0 P. destruct (kfinished st0) eqn:F; [reflexivity|].
      destruct (kdeadlock_free root st0 HI0 Ha F) as (l & Hin & En).
      pose proof (find_none _ _ P l Hin). congruence.
  Qed.

  Lemma kfinished_spec : forall st, kfinished st = true ->
    k_synclosed st = true /\ k_disp st = DDone /\ k_bld st <> BRecv.
  Proof. intros st. apply finished_spec. Qed.

  (* all parser tasks have pushed their file: no visit is pending *)
  Lemma terminal_kpend_nil : forall l, forallb ktask_terminal l = true ->
    (forall t, In t l -> k_st t <> KFail /\ k_st t <> KCancel) -> (forall t, In t l -> k_st t <> KSkip) ->
    flat_map kfiles l = [] /\ list_sum (map cycw l) = 0.
  Proof.
    induction l as [|[f anc s] l IH]; intros F L K; simpl in *; [auto|].
    apply andb_true_iff in F. destruct F as [F1 F2].
    destruct (IH F2 ltac:(intros; apply L; right; assumption) ltac:(intros; apply K; right; assumption)) as [A B].
    rewrite A, B.
    destruct (L (mkK f anc s) (or_introl eq_refl)) as [A' B']. pose proof (K (mkK f anc s) (or_introl eq_refl)) as C'.
    simpl in A', B', C'. unfold ktask_terminal in F1. simpl in F1. unfold kfiles, cycw, kpend. simpl.
    destruct s; try discriminate; try congruence; auto.
  Qed.

  (* when the parser stage has returned without an error, no visit of the graph closes a cycle *)
  Lemma closed_clean_acyclic : forall root st, KInv root st -> k_synclosed st = true -> k_perrs st = [] ->
    filter v_cyc (Wk [] root) = [] /\ flat_map kfiles (k_ptasks st) = [].
  Proof.
    intros root st HI SC Pe. destruct (Q_pclean _ _ HI Pe) as [_ Pl].
    destruct (terminal_kpend_nil _ (Q_closed _ _ HI SC) Pl (Q_noskip _ _ HI)) as [A B]. split; [|exact A].
    pose proof (Q_cyc _ _ HI) as C. rewrite B in C. destruct (filter v_cyc (Wk [] root)); [reflexivity|discriminate].
  Qed.

  (* FromPath returns without error: every visit is a simple path, and the file of every visit has
     been parsed, converted and added to the builder exactly once - whatever the oracles are *)
  Lemma kfinished_success : forall root st, KInv root st -> kfinished st = true -> k_werrs st = [] ->
    Permutation (k_added st) (map snd (Wk [] root)) /\ filter v_cyc (Wk [] root) = [] /\
    k_bld st = BDone /\ k_perrs st = [] /\ k_cerrs st = [] /\ k_pcancel st = false /\ k_ccancel st = false.
  Proof.
    intros root st HI F We. destruct (kfinished_spec st F) as (SC & D & B).
    pose proof (Q_wparse _ _ HI We SC) as Pe. pose proof (Q_wconv _ _ HI We D) as Ce.
    destruct (Q_pclean _ _ HI Pe) as [Pc Pl]. destruct (Q_cclean _ _ HI Ce) as [Cc Cl].
    destruct (closed_clean_acyclic root st HI SC Pe) as [Ac Kn].
    assert (BD : k_bld st = BDone).
    { destruct (k_bld st) eqn:Bs; [congruence|reflexivity|].
      destruct (Q_bfail _ _ HI Bs) as (f & Hf). rewrite We in Hf. contradiction. }
    repeat split; auto.
    apply (Permutation_count_occ Nat.eq_dec). intros x. rewrite <- (Q_count _ _ HI x).
    rewrite We, Kn, (terminal_cpend_nil _ (Q_ddone _ _ HI D) Cl).
    simpl. rewrite app_nil_r. reflexivity.
  Qed.

  (* a visit that closes a cycle makes some parser task fail, and with a builder that does not fail
     the first error of the outer pool - which FromPath returns - is an error of the parser stage *)
  Lemma kcycle_reported : forall root st, KInv root st -> (forall f, abad f = false) -> k_synclosed st = true ->
    filter v_cyc (Wk [] root) <> [] ->
    exists e rest, k_werrs st = e :: rest /\ parser_stage e = true /\ kgenuine bad cbad abad e = true.
  Proof.
    intros root st HI Ha SC Cy.
    assert (Pe : k_perrs st <> []).
    { intros Pe. destruct (closed_clean_acyclic root st HI SC Pe) as [Ac _]. contradiction. }
    destruct (Q_wfirst _ _ HI SC Pe) as (pre & e & rest & E & Pg & Fa).
    destruct pre as [|a pre].
    - exists e, rest. split; [exact E|]. split; [exact Pg|].
      apply (werr_ok_genuine root). apply (Q_werrs _ _ HI). rewrite E. left. reflexivity.
    - exfalso. simpl in Fa. apply andb_true_iff in Fa. destruct Fa as [Fa _].
      destruct a; try discriminate. pose proof (Q_werrs _ _ HI (KWAdd f)) as G. rewrite E in G.
      specialize (G (or_introl eq_refl)). cbn [werr_ok] in G. rewrite Ha in G. discriminate.
  Qed.

  (* any failure is reported, and every reported error names a stage function that did fail *)
  Lemma kfailure_reported : forall root st, KInv root st -> kfinished st = true ->
    (exists t, In t (k_ptasks st) /\ k_st t = KFail) \/
    (exists c, In c (k_ctasks st) /\ c_st c = CFail) \/ k_bld st = BFail ->
    exists e rest, k_werrs st = e :: rest /\ kgenuine bad cbad abad e = true.
  Proof.
    intros root st HI F Hf. destruct (k_werrs st) as [|e rest] eqn:We.
    - exfalso. destruct (kfinished_success root st HI F We) as (_ & _ & BD & Pe & Ce & _).
      destruct Hf as [(t & Ht & Pt)|[(c & Hc & Pc)|Bf]].
      + destruct (Q_pclean _ _ HI Pe) as [_ Pl]. destruct (Pl t Ht). congruence.
      + destruct (Q_cclean _ _ HI Ce) as [_ Cl]. destruct (Cl c Hc). congruence.
      + congruence.
    - exists e, rest. split; [reflexivity|]. apply (werr_ok_genuine root). apply (Q_werrs _ _ HI). rewrite We. left. reflexivity.
  Qed.

  (* the number of parser tasks never exceeds the number of visits: every task accounts for its own *)
  Lemma tlen_pos : forall t, 1 <= tlen t.
  Proof.
    intros [f anc s]. unfold tlen, kpend. cbn [k_st k_anc k_file]. destruct s; cbn [length]; try lia.
    rewrite nB_length. lia.
  Qed.

  Lemma ktasks_bound : forall root st, KInv root st -> length (k_ptasks st) <= length (Wk [] root).
  Proof.
    intros root st HI. rewrite <- (Q_len _ _ HI). generalize (k_ptasks st) as l.
    induction l as [|t l IH]; simpl; [lia|]. pose proof (tlen_pos t). lia.
  Qed.

  (* when no stage function fails and no visit closes a cycle, no error is ever recorded *)
  Lemma knofail_no_werrs : forall root st, KInv root st -> filter v_cyc (Wk [] root) = [] ->
    (forall f, bad f = false) -> (forall f, cbad f = false) -> (forall f, abad f = false) -> k_werrs st = [].
  Proof.
    intros root st HI Ac Hb Hc Ha. destruct (k_werrs st) as [|e rest] eqn:We; [reflexivity|].
    pose proof (Q_werrs _ _ HI e) as G. rewrite We in G. specialize (G (or_introl eq_refl)).
    destruct e as [f|c|f|f]; cbn [werr_ok] in G; try congruence.
    destruct G as (anc & f & _ & I & M).
    assert (I' : In (anc, f) (filter v_cyc (Wk [] root))) by (apply filter_In; split; [exact I|exact M]).
    rewrite Ac in I'. destruct I'.
  Qed.
  End CodeAsItIs.
End FromPathCycleProofs.

(* Instances.  [g_diamond]: 0 includes 1 and 2, both include 3.  [g_mutual]: 0 includes 1 and 2,
   which include each other - a cycle that can be entered over two routes. *)
Definition g_diamond (f : nat) : list nat := match f with 0 => [1; 2] | 1 => [3] | 2 => [3] | _ => [] end.
Definition g_mutual (f : nat) : list nat := match f with 0 => [1; 2] | 1 => [2] | 2 => [1] | _ => [] end.

(* the seeded change seeded/C06c-load-once-set ([once = true]) on g_mutual: if both routes into the
   cycle have been claimed before either is followed further, every later task finds its file
   claimed and returns nil - FromPath succeeds and has loaded every file once; if the task for 2
   below 1 runs before the task for 2 below the root, it claims 2 and its own include of 1 is a
   cycle - FromPath fails *)
Definition once_sched_ok : list klabel :=
  [KStart 0; KSpawn 0; KSpawn 0; KStart 1; KStart 2; KSpawn 1; KSpawn 2; KStart 3; KStart 4].
Definition once_sched_err : list klabel :=
  [KStart 0; KSpawn 0; KSpawn 0; KStart 1; KSpawn 1; KStart 3; KSpawn 3; KStart 4].

Lemma once_schedule_dependent :
  let run s := kdrain g_mutual none none none true 60 (krun g_mutual none none none true s (kinit 0)) in
  koutcome_of (run once_sched_ok) = KOk [0; 1; 2] /\
  koutcome_of (run once_sched_err) = KErr (KWCycle [0; 1; 2; 1]).
Proof. vm_compute. split; reflexivity. Qed.

(* the code as it is on the same two schedules, and on the diamond *)
Lemma code_same_schedules :
  let run s := kdrain g_mutual none none none false 80 (krun g_mutual none none none false s (kinit 0)) in
  (exists c, koutcome_of (run once_sched_ok) = KErr (KWCycle c)) /\
  (exists c, koutcome_of (run once_sched_err) = KErr (KWCycle c)) /\
  koutcome_of (kdrain g_diamond none none none false 80 (kinit 0)) = KOk [0; 1; 2; 3; 3] /\
  koutcome_of (kdrain g_diamond none none none true 80 (kinit 0)) = KOk [0; 1; 2; 3].
Proof. vm_compute. repeat split; eexists; reflexivity. Qed.

Lemma filter_split_length : forall (A : Type) (p : A -> bool) l,
  length l = length (filter (fun x => negb (p x)) l) + length (filter p l).
Proof.
  induction l as [|a l IH]; simpl; [reflexivity|]. destruct (p a); simpl; lia.
Qed.

Lemma frompath_cycle_terminates : forall inc bad cbad abad once univ root sched,
  finite_graph inc univ root ->
  let visits := all_visits inc univ root in
  let st := krun inc bad cbad abad once sched (kinit root) in
  (forall anc f, In (anc, f) visits <-> ipath inc root anc f /\ NoDup anc) /\
  (forall anc f, In (anc, f) (simple_paths inc univ root) <-> ipath inc root anc f /\ NoDup (anc ++ [f])) /\
  length visits = length (simple_paths inc univ root) + length (cycle_closings inc univ root) /\
  keffective inc bad cbad abad once sched (kinit root) <= 6 * length visits + 3 /\
  (once = false -> length (k_ptasks st) <= length visits) /\
  (once = false -> (forall f, abad f = false) ->
   (kfinished st = false -> exists l, In l (klabels st) /\ kenabled inc bad cbad abad once st l = true) /\
   kfinished (kdrain inc bad cbad abad once (6 * length visits + 3) st) = true).
Proof.
  intros inc bad cbad abad once univ root sched [Hr Hc] visits st.
  split; [intros anc f; apply (walks_spec inc univ Hc root anc f Hr)|].
  split; [intros anc f; apply (simple_paths_spec inc univ Hc root anc f Hr)|].
  split; [apply (filter_split_length _ v_cyc)|].
  assert (V0 : KValid inc univ (kinit root)) by (apply kvalid_init; exact Hr).
  split.
  { unfold visits. rewrite <- (kmu_init inc univ root). apply keffective_bound_from; assumption. }
  split.
  - intros Ho. subst once. unfold visits. rewrite (all_visits_Wk inc univ root).
    apply (ktasks_bound inc bad cbad abad univ root). apply (reachable_kinv inc bad cbad abad false univ Hc eq_refl root sched Hr).
  - intros Ho Ha. subst once.
    pose proof (reachable_kinv inc bad cbad abad false univ Hc eq_refl root sched Hr) as HI. split.
    + intros F. eapply kdeadlock_free; eauto.
    + apply (kdrain_finishes_from inc bad cbad abad false univ Hc eq_refl root); auto.
      unfold visits. rewrite <- (kmu_init inc univ root). apply krun_kmu; assumption.
Qed.

Lemma frompath_cycle_is_error : forall inc bad cbad abad univ root sched,
  finite_graph inc univ root -> (forall f, abad f = false) ->
  cycle_reachable inc root ->
  let st := krun inc bad cbad abad false sched (kinit root) in
  (k_synclosed st = true ->
     exists e rest, k_werrs st = e :: rest /\ parser_stage e = true /\ kgenuine bad cbad abad e = true) /\
  (forall files, koutcome_of st <> KOk files) /\
  (kfinished st = true ->
     exists e, koutcome_of st = KErr e /\ parser_stage e = true /\ kgenuine bad cbad abad e = true) /\
  (forall c, In (KWCycle c) (k_werrs st) ->
     exists anc f, c = anc ++ [f] /\ ipath inc root anc f /\ NoDup anc /\ In f anc).
Proof.
  intros inc bad cbad abad univ root sched [Hr Hc] Ha Cy st.
  pose proof (reachable_kinv inc bad cbad abad false univ Hc eq_refl root sched Hr) as HI. fold st in HI.
  assert (Cc : filter v_cyc (Wk inc univ [] root) <> []).
  { rewrite <- (all_visits_Wk inc univ root). apply (cycle_reachable_spec inc univ Hc root Hr). exact Cy. }
  assert (R : k_synclosed st = true ->
     exists e rest, k_werrs st = e :: rest /\ parser_stage e = true /\ kgenuine bad cbad abad e = true).
  { intros SC. eapply kcycle_reported; eauto. }
  split; [exact R|]. split; [|split].
  - intros files E. unfold koutcome_of in E. destruct (kfinished st) eqn:F; [|discriminate].
    destruct (kfinished_spec st F) as (SC & _). destruct (R SC) as (e & rest & We & _).
    rewrite We in E. discriminate.
  - intros F. destruct (kfinished_spec st F) as (SC & _). destruct (R SC) as (e & rest & We & Pg & G).
    exists e. split; [|auto]. unfold koutcome_of. rewrite F, We. reflexivity.
  - intros c Hin. pose proof (Q_werrs _ _ _ _ _ _ _ HI _ Hin) as G. cbn [werr_ok] in G.
    destruct G as (anc & f & -> & I & M). exists anc, f.
    rewrite <- (all_visits_Wk inc univ root) in I. apply (walks_spec inc univ Hc root anc f Hr) in I.
    destruct I as [P ND]. repeat split; auto. apply memn_true. exact M.
Qed.

Lemma frompath_diamond_loads_twice : forall inc bad cbad abad univ root sched,
  finite_graph inc univ root ->
  let st := krun inc bad cbad abad false sched (kinit root) in
  kfinished st = true -> k_werrs st = [] ->
  koutcome_of st = KOk (k_added st) /\
  Permutation (k_added st) (map snd (simple_paths inc univ root)) /\
  cycle_closings inc univ root = [] /\ ~ cycle_reachable inc root /\
  k_bld st = BDone /\ k_perrs st = [] /\ k_cerrs st = [] /\ k_pcancel st = false /\ k_ccancel st = false.
Proof.
  intros inc bad cbad abad univ root sched [Hr Hc] st F We.
  pose proof (reachable_kinv inc bad cbad abad false univ Hc eq_refl root sched Hr) as HI. fold st in HI.
  destruct (kfinished_success inc bad cbad abad univ root st HI F We) as (P & Ac & BD & Pe & Ce & Pc & Cc).
  assert (CC : cycle_closings inc univ root = []).
  { unfold cycle_closings. rewrite (all_visits_Wk inc univ root). exact Ac. }
  split; [unfold koutcome_of; rewrite F, We; reflexivity|].
  split.
  { unfold simple_paths. rewrite (all_visits_Wk inc univ root). rewrite filter_all; [exact P|].
    intros v Hv. unfold v_simple. destruct (v_cyc v) eqn:C; [|reflexivity].
    assert (I : In v (filter v_cyc (Wk inc univ [] root))) by (apply filter_In; auto).
    rewrite Ac in I. destruct I. }
  split; [exact CC|]. split; [|auto 10].
  intros Cy. apply (cycle_reachable_spec inc univ Hc root Hr) in Cy. contradiction.
Qed.

Lemma frompath_diamond_loads_twice_ranked : forall inc bad cbad abad rank root sched,
  (forall f g, In g (inc f) -> rank g < rank f) ->
  let st := krun inc bad cbad abad false sched (kinit root) in
  (kfinished st = true -> k_werrs st = [] ->
     Permutation (k_added st) (expand inc (rank root) root) /\
     gvisits inc root (expand inc (rank root) root) /\
     (forall vs, gvisits inc root vs -> Permutation (k_added st) vs)) /\
  ((forall f, bad f = false) -> (forall f, cbad f = false) -> (forall f, abad f = false) -> k_werrs st = []).
Proof.
  intros inc bad cbad abad rank root sched Hrank st.
  pose proof (ranked_finite inc rank Hrank root) as FG. pose proof FG as [Hr Hc].
  destruct (all_visits_ranked inc rank Hrank root) as (A & B & C).
  pose proof (gvisits_ranked inc rank Hrank root) as GV. unfold E in GV.
  split.
  - intros F We.
    destruct (frompath_diamond_loads_twice inc bad cbad abad (E inc rank root) root sched FG F We) as (_ & P & _).
    rewrite C, A in P. unfold E in P. split; [exact P|]. split; [exact GV|].
    intros vs Hv. rewrite (gvisits_det inc root vs Hv _ GV). exact P.
  - intros Hb Hcb Ha.
    pose proof (reachable_kinv inc bad cbad abad false (E inc rank root) Hc eq_refl root sched Hr) as HI.
    apply (knofail_no_werrs inc bad cbad abad false (E inc rank root) eq_refl root _ HI); auto.
    rewrite <- (all_visits_Wk inc (E inc rank root) root). exact B.
Qed.

Lemma g_diamond_finite : finite_graph g_diamond [0; 1; 2; 3] 0.
Proof.
  split; [simpl; auto|]. intros f g Hf Hg. simpl in Hf.
  destruct Hf as [<-|[<-|[<-|[<-|[]]]]]; simpl in Hg; intuition (subst; simpl; auto).
Qed.

Lemma g_mutual_finite : finite_graph g_mutual [0; 1; 2] 0.
Proof.
  split; [simpl; auto|]. intros f g Hf Hg. simpl in Hf.
  destruct Hf as [<-|[<-|[<-|[]]]]; simpl in Hg; intuition (subst; simpl; auto).
Qed.

Lemma g_mutual_cycle : cycle_reachable g_mutual 0.
Proof.
  exists [0; 1; 2], 1. split; [|simpl; auto].
  apply (ipath_step g_mutual [] 0 [0; 1] 2 1); [|simpl; auto].
  apply (ipath_step g_mutual [] 0 [0] 1 2); [|simpl; auto].
  apply (ipath_step g_mutual [] 0 [] 0 1); [constructor|simpl; auto].
Qed.

Lemma load_once_refuted :
  finite_graph g_mutual [0; 1; 2] 0 /\ cycle_reachable g_mutual 0 /\
  let fin s := kdrain g_mutual none none none true (6 * length (all_visits g_mutual [0; 1; 2] 0) + 3)
                 (krun g_mutual none none none true s (kinit 0)) in
  koutcome_of (fin once_sched_ok) = KOk [0; 1; 2] /\
  koutcome_of (fin once_sched_err) = KErr (KWCycle [0; 1; 2; 1]).
Proof.
  split; [exact g_mutual_finite|]. split; [exact g_mutual_cycle|]. vm_compute. split; reflexivity.
Qed.
