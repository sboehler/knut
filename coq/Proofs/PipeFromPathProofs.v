(* Proofs about Model/PipeFromPath.v (journal.FromPath with its three consumers): termination
   from closure under every schedule, what reaches the builder, which error is returned, and the
   two ways in which the protocol blocks forever when a consumer stops receiving. *)
From Coq Require Import List Bool Arith PeanoNat Lia Permutation.
From Knut Require Import Proofs.ListFacts Model.PipeLoader Model.PipeFromPath Proofs.PipeCommon Proofs.PipeLoaderProofs.
Import ListNotations.

Lemma forallb_set_nth : forall (A : Type) (p : A -> bool) l t v, forallb p l = true -> p v = true ->
  forallb p (set_nth l t v) = true.
Proof.
  intros A p. induction l as [|y l IH]; intros [|t] v F V; simpl in *; auto.
  - apply andb_true_iff in F. destruct F as [_ F]. rewrite V, F. reflexivity.
  - apply andb_true_iff in F. destruct F as [F1 F2]. rewrite F1. simpl. apply IH; assumption.
Qed.

Lemma dstat_eqb_eq : forall a b, dstat_eqb a b = true <-> a = b.
Proof. destruct a, b; simpl; split; intro; try reflexivity; discriminate. Qed.
Lemma bstat_eqb_eq : forall a b, bstat_eqb a b = true <-> a = b.
Proof. destruct a, b; simpl; split; intro; try reflexivity; discriminate. Qed.

Lemma finished_spec : forall (sc : bool) d b,
  sc && dstat_eqb d DDone && negb (bstat_eqb b BRecv) = true -> sc = true /\ d = DDone /\ b <> BRecv.
Proof. intros [] [] []; try discriminate; intros _; repeat split; discriminate. Qed.

(* a conversion task that can still move: worker2 has not returned *)
Lemma cbusy : forall (d : dstat) cs c f s, (d = DDone -> forallb ctask_terminal cs = true) ->
  nth_error cs c = Some (mkC f s) -> ctask_terminal (mkC f s) = false -> d <> DDone.
Proof. intros d cs c f s H N T D. pose proof (forallb_nth _ _ _ _ (H D) N). congruence. Qed.

Section FromPathProofs.
  Variable inc : nat -> list nat.
  Variables bad cbad abad : nat -> bool.
  Variable drain : bool.

  Notation fstep := (fstep inc bad cbad abad drain).
  Notation frun := (frun inc bad cbad abad drain).
  Notation feffective := (feffective inc bad cbad abad drain).
  Notation fenabled := (fenabled inc bad cbad abad drain).
  Notation fpick := (fpick inc bad cbad abad drain).
  Notation fdrain := (fdrain inc bad cbad abad drain).
  Notation finit := (finit inc).

  Variable rank : nat -> nat.
  Hypothesis Hrank : forall f g, In g (inc f) -> rank g < rank f.

  Notation W := (W inc rank).
  Notation E := (E inc rank).
  Notation tw := (tw inc rank).

  Definition cw (c : ctask) : nat := match c_st c with CNew => 2 | CRdy => 1 | _ => 0 end.
  Definition dw (d : dstat) : nat := match d with DRecv => 2 | DWait => 1 | DDone => 0 end.
  Definition bw (b : bstat) : nat := match b with BRecv => 1 | _ => 0 end.

  Definition fmu (st : fstate) : nat :=
    3 * list_sum (map tw (f_ptasks st)) + list_sum (map cw (f_ctasks st)) +
    (if f_synclosed st then 0 else 1) + dw (f_disp st) + bw (f_bld st).

  Lemma fstep_decreases : forall l st st', fstep l st = Some st' -> fmu st' < fmu st.
  Proof.
    intros l st st' Hs. unfold fmu. destruct l as [t|t|t|t| | | | |c|c|c| ]; simpl in Hs.
    1-4: destruct (nth_error (f_ptasks st) t) as [[f [[|g rest]| | | |]]|] eqn:N; try discriminate.
    9-11: destruct (nth_error (f_ctasks st) c) as [[f []]|] eqn:N; try discriminate.
    - injection Hs as <-. cbn [f_ptasks f_ctasks f_synclosed f_disp f_bld set_ptasks].
      pose proof (sum_move tw _ _ (mkTask f (Parsing rest)) _ [mkTask g (Parsing (inc g))] N) as S.
      cbn [map list_sum fold_right] in S. rewrite (tw_fresh inc rank Hrank), tw_spawn in S. lia.
    - pose proof (fun s' => sum_set_nth tw _ _ (mkTask f s') _ N) as S.
      destruct (bad f); injection Hs as <-; simpl; [specialize (S PFail)|specialize (S PRdy)]; cbn in S; lia.
    - destruct (dstat_eqb (f_disp st) DRecv); [|discriminate]. injection Hs as <-. simpl.
      pose proof (sum_set_nth tw _ _ (mkTask f PPushed) _ N) as S. cbn in S.
      rewrite map_app, list_sum_app. simpl. lia.
    - destruct (f_pcancel st); [|discriminate]. injection Hs as <-. simpl.
      pose proof (sum_set_nth tw _ _ (mkTask f PCancel) _ N) as S. cbn in S. lia.
    - destruct (f_synclosed st); [discriminate|].
      destruct (forallb task_terminal (f_ptasks st)); [|discriminate]. injection Hs as <-. simpl. lia.
    - destruct (f_disp st); try discriminate. destruct (f_synclosed st) eqn:SC; [|discriminate].
      injection Hs as <-. simpl. rewrite SC. lia.
    - destruct drain, (f_disp st), (f_cerrs st); try discriminate. injection Hs as <-. simpl. lia.
    - destruct (f_disp st); try discriminate.
      destruct (forallb ctask_terminal (f_ctasks st)); [|discriminate]. injection Hs as <-. simpl. lia.
    - pose proof (fun s' => sum_set_nth cw _ _ (mkC f s') _ N) as S.
      destruct (cbad f); injection Hs as <-; simpl; [specialize (S CFail)|specialize (S CRdy)]; cbn in S; lia.
    - destruct (f_bld st); try discriminate.
      pose proof (sum_set_nth cw _ _ (mkC f CPushed) _ N) as S. cbn in S.
      destruct (abad f); injection Hs as <-; simpl; lia.
    - destruct (f_ccancel st); [|discriminate]. injection Hs as <-. simpl.
      pose proof (sum_set_nth cw _ _ (mkC f CCancel) _ N) as S. cbn in S. lia.
    - destruct (f_bld st); try discriminate. destruct (f_disp st); try discriminate.
      injection Hs as <-. simpl. lia.
  Qed.

  Lemma feffective_bound_from : forall sched st, feffective sched st <= fmu st.
  Proof.
    intros sched st. apply (steps_le_mu _ _ fstep fmu (fun _ => True)); eauto using fstep_decreases.
  Qed.

  Lemma frun_fmu : forall sched st, fmu (frun sched st) <= fmu st.
  Proof.
    intros sched st. apply (run_mu_le _ _ fstep fmu (fun _ => True)); eauto using fstep_decreases.
  Qed.

  Lemma fmu_init : forall root, fmu (finit root) = 3 * W root + 4.
  Proof.
    intros. unfold fmu, PipeFromPath.finit. cbn [f_ptasks f_ctasks f_synclosed f_disp f_bld map].
    rewrite (tw_fresh inc rank Hrank). simpl. lia.
  Qed.

  Notation cnt := (count_occ Nat.eq_dec).

  (* where a file of the include tree currently is, if it has not been added to the builder:
     with a parser task [pending], or with a conversion task *)
  Notation ppend := (pending inc rank).
  Definition cpend (c : ctask) : list nat := match c_st c with CPushed => [] | _ => [c_file c] end.
  Definition addfail (es : list werr) : list nat :=
    flat_map (fun e => match e with WAdd f => [f] | _ => [] end) es.

  Record FPInv (root : nat) (st : fstate) : Prop := {
    P_count : forall x,
      cnt (f_added st ++ addfail (f_werrs st) ++ flat_map cpend (f_ctasks st) ++
           flat_map ppend (f_ptasks st)) x = cnt (E root) x;
    P_closed : f_synclosed st = true -> forallb task_terminal (f_ptasks st) = true;
    P_ddone : f_disp st = DDone -> forallb ctask_terminal (f_ctasks st) = true;
    P_bdone : f_bld st = BDone -> f_disp st = DDone;
    P_drain : drain = true -> f_disp st <> DRecv -> f_synclosed st = true;
    P_bfail : f_bld st = BFail -> exists f, In (WAdd f) (f_werrs st);
    P_perrs : forall f, In f (f_perrs st) -> bad f = true;
    P_cerrs : forall f, In f (f_cerrs st) -> cbad f = true;
    P_werrs : forall e, In e (f_werrs st) -> genuine bad cbad abad e = true;
    P_pclean : f_perrs st = [] ->
      f_pcancel st = false /\ forall t, In t (f_ptasks st) -> t_st t <> PFail /\ t_st t <> PCancel;
    P_cclean : f_cerrs st = [] ->
      f_ccancel st = false /\ forall c, In c (f_ctasks st) -> c_st c <> CFail /\ c_st c <> CCancel;
    P_wparse : f_werrs st = [] -> f_synclosed st = true -> f_perrs st = [];
    P_wconv : f_werrs st = [] -> f_disp st = DDone -> f_cerrs st = []
  }.

  Lemma fpinv_init : forall root, FPInv root (finit root).
  Proof.
    intros root. constructor; simpl; try discriminate; try contradiction; auto.
    - intros x. unfold pending. simpl. rewrite app_nil_r. rewrite (E_unfold inc rank Hrank root). reflexivity.
    - intros _. split; [reflexivity|]. intros t [<-|[]]. simpl. split; discriminate.
  Qed.

  Lemma addfail_app : forall a b, addfail (a ++ b) = addfail a ++ addfail b.
  Proof. intros. unfold addfail. apply flat_map_app. Qed.

  Lemma addfail_first_err : forall mk l, (forall f g, mk f <> WAdd g) -> addfail (first_err mk l) = [].
  Proof.
    intros mk [|f l] H; [reflexivity|]. simpl. specialize (H f).
    destruct (mk f) as [| |g]; try reflexivity. destruct (H g). reflexivity.
  Qed.

  Lemma in_first_err : forall mk l e, In e (first_err mk l) -> exists f, e = mk f /\ In f l.
  Proof. intros mk [|f l] e H; simpl in H; [contradiction|]. destruct H as [<-|[]]. exists f. simpl. auto. Qed.

  Lemma first_err_nil : forall mk l, first_err mk l = [] -> l = [].
  Proof. intros mk [|f l] H; [reflexivity|discriminate]. Qed.

  (* Every label moves one task or one worker.  A parser task that moves is not terminal, so
     worker1 has not returned [SC]; a conversion task that moves is not terminal, so worker2 has
     not returned [DD]: the clauses about a closed channel hold for want of a premise.  The
     remaining clauses are checked one by one. *)
  Lemma fstep_fpinv : forall root l st st', FPInv root st -> fstep l st = Some st' -> FPInv root st'.
  Proof.
    intros root l st st' HI Hs.
    destruct HI as [Hcount Hclosed Hddone Hbdone Hdrain Hbfail Hperrs Hcerrs Hwerrs Hpclean Hcclean Hwparse Hwconv].
    destruct l as [t|t|t|t| | | | |c|c|c| ]; simpl in Hs.
    1-4: destruct (nth_error (f_ptasks st) t) as [[f [[|g rest]| | | |]]|] eqn:N; try discriminate.
    1-4: assert (SC : f_synclosed st <> true)
           by (intros C; pose proof (forallb_nth _ _ _ _ (Hclosed C) N); discriminate).
    9-11: destruct (nth_error (f_ctasks st) c) as [[f []]|] eqn:N; try discriminate.
    9-11: assert (DD : f_disp st <> DDone) by (apply (cbusy _ _ _ _ _ Hddone N); reflexivity).
    - (* PSpawn *)
      injection Hs as <-. constructor; simpl; auto; try contradiction.
      + intros x. rewrite <- (Hcount x).
        pose proof (cnt_move ppend _ _ (mkTask f (Parsing rest)) _ [mkTask g (Parsing (inc g))] x N) as S.
        cbn [pending t_st t_file flat_map] in S. rewrite <- (E_unfold inc rank Hrank g), app_nil_r in S.
        rewrite !count_occ_app in *. lia.
      + apply clean_snoc; [apply clean_set_nth; [exact Hpclean|]|]; split; discriminate.
    - (* PParsed *)
      destruct (bad f) eqn:Bf; injection Hs as <-; constructor; simpl; auto; try contradiction.
      + rewrite (flat_map_set_nth_same ppend _ _ (mkTask f PFail) _ N eq_refl). exact Hcount.
      + apply all_snoc; assumption.
      + intros Pe. destruct (f_perrs st); discriminate.
      + rewrite (flat_map_set_nth_same ppend _ _ (mkTask f PRdy) _ N eq_refl). exact Hcount.
      + apply clean_set_nth; [exact Hpclean|split; discriminate].
    - (* PPush *)
      destruct (f_disp st) eqn:D; try discriminate.
      injection Hs as <-; constructor; simpl; auto; try contradiction; try discriminate.
      + intros x. rewrite <- (Hcount x).
        pose proof (cnt_set_nth ppend _ _ (mkTask f PPushed) _ x N) as S.
        cbn [pending t_st t_file] in S. rewrite count_occ_nil in S.
        rewrite flat_map_app. cbn [flat_map cpend c_st c_file app]. rewrite !count_occ_app. lia.
      + apply clean_set_nth; [exact Hpclean|split; discriminate].
      + apply clean_snoc; [exact Hcclean|split; discriminate].
    - (* PObserve *)
      destruct (f_pcancel st) eqn:Pc; [|discriminate].
      injection Hs as <-; constructor; simpl; auto; try contradiction.
      + rewrite (flat_map_set_nth_same ppend _ _ (mkTask f PCancel) _ N eq_refl). exact Hcount.
      + intros Pe. destruct (Hpclean Pe) as [A B]. congruence.
    - (* PClose *)
      destruct (f_synclosed st) eqn:C1; [discriminate|].
      destruct (forallb task_terminal (f_ptasks st)) eqn:C2; [|discriminate].
      injection Hs as <-; constructor; simpl; auto.
      + rewrite addfail_app, addfail_first_err, app_nil_r by discriminate. exact Hcount.
      + intros B. destruct (Hbfail B) as (f & Hf). exists f. apply in_or_app. auto.
      + intros e He. apply in_app_or in He. destruct He as [He|He]; [auto|].
        apply in_first_err in He. destruct He as (f & -> & Hf). simpl. auto.
      + intros We _. apply app_eq_nil in We. destruct We as [_ We]. eapply first_err_nil; eassumption.
      + intros We. apply app_eq_nil in We. destruct We as [We _]. auto.
    - (* DEnd *)
      destruct (f_disp st) eqn:C1; try discriminate. destruct (f_synclosed st) eqn:C2; [|discriminate].
      injection Hs as <-; constructor; simpl; auto; try discriminate.
      intros B. specialize (Hbdone B). discriminate.
    - (* DAbort *)
      destruct (negb drain) eqn:C1; [|discriminate]. apply negb_true_iff in C1.
      destruct (f_disp st) eqn:C2; try discriminate. destruct (is_nil (f_cerrs st)); [discriminate|].
      injection Hs as <-; constructor; simpl; auto; try discriminate.
      + intros B. specialize (Hbdone B). discriminate.
      + intros Dr. congruence.
    - (* DRet *)
      destruct (f_disp st) eqn:C1; try discriminate.
      destruct (forallb ctask_terminal (f_ctasks st)) eqn:C2; [|discriminate].
      injection Hs as <-; constructor; simpl; auto.
      + rewrite addfail_app, addfail_first_err, app_nil_r by discriminate. exact Hcount.
      + intros Dr _. apply Hdrain; [exact Dr|discriminate].
      + intros B. destruct (Hbfail B) as (f & Hf). exists f. apply in_or_app. auto.
      + intros e He. apply in_app_or in He. destruct He as [He|He]; [auto|].
        apply in_first_err in He. destruct He as (f & -> & Hf). simpl. auto.
      + intros We. apply app_eq_nil in We. destruct We as [We _]. auto.
      + intros We _. apply app_eq_nil in We. destruct We as [_ We]. eapply first_err_nil; eassumption.
    - (* CConv *)
      destruct (cbad f) eqn:Bf; injection Hs as <-; constructor; simpl; auto; try contradiction.
      + rewrite (flat_map_set_nth_same cpend _ _ (mkC f CFail) _ N eq_refl). exact Hcount.
      + apply all_snoc; assumption.
      + intros Ce. destruct (f_cerrs st); discriminate.
      + rewrite (flat_map_set_nth_same cpend _ _ (mkC f CRdy) _ N eq_refl). exact Hcount.
      + apply clean_set_nth; [exact Hcclean|split; discriminate].
    - (* CPush *)
      destruct (f_bld st) eqn:B; try discriminate.
      pose proof (fun x => cnt_set_nth cpend _ _ (mkC f CPushed) _ x N) as S.
      cbn [cpend c_st c_file] in S.
      destruct (abad f) eqn:Af; injection Hs as <-; constructor; simpl; auto; try contradiction; try discriminate.
      + intros x. rewrite <- (Hcount x). specialize (S x). rewrite count_occ_nil in S.
        rewrite addfail_app. cbn [addfail flat_map app]. rewrite !count_occ_app. lia.
      + intros _. exists f. apply in_or_app. right. left. reflexivity.
      + apply all_snoc; assumption.
      + apply clean_set_nth; [exact Hcclean|split; discriminate].
      + intros We. destruct (f_werrs st); discriminate.
      + intros x. rewrite <- (Hcount x). specialize (S x). rewrite count_occ_nil in S.
        rewrite !count_occ_app. lia.
      + apply clean_set_nth; [exact Hcclean|split; discriminate].
    - (* CObserve *)
      destruct (f_ccancel st) eqn:Cc; [|discriminate].
      injection Hs as <-; constructor; simpl; auto; try contradiction.
      + rewrite (flat_map_set_nth_same cpend _ _ (mkC f CCancel) _ N eq_refl). exact Hcount.
      + intros Ce. destruct (Hcclean Ce) as [A B]. congruence.
    - (* BEnd *)
      destruct (f_bld st) eqn:C1; try discriminate. destruct (f_disp st) eqn:C2; try discriminate.
      injection Hs as <-; constructor; simpl; auto; try discriminate.
  Qed.

  Lemma frun_fpinv : forall root sched st, FPInv root st -> FPInv root (frun sched st).
  Proof. intros root. apply (run_keeps _ _ fstep (FPInv root)). apply fstep_fpinv. Qed.

  Lemma reachable_fpinv : forall root sched, FPInv root (frun sched (finit root)).
  Proof. intros. apply frun_fpinv. apply fpinv_init. Qed.

  Lemma fenabled_flabels : forall st l, fenabled st l = true -> In l (flabels st).
  Proof.
    intros st l H. unfold PipeFromPath.fenabled in H. unfold flabels. apply in_or_app.
    destruct l as [t|t|t|t| | | | |c|c|c| ]; simpl in H.
    1-4: left; apply in_flat_map; exists t.
    9-11: right; apply in_or_app; right; apply in_flat_map; exists c.
    5-8, 12: right; apply in_or_app; left; simpl; auto 6.
    all: (split; [apply in_seq; split; [lia|]; apply nth_error_Some; intros E; rewrite E in H; discriminate|simpl; auto]).
  Qed.

  (* the code as it is (the dispatcher drains) and a builder that does not fail: a state in which
     some worker has not returned has an enabled label *)
  Lemma fdeadlock_free : forall root st, FPInv root st -> drain = true -> (forall f, abad f = false) ->
    ffinished st = false -> exists l, In l (flabels st) /\ fenabled st l = true.
  Proof.
    intros root st HI Hd Ha F.
    enough (exists l, fenabled st l = true) as (l & En) by (exists l; auto using fenabled_flabels).
    unfold PipeFromPath.fenabled.
    destruct (forallb task_terminal (f_ptasks st)) eqn:PT.
    2:{ destruct (forallb_false_nth _ _ PT) as (t & [f s] & N & Q).
        destruct s as [[|g rest]| | | |]; try discriminate Q.
        - exists (PParsed t). simpl. rewrite N. destruct (bad f); reflexivity.
        - exists (PSpawn t). simpl. rewrite N. reflexivity.
        - assert (D : f_disp st = DRecv).
          { destruct (f_disp st) eqn:D; [reflexivity| |];
              (assert (C : f_synclosed st = true) by (apply (P_drain _ _ HI Hd); rewrite D; discriminate));
              pose proof (P_closed _ _ HI C); congruence. }
          exists (PPush t). simpl. rewrite N, D. reflexivity. }
    destruct (f_synclosed st) eqn:SC.
    2:{ exists PClose. simpl. rewrite SC, PT. reflexivity. }
    destruct (f_disp st) eqn:D.
    - exists DEnd. simpl. rewrite D, SC. reflexivity.
    - destruct (forallb ctask_terminal (f_ctasks st)) eqn:CT.
      2:{ destruct (forallb_false_nth _ _ CT) as (c & [f s] & N & Q).
          destruct s; try discriminate Q.
          - exists (CConv c). simpl. rewrite N. destruct (cbad f); reflexivity.
          - assert (B : f_bld st = BRecv).
            { destruct (f_bld st) eqn:B; [reflexivity| |].
              - pose proof (P_bdone _ _ HI B). congruence.
              - destruct (P_bfail _ _ HI B) as (f' & Hf'). pose proof (P_werrs _ _ HI _ Hf') as G.
                simpl in G. rewrite Ha in G. discriminate. }
            exists (CPush c). simpl. rewrite N, B. simpl. destruct (abad f); reflexivity. }
      exists DRet. simpl. rewrite D, CT. reflexivity.
    - unfold ffinished in F. rewrite SC, D in F. simpl in F. apply negb_false_iff in F.
      apply bstat_eqb_eq in F.
      exists BEnd. simpl. rewrite F, D. reflexivity.
  Qed.

  Lemma fdrain_finishes_from : forall root fuel st, FPInv root st -> drain = true ->
    (forall f, abad f = false) -> fmu st <= fuel -> ffinished (fdrain fuel st) = true.
  Proof.
    intros root fuel st HI Hd Ha.
    apply (pick_finishes _ _ fstep fmu (FPInv root)); eauto using fstep_fpinv, fstep_decreases.
    - intros st0 l P. apply find_some in P. destruct P as [_ En]. unfold PipeFromPath.fenabled in En.
      destruct (fstep l st0); [eauto|discriminate].
    - intros st0 HI0 P. destruct (ffinished st0) eqn:F; [reflexivity|].
      destruct (fdeadlock_free root st0 HI0 Hd Ha F) as (l & Hin & En).
      pose proof (find_none _ _ P l Hin). congruence.
  Qed.

  Lemma terminal_cpend_nil : forall l, forallb ctask_terminal l = true ->
    (forall c, In c l -> c_st c <> CFail /\ c_st c <> CCancel) -> flat_map cpend l = [].
  Proof.
    intros l F L. apply flat_map_nil. intros [f s] Hx. rewrite forallb_forall in F.
    pose proof (F _ Hx) as T. destruct (L _ Hx) as [A B]. simpl in A, B.
    destruct s; try discriminate T; try reflexivity; congruence.
  Qed.

  Lemma ffinished_spec : forall st, ffinished st = true ->
    f_synclosed st = true /\ f_disp st = DDone /\ f_bld st <> BRecv.
  Proof. intros st. apply finished_spec. Qed.

  (* FromPath returns without error: every file of the include tree (one copy per include path)
     has been parsed, converted and added to the builder exactly once, and no stage failed or was
     cancelled - whatever the oracles are *)
  Lemma ffinished_success : forall root st, FPInv root st -> ffinished st = true -> f_werrs st = [] ->
    Permutation (f_added st) (E root) /\ f_bld st = BDone /\ f_perrs st = [] /\ f_cerrs st = [] /\
    f_pcancel st = false /\ f_ccancel st = false.
  Proof.
    intros root st HI F We. destruct (ffinished_spec st F) as (SC & D & B).
    pose proof (P_wparse _ _ HI We SC) as Pe. pose proof (P_wconv _ _ HI We D) as Ce.
    destruct (P_pclean _ _ HI Pe) as [Pc Pl]. destruct (P_cclean _ _ HI Ce) as [Cc Cl].
    assert (BD : f_bld st = BDone).
    { destruct (f_bld st) eqn:Bs; [congruence|reflexivity|].
      destruct (P_bfail _ _ HI Bs) as (f & Hf). rewrite We in Hf. contradiction. }
    repeat split; auto.
    apply (Permutation_count_occ Nat.eq_dec). intros x. rewrite <- (P_count _ _ HI x).
    rewrite We, (terminal_pending_nil inc rank _ (P_closed _ _ HI SC) Pl), (terminal_cpend_nil _ (P_ddone _ _ HI D) Cl).
    simpl. rewrite app_nil_r. reflexivity.
  Qed.

  (* a failure in any of the three stages is reported once the workers have returned, and every
     reported error - in particular the first, which FromPath returns - is the error of a stage
     function that did fail *)
  Lemma ffailure_reported : forall root st, FPInv root st -> ffinished st = true ->
    (exists t, In t (f_ptasks st) /\ t_st t = PFail) \/
    (exists c, In c (f_ctasks st) /\ c_st c = CFail) \/ f_bld st = BFail ->
    exists e rest, f_werrs st = e :: rest /\ genuine bad cbad abad e = true.
  Proof.
    intros root st HI F Hf. destruct (f_werrs st) as [|e rest] eqn:We.
    - exfalso. destruct (ffinished_success root st HI F We) as (_ & BD & Pe & Ce & _).
      destruct Hf as [(t & Ht & Pt)|[(c & Hc & Pc)|Bf]].
      + destruct (P_pclean _ _ HI Pe) as [_ Pl]. destruct (Pl t Ht). congruence.
      + destruct (P_cclean _ _ HI Ce) as [_ Cl]. destruct (Cl c Hc). congruence.
      + congruence.
    - exists e, rest. split; [reflexivity|]. apply (P_werrs _ _ HI). rewrite We. left. reflexivity.
  Qed.

  Lemma nofail_no_werrs : forall root st, FPInv root st ->
    (forall f, bad f = false) -> (forall f, cbad f = false) -> (forall f, abad f = false) ->
    f_werrs st = [].
  Proof.
    intros root st HI Hb Hc Ha. destruct (f_werrs st) as [|e rest] eqn:We; [reflexivity|].
    pose proof (P_werrs _ _ HI e) as G. rewrite We in G. specialize (G (or_introl eq_refl)).
    destruct e; simpl in G; congruence.
  Qed.
End FromPathProofs.

(* Two ways to block forever (the schedules of C19_frompath_nodrain_refuted and
   C19_frompath_builder_error_refuted, Properties/C19.v).  One file (0) that includes another (1). *)
Definition inc01 (f : nat) : list nat := match f with 0 => [1] | _ => [] end.
Definition none (f : nat) : bool := false.
Definition is1 (f : nat) : bool := f =? 1.

(* (a) model.FromStream returns at the first conversion error instead of draining (drain = false):
   file 1 is delivered and fails to convert, the dispatcher stops receiving, and the task of the
   root file blocks in Push forever - syntaxCh is never closed, worker1 never returns. *)
Definition nodrain_sched : list flabel :=
  [PSpawn 0; PParsed 1; PPush 1; CConv 0; DAbort; PParsed 0; DRet; BEnd].

(* the same instance and schedule with the drain (the label DAbort is disabled) can go on *)
Lemma drain_same_instance :
  let st := fdrain inc01 none is1 none true 30
              (frun inc01 none is1 none true nodrain_sched (finit inc01 0)) in
  foutcome_of st = FErr (WConv 1).
Proof. vm_compute. reflexivity. Qed.

(* (b) the code as it is (drain = true), if Builder.Add could fail: the builder returns the error
   and stops receiving; the outer context is not cancelled and the inner one only by a conversion
   error, so the next conversion task blocks in Push forever and wg.Wait never returns. *)
Definition addfail_sched : list flabel :=
  [PSpawn 0; PParsed 1; PPush 1; CConv 0; CPush 0; PParsed 0; PPush 0; CConv 1; PClose; DEnd].
