(* Proofs about Model/Pipe.v: the invariant of cpr.Seq's transition system and its preservation.
   Everything is by induction over schedules (lists of labels); n, m, fails are arbitrary.
   The invariant has a part per node ([node_ok]), a part per channel ([chan_ok]) and three facts
   about the sink and the errors.  A step replaces one node (a hand-over: two neighbours), so what
   has to be checked is the new node and the two channels next to it ([inv_set_node], [inv_hand]). *)
From Coq Require Import List Bool Arith PeanoNat Lia.
From Knut Require Import Model.Pipe Proofs.PipeCommon.
Import ListNotations.

Lemma phase_eqb_eq : forall a b, phase_eqb a b = true <-> a = b.
Proof. intros a b; destruct a, b; simpl; split; intro H; try reflexivity; try discriminate. Qed.

Lemma live_true : forall nd p, live nd p = true <-> stat nd = Running /\ ph nd = p.
Proof.
  intros nd p. unfold live, is_running. destruct (stat nd); simpl.
  - rewrite phase_eqb_eq. tauto.
  - split; [discriminate | intros [H _]; discriminate].
  - split; [discriminate | intros [H _]; discriminate].
Qed.

Lemma live_false : forall nd p, live nd p = false <-> ~ (stat nd = Running /\ ph nd = p).
Proof.
  intros nd p. rewrite <- live_true. destruct (live nd p); intuition congruence.
Qed.

Lemma is_running_true : forall nd, is_running nd = true <-> stat nd = Running.
Proof. intros nd. unfold is_running. destruct (stat nd); split; intro H; try reflexivity; discriminate. Qed.

Definition closedP (nd : node) : Prop := stat nd <> Running \/ ph nd = PFailed.

Lemma closed_true : forall nd, closed nd = true <-> closedP nd.
Proof.
  intros nd. unfold closed, closedP. rewrite orb_true_iff, negb_true_iff, phase_eqb_eq.
  unfold is_running. destruct (stat nd); split; intros [H|H]; auto; try discriminate; try congruence.
  - left; discriminate.
  - left; discriminate.
Qed.

Lemma live_intro : forall nd p, stat nd = Running -> ph nd = p -> live nd p = true.
Proof. intros. apply live_true. auto. Qed.

Lemma if_some : forall (A : Type) (c : bool) (x : option A) y,
  (if c then x else None) = Some y -> c = true /\ x = Some y.
Proof. intros A [] x y H; [auto | discriminate]. Qed.

Lemma upd_same : forall f i v, upd f i v i = v.
Proof. intros. unfold upd. rewrite Nat.eqb_refl. reflexivity. Qed.

Lemma upd_other : forall f i v j, j <> i -> upd f i v j = f j.
Proof. intros f i v j H. unfold upd. apply Nat.eqb_neq in H. rewrite H. reflexivity. Qed.

Lemma upd_forall_ne : forall (P : nat -> node -> Prop) f i v,
  (forall j, j <> i -> P j (f j)) -> P i v -> forall j, P j (upd f i v j).
Proof.
  intros P f i v H Hv j. destruct (Nat.eq_dec j i) as [->|Hne].
  - rewrite upd_same. exact Hv.
  - rewrite upd_other by exact Hne. apply H, Hne.
Qed.

Lemma upd_forall : forall (P : nat -> node -> Prop) f i v,
  (forall j, P j (f j)) -> P i v -> forall j, P j (upd f i v j).
Proof. intros P f i v H. apply upd_forall_ne. intros j _. apply H. Qed.

(* a relation between neighbours survives an update if it holds on both sides of the new node *)
Lemma upd_links : forall (R : nat -> node -> node -> Prop) f i v,
  (forall j, R j (f j) (f (S j))) ->
  (forall i', i = S i' -> R i' (f i') v) -> R i v (f (S i)) ->
  forall j, R j (upd f i v j) (upd f i v (S j)).
Proof.
  intros R f i v H Hl Hr j. destruct (Nat.eq_dec j i) as [->|Hj].
  - rewrite upd_same, upd_other by lia. exact Hr.
  - rewrite (upd_other f i v j Hj). destruct (Nat.eq_dec (S j) i) as [E|E].
    + rewrite E, upd_same. apply Hl. symmetry. exact E.
    + rewrite upd_other by exact E. apply H.
Qed.

(* the same for two neighbours replaced at once *)
Lemma upd_links2 : forall (R : nat -> node -> node -> Prop) f i v w,
  (forall j, R j (f j) (f (S j))) ->
  (forall i', i = S i' -> R i' (f i') v) -> R i v w -> R (S i) w (f (S (S i))) ->
  forall j, R j (upd (upd f i v) (S i) w j) (upd (upd f i v) (S i) w (S j)).
Proof.
  intros R f i v w H Hl Hm Hr j. destruct (Nat.eq_dec j (S i)) as [->|Hj].
  - rewrite upd_same, !upd_other by lia. exact Hr.
  - rewrite (upd_other _ (S i) w j Hj). destruct (Nat.eq_dec j i) as [->|Hj'].
    + rewrite !upd_same. exact Hm.
    + rewrite (upd_other _ (S i) w (S j)), (upd_other f i v j) by lia.
      destruct (Nat.eq_dec (S j) i) as [E|E].
      * rewrite E, upd_same. apply Hl. symmetry. exact E.
      * rewrite upd_other by exact E. apply H.
Qed.

Section SeqProofs.
  Variable n m : nat.
  Variable fails : nat -> nat -> bool.

  Notation step := (step n m fails).
  Notation run := (run n m fails).
  Notation step_or_stay := (step_or_stay n m fails).

  Definition bounded (nd : node) : Prop :=
    match ph nd with PIdle => cnt nd <= m | _ => cnt nd < m end.

  Lemma bounded_idle : forall nd, bounded nd -> ph nd = PIdle -> cnt nd <= m.
  Proof. unfold bounded. intros nd B P. rewrite P in B. exact B. Qed.

  Lemma bounded_busy : forall nd, bounded nd -> ph nd <> PIdle -> cnt nd < m.
  Proof. unfold bounded. intros nd B P. destruct (ph nd); [contradiction| | | |]; exact B. Qed.

  Definition first_is_failure (es : list err) : Prop :=
    exists i k rest, es = EFail i k :: rest /\ fails i k = true /\ 1 <= i <= n /\ k < m.

  (* what the invariant says of node i by itself; c: the context is cancelled *)
  Record node_ok (c : bool) (i : nat) (nd : node) : Prop := {
    N_bound : bounded nd;
    N_src : i = 0 -> ph nd = PIdle \/ ph nd = PReady;
    N_sink : i = S n -> ph nd = PIdle \/ ph nd = PHolding \/ ph nd = PWorking;
    N_done : stat nd = Done -> ph nd = PIdle /\ (i = 0 -> cnt nd = m);
    N_stop : stat nd = Stopped -> c = true;
    N_failed : ph nd = PFailed -> fails i (cnt nd) = true /\ 1 <= i <= n;
    N_passed : 1 <= i <= n -> forall k, k < cnt nd -> fails i k = false;
    N_ready : 1 <= i <= n -> ph nd = PReady -> fails i (cnt nd) = false
  }.

  (* and of channel i, from node i (a) to node i+1 (b) *)
  Record chan_ok (i : nat) (a b : node) : Prop := {
    C_count : i <= n -> sent a = recv b;
    C_done : stat b = Done -> closedP a
  }.

  Record Inv (st : state) : Prop := {
    I_node : forall i, node_ok (cancelled st) i (nodes st i);
    I_link : forall i, chan_ok i (nodes st i) (nodes st (S i));
    I_sinkacc : sinkacc st = seq 0 (cnt (nodes st (S n)));
    I_err : (cancelled st = false /\ errs st = []) \/
            (cancelled st = true /\ first_is_failure (errs st));
    I_result : stat (nodes st (S n)) = Done -> result st = Some (sinkacc st)
  }.

  Lemma I_chan : forall st, Inv st -> forall i, i <= n -> sent (nodes st i) = recv (nodes st (S i)).
  Proof. intros st HI i. exact (C_count _ _ _ (I_link _ HI i)). Qed.

  Lemma I_bound : forall st, Inv st -> forall i, bounded (nodes st i).
  Proof. intros st HI i. exact (N_bound _ _ _ (I_node _ HI i)). Qed.

  Lemma I_src : forall st, Inv st -> ph (nodes st 0) = PIdle \/ ph (nodes st 0) = PReady.
  Proof. intros st HI. exact (N_src _ _ _ (I_node _ HI 0) eq_refl). Qed.

  Lemma I_sinkph : forall st, Inv st ->
    ph (nodes st (S n)) = PIdle \/ ph (nodes st (S n)) = PHolding \/ ph (nodes st (S n)) = PWorking.
  Proof. intros st HI. exact (N_sink _ _ _ (I_node _ HI (S n)) eq_refl). Qed.

  Lemma I_done : forall st, Inv st -> forall i, stat (nodes st i) = Done ->
    ph (nodes st i) = PIdle /\ (i = 0 -> cnt (nodes st i) = m) /\
    (1 <= i -> closedP (nodes st (pred i))).
  Proof.
    intros st HI i D. destruct (N_done _ _ _ (I_node _ HI i) D) as [P C].
    split; [exact P|]. split; [exact C|]. intros Hi. destruct i as [|i']; [lia|].
    apply (C_done _ _ _ (I_link _ HI i') D).
  Qed.

  Lemma I_stop : forall st, Inv st -> forall i, stat (nodes st i) = Stopped -> cancelled st = true.
  Proof. intros st HI i. exact (N_stop _ _ _ (I_node _ HI i)). Qed.

  Lemma I_failed : forall st, Inv st -> forall i, ph (nodes st i) = PFailed ->
    fails i (cnt (nodes st i)) = true /\ 1 <= i <= n.
  Proof. intros st HI i. exact (N_failed _ _ _ (I_node _ HI i)). Qed.

  Lemma I_passed : forall st, Inv st -> forall i k, 1 <= i <= n -> k < cnt (nodes st i) ->
    fails i k = false.
  Proof. intros st HI i k Hi. exact (N_passed _ _ _ (I_node _ HI i) Hi k). Qed.

  Lemma inv_init : Inv init.
  Proof.
    constructor; cbn; intros; try discriminate; auto.
    - constructor; cbn; intros; try discriminate; auto; unfold bounded; cbn; lia.
    - constructor; cbn; intros; [reflexivity | discriminate].
  Qed.

  Lemma errs_app_keep : forall (es : list err) e,
    first_is_failure es -> first_is_failure (es ++ [e]).
  Proof.
    intros es e (i & k & rest & -> & Hf & Hr). exists i, k, (rest ++ [e]). simpl. auto.
  Qed.

  Lemma node_ok_cancel : forall c i nd, node_ok c i nd -> node_ok true i nd.
  Proof. intros c i nd []. constructor; auto. Qed.

  Lemma node_ok_stop : forall c i nd, node_ok c i nd -> node_ok true i (stop_node nd).
  Proof. intros c i nd []. constructor; cbn; auto. discriminate. Qed.

  (* the channels do not notice a change of node i that keeps its counters, leaves it closed if it
     was, and makes it Done only when its input channel is closed *)
  Lemma links_keep : forall f i v,
    (forall j, chan_ok j (f j) (f (S j))) ->
    (i <= n -> sent v = sent (f i)) -> (1 <= i -> recv v = recv (f i)) ->
    (closedP (f i) -> closedP v) ->
    (stat v = Done -> forall i', i = S i' -> closedP (f i')) ->
    forall j, chan_ok j (upd f i v j) (upd f i v (S j)).
  Proof.
    intros f i v H Hs Hr Hc Hd. apply upd_links; [exact H| |].
    - intros i' ->. destruct (H i') as [C D]. constructor.
      + intros Hi. rewrite Hr by lia. apply C. exact Hi.
      + intros Dv. apply (Hd Dv i' eq_refl).
    - destruct (H i) as [C D]. constructor.
      + intros Hi. rewrite Hs by exact Hi. apply C. exact Hi.
      + intros Db. apply Hc, D, Db.
  Qed.

  Lemma inv_emit : forall e st, Inv st -> Inv (emit e st).
  Proof. intros e st []. constructor; assumption. Qed.

  Lemma inv_add_err : forall e st, Inv st -> cancelled st = true -> Inv (add_err e st).
  Proof.
    intros e st HI C. destruct HI. constructor; try assumption.
    right. split; [exact C|]. apply errs_app_keep. destruct I_err0 as [[C' _]|[_ F]]; [congruence | exact F].
  Qed.

  (* node i is replaced by v, nothing else changes: v must satisfy the node invariant, keep the
     counters its channels see, stay closed if it was, be Done only when its input channel is
     closed, and, at the sink, keep the count and be Done only when the result is out *)
  Lemma inv_set_node : forall st i v, Inv st ->
    node_ok (cancelled st) i v ->
    (i <= n -> sent v = sent (nodes st i)) -> (1 <= i -> recv v = recv (nodes st i)) ->
    (closedP (nodes st i) -> closedP v) ->
    (stat v = Done -> forall i', i = S i' -> closedP (nodes st i')) ->
    (i = S n -> cnt v = cnt (nodes st i) /\ (stat v = Done -> result st = Some (sinkacc st))) ->
    Inv (set_node st i v).
  Proof.
    intros st i v HI Hv Hs Hr Hc Hd Hk. constructor; cbn.
    - apply upd_forall; [apply HI | exact Hv].
    - apply links_keep; try assumption. apply HI.
    - destruct (Nat.eq_dec i (S n)) as [->|E].
      + rewrite upd_same, (proj1 (Hk eq_refl)). apply HI.
      + rewrite upd_other by auto. apply HI.
    - apply HI.
    - destruct (Nat.eq_dec i (S n)) as [->|E].
      + rewrite upd_same. apply (Hk eq_refl).
      + rewrite upd_other by auto. apply HI.
  Qed.

  Lemma inv_stop : forall st i, Inv st -> cancelled st = true ->
    Inv (set_node st i (stop_node (nodes st i))).
  Proof.
    intros st i HI C. apply inv_set_node; cbn; try reflexivity; try discriminate; [exact HI | | | ].
    - rewrite C. apply (node_ok_stop _ _ _ (I_node _ HI i)).
    - intros _. left. discriminate.
    - intros _. split; [reflexivity | discriminate].
  Qed.

  (* conc's addErr and cancel for a stage whose function failed: if no error was recorded before,
     the first one is this genuine failure *)
  Lemma inv_record_failure : forall st i, Inv st -> ph (nodes st i) = PFailed ->
    Inv (mkState (nodes st) true (errs st ++ [EFail i (cnt (nodes st i))]) (sinkacc st) (result st)
                 (trace_rev st)).
  Proof.
    intros st i HI P. destruct (I_failed _ HI i P) as [F Hi].
    pose proof (bounded_busy _ (I_bound _ HI i) ltac:(rewrite P; discriminate)) as B.
    constructor; cbn; try apply HI.
    - intros j. apply (node_ok_cancel _ _ _ (I_node _ HI j)).
    - right. split; [reflexivity|]. destruct (I_err _ HI) as [[_ E]|[_ E]].
      + rewrite E. exists i, (cnt (nodes st i)), []. auto.
      + apply errs_app_keep, E.
  Qed.

  (* a hand-over on channel i: the sender's [sent] and the receiver's [recv] go up together; the
     receiver stops at once (s = Stopped) when the context is cancelled *)
  Lemma inv_hand : forall st i s, Inv st -> i <= n ->
    stat (nodes st i) = Running -> ph (nodes st i) = PReady ->
    stat (nodes st (S i)) = Running -> ph (nodes st (S i)) = PIdle ->
    s <> Done -> (s = Stopped -> cancelled st = true) ->
    Inv (set_node (set_node st i (mkNode PIdle (S (cnt (nodes st i))) Running)) (S i)
                  (mkNode PHolding (cnt (nodes st i)) s)).
  Proof.
    intros st i s HI Hi Ra Pa Rb Pb Hs Hc.
    pose proof (I_chan _ HI i Hi) as E. unfold sent, recv in E. rewrite Pb in E.
    pose proof (bounded_busy _ (I_bound _ HI i) ltac:(rewrite Pa; discriminate)) as B.
    constructor; cbn.
    - apply upd_forall; [apply upd_forall; [apply HI|] |]; constructor; cbn; try discriminate; auto.
      + (* the sender has passed the item it hands over *)
        intros Hr k Hk. destruct (I_node _ HI i) as [_ _ _ _ _ _ Np Nr].
        destruct (Nat.eq_dec k (cnt (nodes st i))) as [->|Hne]; [apply Nr | apply Np; try lia]; assumption.
      + contradiction.
      + rewrite E. apply (I_node _ HI (S i)).
    - apply upd_links2; [apply HI | | | ].
      + intros i' ->. destruct (I_link _ HI i') as [C D]. constructor; [|discriminate].
        intros H. rewrite (C H). unfold recv. rewrite Pa. reflexivity.
      + constructor; cbn; [reflexivity | contradiction].
      + destruct (I_link _ HI (S i)) as [C D]. constructor.
        * intros H. rewrite <- (C H). exact E.
        * intros Dn. destruct (D Dn) as [X|X]; congruence.
    - destruct (Nat.eq_dec i n) as [->|Hne].
      + rewrite upd_same. cbn. rewrite E. apply HI.
      + rewrite !upd_other by lia. apply HI.
    - apply HI.
    - intros D. apply (I_result _ HI). revert D. destruct (Nat.eq_dec i n) as [->|Hne].
      + rewrite upd_same. cbn. contradiction.
      + rewrite !upd_other by lia. auto.
  Qed.

  (* an idle node returns nil: its input channel is closed (the source: its list is exhausted) *)
  Lemma inv_done : forall st i, Inv st ->
    stat (nodes st i) = Running -> ph (nodes st i) = PIdle ->
    (i = 0 -> cnt (nodes st i) = m) -> (forall i', i = S i' -> closedP (nodes st i')) ->
    (i = S n -> result st = Some (sinkacc st)) ->
    Inv (set_node st i (mkNode PIdle (cnt (nodes st i)) Done)).
  Proof.
    intros st i HI R P Hm Hc Hr. destruct (I_node _ HI i).
    apply inv_set_node; cbn; [exact HI | | reflexivity | | | auto | auto].
    - constructor; cbn; try discriminate; auto. unfold bounded in *. rewrite P in *. assumption.
    - intros _. unfold recv. rewrite P. reflexivity.
    - intros _. left. discriminate.
  Qed.

  Lemma inv_set_result : forall st, Inv st -> stat (nodes st (S n)) <> Done ->
    Inv (mkState (nodes st) (cancelled st) (errs st) (sinkacc st) (Some (sinkacc st)) (trace_rev st)).
  Proof. intros st [] D. constructor; cbn; try assumption. contradiction. Qed.

  Lemma step_inv : forall l st st', Inv st -> step l st = Some st' -> Inv st'.
  Proof.
    intros l st st' HI Hs.
    destruct l as [|i|i|i|i|i|i]; cbn [Pipe.step] in Hs; apply if_some in Hs as [G Hs].
    - (* Fetch *)
      rewrite andb_true_iff, live_true, Nat.ltb_lt in G. destruct G as ((R & P) & C).
      injection Hs as <-.
      apply inv_set_node; cbn; [exact HI | | reflexivity | lia | | discriminate | discriminate].
      + constructor; cbn; try discriminate; auto; lia.
      + intros [H|H]; congruence.
    - (* Hand *)
      rewrite !andb_true_iff, Nat.leb_le, !live_true in G. destruct G as ((Hi & Ra & Pa) & Rb & Pb).
      destruct (cancelled st) eqn:Cn; injection Hs as <-.
      + apply inv_add_err; [|exact Cn]. apply inv_hand; auto. discriminate.
      + apply inv_hand; auto; discriminate.
    - (* Begin *)
      rewrite !andb_true_iff, !Nat.leb_le, live_true in G. destruct G as ((H1 & Hi) & R & P).
      injection Hs as <-.
      destruct (I_node _ HI i) as [B _ _ _ _ _ Np _]. apply bounded_busy in B; [|rewrite P; discriminate].
      assert (HI' : Inv (set_node st i (mkNode PWorking (cnt (nodes st i)) Running))).
      { apply inv_set_node; cbn; [exact HI | | reflexivity | | | discriminate | ].
        - constructor; cbn; try discriminate; auto. lia.
        - intros _. unfold recv. rewrite P. reflexivity.
        - intros [H|H]; congruence.
        - intros _. split; [reflexivity | discriminate]. }
      destruct (i <=? n); [apply inv_emit|]; exact HI'.
    - (* End *)
      rewrite !andb_true_iff, !Nat.leb_le, live_true in G. destruct G as ((H1 & Hi) & R & P).
      destruct (I_node _ HI i) as [B _ _ _ _ _ Np _]. apply bounded_busy in B; [|rewrite P; discriminate].
      destruct (i <=? n) eqn:Hin; injection Hs as <-.
      + apply Nat.leb_le in Hin. apply inv_emit.
        apply inv_set_node; cbn; [exact HI | | reflexivity | | | discriminate | lia].
        * destruct (fails i (cnt (nodes st i))) eqn:F; constructor; cbn; try discriminate; auto; lia.
        * intros _. unfold recv. rewrite P. destruct (fails i (cnt (nodes st i))); reflexivity.
        * intros [H|H]; congruence.
      + (* the sink appends the item to its result *)
        apply Nat.leb_gt in Hin. assert (i = S n) by lia. subst i.
        constructor; cbn.
        * apply upd_forall; [apply HI|]. constructor; cbn; try discriminate; auto; lia.
        * apply links_keep; cbn; [apply HI | lia | | | discriminate].
          -- intros _. unfold recv. rewrite P. reflexivity.
          -- intros [H|H]; congruence.
        * rewrite upd_same. cbn. rewrite (I_sinkacc _ HI). symmetry. apply seq_S.
        * apply HI.
        * rewrite upd_same. discriminate.
    - (* Report *)
      rewrite !andb_true_iff, !Nat.leb_le, live_true in G. destruct G as ((H1 & Hi) & R & P).
      injection Hs as <-.
      exact (inv_stop _ i (inv_record_failure st i HI P) eq_refl).
    - (* CloseCh *)
      rewrite !andb_true_iff, Nat.leb_le, live_true in G. destruct G as ((Hi & R & P) & Hin).
      assert (Hm : i = 0 -> cnt (nodes st i) = m).
      { intros ->. apply Nat.eqb_eq. exact Hin. }
      assert (Hc : forall i', i = S i' -> closedP (nodes st i')).
      { intros i' ->. apply closed_true. exact Hin. }
      destruct ((i =? 0) || negb (cancelled st)) eqn:Cn; injection Hs as <-.
      + destruct (i =? S n) eqn:E.
        * apply Nat.eqb_eq in E. subst i.
          apply (inv_done _ (S n) (inv_set_result st HI ltac:(congruence))); auto.
        * apply inv_done; auto. apply Nat.eqb_neq in E. contradiction.
      + apply orb_false_iff in Cn as [_ Cn]. apply negb_false_iff in Cn.
        apply inv_add_err; [apply inv_stop|]; assumption.
    - (* ObserveCancel *)
      rewrite !andb_true_iff, Nat.leb_le in G. destruct G as ((Hi & C) & _).
      injection Hs as <-. apply inv_add_err; [apply inv_stop|]; assumption.
  Qed.

  Lemma run_inv : forall sched st, Inv st -> Inv (run sched st).
  Proof. apply (run_keeps _ _ step Inv step_inv). Qed.

  Lemma reachable_inv : forall sched, Inv (run sched init).
  Proof. intros. apply run_inv. apply inv_init. Qed.

  (* a further invariant whose preservation by a step may use [Inv] *)
  Lemma run_preserves : forall (P : state -> Prop),
    (forall l st st', Inv st -> P st -> step l st = Some st' -> P st') ->
    forall sched st, Inv st -> P st -> P (run sched st).
  Proof.
    intros P HP sched st HI H. apply (run_keeps _ _ step (fun s => Inv s /\ P s)); [|auto].
    intros l s s' [A B] E. split; [eapply step_inv|eapply HP]; eassumption.
  Qed.

End SeqProofs.
