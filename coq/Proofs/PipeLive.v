(* Proofs about Model/Pipe.v: deadlock freedom and termination of cpr.Seq's transition
   system: in every reachable non-terminal state a label is enabled; a progress measure grows
   with every effective step and is bounded, so schedules have at most [bound] effective steps
   and the canonical scheduler [drain] reaches a terminal state.                              *)
From Coq Require Import List Bool Arith PeanoNat Lia.
From Knut Require Import Model.Pipe Spec.PipeSpec Proofs.PipeCommon Proofs.PipeInv Proofs.PipeProofs.
Import ListNotations.

Fixpoint sum_upto (f : nat -> nat) (len : nat) : nat :=
  match len with 0 => 0 | S l => f l + sum_upto f l end.

Lemma sum_upto_mono : forall f g len, (forall j, f j <= g j) -> sum_upto f len <= sum_upto g len.
Proof. intros f g len H. induction len as [|l IH]; simpl; [lia|]. specialize (H l). lia. Qed.

Lemma sum_upto_lt : forall f g len i, (forall j, f j <= g j) -> i < len -> f i < g i ->
  sum_upto f len < sum_upto g len.
Proof.
  intros f g len i Hle. induction len as [|l IH]; intros Hi Hlt; [lia|]. simpl.
  destruct (Nat.eq_dec i l) as [->|Hne].
  - pose proof (sum_upto_mono f g l Hle). lia.
  - specialize (IH ltac:(lia) Hlt). specialize (Hle l). lia.
Qed.

Lemma sum_upto_le : forall f len b, (forall i, i < len -> f i <= b) -> sum_upto f len <= len * b.
Proof.
  induction len as [|l IH]; intros b H; simpl; [lia|].
  specialize (IH b ltac:(intros; apply H; lia)). specialize (H l ltac:(lia)). lia.
Qed.

Section SeqLive.
  Variable n m : nat.
  Variable fails : nat -> nat -> bool.

  Notation step := (step n m fails).
  Notation run := (run n m fails).
  Notation step_or_stay := (step_or_stay n m fails).
  Notation Inv := (Inv n m fails).
  Notation terminal := (terminal n).
  Notation enabled := (enabled n m fails).
  Notation pick := (pick n m fails).
  Notation drain := (drain n m fails).
  Notation effective := (effective n m fails).

  (* progress of one node: four points per item (idle, holding, working, ready or failed), and the
     maximum once it has returned *)
  Definition prog (nd : node) : nat :=
    if is_running nd then
      match ph nd with
      | PIdle => 4 * cnt nd
      | PHolding => 4 * cnt nd + 1
      | PWorking => 4 * cnt nd + 2
      | PReady | PFailed => 4 * cnt nd + 3
      end
    else 4 * m + 5.

  Definition mu (st : state) : nat := sum_upto (fun i => prog (nodes st i)) (n + 2).

  Lemma prog_le : forall st, Inv st -> forall i, prog (nodes st i) <= 4 * m + 5.
  Proof.
    intros st HI i. pose proof (I_bound _ _ _ _ HI i) as B. unfold bounded in B. unfold prog.
    destruct (is_running (nodes st i)); [|lia]. destruct (ph (nodes st i)); lia.
  Qed.

  Lemma mu_le : forall st, Inv st -> mu st <= bound n m.
  Proof.
    intros st HI. unfold mu, bound. apply sum_upto_le. intros i _. apply prog_le. assumption.
  Qed.

  (* a step makes progress at the node it rewrites *)
  Lemma mu_upd : forall st st' i v, nodes st' = upd (nodes st) i v -> i <= S n ->
    prog (nodes st i) < prog v -> mu st < mu st'.
  Proof.
    intros st st' i v E Hi Hlt. unfold mu. rewrite E. apply (sum_upto_lt _ _ _ i); [|lia|].
    - apply (upd_forall (fun j nd => prog (nodes st j) <= prog nd)); [intros j|]; lia.
    - rewrite upd_same. exact Hlt.
  Qed.

  Lemma prog_stop : forall st i v, Inv st -> stat (nodes st i) = Running -> stat v <> Running ->
    prog (nodes st i) < prog v.
  Proof.
    intros st i v HI R Hv. pose proof (I_bound _ _ _ _ HI i) as B. unfold bounded in B.
    unfold prog, is_running. rewrite R. destruct (stat v); [contradiction| |];
      destruct (ph (nodes st i)); lia.
  Qed.

  Lemma step_progress : forall l st st', Inv st -> step l st = Some st' -> mu st < mu st'.
  Proof.
    intros l st st' HI Hs.
    destruct l as [|i|i|i|i|i|i]; cbn [Pipe.step] in Hs; apply if_some in Hs as [G Hs].
    - (* Fetch *)
      rewrite andb_true_iff, live_true in G. destruct G as ((R & P) & _). injection Hs as <-.
      eapply mu_upd; [reflexivity | lia |]. unfold prog, is_running. cbn. rewrite R, P. lia.
    - (* Hand: first the sender, then the receiver *)
      rewrite !andb_true_iff, Nat.leb_le, !live_true in G. destruct G as ((Hi & Ra & Pa) & Rb & Pb).
      pose proof (I_chan _ _ _ _ HI i Hi) as E. unfold sent, recv in E. rewrite Pb in E.
      set (st1 := set_node st i (mkNode PIdle (S (cnt (nodes st i))) Running)) in *.
      apply (Nat.lt_trans _ (mu st1)).
      + eapply mu_upd; [reflexivity | lia |]. unfold prog, is_running. cbn. rewrite Ra, Pa. lia.
      + assert (Eb : nodes st1 (S i) = nodes st (S i)) by (apply upd_other; lia).
        pose proof (I_bound _ _ _ _ HI (S i)) as B. unfold bounded in B. rewrite Pb in B.
        destruct (cancelled st); injection Hs as <-; (eapply (mu_upd st1); [reflexivity | lia |]);
          rewrite Eb; unfold prog, is_running; cbn; rewrite Rb, Pb; lia.
    - (* Begin *)
      rewrite !andb_true_iff, !Nat.leb_le, live_true in G. destruct G as ((_ & Hi) & R & P).
      injection Hs as <-. apply (mu_upd st _ i (mkNode PWorking (cnt (nodes st i)) Running)).
      + destruct (i <=? n); reflexivity.
      + exact Hi.
      + unfold prog, is_running. cbn. rewrite R, P. lia.
    - (* End *)
      rewrite !andb_true_iff, !Nat.leb_le, live_true in G. destruct G as ((_ & Hi) & R & P).
      destruct (i <=? n); injection Hs as <-; (eapply mu_upd; [reflexivity | exact Hi |]);
        unfold prog, is_running; cbn; rewrite R, P; [destruct (fails _ _)|]; lia.
    - (* Report *)
      rewrite !andb_true_iff, !Nat.leb_le, live_true in G. destruct G as ((_ & Hi) & R & _).
      injection Hs as <-. eapply mu_upd; [reflexivity | lia |]. apply prog_stop; [exact HI | exact R | discriminate].
    - (* CloseCh *)
      rewrite !andb_true_iff, Nat.leb_le, live_true in G. destruct G as ((Hi & R & _) & _).
      destruct (_ || _); [destruct (i =? S n)|]; injection Hs as <-;
        (eapply mu_upd; [reflexivity | exact Hi |]); apply prog_stop; try assumption; discriminate.
    - (* ObserveCancel *)
      rewrite !andb_true_iff, Nat.leb_le in G. destruct G as ((Hi & _) & G). injection Hs as <-.
      eapply mu_upd; [reflexivity | exact Hi |]. apply prog_stop; [exact HI | | discriminate].
      rewrite orb_true_iff, andb_true_iff, !live_true in G. tauto.
  Qed.

  (* [mu] grows to at most [bound n m]: what is left of the bound is a decreasing measure *)
  Lemma step_rest : forall l st st', Inv st -> step l st = Some st' -> bound n m - mu st' < bound n m - mu st.
  Proof.
    intros l st st' HI E. pose proof (step_progress l st st' HI E).
    pose proof (mu_le st' (step_inv _ _ _ _ _ _ HI E)). lia.
  Qed.

  (* every schedule has at most [bound n m] effective steps *)
  Lemma effective_bound_from : forall sched st, Inv st -> effective sched st + mu st <= bound n m.
  Proof.
    intros sched st HI.
    assert (H : effective sched st <= bound n m - mu st)
      by exact (steps_le_mu _ _ step (fun s => bound n m - mu s) Inv (step_inv n m fails) step_rest sched st HI).
    pose proof (mu_le st HI). lia.
  Qed.

  Definition can_move (st : state) : Prop := exists l, In l (all_labels n) /\ enabled st l = true.

  Lemma can_move_at : forall st i l, i <= S n -> In l (labels_of i) -> enabled st l = true ->
    can_move st.
  Proof.
    intros st i l Hi Hl E. exists l. split; [|exact E]. right. apply in_flat_map. exists i.
    split; [apply in_seq; lia | exact Hl].
  Qed.

  Lemma en_fetch : forall st, stat (nodes st 0) = Running -> ph (nodes st 0) = PIdle ->
    cnt (nodes st 0) < m -> can_move st.
  Proof.
    intros st R P C. exists Fetch. split; [left; reflexivity|]. unfold Pipe.enabled. cbn [Pipe.step].
    rewrite (live_intro _ _ R P). apply Nat.ltb_lt in C. rewrite C. reflexivity.
  Qed.

  Lemma en_hand : forall st i, i <= n -> stat (nodes st i) = Running -> ph (nodes st i) = PReady ->
    stat (nodes st (S i)) = Running -> ph (nodes st (S i)) = PIdle -> can_move st.
  Proof.
    intros st i Hi Ra Pa Rb Pb. apply (can_move_at st i (Hand i)); [lia | simpl; auto |].
    unfold Pipe.enabled. cbn [Pipe.step]. apply Nat.leb_le in Hi.
    rewrite Hi, (live_intro _ _ Ra Pa), (live_intro _ _ Rb Pb). destruct (cancelled st); reflexivity.
  Qed.

  Lemma en_begin : forall st i, 1 <= i -> i <= S n -> stat (nodes st i) = Running ->
    ph (nodes st i) = PHolding -> can_move st.
  Proof.
    intros st i H1 Hi R P. apply (can_move_at st i (Begin i)); [lia | simpl; auto |].
    unfold Pipe.enabled. cbn [Pipe.step]. apply Nat.leb_le in H1, Hi.
    rewrite H1, Hi, (live_intro _ _ R P). reflexivity.
  Qed.

  Lemma en_end : forall st i, 1 <= i -> i <= S n -> stat (nodes st i) = Running ->
    ph (nodes st i) = PWorking -> can_move st.
  Proof.
    intros st i H1 Hi R P. apply (can_move_at st i (End i)); [lia | simpl; auto |].
    unfold Pipe.enabled. cbn [Pipe.step]. apply Nat.leb_le in H1, Hi.
    rewrite H1, Hi, (live_intro _ _ R P). destruct (i <=? n); reflexivity.
  Qed.

  Lemma en_report : forall st i, 1 <= i -> i <= n -> stat (nodes st i) = Running ->
    ph (nodes st i) = PFailed -> can_move st.
  Proof.
    intros st i H1 Hi R P. apply (can_move_at st i (Report i)); [lia | simpl; auto |].
    unfold Pipe.enabled. cbn [Pipe.step]. apply Nat.leb_le in H1, Hi.
    rewrite H1, Hi, (live_intro _ _ R P). reflexivity.
  Qed.

  Lemma en_close : forall st i, i <= S n -> stat (nodes st i) = Running -> ph (nodes st i) = PIdle ->
    (if i =? 0 then cnt (nodes st i) =? m else closed (nodes st (pred i))) = true -> can_move st.
  Proof.
    intros st i Hi R P B. apply (can_move_at st i (CloseCh i)); [lia | simpl; auto 6 |].
    unfold Pipe.enabled. cbn [Pipe.step]. apply Nat.leb_le in Hi. rewrite Hi, (live_intro _ _ R P), B.
    destruct (_ || _); [destruct (i =? S n)|]; reflexivity.
  Qed.

  Lemma en_observe_ready : forall st i, i <= S n -> cancelled st = true ->
    stat (nodes st i) = Running -> ph (nodes st i) = PReady -> can_move st.
  Proof.
    intros st i Hi C R P. apply (can_move_at st i (ObserveCancel i)); [lia | simpl; auto 7 |].
    unfold Pipe.enabled. cbn [Pipe.step]. apply Nat.leb_le in Hi. rewrite Hi, C, (live_intro _ _ R P).
    reflexivity.
  Qed.

  (* a node that holds an item, works on it or has failed can move by itself *)
  Lemma busy_can_move : forall st, Inv st -> forall i p, i <= S n -> stat (nodes st i) = Running ->
    ph (nodes st i) = p -> p <> PIdle -> p <> PReady -> can_move st.
  Proof.
    intros st HI i p Hi R P NI NR.
    assert (H1 : 1 <= i).
    { destruct i; [|lia]. destruct (I_src _ _ _ _ HI); congruence. }
    destruct p; try contradiction.
    - apply (en_begin st i); assumption.
    - apply (en_end st i); assumption.
    - apply (en_report st i); try assumption. apply (I_failed _ _ _ _ HI i P).
  Qed.

  (* a node blocked in Pop can move, or something upstream can *)
  Lemma idle_can_move : forall st, Inv st -> forall i, i <= S n ->
    stat (nodes st i) = Running -> ph (nodes st i) = PIdle -> can_move st.
  Proof.
    intros st HI. induction i as [|i IH]; intros Hi R P.
    - pose proof (I_bound _ _ _ _ HI 0) as B. unfold bounded in B. rewrite P in B.
      destruct (Nat.eq_dec (cnt (nodes st 0)) m) as [E|NE].
      + apply (en_close st 0); try assumption. apply Nat.eqb_eq. assumption.
      + apply en_fetch; try assumption. lia.
    - destruct (closed (nodes st i)) eqn:C; [apply (en_close st (S i)); assumption|].
      apply orb_false_iff in C. destruct C as [R' NF].
      apply negb_false_iff, is_running_true in R'.
      destruct (ph (nodes st i)) eqn:P'.
      + apply IH; [lia | assumption | reflexivity].
      + apply (busy_can_move st HI i _ ltac:(lia) R' P'); discriminate.
      + apply (busy_can_move st HI i _ ltac:(lia) R' P'); discriminate.
      + apply (en_hand st i); try assumption. lia.
      + discriminate.
  Qed.

  (* a node blocked in Push can move, or the next one is blocked in Push as well *)
  Lemma ready_next : forall st, Inv st -> forall i, i <= n ->
    stat (nodes st i) = Running -> ph (nodes st i) = PReady ->
    can_move st \/ (i < n /\ stat (nodes st (S i)) = Running /\ ph (nodes st (S i)) = PReady).
  Proof.
    intros st HI i Hi R P. destruct (stat (nodes st (S i))) eqn:S1.
    - destruct (ph (nodes st (S i))) eqn:P1.
      + left. apply (en_hand st i); assumption.
      + left. apply (busy_can_move st HI (S i) _ ltac:(lia) S1 P1); discriminate.
      + left. apply (busy_can_move st HI (S i) _ ltac:(lia) S1 P1); discriminate.
      + right. split; [|auto]. destruct (Nat.eq_dec i n) as [->|]; [|lia].
        destruct (I_sinkph _ _ _ _ HI) as [X|[X|X]]; congruence.
      + left. apply (busy_can_move st HI (S i) _ ltac:(lia) S1 P1); discriminate.
    - destruct (I_done _ _ _ _ HI (S i) S1) as (_ & _ & C). destruct (C ltac:(lia)); simpl in *; congruence.
    - left. apply (en_observe_ready st i); try assumption; [lia | apply (I_stop _ _ _ _ HI (S i) S1)].
  Qed.

  Lemma ready_can_move : forall st, Inv st -> forall d i, i + d = n ->
    stat (nodes st i) = Running -> ph (nodes st i) = PReady -> can_move st.
  Proof.
    intros st HI. induction d as [|d IH]; intros i Hd R P;
      (destruct (ready_next st HI i ltac:(lia) R P) as [M|(Hlt & R' & P')]; [exact M|]).
    - lia.
    - apply (IH (S i)); [lia | assumption..].
  Qed.

  Lemma running_can_move : forall st, Inv st -> forall i, i <= S n ->
    stat (nodes st i) = Running -> can_move st.
  Proof.
    intros st HI i Hi R. destruct (ph (nodes st i)) eqn:P.
    - apply (idle_can_move st HI i); assumption.
    - apply (busy_can_move st HI i _ Hi R P); discriminate.
    - apply (busy_can_move st HI i _ Hi R P); discriminate.
    - assert (i <= n).
      { destruct (Nat.eq_dec i (S n)) as [->|]; [|lia].
        destruct (I_sinkph _ _ _ _ HI) as [X|[X|X]]; congruence. }
      apply (ready_can_move st HI (n - i) i); [lia|assumption|assumption].
    - apply (busy_can_move st HI i _ Hi R P); discriminate.
  Qed.

  Lemma deadlock_free_inv : forall st, Inv st -> terminal st = false -> can_move st.
  Proof.
    intros st HI HT.
    assert (exists i, i <= S n /\ stat (nodes st i) = Running) as (i & Hi & R).
    { unfold Pipe.terminal in HT.
      assert (G : forall l, forallb (fun i => negb (is_running (nodes st i))) l = false ->
                  exists i, In i l /\ is_running (nodes st i) = true).
      { induction l as [|a l IHl]; simpl; [discriminate|]. intros H.
        apply andb_false_iff in H. destruct H as [H|H].
        - exists a. split; [left; reflexivity|]. apply negb_false_iff in H. assumption.
        - destruct (IHl H) as (x & X1 & X2). exists x. auto. }
      destruct (G _ HT) as (i & I1 & I2). apply in_seq in I1. apply is_running_true in I2.
      exists i. split; [lia|assumption]. }
    apply (running_can_move st HI i); assumption.
  Qed.

  Lemma pick_none_terminal : forall st, Inv st -> pick st = None -> terminal st = true.
  Proof.
    intros st HI HP. destruct (terminal st) eqn:T; [reflexivity|]. exfalso.
    destruct (deadlock_free_inv st HI T) as (l & L1 & L2).
    unfold Pipe.pick in HP. pose proof (find_none _ _ HP l L1). congruence.
  Qed.

  Lemma pick_some_enabled : forall st l, pick st = Some l -> exists st', step l st = Some st'.
  Proof.
    intros st l HP. unfold Pipe.pick in HP. apply find_some in HP. destruct HP as [_ E].
    unfold Pipe.enabled in E. destruct (step l st) as [st'|]; [eauto|discriminate].
  Qed.

  (* every guard asks for a running node among 0..n+1 *)
  Lemma terminal_no_step : forall st l, terminal st = true -> step l st = None.
  Proof.
    intros st l HT. rewrite (terminal_spec n) in HT.
    destruct (step l st) eqn:Hs; [exfalso|reflexivity].
    destruct l as [|i|i|i|i|i|i]; cbn [Pipe.step] in Hs; apply if_some in Hs as [G _];
      rewrite ?andb_true_iff, ?orb_true_iff, ?andb_true_iff, ?Nat.leb_le, ?live_true in G;
      decompose [and or] G; (eapply HT; [|eassumption]); lia.
  Qed.

  Lemma drain_terminal_from : forall fuel st, Inv st -> bound n m <= mu st + fuel ->
    terminal (drain fuel st) = true /\ Inv (drain fuel st).
  Proof.
    intros fuel st HI Hb. split.
    - apply (pick_finishes _ _ step (fun s => bound n m - mu s) Inv (step_inv n m fails) step_rest pick terminal
               pick_some_enabled pick_none_terminal); [exact HI|lia].
    - apply (pick_run_keeps _ _ step Inv (step_inv n m fails)). exact HI.
  Qed.

End SeqLive.
