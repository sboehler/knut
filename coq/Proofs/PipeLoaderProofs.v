(* Proofs about Model/PipeLoader.v: on an acyclic include graph (one with a rank function) the
   loader terminates by channel closure under every schedule, and without errors the consumer
   receives exactly the multiset of files of the include tree; a self-include spawns forever.
   What the proofs about the loader models share is in Proofs/PipeCommon.v. *)
From Coq Require Import List Bool Arith PeanoNat Lia Permutation.
From Knut Require Import Proofs.ListFacts Model.PipeLoader Proofs.PipeCommon.
Import ListNotations.

Lemma nth_error_set_nth_len : forall (A : Type) (l : list A) t v, length (set_nth l t v) = length l.
Proof. induction l as [|x l IH]; intros [|t] v; simpl; auto. Qed.

Section LoaderProofs.
  Variable inc : nat -> list nat.
  Variable bad cbad : nat -> bool.

  Notation lstep := (lstep inc bad cbad).
  Notation lrun := (lrun inc bad cbad).
  Notation lstep_or_stay := (lstep_or_stay inc bad cbad).
  Notation leffective := (leffective inc bad cbad).
  Notation linit := (linit inc).
  Notation ldrain := (ldrain inc bad cbad).

  Variable rank : nat -> nat.
  Hypothesis Hrank : forall f g, In g (inc f) -> rank g < rank f.

  (* the files of the include tree below f, one copy per include path ([rank f] is fuel enough) *)
  Definition E (f : nat) : list nat := expand inc (rank f) f.
  (* the steps that the task of f and the tasks below it can take: two of its own (parsed; pushed or
     cancelled), and for every include directive the spawn and the steps below the included file *)
  Definition W (f : nat) : nat := wt inc (rank f) f.

  Lemma rank0_noinc : forall f, rank f = 0 -> inc f = [].
  Proof.
    intros f H. destruct (inc f) as [|g r] eqn:I; [reflexivity|].
    pose proof (Hrank f g) as R. rewrite I in R. specialize (R (or_introl eq_refl)). lia.
  Qed.

  Lemma inc_ind : forall P : nat -> Prop, (forall f, (forall g, In g (inc f) -> P g) -> P f) -> forall f, P f.
  Proof.
    intros P H f. remember (rank f) as n eqn:E. revert f E. induction n as [n IH] using lt_wf_ind.
    intros f ->. apply H. intros g Hg. exact (IH (rank g) (Hrank f g Hg) g eq_refl).
  Qed.

  Lemma expand_stable : forall d f, rank f <= d -> expand inc d f = E f.
  Proof.
    induction d as [d IH] using lt_wf_ind. intros f Hf. unfold E.
    destruct d as [|d].
    - replace (rank f) with 0 by lia. reflexivity.
    - destruct (rank f) as [|r] eqn:R.
      + simpl. rewrite (rank0_noinc f R). reflexivity.
      + simpl. f_equal. apply flat_map_ext_in. intros g Hg.
        pose proof (Hrank f g Hg). rewrite (IH d ltac:(lia) g ltac:(lia)).
        rewrite (IH r ltac:(lia) g ltac:(lia)). reflexivity.
  Qed.

  Lemma E_unfold : forall f, E f = [f] ++ flat_map E (inc f).
  Proof.
    intros f. unfold E at 1. destruct (rank f) as [|r] eqn:R.
    - simpl. rewrite (rank0_noinc f R). reflexivity.
    - simpl. f_equal. apply flat_map_ext_in. intros g Hg. pose proof (Hrank f g Hg).
      apply expand_stable. lia.
  Qed.

  Lemma wt_stable : forall d f, rank f <= d -> wt inc d f = W f.
  Proof.
    induction d as [d IH] using lt_wf_ind. intros f Hf. unfold W.
    destruct d as [|d].
    - replace (rank f) with 0 by lia. reflexivity.
    - destruct (rank f) as [|r] eqn:R.
      + simpl. rewrite (rank0_noinc f R). reflexivity.
      + simpl. do 3 f_equal. apply map_ext_in. intros g Hg.
        pose proof (Hrank f g Hg). rewrite (IH d ltac:(lia) g ltac:(lia)).
        rewrite (IH r ltac:(lia) g ltac:(lia)). reflexivity.
  Qed.

  Lemma W_unfold : forall f, W f = 2 + list_sum (map (fun g => 1 + W g) (inc f)).
  Proof.
    intros f. unfold W at 1. destruct (rank f) as [|r] eqn:R.
    - simpl. rewrite (rank0_noinc f R). reflexivity.
    - simpl. do 3 f_equal. apply map_ext_in. intros g Hg. pose proof (Hrank f g Hg).
      f_equal. apply wt_stable. lia.
  Qed.

  (* the steps a task can still cause: [W] of its file less what it has done; a task that is ready has
     its push (or the observed cancellation) left *)
  Definition tw (t : ptask) : nat :=
    match t_st t with
    | Parsing rest => 2 + list_sum (map (fun g => 1 + W g) rest)
    | PRdy => 1
    | _ => 0
    end.

  (* one more step each for the close of syntaxCh and for the consumer seeing it *)
  Definition lmu (st : lstate) : nat :=
    list_sum (map tw (tasks st)) + (if syn_closed st then 0 else 1) + (if finished st then 0 else 1).

  Lemma tw_fresh : forall f, tw (mkTask f (Parsing (inc f))) = W f.
  Proof. intros f. symmetry. apply W_unfold. Qed.

  Lemma tw_spawn : forall f g rest,
    tw (mkTask f (Parsing (g :: rest))) = 1 + W g + tw (mkTask f (Parsing rest)).
  Proof. intros. unfold tw. simpl. lia. Qed.

  Lemma lstep_decreases : forall l st st', lstep l st = Some st' -> lmu st' < lmu st.
  Proof.
    intros l st st' Hs. unfold lmu. destruct l as [t|t|t|t| |]; simpl in Hs.
    1-4: destruct (nth_error (tasks st) t) as [[f [[|g rest]| | | |]]|] eqn:N; try discriminate.
    - injection Hs as <-. unfold set_task. cbn [tasks syn_closed finished].
      pose proof (sum_move tw _ _ (mkTask f (Parsing rest)) _ [mkTask g (Parsing (inc g))] N) as S.
      cbn [map list_sum fold_right] in S. rewrite tw_fresh, tw_spawn in S. lia.
    - pose proof (fun s' => sum_move tw _ _ (mkTask f s') _ [] N) as S.
      destruct (bad f); injection Hs as <-; simpl;
        [specialize (S PFail)|specialize (S PRdy)]; cbn in S; lia.
    - injection Hs as <-. simpl. pose proof (sum_move tw _ _ (mkTask f PPushed) _ [] N) as S. cbn in S. lia.
    - destruct (lcancel st); [|discriminate]. injection Hs as <-. simpl.
      pose proof (sum_move tw _ _ (mkTask f PCancel) _ [] N) as S. cbn in S. lia.
    - destruct (syn_closed st); [discriminate|].
      destruct (forallb task_terminal (tasks st)); [|discriminate]. injection Hs as <-. simpl. lia.
    - destruct (syn_closed st); [|discriminate]. destruct (finished st); [discriminate|].
      injection Hs as <-. simpl. lia.
  Qed.

  Lemma leffective_bound_from : forall sched st, leffective sched st <= lmu st.
  Proof.
    intros sched st. apply (steps_le_mu _ _ lstep lmu (fun _ => True)); eauto using lstep_decreases.
  Qed.

  Lemma lmu_init : forall root, lmu (linit root) = W root + 2.
  Proof. intros. unfold lmu, PipeLoader.linit. cbn [tasks syn_closed finished map]. rewrite tw_fresh. simpl. lia. Qed.

  Lemma lrun_lmu : forall sched st, lmu (lrun sched st) <= lmu st.
  Proof.
    intros sched st. apply (run_mu_le _ _ lstep lmu (fun _ => True)); eauto using lstep_decreases.
  Qed.

  Lemma first_move_enabled : forall ts pre l st, tasks st = pre ++ ts -> first_move ts (length pre) = Some l ->
    exists st', lstep l st = Some st'.
  Proof.
    induction ts as [|[f s] ts IH]; intros pre l st T H; simpl in H; [discriminate|].
    assert (N : nth_error (tasks st) (length pre) = Some (mkTask f s))
      by (rewrite T, nth_error_app2, Nat.sub_diag; auto).
    destruct s as [[|g rest]| | | |];
      try (injection H as <-; simpl; rewrite N; try destruct (bad f); eauto; fail).
    all: eapply (IH (pre ++ [_])); [rewrite <- app_assoc; exact T|].
    all: rewrite app_length, Nat.add_1_r; exact H.
  Qed.

  Lemma first_move_none : forall ts off, first_move ts off = None -> forallb task_terminal ts = true.
  Proof.
    induction ts as [|[f s] ts IH]; intros off H; simpl in *; [reflexivity|].
    destruct s as [[|g rest]| | | |]; try discriminate; unfold task_terminal at 1; simpl; eapply IH; eassumption.
  Qed.

  Lemma lpick_enabled : forall st l, lpick st = Some l -> exists st', lstep l st = Some st'.
  Proof.
    intros st l H. unfold lpick in H.
    destruct (finished st) eqn:F; [discriminate|].
    destruct (syn_closed st) eqn:C.
    - injection H as <-. simpl. rewrite C, F. simpl. eauto.
    - destruct (first_move (tasks st) 0) as [l'|] eqn:M; injection H as <-.
      + apply (first_move_enabled (tasks st) []); auto.
      + simpl. rewrite C. simpl. rewrite (first_move_none _ _ M). eauto.
  Qed.

  Lemma ldrain_finishes_from : forall fuel st, lmu st <= fuel -> finished (ldrain fuel st) = true.
  Proof.
    intros fuel st. apply (pick_finishes _ _ lstep lmu (fun _ => True)); eauto using lstep_decreases, lpick_enabled.
    intros st0 _ P. unfold lpick in P. destruct (finished st0); [reflexivity|].
    destruct (syn_closed st0); [discriminate|]. destruct (first_move (tasks st0) 0); discriminate.
  Qed.

  (* where a file of the include tree currently is, if it has not been handed to the consumer *)
  Definition pending (t : ptask) : list nat :=
    match t_st t with
    | Parsing rest => [t_file t] ++ flat_map E rest
    | PPushed => []
    | _ => [t_file t]
    end.

  Notation cnt := (count_occ Nat.eq_dec).

  Record LInv (root : nat) (st : lstate) : Prop := {
    L_count : forall x, cnt (got st ++ flat_map pending (tasks st)) x = cnt (E root) x;
    L_nocancel : lcancel st = false;
    L_noerr : perrs st = [];
    L_live : forall t, In t (tasks st) -> t_st t <> PFail /\ t_st t <> PCancel;
    L_closed : syn_closed st = true -> forallb task_terminal (tasks st) = true;
    L_finished : finished st = true -> syn_closed st = true
  }.

  Hypothesis Hnobad : forall f, bad f = false.

  Lemma linv_init : forall root, LInv root (linit root).
  Proof.
    intros root. constructor; simpl; try reflexivity; try discriminate.
    - intros x. unfold pending. simpl. rewrite app_nil_r. rewrite (E_unfold root). reflexivity.
    - intros t [<-|[]]. simpl. split; discriminate.
  Qed.

  Lemma lstep_linv : forall root l st st', LInv root st -> lstep l st = Some st' -> LInv root st'.
  Proof.
    intros root l st st' HI Hs. destruct HI as [Hc Hn He Hl Hcl Hf].
    destruct l as [t|t|t|t| |]; simpl in Hs.
    1-4: destruct (nth_error (tasks st) t) as [[f [[|g rest]| | | |]]|] eqn:N; try discriminate.
    (* a task that moves is not terminal: syntaxCh is still open *)
    1-4: assert (SC : syn_closed st = true -> False)
           by (intros C; pose proof (forallb_nth _ _ _ _ (Hcl C) N); discriminate).
    - injection Hs as <-. constructor; simpl; auto.
      + intros x. rewrite <- (Hc x).
        pose proof (cnt_move pending _ _ (mkTask f (Parsing rest)) _ [mkTask g (Parsing (inc g))] x N) as S.
        cbn [pending t_st t_file flat_map] in S. rewrite <- (E_unfold g), app_nil_r in S.
        rewrite !count_occ_app in *. lia.
      + apply all_snoc; [apply all_set_nth; [exact Hl|]|]; simpl; split; discriminate.
    - rewrite Hnobad in Hs. injection Hs as <-. constructor; simpl; auto; rewrite app_nil_r.
      + rewrite (flat_map_set_nth_same pending _ _ (mkTask f PRdy) _ N eq_refl). exact Hc.
      + apply all_set_nth; [exact Hl|]. simpl. split; discriminate.
    - injection Hs as <-. constructor; simpl; auto; rewrite app_nil_r.
      + intros x. rewrite <- (Hc x). pose proof (cnt_set_nth pending _ _ (mkTask f PPushed) _ x N) as S.
        cbn [pending t_st t_file] in S. rewrite count_occ_nil in S. rewrite !count_occ_app. lia.
      + apply all_set_nth; [exact Hl|]. simpl. split; discriminate.
    - rewrite Hn in Hs. discriminate.
    - destruct (negb (syn_closed st) && forallb task_terminal (tasks st)) eqn:C; [|discriminate].
      apply andb_true_iff in C. destruct C as [_ C].
      injection Hs as <-. constructor; simpl; auto.
    - destruct (syn_closed st && negb (finished st)) eqn:C; [|discriminate].
      apply andb_true_iff in C. destruct C as [C _].
      injection Hs as <-. constructor; simpl; auto.
  Qed.

  Lemma lrun_linv : forall root sched st, LInv root st -> LInv root (lrun sched st).
  Proof. intros root. apply (run_keeps _ _ lstep (LInv root)). apply lstep_linv. Qed.

  Lemma terminal_pending_nil : forall l, forallb task_terminal l = true ->
    (forall t, In t l -> t_st t <> PFail /\ t_st t <> PCancel) -> flat_map pending l = [].
  Proof.
    intros l F L. apply flat_map_nil. intros [f s] Hx. rewrite forallb_forall in F.
    pose proof (F _ Hx) as T. destruct (L _ Hx) as [A B]. simpl in A, B.
    destruct s; try discriminate T; try reflexivity; congruence.
  Qed.

  Lemma finished_loaded : forall root st, LInv root st -> finished st = true ->
    Permutation (got st) (E root) /\ perrs st = [].
  Proof.
    intros root st HI F. destruct HI as [Hc Hn He Hl Hcl Hf]. split; [|assumption].
    apply (Permutation_count_occ Nat.eq_dec). intros x. rewrite <- (Hc x).
    rewrite (terminal_pending_nil _ (Hcl (Hf F)) Hl), app_nil_r. reflexivity.
  Qed.

End LoaderProofs.

(* a file that includes itself: the schedule Spawn 0, Spawn 1, ..., Spawn (k-1) is effective at
   every step, for every k: no bound on the number of steps, tasks and loaded copies *)
Section SelfInclude.
  Let inc1 (f : nat) : list nat := [f].
  Let nb (f : nat) : bool := false.

  Lemma set_nth_last : forall (A : Type) (pre : list A) x v, set_nth (pre ++ [x]) (length pre) v = pre ++ [v].
  Proof. induction pre as [|y pre IH]; intros; simpl; [reflexivity|]. rewrite IH. reflexivity. Qed.

  Lemma self_include_spawns : forall k pre c s g p e f,
    leffective inc1 nb nb (map LSpawn (seq (length pre) k))
      (mkL (pre ++ [mkTask 0 (Parsing [0])]) c s g p e f) = k.
  Proof.
    induction k as [|k IH]; intros; simpl; [reflexivity|].
    rewrite nth_error_app2, Nat.sub_diag by auto. simpl. f_equal. unfold set_task. simpl. rewrite set_nth_last.
    rewrite <- app_assoc. simpl.
    specialize (IH (pre ++ [mkTask 0 (Parsing [])]) c s g p e f).
    rewrite app_length in IH. simpl in IH. rewrite Nat.add_1_r in IH.
    rewrite <- app_assoc in IH. simpl in IH. exact IH.
  Qed.
End SelfInclude.
