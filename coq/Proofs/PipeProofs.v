(* Proofs about Model/Pipe.v: consequences of the invariant (Proofs/PipeInv.v):
   ownership, order, conservation, deadlock freedom, termination, error propagation.         *)
From Coq Require Import List Bool Arith PeanoNat Lia.
From Knut Require Import Model.Pipe Spec.PipeSpec Proofs.PipeInv.
Import ListNotations.

Section SeqProofs2.
  Variable n m : nat.
  Variable fails : nat -> nat -> bool.

  Notation step := (step n m fails).
  Notation run := (run n m fails).
  Notation step_or_stay := (step_or_stay n m fails).
  Notation Inv := (Inv n m fails).
  Notation terminal := (terminal n).
  Notation enabled := (enabled n m fails).

  Lemma sent_le_recv : forall nd, sent nd <= recv nd.
  Proof. intros nd. unfold sent, recv. destruct (ph nd); lia. Qed.

  Lemma sent_le_ended : forall nd, sent nd <= ended nd.
  Proof. intros nd. unfold sent, ended. destruct (ph nd); lia. Qed.

  Lemma recv_antitone : forall st, Inv st -> forall i j, i <= j -> j <= S n ->
    recv (nodes st j) <= recv (nodes st i).
  Proof.
    intros st HI i j Hij. induction Hij as [|j Hij IH]; intros Hj; [lia|].
    rewrite <- (I_chan _ _ _ _ HI j ltac:(lia)). pose proof (sent_le_recv (nodes st j)).
    specialize (IH ltac:(lia)). lia.
  Qed.

  Lemma held_spec : forall nd k, In k (held nd) <-> ph nd <> PIdle /\ cnt nd = k.
  Proof. intros nd k. unfold held. destruct (ph nd); simpl; intuition congruence. Qed.

  (* ownership: of two nodes holding items, the downstream one holds a strictly earlier item *)
  Lemma ownership_inv : forall st, Inv st -> forall i j k k',
    i < j -> j <= S n -> holds (nodes st i) k -> holds (nodes st j) k' -> k' < k.
  Proof.
    intros st HI i j k k' Hij Hj Hi Hk'. unfold holds in *.
    apply held_spec in Hi. apply held_spec in Hk'. destruct Hi as [Pi Ci]. destruct Hk' as [Pj Cj].
    pose proof (recv_antitone st HI (S i) j ltac:(lia) Hj) as A.
    pose proof (I_chan _ _ _ _ HI i ltac:(lia)) as E.
    unfold sent in E. unfold recv in A at 1. destruct (ph (nodes st j)); try congruence; lia.
  Qed.

  (* a node holds item k only after its predecessor has finished (ended and handed over) k *)
  Lemma predecessor_finished_inv : forall st, Inv st -> forall i k,
    1 <= i -> i <= S n -> holds (nodes st i) k ->
    k < ended (nodes st (pred i)) /\ k < sent (nodes st (pred i)).
  Proof.
    intros st HI i k H1 Hi Hh. apply held_spec in Hh. destruct Hh as [P C].
    destruct i as [|i']; [lia|]. simpl.
    pose proof (I_chan _ _ _ _ HI i' ltac:(lia)) as E.
    pose proof (sent_le_ended (nodes st i')).
    unfold recv in E. destruct (ph (nodes st (S i'))); try congruence; lia.
  Qed.

  (* order: whenever a hand-over on channel i happens, the item handed over is exactly the next
     one the receiver expects: the receiver has received items 0..k-1 and now gets k *)
  Lemma hand_in_order : forall st st' i, Inv st -> step (Hand i) st = Some st' ->
    recv (nodes st (S i)) = cnt (nodes st i) /\
    ph (nodes st' (S i)) = PHolding /\ cnt (nodes st' (S i)) = cnt (nodes st i).
  Proof.
    intros st st' i HI Hs. cbn [Pipe.step] in Hs. apply if_some in Hs as [G Hs].
    rewrite !andb_true_iff, Nat.leb_le, !live_true in G. destruct G as ((Hi & _) & _ & Pb).
    pose proof (I_chan _ _ _ _ HI i Hi) as E. unfold sent in E.
    destruct (cancelled st); injection Hs as <-; cbn; rewrite upd_same; auto.
  Qed.

  Lemma inflight_chain : forall st, Inv st -> forall len j,
    1 <= len -> j + len = n + 2 ->
    sinkacc st ++ inflight_from (nodes st) j len = seq 0 (recv (nodes st j)).
  Proof.
    intros st HI. induction len as [|len IH]; intros j Hl Hj; [lia|].
    simpl. destruct len as [|len'].
    - simpl. assert (j = S n) by lia. subst j.
      rewrite (I_sinkacc _ _ _ _ HI). unfold held, recv.
      destruct (I_sinkph _ _ _ _ HI) as [P|[P|P]]; rewrite P.
      + rewrite app_nil_r. reflexivity.
      + symmetry. apply (seq_S (cnt (nodes st (S n))) 0).
      + symmetry. apply (seq_S (cnt (nodes st (S n))) 0).
    - rewrite app_assoc. rewrite (IH (S j)); [|lia|lia].
      pose proof (I_chan _ _ _ _ HI j ltac:(lia)) as E. rewrite <- E.
      unfold sent, held, recv. destruct (ph (nodes st j));
        try (symmetry; apply (seq_S (cnt (nodes st j)) 0)).
      rewrite app_nil_r. reflexivity.
  Qed.

  Lemma conservation_inv : forall st, Inv st ->
    sinkacc st ++ inflight n st ++ unsent m st = seq 0 m.
  Proof.
    intros st HI. unfold inflight, unsent. rewrite app_assoc.
    rewrite (inflight_chain st HI (S n) 1); [|lia|lia].
    pose proof (I_chan _ _ _ _ HI 0 ltac:(lia)) as E. rewrite <- E.
    pose proof (I_bound _ _ _ _ HI 0) as B. unfold bounded in B.
    assert (sent (nodes st 0) <= m) by (unfold sent; destruct (ph (nodes st 0)); lia).
    replace m with (sent (nodes st 0) + (m - sent (nodes st 0))) at 2 by lia.
    rewrite seq_app. reflexivity.
  Qed.

  (* the sink only ever holds a prefix of the source list *)
  Lemma sink_prefix_inv : forall st, Inv st ->
    sinkacc st = seq 0 (length (sinkacc st)) /\ length (sinkacc st) <= m.
  Proof.
    intros st HI. rewrite (I_sinkacc _ _ _ _ HI). rewrite seq_length. split; [reflexivity|].
    pose proof (I_bound _ _ _ _ HI (S n)) as B. unfold bounded in B.
    destruct (ph (nodes st (S n))); lia.
  Qed.

  Definition no_failure_fired (st : state) : Prop := forall i, ph (nodes st i) <> PFailed.

  Lemma terminal_spec : forall st, terminal st = true <-> forall i, i <= S n -> stat (nodes st i) <> Running.
  Proof.
    intros st. unfold Pipe.terminal. rewrite forallb_forall. split.
    - intros H i Hi. specialize (H i). rewrite in_seq in H. specialize (H ltac:(lia)).
      apply negb_true_iff in H. intro E. apply is_running_true in E. congruence.
    - intros H i Hi. apply in_seq in Hi. apply negb_true_iff.
      destruct (is_running (nodes st i)) eqn:E; [|reflexivity].
      apply is_running_true in E. exfalso. apply (H i); [lia|assumption].
  Qed.

  (* in a terminal state without a recorded error every node is Done with count m *)
  Lemma all_done_counts : forall st, Inv st -> terminal st = true -> cancelled st = false ->
    forall i, i <= S n -> stat (nodes st i) = Done /\ ph (nodes st i) = PIdle /\ cnt (nodes st i) = m.
  Proof.
    intros st HI HT HC. rewrite terminal_spec in HT.
    assert (HD : forall i, i <= S n -> stat (nodes st i) = Done).
    { intros i Hi. specialize (HT i Hi). destruct (stat (nodes st i)) eqn:E; try congruence.
      pose proof (I_stop _ _ _ _ HI i E). congruence. }
    induction i as [|i IH]; intros Hi.
    - destruct (I_done _ _ _ _ HI 0 (HD 0 Hi)) as (A & B & _). auto.
    - destruct (IH ltac:(lia)) as (D0 & P0 & C0).
      destruct (I_done _ _ _ _ HI (S i) (HD (S i) Hi)) as (A & _ & _).
      repeat split; auto.
      pose proof (I_chan _ _ _ _ HI i ltac:(lia)) as E. unfold sent, recv in E.
      rewrite A in E. lia.
  Qed.

  Lemma no_error_not_cancelled : forall st, Inv st -> errs st = [] -> cancelled st = false.
  Proof.
    intros st HI HE. destruct (I_err _ _ _ _ HI) as [[A _]|[_ (i & k & r & E & _)]]; [assumption|congruence].
  Qed.

  Lemma success_result : forall st, Inv st -> terminal st = true -> errs st = [] ->
    result st = Some (seq 0 m) /\ sinkacc st = seq 0 m /\ outcome_of st = Success (seq 0 m).
  Proof.
    intros st HI HT HE. pose proof (no_error_not_cancelled st HI HE) as HC.
    destruct (all_done_counts st HI HT HC (S n) (le_n _)) as (D & P & C).
    pose proof (I_result _ _ _ _ HI D) as R. pose proof (I_sinkacc _ _ _ _ HI) as S.
    rewrite C in S. rewrite S in R. unfold outcome_of. rewrite HE, R. auto.
  Qed.

  (* without failing stage functions nothing is ever cancelled or recorded *)
  Lemma nofail_no_cancel : forall st, Inv st ->
    (forall i k, 1 <= i <= n -> k < m -> fails i k = false) -> cancelled st = false /\ errs st = [].
  Proof.
    intros st HI NF. destruct (I_err _ _ _ _ HI) as [[A B]|[_ (i & k & r & E & F & R & K)]]; [auto|].
    rewrite (NF i k R K) in F. discriminate.
  Qed.

  Lemma failure_outcome : forall st, Inv st -> errs st <> [] ->
    exists i k, outcome_of st = Failure (EFail i k) /\ fails i k = true /\ 1 <= i <= n /\ k < m.
  Proof.
    intros st HI HE. destruct (I_err _ _ _ _ HI) as [[_ B]|[_ (i & k & r & E & F & R & K)]]; [congruence|].
    exists i, k. unfold outcome_of. rewrite E. auto.
  Qed.

  Lemma fired_recorded : forall st, Inv st -> terminal st = true ->
    (exists i, i <= S n /\ ph (nodes st i) = PFailed) -> errs st <> [].
  Proof.
    intros st HI HT (i & Hi & P). rewrite terminal_spec in HT. specialize (HT i Hi).
    destruct (stat (nodes st i)) eqn:E; try congruence.
    - destruct (I_done _ _ _ _ HI i E) as (A & _). congruence.
    - pose proof (I_stop _ _ _ _ HI i E) as C.
      destruct (I_err _ _ _ _ HI) as [[A _]|[_ (i0 & k & r & E' & _)]]; [congruence|].
      rewrite E'. discriminate.
  Qed.

End SeqProofs2.
