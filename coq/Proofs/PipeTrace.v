(* Proofs about Model/Pipe.v: the event traces.  [trace_ok] decides [tr_spec]; every run
   of the transition system emits a trace satisfying it (completeness); what [tr_spec] implies
   (order per stage, alternation, hand-over precedence, projection onto a stage).            *)
From Coq Require Import List Bool Arith PeanoNat Lia.
From Knut Require Import Model.Pipe Spec.PipeSpec Proofs.PipeInv Proofs.PipeProofs.
Import ListNotations.

Definition ev_match (i : nat) (p : evphase) (e : event) : bool :=
  (ev_stage e =? i) && evphase_eqb (ev_ph e) p.

Lemma count_ev_cons : forall i p e l,
  count_ev i p (e :: l) = (if ev_match i p e then 1 else 0) + count_ev i p l.
Proof. intros. unfold count_ev, ev_match. simpl. destruct ((ev_stage e =? i) && evphase_eqb (ev_ph e) p); reflexivity. Qed.

Lemma count_ev_app : forall i p l1 l2, count_ev i p (l1 ++ l2) = count_ev i p l1 + count_ev i p l2.
Proof. intros. unfold count_ev. rewrite filter_app, app_length. reflexivity. Qed.

Lemma count_ev_rev : forall i p l, count_ev i p (rev l) = count_ev i p l.
Proof.
  induction l as [|e l IH]; [reflexivity|]. simpl. rewrite count_ev_app, IH.
  rewrite (count_ev_cons i p e l). rewrite (count_ev_cons i p e []). unfold count_ev at 2. simpl. lia.
Qed.

Lemma evphase_eqb_eq : forall a b, evphase_eqb a b = true <-> a = b.
Proof. destruct a, b; simpl; split; intro; try reflexivity; discriminate. Qed.

Lemma ev_ok_b_spec : forall n pre e, ev_ok_b n pre e = true <-> ev_ok n pre e.
Proof.
  intros n pre e. unfold ev_ok_b, ev_ok. destruct (ev_ph e).
  - rewrite !andb_true_iff, orb_true_iff, Nat.leb_le, Nat.leb_le, !Nat.eqb_eq, Nat.ltb_lt, forallb_forall.
    assert (F : (forall x, In x (seq 1 (n - ev_stage e)) ->
                   (ev_item e <=? count_ev (ev_stage e + x) EvEnd pre + x) = true) <->
                (forall j, 1 <= j -> ev_stage e + j <= n ->
                   ev_item e <= count_ev (ev_stage e + j) EvEnd pre + j)).
    { split.
      - intros H j H1 H2. apply Nat.leb_le. apply H. apply in_seq. lia.
      - intros H x Hx. apply in_seq in Hx. apply Nat.leb_le. apply H; lia. }
    rewrite F. tauto.
  - rewrite !andb_true_iff, Nat.leb_le, Nat.leb_le, !Nat.eqb_eq. tauto.
Qed.

Lemma ev_ok_rev : forall n pre e, ev_ok n (rev pre) e <-> ev_ok n pre e.
Proof.
  intros. unfold ev_ok. rewrite !count_ev_rev.
  assert (F : (forall j, 1 <= j -> ev_stage e + j <= n ->
                 ev_item e <= count_ev (ev_stage e + j) EvEnd (rev pre) + j) <->
              (forall j, 1 <= j -> ev_stage e + j <= n ->
                 ev_item e <= count_ev (ev_stage e + j) EvEnd pre + j)).
  { split; intros H j H1 H2; specialize (H j H1 H2); rewrite count_ev_rev in *; assumption. }
  destruct (ev_ph e); [rewrite F|]; tauto.
Qed.

Lemma trace_ok_aux_spec : forall n tr pre,
  trace_ok_aux n (rev pre) tr = true <->
  (forall p e q, tr = p ++ e :: q -> ev_ok n (pre ++ p) e).
Proof.
  intros n. induction tr as [|a tr IH]; intros pre; simpl.
  - split; [|reflexivity]. intros _ p e q H. destruct p; discriminate.
  - rewrite andb_true_iff, ev_ok_b_spec, ev_ok_rev.
    replace (a :: rev pre) with (rev (pre ++ [a])) by (rewrite rev_app_distr; reflexivity).
    rewrite IH. split.
    + intros [H0 H1] p e q E. destruct p as [|b p].
      * simpl in E. injection E as <- <-. rewrite app_nil_r. assumption.
      * simpl in E. injection E as <- E. specialize (H1 p e q E).
        rewrite <- app_assoc in H1. exact H1.
    + intros H. split.
      * specialize (H [] a tr eq_refl). rewrite app_nil_r in H. assumption.
      * intros p e q E. specialize (H (a :: p) e q). rewrite <- app_assoc. apply H. simpl. rewrite E. reflexivity.
Qed.

Lemma trace_ok_iff : forall n tr, trace_ok n tr = true <-> tr_spec n tr.
Proof. intros. unfold trace_ok, tr_spec. apply (trace_ok_aux_spec n tr []). Qed.

Lemma tr_spec_snoc : forall n tr e, tr_spec n tr -> ev_ok n tr e -> tr_spec n (tr ++ [e]).
Proof.
  intros n tr e HS HE pre e' post E.
  destruct post as [|x post'] using rev_ind.
  - apply app_inj_tail in E. destruct E as [-> ->]. assumption.
  - clear IHpost'. rewrite app_comm_cons, app_assoc in E. apply app_inj_tail in E. destruct E as [E _].
    apply (HS pre e' post'). assumption.
Qed.

Lemma tr_spec_snoc_inv : forall n tr e, tr_spec n (tr ++ [e]) -> tr_spec n tr /\ ev_ok n tr e.
Proof.
  intros n tr e HS. split.
  - intros pre e' post E. apply (HS pre e' (post ++ [e])). rewrite E. rewrite <- app_assoc. reflexivity.
  - apply (HS tr e []). reflexivity.
Qed.

Lemma tr_spec_nil : forall n, tr_spec n [].
Proof. intros n pre e post E. destruct pre; discriminate. Qed.

Lemma begins_of_length : forall i tr, length (begins_of i tr) = count_ev i EvBegin tr.
Proof. intros. unfold begins_of, count_ev. apply map_length. Qed.
Lemma ends_of_length : forall i tr, length (ends_of i tr) = count_ev i EvEnd tr.
Proof. intros. unfold ends_of, count_ev. apply map_length. Qed.

(* the items of the events of stage i and kind p, in the order of the trace:
   [begins_of i] is [items_of i EvBegin], [ends_of i] is [items_of i EvEnd] *)
Definition items_of (i : nat) (p : evphase) (tr : list event) : list nat :=
  map ev_item (filter (ev_match i p) tr).

Lemma ev_match_true : forall i p e, ev_match i p e = true <-> ev_stage e = i /\ ev_ph e = p.
Proof. intros. unfold ev_match. rewrite andb_true_iff, Nat.eqb_eq, evphase_eqb_eq. tauto. Qed.

Lemma count_ev_snoc : forall i p tr e,
  count_ev i p (tr ++ [e]) = count_ev i p tr + (if ev_match i p e then 1 else 0).
Proof.
  intros. rewrite count_ev_app, (count_ev_cons i p e []). change (count_ev i p []) with 0. lia.
Qed.

Lemma in_items_of : forall i p k tr, In k (items_of i p tr) -> In (mkEv i p k) tr.
Proof.
  intros i p k tr H. apply in_map_iff in H. destruct H as ([s q k'] & E & H).
  apply filter_In in H. destruct H as [H M]. apply ev_match_true in M. cbn in *.
  destruct M. subst. exact H.
Qed.

Lemma tr_spec_prefix : forall n pre post, tr_spec n (pre ++ post) -> tr_spec n pre.
Proof.
  intros n pre post HS p e q E. apply (HS p e (q ++ post)). rewrite E, <- app_assoc. reflexivity.
Qed.

(* an acceptable event carries the number of events of its stage and kind before it *)
Lemma ev_ok_item : forall n pre e, ev_ok n pre e -> ev_item e = count_ev (ev_stage e) (ev_ph e) pre.
Proof. intros n pre e [_ H]. destruct (ev_ph e); [apply H | apply (proj2 H)]. Qed.

(* each stage begins (and ends) the items in source order 0,1,2,...; in particular none twice *)
Lemma tr_spec_in_order : forall n tr, tr_spec n tr -> forall i p,
  items_of i p tr = seq 0 (count_ev i p tr).
Proof.
  intros n tr. induction tr as [|e tr IH] using rev_ind; intros HS i p; [reflexivity|].
  apply tr_spec_snoc_inv in HS. destruct HS as [HS HE].
  unfold items_of. rewrite filter_app, map_app, count_ev_snoc. fold (items_of i p tr).
  rewrite (IH HS). cbn [filter]. destruct (ev_match i p e) eqn:M.
  - apply ev_match_true in M. destruct M as [<- <-].
    cbn. rewrite (ev_ok_item n tr e HE), Nat.add_1_r, seq_S. reflexivity.
  - rewrite app_nil_r, Nat.add_0_r. reflexivity.
Qed.

(* hand-over: stage i >= 2 begins item k only after stage i-1 has ended item k;
   and a stage ends item k only after it began item k *)
Lemma tr_spec_handover : forall n tr, tr_spec n tr -> forall pre i k post,
  tr = pre ++ mkEv i EvBegin k :: post -> 2 <= i -> In (mkEv (pred i) EvEnd k) pre.
Proof.
  intros n tr HS pre i k post E Hi. pose proof (HS pre _ post E) as HE. unfold ev_ok in HE. simpl in HE.
  destruct HE as (_ & _ & _ & [H|H] & _); [lia|].
  rewrite E in HS. apply tr_spec_prefix in HS.
  apply in_items_of. rewrite (tr_spec_in_order n pre HS). apply in_seq. lia.
Qed.

Lemma tr_spec_end_after_begin : forall n tr, tr_spec n tr -> forall pre i k post,
  tr = pre ++ mkEv i EvEnd k :: post -> In (mkEv i EvBegin k) pre.
Proof.
  intros n tr HS pre i k post E. pose proof (HS pre _ post E) as HE. unfold ev_ok in HE. simpl in HE.
  destruct HE as (_ & B & K).
  rewrite E in HS. apply tr_spec_prefix in HS.
  apply in_items_of. rewrite (tr_spec_in_order n pre HS). apply in_seq. lia.
Qed.

(* projection onto one stage: begin/end pairs of items 0,1,2,.. possibly followed by an open begin *)
Lemma stage_events_S : forall i c,
  stage_events i (S c) = stage_events i c ++ [mkEv i EvBegin c; mkEv i EvEnd c].
Proof.
  intros. unfold stage_events. rewrite seq_S, flat_map_app. simpl. reflexivity.
Qed.

Lemma proj_stage_spec : forall n tr, tr_spec n tr -> forall i,
  proj_stage i tr =
  stage_events i (count_ev i EvEnd tr) ++
  (if count_ev i EvBegin tr =? count_ev i EvEnd tr then [] else [mkEv i EvBegin (count_ev i EvEnd tr)]).
Proof.
  intros n tr. induction tr as [|e tr IH] using rev_ind; intros HS i.
  - reflexivity.
  - apply tr_spec_snoc_inv in HS. destruct HS as [HS HE]. specialize (IH HS i).
    unfold proj_stage in *. rewrite filter_app, IH. rewrite !count_ev_snoc.
    unfold ev_match. unfold ev_ok in HE. cbn [filter].
    destruct (ev_stage e =? i) eqn:Ei; cbn [andb].
    + apply Nat.eqb_eq in Ei. destruct e as [s p k]. cbn [ev_stage ev_ph ev_item] in *. subst s.
      destruct p; cbn [evphase_eqb] in *.
      * destruct HE as (_ & K & B & _). rewrite B, Nat.eqb_refl, !Nat.add_0_r, app_nil_r.
        replace (count_ev i EvEnd tr + 1 =? count_ev i EvEnd tr) with false
          by (symmetry; apply Nat.eqb_neq; lia).
        rewrite K, B. reflexivity.
      * destruct HE as (_ & B & K). rewrite B, !Nat.add_0_r.
        replace (S (count_ev i EvEnd tr) =? count_ev i EvEnd tr) with false
          by (symmetry; apply Nat.eqb_neq; lia).
        replace (S (count_ev i EvEnd tr) =? count_ev i EvEnd tr + 1) with true
          by (symmetry; apply Nat.eqb_eq; lia).
        replace (count_ev i EvEnd tr + 1) with (S (count_ev i EvEnd tr)) by lia.
        rewrite stage_events_S, K, app_nil_r, <- app_assoc. reflexivity.
    + rewrite !Nat.add_0_r, app_nil_r. reflexivity.
Qed.

(* projection of the sequential program's trace onto a stage *)
Lemma proj_stage_app : forall i a b, proj_stage i (a ++ b) = proj_stage i a ++ proj_stage i b.
Proof. intros. unfold proj_stage. apply filter_app. Qed.

Lemma proj_stage_item_events : forall n i k, 1 <= i <= n ->
  proj_stage i (item_events n k) = [mkEv i EvBegin k; mkEv i EvEnd k].
Proof.
  intros n i k. revert n.
  (* the stages 1..n contribute the pair of stage i once n has reached i, and nothing before *)
  assert (G : forall n, (n < i -> proj_stage i (item_events n k) = []) /\
                        (1 <= i <= n -> proj_stage i (item_events n k) = [mkEv i EvBegin k; mkEv i EvEnd k])).
  { induction n as [|n [IH0 IH1]]; [split; [reflexivity | lia]|].
    unfold item_events in *. rewrite seq_S, flat_map_app, proj_stage_app.
    unfold proj_stage at 2 4. cbn [flat_map app filter ev_stage Nat.add].
    destruct (S n =? i) eqn:E; [apply Nat.eqb_eq in E | apply Nat.eqb_neq in E]; split; intros H; try lia.
    - rewrite IH0 by lia. subst i. reflexivity.
    - rewrite IH0 by lia. reflexivity.
    - rewrite IH1 by lia. reflexivity. }
  intros n. apply G.
Qed.

Lemma proj_stage_seq_trace : forall n m i, 1 <= i <= n ->
  proj_stage i (seq_trace n m) = stage_events i m.
Proof.
  intros n m i Hi. unfold seq_trace, stage_events.
  generalize 0 as s. induction m as [|m IH]; intros s; [reflexivity|].
  simpl. rewrite proj_stage_app, proj_stage_item_events by assumption. rewrite IH. reflexivity.
Qed.

Section Complete.
  Variable n m : nat.
  Variable fails : nat -> nat -> bool.
  Notation step := (step n m fails).
  Notation run := (run n m fails).
  Notation Inv := (Inv n m fails).

  (* the trace has counted the begins and ends of stage i *)
  Definition counted (tr : list event) (i : nat) (nd : node) : Prop :=
    1 <= i <= n ->
    count_ev i EvBegin tr = begun nd /\ count_ev i EvEnd tr = ended nd.

  Record TInv (st : state) : Prop := {
    T_spec : tr_spec n (rev (trace_rev st));
    T_count : forall i, counted (trace_rev st) i (nodes st i)
  }.

  Lemma tinv_init : TInv init.
  Proof. constructor; simpl; [apply tr_spec_nil | intros i _; split; reflexivity]. Qed.

  (* back-pressure: node i+d has passed on at least (what node i has passed on) - d items *)
  Lemma cnt_chain : forall st, Inv st -> forall d i, i + d <= S n ->
    cnt (nodes st i) <= cnt (nodes st (i + d)) + d.
  Proof.
    intros st HI. induction d as [|d IH]; intros i Hle.
    - rewrite !Nat.add_0_r. lia.
    - specialize (IH i ltac:(lia)).
      pose proof (I_chan _ _ _ _ HI (i + d) ltac:(lia)) as E.
      replace (i + S d) with (S (i + d)) by lia.
      unfold sent, recv in E. destruct (ph (nodes st (S (i + d)))); lia.
  Qed.

  Lemma counted_keep : forall tr i a v, counted tr i a ->
    begun v = begun a -> ended v = ended a -> counted tr i v.
  Proof. intros tr i a v H B E Hi. rewrite B, E. exact (H Hi). Qed.

  Lemma counted_other : forall e tr j nd, ev_stage e <> j -> counted tr j nd -> counted (e :: tr) j nd.
  Proof.
    intros e tr j nd Hne H Hj. rewrite !count_ev_cons. unfold ev_match.
    apply Nat.eqb_neq in Hne. rewrite Hne. exact (H Hj).
  Qed.

  Lemma step_tinv : forall l st st', Inv st -> TInv st -> step l st = Some st' -> TInv st'.
  Proof.
    intros l st st' HI [TS TC] Hs.
    destruct l as [|i|i|i|i|i|i]; cbn [Pipe.step] in Hs; apply if_some in Hs as [G Hs].
    - (* Fetch *)
      injection Hs as <-. constructor; cbn; [exact TS|]. apply upd_forall; [exact TC|]. intros Hi. lia.
    - (* Hand: the sender has begun and ended what it passes on, the receiver has not begun it *)
      rewrite !andb_true_iff, Nat.leb_le, !live_true in G. destruct G as ((Hi & Ra & Pa) & Rb & Pb).
      pose proof (I_chan _ _ _ _ HI i Hi) as E. unfold sent, recv in E. rewrite Pb in E.
      assert (HT : forall s, TInv (set_node (set_node st i (mkNode PIdle (S (cnt (nodes st i))) Running))
                                            (S i) (mkNode PHolding (cnt (nodes st i)) s))).
      { intros s. constructor; cbn; [exact TS|]. apply upd_forall; [apply upd_forall; [exact TC|] |].
        - apply (counted_keep _ _ _ _ (TC i)); unfold begun, ended; rewrite Pa; reflexivity.
        - apply (counted_keep _ _ _ _ (TC (S i))); unfold begun, ended; rewrite Pb; cbn; exact E. }
      destruct (cancelled st); injection Hs as <-; [destruct (HT Stopped); constructor; assumption | apply HT].
    - (* Begin *)
      rewrite !andb_true_iff, !Nat.leb_le, live_true in G. destruct G as ((H1 & Hi) & R & P).
      injection Hs as <-. destruct (i <=? n) eqn:Hin.
      + apply Nat.leb_le in Hin. destruct (TC i (conj H1 Hin)) as [CB CE].
        unfold begun, ended in CB, CE. rewrite P in CB, CE.
        constructor; cbn.
        * apply tr_spec_snoc; [exact TS|].
          unfold ev_ok. cbn. rewrite !count_ev_rev. repeat split; try lia.
          { destruct (Nat.eq_dec i 1) as [->|Hne]; [left; reflexivity|right].
            destruct (TC (pred i) ltac:(lia)) as [_ CE']. rewrite CE'.
            pose proof (I_chan _ _ _ _ HI (pred i) ltac:(lia)) as E.
            replace (S (pred i)) with i in E by lia. unfold recv in E. rewrite P in E.
            pose proof (sent_le_ended (nodes st (pred i))). lia. }
          { intros j Hj1 Hj2. rewrite count_ev_rev.
            destruct (TC (i + j) ltac:(lia)) as [_ CE']. rewrite CE'.
            pose proof (cnt_chain st HI j i ltac:(lia)).
            pose proof (sent_le_ended (nodes st (i + j))) as SE. unfold sent in SE. lia. }
        * apply upd_forall_ne; [intros j Hj; apply counted_other; [cbn; auto | apply TC]|].
          intros _. rewrite !count_ev_cons. unfold ev_match. cbn. rewrite Nat.eqb_refl. cbn. lia.
      + constructor; cbn; [exact TS|]. apply Nat.leb_gt in Hin.
        apply upd_forall; [exact TC|]. intros Hi'. lia.
    - (* End *)
      rewrite !andb_true_iff, !Nat.leb_le, live_true in G. destruct G as ((H1 & Hi) & R & P).
      destruct (i <=? n) eqn:Hin; injection Hs as <-.
      + apply Nat.leb_le in Hin. destruct (TC i (conj H1 Hin)) as [CB CE].
        unfold begun, ended in CB, CE. rewrite P in CB, CE.
        constructor; cbn.
        * apply tr_spec_snoc; [exact TS|].
          unfold ev_ok. cbn. rewrite !count_ev_rev. repeat split; lia.
        * apply upd_forall_ne; [intros j Hj; apply counted_other; [cbn; auto | apply TC]|].
          intros _. rewrite !count_ev_cons. unfold ev_match, begun, ended. cbn. rewrite Nat.eqb_refl. cbn.
          destruct (fails i (cnt (nodes st i))); cbn; lia.
      + constructor; cbn; [exact TS|]. apply Nat.leb_gt in Hin.
        apply upd_forall; [exact TC|]. intros Hi'. lia.
    - (* Report *)
      injection Hs as <-. constructor; cbn; [exact TS|]. apply upd_forall; [exact TC | exact (TC i)].
    - (* CloseCh *)
      rewrite !andb_true_iff, live_true in G. destruct G as ((_ & _ & P) & _).
      assert (HC : forall s, counted (trace_rev st) i (mkNode PIdle (cnt (nodes st i)) s)).
      { intros s. apply (counted_keep _ _ _ _ (TC i)); unfold begun, ended; rewrite P; reflexivity. }
      destruct (_ || _); [destruct (i =? S n)|]; injection Hs as <-;
        (constructor; cbn; [exact TS|]); apply upd_forall; auto; exact (TC i).
    - (* ObserveCancel *)
      injection Hs as <-. constructor; cbn; [exact TS|]. apply upd_forall; [exact TC | exact (TC i)].
  Qed.

  Lemma step_trace : forall l st st', step l st = Some st' ->
    trace_rev st' =
    match l with
    | Begin i => if i <=? n then [mkEv i EvBegin (cnt (nodes st i))] else []
    | End i => if i <=? n then [mkEv i EvEnd (cnt (nodes st i))] else []
    | _ => []
    end ++ trace_rev st.
  Proof.
    intros l st st' Hs.
    destruct l as [|i|i|i|i|i|i]; cbn [Pipe.step] in Hs; apply if_some in Hs as [_ Hs].
    - injection Hs as <-. reflexivity.
    - destruct (cancelled st); injection Hs as <-; reflexivity.
    - injection Hs as <-. destruct (i <=? n); reflexivity.
    - destruct (i <=? n); injection Hs as <-; reflexivity.
    - injection Hs as <-. reflexivity.
    - destruct (_ || _); [destruct (i =? S n)|]; injection Hs as <-; reflexivity.
    - injection Hs as <-. reflexivity.
  Qed.

  Lemma reachable_tinv : forall sched, TInv (run sched init).
  Proof. intros. apply (run_preserves n m fails TInv step_tinv); [apply inv_init | apply tinv_init]. Qed.

  (* completeness: the checker accepts the trace of every run *)
  Lemma trace_ok_complete_run : forall sched, trace_ok n (trace (run sched init)) = true.
  Proof. intros. apply trace_ok_iff. unfold trace. apply (T_spec _ (reachable_tinv sched)). Qed.

  (* a terminal run without recorded error: every stage has seen the calls of the sequential program,
     in its order - the counters of a finished stage stand at m, and the trace of a stage is determined
     by its numbers of begins and ends *)
  Lemma terminal_proj_stage : forall st, Inv st -> TInv st -> terminal n st = true -> errs st = [] ->
    forall i, 1 <= i <= n -> proj_stage i (trace st) = proj_stage i (seq_trace n m).
  Proof.
    intros st HI HTI HT HE i Hi.
    pose proof (T_spec _ HTI) as HS. change (rev (trace_rev st)) with (trace st) in HS.
    rewrite (proj_stage_spec n _ HS i), (proj_stage_seq_trace n m i Hi).
    assert (Hi' : i <= S n) by (apply Nat.le_trans with n; [apply Hi|apply Nat.le_succ_diag_r]).
    destruct (all_done_counts n m fails st HI HT (no_error_not_cancelled n m fails st HI HE) i Hi') as (_ & P & C).
    destruct (T_count _ HTI i Hi) as [CB CE].
    unfold trace. rewrite !count_ev_rev, CB, CE. unfold begun, ended. rewrite P, C, Nat.eqb_refl.
    apply app_nil_r.
  Qed.

End Complete.
