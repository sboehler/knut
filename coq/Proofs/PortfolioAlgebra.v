(* C20: the algebra under the two portfolio laws.
   - dec_q (the rational ComputeValues / ComputeFlows convert a decimal to) is the exact value
     of the decimal (DecValue.dvalue), hence additive under Dec.add and odd under Dec.neg;
   - sorted association lists (Model/Price.smap with strictly ascending keys): the sum of a
     function of the bound values after sm_put / after removing a key;
   - the values map of ComputeValues under vals_add (Amounts.Add with deletion of zero
     entries): what a key reads afterwards, and the sum over all keys;
   - pcv_add (m[c] += q) on ascending keys: the sum over all keys grows by q. *)
From Coq Require Import ZArith QArith Qpower Qfield List Bool Lia.
From Knut Require Import Model.Str Model.Dec Model.Account Model.Ledger Model.Price Model.Journal Model.Perf
     Spec.PortfolioSpec Proofs.DecProofs Proofs.DecValue Proofs.SMapProofs Proofs.PortfolioDays
     Proofs.PortfolioReturns Proofs.PortfolioWeights.
Import ListNotations.
Open Scope Q_scope.

Lemma dec_q_value d : dec_q d == dvalue d.
Proof.
  unfold dec_q, dvalue. destruct (0 <=? ex d)%Z eqn:E.
  - apply Z.leb_le in E. rewrite inject_Z_mult, pow10_as_Q by exact E. reflexivity.
  - apply Z.leb_gt in E. rewrite Qred_correct.
    assert (Hp : (0 < pow10 (- ex d))%Z) by (apply pow10_nonneg_pos; lia).
    rewrite Qmake_Qdiv, Z2Pos.id by exact Hp. rewrite pow10_as_Q by lia.
    rewrite Qpower_opp. unfold Qdiv. rewrite Qinv_involutive. reflexivity.
Qed.

Lemma dec_q_add a b : dec_q (add a b) == dec_q a + dec_q b.
Proof. rewrite !dec_q_value. apply dvalue_add. Qed.

Lemma dec_q_neg a : dec_q (neg a) == - dec_q a.
Proof. rewrite !dec_q_value. apply dvalue_neg. Qed.

Lemma dec_q_zero a : is_zero a = true -> dec_q a == 0.
Proof. intros H. rewrite dec_q_value. apply is_zero_value. exact H. Qed.

Lemma dec_q_nil : dec_q dec_nil == 0.
Proof. reflexivity. Qed.

Lemma qsum_map_plus {A} (f g : A -> Q) l : qsum (map (fun x => f x + g x) l) == qsum (map f l) + qsum (map g l).
Proof. induction l as [|x l IH]; cbn [map]; [reflexivity|]. rewrite !qsum_cons, IH. ring. Qed.

Lemma qsum_map_scale {A} (f : A -> Q) c l : qsum (map (fun x => c * f x) l) == c * qsum (map f l).
Proof. induction l as [|x l IH]; cbn [map]; [unfold qsum; cbn; ring|]. rewrite !qsum_cons, IH. ring. Qed.

Section SortedSums.
  Context {V : Type}.
  Variable f : V -> Q.
  Implicit Types (m : smap V) (k : str) (v : V).

  (* the sum over all keys *)
  Definition smsum m : Q := qsum (map (fun kv => f (snd kv)) m).
  (* what a key contributes *)
  Definition smval m k : Q := match sm_get m k with Some y => f y | None => 0 end.

  Lemma sm_get_below m k : (forall k', In k' (keys m) -> str_cmp k k' = Lt) -> sm_get m k = None.
  Proof.
    intros H. apply sm_get_none. intros Hin. specialize (H k Hin). rewrite str_cmp_refl in H. discriminate.
  Qed.

  Lemma smsum_put m k v : sorted m -> smsum (sm_put m k v) == smsum m - smval m k + f v.
  Proof.
    unfold smsum, smval. induction 1 as [|k0 v0 m Hs IH Hlt]; cbn [sm_put sm_get map].
    - rewrite !qsum_cons. cbn [snd]. unfold qsum. cbn. ring.
    - destruct (str_cmp k k0) eqn:E.
      + apply str_cmp_eq in E. subst k0. rewrite str_eqb_refl. cbn [map]. rewrite !qsum_cons. cbn [snd]. ring.
      + assert (Hnone : sm_get ((k0, v0) :: m) k = None).
        { apply sm_get_below. cbn [keys map fst]. intros k' [<-|Hk']; [exact E|].
          eapply str_cmp_lt_trans; [exact E|apply Hlt; exact Hk']. }
        cbn [sm_get] in Hnone. rewrite Hnone. cbn [map]. rewrite !qsum_cons. cbn [snd]. ring.
      + unfold str_eqb. rewrite E. cbn [map]. rewrite !qsum_cons, IH. cbn [snd]. ring.
  Qed.
End SortedSums.

Lemma vals_remove_keys_in (m : vals) k k' : In k' (keys (vals_remove m k)) -> In k' (keys m).
Proof.
  induction m as [|[k0 v0] m IH]; cbn [vals_remove]; [tauto|].
  destruct (str_eqb k k0); cbn [keys map fst]; [intros H; right; exact H|].
  intros [H|H]; [left; exact H|right; apply IH; exact H].
Qed.

Lemma vals_remove_sorted (m : vals) k : sorted m -> sorted (vals_remove m k).
Proof.
  induction 1 as [|k0 v0 m Hs IH Hlt]; cbn [vals_remove]; [constructor|].
  destruct (str_eqb k k0); [exact Hs|]. constructor; [exact IH|].
  intros k' Hk'. apply Hlt. eapply vals_remove_keys_in. exact Hk'.
Qed.

Lemma vals_remove_get_other (m : vals) k k' : k' <> k -> sm_get (vals_remove m k) k' = sm_get m k'.
Proof.
  intros Hne. induction m as [|[k0 v0] m IH]; cbn [vals_remove sm_get]; [reflexivity|].
  destruct (str_eqb k k0) eqn:E.
  - apply str_eqb_eq in E. subst k0. apply str_eqb_neq in Hne. rewrite Hne. reflexivity.
  - cbn [sm_get]. destruct (str_eqb k' k0); [reflexivity|exact IH].
Qed.

Lemma vals_remove_get_same (m : vals) k : sorted m -> sm_get (vals_remove m k) k = None.
Proof.
  induction 1 as [|k0 v0 m Hs IH Hlt]; cbn [vals_remove sm_get]; [reflexivity|].
  destruct (str_eqb k k0) eqn:E.
  - apply str_eqb_eq in E. subst k0. apply sm_get_none. intros Hin. specialize (Hlt k Hin).
    rewrite str_cmp_refl in Hlt. discriminate.
  - cbn [sm_get]. rewrite E. exact IH.
Qed.

Lemma vals_remove_sum (f : dec -> Q) (m : vals) k : sorted m -> smsum f (vals_remove m k) == smsum f m - smval f m k.
Proof.
  unfold smsum, smval. induction 1 as [|k0 v0 m Hs IH Hlt]; cbn [vals_remove sm_get map].
  - unfold qsum. cbn. ring.
  - destruct (str_eqb k k0) eqn:E.
    + rewrite qsum_cons. cbn [snd]. ring.
    + cbn [map]. rewrite !qsum_cons, IH. cbn [snd]. ring.
Qed.

(* the decimal a key reads *)
Definition vget (m : vals) (k : commodity) : dec := match sm_get m k with Some y => y | None => dec_nil end.

Lemma smval_vget m k : smval dec_q m k == dec_q (vget m k).
Proof. unfold smval, vget. destruct (sm_get m k); reflexivity. Qed.

Lemma vals_add_sorted m k v : sorted m -> sorted (vals_add m k v).
Proof.
  intros H. unfold vals_add. destruct (is_zero _); [apply vals_remove_sorted|apply sorted_put]; exact H.
Qed.

Lemma vals_add_get m k v k' : sorted m ->
  dec_q (vget (vals_add m k v) k') == dec_q (vget m k') + (if str_eqb k k' then dec_q v else 0).
Proof.
  intros Hs. unfold vals_add. fold (vget m k). destruct (str_eqb k k') eqn:Ek.
  - apply str_eqb_eq in Ek. subst k'. destruct (is_zero (add (vget m k) v)) eqn:Ez.
    + unfold vget at 1. rewrite vals_remove_get_same by exact Hs.
      apply dec_q_zero in Ez. rewrite dec_q_add in Ez. rewrite Ez. reflexivity.
    + unfold vget at 1. rewrite sm_get_put_same. apply dec_q_add.
  - apply str_eqb_neq in Ek. assert (Hne : k' <> k) by congruence.
    destruct (is_zero (add (vget m k) v)); unfold vget at 1.
    + rewrite vals_remove_get_other by exact Hne. fold (vget m k'). ring.
    + rewrite sm_get_put_other by exact Hne. fold (vget m k'). ring.
Qed.

Lemma vals_add_sum m k v : sorted m -> smsum dec_q (vals_add m k v) == smsum dec_q m + dec_q v.
Proof.
  intros Hs. unfold vals_add. fold (vget m k). destruct (is_zero (add (vget m k) v)) eqn:Ez.
  - rewrite vals_remove_sum by exact Hs. rewrite smval_vget.
    apply dec_q_zero in Ez. rewrite dec_q_add in Ez.
    assert (H : dec_q v == - dec_q (vget m k)).
    { rewrite <- (Qplus_0_l (- dec_q (vget m k))), <- Ez. ring. }
    rewrite H. ring.
  - rewrite smsum_put by exact Hs. rewrite smval_vget, dec_q_add. ring.
Qed.

(* vals_pcv: the float map ComputeValues stores *)
Lemma pcv_get_vals m k : pcv_get (vals_pcv m) k == dec_q (vget m k).
Proof.
  unfold pcv_get, vget, vals_pcv. induction m as [|[k0 v0] m IH]; cbn [map sm_get fst snd]; [reflexivity|].
  destruct (str_eqb k k0); [reflexivity|exact IH].
Qed.

Lemma pcv_sum_vals m : pcv_sum (vals_pcv m) == smsum dec_q m.
Proof. rewrite pcv_sum_spec. unfold vals_pcv, smsum. rewrite map_map. reflexivity. Qed.

Lemma pcv_sum_smsum (m : pcv) : pcv_sum m == smsum (fun q => q) m.
Proof. rewrite pcv_sum_spec. reflexivity. Qed.

Lemma pcv_add_sorted (m : pcv) c q : sorted m -> sorted (pcv_add m c q).
Proof. apply sorted_put. Qed.

Lemma pcv_add_sum (m : pcv) c q : sorted m -> pcv_sum (pcv_add m c q) == pcv_sum m + q.
Proof.
  intros Hs. rewrite !pcv_sum_smsum. unfold pcv_add. rewrite smsum_put by exact Hs.
  rewrite qadd_eq. unfold smval, pcv_get. destruct (sm_get m c); ring.
Qed.
