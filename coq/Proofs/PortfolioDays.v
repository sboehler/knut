(* C20: the days a portfolio command processes.
   - pure_proc_days: a processor built by Perf.pure_proc runs as the fold Perf.pure_days and
     leaves the days unchanged;
   - every stage of the pipeline preserves the dates of the days;
   - the builder keeps its days strictly ascending by date, builder_touch adds the given dates;
   - perf_loop prints one line per processed day that is a period end inside the window;
   - the period ends of a partition ascend and lie in its window.
   PortfolioProofs.returns_every_period puts them together. *)
From Coq Require Import ZArith QArith List Bool Lia Sorting.Sorted.
From Knut Require Import Proofs.ListFacts Model.Str Model.Dec Model.Date Model.Account Model.Ledger Model.Price
     Model.Journal Model.Check Model.Pipeline Model.Report Model.Cli Model.Perf Model.Weights
     Model.CliPortfolio Spec.DateSpec Proofs.JournalFacts Proofs.PairProofs Proofs.DateProofs.
From Knut Require Proofs.BuilderProofs.
Import ListNotations.
Open Scope Z_scope.

Section PureProc.
  Context {S : Type}.
  Variables (st : option (S -> day -> S)) (tx : option (S -> txn -> S))
            (po : option (S -> txn -> posting -> S)) (en : option (S -> day -> S)).
  Variable q : processor S.
  Hypothesis Hst : pr_day_start q = match st with Some f => Some (fun s d => ROk (f s d, d)) | None => None end.
  Hypothesis Hpr : pr_price q = None.
  Hypothesis Hop : pr_open q = None.
  Hypothesis Htx : pr_txn q = match tx with Some f => Some (fun s t => ROk (f s t)) | None => None end.
  Hypothesis Hpo : pr_posting q = match po with Some f => Some (fun s t p => ROk (f s t p, p)) | None => None end.
  Hypothesis Hba : pr_balance q = None.
  Hypothesis Hcl : pr_close q = None.
  Hypothesis Hen : pr_day_end q = match en with Some f => Some (fun s d => ROk (f s d, d)) | None => None end.

  Lemma pure_fold_postings (f : S -> txn -> posting -> S) t ps : forall s,
    fold_postings (fun s t p => ROk (f s t p, p)) t s ps = ROk (fold_left (fun s p => f s t p) ps s, ps).
  Proof.
    induction ps as [|x ps IH]; intros s; cbn [fold_postings fold_left]; [reflexivity|].
    cbn [rbind fst snd]. rewrite IH. reflexivity.
  Qed.

  Lemma pure_fold_txns ts : forall s, fold_txns q s ts = ROk (fold_left (pure_txn tx po) ts s, ts).
  Proof.
    induction ts as [|t ts IH]; intros s; cbn [fold_txns fold_left]; [reflexivity|].
    rewrite Htx, Hpo. unfold pure_txn, opt_app.
    destruct tx as [ftx|]; destruct po as [fpo|]; cbn [rbind fst snd];
      try rewrite pure_fold_postings; cbn [rbind fst snd]; rewrite IH; cbn [rbind fst snd];
      rewrite ?txn_rebuild; reflexivity.
  Qed.

  Lemma pure_fold_asserts l s : fold_asserts q s l = ROk s.
  Proof. exact (fold_asserts_none q l s Hba). Qed.

  Lemma pure_process_day s d : process_day q s d = ROk (pure_day st tx po en s d, d).
  Proof.
    unfold process_day, pure_day, opt_app. rewrite Hst, Hpr, Hop, Hcl, Hen.
    destruct st as [fst_|]; cbn [rbind fst snd]; rewrite pure_fold_txns; cbn [rbind fst snd d_asserts];
      rewrite pure_fold_asserts; cbn [rbind];
      destruct en as [fen|]; cbn [d_date d_prices d_opens d_closes d_normalized]; rewrite day_rebuild; reflexivity.
  Qed.

  Lemma pure_process_days ds : forall s, process_days q s ds = ROk (pure_days st tx po en s ds, ds).
  Proof.
    unfold pure_days. induction ds as [|d ds IH]; intros s; cbn [process_days fold_left]; [reflexivity|].
    rewrite pure_process_day. cbn [rbind fst snd]. rewrite IH. reflexivity.
  Qed.
End PureProc.

Lemma pure_proc_days {S} (st : option (S -> day -> S)) tx po en ds s :
  process_days (pure_proc st tx po en) s ds = ROk (pure_days st tx po en s ds, ds).
Proof. apply pure_process_days; reflexivity. Qed.

Section Dates.
  Context {S : Type} (p : processor S).
  Hypothesis start_date : forall f s d s' d', pr_day_start p = Some f -> f s d = ROk (s', d') -> d_date d' = d_date d.
  Hypothesis end_date : forall f s d s' d', pr_day_end p = Some f -> f s d = ROk (s', d') -> d_date d' = d_date d.

  Lemma process_day_date s d s' d' : process_day p s d = ROk (s', d') -> d_date d' = d_date d.
  Proof.
    intros H. apply process_day_ok in H. destruct H as (s1 & d1 & s2 & s3 & s4 & ts & s5 & s6 & E1 & _ & _ & _ & _ & _ & E7).
    assert (H1 : d_date d1 = d_date d).
    { destruct (opt_dec (pr_day_start p)) as [[f Ef]|Ef]; rewrite Ef in E1; [exact (start_date f _ _ _ _ Ef E1)|].
      injection E1 as _ <-. reflexivity. }
    destruct (opt_dec (pr_day_end p)) as [[f Ef]|Ef]; rewrite Ef in E7.
    - rewrite (end_date f _ _ _ _ Ef E7). exact H1.
    - injection E7 as _ <-. exact H1.
  Qed.

  Lemma process_days_dates ds : forall s s' ds', process_days p s ds = ROk (s', ds') -> map d_date ds' = map d_date ds.
  Proof.
    induction ds as [|d ds IH]; intros s s' ds' H.
    - injection H as _ <-. reflexivity.
    - apply process_days_cons_ok in H. destruct H as (s1 & d1 & r & E1 & E2 & ->).
      cbn [map]. rewrite (process_day_date _ _ _ _ E1), (IH _ _ _ E2). reflexivity.
  Qed.
End Dates.

Lemma prices_stage_dates v s days s' days' :
  process_days (compute_prices_proc v) s days = ROk (s', days') -> map d_date days' = map d_date days.
Proof.
  apply process_days_dates; cbn; intros f s0 d s1 d1 Hf H; [discriminate|].
  inversion Hf; subst. unfold cp_day_end in H.
  destruct (d_prices d); [inversion H; reflexivity|].
  destruct (normalize _ _); inversion H; reflexivity.
Qed.

Lemma valuate_stage_dates v s days s' days' :
  process_days (valuate_proc v) s days = ROk (s', days') -> map d_date days' = map d_date days.
Proof.
  apply process_days_dates; cbn; intros f s0 d s1 d1 Hf H; inversion Hf; subst.
  - unfold val_day_start in H. destruct (val_adjustments _ _ _ _ _); cbn in H; inversion H; reflexivity.
  - unfold val_day_end in H. inversion H; reflexivity.
Qed.

(* the stages both commands run before ComputeValues, as folds over the days; Check leaves the
   days as they are *)
Lemma valued_days_inv cfg days days' : valued_days cfg days = COk days' ->
  match pc_valuation cfg with
  | Some v => exists s1 d1 s3, process_days (compute_prices_proc v) (mkCp [] None) days = ROk (s1, d1) /\
                               process_days (valuate_proc v) (mkVal None None []) d1 = ROk (s3, days')
  | None => days' = days
  end.
Proof.
  unfold valued_days. intros H. destruct (pc_valuation cfg) as [v|].
  - apply cbind_ok in H. destruct H as ([s1 d1] & E1 & H). apply run_stage_ok in E1.
    apply cbind_ok in H. destruct H as ([s2 d2] & E2 & H). apply run_stage_ok, check_stage_id in E2.
    apply cbind_ok in H. destruct H as ([s3 d3] & E3 & [= <-]). apply run_stage_ok in E3.
    cbn [snd] in *. subst d2. eauto.
  - apply cbind_ok in H. destruct H as ([s2 d2] & E2 & [= <-]).
    exact (check_stage_id _ _ _ _ _ (run_stage_ok _ _ _ _ E2)).
Qed.

Lemma valued_days_dates cfg days days' : valued_days cfg days = COk days' -> map d_date days' = map d_date days.
Proof.
  intros H. apply valued_days_inv in H. destruct (pc_valuation cfg) as [v|]; [|subst; reflexivity].
  destruct H as (s1 & d1 & s3 & E1 & E3).
  rewrite (valuate_stage_dates _ _ _ _ _ E3). exact (prices_stage_dates _ _ _ _ _ E1).
Qed.

Fixpoint asc (l : list Z) : Prop :=
  match l with
  | [] => True
  | x :: rest => match rest with [] => True | y :: _ => x < y end /\ asc rest
  end.

Lemma asc_tail x l : asc (x :: l) -> asc l.
Proof. cbn. tauto. Qed.

Lemma asc_lt x l : asc (x :: l) -> forall y, In y l -> x < y.
Proof.
  revert x. induction l as [|z l IH]; intros x H y Hy; [contradiction|].
  destruct H as [Hxz Hr]. destruct Hy as [->|Hy]; [exact Hxz|].
  specialize (IH z Hr y Hy). lia.
Qed.

Lemma asc_sorted l : asc l <-> StronglySorted Z.lt l.
Proof.
  induction l as [|x l IH]; [split; constructor|]. split.
  - intros H. constructor; [apply IH; exact (asc_tail _ _ H)|]. apply Forall_forall. exact (asc_lt _ _ H).
  - intros H. inversion H as [|? ? Hs Hall]; subst. split; [|apply IH; exact Hs].
    destruct l as [|y r]; [exact I|]. inversion Hall; assumption.
Qed.

Lemma insert_date_asc d l : asc l -> asc (insert_date d l).
Proof. rewrite !asc_sorted. apply BuilderProofs.insert_date_sorted. Qed.

Lemma builder_of_asc ds : asc (map d_date (b_days (builder_of ds))).
Proof. apply asc_sorted. exact (proj1 (BuilderProofs.builder_canonical ds)). Qed.

Lemma load_days_asc ds b : load ds = COk b -> asc (map d_date (b_days b)).
Proof.
  unfold load. intros H. destruct (of_mresult _) as [x| |]; cbn [cbind] in H; try discriminate.
  inversion H; subst. apply builder_of_asc.
Qed.

Lemma builder_touch_dates b dates :
  map d_date (b_days (builder_touch b dates)) = fold_left (fun l d => insert_date d l) dates (map d_date (b_days b)).
Proof.
  unfold builder_touch. cbn [b_days]. generalize (b_days b). induction dates as [|d dates IH]; intros days; cbn [fold_left]; [reflexivity|].
  rewrite IH. rewrite BuilderProofs.upd_day_dates by reflexivity. reflexivity.
Qed.

Lemma fold_insert_asc dates : forall l, asc l -> asc (fold_left (fun l d => insert_date d l) dates l).
Proof. induction dates as [|d dates IH]; intros l H; cbn; [exact H|]. apply IH. apply insert_date_asc. exact H. Qed.

Lemma fold_insert_in dates : forall l y, In y dates \/ In y l -> In y (fold_left (fun l d => insert_date d l) dates l).
Proof.
  induction dates as [|d dates IH]; intros l y H; cbn [fold_left]; [destruct H as [[]|H]; exact H|].
  apply IH. rewrite BuilderProofs.insert_date_in. destruct H as [[->|H]|H]; [right; left; reflexivity|left; exact H|right; right; exact H].
Qed.

Definition mem (l : list Z) (d : Z) : bool := existsb (Z.eqb d) l.

Lemma perf_loop_dates part ends l : forall running,
  map fst (perf_loop part ends running l) =
  filter (fun d => partition_contains part d && mem ends d) (map pf_date l).
Proof.
  induction l as [|p l IH]; intros running; cbn [perf_loop map filter]; [reflexivity|].
  destruct (partition_contains part (pf_date p)); cbn [negb andb]; [|apply IH].
  unfold mem. destruct (existsb (Z.eqb (pf_date p)) ends); cbn [map fst]; [f_equal|]; apply IH.
Qed.

Lemma join_perf_dates vs fs : map pf_date (join_perf vs fs) = map fst vs.
Proof. unfold join_perf. rewrite map_map. reflexivity. Qed.

Lemma mem_in l d : mem l d = true <-> In d l.
Proof.
  unfold mem. rewrite existsb_exists. split.
  - intros [x [Hx E]]. apply Z.eqb_eq in E. subst. exact Hx.
  - intros H. exists d. split; [exact H|apply Z.eqb_refl].
Qed.

(* two strictly ascending lists: filtering the larger by membership in the smaller gives the smaller *)
Lemma filter_mem_asc dates : forall ends, asc dates -> asc ends -> incl ends dates -> filter (mem ends) dates = ends.
Proof.
  induction dates as [|x dates IH]; intros ends Hd He Hi.
  - destruct ends as [|e es]; [reflexivity|]. destruct (Hi e (or_introl eq_refl)).
  - cbn [filter]. destruct ends as [|e es].
    + cbn. rewrite (filter_ext_in (mem []) (fun _ => false)) by reflexivity.
      clear. induction dates; cbn; auto.
    + destruct (Z.eq_dec e x) as [->|Hne].
      * replace (mem (x :: es) x) with true by (symmetry; apply mem_in; left; reflexivity). f_equal.
        rewrite (filter_ext_in (mem (x :: es)) (mem es)).
        -- apply IH; [exact (asc_tail _ _ Hd)|exact (asc_tail _ _ He)|].
           intros y Hy. pose proof (asc_lt _ _ He y Hy) as Hlt.
           destruct (Hi y (or_intror Hy)) as [->|H]; [lia|exact H].
        -- intros y Hy. pose proof (asc_lt _ _ Hd y Hy) as Hlt. unfold mem. cbn [existsb].
           replace (y =? x) with false by (symmetry; apply Z.eqb_neq; lia). reflexivity.
      * assert (Hex : x < e).
        { destruct (Hi e (or_introl eq_refl)) as [->|H]; [congruence|]. apply (asc_lt _ _ Hd e H). }
        replace (mem (e :: es) x) with false.
        -- apply IH; [exact (asc_tail _ _ Hd)|exact He|].
           intros y Hy. destruct (Hi y Hy) as [<-|H]; [|exact H].
           destruct Hy as [->|Hy]; [lia|]. pose proof (asc_lt _ _ He x Hy). lia.
        -- symmetry. apply not_true_is_false. intros Hm. apply mem_in in Hm.
           destruct Hm as [->|Hm]; [lia|]. pose proof (asc_lt _ _ He x Hm). lia.
Qed.

Lemma tiles_ends s e ps : tiles s e ps ->
  asc (map p_end ps) /\ Forall (fun d => s <= d <= e) (map p_end ps).
Proof.
  revert s. induction ps as [|p ps IH]; intros s H; [destruct H|].
  cbn [tiles] in H. destruct H as [Hs [Hle Hrest]]. destruct ps as [|q ps'].
  - subst. cbn. split; [tauto|]. constructor; [lia|constructor].
  - destruct (IH _ Hrest) as [Ha Hf]. cbn [map] in *. split.
    + split; [|exact Ha]. inversion Hf; subst. cbn [tiles] in Hrest. lia.
    + constructor; [|eapply Forall_impl; [|exact Hf]; cbn; intros; lia].
      inversion Hf; subst. lia.
Qed.

Lemma partition_ends w iv n part :
  p_start w <= p_end w -> 0 <= n -> new_partition w iv n = POk part ->
  asc (end_dates part) /\ Forall (fun d => partition_contains part d = true) (end_dates part).
Proof.
  intros Hle Hn H. destruct w as [s e]. cbn [p_start p_end] in Hle.
  destruct (new_partition_span _ _ _ _ H) as [Hsp _].
  assert (Hc : forall d, s <= d <= e -> partition_contains part d = true).
  { intros d Hd. unfold partition_contains, period_contains. rewrite Hsp. cbn [p_start p_end].
    rewrite andb_true_iff, !negb_true_iff, !Z.ltb_ge. lia. }
  destruct (interval_eqb iv Once) eqn:Eiv.
  - assert (iv = Once) by (destruct iv; cbn in Eiv; congruence). subst.
    unfold new_partition in H. cbn [p_start] in H. destruct (s =? 0); [discriminate|]. inversion H; subst.
    unfold end_dates. cbn. split; [tauto|]. constructor; [|constructor]. apply Hc. lia.
  - assert (Hiv : iv <> Once) by (intros ->; discriminate).
    destruct (new_partition_tiles s e iv n part Hiv Hle Hn H) as [Ht Hfs].
    destruct (tiles_ends _ _ _ Ht) as [Ha Hf]. unfold end_dates. split; [exact Ha|].
    eapply Forall_impl; [|exact Hf]. cbn. intros d Hd. apply Hc. lia.
Qed.
