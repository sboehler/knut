(* C20: a day on which nothing but deposits and withdrawals touches the portfolio.
   For the repaired `portfolio returns`: on every processed (valued) day all of whose
   transactions are untargeted (t_targets = None: no @performance annotation and no value
   adjustment booked by Valuate, i.e. prices unchanged) the Performance record satisfies
       V1 = V0 + inflow + outflow
   hence (PortfolioProofs.external_flows_zero) a period made of such days reports 0 (or an
   undefined number).  Ingredients:
   - ComputeValues: V1 - V0 of a day is the sum of the values the day books on portfolio
     accounts in filtered commodities (PortfolioValuesFull.values_fold_sum);
   - ComputeFlows on an untargeted transaction: the flows map sums to the bookings between a
     portfolio account and a non-portfolio account; split distributes it over Inflows/Outflows
     without changing the total; internal and portfolio flows stay empty;
   - bookings between two portfolio accounts cancel (PairAccounts.paired2). *)
From Coq Require Import ZArith QArith Qfield List Bool Lia.
From Knut Require Import Proofs.ListFacts Model.Str Model.Dec Model.Date Model.Account Model.Ledger Model.Price
     Model.Journal Model.Check Model.Pipeline Model.Cli Model.Perf Model.Weights Model.CliPortfolio
     Spec.PortfolioSpec
     Proofs.DecProofs Proofs.DecValue Proofs.SMapProofs Proofs.PairAccounts Proofs.PortfolioDays
     Proofs.PortfolioReturns Proofs.PortfolioWeights Proofs.PortfolioProofs Proofs.PortfolioAlgebra
     Proofs.PortfolioValuesFull.
Import ListNotations.
Open Scope Q_scope.

Lemma load_days_ok2 ds b : load ds = COk b -> Forall day2_ok (b_days b).
Proof.
  unfold load. intros H. destruct (parse_directives ds) as [l| |] eqn:E; cbn [of_mresult cbind] in H; try discriminate.
  inversion H; subst. apply builder_of_ok. eapply parse_directives_ok. exact E.
Qed.

Lemma valued_days_ok2 cfg days days' : Forall day2_ok days -> valued_days cfg days = COk days' -> Forall day2_ok days'.
Proof.
  intros Hd H. apply valued_days_inv in H. destruct (pc_valuation cfg) as [v|]; [|subst; exact Hd].
  destruct H as (s1 & d1 & s3 & E1 & E3).
  exact (valuate_stage_ok _ _ _ _ _ (prices_stage_ok _ _ _ _ _ Hd E1) E3).
Qed.

Definition val_sum (f : posting -> bool) (ps : list posting) : Q :=
  qsum (map (fun p => if f p then dec_q (p_val p) else 0) ps).

(* booked on a portfolio account from/to a non-portfolio account, resp. another portfolio account *)
Definition ext_b (c : calc) (p : posting) : bool := booked c p && negb (is_portfolio c (p_other p)).
Definition int_b (c : calc) (p : posting) : bool := booked c p && is_portfolio c (p_other p).

Lemma val_sum_app f a b : val_sum f (a ++ b) == val_sum f a + val_sum f b.
Proof. unfold val_sum. rewrite map_app. apply qsum_app. Qed.

Lemma val_sum_cons f p ps : val_sum f (p :: ps) == (if f p then dec_q (p_val p) else 0) + val_sum f ps.
Proof. reflexivity. Qed.

Lemma val_sum_booked c ps : val_sum (booked c) ps == val_sum (ext_b c) ps + val_sum (int_b c) ps.
Proof.
  induction ps as [|p ps IH]; [unfold val_sum, qsum; cbn; ring|]. rewrite !val_sum_cons, IH.
  unfold ext_b, int_b. destruct (booked c p); destruct (is_portfolio c (p_other p)); cbn [andb negb]; ring.
Qed.

(* bookings between two portfolio accounts cancel *)
Lemma val_sum_int_paired c ps : paired2 ps -> val_sum (int_b c) ps == 0.
Proof.
  induction 1 as [|p p' rest Hp Hrest IH]; [reflexivity|]. rewrite !val_sum_cons, IH.
  destruct Hp as (Hc & _ & Hv & Ha & Ho).
  assert (E : int_b c p = int_b c p').
  { unfold int_b, booked. rewrite Hc, Ha, Ho.
    destruct (ca_com c (p_com p')); destruct (is_portfolio c (p_other p')); destruct (is_portfolio c (p_acc p')); reflexivity. }
  rewrite E, Hv. destruct (int_b c p'); [rewrite dec_q_neg|]; ring.
Qed.

Lemma val_sum_int_day c x : day2_ok x -> val_sum (int_b c) (day_postings x) == 0.
Proof.
  unfold day2_ok, day_postings. induction 1 as [|t ts Ht Hts IH]; cbn [flat_map]; [reflexivity|].
  rewrite val_sum_app, IH, (val_sum_int_paired c _ Ht). ring.
Qed.

Definition cf_run (ff : bool) (c : calc) := pure_days (Some cf_day_start) (Some (cf_txn ff c)) None (Some cf_day_end).

(* the Flows record of a day depends on the day only *)
Definition cf_day_rec (ff : bool) (c : calc) (x : day) : flows_day :=
  cf_cur (cf_day_end (fold_left (cf_txn ff c) (d_txns x) (mkCf 0 flows_zero [])) x).

Lemma cf_txn_out ff c pf cur out t :
  cf_txn ff c (mkCf pf cur out) t =
  mkCf (cf_portfolio (cf_txn ff c (mkCf pf cur []) t)) (cf_cur (cf_txn ff c (mkCf pf cur []) t)) out.
Proof.
  unfold cf_txn. cbn [cf_portfolio cf_cur cf_out].
  destruct (fold_left _ (t_postings t) _) as [[flows intf] pf']. reflexivity.
Qed.

Lemma cf_txns_out ff c ts : forall pf cur out,
  fold_left (cf_txn ff c) ts (mkCf pf cur out) =
  mkCf (cf_portfolio (fold_left (cf_txn ff c) ts (mkCf pf cur []))) (cf_cur (fold_left (cf_txn ff c) ts (mkCf pf cur []))) out.
Proof.
  induction ts as [|t ts IH]; intros pf cur out; cbn [fold_left]; [reflexivity|].
  rewrite cf_txn_out, IH. rewrite (cf_txn_out ff c pf cur []). rewrite (IH _ _ []). reflexivity.
Qed.

Lemma cf_day_step ff c s x :
  pure_day (Some cf_day_start) (Some (cf_txn ff c)) None (Some cf_day_end) s x =
  mkCf (cf_portfolio (cf_day_end (fold_left (cf_txn ff c) (d_txns x) (mkCf 0 flows_zero [])) x))
       (cf_day_rec ff c x) (cf_out s ++ [(d_date x, cf_day_rec ff c x)]).
Proof.
  unfold pure_day, opt_app, pure_txn, opt_app, cf_day_rec, cf_day_start.
  rewrite cf_txns_out. unfold cf_day_end. cbn [cf_portfolio cf_cur cf_out app]. reflexivity.
Qed.

Lemma cf_run_recs ff c days : forall s,
  cf_out (cf_run ff c s days) = cf_out s ++ map (fun x => (d_date x, cf_day_rec ff c x)) days.
Proof.
  unfold cf_run, pure_days. induction days as [|x r IH]; intros s; cbn [fold_left map]; [rewrite app_nil_r; reflexivity|].
  rewrite IH, cf_day_step. cbn [cf_out]. rewrite <- app_assoc. reflexivity.
Qed.

Lemma day_flows_recs fx cfg days fs :
  day_flows fx cfg days = COk fs -> fs = map (fun x => (d_date x, cf_day_rec (fx_flowfilter fx) (pf_calc cfg) x)) days.
Proof.
  unfold day_flows, run_stage, compute_flows_proc. rewrite pure_proc_days. cbn [of_presult cbind fst snd].
  intros H. inversion H; subst.
  fold (cf_run (fx_flowfilter fx) (pf_calc cfg) cf_init days). rewrite cf_run_recs. reflexivity.
Qed.

Lemma cf_posting_none c flows intf pf p :
  cf_posting true c None (flows, intf, pf) p =
  if ext_b c p then (pcv_add flows (p_com p) (dec_q (p_val p)), intf, pf) else (flows, intf, pf).
Proof.
  unfold cf_posting, ext_b, booked. cbn [andb].
  destruct (ca_com c (p_com p)); destruct (is_portfolio c (p_acc p)); destruct (is_portfolio c (p_other p)); reflexivity.
Qed.

Lemma cf_postings_none c ps : forall flows intf pf, sorted flows ->
  exists flows', fold_left (cf_posting true c None) ps (flows, intf, pf) = (flows', intf, pf) /\
                 sorted flows' /\ pcv_sum flows' == pcv_sum flows + val_sum (ext_b c) ps.
Proof.
  induction ps as [|p ps IH]; intros flows intf pf Hs; cbn [fold_left].
  - exists flows. split; [reflexivity|]. split; [exact Hs|]. unfold val_sum, qsum. cbn. ring.
  - rewrite cf_posting_none. pose proof (val_sum_cons (ext_b c) p ps) as Hc. destruct (ext_b c p).
    + destruct (IH (pcv_add flows (p_com p) (dec_q (p_val p))) intf pf (pcv_add_sorted _ _ _ Hs)) as [f' [H1 [H2 H3]]].
      exists f'. split; [exact H1|]. split; [exact H2|]. rewrite H3, Hc, pcv_add_sum by exact Hs. ring.
    + destruct (IH flows intf pf Hs) as [f' [H1 [H2 H3]]].
      exists f'. split; [exact H1|]. split; [exact H2|]. rewrite H3, Hc. ring.
Qed.

Lemma q_not_pos_neg f : q_is_pos f = false -> q_is_neg f = false -> f == 0.
Proof.
  unfold q_is_pos, q_is_neg. intros H1 H2. apply Z.ltb_ge in H1, H2. unfold Qeq. cbn. lia.
Qed.

(* split moves every entry to one of the two maps (or drops a zero): the total is unchanged *)
Lemma split_flows_sum flows : forall io, sorted (fst io) -> sorted (snd io) ->
  sorted (fst (split_flows flows io)) /\ sorted (snd (split_flows flows io)) /\
  pcv_sum (fst (split_flows flows io)) + pcv_sum (snd (split_flows flows io)) ==
  pcv_sum (fst io) + pcv_sum (snd io) + qsum (map snd flows).
Proof.
  unfold split_flows. induction flows as [|[k f] flows IH]; intros io H1 H2; cbn [fold_left map].
  - split; [exact H1|]. split; [exact H2|]. unfold qsum. cbn [map fold_right]. rewrite Qplus_0_r. reflexivity.
  - rewrite qsum_cons. cbn [snd]. destruct (q_is_pos f) eqn:Ep; [|destruct (q_is_neg f) eqn:En].
    + destruct (IH (pcv_add (fst io) k f, snd io) (pcv_add_sorted _ _ _ H1) H2) as [G1 [G2 G3]].
      split; [exact G1|]. split; [exact G2|]. rewrite G3. cbn [fst snd]. rewrite pcv_add_sum by exact H1. ring.
    + destruct (IH (fst io, pcv_add (snd io) k f) H1 (pcv_add_sorted _ _ _ H2)) as [G1 [G2 G3]].
      split; [exact G1|]. split; [exact G2|]. rewrite G3. cbn [fst snd]. rewrite pcv_add_sum by exact H2. ring.
    + destruct (IH io H1 H2) as [G1 [G2 G3]].
      split; [exact G1|]. split; [exact G2|]. rewrite G3, (q_not_pos_neg f Ep En). ring.
Qed.

(* the invariant of the day's loop over untargeted transactions *)
Record cf_inv (c : calc) (s : cf_state) (total : Q) : Prop := mkCfInv {
  ci_pf : cf_portfolio s = 0;
  ci_in : sorted (fl_in (cf_cur s));
  ci_out : sorted (fl_out (cf_cur s));
  ci_sum : pcv_sum (fl_in (cf_cur s)) + pcv_sum (fl_out (cf_cur s)) == total }.

Lemma cf_txn_untargeted c s t total :
  t_targets t = None -> cf_inv c s total -> cf_inv c (cf_txn true c s t) (total + val_sum (ext_b c) (t_postings t)).
Proof.
  intros Ht [Hpf Hin Hout Hsum]. unfold cf_txn. rewrite Ht. cbn [pick_targets].
  assert (Hnil : sorted ([] : pcv)) by constructor.
  destruct (cf_postings_none c (t_postings t) [] [] (cf_portfolio s) Hnil) as [flows [Hfl [Hfs Hfsum]]].
  match goal with |- context [fold_left ?f ?l ?a] => remember (fold_left f l a) as r eqn:Er end.
  assert (Hr : r = (flows, [], cf_portfolio s)) by (rewrite Er; exact Hfl). rewrite Hr. clear r Er Hr Hfl.
  destruct (split_flows_sum flows (fl_in (cf_cur s), fl_out (cf_cur s)) Hin Hout) as [G1 [G2 G3]].
  constructor; cbn [cf_portfolio cf_cur fl_in fl_out]; [exact Hpf|exact G1|exact G2|].
  rewrite G3. cbn [fst snd]. rewrite Hsum, <- pcv_sum_spec, Hfsum.
  unfold pcv_sum at 1. cbn [fold_left]. ring.
Qed.

Lemma cf_txns_untargeted c ts : forall s total,
  Forall (fun t => t_targets t = None) ts -> cf_inv c s total ->
  cf_inv c (fold_left (cf_txn true c) ts s) (total + val_sum (ext_b c) (flat_map t_postings ts)).
Proof.
  induction ts as [|t ts IH]; intros s total Hts Hinv; cbn [fold_left flat_map].
  - destruct Hinv as [H1 H2 H3 H4]. constructor; try assumption. rewrite H4. unfold val_sum, qsum. cbn. ring.
  - inversion Hts as [|? ? Ht Hrest]; subst.
    pose proof (IH _ _ Hrest (cf_txn_untargeted c s t total Ht Hinv)) as [H1 H2 H3 H4].
    constructor; try assumption. rewrite H4, val_sum_app. ring.
Qed.

Definition untargeted (x : day) : Prop := Forall (fun t => t_targets t = None) (d_txns x).

(* the Flows record of an untargeted day: no portfolio flows; Inflows + Outflows = the day's
   bookings between portfolio and non-portfolio accounts *)
Lemma cf_day_untargeted c x :
  untargeted x ->
  fl_pin (cf_day_rec true c x) = 0 /\ fl_pout (cf_day_rec true c x) = 0 /\
  pcv_sum (fl_in (cf_day_rec true c x)) + pcv_sum (fl_out (cf_day_rec true c x)) == val_sum (ext_b c) (day_postings x).
Proof.
  intros Hx. unfold cf_day_rec.
  assert (H0 : cf_inv c (mkCf 0 flows_zero []) 0).
  { constructor; cbn [cf_portfolio cf_cur flows_zero fl_in fl_out]; try constructor. }
  pose proof (cf_txns_untargeted c (d_txns x) _ _ Hx H0) as [H1 H2 H3 H4].
  unfold cf_day_end. cbn [cf_cur fl_pin fl_pout fl_in fl_out]. rewrite H1.
  split; [reflexivity|]. split; [reflexivity|]. rewrite H4. unfold day_postings. ring.
Qed.

Lemma asc_nodup l : asc l -> NoDup l.
Proof.
  induction l as [|x l IH]; intros H; constructor.
  - intros Hin. pose proof (asc_lt _ _ H x Hin). lia.
  - apply IH. exact (asc_tail _ _ H).
Qed.

Lemma flows_at_map (F : day -> flows_day) days x :
  NoDup (map d_date days) -> In x days -> flows_at (map (fun y => (d_date y, F y)) days) (d_date x) = F x.
Proof.
  induction days as [|y r IH]; intros Hnd Hin; [destruct Hin|].
  cbn [map flows_at]. cbn [map] in Hnd. inversion Hnd as [|? ? Hnotin Hnd']; subst. destruct Hin as [->|Hin].
  - rewrite Z.eqb_refl. reflexivity.
  - replace (d_date x =? d_date y)%Z with false; [exact (IH Hnd' Hin)|].
    symmetry. apply Z.eqb_neq. intros E. apply Hnotin. rewrite <- E. apply in_map. exact Hin.
Qed.

(* what flowed in and out accounts for the whole change in value *)
Definition flows_explain (p : perf) : Prop := p_v1 p == p_v0 p + p_inflow p + p_outflow p.

Lemma untargeted_day_law c m x :
  sorted m -> day2_ok x -> untargeted x ->
  flows_explain (mkPerf (d_date x) (vals_pcv m) (vals_pcv (fold_left (values_step c) (day_postings x) m)) (cf_day_rec true c x)).
Proof.
  intros Hm Hok Hx. unfold flows_explain, p_v1, p_v0, p_inflow, p_outflow. cbn [pf_v0 pf_v1 pf_flows].
  destruct (cf_day_untargeted c x Hx) as [Hpin [Hpout Hsum]]. rewrite Hpin, Hpout.
  rewrite !pcv_sum_vals, values_fold_sum by exact Hm. fold (val_sum (booked c) (day_postings x)).
  rewrite val_sum_booked, (val_sum_int_day c x Hok), <- Hsum. ring.
Qed.

Definition record_of (x : day) (p : perf) : Prop := pf_date p = d_date x /\ (untargeted x -> flows_explain p).

Lemma perf_records_law c days0 :
  NoDup (map d_date days0) -> Forall day2_ok days0 ->
  forall days m, incl days days0 -> sorted m ->
  Forall2 record_of days
          (join_perf (cv_recs c m days) (map (fun x => (d_date x, cf_day_rec true c x)) days0)).
Proof.
  intros Hnd Hok. induction days as [|x r IH]; intros m Hincl Hm; cbn [cv_recs]; [constructor|].
  unfold join_perf. cbn [map fst snd]. fold (join_perf (cv_recs c (fold_left (values_step c) (day_postings x) m) r)
                                                     (map (fun x0 => (d_date x0, cf_day_rec true c x0)) days0)).
  assert (Hx : In x days0) by (apply Hincl; left; reflexivity).
  constructor.
  - split; [reflexivity|]. intros Hu. rewrite (flows_at_map (cf_day_rec true c) days0 x Hnd Hx).
    apply untargeted_day_law; [exact Hm| |exact Hu]. rewrite Forall_forall in Hok. exact (Hok x Hx).
  - apply IH; [|apply values_fold_sorted; exact Hm]. intros y Hy. apply Hincl. right. exact Hy.
Qed.

Theorem external_flows_zero_full cfg ds out :
  returns_fixed cfg ds = COk out ->
  exists b part days vs fs,
    (* the intermediate results of returnsRunner.execute *)
    load ds = COk b /\ pf_partition cfg b = COk part /\
    valued_days cfg (b_days (builder_touch b (end_dates part))) = COk days /\
    day_values cfg days = COk vs /\ day_flows repaired cfg (snd vs) = COk fs /\
    out = perf_loop part (end_dates part) (Some 1) (join_perf (fst vs) fs) /\
    map pf_date (join_perf (fst vs) fs) = map d_date days /\
    (* every stretch l ++ [p] of the Performance records whose days are untargeted *)
    forall l p, (exists pre rest, join_perf (fst vs) fs = pre ++ l ++ p :: rest) ->
      (forall x, In x days -> In (d_date x) (map pf_date (l ++ [p])) -> untargeted x) ->
      Forall flows_explain (l ++ [p]) /\ is_or_undef (reported part (end_dates part) l p) 0.
Proof.
  unfold returns_fixed, returns_gen. cbn [fx_wiring repaired]. intros H.
  destruct (check_valuation cfg); cbn [cbind] in H; try discriminate.
  destruct (load ds) as [b| |] eqn:El; cbn [cbind] in H; try discriminate.
  destruct (pf_partition cfg b) as [part| |] eqn:Ep; cbn [cbind] in H; try discriminate.
  destruct (valued_days cfg _) as [days| |] eqn:Ev; cbn [cbind] in H; try discriminate.
  destruct (day_values cfg days) as [vs| |] eqn:Edv; cbn [cbind] in H; try discriminate.
  destruct (day_flows _ cfg (snd vs)) as [fs| |] eqn:Ef; cbn [cbind] in H; try discriminate.
  inversion H; subst out. clear H.
  exists b, part, days, vs, fs.
  split; [reflexivity|]. split; [exact Ep|]. split; [exact Ev|]. split; [exact Edv|]. split; [exact Ef|]. split; [reflexivity|].
  rewrite day_values_recs in Edv. injection Edv as <-. cbn [fst snd] in *.
  pose proof (day_flows_recs _ _ _ _ Ef) as Hfs. cbn [fx_flowfilter repaired] in Hfs. subst fs.
  assert (Hasc : asc (map d_date days)) by (eapply command_days_asc; eauto).
  assert (Hok : Forall day2_ok days).
  { eapply valued_days_ok2; [|exact Ev]. apply builder_touch_ok. eapply load_days_ok2. exact El. }
  assert (Hnil : sorted ([] : vals)) by constructor.
  pose proof (perf_records_law (pf_calc cfg) days (asc_nodup _ Hasc) Hok days [] (incl_refl _) Hnil) as Hrec.
  split.
  { rewrite join_perf_dates. apply cv_recs_dates. }
  intros l p [pre [rest Hsplit]] Hunt.
  assert (Hlaw : Forall flows_explain (l ++ [p])).
  { apply Forall_forall. intros q Hq.
    assert (Hqin : In q (join_perf (cv_recs (pf_calc cfg) [] days)
                                   (map (fun x => (d_date x, cf_day_rec true (pf_calc cfg) x)) days))).
    { rewrite Hsplit. apply in_or_app. right.
      replace (l ++ p :: rest) with ((l ++ [p]) ++ rest) by (rewrite <- app_assoc; reflexivity).
      apply in_or_app. left. exact Hq. }
    destruct (Forall2_in_r _ _ _ q Hrec Hqin) as [x [Hx [Hd Hl]]]. apply Hl. apply (Hunt x Hx).
    rewrite <- Hd. apply in_map. exact Hq. }
  split; [exact Hlaw|]. apply external_flows_zero. exact Hlaw.
Qed.

(* after a processed period end the running product starts again at 1 *)
Lemma perf_loop_reset part ends pre q x : forall r,
  partition_contains part (pf_date q) = true -> mem ends (pf_date q) = true ->
  perf_loop part ends r (pre ++ q :: x) = perf_loop part ends r (pre ++ [q]) ++ perf_loop part ends (Some 1) x.
Proof.
  intros r Hc Hm. unfold mem in Hm. revert r. induction pre as [|y pre IH]; intros r; cbn [app perf_loop].
  - rewrite Hc, Hm. cbn [negb app]. reflexivity.
  - destruct (negb (partition_contains part (pf_date y))); [apply IH|].
    destruct (existsb (Z.eqb (pf_date y)) ends); [cbn [app]; f_equal|]; apply IH.
Qed.

(* the records before a period: all before the window, or ending with a processed period end *)
Definition boundary (part : partition) (ends : list Z) (pre : list perf) : Prop :=
  Forall (fun x => partition_contains part (pf_date x) = false) pre \/
  exists pre' q, pre = pre' ++ [q] /\ partition_contains part (pf_date q) = true /\ mem ends (pf_date q) = true.

Lemma perf_loop_boundary part ends pre x :
  boundary part ends pre ->
  perf_loop part ends (Some 1) (pre ++ x) = perf_loop part ends (Some 1) pre ++ perf_loop part ends (Some 1) x.
Proof.
  intros [H|[pre' [q [-> [Hc Hm]]]]].
  - rewrite (perf_loop_skip part ends pre x _ H).
    pose proof (perf_loop_skip part ends pre [] (Some 1) H) as H0. rewrite app_nil_r in H0. rewrite H0. reflexivity.
  - rewrite <- app_assoc. cbn [app]. apply perf_loop_reset; assumption.
Qed.

(* the line of a period that starts at a boundary is printed *)
Lemma reported_printed part ends pre l p rest :
  boundary part ends pre ->
  Forall (fun x => partition_contains part (pf_date x) = true /\ mem ends (pf_date x) = false) l ->
  partition_contains part (pf_date p) = true -> mem ends (pf_date p) = true ->
  In (pf_date p, reported part ends l p) (perf_loop part ends (Some 1) (pre ++ l ++ p :: rest)).
Proof.
  intros Hb Hl Hc Hm. rewrite (perf_loop_boundary _ _ _ _ Hb), (period_reported part ends l p rest Hl Hc Hm).
  apply in_or_app. right. left. reflexivity.
Qed.

Theorem external_flows_zero_line cfg ds out :
  returns_fixed cfg ds = COk out ->
  exists part days perfs,
    map pf_date perfs = map d_date days /\ out = perf_loop part (end_dates part) (Some 1) perfs /\
    forall pre l p rest, perfs = pre ++ l ++ p :: rest ->
      boundary part (end_dates part) pre ->
      Forall (fun x => partition_contains part (pf_date x) = true /\ mem (end_dates part) (pf_date x) = false) l ->
      partition_contains part (pf_date p) = true -> mem (end_dates part) (pf_date p) = true ->
      (forall x, In x days -> In (d_date x) (map pf_date (l ++ [p])) -> untargeted x) ->
      exists r, In (pf_date p, r) out /\ is_or_undef r 0.
Proof.
  intros H. destruct (external_flows_zero_full cfg ds out H) as [b [part [days [vs [fs [_ [_ [_ [_ [_ [Hout [Hdates Hlaw]]]]]]]]]]]].
  exists part, days, (join_perf (fst vs) fs). split; [exact Hdates|]. split; [exact Hout|].
  intros pre l p rest Hsplit Hb Hl Hc Hm Hunt.
  destruct (Hlaw l p (ex_intro _ pre (ex_intro _ rest Hsplit)) Hunt) as [_ Hzero].
  exists (reported part (end_dates part) l p). split; [|exact Hzero].
  rewrite Hout, Hsplit. apply reported_printed; assumption.
Qed.
