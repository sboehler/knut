(* C20: the hypotheses of the two full theorems (weights_match_balance_full,
   external_flows_zero_full) on a concrete run.
   W5: the journal W2 of PortfolioWitness (1000 CHF and 5 AAPL at 100 CHF bought in January; prices
   unchanged; February: one external deposit of 500 CHF on the 10th), `--months --to 2023-02-28 -v CHF`,
   no filters.  The valued days are 01-01, 01-05, 01-31, 02-10, 02-28; February is a deposit-only
   period. *)
From Coq Require Import ZArith QArith List Bool Lia.
From Knut Require Import Model.Str Model.Dec Model.Date Model.Account Model.Ledger Model.Price
     Model.Journal Model.Check Model.Pipeline Model.Report Model.Cli Model.Perf Model.Weights
     Model.CliPortfolio Spec.PortfolioSpec Spec.WellformedSpec
     Proofs.SMapProofs Proofs.PortfolioDays Proofs.PortfolioReturns Proofs.PortfolioWeights Proofs.PortfolioProofs
     Proofs.PortfolioWitness Proofs.PortfolioAlgebra Proofs.PortfolioValuesFull Proofs.PortfolioFlowsFull
     Proofs.PortfolioQuietDays.
Import ListNotations.
Open Scope Z_scope.

Definition w5_cfg : pf_cfg := mkPfCfg 0 (feb 28) Monthly 0 (Some CHF) [] [] [] false None true.

(* the intermediate results of returnsRunner.execute (as in external_flows_zero_full) *)
Definition w5_part : partition :=
  match load w2_journal with
  | COk b => match pf_partition w5_cfg b with COk part => part | _ => mkPartition (mkPeriod 0 0) Once [] end
  | _ => mkPartition (mkPeriod 0 0) Once []
  end.
Definition w5_days : list day :=
  match load w2_journal with
  | COk b => match valued_days w5_cfg (b_days (builder_touch b (end_dates w5_part))) with COk days => days | _ => [] end
  | _ => []
  end.
Definition w5_vs : list (Z * (pcv * pcv)) * list day :=
  match day_values w5_cfg w5_days with COk vs => vs | _ => ([], []) end.
Definition w5_fs : list (Z * flows_day) :=
  match day_flows repaired w5_cfg (snd w5_vs) with COk fs => fs | _ => [] end.
Definition w5_perfs : list perf := join_perf (fst w5_vs) w5_fs.

Lemma w5_runs :
  exists b, load w2_journal = COk b /\ pf_partition w5_cfg b = COk w5_part /\
    valued_days w5_cfg (b_days (builder_touch b (end_dates w5_part))) = COk w5_days /\
    day_values w5_cfg w5_days = COk w5_vs /\ day_flows repaired w5_cfg (snd w5_vs) = COk w5_fs.
Proof.
  (* one evaluation shows that every stage succeeds; the equations then hold by the definitions *)
  assert (H : match load w2_journal with
              | COk b => match pf_partition w5_cfg b with
                | COk part => match valued_days w5_cfg (b_days (builder_touch b (end_dates part))) with
                  | COk days => match day_values w5_cfg days with
                    | COk vs => ok (day_flows repaired w5_cfg (snd vs))
                    | _ => false end
                  | _ => false end
                | _ => false end
              | _ => false end = true) by (vm_compute; reflexivity).
  unfold w5_fs, w5_vs, w5_days, w5_part.
  destruct (load w2_journal) as [b| |]; try discriminate H. exists b. split; [reflexivity|].
  destruct (pf_partition w5_cfg b) as [part| |]; try discriminate H. split; [reflexivity|].
  destruct (valued_days w5_cfg _) as [days| |]; try discriminate H. split; [reflexivity|].
  destruct (day_values w5_cfg days) as [vs| |]; try discriminate H. split; [reflexivity|].
  destruct (day_flows repaired w5_cfg (snd vs)); [reflexivity|discriminate H|discriminate H].
Qed.

Definition untargeted_b (x : day) : bool :=
  forallb (fun t => match t_targets t with None => true | Some _ => false end) (d_txns x).

Lemma untargeted_b_ok x : untargeted_b x = true -> untargeted x.
Proof.
  unfold untargeted_b, untargeted. rewrite forallb_forall, Forall_forall. intros H t Ht.
  specialize (H t Ht). destruct (t_targets t); [discriminate|reflexivity].
Qed.

(* the dates of the valued days; February's days are untargeted (January's too, here) *)
Lemma w5_dates : map d_date w5_days = [jan 1; jan 5; jan 31; feb 10; feb 28].
Proof. vm_compute. reflexivity. Qed.

Lemma w5_february_untargeted x : In x w5_days -> In (d_date x) [feb 10; feb 28] -> untargeted x.
Proof.
  intros Hx _. apply untargeted_b_ok. revert x Hx. apply forallb_forall. vm_compute. reflexivity.
Qed.

(* the Performance records of February: the 10th (the deposit) and the 28th (the period end) *)
Definition w5_l : list perf := firstn 1 (skipn 3 w5_perfs).
Definition w5_p : perf := nth 4 w5_perfs (mkPerf 0 [] [] flows_zero).

(* the whole run is evaluated here, once: V0, V1 and the inflows of the five valued days, and the two periods *)
Definition w5_hold (chf : Z) : pcv := [(AAPL, inject_Z 500); (CHF, inject_Z chf)].

Lemma w5_perfs_eq :
  w5_perfs =
  [ mkPerf (jan 1) [] [] flows_zero;
    mkPerf (jan 5) [] (w5_hold 1000) (mkFlows (w5_hold 1000) [] [] [] 0 0);
    mkPerf (jan 31) (w5_hold 1000) (w5_hold 1000) flows_zero;
    mkPerf (feb 10) (w5_hold 1000) (w5_hold 1500) (mkFlows [(CHF, inject_Z 500)] [] [] [] 0 0);
    mkPerf (feb 28) (w5_hold 1500) (w5_hold 1500) flows_zero ] /\
  w5_part = mkPartition (mkPeriod (jan 5) (feb 28)) Monthly [mkPeriod (jan 5) (jan 31); mkPeriod (feb 1) (feb 28)].
Proof. vm_compute. split; reflexivity. Qed.

(* puts the records and the partition in place of their names, so that what is evaluated is small *)
Ltac w5_explicit := unfold w5_l, w5_p; rewrite ?(proj1 w5_perfs_eq), ?(proj2 w5_perfs_eq).

Lemma w5_split : w5_perfs = firstn 3 w5_perfs ++ w5_l ++ w5_p :: [] /\ map pf_date (w5_l ++ [w5_p]) = [feb 10; feb 28].
Proof. w5_explicit. vm_compute. split; reflexivity. Qed.

(* the deposit is an inflow of the 10th: V0 = 1500, inflow = 500, V1 = 2000 *)
Lemma w5_deposit :
  match w5_l with
  | [q] => (p_v0 q == 1500 # 1)%Q /\ (p_inflow q == 500 # 1)%Q /\ (p_outflow q == 0)%Q /\ (p_v1 q == 2000 # 1)%Q
  | _ => False
  end.
Proof. w5_explicit. vm_compute. repeat split; reflexivity. Qed.

Lemma w5_reported : reported w5_part (end_dates w5_part) w5_l w5_p = Some 0%Q.
Proof. w5_explicit. vm_compute. reflexivity. Qed.

Lemma w5_returns : second_return (returns_fixed w5_cfg w2_journal) = Some 0%Q.
Proof. vm_compute. reflexivity. Qed.

(* the hypotheses of weights_match_balance_full on W5 *)

Definition w5_pre : list day := firstn 3 w5_days.
Definition w5_d : day := nth 3 w5_days (empty_day 0).
Definition w5_post : list day := skipn 4 w5_days.
Definition w5_accs : list account := [a_bank; a_broker; a_opening].

Lemma w5_days_split : w5_days = w5_pre ++ w5_d :: w5_post /\ d_date w5_d = feb 10 /\ length w5_pre = 3%nat.
Proof. vm_compute. repeat split; reflexivity. Qed.

Lemma w5_asc : asc (map d_date (w5_pre ++ w5_d :: w5_post)).
Proof. destruct w5_days_split as [<- _]. rewrite w5_dates. vm_compute. repeat split; reflexivity. Qed.

Lemma covers_b_ok accs days d :
  NoDup (map acc_name accs) ->
  forallb (fun p => existsb (fun a => acc_eqb (p_acc p) a) accs) (postings_upto days d) = true ->
  covers accs days d.
Proof.
  intros Hnd H. split; [exact Hnd|]. rewrite forallb_forall in H. intros p Hp.
  specialize (H p Hp). apply existsb_exists in H. exact H.
Qed.

Lemma w5_covers : covers w5_accs (w5_pre ++ w5_d :: w5_post) (d_date w5_d).
Proof.
  destruct w5_days_split as [<- [-> _]]. apply covers_b_ok; [|vm_compute; reflexivity].
  vm_compute. repeat constructor; cbn [In]; intros H; repeat (destruct H as [H|H]; [discriminate H|]); exact H.
Qed.

Lemma w5_names_respected :
  names_respected (ca_acc (pf_calc w5_cfg)) w5_accs (postings_upto (w5_pre ++ w5_d :: w5_post) (d_date w5_d)).
Proof.
  destruct w5_days_split as [<- [-> _]]. apply names_respected_ok; apply Forall_forall.
  - apply forallb_forall. vm_compute. reflexivity.
  - intros p. revert p. apply forallb_forall. vm_compute. reflexivity.
Qed.

(* on 2023-02-10 the portfolio holds 1500 CHF and AAPL worth 500 CHF *)
Lemma w5_values :
  (portfolio_value (ca_acc (pf_calc w5_cfg)) (ca_com (pf_calc w5_cfg)) (w5_pre ++ w5_d :: w5_post) CHF (d_date w5_d) == 1500 # 1)%Q /\
  (portfolio_value_by_account (ca_acc (pf_calc w5_cfg)) (ca_com (pf_calc w5_cfg)) w5_accs (w5_pre ++ w5_d :: w5_post) AAPL (d_date w5_d) == 500 # 1)%Q.
Proof. destruct w5_days_split as [<- [-> _]]. vm_compute. split; reflexivity. Qed.

(* the hypotheses of external_flows_zero_line on W5 *)

(* the records before February end with the processed period end 2023-01-31; 02-10 is inside the
   window and no period end; 02-28 is a period end *)
Lemma w5_boundary : boundary w5_part (end_dates w5_part) (firstn 3 w5_perfs).
Proof.
  right. exists (firstn 2 w5_perfs), (nth 2 w5_perfs (mkPerf 0 [] [] flows_zero)).
  w5_explicit. repeat split; vm_compute; reflexivity.
Qed.

Lemma w5_stretch :
  Forall (fun x => partition_contains w5_part (pf_date x) = true /\ mem (end_dates w5_part) (pf_date x) = false) w5_l /\
  partition_contains w5_part (pf_date w5_p) = true /\ mem (end_dates w5_part) (pf_date w5_p) = true.
Proof.
  w5_explicit. cbn [firstn skipn]. split; [constructor; [|constructor]|]; split; vm_compute; reflexivity.
Qed.

(* the hypotheses of external_flows_zero_source on W5 *)
(* the days the builder makes from the directives (plus the period ends) *)
Definition w5_src_days : list day :=
  match load w2_journal with COk b => b_days (builder_touch b (end_dates w5_part)) | _ => [] end.

Lemma w5_src : exists b, load w2_journal = COk b /\ pf_partition w5_cfg b = COk w5_part /\
                         w5_src_days = b_days (builder_touch b (end_dates w5_part)).
Proof.
  destruct w5_runs as [b [H1 [H2 _]]]. exists b. split; [exact H1|]. split; [exact H2|].
  unfold w5_src_days. rewrite H1. reflexivity.
Qed.

Definition quiet_b (x : day) : bool := match d_prices x with [] => untargeted_b x | _ => false end.

Lemma quiet_b_ok x : quiet_b x = true -> quiet x.
Proof.
  unfold quiet_b, quiet. destruct (d_prices x); [|discriminate]. intros H. split; [reflexivity|apply untargeted_b_ok; exact H].
Qed.

(* February's days declare no price and carry no @performance annotation (2023-01-01 declares one) *)
Lemma w5_february_quiet x : In x w5_src_days -> In (d_date x) [feb 10; feb 28] -> quiet x.
Proof.
  intros Hx Hd. apply quiet_b_ok.
  assert (H : forallb (fun y => negb (mem [feb 10; feb 28] (d_date y)) || quiet_b y) w5_src_days = true) by (vm_compute; reflexivity).
  rewrite forallb_forall in H. specialize (H x Hx). apply mem_in in Hd. rewrite Hd in H. exact H.
Qed.

Lemma w5_january_not_quiet : existsb (fun y => negb (quiet_b y)) w5_src_days = true.
Proof. vm_compute. reflexivity. Qed.
