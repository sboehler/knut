(* C20: a vm_compute witness for the mapping law (W3).  The universe has the classes Equity:US
   (AAPL), Equity:CH (NESN) and Cash (CHF); the rule `-m 1,^Equity:US` folds AAPL into the row
   Equity, which keeps its member CH: the node Equity is a leaf (booked on) and a group at once. *)
From Coq Require Import ZArith QArith List Bool.
From Knut Require Import Model.Str Model.Dec Model.Date Model.Account Model.Ledger Model.Price
     Model.Journal Model.Check Model.Pipeline Model.Report Model.Cli Model.Perf Model.Weights
     Model.CliPortfolio Spec.PortfolioSpec Spec.PortfolioMapSpec Proofs.PortfolioWitness Proofs.PortfolioTree.
Import ListNotations.
Open Scope Z_scope.

Definition NESN : str := [78;69;83;78].
Definition s_US : str := [85;83].
Definition s_CH : str := [67;72].
Definition s_Cash : str := [67;97;115;104].
Definition c_EquityUS : str := s_Equity ++ [colon] ++ s_US.     (* Equity:US *)
Definition c_EquityCH : str := s_Equity ++ [colon] ++ s_CH.     (* Equity:CH *)

Definition w3_universe : list (str * list commodity) :=
  [ (c_EquityUS, [AAPL]); (c_EquityCH, [NESN]); (s_Cash, [CHF]) ].

Definition w3_journal : list sdirective :=
  [ SOpen (jan 1) a_bank; SOpen (jan 1) a_broker; SOpen (jan 1) a_opening;
    SPrice (jan 1) AAPL (of_int 100) CHF; SPrice (jan 1) NESN (of_int 50) CHF;
    plain (jan 5) a_opening a_bank 1000 CHF;
    plain (jan 10) a_opening a_broker 5 AAPL;
    plain (jan 10) a_opening a_broker 10 NESN;
    SPrice (feb 10) AAPL (of_int 200) CHF ].

(* -m 1,^Equity:US *)
Definition w3_rule : rule := mkRule 1 0 (Some (mkRx true c_EquityUS false)).

Definition w3_cfg : pf_cfg :=
  mkPfCfg 0 (feb 28) Monthly 0 (Some CHF) [] [] [w3_rule] true (Some w3_universe) true.

Definition w3_entries : list entry := match weights_entries w3_cfg w3_journal with COk es => es | _ => [] end.
Definition w3_entries0 : list entry :=
  match weights_entries (pf_unmapped w3_cfg) w3_journal with COk es => es | _ => [] end.
Definition w3_table : list Z * list wrow := match weights_table w3_cfg w3_journal with COk t => t | _ => ([], []) end.
Definition w3_table0 : list Z * list wrow :=
  match weights_table (pf_unmapped w3_cfg) w3_journal with COk t => t | _ => ([], []) end.

(* the pipeline is evaluated once, for the run without -m; the run with -m follows through map_path
   (weights_entries_both), the tables are rendered from the entries *)
Lemma w3_entries0_eq :
  w3_entries0 =
  [ ([s_Equity; s_US; AAPL], jan 31, Some (1 # 4)%Q); ([s_Cash; CHF], jan 31, Some (1 # 2)%Q);
    ([s_Equity; s_CH; NESN], jan 31, Some (1 # 4)%Q);
    ([s_Equity; s_US; AAPL], feb 10, Some (2 # 5)%Q); ([s_Cash; CHF], feb 10, Some (2 # 5)%Q);
    ([s_Equity; s_CH; NESN], feb 10, Some (1 # 5)%Q) ].
Proof. vm_compute. reflexivity. Qed.

Lemma w3_run0 : weights_entries (pf_unmapped w3_cfg) w3_journal = COk w3_entries0.
Proof. apply ran. vm_compute. reflexivity. Qed.

(* with -m: AAPL is booked on the node Equity itself *)
Lemma w3_entries_eq :
  w3_entries =
  [ ([s_Equity], jan 31, Some (1 # 4)%Q); ([s_Cash; CHF], jan 31, Some (1 # 2)%Q);
    ([s_Equity; s_CH; NESN], jan 31, Some (1 # 4)%Q);
    ([s_Equity], feb 10, Some (2 # 5)%Q); ([s_Cash; CHF], feb 10, Some (2 # 5)%Q);
    ([s_Equity; s_CH; NESN], feb 10, Some (1 # 5)%Q) ].
Proof.
  unfold w3_entries. pose proof (weights_entries_both w3_cfg w3_journal) as B. rewrite w3_run0 in B.
  rewrite B, w3_entries0_eq. vm_compute. reflexivity.
Qed.

Lemma w3_run : weights_entries w3_cfg w3_journal = COk w3_entries.
Proof.
  pose proof (weights_entries_both w3_cfg w3_journal) as B. rewrite w3_run0, w3_entries0_eq in B.
  apply ran. rewrite B. vm_compute. reflexivity.
Qed.

Lemma w3_table_is : w3_table = render_weights true w3_entries.
Proof. unfold w3_table. rewrite (weights_table_of _ _ _ w3_run). reflexivity. Qed.

Lemma w3_table0_is : w3_table0 = render_weights true w3_entries0.
Proof. unfold w3_table0. rewrite (weights_table_of _ _ _ w3_run0). reflexivity. Qed.

Lemma w3_runs :
  weights_entries w3_cfg w3_journal = COk w3_entries /\ weights_entries (pf_unmapped w3_cfg) w3_journal = COk w3_entries0 /\
  weights_table w3_cfg w3_journal = COk w3_table /\ weights_table (pf_unmapped w3_cfg) w3_journal = COk w3_table0.
Proof.
  split; [exact w3_run|]. split; [exact w3_run0|]. rewrite w3_table_is, w3_table0_is.
  split; [exact (weights_table_of _ _ _ w3_run)|exact (weights_table_of _ _ _ w3_run0)].
Qed.

(* the rendered table with -m: Equity = 1/4 (AAPL, folded) + 1/4 (CH) on the first date, 2/5 + 1/5 on the second *)
Lemma w3_table_eq :
  w3_table =
  ([jan 31; feb 10],
   [ (0, s_Cash, [Some (Some (1 # 2)%Q); Some (Some (2 # 5)%Q)]);
     (2, CHF, [Some (Some (1 # 2)%Q); Some (Some (2 # 5)%Q)]);
     (0, s_Equity, [Some (Some (1 # 2)%Q); Some (Some (3 # 5)%Q)]);
     (2, s_CH, [Some (Some (1 # 4)%Q); Some (Some (1 # 5)%Q)]);
     (4, NESN, [Some (Some (1 # 4)%Q); Some (Some (1 # 5)%Q)]) ]).
Proof. rewrite w3_table_is, w3_entries_eq. vm_compute. reflexivity. Qed.

(* the node Equity of the mapped report is a leaf (Report.Add ended there) and has a child *)
Lemma w3_leaf_and_group :
  match wn_find [s_Equity] (propagate (report_of w3_entries)) with
  | Some n => wn_leaf n = true /\ map wn_seg (wn_children n) = [s_CH]
  | None => False
  end.
Proof. rewrite w3_entries_eq. vm_compute. split; reflexivity. Qed.

(* the sum of the members alone does not give the group: the plain group law fails, the mapping law holds *)
Lemma w3_laws :
  groups_ok_b 0 2 (srows w3_table) = false /\
  mapping_law_b 0 2 (pc_mapping w3_cfg) (srows w3_table0) (srows w3_table) = true.
Proof. rewrite w3_table_eq, w3_table0_is, w3_entries0_eq. vm_compute. split; reflexivity. Qed.

Lemma w3_node_law :
  (node_weight (propagate (report_of w3_entries)) [s_Equity] (jan 31) == 1 # 2)%Q /\
  (folded_weight (pc_mapping w3_cfg) w3_entries0 [s_Equity] (jan 31) == 1 # 4)%Q /\
  (node_weight (propagate (report_of w3_entries)) [s_Equity; s_CH] (jan 31) == 1 # 4)%Q /\
  (mapped_weight (pc_mapping w3_cfg) w3_entries0 [s_Equity] (jan 31) == 1 # 2)%Q.
Proof. rewrite w3_entries_eq, w3_entries0_eq. vm_compute. repeat split; reflexivity. Qed.

Lemma w3_defined : defined_entries w3_entries0.
Proof. rewrite w3_entries0_eq. repeat constructor; discriminate. Qed.

Lemma w3_prefix_free : prefix_free w3_entries0.
Proof. apply prefix_free_b. rewrite w3_entries0_eq. vm_compute. reflexivity. Qed.

Lemma w3_nonempty : Forall (fun e : entry => (let '(ss, _, _) := e in ss) <> []) w3_entries.
Proof. rewrite w3_entries_eq. repeat constructor; discriminate. Qed.

(* a class named like the path of a classified commodity: Equity (AAPL) and Equity:AAPL (NESN).
   In the table WITHOUT -m the row Equity > AAPL is a commodity and a group at once, so it is
   not among the leaf rows from which mapping_law_b reads the folded commodities: the executable
   statement is false on the (correct) tables of such a universe, whatever the mapping. *)
Definition w4_universe : list (str * list commodity) :=
  [ (s_Equity, [AAPL]); (s_Equity ++ [colon] ++ AAPL, [NESN]); (s_Cash, [CHF]) ].

(* -m 1,^Cash *)
Definition w4_cfg : pf_cfg :=
  mkPfCfg 0 (feb 28) Monthly 0 (Some CHF) [] [] [mkRule 1 0 (Some (mkRx true s_Cash false))] true (Some w4_universe) true.

Definition w4_entries0 : list entry :=
  match weights_entries (pf_unmapped w4_cfg) w3_journal with COk es => es | _ => [] end.
Definition w4_entries : list entry := match weights_entries w4_cfg w3_journal with COk es => es | _ => [] end.
Definition w4_table : list Z * list wrow := match weights_table w4_cfg w3_journal with COk t => t | _ => ([], []) end.
Definition w4_table0 : list Z * list wrow :=
  match weights_table (pf_unmapped w4_cfg) w3_journal with COk t => t | _ => ([], []) end.

Lemma w4_entries0_eq :
  w4_entries0 =
  [ ([s_Equity; AAPL], jan 31, Some (1 # 4)%Q); ([s_Cash; CHF], jan 31, Some (1 # 2)%Q);
    ([s_Equity; AAPL; NESN], jan 31, Some (1 # 4)%Q);
    ([s_Equity; AAPL], feb 10, Some (2 # 5)%Q); ([s_Cash; CHF], feb 10, Some (2 # 5)%Q);
    ([s_Equity; AAPL; NESN], feb 10, Some (1 # 5)%Q) ].
Proof. vm_compute. reflexivity. Qed.

Lemma w4_run0 : weights_entries (pf_unmapped w4_cfg) w3_journal = COk w4_entries0.
Proof. apply ran. vm_compute. reflexivity. Qed.

Lemma w4_entries_eq :
  w4_entries =
  [ ([s_Equity; AAPL], jan 31, Some (1 # 4)%Q); ([s_Cash], jan 31, Some (1 # 2)%Q);
    ([s_Equity; AAPL; NESN], jan 31, Some (1 # 4)%Q);
    ([s_Equity; AAPL], feb 10, Some (2 # 5)%Q); ([s_Cash], feb 10, Some (2 # 5)%Q);
    ([s_Equity; AAPL; NESN], feb 10, Some (1 # 5)%Q) ].
Proof.
  unfold w4_entries. pose proof (weights_entries_both w4_cfg w3_journal) as B. rewrite w4_run0 in B.
  rewrite B, w4_entries0_eq. vm_compute. reflexivity.
Qed.

Lemma w4_run : weights_entries w4_cfg w3_journal = COk w4_entries.
Proof.
  pose proof (weights_entries_both w4_cfg w3_journal) as B. rewrite w4_run0, w4_entries0_eq in B.
  apply ran. rewrite B. vm_compute. reflexivity.
Qed.

Lemma w4_table_is : w4_table = render_weights true w4_entries.
Proof. unfold w4_table. rewrite (weights_table_of _ _ _ w4_run). reflexivity. Qed.

Lemma w4_table0_is : w4_table0 = render_weights true w4_entries0.
Proof. unfold w4_table0. rewrite (weights_table_of _ _ _ w4_run0). reflexivity. Qed.

Lemma w4_runs :
  weights_entries (pf_unmapped w4_cfg) w3_journal = COk w4_entries0 /\ weights_entries w4_cfg w3_journal = COk w4_entries /\
  weights_table (pf_unmapped w4_cfg) w3_journal = COk w4_table0 /\ weights_table w4_cfg w3_journal = COk w4_table.
Proof.
  split; [exact w4_run0|]. split; [exact w4_run|]. rewrite w4_table_is, w4_table0_is.
  split; [exact (weights_table_of _ _ _ w4_run0)|exact (weights_table_of _ _ _ w4_run)].
Qed.

Lemma w4_hyps :
  defined_entries w4_entries0 /\ Forall (fun e : entry => (let '(ss, _, _) := e in ss) <> []) w4_entries.
Proof. rewrite w4_entries0_eq, w4_entries_eq. split; repeat constructor; discriminate. Qed.

Lemma w4_not_prefix_free :
  In ([s_Equity; AAPL], jan 31, Some (1 # 4)%Q) w4_entries0 /\ In ([s_Equity; AAPL; NESN], jan 31, Some (1 # 4)%Q) w4_entries0.
Proof. rewrite w4_entries0_eq. split; [left; reflexivity|right; right; left; reflexivity]. Qed.

Lemma w4_law_fails : mapping_law_b 0 2 (pc_mapping w4_cfg) (srows w4_table0) (srows w4_table) = false.
Proof. rewrite w4_table_is, w4_table0_is, w4_entries_eq, w4_entries0_eq. vm_compute. reflexivity. Qed.
