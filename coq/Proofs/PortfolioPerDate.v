(* C20: the sums of the weights report, date by date.
   Only the entries OF THE DATE in question need to be defined: an undefined weight (None: a zero
   total) on another date does not touch the sums of this date.  Hence the same lemmas serve the
   reports all of whose weights are defined ([tdefined], [defined_entries]) and the single columns
   of a table in which other columns are undefined.
   - weight maps: wm_add / wm_plus add up;
   - PropagateWeights: after propagation a node's weight is its own weight plus the weights of its
     children, and equals the sum of all entries booked in its subtree;
   - Report.Add books an entry once; the top-level rows together carry every entry. *)
From Coq Require Import ZArith QArith Qfield List Bool Lia.
From Knut Require Import Model.Str Model.Dec Model.Date Model.Account Model.Ledger Model.Price
     Model.Journal Model.Perf Model.Weights Spec.PortfolioSpec
     Proofs.PortfolioDays Proofs.PortfolioReturns Proofs.PortfolioWeights.
Import ListNotations.
Open Scope Q_scope.

Definition wdef_at (d : Z) (m : wmap) : Prop := Forall (fun kv => fst kv = d -> snd kv <> None) m.
Definition tdef_at (d : Z) (n : wnode) : Prop := Forall (wdef_at d) (tree_maps n).
Definition edef_at (d : Z) (es : list entry) : Prop :=
  Forall (fun e : entry => let '(_, dt, w) := e in dt = d -> w <> None) es.

Lemma wdefined_at d m : wdefined m -> wdef_at d m.
Proof. apply Forall_impl. intros kv H _. exact H. Qed.

Lemma tdefined_at d n : tdefined n -> tdef_at d n.
Proof. apply Forall_impl. intros m. apply wdefined_at. Qed.

Lemma defined_edef_at d es : defined_entries es -> edef_at d es.
Proof.
  unfold defined_entries, edef_at. apply Forall_impl. intros [[ss dt] w] H _. exact H.
Qed.

Lemma tdef_at_unfold d s lf w ch : tdef_at d (WNode s lf w ch) <-> wdef_at d w /\ Forall (tdef_at d) ch.
Proof. exact (tree_maps_Forall (wdef_at d) s lf w ch). Qed.

Lemma tdef_at_new d h : tdef_at d (wn_new h).
Proof. repeat constructor. Qed.

Lemma wm_add_sum_at m d x d' : wdef_at d' m -> (d = d' -> x <> None) ->
  wdef_at d' (wm_add m d x) /\ wsum (wm_add m d x) d' == wsum m d' + (if (d =? d')%Z then oq x else 0).
Proof.
  unfold wdef_at. induction m as [|[k w] m IH]; intros Hd Hx; cbn [wm_add].
  - split; [constructor; [exact Hx|constructor]|]. rewrite wsum_cons. ring.
  - inversion Hd as [|? ? Hw Hm]; subst. cbn [fst snd] in Hw. destruct (d =? k)%Z eqn:E1.
    + apply Z.eqb_eq in E1. subst k. split.
      * constructor; [|exact Hm]. cbn [fst snd]. intros E.
        destruct w as [u|]; [|exfalso; exact (Hw E eq_refl)]. destruct x as [v|]; [discriminate|exfalso; exact (Hx E eq_refl)].
      * rewrite !wsum_cons. destruct (d =? d')%Z eqn:E2; [|ring].
        apply Z.eqb_eq in E2. destruct w as [u|]; [|exfalso; exact (Hw E2 eq_refl)].
        destruct x as [v|]; [|exfalso; exact (Hx E2 eq_refl)]. cbn [oadd oq]. rewrite qadd_eq. ring.
    + destruct (d <? k)%Z.
      * split; [constructor; [exact Hx|exact Hd]|]. rewrite wsum_cons. ring.
      * destruct (IH Hm Hx) as [H1 H2]. split; [constructor; assumption|]. rewrite !wsum_cons, H2. ring.
Qed.

Lemma wm_plus_sum_at b : forall a d, wdef_at d a -> wdef_at d b ->
  wdef_at d (wm_plus a b) /\ wsum (wm_plus a b) d == wsum a d + wsum b d.
Proof.
  unfold wm_plus. induction b as [|[k w] b IH]; intros a d Ha Hb; cbn [fold_left].
  - split; [exact Ha|]. rewrite wsum_nil. ring.
  - inversion Hb as [|? ? Hw Hb']; subst. cbn [snd fst] in *.
    destruct (wm_add_sum_at a k w d Ha Hw) as [H1 H2]. destruct (IH _ d H1 Hb') as [H3 H4]. split; [exact H3|].
    rewrite H4, H2, wsum_cons. ring.
Qed.

Lemma fold_plus_sum_at ms : forall acc d, wdef_at d acc -> Forall (wdef_at d) ms ->
  wdef_at d (fold_left wm_plus ms acc) /\
  wsum (fold_left wm_plus ms acc) d == wsum acc d + qsum (map (fun m => wsum m d) ms).
Proof.
  induction ms as [|m ms IH]; intros acc d Ha Hm; cbn [fold_left map].
  - split; [exact Ha|]. rewrite qsum_nil. ring.
  - inversion Hm as [|? ? H1 H2]; subst. destruct (wm_plus_sum_at m acc d Ha H1) as [H3 H4].
    destruct (IH _ d H3 H2) as [H5 H6]. split; [exact H5|]. rewrite H6, H4, qsum_cons. ring.
Qed.

Lemma propagate_at d n : tdef_at d n ->
  wdef_at d (wn_weights (propagate n)) /\
  nweight (propagate n) d == wsum (wn_weights n) d + qsum (map (fun c => nweight (propagate c) d) (wn_children n)).
Proof.
  induction n as [s lf w ch IH] using wnode_ind'. intros Hd. apply tdef_at_unfold in Hd. destruct Hd as [Hw Hch].
  unfold nweight. rewrite propagate_weights.
  assert (Hall : Forall (wdef_at d) (map (fun c => wn_weights (propagate c)) ch)).
  { rewrite Forall_map. rewrite Forall_forall in *. intros c Hc. exact (proj1 (IH c Hc (Hch c Hc))). }
  destruct (fold_plus_sum_at _ w d Hw Hall) as [H1 H2]. split; [exact H1|].
  rewrite H2. cbn [wn_weights wn_children]. rewrite map_map. reflexivity.
Qed.

Lemma propagate_total d n : tdef_at d n -> nweight (propagate n) d == ttotal n d.
Proof.
  induction n as [s lf w ch IH] using wnode_ind'. intros Hd.
  rewrite (proj2 (propagate_at d _ Hd)), ttotal_unfold. cbn [wn_weights wn_children]. apply Qplus_inj_l.
  apply tdef_at_unfold in Hd. destruct Hd as [_ Hch]. rewrite Forall_forall in IH, Hch.
  apply qsum_map_ext. intros c Hc. exact (IH c Hc (Hch c Hc)).
Qed.

Lemma propagate_spec n : tdefined n -> forall d, nweight (propagate n) d == ttotal n d.
Proof. intros H d. exact (propagate_total d n (tdefined_at d n H)). Qed.

(* a group's weight is the sum of its members (its own bookings, if any, and its children) *)
Lemma propagate_local s lf w ch : tdefined (WNode s lf w ch) -> forall d,
  nweight (propagate (WNode s lf w ch)) d == wsum w d + qsum (map (fun c => nweight (propagate c) d) ch).
Proof. intros H d. exact (proj2 (propagate_at d _ (tdefined_at d _ H))). Qed.

(* books the entry somewhere in the tree, once *)
Lemma wchildren_upd_total d h f l (delta : Q) :
  (forall c, tdef_at d c -> tdef_at d (f c) /\ ttotal (f c) d == ttotal c d + delta) ->
  Forall (tdef_at d) l ->
  Forall (tdef_at d) (wchildren_upd h f l) /\ ctotal (wchildren_upd h f l) d == ctotal l d + delta.
Proof.
  intros Hf. pose proof (tdef_at_new d h) as Hnew.
  assert (Hn0 : ttotal (wn_new h) d == 0) by reflexivity.
  unfold ctotal. induction l as [|c l IH]; intros Hl; cbn [wchildren_upd].
  - destruct (Hf _ Hnew) as [H1 H2]. split; [constructor; [exact H1|constructor]|].
    cbn [map]. rewrite !qsum_cons, H2, Hn0. ring.
  - inversion Hl as [|? ? Hc Hl']; subst. destruct (str_cmp h (wn_seg c)).
    + destruct (Hf _ Hc) as [H3 H4]. split; [constructor; assumption|]. cbn [map]. rewrite !qsum_cons, H4. ring.
    + destruct (Hf _ Hnew) as [H3 H4]. split; [constructor; assumption|]. cbn [map]. rewrite !qsum_cons, H4, Hn0. ring.
    + destruct (IH Hl') as [H3 H4]. split; [constructor; assumption|]. cbn [map]. rewrite !qsum_cons, H4. ring.
Qed.

(* the entry added may be undefined if it is of another date *)
Lemma wn_add_total ss date x d : (date = d -> x <> None) -> forall n, tdef_at d n ->
  tdef_at d (wn_add ss date x n) /\
  ttotal (wn_add ss date x n) d == ttotal n d + (if (date =? d)%Z then oq x else 0).
Proof.
  intros Hx. induction ss as [|h tl IH]; intros [s lf w ch] Hd; cbn [wn_add wn_seg wn_leaf wn_weights wn_children];
    apply tdef_at_unfold in Hd; destruct Hd as [Hw Hch].
  - destruct (wm_add_sum_at w date x d Hw Hx) as [H1 H2]. split; [apply tdef_at_unfold; split; assumption|].
    rewrite !ttotal_unfold, H2. ring.
  - destruct (wchildren_upd_total d h (wn_add tl date x) ch (if (date =? d)%Z then oq x else 0) IH Hch) as [H1 H2].
    split; [apply tdef_at_unfold; split; assumption|]. rewrite !ttotal_unfold, H2. ring.
Qed.

Definition build (es : list entry) (n : wnode) : wnode :=
  fold_left (fun n e => let '(ss, d, w) := e in wn_add ss d w n) es n.

Lemma report_of_build es : report_of es = build es wroot.
Proof. reflexivity. Qed.

(* the report carries each entry of the date exactly once *)
Lemma report_total d es : edef_at d es -> forall n, tdef_at d n ->
  tdef_at d (build es n) /\
  ttotal (build es n) d == ttotal n d + qsum (map (fun e => if (entry_date e =? d)%Z then entry_w e else 0) es).
Proof.
  unfold build. induction es as [|[[ss dt] w] es IH]; intros Hes n Hn; cbn [fold_left map].
  - split; [exact Hn|]. rewrite qsum_nil. ring.
  - inversion Hes as [|? ? Hw Hrest]; subst.
    destruct (wn_add_total ss dt w d Hw n Hn) as [H1 H2]. destruct (IH Hrest _ H1) as [H3 H4].
    split; [exact H3|]. rewrite H4, H2, qsum_cons. cbn [entry_date entry_w]. ring.
Qed.

Lemma report_def_at d es : edef_at d es -> tdef_at d (report_of es).
Proof. intros H. exact (proj1 (report_total d es H wroot (tdef_at_new d []))). Qed.

Lemma report_root_weights es : Forall (fun e => entry_path e <> []) es -> forall n,
  wn_weights (build es n) = wn_weights n.
Proof.
  unfold build. induction es as [|[[ss dt] w] es IH]; intros Hes n; cbn [fold_left]; [reflexivity|].
  inversion Hes as [|? ? H1 H2]; subst. rewrite (IH H2). cbn [entry_path] in H1. destruct ss as [|h tl]; [congruence|reflexivity].
Qed.

(* the rows of the top level together carry every entry of the date *)
Lemma top_level_sum_at es d :
  edef_at d es -> Forall (fun e => entry_path e <> []) es ->
  qsum (map (fun c => nweight c d) (wn_children (propagate (report_of es)))) ==
  qsum (map (fun e => if (entry_date e =? d)%Z then entry_w e else 0) es).
Proof.
  intros Hd Hp. rewrite report_of_build.
  destruct (report_total d es Hd wroot (tdef_at_new d [])) as [H1 H2].
  pose proof (report_root_weights es Hp wroot) as Hw.
  pose proof (proj2 (propagate_at d _ H1)) as Hl. rewrite (propagate_total d _ H1), H2, Hw in Hl.
  destruct (build es wroot) as [s lf w ch]. rewrite propagate_children, map_map. cbn [wn_children] in Hl.
  assert (Hz : ttotal wroot d == 0) by reflexivity.
  assert (Hz2 : wsum (wn_weights wroot) d == 0) by reflexivity.
  rewrite Hz, Hz2, !Qplus_0_l in Hl. symmetry. exact Hl.
Qed.

