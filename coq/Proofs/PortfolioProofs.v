(* C20: the statements of Properties/C20.v assembled from PortfolioDays (processed days),
   PortfolioReturns (return laws), PortfolioWeights and PortfolioPerDate (weights report). *)
From Coq Require Import ZArith QArith Qfield List Bool Lia.
From Knut Require Import Model.Str Model.Dec Model.Date Model.Account Model.Ledger Model.Price
     Model.Journal Model.Cli Model.Perf Model.Weights Model.CliPortfolio Spec.PortfolioSpec
     Proofs.PortfolioDays Proofs.PortfolioReturns Proofs.PortfolioWeights Proofs.PortfolioPerDate.
Import ListNotations.
Open Scope Q_scope.

Lemma day_entries_dates u m date total v1 es :
  day_entries u m date total v1 = WOk es -> Forall (fun e => entry_date e = date) es.
Proof.
  revert es. induction v1 as [|[c v] v1 IH]; intros es H; cbn [day_entries] in H.
  - inversion H; constructor.
  - destruct (map_path m (locate u c)); try discriminate. destruct (day_entries u m date total v1); try discriminate.
    inversion H; subst. constructor; [reflexivity|apply IH; reflexivity].
Qed.

Definition dated (d : Z) (es : list entry) : Q :=
  qsum (map (fun e => if (entry_date e =? d)%Z then entry_w e else 0) es).

Lemma dated_other d es : Forall (fun e => entry_date e <> d) es -> dated d es == 0.
Proof.
  unfold dated, qsum. induction es as [|e es IH]; intros H; cbn [map fold_right]; [reflexivity|].
  inversion H; subst. replace (entry_date e =? d)%Z with false by (symmetry; apply Z.eqb_neq; assumption).
  rewrite (IH H3). ring.
Qed.

Lemma dated_same d es : Forall (fun e => entry_date e = d) es -> dated d es == qsum (map entry_w es).
Proof.
  unfold dated, qsum. induction es as [|e es IH]; intros H; cbn [map fold_right]; [reflexivity|].
  inversion H; subst. rewrite Z.eqb_refl, (IH H3). reflexivity.
Qed.

Lemma dated_app d a b : dated d (a ++ b) == dated d a + dated d b.
Proof. unfold dated. rewrite map_app. apply qsum_app. Qed.

Lemma edef_at_other d es : Forall (fun e => entry_date e <> d) es -> edef_at d es.
Proof. apply Forall_impl. intros [[ss dt] w] H E. destruct (H E). Qed.

(* the report of a run: the entries of the date in question, between entries of other dates; what
   is booked on other dates may be undefined *)
Lemma top_100_at u m date v1 day_es before after :
  day_entries u m date (pcv_sum v1) v1 = WOk day_es -> ~ pcv_sum v1 == 0 ->
  Forall (fun e => entry_date e <> date) before -> Forall (fun e => entry_date e <> date) after ->
  Forall (fun e => entry_path e <> []) (before ++ day_es ++ after) ->
  qsum (map (fun c => nweight c date) (wn_children (propagate (report_of (before ++ day_es ++ after))))) == 1.
Proof.
  intros Hd Hnz Hbd Had Hp. destruct (day_entries_top _ _ _ _ _ Hd Hnz) as [Hdef Hsum].
  rewrite top_level_sum_at; [| |exact Hp].
  - fold (dated date (before ++ day_es ++ after)). rewrite !dated_app, (dated_other _ _ Hbd), (dated_other _ _ Had).
    rewrite (dated_same _ _ (day_entries_dates _ _ _ _ _ _ Hd)), Hsum. ring.
  - apply Forall_app. split; [exact (edef_at_other _ _ Hbd)|]. apply Forall_app.
    split; [exact (defined_edef_at _ _ Hdef)|exact (edef_at_other _ _ Had)].
Qed.

Definition reported (part : partition) (ends : list Z) (l : list perf) (p : perf) : option Q :=
  match run (l ++ [p]) (Some 1) with Some x => Some (qsub x 1) | None => None end.

(* the processed days of one period, after a reported period end (or at the start of the
   window): perf_loop reports [reported] for the period end *)
Lemma period_reported part ends l p rest :
  Forall (fun x => partition_contains part (pf_date x) = true /\ mem ends (pf_date x) = false) l ->
  partition_contains part (pf_date p) = true -> mem ends (pf_date p) = true ->
  perf_loop part ends (Some 1) (l ++ p :: rest) = (pf_date p, reported part ends l p) :: perf_loop part ends (Some 1) rest.
Proof. intros. apply perf_loop_period; assumption. Qed.

Lemma external_flows_zero part ends l p :
  Forall (fun x => p_v1 x == p_v0 x + p_inflow x + p_outflow x) (l ++ [p]) ->
  is_or_undef (reported part ends l p) 0.
Proof.
  intros H. unfold reported.
  assert (Hr : is_or_undef (run (l ++ [p]) (Some 1)) 1).
  { apply run_ones.
    - eapply Forall_impl; [|exact H]. intros x Hx. apply performance_external. exact Hx.
    - right. exists 1. split; reflexivity. }
  destruct Hr as [->|[q [-> Hq]]]; [left; reflexivity|]. right. exists (qsub q 1). split; [reflexivity|].
  rewrite qsub_eq, Hq. ring.
Qed.

Theorem returns_every_period cfg ds l :
  returns_fixed cfg ds = COk l ->
  (0 <= pc_last cfg)%Z ->
  exists b part,
    load ds = COk b /\ pf_partition cfg b = COk part /\
    (let w := clip (mkPeriod (pc_from cfg) (pc_to cfg)) (builder_period b) in (p_start w <= p_end w)%Z ->
     map fst l = end_dates part).
Proof.
  unfold returns_fixed, returns_gen, repaired. cbn [fx_wiring fx_flowfilter]. intros H Hn.
  destruct (check_valuation cfg); cbn [cbind] in H; try discriminate.
  destruct (load ds) as [b| |] eqn:El; cbn [cbind] in H; try discriminate.
  destruct (pf_partition cfg b) as [part| |] eqn:Ep; cbn [cbind] in H; try discriminate.
  exists b, part. split; [reflexivity|]. split; [exact Ep|]. cbv zeta. set (w := clip _ _). intros Hw.
  destruct (valued_days cfg _) as [days| |] eqn:Ev; cbn [cbind] in H; try discriminate.
  destruct (day_values cfg days) as [vs| |] eqn:Edv; cbn [cbind] in H; try discriminate.
  destruct (day_flows _ cfg (snd vs)) as [fs| |] eqn:Ef; cbn [cbind] in H; try discriminate.
  inversion H; subst. clear H.
  rewrite perf_loop_dates, join_perf_dates.
  rewrite day_values_recs in Edv. injection Edv as <-. cbn [fst]. rewrite cv_recs_dates, (valued_days_dates _ _ _ Ev), builder_touch_dates.
  unfold pf_partition in Ep. fold w in Ep.
  destruct (new_partition w (pc_interval cfg) (pc_last cfg)) as [pt| |] eqn:En; try discriminate. inversion Ep; subst pt.
  destruct (partition_ends _ _ _ _ Hw Hn En) as [Ha Hc].
  set (dates := fold_left _ (end_dates part) _).
  rewrite (filter_ext_in _ (mem (end_dates part))).
  - apply filter_mem_asc; [apply fold_insert_asc; exact (load_days_asc _ _ El)|exact Ha|].
    intros y Hy. apply fold_insert_in. left. exact Hy.
  - intros x _. destruct (mem (end_dates part) x) eqn:Em; [|apply andb_false_r].
    apply mem_in in Em. rewrite Forall_forall in Hc. rewrite (Hc x Em). reflexivity.
Qed.
