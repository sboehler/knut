(* C20: days without price declarations get no value adjustment.
   Through the stages both portfolio commands run (ComputePrices, Check, Valuate): a day of
   the journal that declares no price is valued at the prices of the day before, so Valuate's
   DayStart books no adjustment on it, and its transactions are the journal's, with their
   @performance targets.  Hence the hypothesis "untargeted" of external_flows_zero_full can be
   read off the days the builder makes from the directives: no price directive, and no
   transaction with a @performance annotation (or none: an accrual keeps its transaction's). *)
From Coq Require Import ZArith QArith List Bool Lia.
From Knut Require Import Proofs.ListFacts Proofs.DecProofs Model.Str Model.Dec Model.Date Model.Account Model.Ledger Model.Price
     Model.Journal Model.Check Model.Pipeline Model.Cli Model.Perf Model.Weights Model.CliPortfolio
     Spec.PortfolioSpec
     Proofs.JournalFacts Proofs.PriceDayProofs Proofs.MarkToMarket
     Proofs.PortfolioDays Proofs.PortfolioReturns Proofs.PortfolioProofs Proofs.PortfolioFlowsFull.
Import ListNotations.
Open Scope Z_scope.

Lemma fold_txns_targets {S} (p : processor S) ts : forall s s' ts',
  fold_txns p s ts = ROk (s', ts') -> map t_targets ts' = map t_targets ts.
Proof.
  induction ts as [|t ts IH]; intros s s' ts' H.
  - injection H as <- <-. reflexivity.
  - apply fold_txns_cons_ok in H. destruct H as (s1 & t1 & ts1 & E1 & E2 & ->).
    cbn [map]. rewrite (IH _ _ _ E2). f_equal.
    apply process_txn_ok in E1. destruct E1 as (s0 & _ & E1).
    destruct (pr_posting p); [destruct E1 as (ps & _ & ->)|destruct E1 as [_ ->]]; reflexivity.
Qed.

Fixpoint carried (prev : option nprices) (ds ds' : list day) : Prop :=
  match ds, ds' with
  | [], [] => True
  | d :: r, d' :: r' =>
    d_date d' = d_date d /\ d_txns d' = d_txns d /\ (d_prices d = [] -> d_normalized d' = prev) /\
    carried (d_normalized d') r r'
  | _, _ => False
  end.

Lemma cp_day_carried v s d s1 d1 :
  process_day (compute_prices_proc v) s d = ROk (s1, d1) ->
  d_date d1 = d_date d /\ d_txns d1 = d_txns d /\ (d_prices d = [] -> d_normalized d1 = cp_previous s) /\
  cp_previous s1 = d_normalized d1.
Proof.
  intros H. apply process_day_ok in H.
  destruct H as (s0 & d0 & s2 & s3 & s4 & ts & s5 & s6 & E1 & F & E3 & E4 & E5 & E6 & H).
  cbn [compute_prices_proc pr_day_start pr_price pr_open pr_close pr_day_end cb_day cb_each] in E1, F, E3, E6, H.
  injection E1 as <- <-. injection E3 as <-. rewrite fold_txns_cp in E4. injection E4 as <- <-.
  rewrite fold_asserts_cp in E5. injection E5 as <-. injection E6 as <-.
  unfold cp_day_end in H. cbn [d_prices] in H. destruct (d_prices d) as [|x l].
  - injection F as <-. injection H as <- <-. repeat split; reflexivity.
  - destruct (normalize (cp_prices s2) v); [|discriminate]. injection H as <- <-.
    repeat split; try reflexivity. discriminate.
Qed.

Lemma prices_stage_carried v ds : forall s s' ds',
  process_days (compute_prices_proc v) s ds = ROk (s', ds') -> carried (cp_previous s) ds ds'.
Proof.
  induction ds as [|d ds IH]; intros s s' ds' H.
  - injection H as <- <-. exact I.
  - apply process_days_cons_ok in H. destruct H as (s1 & d1 & ds2 & E1 & E2 & ->). destruct (cp_day_carried _ _ _ _ _ E1) as (A1 & A2 & A3 & A4).
    cbn [carried]. split; [exact A1|]. split; [exact A2|]. split; [exact A3|]. rewrite <- A4. apply (IH _ _ _ E2).
Qed.

Lemma val_adjustments_same v date n pos : forall ts, val_adjustments v date n n pos = ROk ts -> ts = [].
Proof.
  induction pos as [|[k [[a c] q]] rest IH]; intros ts H; cbn [val_adjustments] in H.
  - injection H as <-. reflexivity.
  - destruct (str_eqb c v || negb (is_AL a) || is_zero q); [apply IH; exact H|].
    destruct (np_price_opt n c) as [pp|]; [|discriminate].
    rewrite sub_self_zero in H. apply IH. exact H.
Qed.

Fixpoint quiet_from (prev : option nprices) (ds ds' : list day) : Prop :=
  match ds, ds' with
  | [], [] => True
  | d :: r, d' :: r' =>
    d_date d' = d_date d /\ (prev = d_normalized d -> map t_targets (d_txns d') = map t_targets (d_txns d)) /\
    quiet_from (d_normalized d) r r'
  | _, _ => False
  end.

Lemma valuate_stage_quiet v ds : forall s s' ds',
  process_days (valuate_proc v) s ds = ROk (s', ds') -> quiet_from (v_prev s) ds ds'.
Proof.
  induction ds as [|d ds IH]; intros s s' ds' H.
  - injection H as <- <-. exact I.
  - apply process_days_cons_ok in H. destruct H as (s1 & d1 & ds2 & E1 & E2 & ->).
    destruct (valuate_day_inv _ _ _ _ _ E1) as (ts & s3 & txns' & Eadj & Efold & Es1 & Etx & En & Ed).
    cbn [quiet_from]. split; [exact Ed|]. split.
    + intros Hsame. rewrite Hsame in Eadj. apply val_adjustments_same in Eadj. subst ts.
      rewrite app_nil_r in Efold. rewrite Etx. exact (fold_txns_targets _ _ _ _ _ Efold).
    + specialize (IH _ _ _ E2). rewrite Es1 in IH. cbn [v_prev] in IH. exact IH.
Qed.

Definition kept (d d' : day) : Prop :=
  d_date d' = d_date d /\ (d_prices d = [] -> map t_targets (d_txns d') = map t_targets (d_txns d)).

Lemma carried_quiet prev ds : forall d1 d3,
  carried prev ds d1 -> quiet_from prev d1 d3 -> Forall2 kept ds d3.
Proof.
  revert prev. induction ds as [|d ds IH]; intros prev [|x d1] [|y d3] Hc Hq; cbn [carried quiet_from] in *; try contradiction.
  - constructor.
  - destruct Hc as (C1 & C2 & C3 & C4). destruct Hq as (Q1 & Q2 & Q3). constructor.
    + split; [congruence|]. intros Hp. rewrite <- C2. apply Q2. symmetry. apply C3. exact Hp.
    + exact (IH _ _ _ C4 Q3).
Qed.

Lemma kept_refl ds : Forall2 kept ds ds.
Proof. induction ds as [|d ds IH]; constructor; [split; reflexivity|exact IH]. Qed.

Lemma valued_days_kept cfg days days' : valued_days cfg days = COk days' -> Forall2 kept days days'.
Proof.
  intros H. apply valued_days_inv in H. destruct (pc_valuation cfg) as [v|]; [|subst; apply kept_refl].
  destruct H as (s1 & d1 & s3 & E1 & E3).
  exact (carried_quiet _ _ _ _ (prices_stage_carried _ _ _ _ _ E1) (valuate_stage_quiet _ _ _ _ _ E3)).
Qed.

(* a day of the journal without price declaration and without @performance annotation *)
Definition quiet (x : day) : Prop := d_prices x = [] /\ untargeted x.

Lemma kept_untargeted d d' : kept d d' -> quiet d -> untargeted d'.
Proof.
  intros [_ Hk] [Hp Hu]. specialize (Hk Hp). unfold untargeted in *. revert Hk Hu.
  generalize (d_txns d) (d_txns d'). intros l l'. revert l.
  induction l' as [|t' l' IH]; intros [|t l] Hk Hu; cbn [map] in Hk; try discriminate; constructor.
  - inversion Hu; subst. injection Hk as Ht _. congruence.
  - inversion Hu; subst. injection Hk as _ Hr. exact (IH _ Hr H2).
Qed.

Theorem external_flows_zero_source cfg ds out :
  returns_fixed cfg ds = COk out ->
  exists b part perfs,
    load ds = COk b /\ pf_partition cfg b = COk part /\
    map pf_date perfs = map d_date (b_days (builder_touch b (end_dates part))) /\
    out = perf_loop part (end_dates part) (Some 1%Q) perfs /\
    forall pre l p rest, perfs = pre ++ l ++ p :: rest ->
      boundary part (end_dates part) pre ->
      Forall (fun x => partition_contains part (pf_date x) = true /\ mem (end_dates part) (pf_date x) = false) l ->
      partition_contains part (pf_date p) = true -> mem (end_dates part) (pf_date p) = true ->
      (forall x, In x (b_days (builder_touch b (end_dates part))) -> In (d_date x) (map pf_date (l ++ [p])) -> quiet x) ->
      exists r, In (pf_date p, r) out /\ is_or_undef r 0%Q.
Proof.
  intros H. destruct (external_flows_zero_full cfg ds out H) as (b & part & days & vs & fs & El & Ep & Ev & _ & _ & Hout & Hdates & Hlaw).
  exists b, part, (join_perf (fst vs) fs).
  pose proof (valued_days_kept _ _ _ Ev) as Hkept.
  split; [exact El|]. split; [exact Ep|]. split; [rewrite Hdates; exact (valued_days_dates _ _ _ Ev)|]. split; [exact Hout|].
  intros pre l p rest Hsplit Hb Hl Hc Hm Hquiet.
  assert (Hunt : forall x, In x days -> In (d_date x) (map pf_date (l ++ [p])) -> untargeted x).
  { intros x' Hx' Hd'. destruct (Forall2_in_r _ _ _ x' Hkept Hx') as [x [Hx Hk]].
    apply (kept_untargeted x x' Hk). apply Hquiet; [exact Hx|]. destruct Hk as [Hdt _]. rewrite <- Hdt. exact Hd'. }
  destruct (Hlaw l p (ex_intro _ pre (ex_intro _ rest Hsplit)) Hunt) as [_ Hzero].
  exists (reported part (end_dates part) l p). split; [|exact Hzero].
  rewrite Hout, Hsplit. apply reported_printed; assumption.
Qed.
