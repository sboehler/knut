(* C20: the return laws, over rationals.
   - performance of a day whose value change equals its flows is 1 (or undefined: zero
     denominator); performance of a day without flows is V1 / V0;
   - [records_chain]: V0 of a day is V1 of the day processed before (PortfolioWeights.cv_recs_chain);
   - the running product over the days of a period: stays 1 under the first law, telescopes
     to V1(last) / V0(first) under the second;
   - perf_loop reports, for a period end, the running product over the processed days of the
     window since the previous reported period end. *)
From Coq Require Import ZArith QArith Qabs Qfield List Bool Lia.
From Knut Require Import Model.Str Model.Dec Model.Date Model.Account Model.Ledger Model.Price
     Model.Journal Model.Perf Model.Weights Model.CliPortfolio Proofs.PortfolioDays.
Import ListNotations.
Open Scope Q_scope.

Lemma qadd_eq a b : qadd a b == a + b.
Proof. unfold qadd. apply Qred_correct. Qed.
Lemma qsub_eq a b : qsub a b == a - b.
Proof. unfold qsub. apply Qred_correct. Qed.
Lemma qmul_eq a b : qmul a b == a * b.
Proof. unfold qmul. apply Qred_correct. Qed.

Lemma q_is_zero_iff a : q_is_zero a = true <-> a == 0.
Proof. unfold q_is_zero, Qeq. cbn. rewrite Z.eqb_eq. lia. Qed.

Lemma qdiv_none a b : qdiv a b = None <-> b == 0.
Proof. unfold qdiv. rewrite <- q_is_zero_iff. destruct (q_is_zero b); split; congruence. Qed.

Lemma qdiv_some a b q : qdiv a b = Some q -> ~ b == 0 /\ q == a / b.
Proof.
  unfold qdiv. destruct (q_is_zero b) eqn:E; [discriminate|]. intros H. split.
  - intros Hb. apply q_is_zero_iff in Hb. congruence.
  - replace q with (Qred (a / b)) by congruence. apply Qred_correct.
Qed.

Lemma q_eqb_iff a b : q_eqb a b = true <-> a == b.
Proof. apply Qeq_bool_iff. Qed.

(* the four sums Performance takes *)
Definition p_v0 (p : perf) : Q := pcv_sum (pf_v0 p).
Definition p_v1 (p : perf) : Q := pcv_sum (pf_v1 p).
Definition p_inflow (p : perf) : Q := fl_pin (pf_flows p) + pcv_sum (fl_in (pf_flows p)).
Definition p_outflow (p : perf) : Q := fl_pout (pf_flows p) + pcv_sum (fl_out (pf_flows p)).

(* a rational result that is "1", "x", ... up to ==, or undefined *)
Definition is_or_undef (r : option Q) (x : Q) : Prop := r = None \/ exists q, r = Some q /\ q == x.

(* what Performance computes, in the four sums *)
Lemma performance_spec p :
  match performance p with
  | Some q => (q == 1 /\ p_v1 p == p_v0 p /\ p_inflow p == 0 /\ p_outflow p == 0) \/
              (~ p_v0 p + p_inflow p == 0 /\ q == (p_v1 p - p_outflow p) / (p_v0 p + p_inflow p))
  | None => p_v0 p + p_inflow p == 0
  end.
Proof.
  unfold performance, p_v0, p_v1, p_inflow, p_outflow.
  destruct (q_eqb _ _ && q_is_zero _ && q_is_zero _) eqn:E.
  - left. apply andb_true_iff in E. destruct E as [E E3]. apply andb_true_iff in E. destruct E as [E1 E2].
    apply q_eqb_iff in E1. apply q_is_zero_iff in E2, E3. rewrite qadd_eq in E2, E3.
    split; [reflexivity|]. split; [symmetry; exact E1|]. split; assumption.
  - destruct (qdiv _ _) as [q|] eqn:Eq.
    + right. destruct (qdiv_some _ _ _ Eq) as [Hnz Hq]. rewrite !qadd_eq in Hnz. split; [exact Hnz|].
      rewrite Hq, qsub_eq, !qadd_eq. reflexivity.
    + apply qdiv_none in Eq. rewrite !qadd_eq in Eq. exact Eq.
Qed.

(* what flowed in or out accounts for the whole change in value: the day's return is 1
   (0%), or undefined when V0 + inflow = 0 *)
Lemma performance_external p :
  p_v1 p == p_v0 p + p_inflow p + p_outflow p -> is_or_undef (performance p) 1.
Proof.
  intros H. pose proof (performance_spec p) as S. destruct (performance p) as [q|]; [|left; reflexivity].
  right. exists q. split; [reflexivity|]. destruct S as [[Hq _]|[Hnz Hq]]; [exact Hq|].
  rewrite Hq, H. field. exact Hnz.
Qed.

(* no flows: the day's return is V1 / V0 *)
Lemma performance_no_flow p :
  p_inflow p == 0 -> p_outflow p == 0 -> ~ p_v0 p == 0 ->
  exists q, performance p = Some q /\ q == p_v1 p / p_v0 p.
Proof.
  intros Hi Ho Hnz. pose proof (performance_spec p) as S. destruct (performance p) as [q|].
  - exists q. split; [reflexivity|]. destruct S as [[Hq [H1 _]]|[_ Hq]]; rewrite Hq; [rewrite H1|rewrite Hi, Ho]; field; exact Hnz.
  - exfalso. apply Hnz. rewrite <- S, Hi. ring.
Qed.

Definition run (l : list perf) (r : option Q) : option Q := fold_left (fun r p => omul r (performance p)) l r.

Lemma run_none l : run l None = None.
Proof. induction l as [|p l IH]; cbn; [reflexivity|exact IH]. Qed.

(* every day of the period has return 1 or undefined: so has the period *)
Lemma run_ones l : forall r x,
  Forall (fun p => is_or_undef (performance p) 1) l -> is_or_undef r x -> is_or_undef (run l r) x.
Proof.
  induction l as [|p l IH]; intros r x Hl Hr; cbn [run fold_left]; [exact Hr|].
  inversion Hl as [|? ? Hp Hrest]; subst. apply IH; [exact Hrest|].
  destruct Hr as [->|[q [-> Hq]]]; [left; reflexivity|].
  destruct Hp as [Hp|[q1 [Hp Hq1]]]; rewrite Hp; cbn [omul]; [left; reflexivity|].
  right. exists (qmul q q1). split; [reflexivity|]. rewrite qmul_eq, Hq, Hq1. ring.
Qed.

(* consecutive records: the start value of each day is the end value of the day before *)
Fixpoint chained (v : Q) (l : list perf) : Prop :=
  match l with
  | [] => True
  | p :: rest => p_v0 p == v /\ chained (p_v1 p) rest
  end.

Definition last_v1 (v : Q) (l : list perf) : Q := fold_left (fun _ p => p_v1 p) l v.

(* no flows on any day, no zero start value: the product telescopes *)
Lemma run_telescopes l : forall v r,
  chained v l ->
  Forall (fun p => p_inflow p == 0 /\ p_outflow p == 0 /\ ~ p_v0 p == 0) l ->
  ~ v == 0 ->
  exists q, run l (Some r) = Some q /\ q == r * (last_v1 v l / v).
Proof.
  induction l as [|p l IH]; intros v r Hc Hl Hv; cbn [run fold_left last_v1].
  - exists r. split; [reflexivity|]. field. exact Hv.
  - destruct Hc as [H0 Hc]. inversion Hl as [|? ? [Hi [Ho Hnz]] Hrest]; subst.
    destruct (performance_no_flow p Hi Ho Hnz) as [q1 [Hp Hq1]]. rewrite Hp. cbn [omul].
    destruct l as [|p2 l'].
    + cbn [fold_left]. exists (qmul r q1). split; [reflexivity|]. rewrite qmul_eq, Hq1, H0. reflexivity.
    + assert (Hv1 : ~ p_v1 p == 0).
      { destruct Hc as [H2 _]. inversion Hrest as [|? ? [_ [_ Hnz2]] _]; subst. rewrite <- H2. exact Hnz2. }
      destruct (IH (p_v1 p) (qmul r q1) Hc Hrest Hv1) as [q [Hr Hq]].
      exists q. split; [exact Hr|]. rewrite Hq, qmul_eq, Hq1, H0. unfold last_v1. field. split; assumption.
Qed.

(* a period's processed days: inside the window, none but the last is a period end *)
Lemma perf_loop_period part ends l p rest : forall running,
  Forall (fun x => partition_contains part (pf_date x) = true /\ mem ends (pf_date x) = false) l ->
  partition_contains part (pf_date p) = true -> mem ends (pf_date p) = true ->
  perf_loop part ends running (l ++ p :: rest) =
  (pf_date p, match run (l ++ [p]) running with Some x => Some (qsub x 1) | None => None end)
    :: perf_loop part ends (Some 1) rest.
Proof.
  induction l as [|x l IH]; intros running Hl Hc Hm; cbn [app perf_loop run fold_left].
  - rewrite Hc. unfold mem in Hm. rewrite Hm. cbn [negb]. reflexivity.
  - inversion Hl as [|? ? [Hxc Hxm] Hrest]; subst. rewrite Hxc. unfold mem in Hxm. rewrite Hxm. cbn [negb].
    rewrite (IH _ Hrest Hc Hm). reflexivity.
Qed.

(* days before the window are skipped *)
Lemma perf_loop_skip part ends l rest : forall running,
  Forall (fun x => partition_contains part (pf_date x) = false) l ->
  perf_loop part ends running (l ++ rest) = perf_loop part ends running rest.
Proof.
  induction l as [|x l IH]; intros running Hl; cbn [app perf_loop]; [reflexivity|].
  inversion Hl; subst. rewrite H1. cbn [negb]. apply IH. assumption.
Qed.

Definition cv_run (c : calc) := pure_days (Some cv_day_start) None (Some (cv_posting c)) (Some cv_day_end).

(* in the list of (V0, V1) records, V0 of each record is V1 of its predecessor *)
Fixpoint records_chain (prev : pcv) (l : list (Z * (pcv * pcv))) : Prop :=
  match l with
  | [] => True
  | (_, (v0, v1)) :: rest => v0 = prev /\ records_chain v1 rest
  end.
