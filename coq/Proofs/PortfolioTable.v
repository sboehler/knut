(* C20: the rendered weights table as the rows on which Spec/PortfolioSpec.mapping_law_b
   is evaluated, and the mapping law on the tables of the model.
   - [nodes]: the nodes of a tree with their paths, in the renderer's order; PropagateWeights
     maps over them, SortWeighted permutes them;
   - the rows of the rendered tree are the rows of its nodes; [row_paths] (paths read off the
     indentation) recovers the paths of the nodes; the [members] of a row are the rows of the
     children of its node; [leaf_rows] are the rows of the nodes without children;
   - [groups_own_ok_b] holds of a rendered tree when every node satisfies the law locally;
   - [table_law]: for entries es0 (run without -m) and es = map_entries m es0 (run with -m) the rows
     of render_weights of es0 and of es satisfy mapping_law_b with tolerance 0, provided no path of
     es0 is a proper prefix of another and no mapped path is empty.  Columns with an undefined
     weight (zero total) are skipped by the statement; in the others the entries of the date are
     defined: an undefined entry makes the cell of its node undefined ([none_report]). *)
From Coq Require Import ZArith QArith Qabs Qfield List Bool Lia Permutation Sorting.Sorted.
From Knut Require Proofs.StrProofs.
From Knut Require Import Proofs.ListFacts Model.Str Model.Dec Model.Date Model.Account Model.Ledger Model.Price
     Model.Journal Model.Cli Model.Perf Model.Weights Model.CliPortfolio Spec.PortfolioSpec Spec.PortfolioMapSpec
     Proofs.SMapProofs Proofs.PortfolioDays Proofs.PortfolioReturns Proofs.PortfolioWeights
     Proofs.PortfolioPerDate Proofs.PortfolioTree.
Import ListNotations.
Open Scope Q_scope.

Lemma path_prefix_iff a : forall b, path_prefix a b = true <-> exists r, b = a ++ r.
Proof.
  induction a as [|x a IH]; intros b; cbn [path_prefix app].
  - split; [intros _; exists b; reflexivity|reflexivity].
  - destruct b as [|y b]; [split; [discriminate|intros [r H]; discriminate]|].
    rewrite andb_true_iff, str_eqb_eq, IH. split.
    + intros [-> [r ->]]. exists r. reflexivity.
    + intros [r H]. inversion H; subst. split; [reflexivity|exists r; reflexivity].
Qed.

Lemma path_eqb_eq a b : path_eqb a b = true <-> a = b.
Proof.
  unfold path_eqb. rewrite andb_true_iff, !path_prefix_iff. split.
  - intros [[r1 H1] [r2 H2]]. subst b. rewrite <- app_assoc in H2. rewrite <- (app_nil_r a) in H2 at 1.
    apply app_inv_head in H2. symmetry in H2. apply app_eq_nil in H2. destruct H2 as [-> _]. rewrite app_nil_r. reflexivity.
  - intros ->. split; exists []; rewrite app_nil_r; reflexivity.
Qed.

Lemma flat_map_Forall_eq {A B} (f g : A -> list B) l : Forall (fun x => f x = g x) l -> flat_map f l = flat_map g l.
Proof. induction 1 as [|x l H _ IH]; cbn [flat_map]; [reflexivity|]. rewrite H, IH. reflexivity. Qed.

Lemma flat_map_Forall_perm {A B} (f g : A -> list B) l :
  Forall (fun x => Permutation (f x) (g x)) l -> Permutation (flat_map f l) (flat_map g l).
Proof. induction 1 as [|x l H _ IH]; cbn [flat_map]; [constructor|]. apply Permutation_app; assumption. Qed.

Lemma qsum_perm l l' : Permutation l l' -> qsum l == qsum l'.
Proof.
  induction 1 as [|x l l' _ IH|x y l|l l' l'' _ IH1 _ IH2]; cbn [qsum fold_right].
  - reflexivity.
  - fold (qsum l). fold (qsum l'). rewrite IH. reflexivity.
  - ring.
  - rewrite IH1. exact IH2.
Qed.

Lemma qsum_flat_map {A} (f : A -> list Q) l : qsum (flat_map f l) == qsum (map (fun x => qsum (f x)) l).
Proof. induction l as [|x l IH]; cbn [flat_map map]; [reflexivity|]. rewrite qsum_app, qsum_cons, IH. reflexivity. Qed.

Fixpoint nodes (p : list str) (n : wnode) : list (list str * wnode) :=
  match n with
  | WNode _ _ _ ch => (p, n) :: flat_map (fun c => nodes (p ++ [wn_seg c]) c) ch
  end.

Definition below (p : list str) (ch : list wnode) : list (list str * wnode) :=
  flat_map (fun c => nodes (p ++ [wn_seg c]) c) ch.

Lemma nodes_unfold p n : nodes p n = (p, n) :: below p (wn_children n).
Proof. destruct n; reflexivity. Qed.

Lemma below_cons p c ch : below p (c :: ch) = nodes (p ++ [wn_seg c]) c ++ below p ch.
Proof. reflexivity. Qed.

(* the nodes below a path are visited child by child; a property of such blocks of nodes that holds
   of the empty block, passes from a child's block and its later siblings' to both together, and
   from the block below a node to the block of the node itself, holds of every block *)
Lemma below_ind (X : list str -> list (list str * wnode) -> Prop) :
  (forall p, X p []) ->
  (forall p c ch, X p (nodes (p ++ [wn_seg c]) c) -> X p (below p ch) -> X p (below p (c :: ch))) ->
  (forall p n, X (p ++ [wn_seg n]) (below (p ++ [wn_seg n]) (wn_children n)) -> X p (nodes (p ++ [wn_seg n]) n)) ->
  forall p ch, X p (below p ch).
Proof.
  intros Hnil Hcons Hnode.
  assert (Hn : forall n p, X p (nodes (p ++ [wn_seg n]) n)).
  { induction n as [s lf w ch IH] using wnode_ind'. intros p. apply Hnode. cbn [wn_seg wn_children].
    induction IH as [|c ch Hc _ IHch]; [apply Hnil|]. apply Hcons; [apply Hc|exact IHch]. }
  intros p ch. induction ch as [|c ch IH]; [apply Hnil|]. apply Hcons; [apply Hn|exact IH].
Qed.

Definition nmap (f : wnode -> wnode) (px : list str * wnode) : list str * wnode := (fst px, f (snd px)).

Lemma nodes_propagate n : forall p, nodes p (propagate n) = map (nmap propagate) (nodes p n).
Proof.
  induction n as [s lf w ch IH] using wnode_ind'. intros p.
  rewrite (nodes_unfold p (propagate _)), propagate_children, nodes_unfold. cbn [map wn_children nmap fst snd]. f_equal.
  unfold below. rewrite flat_map_map, map_flat_map. apply flat_map_Forall_eq.
  rewrite Forall_forall in *. intros c Hc. rewrite propagate_seg. apply IH. exact Hc.
Qed.

Lemma sort_weighted_seg n : wn_seg (sort_weighted n) = wn_seg n.
Proof. destruct n; reflexivity. Qed.
Lemma sort_weighted_weights n : wn_weights (sort_weighted n) = wn_weights n.
Proof. destruct n; reflexivity. Qed.
Lemma sort_weighted_children n : Permutation (wn_children (sort_weighted n)) (map sort_weighted (wn_children n)).
Proof. destruct n as [s lf w ch]. cbn [sort_weighted wn_children]. apply StrProofs.sort_by_perm. Qed.

Lemma nodes_sort n : forall p, Permutation (nodes p (sort_weighted n)) (map (nmap sort_weighted) (nodes p n)).
Proof.
  induction n as [s lf w ch IH] using wnode_ind'. intros p.
  rewrite (nodes_unfold p (sort_weighted _)), nodes_unfold. cbn [map nmap fst snd]. apply perm_skip.
  unfold below. etransitivity; [apply Permutation_flat_map; apply sort_weighted_children|]. cbn [wn_children].
  rewrite flat_map_map, map_flat_map. apply flat_map_Forall_perm.
  rewrite Forall_forall in *. intros c Hc. rewrite sort_weighted_seg. apply IH. exact Hc.
Qed.

(* Renderer: PropagateWeights, then SortWeighted unless -a *)
Definition fin (alpha : bool) (x : wnode) : wnode := if alpha then propagate x else sort_weighted (propagate x).

Lemma nodes_fin alpha n p : Permutation (nodes p (fin alpha n)) (map (nmap (fin alpha)) (nodes p n)).
Proof.
  destruct alpha; cbn [fin].
  - rewrite nodes_propagate. reflexivity.
  - etransitivity; [apply nodes_sort|]. rewrite nodes_propagate, map_map. reflexivity.
Qed.

Lemma fin_seg alpha x : wn_seg (fin alpha x) = wn_seg x.
Proof. destruct alpha; cbn [fin]; [|rewrite sort_weighted_seg]; apply propagate_seg. Qed.

Lemma fin_weights alpha x : wn_weights (fin alpha x) = wn_weights (propagate x).
Proof. destruct alpha; cbn [fin]; [reflexivity|apply sort_weighted_weights]. Qed.

Lemma fin_children alpha x : Permutation (wn_children (fin alpha x)) (map (fin alpha) (wn_children x)).
Proof.
  destruct x as [s lf w ch]. destruct alpha; cbn [fin].
  - rewrite propagate_children. reflexivity.
  - etransitivity; [apply sort_weighted_children|]. rewrite propagate_children, map_map. reflexivity.
Qed.

Lemma below_fin alpha n p :
  Permutation (below p (wn_children (fin alpha n))) (map (nmap (fin alpha)) (below p (wn_children n))).
Proof.
  pose proof (nodes_fin alpha n p) as H. rewrite !nodes_unfold in H. cbn [map nmap fst snd] in H.
  apply Permutation_cons_inv in H. exact H.
Qed.

Section Rows.
  Variable dates : list Z.

  Definition cells_of (x : wnode) : list scell := map (wcell (wn_weights x)) dates.
  (* the number in column j of the row of x *)
  Definition ccol (j : nat) (x : wnode) : Q := scell_q (nth j (cells_of x) None).

  Fixpoint render_s (depth : Z) (n : wnode) : list srow :=
    match n with
    | WNode s _ w ch => (depth, s, map (wcell w) dates) :: flat_map (render_s (depth + 1)%Z) ch
    end.

  Lemma render_s_unfold depth n :
    render_s depth n = (depth, wn_seg n, cells_of n) :: flat_map (render_s (depth + 1)%Z) (wn_children n).
  Proof. destruct n; reflexivity. Qed.

  Lemma render_s_eq n : forall k, map srow_of_wrow (render_wnode dates (2 * k) n) = render_s k n.
  Proof.
    induction n as [s lf w ch IH] using wnode_ind'. intros k. cbn [render_wnode render_s map srow_of_wrow].
    replace (2 * k / 2)%Z with k by (rewrite Z.mul_comm, Z.div_mul; lia). f_equal.
    rewrite map_flat_map. apply flat_map_Forall_eq. rewrite Forall_forall in *. intros c Hc.
    replace (2 * k + 2)%Z with (2 * (k + 1))%Z by lia. apply IH. exact Hc.
  Qed.

  (* the row of a node at a path *)
  Definition nrow (px : list str * wnode) : list str * srow :=
    (fst px, ((Z.of_nat (length (fst px)) - 1)%Z, wn_seg (snd px), cells_of (snd px))).

  Lemma depth_snoc (p : list str) s : (Z.of_nat (length (p ++ [s])) - 1 = Z.of_nat (length p))%Z.
  Proof. rewrite app_length. cbn [length]. lia. Qed.

  Lemma nrow_snoc (p : list str) s x : nrow (p ++ [s], x) = (p ++ [s], (Z.of_nat (length p), wn_seg x, cells_of x)).
  Proof. unfold nrow. cbn [fst snd]. rewrite depth_snoc. reflexivity. Qed.

  Lemma rows_nodes n : forall p,
    map snd (map nrow (nodes (p ++ [wn_seg n]) n)) = render_s (Z.of_nat (length p)) n.
  Proof.
    induction n as [s lf w ch IH] using wnode_ind'. intros p. cbn [wn_seg]. rewrite nodes_unfold, render_s_unfold.
    cbn [map nrow fst snd wn_seg wn_children]. rewrite depth_snoc. f_equal.
    unfold below. rewrite !map_flat_map. apply flat_map_Forall_eq. rewrite Forall_forall in *. intros c Hc.
    rewrite (IH c Hc (p ++ [s])). rewrite app_length. cbn [length]. f_equal. lia.
  Qed.

  Lemma rows_below p ch : map snd (map nrow (below p ch)) = flat_map (render_s (Z.of_nat (length p))) ch.
  Proof.
    unfold below. rewrite !map_flat_map. apply flat_map_Forall_eq. rewrite Forall_forall. intros c _.
    apply rows_nodes.
  Qed.

  Lemma firstn_shorter (p : list str) s l : firstn (length (p ++ [s])) l = p ++ [s] -> firstn (length p) l = p.
  Proof.
    intros H. assert (E : firstn (length p) (firstn (length (p ++ [s])) l) = firstn (length p) (p ++ [s])) by (rewrite H; reflexivity).
    rewrite firstn_firstn in E. rewrite app_length in E. cbn [length] in E. rewrite Nat.min_l in E by lia.
    rewrite E, firstn_app, Nat.sub_diag. cbn [firstn]. rewrite app_nil_r. apply firstn_all.
  Qed.

  Lemma row_paths_below p ch : forall prev tail,
    firstn (length p) prev = p ->
    exists prev', firstn (length p) prev' = p /\
      row_paths prev (map snd (map nrow (below p ch)) ++ tail) = map nrow (below p ch) ++ row_paths prev' tail.
  Proof.
    revert p ch. apply (below_ind (fun p blk => forall prev tail, firstn (length p) prev = p ->
      exists prev', firstn (length p) prev' = p /\
        row_paths prev (map snd (map nrow blk) ++ tail) = map nrow blk ++ row_paths prev' tail)).
    - intros p prev tail Hp. exists prev. split; [exact Hp|reflexivity].
    - intros p c ch Hc IH prev tail Hp. rewrite below_cons, !map_app, <- app_assoc.
      destruct (Hc prev (map snd (map nrow (below p ch)) ++ tail) Hp) as [prev1 [H1 E1]].
      destruct (IH prev1 tail H1) as [prev2 [H2 E2]]. exists prev2. split; [exact H2|].
      rewrite E1, E2, <- app_assoc. reflexivity.
    - intros p n IH prev tail Hp. rewrite nodes_unfold. cbn [map app row_paths]. rewrite nrow_snoc.
      cbn [snd srow_depth srow_label fst]. rewrite Nat2Z.id, Hp.
      destruct (IH (p ++ [wn_seg n]) tail (firstn_all _)) as [prev' [H1 E1]].
      exists prev'. split; [exact (firstn_shorter p _ prev' H1)|]. rewrite E1. reflexivity.
  Qed.

  Lemma row_paths_top ch : row_paths [] (flat_map (render_s 0) ch) = map nrow (below [] ch).
  Proof.
    destruct (row_paths_below [] ch [] [] eq_refl) as [prev' [_ E]].
    rewrite rows_below, !app_nil_r in E. exact E.
  Qed.

  Lemma render_s_depth n : forall k, Forall (fun r => (k <= srow_depth r)%Z) (render_s k n).
  Proof.
    induction n as [s lf w ch IH] using wnode_ind'. intros k. rewrite render_s_unfold. constructor; [cbn; lia|].
    apply Forall_flat_map. rewrite Forall_forall in *. intros c Hc. specialize (IH c Hc (k + 1)%Z).
    rewrite Forall_forall in *. intros r Hr. specialize (IH r Hr). lia.
  Qed.

  Lemma members_skip k deep rest : Forall (fun r => (k + 1 < srow_depth r)%Z) deep -> members k (deep ++ rest) = members k rest.
  Proof.
    induction 1 as [|r deep Hr _ IH]; [reflexivity|]. cbn [app members].
    replace (srow_depth r <=? k)%Z with false by (symmetry; apply Z.leb_gt; lia).
    replace (srow_depth r =? k + 1)%Z with false by (symmetry; apply Z.eqb_neq; lia). exact IH.
  Qed.

  Definition tail_le (k : Z) (tail : list srow) : Prop :=
    match tail with [] => True | r :: _ => (srow_depth r <= k)%Z end.

  Definition first_row (k : Z) (c : wnode) : srow := (k, wn_seg c, cells_of c).

  Lemma members_children k ch tail : tail_le k tail ->
    members k (flat_map (render_s (k + 1)%Z) ch ++ tail) = map (first_row (k + 1)%Z) ch.
  Proof.
    intros Ht. induction ch as [|c ch IH]; cbn [flat_map map app].
    - destruct tail as [|r tail]; [reflexivity|]. cbn [tail_le] in Ht. cbn [members].
      replace (srow_depth r <=? k)%Z with true by (symmetry; apply Z.leb_le; exact Ht). reflexivity.
    - rewrite render_s_unfold. cbn [app members srow_depth fst].
      replace (k + 1 <=? k)%Z with false by (symmetry; apply Z.leb_gt; lia). rewrite Z.eqb_refl.
      unfold first_row at 1. f_equal. rewrite <- app_assoc. rewrite members_skip; [exact IH|].
      apply Forall_flat_map. rewrite Forall_forall. intros g _. pose proof (render_s_depth g (k + 1 + 1)%Z) as H.
      rewrite Forall_forall in *. intros r Hr. specialize (H r Hr). lia.
  Qed.

  Lemma tail_le_below p ch tail :
    tail_le (Z.of_nat (length p)) (map snd tail) ->
    tail_le (Z.of_nat (length p)) (map snd (map nrow (below p ch) ++ tail)).
  Proof.
    intros Ht. destruct ch as [|c' ch]; [exact Ht|]. rewrite below_cons, nodes_unfold. cbn [map app tail_le nrow fst snd srow_depth].
    rewrite depth_snoc. lia.
  Qed.

  Lemma tail_le_snoc (p : list str) s tail :
    tail_le (Z.of_nat (length p)) tail -> tail_le (Z.of_nat (length (p ++ [s]))) tail.
  Proof. destruct tail; cbn [tail_le]; [trivial|]. rewrite app_length. cbn [length]. lia. Qed.

  (* the members of the row of a node are the rows of its children *)
  Lemma members_node p n tail : tail_le (Z.of_nat (length p)) (map snd tail) ->
    members (Z.of_nat (length p)) (map snd (map nrow (below (p ++ [wn_seg n]) (wn_children n)) ++ tail)) =
    map (first_row (Z.of_nat (length p) + 1)%Z) (wn_children n).
  Proof.
    intros Ht. rewrite map_app, rows_below.
    replace (Z.of_nat (length (p ++ [wn_seg n]))) with (Z.of_nat (length p) + 1)%Z by (rewrite app_length; cbn [length]; lia).
    apply members_children. exact Ht.
  Qed.

  Definition leafp (px : list str * wnode) : bool := match wn_children (snd px) with [] => true | _ => false end.

  Lemma leaf_rows_below p ch : forall tail,
    tail_le (Z.of_nat (length p)) (map snd tail) ->
    leaf_rows (map nrow (below p ch) ++ tail) = map nrow (filter leafp (below p ch)) ++ leaf_rows tail.
  Proof.
    revert p ch. apply (below_ind (fun p blk => forall tail, tail_le (Z.of_nat (length p)) (map snd tail) ->
      leaf_rows (map nrow blk ++ tail) = map nrow (filter leafp blk) ++ leaf_rows tail)).
    - reflexivity.
    - intros p c ch Hc IH tail Ht. rewrite below_cons, map_app, <- app_assoc, filter_app, map_app, <- app_assoc.
      rewrite (Hc _ (tail_le_below p ch tail Ht)), (IH tail Ht). reflexivity.
    - intros p n IH tail Ht. rewrite nodes_unfold. cbn [map app leaf_rows filter]. rewrite nrow_snoc at 1.
      cbn [snd srow_depth fst]. rewrite (members_node p n tail Ht), (IH tail (tail_le_snoc p _ _ Ht)).
      unfold leafp. cbn [snd]. destruct (wn_children n); reflexivity.
  Qed.

  Lemma leaf_rows_top ch : leaf_rows (map nrow (below [] ch)) = map nrow (filter leafp (below [] ch)).
  Proof. pose proof (leaf_rows_below [] ch [] I) as H. rewrite !app_nil_r in H. exact H. Qed.

  Lemma close_b_eq a b : a == b -> close_b 0 a b = true.
  Proof.
    intros H. unfold close_b. apply Qle_bool_iff. assert (E : a - b == 0) by (rewrite H; ring).
    rewrite E. cbn. apply Qle_refl.
  Qed.

  Variable ncols : nat.
  Variable m : list rule.
  Variable leaves : list (list str * srow).

  (* the law at one node: its cell = what the mapping folds into it + the cells of its children, in the
     columns in which every leaf row (of the table without -m) is a finite number *)
  Definition LOC (px : list str * wnode) : Prop := forall j, (j < ncols)%nat ->
    forallb (fun lf => scol_finite j (snd lf)) leaves = true ->
    ccol j (snd px) == own_sum m leaves (fst px) j + qsum (map (ccol j) (wn_children (snd px))).

  Definition gok (prs : list (list str * srow)) : Prop := groups_own_ok_b 0 ncols m leaves prs = true.

  Lemma col_sum_first_rows j k ch : col_sum j (map (first_row k) ch) = qsum (map (ccol j) ch).
  Proof. unfold col_sum. rewrite map_map. reflexivity. Qed.

  Lemma gok_below p ch : forall tail,
    tail_le (Z.of_nat (length p)) (map snd tail) ->
    Forall LOC (below p ch) -> gok tail -> gok (map nrow (below p ch) ++ tail).
  Proof.
    revert p ch. apply (below_ind (fun p blk => forall tail, tail_le (Z.of_nat (length p)) (map snd tail) ->
      Forall LOC blk -> gok tail -> gok (map nrow blk ++ tail))).
    - intros p tail _ _ Hg. exact Hg.
    - intros p c ch Hc IH tail Ht Hl Hg. rewrite below_cons in *. apply Forall_app in Hl. destruct Hl as [Hl1 Hl2].
      rewrite map_app, <- app_assoc. apply (Hc _ (tail_le_below p ch tail Ht) Hl1). apply IH; assumption.
    - intros p n IH tail Ht Hl Hg. rewrite nodes_unfold in *. inversion Hl as [|? ? Hloc Hrest]; subst.
      unfold gok. cbn [map app groups_own_ok_b]. apply andb_true_iff. split; [|exact (IH tail (tail_le_snoc p _ _ Ht) Hrest Hg)].
      rewrite !nrow_snoc. cbn [fst snd srow_depth]. rewrite (members_node p n tail Ht).
      apply forallb_forall. intros j Hj. apply in_seq in Hj.
      destruct (forallb (fun lf => scol_finite j (snd lf)) leaves) eqn:Efin; [|rewrite andb_false_r; reflexivity].
      apply orb_true_iff. right. apply close_b_eq.
      rewrite col_sum_first_rows. exact (Hloc j (proj2 Hj) Efin).
  Qed.

  Lemma gok_top ch : Forall LOC (below [] ch) -> gok (map nrow (below [] ch)).
  Proof. intros H. pose proof (gok_below [] ch [] I H eq_refl) as G. rewrite app_nil_r in G. exact G. Qed.
End Rows.

Lemma find_in_nodes t : forall n p x, wn_find t n = Some x -> In (p ++ t, x) (nodes p n).
Proof.
  induction t as [|h t IH]; intros n p x H; cbn [wn_find] in H.
  - inversion H; subst. rewrite app_nil_r, nodes_unfold. left. reflexivity.
  - destruct (find_child h (wn_children n)) as [c|] eqn:Ef; [|discriminate].
    destruct (find_child_in _ _ _ Ef) as [Hin Hseg]. rewrite nodes_unfold. right. unfold below. apply in_flat_map.
    exists c. split; [exact Hin|]. specialize (IH c (p ++ [wn_seg c]) x H). rewrite <- app_assoc in IH. rewrite Hseg in *. exact IH.
Qed.

Lemma nodes_find n : forall p q x, tsorted n -> In (q, x) (nodes p n) -> exists t, q = p ++ t /\ wn_find t n = Some x.
Proof.
  induction n as [s lf w ch IH] using wnode_ind'. intros p q x Hs Hin. rewrite nodes_unfold in Hin. destruct Hin as [Hin|Hin].
  - inversion Hin; subst. exists []. split; [rewrite app_nil_r; reflexivity|reflexivity].
  - unfold below in Hin. apply in_flat_map in Hin. destruct Hin as [c [Hc Hin]]. cbn [wn_children] in Hc.
    apply tall_unfold in Hs. destruct Hs as [Hsort Hall]. cbn [wn_children] in Hsort. rewrite Forall_forall in IH, Hall.
    destruct (IH c Hc _ q x (Hall c Hc) Hin) as [t [Hq Hf]]. exists (wn_seg c :: t). split.
    + rewrite Hq, <- app_assoc. reflexivity.
    + cbn [wn_find wn_children]. rewrite (find_child_self ch c Hsort Hc). exact Hf.
Qed.

Lemma below_find n p q x : tsorted n -> In (q, x) (below p (wn_children n)) ->
  exists t, t <> [] /\ q = p ++ t /\ wn_find t n = Some x.
Proof.
  intros Hs Hin. assert (Hin' : In (q, x) (nodes p n)) by (rewrite nodes_unfold; right; exact Hin).
  unfold below in Hin. apply in_flat_map in Hin. destruct Hin as [c [Hc Hin]].
  pose proof (tall_children _ _ Hs) as Hall. rewrite Forall_forall in Hall.
  destruct (nodes_find c _ q x (Hall c Hc) Hin) as [t [Hq Hf]]. exists (wn_seg c :: t). split; [discriminate|]. split.
  - rewrite Hq, <- app_assoc. reflexivity.
  - cbn [wn_find]. rewrite (find_child_self _ c (tall_here _ _ Hs) Hc). exact Hf.
Qed.

Lemma find_build_iff es : forall n q, tsorted n ->
  (wn_find q (build es n) <> None <->
   wn_find q n <> None \/ exists e, In e es /\ path_prefix q (entry_path e) = true).
Proof.
  unfold build. induction es as [|[[ss d] w] es IH]; intros n q Hs; cbn [fold_left].
  - split; [intros H; left; exact H|intros [H|[e [[] _]]]; exact H].
  - rewrite (IH _ q (wn_add_sorted ss d w n Hs)), (wn_find_add ss d w q n Hs). split.
    + intros [H|[e [He Hp]]].
      * destruct (path_prefix q ss) eqn:E; [|left; exact H]. right. exists (ss, d, w). split; [left; reflexivity|exact E].
      * right. exists e. split; [right; exact He|exact Hp].
    + intros [H|[e [[He|He] Hp]]].
      * left. destruct (path_prefix q ss); [discriminate|exact H].
      * subst e. cbn [entry_path] in Hp. rewrite Hp. left. discriminate.
      * right. exists e. split; assumption.
Qed.

Lemma find_report_iff es q : q <> [] ->
  (wn_find q (report_of es) <> None <-> exists e, In e es /\ path_prefix q (entry_path e) = true).
Proof.
  intros Hq. rewrite report_of_build, (find_build_iff es wroot q wroot_sorted). split; [|intros H; right; exact H].
  intros [H|H]; [|exact H]. destruct q; [congruence|]. cbn in H. congruence.
Qed.

(* a node without children is where an entry ends *)
Lemma leaf_node_entry es q x : q <> [] -> wn_find q (report_of es) = Some x -> wn_children x = [] ->
  exists e, In e es /\ entry_path e = q.
Proof.
  intros Hq Hf Hch. assert (Hsome : wn_find q (report_of es) <> None) by congruence.
  apply (find_report_iff es q Hq) in Hsome. destruct Hsome as [e [He Hp]]. exists e. split; [exact He|].
  apply path_prefix_iff in Hp. destruct Hp as [r Hr]. destruct r as [|h r]; [rewrite app_nil_r in Hr; exact Hr|].
  exfalso. assert (Hq' : q ++ [h] <> []) by (destruct q; discriminate).
  assert (H2 : wn_find (q ++ [h]) (report_of es) <> None).
  { apply (find_report_iff es _ Hq'). exists e. split; [exact He|]. apply path_prefix_iff. exists r. rewrite Hr, <- app_assoc. reflexivity. }
  rewrite wn_find_app, Hf in H2. cbn [wn_find] in H2. rewrite Hch in H2. cbn in H2. congruence.
Qed.

(* a node with children is below no entry's end, when the paths are prefix-free *)
Lemma inner_node_no_entry es q x : prefix_free es -> wn_find q (report_of es) = Some x -> wn_children x <> [] ->
  forall e, In e es -> path_eqb q (entry_path e) = false.
Proof.
  intros Hpf Hf Hch e He. destruct (path_eqb q (entry_path e)) eqn:E; [|reflexivity]. exfalso.
  apply path_eqb_eq in E. destruct (wn_children x) as [|c ch] eqn:Ec; [congruence|].
  pose proof (proj1 (report_shape es)) as Hs. pose proof (wn_find_tall _ q _ x Hs Hf) as Hx.
  assert (Hfc : wn_find (q ++ [wn_seg c]) (report_of es) = Some c).
  { rewrite wn_find_app, Hf. cbn [wn_find]. rewrite (find_child_self _ c (tall_here _ _ Hx)); [reflexivity|rewrite Ec; left; reflexivity]. }
  assert (Hq' : q ++ [wn_seg c] <> []) by (destruct q; discriminate).
  assert (Hsome : wn_find (q ++ [wn_seg c]) (report_of es) <> None) by congruence.
  apply (find_report_iff es _ Hq') in Hsome. destruct Hsome as [e' [He' Hp]].
  specialize (Hpf e e' He He'). destruct e as [[ss1 d1] w1], e' as [[ss2 d2] w2]. cbn [entry_path] in *. subst q.
  apply path_prefix_iff in Hp. destruct Hp as [r Hr]. unfold proper_prefix in Hpf. apply andb_false_iff in Hpf. destruct Hpf as [Hpf|Hpf].
  - assert (H : path_prefix ss1 ss2 = true) by (apply path_prefix_iff; exists (wn_seg c :: r); rewrite Hr, <- app_assoc; reflexivity).
    congruence.
  - apply negb_false_iff in Hpf. apply path_prefix_iff in Hpf. destruct Hpf as [r' Hr']. rewrite Hr, <- !app_assoc in Hr'.
    rewrite <- (app_nil_r ss1) in Hr' at 1. apply app_inv_head in Hr'. discriminate.
Qed.

Lemma wm_get_absent w d : (forall k, In k (map fst w) -> (d < k)%Z) -> wm_get w d = None.
Proof.
  induction w as [|[k y] w IH]; intros H; cbn [wm_get]; [reflexivity|].
  assert (Hk : (d < k)%Z) by (apply H; left; reflexivity).
  replace (d =? k)%Z with false by (symmetry; apply Z.eqb_neq; lia). apply IH. intros k' Hk'. apply H. right. exact Hk'.
Qed.

Lemma wm_get_add w d x d' : wm_asc w ->
  wm_get (wm_add w d x) d' =
  if (d' =? d)%Z then Some (match wm_get w d with Some y => oadd y x | None => x end) else wm_get w d'.
Proof.
  unfold wm_asc. induction w as [|[k y] w IH]; intros Ha; cbn [wm_add wm_get]; [reflexivity|].
  destruct (d =? k)%Z eqn:E1.
  - apply Z.eqb_eq in E1. subst k. cbn [wm_get]. destruct (d' =? d)%Z; reflexivity.
  - destruct (d <? k)%Z eqn:E2.
    + cbn [wm_get]. destruct (d' =? d)%Z eqn:E3; [|reflexivity].
      rewrite wm_get_absent; [reflexivity|]. intros k' Hk'. apply Z.ltb_lt in E2. cbn [map fst] in Ha.
      pose proof (asc_lt k _ Ha k' Hk'). lia.
    + cbn [wm_get]. rewrite (IH (asc_tail _ _ Ha)). destruct (d' =? k)%Z eqn:E3; [|reflexivity].
      apply Z.eqb_eq in E3. subst d'. rewrite Z.eqb_sym, E1. reflexivity.
Qed.

Definition none_at (q : list str) (d : Z) (n : wnode) : Prop :=
  match wn_find q n with Some x => wm_get (wn_weights x) d = Some None | None => False end.

Lemma oadd_none y : oadd y None = None.
Proof. destruct y; reflexivity. Qed.

Lemma none_add_keep ss date x q d n : tsorted n -> tascw n -> none_at q d n -> none_at q d (wn_add ss date x n).
Proof.
  intros Hs Ha. unfold none_at. rewrite (wn_find_add ss date x q n Hs). unfold wn_get.
  destruct (wn_find q n) as [x0|] eqn:Ef; [|intros []]. intros Hn.
  destruct (path_prefix q ss); [|exact Hn].
  destruct (skipn (length q) ss) as [|h tl]; [|rewrite wn_add_root_weights; exact Hn].
  pose proof (tall_here _ _ (wn_find_tall _ q n x0 Ha Ef)) as Hax. cbn beta in Hax.
  destruct x0 as [s lf w ch]. cbn [wn_add wn_weights] in *. rewrite (wm_get_add w date x d Hax).
  destruct (d =? date)%Z eqn:E; [|exact Hn]. apply Z.eqb_eq in E. subst date. rewrite Hn. reflexivity.
Qed.

Lemma none_add_new ss date n : tsorted n -> tascw n -> none_at ss date (wn_add ss date None n).
Proof.
  intros Hs Ha. unfold none_at. rewrite (wn_find_add ss date None ss n Hs), path_prefix_refl, skipn_all.
  pose proof (tall_here _ _ (wn_get_tall _ ss n (fun h => I) Ha)) as Hg. cbn beta in Hg.
  destruct (wn_get ss n) as [s lf w ch]. cbn [wn_add wn_weights] in *. rewrite (wm_get_add w date None date Hg), Z.eqb_refl.
  destruct (wm_get w date) as [y|]; [rewrite oadd_none|]; reflexivity.
Qed.

Lemma none_build q d es : forall n, tsorted n -> tascw n ->
  none_at q d n \/ In (q, d, None) es -> none_at q d (build es n).
Proof.
  unfold build. induction es as [|[[ss dt] w] es IH]; intros n Hs Ha H; cbn [fold_left].
  - destruct H as [H|[]]. exact H.
  - apply IH; [apply wn_add_sorted; exact Hs|apply wn_add_asc; exact Ha|].
    destruct H as [H|[H|H]].
    + left. apply none_add_keep; assumption.
    + inversion H; subst. left. apply none_add_new; assumption.
    + right. exact H.
Qed.

Lemma none_report q d es : In (q, d, None) es -> none_at q d (report_of es).
Proof. intros H. rewrite report_of_build. apply none_build; [exact wroot_sorted|exact wroot_asc|right; exact H]. Qed.

Definition nsum (g : list str -> bool) (d : Z) (l : list (list str * wnode)) : Q :=
  qsum (map (fun px => if g (fst px) then wsum (wn_weights (snd px)) d else 0) l).

Lemma nsum_app g d l1 l2 : nsum g d (l1 ++ l2) == nsum g d l1 + nsum g d l2.
Proof. unfold nsum. rewrite map_app. apply qsum_app. Qed.

Lemma nsum_new g d p h : nsum g d (nodes p (wn_new h)) == 0.
Proof. unfold nsum. cbn. destruct (g p); reflexivity. Qed.

Lemma nsum_upd g d p h f l delta :
  (forall c, wn_seg (f c) = wn_seg c) ->
  (forall c, wn_seg c = h -> tdef_at d c -> nsum g d (nodes (p ++ [h]) (f c)) == nsum g d (nodes (p ++ [h]) c) + delta) ->
  Forall (tdef_at d) l ->
  nsum g d (below p (wchildren_upd h f l)) == nsum g d (below p l) + delta.
Proof.
  intros Hseg Hf. assert (Hnew : nsum g d (nodes (p ++ [h]) (f (wn_new h))) == delta).
  { rewrite (Hf (wn_new h) eq_refl (tdef_at_new d h)), nsum_new. ring. }
  induction l as [|c l IH]; intros Hl; cbn [wchildren_upd].
  - rewrite below_cons, Hseg. cbn [wn_new wn_seg]. rewrite nsum_app, Hnew. unfold below, nsum. cbn. ring.
  - inversion Hl as [|? ? Hc Hl']; subst. destruct (str_cmp h (wn_seg c)) eqn:E.
    + apply str_cmp_eq in E. rewrite !below_cons, !nsum_app, Hseg, <- E, (Hf c (eq_sym E) Hc). ring.
    + rewrite (below_cons p (f (wn_new h))), Hseg. cbn [wn_new wn_seg]. rewrite nsum_app, Hnew. ring.
    + rewrite !below_cons, !nsum_app, (IH Hl'). ring.
Qed.

(* on a date d whose bookings are defined; the entry added may be undefined if it is of another date *)
Lemma nsum_add g ss date x d : (date = d -> x <> None) -> forall p n, tdef_at d n ->
  nsum g d (nodes p (wn_add ss date x n)) ==
  nsum g d (nodes p n) + (if g (p ++ ss) && (date =? d)%Z then oq x else 0).
Proof.
  intros Hx. induction ss as [|h tl IH]; intros p [s lf w ch] Hd; apply tdef_at_unfold in Hd; destruct Hd as [Hw Hch];
    cbn [wn_add wn_seg wn_leaf wn_weights wn_children]; rewrite !nodes_unfold; cbn [wn_children];
    unfold nsum at 1 2; cbn [map fst snd wn_weights]; rewrite !qsum_cons.
  - rewrite app_nil_r. fold (nsum g d (below p ch)). destruct (g p); cbn [andb].
    + rewrite (proj2 (wm_add_sum_at w date x d Hw Hx)). ring.
    + ring.
  - fold (nsum g d (below p (wchildren_upd h (wn_add tl date x) ch))). fold (nsum g d (below p ch)).
    rewrite (nsum_upd g d p h (wn_add tl date x) ch (if g (p ++ h :: tl) && (date =? d)%Z then oq x else 0)).
    + ring.
    + intros c. apply wn_add_seg.
    + intros c _ Hc. rewrite (IH (p ++ [h]) c Hc), <- app_assoc. reflexivity.
    + exact Hch.
Qed.

Lemma nsum_build g d es : edef_at d es -> forall n, tdef_at d n ->
  nsum g d (nodes [] (build es n)) ==
  nsum g d (nodes [] n) + qsum (map (fun e : entry => let '(ss, dt, w) := e in if g ss && (dt =? d)%Z then oq w else 0) es).
Proof.
  unfold build. induction es as [|[[ss dt] w] es IH]; intros Hes n Hn; cbn [fold_left map].
  - cbn. ring.
  - inversion Hes as [|? ? Hw Hrest]; subst.
    rewrite (IH Hrest _ (proj1 (wn_add_total ss dt w d Hw n Hn))), (nsum_add g ss dt w d Hw [] n Hn), qsum_cons. cbn [app]. ring.
Qed.

(* over the nodes below the root of a report whose entries have non-empty paths *)
Lemma nsum_report g d es : edef_at d es -> Forall (fun e => entry_path e <> []) es ->
  nsum g d (below [] (wn_children (report_of es))) ==
  qsum (map (fun e : entry => let '(ss, dt, w) := e in if g ss && (dt =? d)%Z then oq w else 0) es).
Proof.
  intros Hd Hne. pose proof (nsum_build g d es Hd wroot (tdef_at_new d [])) as H. rewrite <- report_of_build in H.
  rewrite nodes_unfold in H. unfold nsum at 1 in H. cbn [map fst snd] in H. rewrite qsum_cons in H.
  fold (nsum g d (below [] (wn_children (report_of es)))) in H.
  pose proof (report_root_weights es Hne wroot) as Hw. rewrite <- report_of_build in Hw.
  rewrite Hw in H. cbn [wroot wn_new wn_weights] in H.
  assert (Hz : nsum g d (nodes [] wroot) == 0) by apply nsum_new.
  rewrite Hz in H. assert (H0 : (if g [] then wsum [] d else 0) == 0) by (destruct (g []); reflexivity).
  rewrite H0 in H. rewrite !Qplus_0_l in H. exact H.
Qed.

Lemma scell_wcell w d : scell_q (wcell w d) == cell_q w d.
Proof.
  unfold wcell, cell_q. destruct (wm_get w d) as [[q|]|]; cbn [scell_q oq]; try reflexivity.
  destruct (q_is_zero q) eqn:E; cbn [scell_q]; [|reflexivity]. apply q_is_zero_iff in E. rewrite E. reflexivity.
Qed.

Lemma ccol_nth dates j x : (j < length dates)%nat -> ccol dates j x == cell_q (wn_weights x) (nth j dates 0%Z).
Proof.
  intros Hj. unfold ccol, cells_of. rewrite (nth_indep _ None (wcell (wn_weights x) 0%Z)) by (rewrite map_length; exact Hj).
  rewrite map_nth. apply scell_wcell.
Qed.

(* the cell of a node of the rendered tree = its weight after PropagateWeights *)
Lemma ccol_fin dates j alpha x : (j < length dates)%nat -> wm_asc (wn_weights x) ->
  ccol dates j (fin alpha x) == nweight (propagate x) (nth j dates 0%Z).
Proof.
  intros Hj Ha. rewrite (ccol_nth dates j _ Hj), fin_weights. unfold nweight. apply cell_q_wsum.
  apply propagate_weights_asc. exact Ha.
Qed.

Lemma propagate_leaf x : wn_children x = [] -> propagate x = x.
Proof. destruct x as [s lf w ch]. cbn [wn_children]. intros ->. reflexivity. Qed.

Lemma fin_leafp alpha px : leafp (nmap (fin alpha) px) = leafp px.
Proof.
  unfold leafp, nmap. cbn [snd]. pose proof (fin_children alpha (snd px)) as H.
  destruct (wn_children (snd px)) as [|c ch]; cbn [map] in H.
  - apply Permutation_sym, Permutation_nil in H. rewrite H. reflexivity.
  - destruct (wn_children (fin alpha (snd px))); [apply Permutation_nil in H; discriminate|reflexivity].
Qed.

(* the rows of the rendered report are the rows of the nodes found at non-empty paths *)
Lemma row_node al es px : In px (below [] (wn_children (fin al (report_of es)))) ->
  exists q x, px = nmap (fin al) (q, x) /\ q <> [] /\ wn_find q (report_of es) = Some x.
Proof.
  intros Hin. apply (Permutation_in _ (below_fin al (report_of es) [])) in Hin. apply in_map_iff in Hin.
  destruct Hin as [[q x] [<- Hin]]. exists q, x. split; [reflexivity|].
  destruct (below_find _ [] q x (proj1 (report_shape es)) Hin) as [t [Ht [Hq Hf]]]. cbn [app] in Hq. subst t.
  split; assumption.
Qed.

Lemma node_row al es q x : q <> [] -> wn_find q (report_of es) = Some x ->
  In (nmap (fin al) (q, x)) (below [] (wn_children (fin al (report_of es)))).
Proof.
  intros Hq Hf. apply (Permutation_in _ (Permutation_sym (below_fin al (report_of es) []))). apply in_map.
  pose proof (find_in_nodes q (report_of es) [] x Hf) as Hnode. cbn [app] in Hnode. rewrite nodes_unfold in Hnode.
  destruct Hnode as [Hh|Hnode]; [inversion Hh; congruence|exact Hnode].
Qed.

Lemma map_entries_in m es0 : forall es e0, map_entries m es0 = Some es -> In e0 es0 ->
  exists q, map_path m (entry_path e0) = Some q /\ exists e, In e es /\ entry_path e = q.
Proof.
  induction es0 as [|[[ss d] w] es0 IH]; intros es e0 H Hin; [destruct Hin|]. cbn [map_entries] in H.
  destruct (map_path m ss) as [q|] eqn:Eq; [|discriminate]. destruct (map_entries m es0) as [l|]; [|discriminate].
  inversion H; subst. destruct Hin as [<-|Hin].
  - exists q. split; [exact Eq|]. exists (q, d, w). split; [left; reflexivity|reflexivity].
  - destruct (IH l e0 eq_refl Hin) as [q' [H1 [e [H2 H3]]]]. exists q'. split; [exact H1|]. exists e. split; [right; exact H2|exact H3].
Qed.

Lemma map_path_of_nil m q : map_path m [] = Some q -> q = [].
Proof.
  unfold map_path. destruct (mapping_level m (join [colon] [])) as [[level suffix]|]; [|intros H; inversion H; reflexivity].
  cbn [length Z.of_nat]. destruct (level <? 0 - suffix)%Z; [|intros H; inversion H; reflexivity].
  destruct ((level <? 0)%Z || (suffix <? 0)%Z); [discriminate|]. intros H. inversion H.
  rewrite firstn_nil, skipn_nil. reflexivity.
Qed.

Lemma map_entries_nonempty m es0 : forall es, map_entries m es0 = Some es ->
  Forall (fun e => entry_path e <> []) es -> Forall (fun e => entry_path e <> []) es0.
Proof.
  induction es0 as [|[[ss d] w] es0 IH]; intros es H Hne; [constructor|]. cbn [map_entries] in H.
  destruct (map_path m ss) as [q|] eqn:Eq; [|discriminate]. destruct (map_entries m es0) as [l|]; [|discriminate].
  inversion H; subst. inversion Hne as [|? ? H1 H2]; subst. constructor; [|exact (IH l eq_refl H2)].
  cbn [entry_path] in *. intros ->. apply map_path_of_nil in Eq. congruence.
Qed.

Lemma report_dates_map m es0 : forall es, map_entries m es0 = Some es -> report_dates es = report_dates es0.
Proof.
  unfold report_dates. generalize (@nil Z). induction es0 as [|[[ss d] w] es0 IH]; intros acc es H; cbn [map_entries] in H.
  - inversion H; subst. reflexivity.
  - destruct (map_path m ss) as [q|]; [|discriminate]. destruct (map_entries m es0) as [l|] eqn:El; [|discriminate].
    inversion H; subst. cbn [fold_left]. apply IH. reflexivity.
Qed.

Lemma qsum_filter {A} (P : A -> bool) (F : A -> Q) l :
  qsum (map F (filter P l)) == qsum (map (fun x => if P x then F x else 0) l).
Proof.
  induction l as [|x l IH]; cbn [filter map]; [reflexivity|]. destruct (P x); cbn [map]; rewrite !qsum_cons, IH; ring.
Qed.

(* the rows of the table of the model *)
Lemma srows_render al e :
  srows (render_weights al e) = flat_map (render_s (report_dates e) 0) (wn_children (fin al (report_of e))).
Proof.
  unfold srows, render_weights, fin. cbn [snd]. rewrite map_flat_map. apply flat_map_Forall_eq.
  apply Forall_forall. intros c _. exact (render_s_eq (report_dates e) c 0).
Qed.

Section Law.
  Variables (m : list rule) (es0 es : list entry) (a0 a : bool).
  Hypothesis Hmap : map_entries m es0 = Some es.
  Hypothesis Hpf : prefix_free es0.
  Hypothesis Hne : Forall (fun e => entry_path e <> []) es.

  Local Notation dates := (report_dates es).
  Local Notation T0 := (report_of es0).
  Local Notation T := (report_of es).
  Local Notation leaves := (map (nrow dates) (filter leafp (below [] (wn_children (fin a0 T0))))).
  Local Notation prs := (map (nrow dates) (below [] (wn_children (fin a T)))).

  Lemma Hne0 : Forall (fun e => entry_path e <> []) es0.
  Proof. exact (map_entries_nonempty m es0 es Hmap Hne). Qed.

  (* which unmapped paths the mapping sends to p *)
  Definition gm (p q0 : list str) : bool := match map_path m q0 with Some q => path_eqb q p | None => false end.

  (* a column in which every leaf row of the table without -m is a finite number: the entries of its date are defined *)
  Lemma column_defined j : (j < length dates)%nat ->
    forallb (fun lf => scol_finite j (snd lf)) leaves = true -> edef_at (nth j dates 0%Z) es0.
  Proof.
    intros Hj Hfin. apply Forall_forall. intros [[q0 dt] w] He0 Hdt. destruct w as [v|]; [discriminate|]. exfalso. subst dt.
    pose proof (none_report q0 _ es0 He0) as Hn. unfold none_at in Hn. destruct (wn_find q0 T0) as [x0|] eqn:Ef; [|exact Hn].
    assert (Hch : wn_children x0 = []).
    { destruct (wn_children x0) as [|c0 ch0] eqn:Ec; [reflexivity|]. exfalso.
      assert (Hc : wn_children x0 <> []) by (rewrite Ec; discriminate).
      pose proof (inner_node_no_entry es0 q0 x0 Hpf Ef Hc _ He0) as Hno. cbn [entry_path] in Hno.
      rewrite (proj2 (path_eqb_eq q0 q0) eq_refl) in Hno. discriminate. }
    assert (Hq0 : q0 <> []) by (pose proof Hne0 as H; rewrite Forall_forall in H; exact (H _ He0)).
    rewrite forallb_forall in Hfin.
    assert (Hin : In (nrow dates (nmap (fin a0) (q0, x0))) leaves).
    { apply in_map. apply filter_In. split; [exact (node_row a0 es0 q0 x0 Hq0 Ef)|].
      rewrite fin_leafp. unfold leafp. cbn [snd]. rewrite Hch. reflexivity. }
    specialize (Hfin _ Hin). unfold scol_finite, nrow, nmap in Hfin. cbn [fst snd] in Hfin. unfold cells_of in Hfin.
    rewrite (nth_indep _ None (wcell (wn_weights (fin a0 x0)) 0%Z)) in Hfin by (rewrite map_length; exact Hj).
    rewrite map_nth, fin_weights, (propagate_leaf x0 Hch) in Hfin. unfold wcell in Hfin. rewrite Hn in Hfin. discriminate.
  Qed.

  (* what the mapping folds into the row at p, read off the leaf rows of the table without -m *)
  Lemma own_sum_leaves p j : (j < length dates)%nat -> edef_at (nth j dates 0%Z) es0 ->
    own_sum m leaves p j == own_weight es p (nth j dates 0%Z).
  Proof.
    intros Hj Hed0. unfold own_sum. rewrite map_map.
    rewrite (map_ext _ (fun px => if gm p (fst px) then ccol dates j (snd px) else 0)) by (intros px; reflexivity).
    rewrite qsum_filter.
    rewrite (qsum_perm _ _ (Permutation_map _ (below_fin a0 T0 []))), map_map.
    rewrite (own_weight_map m es0 p (nth j dates 0%Z) es Hmap).
    transitivity (nsum (gm p) (nth j dates 0%Z) (below [] (wn_children T0))).
    - unfold nsum. apply qsum_map_ext. intros [q x] Hin. rewrite fin_leafp. cbn [nmap fst snd].
      destruct (report_shape es0) as [Hs Ha].
      destruct (below_find T0 [] q x Hs Hin) as [t [Ht [Hq Hf]]]. cbn [app] in Hq. subst t.
      pose proof (tall_here _ _ (wn_find_tall _ q _ x Ha Hf)) as Hax. cbn beta in Hax.
      unfold leafp. cbn [snd]. destruct (wn_children x) as [|c ch] eqn:Ec.
      + destruct (gm p q); [|reflexivity]. rewrite (ccol_fin dates j a0 x Hj Hax), (propagate_leaf x Ec). reflexivity.
      + destruct (gm p q); [|reflexivity]. rewrite (own_at_find_at _ es0 q x Hed0 Hf). symmetry. unfold own_weight.
        apply qsum_map_zero. intros [[ss dt] w] He.
        assert (Hch : wn_children x <> []) by (rewrite Ec; discriminate).
        pose proof (inner_node_no_entry es0 q x Hpf Hf Hch _ He) as Hno. cbn [entry_path] in Hno. rewrite Hno. reflexivity.
    - rewrite (nsum_report (gm p) (nth j dates 0%Z) es0 Hed0 Hne0). unfold folded_weight. apply qsum_map_ext.
      intros [[ss dt] w] _. unfold gm. destruct (map_path m ss); reflexivity.
  Qed.

  (* every row of the table with -m satisfies the law *)
  Lemma loc_all : Forall (LOC dates (length dates) m leaves) (below [] (wn_children (fin a T))).
  Proof.
    apply Forall_forall. intros px' Hin'.
    destruct (row_node a es px' Hin') as (q & x & -> & _ & Hf).
    pose proof (wn_find_tall _ q _ x (proj2 (report_shape es)) Hf) as Hax.
    intros j Hj Hfin. cbn [nmap fst snd].
    pose proof (column_defined j Hj Hfin) as Hed0.
    pose proof (map_entries_edef_at m _ es0 es Hmap Hed0) as Hed.
    pose proof (wn_find_maps _ q _ x (report_def_at _ es Hed) Hf) as Hdx.
    rewrite (ccol_fin dates j a x Hj (tall_here _ _ Hax)).
    rewrite (qsum_perm _ _ (Permutation_map (ccol dates j) (fin_children a x))), map_map.
    rewrite (own_sum_leaves q j Hj Hed0), <- (own_at_find_at _ es q x Hed Hf).
    rewrite (proj2 (propagate_at _ x Hdx)).
    apply Qplus_inj_l. apply qsum_map_ext. intros c Hc. symmetry. apply ccol_fin; [exact Hj|].
    pose proof (tall_children _ _ Hax) as Hall. rewrite Forall_forall in Hall.
    exact (tall_here _ _ (Hall c Hc)).
  Qed.

  (* every leaf row of the table without -m has a row of the table with -m to be folded into *)
  Lemma placed_all : leaves_placed_b m leaves prs = true.
  Proof.
    unfold leaves_placed_b. apply forallb_forall. intros lf Hlf. apply in_map_iff in Hlf. destruct Hlf as [px' [<- Hin']].
    apply filter_In in Hin'. destruct Hin' as [Hin' Hleaf].
    destruct (row_node a0 es0 px' Hin') as (q0 & x0 & -> & Ht & Hf).
    rewrite fin_leafp in Hleaf. unfold leafp in Hleaf. cbn [snd] in Hleaf.
    destruct (wn_children x0) as [|c0 ch0] eqn:Ec; [|discriminate].
    destruct (leaf_node_entry es0 q0 x0 Ht Hf Ec) as [e0 [He0 Hp0]].
    destruct (map_entries_in m es0 es e0 Hmap He0) as [q [Hmq [e [He Hpe]]]]. rewrite Hp0 in Hmq.
    assert (Hqne : q <> []) by (rewrite Forall_forall in Hne; rewrite <- Hpe; apply Hne; exact He).
    assert (Hsome : wn_find q T <> None).
    { apply (find_report_iff es q Hqne). exists e. split; [exact He|]. rewrite Hpe. apply path_prefix_refl. }
    destruct (wn_find q T) as [xm|] eqn:Efm; [|congruence].
    apply existsb_exists. exists (nrow dates (nmap (fin a) (q, xm))). split.
    - apply in_map. exact (node_row a es q xm Hqne Efm).
    - unfold mapped_to. cbn [nrow nmap fst snd]. rewrite Hmq. apply path_eqb_eq. reflexivity.
  Qed.

  Theorem table_law :
    mapping_law_b 0 (length (report_dates es)) m (srows (render_weights a0 es0)) (srows (render_weights a es)) = true.
  Proof.
    unfold mapping_law_b. rewrite !srows_render, <- (report_dates_map m es0 es Hmap).
    rewrite !row_paths_top, leaf_rows_top. apply andb_true_iff. split; [exact placed_all|].
    apply gok_top. exact loc_all.
  Qed.
End Law.

