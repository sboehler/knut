(* C20: the weights report as a tree addressed by paths, and the mapping law on its nodes.
   - Report.Add keeps the children of every node strictly ascending by segment, so that the
     node at a path ([wn_find]) is well defined; it keeps the weight maps ascending by date;
   - [wn_find_add]: where the node at a path is after an Add;
   - hence: the own bookings of the node at p of [report_of es] are the entries with path p, and
     everything booked in its subtree are the entries with prefix p;
   - PropagateWeights commutes with [wn_find]; the cell the renderer reads at p is the sum of
     the entries at or below p ([node_weight_group]);
   - the entries of the query WITH a mapping are the entries of the query WITHOUT it, with
     map_path applied to the path (same order, dates and weights); the run without mapping
     never panics;
   - hence the weight at path p of the mapped, propagated report is the sum of the unmapped
     entries that map_path sends to or below p, and it is the entries sent to p itself plus the
     weights of the children of the node. *)
From Coq Require Import ZArith QArith Qfield List Bool Lia Sorting.Sorted.
From Knut Require Import Model.Str Model.Dec Model.Date Model.Account Model.Ledger Model.Price
     Model.Journal Model.Cli Model.Perf Model.Weights Model.CliPortfolio Spec.PortfolioSpec Spec.PortfolioMapSpec
     Proofs.SMapProofs Proofs.PortfolioWeights Proofs.PortfolioPerDate.
Import ListNotations.
Open Scope Q_scope.

Fixpoint tall (P : wnode -> Prop) (n : wnode) : Prop :=
  P n /\ match n with
         | WNode _ _ _ ch =>
           (fix all (l : list wnode) : Prop := match l with [] => True | c :: r => tall P c /\ all r end) ch
         end.

Lemma tall_unfold (P : wnode -> Prop) s lf w ch : tall P (WNode s lf w ch) <-> P (WNode s lf w ch) /\ Forall (tall P) ch.
Proof.
  cbn [tall]. apply and_iff_compat_l. induction ch as [|c ch IH]; [split; intros _; [constructor|exact I]|].
  rewrite Forall_cons_iff, <- IH. reflexivity.
Qed.

Lemma tall_here (P : wnode -> Prop) n : tall P n -> P n.
Proof. destruct n. intros H. apply tall_unfold in H. exact (proj1 H). Qed.

Lemma tall_children (P : wnode -> Prop) n : tall P n -> Forall (tall P) (wn_children n).
Proof. destruct n. intros H. apply tall_unfold in H. exact (proj2 H). Qed.

Lemma tall_make (P : wnode -> Prop) n : P n -> Forall (tall P) (wn_children n) -> tall P n.
Proof. destruct n. intros H1 H2. apply tall_unfold. split; assumption. Qed.

Lemma tall_new (P : wnode -> Prop) h : P (wn_new h) -> tall P (wn_new h).
Proof. intros H. apply tall_unfold. split; [exact H|constructor]. Qed.

Lemma tall_impl (P Q : wnode -> Prop) : (forall n, P n -> Q n) -> forall n, tall P n -> tall Q n.
Proof.
  intros HPQ n. induction n as [s lf w ch IH] using wnode_ind'. intros H. apply tall_unfold in H. destruct H as [H1 H2].
  apply tall_unfold. split; [apply HPQ; exact H1|]. rewrite Forall_forall in *. intros c Hc. apply IH; [exact Hc|apply H2; exact Hc].
Qed.

Definition seg_lt (a b : wnode) : Prop := str_cmp (wn_seg a) (wn_seg b) = Lt.
Definition tsorted : wnode -> Prop := tall (fun n => StronglySorted seg_lt (wn_children n)).
Definition tascw : wnode -> Prop := tall (fun n => wm_asc (wn_weights n)).

(* a predicate on every weight map of the tree, said with [tall] *)
Lemma tree_maps_tall (P : wmap -> Prop) n : Forall P (tree_maps n) <-> tall (fun x => P (wn_weights x)) n.
Proof.
  induction n as [s lf w ch IH] using wnode_ind'. rewrite tree_maps_Forall, tall_unfold. cbn [wn_weights].
  apply and_iff_compat_l. rewrite !Forall_forall. rewrite Forall_forall in IH.
  split; intros H c Hc; apply (IH c Hc); apply H; exact Hc.
Qed.

Lemma wn_add_seg ss d w n : wn_seg (wn_add ss d w n) = wn_seg n.
Proof. destruct ss; destruct n; reflexivity. Qed.

Lemma wchildren_upd_Forall (R : wnode -> Prop) h f l :
  Forall R l -> R (f (wn_new h)) -> (forall c, R c -> R (f c)) -> Forall R (wchildren_upd h f l).
Proof.
  intros Hl Hn Hf. induction l as [|c l IH]; cbn [wchildren_upd]; [constructor; [exact Hn|constructor]|].
  inversion Hl as [|? ? Hc Hl']; subst. destruct (str_cmp h (wn_seg c)).
  - constructor; [apply Hf; exact Hc|exact Hl'].
  - constructor; [exact Hn|exact Hl].
  - constructor; [exact Hc|apply IH; exact Hl'].
Qed.

Lemma wchildren_upd_sorted h f l :
  (forall c, wn_seg (f c) = wn_seg c) -> StronglySorted seg_lt l -> StronglySorted seg_lt (wchildren_upd h f l).
Proof.
  intros Hf. induction l as [|c l IH]; intros Hs; cbn [wchildren_upd].
  - constructor; constructor.
  - inversion Hs as [|? ? Hs' Hall]; subst. destruct (str_cmp h (wn_seg c)) eqn:E.
    + constructor; [exact Hs'|]. unfold seg_lt in *. rewrite Hf. exact Hall.
    + constructor; [exact Hs|]. unfold seg_lt. rewrite Hf. cbn [wn_new wn_seg]. constructor; [exact E|].
      rewrite Forall_forall in *. intros x Hx. apply (str_cmp_lt_trans _ _ _ E). apply Hall. exact Hx.
    + constructor; [apply IH; exact Hs'|]. apply wchildren_upd_Forall.
      * exact Hall.
      * unfold seg_lt. rewrite Hf. cbn [wn_new wn_seg]. apply str_cmp_gt_lt. exact E.
      * intros x Hx. unfold seg_lt in *. rewrite Hf. exact Hx.
Qed.

Lemma find_child_none h l : Forall (fun c => str_cmp h (wn_seg c) = Lt) l -> find_child h l = None.
Proof.
  induction l as [|c l IH]; intros H; cbn [find_child]; [reflexivity|]. inversion H as [|? ? Hc Hl]; subst.
  unfold str_eqb. rewrite Hc. apply IH. exact Hl.
Qed.

Lemma find_child_in h l c : find_child h l = Some c -> In c l /\ wn_seg c = h.
Proof.
  induction l as [|x l IH]; cbn [find_child]; [discriminate|]. destruct (str_eqb h (wn_seg x)) eqn:E; intros H.
  - inversion H; subst. apply str_eqb_eq in E. split; [left; reflexivity|symmetry; exact E].
  - destruct (IH H) as [H1 H2]. split; [right; exact H1|exact H2].
Qed.

Definition child_or_new (h : str) (l : list wnode) : wnode :=
  match find_child h l with Some c => c | None => wn_new h end.

Lemma find_child_upd h f l h' :
  StronglySorted seg_lt l -> (forall c, wn_seg (f c) = wn_seg c) ->
  find_child h' (wchildren_upd h f l) = if str_eqb h' h then Some (f (child_or_new h l)) else find_child h' l.
Proof.
  intros Hs Hf. unfold child_or_new. induction l as [|c l IH]; cbn [wchildren_upd find_child].
  - rewrite Hf. cbn [wn_new wn_seg]. reflexivity.
  - inversion Hs as [|? ? Hs' Hall]; subst. destruct (str_cmp h (wn_seg c)) eqn:E; cbn [find_child].
    + apply str_cmp_eq in E. subst h. rewrite Hf, str_eqb_refl. destruct (str_eqb h' (wn_seg c)); reflexivity.
    + rewrite Hf. cbn [wn_new wn_seg]. destruct (str_eqb h' h) eqn:E'; [|reflexivity].
      assert (Hh : str_eqb h (wn_seg c) = false) by (unfold str_eqb; rewrite E; reflexivity).
      rewrite Hh. rewrite find_child_none; [reflexivity|].
      rewrite Forall_forall in *. intros x Hx. apply (str_cmp_lt_trans _ _ _ E). apply Hall. exact Hx.
    + destruct (str_eqb h' (wn_seg c)) eqn:E1.
      * apply str_eqb_eq in E1. subst h'. replace (str_eqb (wn_seg c) h) with false; [reflexivity|].
        symmetry. apply str_eqb_neq. intros Heq. rewrite Heq, str_cmp_refl in E. discriminate.
      * rewrite (IH Hs'). assert (Hh : str_eqb h (wn_seg c) = false) by (unfold str_eqb; rewrite E; reflexivity).
        rewrite Hh. reflexivity.
Qed.

Section AddTall.
  Variable P : wnode -> Prop.
  Variable okw : option Q -> Prop.
  Variable d : Z.
  Hypothesis P_new : forall h, P (wn_new h).
  Hypothesis P_here : forall s lf w ch x, okw x -> P (WNode s lf w ch) -> P (WNode s true (wm_add w d x) ch).
  Hypothesis P_below : forall s lf w ch h f,
    (forall c, wn_seg (f c) = wn_seg c) -> P (WNode s lf w ch) -> P (WNode s lf w (wchildren_upd h f ch)).

  Lemma wn_add_tall ss x : okw x -> forall n, tall P n -> tall P (wn_add ss d x n).
  Proof.
    intros Hx. induction ss as [|h tl IH]; intros [s lf w ch] Ht; apply tall_unfold in Ht; destruct Ht as [Hp Hc];
      cbn [wn_add wn_seg wn_leaf wn_weights wn_children]; apply tall_unfold.
    - split; [apply (P_here s lf w ch); [exact Hx|exact Hp]|exact Hc].
    - split; [apply P_below; [intros c; apply wn_add_seg|exact Hp]|].
      apply wchildren_upd_Forall; [exact Hc| |exact IH]. apply IH. apply tall_new. apply P_new.
  Qed.
End AddTall.

Lemma wn_add_sorted ss d x n : tsorted n -> tsorted (wn_add ss d x n).
Proof.
  apply (wn_add_tall _ (fun _ => True)); [| | |exact I].
  - intros h. constructor.
  - intros s lf w ch x0 _ H. exact H.
  - intros s lf w ch h f Hf H. cbn [wn_children] in *. apply wchildren_upd_sorted; assumption.
Qed.

Lemma wn_add_asc ss d x n : tascw n -> tascw (wn_add ss d x n).
Proof.
  apply (wn_add_tall _ (fun _ => True)); [| | |exact I].
  - intros h. exact I.
  - intros s lf w ch x0 _ H. cbn [wn_weights] in *. apply wm_add_asc. exact H.
  - intros s lf w ch h f Hf H. exact H.
Qed.

Definition wn_get (p : list str) (n : wnode) : wnode :=
  match wn_find p n with Some x => x | None => wn_new (last p []) end.

Lemma wn_find_new_cons h s t : wn_find (s :: t) (wn_new h) = None.
Proof. reflexivity. Qed.

Lemma wn_find_add ss d w : forall p n, tsorted n ->
  wn_find p (wn_add ss d w n) =
  if path_prefix p ss then Some (wn_add (skipn (length p) ss) d w (wn_get p n)) else wn_find p n.
Proof.
  induction ss as [|h' t' IH]; intros p n Hn.
  - destruct p as [|h t]; [reflexivity|]. destruct n; reflexivity.
  - destruct p as [|h t]; [reflexivity|]. destruct n as [s lf w0 ch]. apply tall_unfold in Hn. destruct Hn as [Hs Hc].
    cbn [wn_children] in Hs.
    cbn [wn_add wn_find wn_children wn_seg wn_leaf wn_weights path_prefix length skipn].
    rewrite (find_child_upd h' _ ch h Hs (fun c => wn_add_seg t' d w c)).
    destruct (str_eqb h h') eqn:E; cbn [andb]; [|reflexivity].
    apply str_eqb_eq in E. subst h'.
    assert (Hc0 : tsorted (child_or_new h ch)).
    { unfold child_or_new. destruct (find_child h ch) as [c|] eqn:Ef.
      - rewrite Forall_forall in Hc. apply Hc. exact (proj1 (find_child_in _ _ _ Ef)).
      - apply tall_new. constructor. }
    rewrite (IH t _ Hc0). unfold wn_get, child_or_new. cbn [wn_find wn_children].
    destruct (find_child h ch) as [c|] eqn:Ef.
    + destruct (path_prefix t t'); [|reflexivity]. destruct (wn_find t c) eqn:Et; [reflexivity|].
      destruct t as [|s2 t2]; [discriminate|reflexivity].
    + destruct t as [|s2 t2]; [reflexivity|]. rewrite wn_find_new_cons. destruct (path_prefix (s2 :: t2) t'); reflexivity.
Qed.

Lemma wn_find_tall (P : wnode -> Prop) p : forall n x, tall P n -> wn_find p n = Some x -> tall P x.
Proof.
  induction p as [|h t IH]; intros n x Hn H; cbn [wn_find] in H; [inversion H; subst; exact Hn|].
  destruct (find_child h (wn_children n)) as [c|] eqn:Ef; [|discriminate].
  apply (IH c x); [|exact H]. pose proof (tall_children _ _ Hn) as Hc. rewrite Forall_forall in Hc. apply Hc.
  exact (proj1 (find_child_in _ _ _ Ef)).
Qed.

Lemma wn_get_tall (P : wnode -> Prop) p n : (forall h, P (wn_new h)) -> tall P n -> tall P (wn_get p n).
Proof.
  intros Hnew Hn. unfold wn_get. destruct (wn_find p n) eqn:E; [exact (wn_find_tall P p n _ Hn E)|].
  apply tall_new. apply Hnew.
Qed.

(* a quantity read at the node of a path; 0 where there is no node *)
Definition at_node (mu : wnode -> Q) (p : list str) (n : wnode) : Q :=
  match wn_find p n with Some x => mu x | None => 0 end.

Lemma at_node_get mu p n : (forall h, mu (wn_new h) == 0) -> mu (wn_get p n) == at_node mu p n.
Proof. intros H. unfold wn_get, at_node. destruct (wn_find p n); [reflexivity|apply H]. Qed.

Lemma prefix_rest p : forall ss, path_prefix p ss = true ->
  path_prefix ss p = match skipn (length p) ss with [] => true | _ => false end.
Proof.
  induction p as [|x p IH]; intros [|y ss] H; cbn [path_prefix length skipn] in *; try reflexivity; try discriminate.
  apply andb_true_iff in H. destruct H as [H1 H2]. rewrite (IH ss H2). rewrite str_eqb_sym, H1. reflexivity.
Qed.

Lemma tdefined_new h : tdefined (wn_new h).
Proof. repeat constructor. Qed.

(* what holds of every weight map of a tree holds below the node at a path *)
Lemma wn_find_maps (P : wmap -> Prop) p n x : Forall P (tree_maps n) -> wn_find p n = Some x -> Forall P (tree_maps x).
Proof. rewrite !tree_maps_tall. apply wn_find_tall. Qed.

Lemma wn_get_maps (P : wmap -> Prop) p n : P [] -> Forall P (tree_maps n) -> Forall P (tree_maps (wn_get p n)).
Proof. rewrite !tree_maps_tall. intros H0. apply wn_get_tall. intros h. exact H0. Qed.

(* everything booked in the subtree at p *)
Lemma total_at_add ss date x d p n : tsorted n -> tdef_at d n -> (date = d -> x <> None) ->
  at_node (fun y => ttotal y d) p (wn_add ss date x n) ==
  at_node (fun y => ttotal y d) p n + (if path_prefix p ss && (date =? d)%Z then oq x else 0).
Proof.
  intros Hs Hd Hx. unfold at_node at 1. rewrite (wn_find_add ss date x p n Hs).
  destruct (path_prefix p ss) eqn:E; cbn [andb].
  - rewrite (proj2 (wn_add_total (skipn (length p) ss) date x d Hx _ (wn_get_maps _ p n (Forall_nil _) Hd))).
    rewrite (at_node_get (fun y => ttotal y d)); [reflexivity|]. intros h. reflexivity.
  - fold (at_node (fun y => ttotal y d) p n). ring.
Qed.

(* the bookings on the node at p itself *)
Lemma own_at_add ss date x d p n : tsorted n -> tdef_at d n -> (date = d -> x <> None) ->
  at_node (fun y => wsum (wn_weights y) d) p (wn_add ss date x n) ==
  at_node (fun y => wsum (wn_weights y) d) p n + (if path_eqb p ss && (date =? d)%Z then oq x else 0).
Proof.
  intros Hs Hd Hx. unfold at_node at 1. rewrite (wn_find_add ss date x p n Hs). unfold path_eqb.
  destruct (path_prefix p ss) eqn:E; cbn [andb].
  - rewrite (prefix_rest p ss E). pose proof (wn_get_maps _ p n (Forall_nil _) Hd) as Hg.
    pose proof (at_node_get (fun y => wsum (wn_weights y) d) p n (fun h => Qeq_refl 0)) as Hat. cbn beta in Hat.
    destruct (skipn (length p) ss) as [|h tl]; cbn [andb].
    + destruct (wn_get p n) as [s lf w ch]. apply tdef_at_unfold in Hg. destruct Hg as [Hw _].
      cbn [wn_add wn_weights] in *. rewrite (proj2 (wm_add_sum_at w date x d Hw Hx)), Hat. reflexivity.
    + rewrite wn_add_root_weights, Hat. ring.
  - fold (at_node (fun y => wsum (wn_weights y) d) p n). ring.
Qed.

(* the entries booked exactly at [path] *)
Definition own_weight (es : list entry) (path : list str) (date : Z) : Q :=
  qsum (map (fun e : entry => let '(ss, d, w) := e in if path_eqb path ss && (d =? date)%Z then oq w else 0) es).

Lemma build_shape es : forall n, tsorted n -> tascw n -> tsorted (build es n) /\ tascw (build es n).
Proof.
  unfold build. induction es as [|[[ss dt] w] es IH]; intros n H1 H2; cbn [fold_left]; [split; assumption|].
  apply IH; [apply wn_add_sorted|apply wn_add_asc]; assumption.
Qed.

Lemma build_sums d es : edef_at d es -> forall n, tsorted n -> tdef_at d n -> forall p,
  at_node (fun x => ttotal x d) p (build es n) == at_node (fun x => ttotal x d) p n + group_weight es p d /\
  at_node (fun x => wsum (wn_weights x) d) p (build es n) == at_node (fun x => wsum (wn_weights x) d) p n + own_weight es p d.
Proof.
  unfold build, group_weight, own_weight. induction es as [|[[ss dt] w] es IH]; intros Hes n Hs Hd p; cbn [fold_left map].
  - split; unfold qsum; cbn [fold_right]; ring.
  - inversion Hes as [|? ? Hw Hrest]; subst.
    destruct (IH Hrest (wn_add ss dt w n) (wn_add_sorted _ _ _ _ Hs) (proj1 (wn_add_total ss dt w d Hw n Hd)) p) as [H3 H4].
    rewrite !qsum_cons. split.
    + rewrite H3, (total_at_add ss dt w d p n Hs Hd Hw). ring.
    + rewrite H4, (own_at_add ss dt w d p n Hs Hd Hw). ring.
Qed.

Lemma wroot_sorted : tsorted wroot.
Proof. apply tall_new. constructor. Qed.
Lemma wroot_asc : tascw wroot.
Proof. apply tall_new. exact I. Qed.

Lemma at_wroot mu p : mu wroot == 0 -> at_node mu p wroot == 0.
Proof. intros H. unfold at_node. destruct p; [exact H|reflexivity]. Qed.

Lemma report_shape es : tsorted (report_of es) /\ tascw (report_of es).
Proof. rewrite report_of_build. apply build_shape; [exact wroot_sorted|exact wroot_asc]. Qed.

Lemma report_total_at es p d : edef_at d es ->
  at_node (fun x => ttotal x d) p (report_of es) == group_weight es p d.
Proof.
  intros H. rewrite report_of_build.
  rewrite (proj1 (build_sums d es H wroot wroot_sorted (tdef_at_new d []) p)), at_wroot; [ring|reflexivity].
Qed.

(* the bookings on the node at q of a report, on a date whose entries are defined *)
Lemma own_at_find_at d es q x : edef_at d es -> wn_find q (report_of es) = Some x ->
  wsum (wn_weights x) d == own_weight es q d.
Proof.
  intros Hd Hf. pose proof (proj2 (build_sums d es Hd wroot wroot_sorted (tdef_at_new d []) q)) as H.
  rewrite <- report_of_build in H. unfold at_node at 1 in H. rewrite Hf in H. rewrite H, at_wroot; [ring|reflexivity].
Qed.

Lemma propagate_seg n : wn_seg (propagate n) = wn_seg n.
Proof. destruct n; reflexivity. Qed.

Lemma find_child_map f h l : (forall c, wn_seg (f c) = wn_seg c) ->
  find_child h (map f l) = option_map f (find_child h l).
Proof.
  intros Hf. induction l as [|c l IH]; cbn [map find_child]; [reflexivity|]. rewrite Hf.
  destruct (str_eqb h (wn_seg c)); [reflexivity|exact IH].
Qed.

Lemma wn_find_propagate p : forall n, wn_find p (propagate n) = option_map propagate (wn_find p n).
Proof.
  induction p as [|h t IH]; intros [s lf w ch]; [reflexivity|].
  cbn [wn_find]. rewrite propagate_children. cbn [wn_children]. rewrite (find_child_map propagate h ch propagate_seg).
  destruct (find_child h ch); cbn [option_map]; [apply IH|reflexivity].
Qed.

Lemma fold_plus_asc ms : forall acc, wm_asc acc -> wm_asc (fold_left wm_plus ms acc).
Proof. induction ms as [|m ms IH]; intros acc H; cbn [fold_left]; [exact H|]. apply IH. apply wm_plus_asc. exact H. Qed.

Lemma propagate_weights_asc n : wm_asc (wn_weights n) -> wm_asc (wn_weights (propagate n)).
Proof. destruct n as [s lf w ch]. intros H. rewrite propagate_weights. apply fold_plus_asc. exact H. Qed.

Lemma cell_q_wsum w d : wm_asc w -> cell_q w d == wsum w d.
Proof. intros H. unfold cell_q. symmetry. apply wsum_get. exact H. Qed.

(* the cell the renderer reads at path p of the propagated report: the entries at or below p *)
Theorem node_weight_group es p d : edef_at d es ->
  node_weight (propagate (report_of es)) p d == group_weight es p d.
Proof.
  intros Hd. unfold node_weight. rewrite wn_find_propagate.
  pose proof (report_total_at es p d Hd) as Ht. unfold at_node in Ht.
  destruct (wn_find p (report_of es)) as [x|] eqn:E; cbn [option_map]; [|exact Ht].
  rewrite cell_q_wsum.
  - rewrite <- Ht. exact (propagate_total d x (wn_find_maps _ p _ x (report_def_at d es Hd) E)).
  - apply propagate_weights_asc. exact (tall_here _ _ (wn_find_tall _ p _ x (proj2 (report_shape es)) E)).
Qed.

Lemma map_path_nil ss : map_path [] ss = Some ss.
Proof. reflexivity. Qed.

Lemma day_entries_unmapped_ok u date total v1 : exists es0, day_entries u [] date total v1 = WOk es0.
Proof.
  induction v1 as [|[c v] v1 [es0 IH]]; [exists []; reflexivity|]. cbn [day_entries]. rewrite map_path_nil, IH. eexists. reflexivity.
Qed.

Lemma query_entries_unmapped_ok u ends l : exists es0, query_entries u [] ends l = WOk es0.
Proof.
  induction l as [|[d [v0 v1]] l [es0 IH]]; [exists []; reflexivity|]. cbn [query_entries].
  destruct (existsb (Z.eqb d) ends); [|exists es0; exact IH].
  destruct (day_entries_unmapped_ok u d (pcv_sum v1) v1) as [es1 H1]. rewrite H1, IH. eexists. reflexivity.
Qed.

Definition wres_of (o : option (list entry)) : wresult (list entry) :=
  match o with Some es => WOk es | None => WPanic end.

Lemma day_entries_map u m date total v1 : forall es0,
  day_entries u [] date total v1 = WOk es0 -> day_entries u m date total v1 = wres_of (map_entries m es0).
Proof.
  induction v1 as [|[c v] v1 IH]; intros es0 H; cbn [day_entries] in *.
  - inversion H; subst. reflexivity.
  - rewrite map_path_nil in H. destruct (day_entries u [] date total v1) as [l0|] eqn:E0; [|discriminate].
    inversion H; subst. cbn [map_entries]. rewrite (IH l0 eq_refl).
    destruct (map_path m (locate u c)); [|reflexivity]. destruct (map_entries m l0); reflexivity.
Qed.

Lemma map_entries_app m a : forall b,
  map_entries m (a ++ b) = match map_entries m a, map_entries m b with Some x, Some y => Some (x ++ y) | _, _ => None end.
Proof.
  induction a as [|[[ss d] w] a IH]; intros b; cbn [app map_entries].
  - destruct (map_entries m b); reflexivity.
  - rewrite IH. destruct (map_path m ss); [|reflexivity]. destruct (map_entries m a); [|reflexivity].
    destruct (map_entries m b); reflexivity.
Qed.

Lemma query_entries_map u m ends l : forall es0,
  query_entries u [] ends l = WOk es0 -> query_entries u m ends l = wres_of (map_entries m es0).
Proof.
  induction l as [|[d [v0 v1]] l IH]; intros es0 H; cbn [query_entries] in *.
  - inversion H; subst. reflexivity.
  - destruct (existsb (Z.eqb d) ends); [|apply IH; exact H].
    destruct (day_entries u [] d (pcv_sum v1) v1) as [e1|] eqn:E1; [|discriminate].
    destruct (query_entries u [] ends l) as [e2|] eqn:E2; [|discriminate]. inversion H; subst.
    rewrite (day_entries_map u m d (pcv_sum v1) v1 e1 E1), (IH e2 eq_refl), map_entries_app.
    destruct (map_entries m e1); [|reflexivity]. destruct (map_entries m e2); reflexivity.
Qed.

(* the command: only the query sees the mapping.  The run without -m fails where the run with -m
   fails before the query, and in the same way; where it succeeds, the run with -m books its
   entries through map_path (or panics where map_path does) *)
Lemma weights_entries_both cfg ds :
  match weights_entries (pf_unmapped cfg) ds with
  | COk es0 => weights_entries cfg ds = match map_entries (pc_mapping cfg) es0 with Some es => COk es | None => CPanic k_bounds end
  | r => weights_entries cfg ds = r
  end.
Proof.
  assert (Hu : pc_universe (pf_unmapped cfg) = pc_universe cfg) by reflexivity.
  assert (Hv : check_valuation (pf_unmapped cfg) = check_valuation cfg) by reflexivity.
  assert (Hp : forall b, pf_partition (pf_unmapped cfg) b = pf_partition cfg b) by reflexivity.
  assert (Hd : forall days, valued_days (pf_unmapped cfg) days = valued_days cfg days) by reflexivity.
  assert (Hq : forall days, day_values (pf_unmapped cfg) days = day_values cfg days) by reflexivity.
  unfold weights_entries. rewrite Hu, Hv.
  destruct (match pc_universe cfg with Some y => universe_load [] y | None => COk [] end) as [u| |]; cbn [cbind]; try reflexivity.
  destruct (check_valuation cfg); cbn [cbind]; try reflexivity.
  destruct (load ds) as [b| |]; cbn [cbind]; try reflexivity. rewrite Hp.
  destruct (pf_partition cfg b) as [part| |]; cbn [cbind]; try reflexivity. rewrite Hd.
  destruct (valued_days cfg (b_days (builder_touch b (end_dates part)))) as [days| |]; cbn [cbind]; try reflexivity.
  rewrite Hq. destruct (day_values cfg days) as [vs| |]; cbn [cbind]; try reflexivity.
  change (pc_mapping (pf_unmapped cfg)) with (@nil rule).
  destruct (query_entries_unmapped_ok u (end_dates part) (fst vs)) as [e0 E0].
  rewrite E0, (query_entries_map u (pc_mapping cfg) _ _ e0 E0). destruct (map_entries (pc_mapping cfg) e0); reflexivity.
Qed.

Lemma weights_entries_map cfg ds es0 es :
  weights_entries (pf_unmapped cfg) ds = COk es0 -> weights_entries cfg ds = COk es ->
  map_entries (pc_mapping cfg) es0 = Some es.
Proof.
  intros H0 H. pose proof (weights_entries_both cfg ds) as B. rewrite H0, H in B.
  destruct (map_entries (pc_mapping cfg) es0); [injection B as ->; reflexivity|discriminate B].
Qed.

Lemma weights_table_of cfg ds es :
  weights_entries cfg ds = COk es -> weights_table cfg ds = COk (render_weights (pc_alpha cfg) es).
Proof. unfold weights_table. intros ->. reflexivity. Qed.

Lemma map_entries_edef_at m d es0 : forall es, map_entries m es0 = Some es -> edef_at d es0 -> edef_at d es.
Proof.
  unfold edef_at. induction es0 as [|[[ss dt] w] es0 IH]; intros es H Hd; cbn [map_entries] in H.
  - inversion H; subst. constructor.
  - destruct (map_path m ss) as [q|]; [|discriminate]. destruct (map_entries m es0) as [l|]; [|discriminate].
    inversion H; subst. inversion Hd; subst. constructor; [assumption|apply IH; [reflexivity|assumption]].
Qed.

Lemma group_weight_map m es0 p d : forall es, map_entries m es0 = Some es ->
  group_weight es p d == mapped_weight m es0 p d.
Proof.
  unfold group_weight, mapped_weight. induction es0 as [|[[ss dt] w] es0 IH]; intros es H; cbn [map_entries] in H.
  - inversion H; subst. reflexivity.
  - destruct (map_path m ss) as [q|] eqn:Eq; [|discriminate]. destruct (map_entries m es0) as [l|]; [|discriminate].
    inversion H; subst. cbn [map qsum fold_right]. rewrite Eq. apply Qplus_inj_l. exact (IH l eq_refl).
Qed.

Lemma prefix_free_b es :
  forallb (fun e1 => forallb (fun e2 => negb (proper_prefix (entry_path e1) (entry_path e2))) es) es = true ->
  prefix_free es.
Proof.
  intros H e1 e2 H1 H2. rewrite forallb_forall in H. specialize (H e1 H1). rewrite forallb_forall in H.
  apply negb_true_iff. destruct e1 as [[p1 d1] w1], e2 as [[p2 d2] w2]. exact (H _ H2).
Qed.

Lemma path_prefix_refl a : path_prefix a a = true.
Proof. induction a as [|x a IH]; cbn [path_prefix]; [reflexivity|]. rewrite str_eqb_refl. exact IH. Qed.

Lemma path_eqb_sym a b : path_eqb a b = path_eqb b a.
Proof. unfold path_eqb. apply andb_comm. Qed.

Lemma own_weight_map m es0 p d : forall es, map_entries m es0 = Some es ->
  own_weight es p d == folded_weight m es0 p d.
Proof.
  unfold own_weight, folded_weight. induction es0 as [|[[ss dt] w] es0 IH]; intros es H; cbn [map_entries] in H.
  - inversion H; subst. reflexivity.
  - destruct (map_path m ss) as [q|] eqn:Eq; [|discriminate]. destruct (map_entries m es0) as [l|]; [|discriminate].
    inversion H; subst. cbn [map qsum fold_right]. rewrite Eq, (path_eqb_sym p q). apply Qplus_inj_l. exact (IH l eq_refl).
Qed.

(* only the entries of the date need to be defined *)
Theorem mapping_law_nodes_at cfg ds es0 es p d :
  weights_entries (pf_unmapped cfg) ds = COk es0 -> weights_entries cfg ds = COk es ->
  edef_at d es0 ->
  node_weight (propagate (report_of es)) p d == mapped_weight (pc_mapping cfg) es0 p d.
Proof.
  intros H0 H Hd. pose proof (weights_entries_map cfg ds es0 es H0 H) as Hm.
  rewrite (node_weight_group es p d (map_entries_edef_at _ d _ _ Hm Hd)). apply group_weight_map. exact Hm.
Qed.

Lemma wn_find_app p q : forall n, wn_find (p ++ q) n = match wn_find p n with Some x => wn_find q x | None => None end.
Proof.
  induction p as [|h t IH]; intros n; cbn [app wn_find]; [reflexivity|].
  destruct (find_child h (wn_children n)); [apply IH|reflexivity].
Qed.

Lemma find_child_self l c : StronglySorted seg_lt l -> In c l -> find_child (wn_seg c) l = Some c.
Proof.
  induction l as [|a l IH]; intros Hs Hin; [destruct Hin|]. inversion Hs as [|? ? Hs' Hall]; subst. cbn [find_child].
  destruct Hin as [->|Hin]; [rewrite str_eqb_refl; reflexivity|].
  rewrite Forall_forall in Hall. specialize (Hall c Hin). unfold seg_lt in Hall.
  replace (str_eqb (wn_seg c) (wn_seg a)) with false; [apply IH; assumption|].
  symmetry. apply str_eqb_neq. intros Heq. rewrite Heq, str_cmp_refl in Hall. discriminate.
Qed.

(* the renderer's cell at a path whose node is [c] before propagation *)
Lemma node_weight_at es q d c : wn_find q (report_of es) = Some c ->
  node_weight (propagate (report_of es)) q d == nweight (propagate c) d.
Proof.
  intros E. unfold node_weight. rewrite wn_find_propagate, E. cbn [option_map]. unfold nweight.
  apply cell_q_wsum. apply propagate_weights_asc.
  exact (tall_here _ _ (wn_find_tall _ q _ c (proj2 (report_shape es)) E)).
Qed.

(* node = the entries folded into it + its children *)
Theorem node_own_plus_children es p d x : edef_at d es ->
  wn_find p (report_of es) = Some x ->
  node_weight (propagate (report_of es)) p d ==
  own_weight es p d + qsum (map (fun c => node_weight (propagate (report_of es)) (p ++ [wn_seg c]) d) (wn_children x)).
Proof.
  intros Hd E. rewrite (node_weight_at es p d x E).
  rewrite (proj2 (propagate_at d x (wn_find_maps _ p _ x (report_def_at d es Hd) E))), (own_at_find_at d es p x Hd E).
  apply Qplus_inj_l. apply qsum_map_ext. intros c Hc. symmetry. apply node_weight_at.
  rewrite wn_find_app, E. cbn [wn_find].
  rewrite (find_child_self _ c (tall_here _ _ (wn_find_tall _ p _ x (proj1 (report_shape es)) E)) Hc). reflexivity.
Qed.

Theorem mapping_law_local_at cfg ds es0 es p d x :
  weights_entries (pf_unmapped cfg) ds = COk es0 -> weights_entries cfg ds = COk es ->
  edef_at d es0 ->
  wn_find p (propagate (report_of es)) = Some x ->
  node_weight (propagate (report_of es)) p d ==
  folded_weight (pc_mapping cfg) es0 p d +
  qsum (map (fun c => node_weight (propagate (report_of es)) (p ++ [wn_seg c]) d) (wn_children x)).
Proof.
  intros H0 H Hd E. pose proof (weights_entries_map cfg ds es0 es H0 H) as Hm.
  rewrite wn_find_propagate in E. destruct (wn_find p (report_of es)) as [y|] eqn:Ey; [|discriminate].
  cbn [option_map] in E. inversion E; subst x.
  rewrite (node_own_plus_children es p d y (map_entries_edef_at _ d _ _ Hm Hd) Ey), (own_weight_map _ _ p d es Hm).
  apply Qplus_inj_l. destruct y as [s lf w ch]. rewrite propagate_children. cbn [wn_children]. rewrite map_map.
  apply qsum_map_ext. intros c _. rewrite propagate_seg. reflexivity.
Qed.

