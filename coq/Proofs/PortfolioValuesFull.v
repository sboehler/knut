(* C20: the value `portfolio weights` uses IS the valued balance of the portfolio accounts.
   For the days a command processes (dates strictly ascending), the record ComputeValues emits
   for day d carries as V1 a map whose entry for commodity c equals
     Spec.PortfolioSpec.portfolio_value            the sum of the values booked, up to d, on
                                                   asset/liability accounts passing the account
                                                   filter, in c (0 if c does not pass the
                                                   commodity filter), and
     Spec.PortfolioSpec.portfolio_value_by_account the same sum taken account by account (the
                                                   cells `balance -v` shows). *)
From Coq Require Import ZArith QArith Qfield List Bool Lia.
From Knut Require Import Model.Str Model.Dec Model.Date Model.Account Model.Ledger Model.Price
     Model.Journal Model.Check Model.Pipeline Model.Cli Model.Perf Model.Weights Model.CliPortfolio
     Spec.PortfolioSpec Spec.WellformedSpec
     Proofs.DecProofs Proofs.DecValue Proofs.SMapProofs Proofs.PortfolioDays Proofs.PortfolioReturns
     Proofs.PortfolioWeights Proofs.PortfolioAlgebra.
From Knut Require Proofs.CheckLemmas.
Import ListNotations.
Open Scope Q_scope.

(* does ComputeValues book posting p *)
Definition booked (c : calc) (p : posting) : bool := ca_com c (p_com p) && is_portfolio c (p_acc p).

Lemma values_step_sorted c m p : sorted m -> sorted (values_step c m p).
Proof. intros H. unfold values_step. destruct (_ && _); [apply vals_add_sorted|]; exact H. Qed.

Lemma values_fold_sorted c ps : forall m, sorted m -> sorted (fold_left (values_step c) ps m).
Proof. induction ps as [|p ps IH]; intros m H; cbn [fold_left]; [exact H|]. apply IH. apply values_step_sorted. exact H. Qed.

Lemma values_fold_get c k ps : forall m, sorted m ->
  dec_q (vget (fold_left (values_step c) ps m) k) ==
  dec_q (vget m k) + qsum (map (fun p => if booked c p && str_eqb (p_com p) k then dec_q (p_val p) else 0) ps).
Proof.
  induction ps as [|p ps IH]; intros m Hs; cbn [fold_left map].
  - unfold qsum. cbn. ring.
  - rewrite IH by (apply values_step_sorted; exact Hs). rewrite qsum_cons.
    unfold values_step. fold (booked c p). destruct (booked c p); cbn [andb].
    + rewrite vals_add_get by exact Hs. ring.
    + ring.
Qed.

Lemma values_fold_sum c ps : forall m, sorted m ->
  smsum dec_q (fold_left (values_step c) ps m) ==
  smsum dec_q m + qsum (map (fun p => if booked c p then dec_q (p_val p) else 0) ps).
Proof.
  induction ps as [|p ps IH]; intros m Hs; cbn [fold_left map].
  - unfold qsum. cbn. ring.
  - rewrite IH by (apply values_step_sorted; exact Hs). rewrite qsum_cons.
    unfold values_step. fold (booked c p). destruct (booked c p).
    + rewrite vals_add_sum by exact Hs. ring.
    + ring.
Qed.

Lemma asc_split l1 : forall x l2, asc (l1 ++ x :: l2) ->
  (forall y, In y l1 -> (y < x)%Z) /\ (forall y, In y l2 -> (x < y)%Z).
Proof.
  induction l1 as [|z l1 IH]; intros x l2 H; cbn [app] in H.
  - split; [intros y []|]. intros y Hy. exact (asc_lt _ _ H y Hy).
  - destruct (IH x l2 (asc_tail _ _ H)) as [H1 H2]. split; [|exact H2].
    intros y [<-|Hy]; [|exact (H1 y Hy)]. apply (asc_lt _ _ H). apply in_or_app. right. left. reflexivity.
Qed.

Lemma postings_upto_split pre d post :
  asc (map d_date (pre ++ d :: post)) ->
  postings_upto (pre ++ d :: post) (d_date d) = flat_map day_postings (pre ++ [d]).
Proof.
  intros Ha. rewrite map_app in Ha. cbn [map] in Ha. destruct (asc_split _ _ _ Ha) as [H1 H2].
  unfold postings_upto. rewrite !flat_map_app. cbn [flat_map]. rewrite Z.leb_refl, !app_nil_r.
  assert (Hpost : flat_map (fun x => if (d_date x <=? d_date d)%Z then flat_map t_postings (d_txns x) else []) post = []).
  { clear - H2. induction post as [|x post IH]; cbn [flat_map]; [reflexivity|].
    replace (d_date x <=? d_date d)%Z with false.
    - apply IH. intros y Hy. apply H2. right. exact Hy.
    - symmetry. apply Z.leb_gt. apply H2. left. reflexivity. }
  rewrite Hpost, app_nil_r. f_equal.
  clear - H1. induction pre as [|x pre IH]; cbn [flat_map]; [reflexivity|].
  replace (d_date x <=? d_date d)%Z with true.
  - unfold day_postings at 2. f_equal. apply IH. intros y Hy. apply H1. right. exact Hy.
  - symmetry. apply Z.leb_le. apply Z.lt_le_incl. apply H1. left. reflexivity.
Qed.

Lemma values_portfolio_value c ps k :
  dec_q (vget (fold_left (values_step c) ps []) k) ==
  (if ca_com c k then
     qsum (map (fun p => if is_AL (p_acc p) && ca_acc c (p_acc p) && str_eqb (p_com p) k then dec_q (p_val p) else 0) ps)
   else 0).
Proof.
  rewrite values_fold_get by constructor. unfold vget at 1. cbn [sm_get]. rewrite dec_q_nil, Qplus_0_l.
  destruct (ca_com c k) eqn:Ek.
  - apply qsum_map_ext. intros p _. unfold booked, is_portfolio.
    destruct (str_eqb (p_com p) k) eqn:E.
    + apply str_eqb_eq in E. rewrite E, Ek. cbn [andb]. rewrite !andb_true_r. reflexivity.
    + rewrite !andb_false_r. reflexivity.
  - apply qsum_map_zero. intros p _. unfold booked.
    destruct (str_eqb (p_com p) k) eqn:E.
    + apply str_eqb_eq in E. rewrite E, Ek. reflexivity.
    + rewrite andb_false_r. reflexivity.
Qed.

(* among accounts with pairwise different names, the one named n is the only one to contribute *)
Lemma sum_unique_name accs n (h : account -> Q) :
  NoDup (map acc_name accs) -> forall a0, In a0 accs -> acc_name a0 = n ->
  qsum (map (fun a => if str_eqb n (acc_name a) then h a else 0) accs) == h a0.
Proof.
  induction accs as [|a r IH]; intros Hnd a0 Hin Hn; [destruct Hin|].
  cbn [map] in *. inversion Hnd as [|? ? Hnotin Hnd']; subst. rewrite qsum_cons. destruct Hin as [->|Hin].
  - rewrite str_eqb_refl. rewrite qsum_map_zero; [ring|].
    intros a' Ha'. destruct (str_eqb (acc_name a0) (acc_name a')) eqn:E; [|reflexivity].
    apply str_eqb_eq in E. exfalso. apply Hnotin. rewrite E. apply in_map. exact Ha'.
  - assert (E : str_eqb (acc_name a0) (acc_name a) = false).
    { apply str_eqb_neq. intros E. apply Hnotin. rewrite <- E. apply in_map. exact Hin. }
    rewrite E, (IH Hnd' a0 Hin eq_refl). ring.
Qed.

(* the filter cannot tell two accounts of the same name apart (accounts are compared by name,
   acc_eqb; account.Registry interns them by name) *)
Definition names_respected (accf : account -> bool) (accs : list account) (ps : list posting) : Prop :=
  forall p a, In p ps -> In a accs -> acc_eqb (p_acc p) a = true ->
              is_AL a && accf a = is_AL (p_acc p) && accf (p_acc p).

Lemma by_account_sum accf accs c ps :
  NoDup (map acc_name accs) ->
  (forall p, In p ps -> exists a, In a accs /\ acc_eqb (p_acc p) a = true) ->
  names_respected accf accs ps ->
  qsum (map (fun p => if is_AL (p_acc p) && accf (p_acc p) && str_eqb (p_com p) c then dec_q (p_val p) else 0) ps) ==
  qsum (map (fun a => if is_AL a && accf a
                      then qsum (map (fun p => if acc_eqb (p_acc p) a && str_eqb (p_com p) c then dec_q (p_val p) else 0) ps)
                      else 0) accs).
Proof.
  intros Hnd. induction ps as [|p ps IH]; intros Hcov Hresp; cbn [map].
  - symmetry. apply qsum_map_zero. intros a _. destruct (_ && _); reflexivity.
  - rewrite qsum_cons.
    rewrite (qsum_map_ext _ (fun a =>
        (if str_eqb (acc_name (p_acc p)) (acc_name a)
         then (if is_AL a && accf a && str_eqb (p_com p) c then dec_q (p_val p) else 0) else 0) +
        (if is_AL a && accf a
         then qsum (map (fun p0 => if acc_eqb (p_acc p0) a && str_eqb (p_com p0) c then dec_q (p_val p0) else 0) ps)
         else 0))).
    + rewrite qsum_map_plus. rewrite <- IH.
      * destruct (Hcov p (or_introl eq_refl)) as [a0 [Hin He]].
        rewrite (sum_unique_name accs _ _ Hnd a0 Hin).
        -- rewrite (Hresp p a0 (or_introl eq_refl) Hin He). reflexivity.
        -- symmetry. apply str_eqb_eq. exact He.
      * intros q Hq. apply Hcov. right. exact Hq.
      * intros q a Hq. apply Hresp. right. exact Hq.
    + intros a _. destruct (is_AL a && accf a); cbn [andb]; [|destruct (str_eqb _ _); ring].
      cbn [map]. rewrite qsum_cons. unfold acc_eqb at 1.
      destruct (str_eqb (acc_name (p_acc p)) (acc_name a)); cbn [andb]; [reflexivity|ring].
Qed.

Lemma portfolio_value_accounts accf comf accs days c d :
  covers accs days d -> names_respected accf accs (postings_upto days d) ->
  portfolio_value accf comf days c d == portfolio_value_by_account accf comf accs days c d.
Proof.
  intros [Hnd Hcov] Hresp. unfold portfolio_value, portfolio_value_by_account, valued_position.
  destruct (comf c); [|reflexivity]. apply by_account_sum; assumption.
Qed.

(* the hypothesis holds of every filter of the command (a list of regular expressions matched
   against the account's name) when the accounts are syntactically valid (names determine them) *)
Lemma names_respected_ok cfg accs ps :
  Forall (fun a => account_ok a = true) accs -> Forall (fun p => account_ok (p_acc p) = true) ps ->
  names_respected (ca_acc (pf_calc cfg)) accs ps.
Proof.
  intros Ha Hp p a Hpin Hain He. rewrite Forall_forall in Ha, Hp.
  apply CheckLemmas.acc_eqb_name in He.
  rewrite (CheckLemmas.acc_name_inj _ _ (Hp p Hpin) (Ha a Hain) He). reflexivity.
Qed.

Lemma command_days_asc cfg ds b dates days :
  load ds = COk b -> valued_days cfg (b_days (builder_touch b dates)) = COk days -> asc (map d_date days).
Proof.
  intros Hl Hv. rewrite (valued_days_dates _ _ _ Hv), builder_touch_dates.
  apply fold_insert_asc. exact (load_days_asc _ _ Hl).
Qed.

Theorem weights_match_balance_full cfg pre d post vs :
  asc (map d_date (pre ++ d :: post)) ->
  day_values cfg (pre ++ d :: post) = COk vs ->
  exists v0 v1, nth_error (fst vs) (length pre) = Some (d_date d, (v0, v1)) /\
    forall c,
      pcv_get v1 c == portfolio_value (ca_acc (pf_calc cfg)) (ca_com (pf_calc cfg)) (pre ++ d :: post) c (d_date d) /\
      forall accs, covers accs (pre ++ d :: post) (d_date d) ->
        names_respected (ca_acc (pf_calc cfg)) accs (postings_upto (pre ++ d :: post) (d_date d)) ->
        pcv_get v1 c ==
        portfolio_value_by_account (ca_acc (pf_calc cfg)) (ca_com (pf_calc cfg)) accs (pre ++ d :: post) c (d_date d).
Proof.
  intros Ha H. destruct (weights_value_record cfg pre d post vs H) as [v0 Hr].
  exists v0, (vals_pcv (fold_left (values_step (pf_calc cfg)) (flat_map day_postings (pre ++ [d])) [])).
  split; [exact Hr|]. intros c.
  assert (Hv : pcv_get (vals_pcv (fold_left (values_step (pf_calc cfg)) (flat_map day_postings (pre ++ [d])) [])) c ==
               portfolio_value (ca_acc (pf_calc cfg)) (ca_com (pf_calc cfg)) (pre ++ d :: post) c (d_date d)).
  { rewrite pcv_get_vals, values_portfolio_value. unfold portfolio_value. rewrite postings_upto_split by exact Ha. reflexivity. }
  split; [exact Hv|]. intros accs Hc Hn. rewrite Hv. apply portfolio_value_accounts; assumption.
Qed.
