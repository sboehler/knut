(* C20: the weights report, over rationals.
   - the entries of a day are value / total, and sum to 1 when the total is not zero;
   - weight maps and the tree of the report: the vocabulary ([wsum], [tree_maps], [ttotal],
     [nweight]) in which PortfolioPerDate states what Report.Add and PropagateWeights sum to;
   - ComputeValues in closed form: the records it emits are [cv_recs], they chain, and the record
     of a day carries the values accumulated up to it.
   Weights are read with [wsum] (the sum of a date's entries of a weight map); on the maps the
   report builds (ascending dates, [wm_asc]) this is the cell the renderer reads ([wsum_get]). *)
From Coq Require Import ZArith QArith Qfield List Bool Lia.
From Knut Require Import Model.Str Model.Dec Model.Date Model.Account Model.Ledger Model.Price
     Model.Journal Model.Cli Model.Perf Model.Weights Model.CliPortfolio Spec.PortfolioSpec Proofs.PortfolioDays Proofs.PortfolioReturns.
Import ListNotations.
Open Scope Q_scope.

Lemma qsum_nil : qsum [] == 0.
Proof. reflexivity. Qed.

Lemma qsum_cons x l : qsum (x :: l) == x + qsum l.
Proof. reflexivity. Qed.

Lemma qsum_app a b : qsum (a ++ b) == qsum a + qsum b.
Proof. induction a as [|x a IH]; cbn [app]; [symmetry; apply Qplus_0_l|rewrite !qsum_cons, IH; ring]. Qed.

Lemma qsum_map_ext {A} (f g : A -> Q) l : (forall x, In x l -> f x == g x) -> qsum (map f l) == qsum (map g l).
Proof.
  induction l as [|x l IH]; intros H; cbn [map]; [reflexivity|]. rewrite !qsum_cons, (H x (or_introl eq_refl)), IH; [reflexivity|].
  intros y Hy. apply H. right. exact Hy.
Qed.

Lemma qsum_map_zero {A} (f : A -> Q) l : (forall x, In x l -> f x == 0) -> qsum (map f l) == 0.
Proof.
  intros H. rewrite (qsum_map_ext f (fun _ => 0) l H). clear H. induction l as [|x l IH]; cbn [map]; [reflexivity|].
  rewrite qsum_cons, IH. ring.
Qed.

Lemma pcv_sum_spec (m : pcv) : pcv_sum m == qsum (map snd m).
Proof.
  unfold pcv_sum. assert (G : forall acc, fold_left (fun a kv => qadd a (snd kv)) m acc == acc + qsum (map snd m)).
  { induction m as [|kv m IH]; intros acc; cbn [fold_left map]; [rewrite qsum_nil; ring|].
    rewrite IH, qadd_eq, qsum_cons. ring. }
  rewrite G. ring.
Qed.

Definition entry_w (e : entry) : Q := let '(_, _, w) := e in oq w.
Definition entry_date (e : entry) : Z := let '(_, d, _) := e in d.
Definition entry_path (e : entry) : list str := let '(ss, _, _) := e in ss.

(* each entry of a day is the commodity's value over the day's total *)
Lemma day_entries_def u m date total v1 es :
  day_entries u m date total v1 = WOk es ->
  map (fun e => (entry_date e, let '(_, _, w) := e in w)) es = map (fun kv => (date, qdiv (snd kv) total)) v1 /\
  Forall2 (fun e kv => map_path m (locate u (fst kv)) = Some (entry_path e)) es v1.
Proof.
  revert es. induction v1 as [|[c v] v1 IH]; intros es H; cbn [day_entries] in H.
  - inversion H; subst. split; [reflexivity|constructor].
  - destruct (map_path m (locate u c)) as [ss|] eqn:Em; try discriminate.
    destruct (day_entries u m date total v1) as [l|] eqn:El; try discriminate.
    inversion H; subst. destruct (IH l eq_refl) as [H1 H2]. split.
    + cbn [map entry_date snd]. rewrite H1. reflexivity.
    + constructor; [exact Em|exact H2].
Qed.

(* with a non-zero total the entries are defined and sum to 1 *)
Lemma day_entries_sum u m date total v1 es :
  day_entries u m date total v1 = WOk es -> ~ total == 0 ->
  defined_entries es /\ qsum (map entry_w es) == qsum (map snd v1) / total.
Proof.
  intros H Hnz. revert es H. induction v1 as [|[c v] v1 IH]; intros es H; cbn [day_entries] in H.
  - inversion H; subst. split; [constructor|]. cbn. field. exact Hnz.
  - destruct (map_path m (locate u c)) as [ss|]; try discriminate.
    destruct (day_entries u m date total v1) as [l|]; try discriminate.
    inversion H; subst. destruct (IH l eq_refl) as [Hd Hs]. split.
    + constructor; [|exact Hd]. intros Hn. apply qdiv_none in Hn. contradiction.
    + cbn [map qsum fold_right entry_w snd]. fold (qsum (map entry_w l)). fold (qsum (map snd v1)). rewrite Hs.
      destruct (qdiv v total) as [q|] eqn:Eq; [|apply qdiv_none in Eq; contradiction].
      destruct (qdiv_some _ _ _ Eq) as [_ Hq]. cbn [oq]. rewrite Hq. field. exact Hnz.
Qed.

Lemma day_entries_top u m date v1 es :
  day_entries u m date (pcv_sum v1) v1 = WOk es -> ~ pcv_sum v1 == 0 ->
  defined_entries es /\ qsum (map entry_w es) == 1.
Proof.
  intros H Hnz. destruct (day_entries_sum _ _ _ _ _ _ H Hnz) as [Hd Hs]. split; [exact Hd|].
  rewrite Hs, <- pcv_sum_spec. field. exact Hnz.
Qed.

Definition wsum (m : wmap) (d : Z) : Q := qsum (map (fun kv => if (fst kv =? d)%Z then oq (snd kv) else 0) m).
Definition wdefined (m : wmap) : Prop := Forall (fun kv => snd kv <> None) m.

(* on a map with ascending dates the renderer's lookup reads the same number *)
Definition wm_asc (m : wmap) : Prop := asc (map fst m).

Lemma wsum_nil d : wsum [] d == 0.
Proof. reflexivity. Qed.

Lemma wsum_cons k w m d : wsum ((k, w) :: m) d == (if (k =? d)%Z then oq w else 0) + wsum m d.
Proof. reflexivity. Qed.

Lemma wsum_absent m d : (forall k, In k (map fst m) -> (d < k)%Z) -> wsum m d == 0.
Proof.
  induction m as [|[k w] m IH]; intros H; [reflexivity|]. rewrite wsum_cons.
  assert (Hk : (d < k)%Z) by (apply H; left; reflexivity).
  replace (k =? d)%Z with false by (symmetry; apply Z.eqb_neq; lia).
  rewrite IH; [ring|]. intros k' Hk'. apply H. right. exact Hk'.
Qed.

Lemma wsum_get m d : wm_asc m ->
  wsum m d == match wm_get m d with Some w => oq w | None => 0 end.
Proof.
  unfold wm_asc. induction m as [|[k w] m IH]; intros Ha; cbn [wm_get]; [reflexivity|].
  rewrite wsum_cons. destruct (d =? k)%Z eqn:E.
  - apply Z.eqb_eq in E. subst k. rewrite Z.eqb_refl, wsum_absent; [ring|].
    intros k Hk. cbn [map fst] in Ha. apply (asc_lt d _ Ha k Hk).
  - replace (k =? d)%Z with false by (symmetry; rewrite Z.eqb_sym; exact E).
    rewrite (IH (asc_tail _ _ Ha)). ring.
Qed.

Lemma wm_add_dates m d w : map fst (wm_add m d w) = insert_date d (map fst m).
Proof.
  induction m as [|[k x] m IH]; cbn [wm_add map fst insert_date]; [reflexivity|].
  destruct (d =? k)%Z; [reflexivity|]. destruct (d <? k)%Z; [reflexivity|]. cbn [map fst]. rewrite IH. reflexivity.
Qed.

Lemma wm_add_asc m d w : wm_asc m -> wm_asc (wm_add m d w).
Proof. unfold wm_asc. rewrite wm_add_dates. apply insert_date_asc. Qed.

Lemma wm_plus_asc b : forall a, wm_asc a -> wm_asc (wm_plus a b).
Proof.
  unfold wm_plus. induction b as [|kv b IH]; intros a Ha; cbn [fold_left]; [exact Ha|].
  apply IH. apply wm_add_asc. exact Ha.
Qed.

Section WnodeInd.
  Variable P : wnode -> Prop.
  Hypothesis H : forall s lf w ch, Forall P ch -> P (WNode s lf w ch).
  Fixpoint wnode_ind' (n : wnode) : P n :=
    match n with
    | WNode s lf w ch =>
      H s lf w ch ((fix go (l : list wnode) : Forall P l :=
                      match l with [] => Forall_nil P | c :: r => Forall_cons c (wnode_ind' c) (go r) end) ch)
    end.
End WnodeInd.

(* all weight maps of a subtree *)
Fixpoint tree_maps (n : wnode) : list wmap :=
  match n with WNode _ _ w ch => w :: flat_map tree_maps ch end.

Definition tdefined (n : wnode) : Prop := Forall wdefined (tree_maps n).
Definition tasc (n : wnode) : Prop := Forall wm_asc (tree_maps n).
(* everything booked in the subtree on date d *)
Definition ttotal (n : wnode) (d : Z) : Q := qsum (map (fun m => wsum m d) (tree_maps n)).
Definition ctotal (ch : list wnode) (d : Z) : Q := qsum (map (fun c => ttotal c d) ch).
(* the weight of a node *)
Definition nweight (n : wnode) (d : Z) : Q := wsum (wn_weights n) d.

Lemma ttotal_unfold s lf w ch d : ttotal (WNode s lf w ch) d == wsum w d + ctotal ch d.
Proof.
  unfold ttotal, ctotal. cbn [tree_maps map qsum fold_right]. fold (qsum (map (fun m => wsum m d) (flat_map tree_maps ch))).
  assert (G : qsum (map (fun m => wsum m d) (flat_map tree_maps ch)) == qsum (map (fun c => ttotal c d) ch)).
  { induction ch as [|c ch IH]; cbn [flat_map map]; [reflexivity|].
    rewrite map_app, qsum_app, IH. cbn [qsum fold_right]. unfold ttotal. reflexivity. }
  rewrite G. reflexivity.
Qed.

Lemma tree_maps_Forall (P : wmap -> Prop) s lf w ch :
  Forall P (tree_maps (WNode s lf w ch)) <-> P w /\ Forall (fun c => Forall P (tree_maps c)) ch.
Proof.
  cbn [tree_maps]. rewrite Forall_cons_iff. apply and_iff_compat_l.
  induction ch as [|c ch IH]; cbn [flat_map]; [split; constructor|].
  rewrite Forall_app, Forall_cons_iff, IH. reflexivity.
Qed.

Lemma tdefined_unfold s lf w ch : tdefined (WNode s lf w ch) <-> wdefined w /\ Forall tdefined ch.
Proof. exact (tree_maps_Forall wdefined s lf w ch). Qed.

Lemma propagate_weights s lf w ch :
  wn_weights (propagate (WNode s lf w ch)) = fold_left wm_plus (map (fun c => wn_weights (propagate c)) ch) w.
Proof.
  cbn [propagate wn_weights]. generalize w. induction ch as [|c ch IH]; intros w0; cbn [map fold_left]; [reflexivity|].
  apply IH.
Qed.

Lemma propagate_children s lf w ch : wn_children (propagate (WNode s lf w ch)) = map propagate ch.
Proof. reflexivity. Qed.

Lemma wn_add_root_weights h tl date w n : wn_weights (wn_add (h :: tl) date w n) = wn_weights n.
Proof. reflexivity. Qed.

(* one posting's effect on the values map *)
Definition values_step (c : calc) (m : vals) (p : posting) : vals :=
  if ca_com c (p_com p) && is_portfolio c (p_acc p) then vals_add m (p_com p) (p_val p) else m.

Definition day_postings (d : day) : list posting := flat_map t_postings (d_txns d).

(* the posting loop of a day changes the values map only *)
Lemma cv_postings c t ps : forall s,
  fold_left (fun s p => cv_posting c s t p) ps s =
  mkCv (cv_prev s) (fold_left (values_step c) ps (cv_values s)) (cv_v0 s) (cv_out s).
Proof.
  induction ps as [|p ps IH]; intros s; cbn [fold_left]; [destruct s; reflexivity|]. rewrite IH.
  unfold cv_posting, values_step. destruct (ca_com c (p_com p)); cbn [negb andb]; [|reflexivity].
  destruct (is_portfolio c (p_acc p)); reflexivity.
Qed.

Lemma cv_txns c ts : forall s,
  fold_left (pure_txn None (Some (cv_posting c))) ts s =
  mkCv (cv_prev s) (fold_left (values_step c) (flat_map t_postings ts) (cv_values s)) (cv_v0 s) (cv_out s).
Proof.
  induction ts as [|t ts IH]; intros s; cbn [fold_left flat_map]; [destruct s; reflexivity|].
  rewrite IH, fold_left_app. unfold pure_txn, opt_app. rewrite cv_postings. reflexivity.
Qed.

(* a day: V0 is the V1 of the day before, V1 the values after the day's bookings *)
Lemma cv_day c s d :
  pure_day (Some cv_day_start) None (Some (cv_posting c)) (Some cv_day_end) s d =
  let m := fold_left (values_step c) (day_postings d) (cv_values s) in
  mkCv (vals_pcv m) m (cv_prev s) (cv_out s ++ [(d_date d, (cv_prev s, vals_pcv m))]).
Proof. unfold pure_day, opt_app. rewrite cv_txns. reflexivity. Qed.

(* the records of a list of days, from the values map before them *)
Fixpoint cv_recs (c : calc) (m : vals) (days : list day) : list (Z * (pcv * pcv)) :=
  match days with
  | [] => []
  | x :: r => let m' := fold_left (values_step c) (day_postings x) m in
              (d_date x, (vals_pcv m, vals_pcv m')) :: cv_recs c m' r
  end.

Lemma cv_run_recs c days : forall s, cv_prev s = vals_pcv (cv_values s) ->
  cv_out (cv_run c s days) = cv_out s ++ cv_recs c (cv_values s) days.
Proof.
  unfold cv_run, pure_days. induction days as [|x r IH]; intros s Hs; cbn [fold_left cv_recs]; [symmetry; apply app_nil_r|].
  rewrite cv_day. cbv zeta. rewrite IH by reflexivity. cbn [cv_out cv_values]. rewrite <- app_assoc, Hs. reflexivity.
Qed.

Lemma day_values_recs cfg days : day_values cfg days = COk (cv_recs (pf_calc cfg) [] days, days).
Proof.
  unfold day_values, run_stage, compute_values_proc. rewrite pure_proc_days. cbn [of_presult cbind fst snd].
  fold (cv_run (pf_calc cfg) cv_init days). rewrite cv_run_recs by reflexivity. reflexivity.
Qed.

Lemma cv_recs_dates c days : forall m, map fst (cv_recs c m days) = map d_date days.
Proof. induction days as [|x r IH]; intros m; cbn [cv_recs map fst]; [reflexivity|]. rewrite IH. reflexivity. Qed.

(* V0 of each record is V1 of its predecessor *)
Lemma cv_recs_chain c days : forall m, records_chain (vals_pcv m) (cv_recs c m days).
Proof. induction days as [|x r IH]; intros m; cbn [cv_recs records_chain]; [exact I|]. split; [reflexivity|apply IH]. Qed.

(* the record of a day: V1 is the map of the decimals accumulated (with Amounts.Add, entries that
   become zero deleted) over the bookings of all days up to and including it that are on portfolio
   accounts and in commodities passing the filter *)
Lemma cv_recs_nth c pre d post : forall m, exists v0,
  nth_error (cv_recs c m (pre ++ d :: post)) (length pre) =
  Some (d_date d, (v0, vals_pcv (fold_left (values_step c) (flat_map day_postings (pre ++ [d])) m))).
Proof.
  induction pre as [|x pre IH]; intros m; cbn [app cv_recs length nth_error flat_map].
  - exists (vals_pcv m). rewrite app_nil_r. reflexivity.
  - rewrite fold_left_app. apply IH.
Qed.

Lemma weights_value_record cfg pre d post vs :
  day_values cfg (pre ++ d :: post) = COk vs ->
  exists v0, nth_error (fst vs) (length pre) =
             Some (d_date d, (v0, vals_pcv (fold_left (values_step (pf_calc cfg)) (flat_map day_postings (pre ++ [d])) []))).
Proof. rewrite day_values_recs. intros H. injection H as <-. apply cv_recs_nth. Qed.
