(* C20: concrete journals (vm_compute witnesses).
   W1: a journal with directives on 2023-01-01, 01-05, 01-10, 02-10; `returns --months --to
       2023-02-28`: the partition has the periods ending 2023-01-31 and 2023-02-10, the pinned
       wiring reports only 2023-02-10 (and compounds both months into it).
   W2: a journal that holds CHF and AAPL, prices unchanged, one external CHF deposit in
       February; `returns --months --commodity AAPL`: the pinned ComputeFlows counts the CHF
       deposit as an inflow although ComputeValues ignores CHF: -50% instead of 0%. *)
From Coq Require Import ZArith QArith List Bool Lia.
From Knut Require Import Model.Str Model.Dec Model.Date Model.Account Model.Ledger Model.Price
     Model.Journal Model.Check Model.Pipeline Model.Report Model.Cli Model.Perf Model.Weights
     Model.CliPortfolio Spec.PortfolioSpec.
Import ListNotations.
Open Scope Z_scope.

Definition CHF : str := [67;72;70].
Definition AAPL : str := [65;65;80;76].
Definition a_bank : account := [s_Assets; [66;97;110;107]].
Definition a_broker : account := [s_Assets; [66;114;111;107;101;114]].
Definition a_opening : account := [s_Equity; [79;112;101;110;105;110;103]].
Definition jan (n : Z) : Z := of_civil 2023 1 n.
Definition feb (n : Z) : Z := of_civil 2023 2 n.

Definition plain (d : Z) (cr db : account) (q : Z) (c : commodity) : sdirective :=
  STxn (mkStxn d [120] [mkBooking cr db (of_int q) c] None None).

(* a run that succeeds returns what the witnesses below read from it with a default *)
Definition ok {A} (r : cresult A) : bool := match r with COk _ => true | _ => false end.

Lemma ran {A} (r : cresult A) d : ok r = true -> r = COk (match r with COk x => x | _ => d end).
Proof. destruct r; [reflexivity|discriminate|discriminate]. Qed.

Definition w1_journal : list sdirective :=
  [ SOpen (jan 1) a_bank; SOpen (jan 1) a_broker; SOpen (jan 1) a_opening;
    SPrice (jan 1) AAPL (of_int 100) CHF;
    plain (jan 5) a_opening a_bank 1000 CHF;
    plain (jan 10) a_opening a_broker 5 AAPL;
    SPrice (feb 10) AAPL (of_int 110) CHF ].

Definition w1_cfg : pf_cfg := mkPfCfg 0 (feb 28) Monthly 0 (Some CHF) [] [] [] false None true.

(* what the two wirings report for W1 *)
Definition w1_pinned_dates : list Z :=
  match returns_pinned w1_cfg w1_journal with COk l => map fst l | _ => [] end.
Definition w1_fixed_dates : list Z :=
  match returns_fixed w1_cfg w1_journal with COk l => map fst l | _ => [] end.
Definition w1_ends : list Z :=
  match load w1_journal with
  | COk b => match pf_partition w1_cfg b with COk part => end_dates part | _ => [] end
  | _ => []
  end.

Lemma w1_ends_eq : w1_ends = [jan 31; feb 10].
Proof. vm_compute. reflexivity. Qed.
Lemma w1_pinned_eq : w1_pinned_dates = [feb 10].
Proof. vm_compute. reflexivity. Qed.
Lemma w1_fixed_eq : w1_fixed_dates = [jan 31; feb 10].
Proof. vm_compute. reflexivity. Qed.

(* the pinned wiring does not report a return for every period: the hypotheses of
   PortfolioProofs.returns_every_period hold, its conclusion does not *)
Definition every_period_fails (fx : fixes) (cfg : pf_cfg) (ds : list sdirective) : Prop :=
  match returns_gen fx cfg ds, load ds with
  | COk l, COk b =>
    match pf_partition cfg b with
    | COk part =>
      let w := clip (mkPeriod (pc_from cfg) (pc_to cfg)) (builder_period b) in
      (p_start w <=? p_end w) = true /\ map fst l <> end_dates part
    | _ => False
    end
  | _, _ => False
  end.

Lemma every_period_refuted : exists cfg ds, 0 <= pc_last cfg /\ every_period_fails pinned cfg ds.
Proof.
  exists w1_cfg, w1_journal. split; [cbn; lia|]. vm_compute. split; [reflexivity|discriminate].
Qed.

Definition w2_journal : list sdirective :=
  [ SOpen (jan 1) a_bank; SOpen (jan 1) a_broker; SOpen (jan 1) a_opening;
    SPrice (jan 1) AAPL (of_int 100) CHF;
    plain (jan 5) a_opening a_bank 1000 CHF;
    plain (jan 5) a_opening a_broker 5 AAPL;
    plain (jan 31) a_opening a_bank 0 CHF;
    plain (feb 10) a_opening a_bank 500 CHF;
    plain (feb 28) a_opening a_bank 0 CHF ].

Definition w2_cfg : pf_cfg :=
  mkPfCfg 0 (feb 28) Monthly 0 (Some CHF) [] [mkRx true AAPL true] [] false None true.

Definition second_return (r : cresult (list (Z * option Q))) : option Q :=
  match r with COk [_; (_, x)] => x | _ => None end.

(* February: prices unchanged, the only transaction is an external deposit *)
Lemma w2_february_quiet :
  no_price_in w2_journal (feb 1) (feb 28) = true /\ only_external_in w2_journal (feb 1) (feb 28) = true.
Proof. vm_compute. split; reflexivity. Qed.

(* wiring repaired, flow filter as pinned: -50% *)
Lemma w2_pinned_filter : second_return (returns_gen (mkFixes true false) w2_cfg w2_journal) = Some (-1 # 2)%Q.
Proof. vm_compute. reflexivity. Qed.

(* both repaired: 0% *)
Lemma w2_repaired : second_return (returns_fixed w2_cfg w2_journal) = Some 0%Q.
Proof. vm_compute. reflexivity. Qed.

(* without the commodity filter the pinned flows are right as well: 0% *)
Lemma w2_unfiltered :
  second_return (returns_gen (mkFixes true false)
                   (mkPfCfg 0 (feb 28) Monthly 0 (Some CHF) [] [] [] false None true) w2_journal) = Some 0%Q.
Proof. vm_compute. reflexivity. Qed.

Lemma external_flows_zero_refuted :
  exists cfg ds s e r,
    no_price_in ds s e = true /\ only_external_in ds s e = true /\
    second_return (returns_gen (mkFixes true false) cfg ds) = Some r /\ ~ (r == 0)%Q.
Proof.
  exists w2_cfg, w2_journal, (feb 1), (feb 28), (-1 # 2)%Q.
  destruct w2_february_quiet as [H1 H2]. split; [exact H1|]. split; [exact H2|]. split; [exact w2_pinned_filter|].
  intros H. discriminate H.
Qed.
