(* The ComputePrices processor hands every day the normalised prices of the declarations made up
   to and including that day (Spec/PriceDaySpec.v price_on). *)
From Coq Require Import ZArith List Bool Lia.
From Knut Require Import Model.Str Model.Dec Model.Price Model.Ledger Model.Journal Model.Pipeline.
From Knut Require Import Spec.PriceSpec Spec.PriceDaySpec Proofs.SMapProofs Proofs.PriceProofs.
Import ListNotations.

Lemma build_from_app h1 : forall ps h2,
  build_from ps (h1 ++ h2) =
  match build_from ps h1 with Some ps' => build_from ps' h2 | None => None end.
Proof.
  induction h1 as [|[[c p] t] h1 IH]; intros ps h2; cbn [app build_from]; [reflexivity|].
  destruct (prices_insert ps c p t); auto.
Qed.

Lemma fold_cp_prices l : forall s s1,
  fold_res cp_price_cb s l = ROk s1 ->
  build_from (cp_prices s) l = Some (cp_prices s1) /\ cp_previous s1 = cp_previous s.
Proof.
  induction l as [|[[c p] t] l IH]; intros s s1 H; cbn [fold_res build_from] in *.
  - injection H as <-. split; reflexivity.
  - unfold cp_price_cb at 1 in H.
    destruct (prices_insert (cp_prices s) c p t) as [ps'| |]; cbn [rbind] in H; try discriminate.
    destruct (IH _ _ H) as [B P]. cbn [cp_prices cp_previous] in B, P. split; assumption.
Qed.

Section Day.
  Variable v : str.

  Lemma fold_txns_cp s ts : fold_txns (compute_prices_proc v) s ts = ROk (s, ts).
  Proof.
    induction ts as [|t ts IH]; cbn [fold_txns]; [reflexivity|].
    cbn [compute_prices_proc pr_txn pr_posting rbind fst snd]. rewrite IH. reflexivity.
  Qed.

  Lemma fold_asserts_cp s l : fold_asserts (compute_prices_proc v) s l = ROk s.
  Proof.
    induction l as [|a l IH]; cbn [fold_asserts]; [reflexivity|].
    cbn [compute_prices_proc pr_balance rbind]. exact IH.
  Qed.

  (* state invariant: the map is the one built from the history so far, and [previous] its
     normalisation (none before the first declaration) *)
  Definition cp_inv (h0 : list decl) (s : cp_state) : Prop :=
    build h0 = Some (cp_prices s) /\
    cp_previous s = match h0 with [] => None | _ => normalize (cp_prices s) v end.

  (* a day of ComputePrices: insert the day's declarations, then normalise *)
  Lemma process_day_cp s d :
    process_day (compute_prices_proc v) s d
    = rbind (fold_res cp_price_cb s (d_prices d)) (fun s2 => cp_day_end v s2 d).
  Proof.
    unfold process_day.
    cbn [compute_prices_proc pr_day_start pr_price pr_open pr_close pr_day_end rbind fst snd].
    destruct (fold_res cp_price_cb s (d_prices d)) as [s2| |]; cbn [rbind]; try reflexivity.
    rewrite fold_txns_cp. cbn [rbind fst snd]. rewrite fold_asserts_cp. reflexivity.
  Qed.

  Lemma cp_inv_prices h0 s l s2 :
    cp_inv h0 s -> fold_res cp_price_cb s l = ROk s2 ->
    build (h0 ++ l) = Some (cp_prices s2) /\ cp_previous s2 = cp_previous s.
  Proof.
    intros [B _] F. destruct (fold_cp_prices _ _ _ F) as [B2 P2]. split; [|exact P2].
    unfold build in *. rewrite build_from_app, B. exact B2.
  Qed.

  Lemma cp_day h0 s d s1 d1 :
    cp_inv h0 s -> process_day (compute_prices_proc v) s d = ROk (s1, d1) ->
    cp_inv (h0 ++ d_prices d) s1 /\
    d_normalized d1 = prices_of_history v (h0 ++ d_prices d) /\
    (d_date d1, d_prices d1, d_opens d1, d_txns d1, d_asserts d1, d_closes d1)
    = (d_date d, d_prices d, d_opens d, d_txns d, d_asserts d, d_closes d).
  Proof.
    intros Hinv H. rewrite process_day_cp in H.
    destruct (fold_res cp_price_cb s (d_prices d)) as [s2| |] eqn:F; cbn [rbind] in H; try discriminate.
    destruct (cp_inv_prices _ _ _ _ Hinv F) as [B3 _]. destruct Hinv as [B P].
    unfold cp_day_end in H.
    destruct (d_prices d) as [|x l] eqn:Dp.
    - cbn [fold_res] in F. injection F as <-. injection H as <- <-.
      rewrite app_nil_r in *. unfold prices_of_history, set_normalized. cbn [d_normalized d_date d_prices d_opens d_txns d_asserts d_closes].
      split; [split; assumption|]. split; [|rewrite Dp; reflexivity].
      rewrite P. destruct h0; [reflexivity|]. rewrite B. reflexivity.
    - destruct (normalize (cp_prices s2) v) as [n|] eqn:N; [|discriminate].
      injection H as <- <-. unfold prices_of_history, set_normalized, cp_inv.
      cbn [d_normalized d_date d_prices d_opens d_txns d_asserts d_closes cp_prices cp_previous].
      rewrite B3, N.
      assert (forall A (y : A) z, match h0 ++ x :: l with [] => y | _ => z end = z) as Hm
        by (intros; destruct h0; reflexivity).
      rewrite !Hm, Dp. split; [split; reflexivity|]. split; reflexivity.
  Qed.

  Lemma history_upto_0 d ds : history_upto (d :: ds) 0 = d_prices d.
  Proof. unfold history_upto. cbn [firstn map concat]. apply app_nil_r. Qed.

  Lemma history_upto_S d ds k : history_upto (d :: ds) (S k) = d_prices d ++ history_upto ds k.
  Proof. reflexivity. Qed.

  Lemma cp_days : forall ds h0 s s' ds',
    cp_inv h0 s -> process_days (compute_prices_proc v) s ds = ROk (s', ds') ->
    length ds' = length ds /\
    forall k d', nth_error ds' k = Some d' ->
                 d_normalized d' = prices_of_history v (h0 ++ history_upto ds k).
  Proof.
    induction ds as [|d ds IH]; intros h0 s s' ds' Hinv H; cbn [process_days] in H.
    - injection H as <- <-. split; [reflexivity|]. intros [|k] d' Hk; discriminate.
    - destruct (process_day (compute_prices_proc v) s d) as [[s1 d1]| |] eqn:D; cbn [rbind] in H; try discriminate.
      cbn [fst snd] in H.
      destruct (process_days (compute_prices_proc v) s1 ds) as [[s2 ds2]| |] eqn:R; cbn [rbind] in H; try discriminate.
      cbn [fst snd] in H. injection H as <- <-.
      destruct (cp_day _ _ _ _ _ Hinv D) as (Hinv1 & Hn & _).
      destruct (IH _ _ _ _ Hinv1 R) as [Hlen Hrest].
      split; [cbn [length]; rewrite Hlen; reflexivity|].
      intros [|k] d' Hk; cbn [nth_error] in Hk.
      + injection Hk as <-. rewrite history_upto_0. exact Hn.
      + rewrite history_upto_S, app_assoc. apply Hrest. exact Hk.
  Qed.

  Lemma compute_prices_days ds s' ds' :
    process_days (compute_prices_proc v) (mkCp [] None) ds = ROk (s', ds') ->
    length ds' = length ds /\
    forall k d', nth_error ds' k = Some d' -> d_normalized d' = price_on v ds k.
  Proof.
    intros H. assert (cp_inv [] (mkCp [] None)) as Hinv by (split; reflexivity).
    exact (cp_days ds [] _ _ _ Hinv H).
  Qed.

  (* the only way ComputePrices fails is a zero price: it never runs out of fuel *)
  Lemma compute_prices_no_panic : forall ds h0 s,
    cp_inv h0 s -> forall m, process_days (compute_prices_proc v) s ds <> RPanic m.
  Proof.
    induction ds as [|d ds IH]; intros h0 s Hinv m H; cbn [process_days] in H; [discriminate|].
    destruct (process_day (compute_prices_proc v) s d) as [[s1 d1]|k e|m1] eqn:D; cbn [rbind] in H; try discriminate.
    - cbn [fst snd] in H.
      destruct (process_days (compute_prices_proc v) s1 ds) as [[s2 ds2]| |m2] eqn:R; cbn [rbind] in H; try discriminate.
      injection H as ->. destruct (cp_day _ _ _ _ _ Hinv D) as (Hinv1 & _). exact (IH _ _ Hinv1 _ R).
    - clear H IH. rewrite process_day_cp in D.
      destruct (fold_res cp_price_cb s (d_prices d)) as [s2| |m2] eqn:F; cbn [rbind] in D; try discriminate.
      + destruct (cp_inv_prices _ _ _ _ Hinv F) as [B3 _]. unfold cp_day_end in D.
        destruct (d_prices d) as [|x l]; [discriminate|].
        destruct (normalize (cp_prices s2) v) eqn:N; [discriminate|].
        exact (normalize_total_built _ _ v B3 N).
      + clear D Hinv. revert s F. induction (d_prices d) as [|[[c p] t] l IHl]; intros s F; cbn [fold_res] in F; [discriminate|].
        unfold cp_price_cb at 1 in F.
        destruct (prices_insert (cp_prices s) c p t) as [ps'| |] eqn:I; cbn [rbind] in F; try discriminate.
        * exact (IHl _ F).
        * exact (insert_never_panics _ _ _ _ I).
  Qed.

  Lemma compute_prices_from_empty_no_panic ds m :
    process_days (compute_prices_proc v) (mkCp [] None) ds <> RPanic m.
  Proof.
    assert (cp_inv [] (mkCp [] None)) as Hinv by (split; reflexivity).
    exact (compute_prices_no_panic ds [] _ Hinv m).
  Qed.
End Day.
