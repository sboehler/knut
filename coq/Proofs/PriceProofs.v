(* Proofs for C12: Prices.Insert (latest declaration wins, zero rejected, order independence)
   and the breadth-first Normalize (self, direct, chain, unreachable, totality). *)
From Coq Require Import ZArith List Bool Lia Permutation Sorting.Sorted.
From Knut Require Import Proofs.ListFacts Model.Str Model.Dec Model.Price Model.Journal Model.Ledger Model.Pipeline.
From Knut Require Import Spec.PriceSpec Proofs.SMapProofs.
Import ListNotations.
Open Scope bool_scope.
Open Scope Z_scope.

Lemma multiply_one p : multiply p one = truncate p 8.
Proof.
  unfold multiply, mul, one, of_int. cbn [coef ex].
  rewrite Z.mul_1_r, Z.add_0_r. destruct p; reflexivity.
Qed.

Lemma dec_equal_refl x : dec_equal x x = true.
Proof.
  unfold dec_equal, cmp, rescale_pair. rewrite Z.eqb_refl, Z.compare_refl. reflexivity.
Qed.

Lemma div_nonzero a p : is_zero p = false -> exists x, div a p = DOk x.
Proof.
  unfold is_zero, div, div_round, quo_rem. intros H. rewrite H.
  destruct (ex a - ex p - - division_precision <? 0);
    match goal with |- context [if ?c then _ else _] => destruct c end;
    try match goal with |- context [if ?c then _ else _] => destruct c end; eauto.
Qed.

Lemma insert_zero ps c p t : is_zero p = true -> prices_insert ps c p t = InsErrZero.
Proof. unfold prices_insert. intros ->. reflexivity. Qed.

Lemma insert_nonzero ps c p t :
  is_zero p = false ->
  prices_insert ps c p t = InsOk (add_price (add_price ps t c p) c t (recip p)).
Proof.
  unfold prices_insert, recip. intros H. rewrite H.
  destruct (div_nonzero one p H) as [x ->]. reflexivity.
Qed.

Lemma insert_cases ps c p t :
  (is_zero p = true /\ prices_insert ps c p t = InsErrZero) \/
  (is_zero p = false /\ prices_insert ps c p t = InsOk (add_price (add_price ps t c p) c t (recip p))).
Proof.
  destruct (is_zero p) eqn:E; [left | right]; split; auto using insert_zero, insert_nonzero.
Qed.

Lemma insert_never_panics ps c p t : prices_insert ps c p t <> InsPanic.
Proof. destruct (insert_cases ps c p t) as [[_ ->]|[_ ->]]; discriminate. Qed.

Lemma insert_err_iff ps c p t : prices_insert ps c p t = InsErrZero <-> is_zero p = true.
Proof.
  destruct (insert_cases ps c p t) as [[H ->]|[H ->]]; split; auto; try discriminate; congruence.
Qed.

Lemma stored_add_price ps t0 c0 p t c :
  stored (add_price ps t0 c0 p) t c =
  if str_eqb t t0 && str_eqb c c0 then Some p else stored ps t c.
Proof.
  unfold stored, add_price. rewrite sm_get_put.
  destruct (str_eqb t t0) eqn:Et; cbn [andb].
  - apply str_eqb_eq in Et. subst t0. rewrite sm_get_put.
    destruct (str_eqb c c0); [reflexivity|].
    destruct (sm_get ps t); reflexivity.
  - reflexivity.
Qed.

Lemma stored_insert ps c' p t' ps' t c :
  prices_insert ps c' p t' = InsOk ps' ->
  stored ps' t c = match decl_value (c', p, t') c t with Some x => Some x | None => stored ps t c end.
Proof.
  destruct (insert_cases ps c' p t') as [[_ ->]|[_ ->]]; [discriminate|].
  intros H. injection H as <-.
  rewrite !stored_add_price. unfold decl_value.
  rewrite (andb_comm (str_eqb c t')).
  destruct (str_eqb t c' && str_eqb c t'); [reflexivity|].
  rewrite (andb_comm (str_eqb c c')).
  destruct (str_eqb t t' && str_eqb c c'); reflexivity.
Qed.

Lemma build_from_latest h : forall ps ps' c t,
  build_from ps h = Some ps' ->
  stored ps' t c = match latest h c t with Some x => Some x | None => stored ps t c end.
Proof.
  induction h as [|[[c' p] t'] h IH]; intros ps ps' c t H; cbn [build_from latest] in *.
  - injection H as <-. reflexivity.
  - destruct (prices_insert ps c' p t') as [ps1| |] eqn:E; try discriminate.
    rewrite (IH _ _ c t H). destruct (latest h c t); [reflexivity|].
    eapply stored_insert. exact E.
Qed.

Lemma build_latest h ps c t : build h = Some ps -> stored ps t c = latest h c t.
Proof.
  intros H. rewrite (build_from_latest h [] ps c t H).
  destruct (latest h c t); reflexivity.
Qed.

Lemma zero_rejected ps c p t :
  is_zero p = true ->
  prices_insert ps c p t = InsErrZero /\
  (forall s, cp_price_cb s (c, p, t) = RErr k_price_zero c) /\
  (forall h1 h2, build (h1 ++ (c, p, t) :: h2) = None).
Proof.
  intros Hz. split; [apply insert_zero; exact Hz|]. split.
  - intros s. unfold cp_price_cb. rewrite (insert_zero _ _ _ _ Hz). reflexivity.
  - intros h1 h2. unfold build. generalize (@nil (str * smap dec)) as ps0.
    induction h1 as [|[[c1 p1] t1] h1 IH]; intros ps0; cbn [app build_from].
    + rewrite (insert_zero _ _ _ _ Hz). reflexivity.
    + destruct (prices_insert ps0 c1 p1 t1); auto.
Qed.

(* [latest] read explicitly: the last declaration that says something about (c, t) decides *)
Lemma latest_last h1 d h2 c t x :
  decl_value d c t = Some x -> (forall d', In d' h2 -> decl_value d' c t = None) ->
  latest (h1 ++ d :: h2) c t = Some x.
Proof.
  intros Hd Hrest.
  assert (latest h2 c t = None) as H2.
  { induction h2 as [|d' h2 IH]; [reflexivity|]. cbn [latest].
    rewrite IH; [apply Hrest; left; reflexivity | intros d'' H; apply Hrest; right; exact H]. }
  induction h1 as [|d1 h1 IH]; cbn [app latest].
  - rewrite H2. exact Hd.
  - rewrite IH. reflexivity.
Qed.

Lemma decl_value_none c' p' t' c t :
  ~ (c' = c /\ t' = t) -> ~ (c' = t /\ t' = c) -> decl_value (c', p', t') c t = None.
Proof.
  intros N1 N2. unfold decl_value.
  destruct (str_eqb c t' && str_eqb t c') eqn:E1.
  - apply andb_true_iff in E1. destruct E1 as [A B]. apply str_eqb_eq in A, B. subst. exfalso. auto.
  - destruct (str_eqb c c' && str_eqb t t') eqn:E2; [|reflexivity].
    apply andb_true_iff in E2. destruct E2 as [A B]. apply str_eqb_eq in A, B. subst. exfalso. auto.
Qed.

Lemma build_last_declaration h1 c p t h2 ps :
  build (h1 ++ (c, p, t) :: h2) = Some ps -> c <> t ->
  (forall c' p' t', In (c', p', t') h2 -> ~ (c' = c /\ t' = t) /\ ~ (c' = t /\ t' = c)) ->
  stored ps t c = Some p /\ stored ps c t = Some (recip p).
Proof.
  intros B Hne Hrest.
  assert (forall d', In d' h2 -> decl_value d' c t = None /\ decl_value d' t c = None) as Hn.
  { intros [[c' p'] t'] Hin. destruct (Hrest _ _ _ Hin) as [N1 N2].
    split; apply decl_value_none; assumption. }
  rewrite !(build_latest _ _ _ _ B). split.
  - apply latest_last; [|intros d' H; apply (Hn d' H)].
    unfold decl_value. apply str_eqb_neq in Hne. rewrite Hne, !str_eqb_refl. reflexivity.
  - apply latest_last; [|intros d' H; apply (Hn d' H)].
    unfold decl_value. rewrite !str_eqb_refl. reflexivity.
Qed.

Lemma build_from_ok_iff h : forall ps,
  (exists ps', build_from ps h = Some ps') <-> Forall (fun d => is_zero (snd (fst d)) = false) h.
Proof.
  induction h as [|[[c p] t] h IH]; intros ps; cbn [build_from].
  - split; [constructor | eauto].
  - destruct (insert_cases ps c p t) as [[Hz ->]|[Hz ->]].
    + split; [intros [? H]; discriminate|]. intros H. inversion H; subst. cbn in *. congruence.
    + rewrite IH. split; [intros H; constructor; assumption | intros H; inversion H; assumption].
Qed.

(* well-formed price maps: what Insert builds *)
Definition wf_maps (ps : prices) : Prop :=
  sorted ps /\ forall t m, sm_get ps t = Some m -> sorted m /\ m <> [].

Definition symmetric (ps : prices) : Prop :=
  forall t c, stored ps t c <> None -> stored ps c t <> None.

Definition wf_prices (ps : prices) : Prop := wf_maps ps /\ symmetric ps.

Lemma sm_put_nonempty {V} (m : smap V) k v : sm_put m k v <> [].
Proof.
  destruct m as [|[k' v'] m]; cbn [sm_put]; [discriminate|].
  destruct (str_cmp k k'); discriminate.
Qed.

Lemma wf_maps_add_price ps t c p : wf_maps ps -> wf_maps (add_price ps t c p).
Proof.
  intros [Hs Hin]. unfold add_price. split.
  - apply sorted_put. exact Hs.
  - intros t0 m. rewrite sm_get_put. destruct (str_eqb t0 t) eqn:E.
    + intros H. injection H as <-. split; [|apply sm_put_nonempty].
      apply sorted_put. destruct (sm_get ps t) eqn:G; [apply (Hin _ _ G) | constructor].
    + apply Hin.
Qed.

Lemma wf_empty : wf_prices [].
Proof.
  split; [split; [constructor | intros t m H; discriminate]|].
  intros t c H. exfalso. apply H. reflexivity.
Qed.

Lemma wf_insert ps c p t ps' : wf_prices ps -> prices_insert ps c p t = InsOk ps' -> wf_prices ps'.
Proof.
  intros [Hm Hsym] H. split.
  - destruct (insert_cases ps c p t) as [[_ E]|[_ E]]; rewrite E in H; [discriminate|].
    injection H as <-. auto using wf_maps_add_price.
  - intros t0 c0. rewrite (stored_insert _ _ _ _ _ t0 c0 H), (stored_insert _ _ _ _ _ c0 t0 H).
    unfold decl_value. rewrite (andb_comm (str_eqb t0 t)), (andb_comm (str_eqb t0 c)).
    destruct (str_eqb c0 t && str_eqb t0 c), (str_eqb c0 c && str_eqb t0 t); try discriminate; auto.
Qed.

Lemma wf_build_from h : forall ps ps', wf_prices ps -> build_from ps h = Some ps' -> wf_prices ps'.
Proof.
  induction h as [|[[c p] t] h IH]; intros ps ps' Hwf H; cbn [build_from] in H.
  - injection H as <-. exact Hwf.
  - destruct (prices_insert ps c p t) eqn:E; try discriminate.
    eapply IH; [|exact H]. eapply wf_insert; eassumption.
Qed.

Lemma wf_build h ps : build h = Some ps -> wf_prices ps.
Proof. apply wf_build_from. exact wf_empty. Qed.

(* two well-formed maps with the same stored prices are equal *)
Lemma prices_ext ps1 ps2 :
  wf_maps ps1 -> wf_maps ps2 -> (forall t c, stored ps1 t c = stored ps2 t c) -> ps1 = ps2.
Proof.
  intros [S1 I1] [S2 I2] Hext. apply sorted_ext; try assumption.
  intros t. pose proof (Hext t) as Ht. unfold stored in Ht.
  destruct (sm_get ps1 t) as [m1|] eqn:G1, (sm_get ps2 t) as [m2|] eqn:G2.
  - f_equal. apply sorted_ext; [apply (I1 _ _ G1) | apply (I2 _ _ G2) | exact Ht].
  - exfalso. destruct (I1 _ _ G1) as [_ Hne]. destruct m1 as [|[k x] m1]; [congruence|].
    specialize (Ht k). cbn [sm_get] in Ht. rewrite str_eqb_refl in Ht. discriminate.
  - exfalso. destruct (I2 _ _ G2) as [_ Hne]. destruct m2 as [|[k x] m2]; [congruence|].
    specialize (Ht k). cbn [sm_get] in Ht. rewrite str_eqb_refl in Ht. discriminate.
  - reflexivity.
Qed.

Lemma build_order_independent h1 h2 ps1 ps2 :
  build h1 = Some ps1 -> build h2 = Some ps2 ->
  (forall c t, latest h1 c t = latest h2 c t) -> ps1 = ps2.
Proof.
  intros B1 B2 H. apply prices_ext.
  - apply (wf_build _ _ B1).
  - apply (wf_build _ _ B2).
  - intros t c. rewrite (build_latest _ _ _ _ B1), (build_latest _ _ _ _ B2). apply H.
Qed.

Lemma stored_neighbours ps c n : stored ps c n = sm_get (neighbours ps c) n.
Proof. unfold stored, neighbours. destruct (sm_get ps c); reflexivity. Qed.

Lemma symmetric_neighbour_key ps c n :
  symmetric ps -> In n (keys (neighbours ps c)) -> In n (keys ps).
Proof.
  intros Hsym Hin. apply sm_has_true in Hin. unfold sm_has in Hin.
  rewrite <- stored_neighbours in Hin.
  assert (stored ps c n <> None) as H by (destruct (stored ps c n); [discriminate | discriminate]).
  apply Hsym in H. unfold stored in H.
  destruct (sm_get ps n) eqn:G; [|congruence]. eapply sm_get_in_keys. exact G.
Qed.

(* one expansion step: full description of the new result map *)
Lemma visit_get nb pc : forall res q res' q' k,
  visit_neighbours nb pc res q = (res', q') ->
  sm_get res' k =
  match sm_get res k with
  | Some x => Some x
  | None => match sm_get nb k with Some p => Some (multiply p pc) | None => None end
  end.
Proof.
  induction nb as [|[n p] nb IH]; intros res q res' q' k H; cbn [visit_neighbours] in H.
  - injection H as <- <-. destruct (sm_get res k); reflexivity.
  - unfold sm_has in H. cbn [sm_get]. destruct (sm_get res n) as [y|] eqn:G.
    + rewrite (IH _ _ _ _ k H). destruct (sm_get res k) eqn:Gk; [reflexivity|].
      assert (str_eqb k n = false) as ->; [|reflexivity].
      apply str_eqb_neq. intros ->. congruence.
    + rewrite (IH _ _ _ _ k H). rewrite sm_get_put.
      destruct (str_eqb k n) eqn:E.
      * apply str_eqb_eq in E. subst k. rewrite G. reflexivity.
      * reflexivity.
Qed.

Definition extends (res np : nprices) : Prop :=
  forall k x, sm_get res k = Some x -> sm_get np k = Some x.

Lemma visit_extends nb pc res q res' q' :
  visit_neighbours nb pc res q = (res', q') -> extends res res'.
Proof. intros H k x G. rewrite (visit_get _ _ _ _ _ _ k H), G. reflexivity. Qed.

Lemma extends_has res np k : extends res np -> sm_has res k = true -> sm_has np k = true.
Proof.
  unfold sm_has. intros E H. destruct (sm_get res k) eqn:G; [|discriminate].
  rewrite (E _ _ G). reflexivity.
Qed.

Lemma visit_has nb pc res q res' q' k :
  visit_neighbours nb pc res q = (res', q') ->
  sm_has res' k = sm_has res k || sm_has nb k.
Proof.
  intros H. unfold sm_has. rewrite (visit_get _ _ _ _ _ _ k H).
  destruct (sm_get res k); [reflexivity|]. destruct (sm_get nb k); reflexivity.
Qed.

Lemma visit_has_neighbour ps c pc res q res' q' n :
  visit_neighbours (neighbours ps c) pc res q = (res', q') -> stored ps c n <> None -> sm_has res' n = true.
Proof.
  intros H Hn. rewrite (visit_has _ _ _ _ _ _ n H). rewrite stored_neighbours in Hn.
  unfold sm_has at 2. destruct (sm_get (neighbours ps c) n); [apply orb_true_r | congruence].
Qed.

(* a price after the step is an old one, or new and the product along the edge from c *)
Lemma visit_cases ps c pc res q res' q' k x :
  visit_neighbours (neighbours ps c) pc res q = (res', q') -> sm_get res' k = Some x ->
  sm_get res k = Some x \/
  (sm_has res k = false /\ sm_has res' k = true /\ exists p, stored ps c k = Some p /\ x = multiply p pc).
Proof.
  intros H G. pose proof G as G'. rewrite (visit_get _ _ _ _ _ _ k H) in G. unfold sm_has. rewrite G'.
  destruct (sm_get res k); [left; exact G | right].
  rewrite stored_neighbours. destruct (sm_get (neighbours ps c) k) as [p|]; [|discriminate].
  injection G as <-. eauto.
Qed.

(* the queue after one expansion step: it grows by exactly the newly priced commodities *)
Lemma visit_new nb pc : forall res q res' q',
  visit_neighbours nb pc res q = (res', q') ->
  exists new, q' = q ++ new /\ forall n, In n new <-> sm_has res n = false /\ sm_has res' n = true.
Proof.
  induction nb as [|[n p] nb IH]; intros res q res' q' H; cbn [visit_neighbours] in H.
  - injection H as <- <-. exists []. split; [symmetry; apply app_nil_r|].
    intros n. split; [intros [] | intros [H1 H2]; congruence].
  - destruct (sm_has res n) eqn:G; [apply IH; exact H|].
    destruct (IH _ _ _ _ H) as (new & -> & Hnew).
    exists (n :: new). split; [rewrite <- app_assoc; reflexivity|].
    intros m. cbn [In]. rewrite Hnew, sm_has_put. destruct (str_eqb m n) eqn:E; cbn [orb].
    + apply str_eqb_eq in E. subst m. split; [intros _ | auto]. split; [exact G|].
      eapply extends_has; [eapply visit_extends; exact H|].
      rewrite sm_has_put, str_eqb_refl. reflexivity.
    + apply str_eqb_neq in E. split; [intros [->|Hm]; [congruence | exact Hm] | auto].
Qed.

(* counting: commodities of ps not yet priced *)
Definition remaining (ps : prices) (res : nprices) : nat :=
  length (filter (fun k => negb (sm_has res k)) (keys ps)).

Lemma filter_length_le {A} (f g : A -> bool) l :
  (forall a, f a = true -> g a = true) -> (length (filter f l) <= length (filter g l))%nat.
Proof.
  intros H. induction l as [|a l IH]; cbn [filter]; [lia|].
  destruct (f a) eqn:F.
  - rewrite (H _ F). cbn [length]. lia.
  - destruct (g a); cbn [length]; lia.
Qed.

Lemma remaining_put ps res n x :
  In n (keys ps) -> sm_has res n = false ->
  (S (remaining ps (sm_put res n x)) <= remaining ps res)%nat.
Proof.
  unfold remaining. intros Hin Hn. induction (keys ps) as [|a l IH]; [destruct Hin|].
  cbn [filter]. rewrite sm_has_put. destruct (str_eqb a n) eqn:E.
  - apply str_eqb_eq in E. subst a. rewrite Hn. cbn [orb negb length].
    apply le_n_S. apply filter_length_le. intros a. rewrite sm_has_put.
    destruct (str_eqb a n); cbn [orb negb]; [discriminate | auto].
  - destruct Hin as [->|Hin]; [rewrite str_eqb_refl in E; discriminate|].
    cbn [orb]. destruct (negb (sm_has res a)); cbn [length]; specialize (IH Hin); lia.
Qed.

Lemma visit_count ps nb pc : forall res q res' q',
  (forall n, In n (keys nb) -> In n (keys ps)) ->
  visit_neighbours nb pc res q = (res', q') ->
  (length q' + remaining ps res' <= length q + remaining ps res)%nat.
Proof.
  induction nb as [|[n p] nb IH]; intros res q res' q' Hk H; cbn [visit_neighbours] in H.
  - injection H as <- <-. lia.
  - assert (forall n0, In n0 (keys nb) -> In n0 (keys ps)) as Hk'.
    { intros n0 Hn0. apply Hk. right. exact Hn0. }
    destruct (sm_has res n) eqn:G.
    + apply IH; assumption.
    + specialize (IH _ _ _ _ Hk' H). rewrite app_length in IH. cbn [length] in IH.
      pose proof (remaining_put ps res n (multiply p pc) (Hk n (or_introl eq_refl)) G). lia.
Qed.

Lemma bfs_nil fuel ps res : bfs fuel ps [] res = Some res.
Proof. destruct fuel; reflexivity. Qed.

Lemma bfs_step f ps c rest res :
  bfs (S f) ps (c :: rest) res =
  let '(res', q') := visit_neighbours (neighbours ps c)
                                      (match sm_get res c with Some p => p | None => one end) res rest in
  bfs f ps q' res'.
Proof. reflexivity. Qed.

(* what every expansion step preserves holds of the result *)
Lemma bfs_ind ps (P : list str -> nprices -> Prop) :
  (forall c rest res res' q', P (c :: rest) res ->
     visit_neighbours (neighbours ps c) (match sm_get res c with Some p => p | None => one end) res rest
     = (res', q') -> P q' res') ->
  forall fuel q res np, bfs fuel ps q res = Some np -> P q res -> P [] np.
Proof.
  intros Hstep. induction fuel as [|f IH]; intros [|c rest] res np H HP.
  - injection H as <-. exact HP.
  - discriminate.
  - injection H as <-. exact HP.
  - rewrite bfs_step in H.
    destruct (visit_neighbours (neighbours ps c) _ res rest) as [res' q'] eqn:E.
    exact (IH _ _ _ H (Hstep _ _ _ _ _ HP E)).
Qed.

Lemma bfs_extends ps fuel q res np : bfs fuel ps q res = Some np -> extends res np.
Proof.
  intros H. refine (bfs_ind ps (fun _ r => extends res r) _ fuel q res np H (fun k x G => G)).
  intros c rest r r' q' He E k x G. exact (visit_extends _ _ _ _ _ _ E k x (He k x G)).
Qed.

(* the fuel suffices: every commodity is enqueued at most once *)
Lemma bfs_total ps : symmetric ps -> forall fuel q res,
  (length q + remaining ps res <= fuel)%nat -> exists np, bfs fuel ps q res = Some np.
Proof.
  intros Hsym. induction fuel as [|f IH]; intros q res Hle.
  - destruct q; [eexists; reflexivity | cbn [length] in Hle; lia].
  - destruct q as [|c rest]; [eexists; reflexivity|].
    rewrite bfs_step.
    destruct (visit_neighbours (neighbours ps c) _ res rest) as [res' q'] eqn:E.
    apply IH. cbn [length] in Hle.
    pose proof (visit_count ps _ _ _ _ _ _ (fun n => symmetric_neighbour_key ps c n Hsym) E). lia.
Qed.

Lemma remaining_le ps res : (remaining ps res <= length ps)%nat.
Proof.
  unfold remaining. rewrite <- (keys_length ps).
  induction (keys ps) as [|a l IH]; cbn [filter length]; [lia|].
  destruct (negb (sm_has res a)); cbn [length]; lia.
Qed.

Lemma normalize_total ps v : symmetric ps -> exists np, normalize ps v = Some np.
Proof.
  intros Hsym. unfold normalize. apply bfs_total; [exact Hsym|].
  pose proof (remaining_le ps [(v, one)]). cbn [length]. lia.
Qed.

Section Bfs.
  Variable ps : prices.
  Variable v : str.

  (* every priced commodity is the end of a simple path of priced commodities with that value *)
  Definition has_path (res : nprices) (c : str) (x : dec) : Prop :=
    exists path, path_value ps v one path = Some x /\ last path v = c /\
                 NoDup (v :: path) /\ forall n, In n (v :: path) -> sm_has res n = true.

  Definition inv (q : list str) (res : nprices) : Prop :=
    (forall c, In c q -> sm_has res c = true) /\
    (forall c x, sm_get res c = Some x -> has_path res c x) /\
    (forall c, sm_has res c = true -> ~ In c q -> forall n, stored ps c n <> None -> sm_has res n = true).

  Lemma last_cons {A} (l : list A) : forall n d, last (n :: l) d = last l n.
  Proof.
    induction l as [|m l IH]; intros n d; [reflexivity|].
    change (last (n :: m :: l) d) with (last (m :: l) d). rewrite !IH. reflexivity.
  Qed.

  Lemma path_value_app l1 : forall cur acc l2,
    path_value ps cur acc (l1 ++ l2) =
    match path_value ps cur acc l1 with
    | Some a => path_value ps (last l1 cur) a l2
    | None => None
    end.
  Proof.
    induction l1 as [|n l1 IH]; intros cur acc l2; [reflexivity|].
    change ((n :: l1) ++ l2) with (n :: (l1 ++ l2)). cbn [path_value].
    destruct (stored ps cur n); [|reflexivity]. rewrite IH, last_cons. reflexivity.
  Qed.

  Lemma path_snoc res res' path c pc k p :
    path_value ps v one path = Some pc -> last path v = c -> NoDup (v :: path) ->
    (forall n, In n (v :: path) -> sm_has res n = true) ->
    extends res res' -> sm_has res k = false -> sm_has res' k = true -> stored ps c k = Some p ->
    path_value ps v one (path ++ [k]) = Some (multiply p pc) /\ last (path ++ [k]) v = k /\
    NoDup (v :: path ++ [k]) /\ forall n, In n (v :: path ++ [k]) -> sm_has res' n = true.
  Proof.
    intros P1 P2 P3 P4 Hext Hk Hk' Hst. change (v :: path ++ [k]) with ((v :: path) ++ [k]). repeat split.
    - rewrite path_value_app, P1, P2. cbn [path_value]. rewrite Hst. reflexivity.
    - apply last_last.
    - apply NoDup_snoc; [exact P3|]. intros Hin. apply P4 in Hin. congruence.
    - intros n Hn. apply in_app_or in Hn.
      destruct Hn as [Hn|[<-|[]]]; [eapply extends_has; [exact Hext | auto] | exact Hk'].
  Qed.

  Lemma inv_step c rest res res' q' :
    inv (c :: rest) res ->
    visit_neighbours (neighbours ps c) (match sm_get res c with Some p => p | None => one end) res rest
    = (res', q') ->
    inv q' res'.
  Proof.
    intros (I0 & I1 & I2) H.
    pose proof (visit_extends _ _ _ _ _ _ H) as Hext.
    destruct (visit_new _ _ _ _ _ _ H) as (new & -> & Hnew).
    assert (sm_has res c = true) as Hc by (apply I0; left; reflexivity).
    unfold sm_has in Hc. destruct (sm_get res c) as [pc|] eqn:Gc; [clear Hc | discriminate].
    split; [|split].
    - intros k Hk. apply in_app_or in Hk. destruct Hk as [Hk|Hk]; [|apply Hnew, Hk].
      eapply extends_has; [exact Hext|]. apply I0. right. exact Hk.
    - intros k x G. destruct (visit_cases _ _ _ _ _ _ _ _ _ H G) as [Gk|(Hk & Hk' & p & Hst & ->)].
      + destruct (I1 _ _ Gk) as (path & P1 & P2 & P3 & P4).
        exists path. repeat split; try assumption.
        intros n Hn. eapply extends_has; [exact Hext | auto].
      + destruct (I1 _ _ Gc) as (path & P1 & P2 & P3 & P4).
        exists (path ++ [k]). exact (path_snoc res res' path c pc k p P1 P2 P3 P4 Hext Hk Hk' Hst).
    - intros c0 Hc0 Hnq n Hn.
      destruct (str_eq_dec c0 c) as [->|Hne]; [exact (visit_has_neighbour _ _ _ _ _ _ _ _ H Hn)|].
      destruct (sm_has res c0) eqn:Hr; [|exfalso; apply Hnq, in_or_app; right; apply Hnew; auto].
      eapply extends_has; [exact Hext|]. apply (I2 c0 Hr); [|exact Hn].
      intros [E|Hin]; [congruence|]. apply Hnq, in_or_app. left. exact Hin.
  Qed.

  Lemma bfs_inv : forall fuel q res np,
    bfs fuel ps q res = Some np -> inv q res -> inv [] np /\ extends res np.
  Proof.
    intros fuel q res np H Hinv.
    split; [exact (bfs_ind ps inv inv_step fuel q res np H Hinv) | exact (bfs_extends _ _ _ _ _ H)].
  Qed.

  Lemma has_init k : sm_has [(v, one)] k = str_eqb k v.
  Proof. unfold sm_has. cbn [sm_get]. destruct (str_eqb k v); reflexivity. Qed.

  Lemma get_init c x : sm_get [(v, one)] c = Some x -> c = v /\ x = one.
  Proof.
    cbn [sm_get]. destruct (str_eqb c v) eqn:E; [|discriminate].
    apply str_eqb_eq in E. intros G. injection G as <-. auto.
  Qed.

  Lemma path_nil :
    path_value ps v one [] = Some one /\ last [] v = v /\
    NoDup [v] /\ forall n, In n [v] -> sm_has [(v, one)] n = true.
  Proof.
    repeat split.
    - constructor; [intros [] | constructor].
    - intros n [<-|[]]. rewrite has_init. apply str_eqb_refl.
  Qed.

  Lemma inv_init : inv [v] [(v, one)].
  Proof.
    split; [|split].
    - intros c [<-|[]]. rewrite has_init. apply str_eqb_refl.
    - intros c x G. apply get_init in G. destruct G as [-> ->]. exists []. exact path_nil.
    - intros c Hc Hn. rewrite has_init in Hc. apply str_eqb_eq in Hc. subst c.
      exfalso. apply Hn. left. reflexivity.
  Qed.

  Lemma normalize_inv np : normalize ps v = Some np -> inv [] np /\ extends [(v, one)] np.
  Proof. intros H. eapply bfs_inv; [exact H | exact inv_init]. Qed.

  Lemma normalize_self np : normalize ps v = Some np -> sm_get np v = Some one.
  Proof.
    intros H. apply (bfs_extends _ _ _ _ _ H). cbn [sm_get]. rewrite str_eqb_refl. reflexivity.
  Qed.

  Lemma normalize_direct np c p :
    normalize ps v = Some np -> c <> v -> stored ps v c = Some p ->
    sm_get np c = Some (truncate p 8).
  Proof.
    unfold normalize. rewrite bfs_step. intros H Hne Hst.
    destruct (visit_neighbours (neighbours ps v) _ [(v, one)] []) as [res' q'] eqn:E.
    apply (bfs_extends _ _ _ _ _ H).
    rewrite (visit_get _ _ _ _ _ _ c E). cbn [sm_get].
    apply str_eqb_neq in Hne. rewrite Hne, str_eqb_refl.
    rewrite <- stored_neighbours, Hst, multiply_one. reflexivity.
  Qed.

  Lemma normalize_chain np c x :
    normalize ps v = Some np -> sm_get np c = Some x ->
    exists path, is_path ps v path c x /\ NoDup (v :: path) /\
                 forall n, In n (v :: path) -> sm_has np n = true.
  Proof.
    intros H G. destruct (normalize_inv np H) as [(_ & I1 & _) _].
    destruct (I1 _ _ G) as (path & P1 & P2 & P3 & P4).
    exists path. repeat split; assumption.
  Qed.

  (* completeness: everything connected to v gets a price *)
  Lemma closed_path np : inv [] np -> forall path cur acc x,
    path_value ps cur acc path = Some x -> sm_has np cur = true -> sm_has np (last path cur) = true.
  Proof.
    intros (_ & _ & I2). induction path as [|n path IH]; intros cur acc x P Hc; [exact Hc|].
    cbn [path_value] in P. destruct (stored ps cur n) as [p|] eqn:S; [|discriminate].
    rewrite last_cons.
    eapply IH; [exact P|]. apply (I2 cur Hc); [intros [] | congruence].
  Qed.

  Lemma normalize_reachable np c :
    normalize ps v = Some np -> connected ps v c -> exists x, sm_get np c = Some x.
  Proof.
    intros H (path & x & P1 & P2). destruct (normalize_inv np H) as [Hinv _].
    pose proof (closed_path np Hinv path v one x P1) as Hc. rewrite P2 in Hc.
    unfold sm_has in Hc. rewrite (normalize_self np H) in Hc. specialize (Hc eq_refl).
    destruct (sm_get np c); [eauto | discriminate].
  Qed.

  Lemma normalize_unreachable np c :
    normalize ps v = Some np -> ~ connected ps v c -> sm_get np c = None.
  Proof.
    intros H Hn. destruct (sm_get np c) as [x|] eqn:G; [|reflexivity].
    exfalso. apply Hn. destruct (normalize_chain np c x H G) as (path & P & _).
    exists path, x. exact P.
  Qed.
End Bfs.

Lemma mem_true k l : mem k l = true <-> In k l.
Proof.
  unfold mem. rewrite existsb_exists. split.
  - intros (x & Hx & E). apply str_eqb_eq in E. subst. exact Hx.
  - intros H. exists k. split; [exact H | apply str_eqb_refl].
Qed.

Lemma last_in {A} (l : list A) : forall d, In (last l d) (d :: l).
Proof.
  induction l as [|m l IH]; intros d; [left; reflexivity|].
  rewrite last_cons. right. apply IH.
Qed.

Lemma neighbours_sorted ps c : wf_maps ps -> sorted (neighbours ps c).
Proof.
  intros [_ Hin]. unfold neighbours. destruct (sm_get ps c) eqn:G; [apply (Hin _ _ G) | constructor].
Qed.

(* every enumerated value is the value of a path to the target *)
Lemma path_values_sound ps : wf_maps ps -> forall fuel cur acc visited target x,
  In x (path_values fuel ps cur acc visited target) ->
  exists path, path_value ps cur acc path = Some x /\ last path cur = target.
Proof.
  intros Hwf. induction fuel as [|f IH]; intros cur acc visited target x H; cbn [path_values] in H.
  - destruct (str_eqb cur target) eqn:E; [|destruct H].
    apply str_eqb_eq in E. destruct H as [<-|[]]. exists []. split; [reflexivity | exact E].
  - destruct (str_eqb cur target) eqn:E.
    + apply str_eqb_eq in E. destruct H as [<-|[]]. exists []. split; [reflexivity | exact E].
    + apply in_flat_map in H. destruct H as ([n p] & Hnp & Hx). cbn [fst snd] in Hx.
      destruct (mem n visited); [destruct Hx|].
      destruct (IH _ _ _ _ _ Hx) as (path & P1 & P2).
      exists (n :: path). split.
      * cbn [path_value].
        assert (stored ps cur n = Some p) as ->; [|exact P1].
        rewrite stored_neighbours. apply sorted_in_get; [apply neighbours_sorted; exact Hwf | exact Hnp].
      * rewrite last_cons. exact P2.
Qed.

(* the value of every simple path that avoids [visited] and has at most [fuel] edges is enumerated *)
Lemma path_values_complete ps : forall path fuel cur acc visited target x,
  path_value ps cur acc path = Some x -> last path cur = target -> NoDup (cur :: path) ->
  (forall n, In n path -> ~ In n visited) -> (length path <= fuel)%nat ->
  In x (path_values fuel ps cur acc visited target).
Proof.
  induction path as [|n path IH]; intros fuel cur acc visited target x P L ND NV Hlen.
  - cbn [path_value last] in P, L. injection P as <-. subst target.
    destruct fuel; cbn [path_values]; rewrite str_eqb_refl; left; reflexivity.
  - assert (str_eqb cur target = false) as E.
    { assert (In target (n :: path)) as Ht by (rewrite <- L, last_cons; apply last_in).
      apply str_eqb_neq. intros Heq. rewrite Heq in ND.
      apply NoDup_cons_iff in ND. destruct ND as [Hnin _]. contradiction. }
    destruct fuel as [|f]; [cbn [length] in Hlen; lia|].
    cbn [path_values]. rewrite E.
    cbn [path_value] in P. destruct (stored ps cur n) as [p|] eqn:S; [|discriminate].
    apply in_flat_map. exists (n, p). split.
    + rewrite stored_neighbours in S. apply sm_get_in. exact S.
    + cbn [fst snd].
      assert (mem n visited = false) as ->.
      { destruct (mem n visited) eqn:M; [|reflexivity]. apply mem_true in M.
        exfalso. apply (NV n); [left; reflexivity | exact M]. }
      apply NoDup_cons_iff in ND. destruct ND as [Hcur ND'].
      pose proof ND' as ND2. apply NoDup_cons_iff in ND2. destruct ND2 as [Hn ND''].
      apply IH; try assumption.
      * rewrite last_cons in L. exact L.
      * intros m Hm [<-|Hv]; [contradiction|]. apply (NV m); [right; exact Hm | exact Hv].
      * cbn [length] in Hlen. lia.
Qed.

Lemma path_nodes_keys ps : symmetric ps -> forall path cur acc x,
  path_value ps cur acc path = Some x -> incl path (keys ps).
Proof.
  intros Hsym. induction path as [|n path IH]; intros cur acc x P m Hm; [destruct Hm|].
  cbn [path_value] in P. destruct (stored ps cur n) as [p|] eqn:S; [|discriminate].
  destruct Hm as [<-|Hm].
  - apply (symmetric_neighbour_key ps cur n Hsym).
    rewrite stored_neighbours in S. eapply sm_get_in_keys. exact S.
  - eapply IH; eassumption.
Qed.

Lemma simple_path_length ps cur acc path x :
  symmetric ps -> path_value ps cur acc path = Some x -> NoDup path -> (length path <= length ps)%nat.
Proof.
  intros Hsym P ND. rewrite <- (keys_length ps). apply NoDup_incl_length; [exact ND|].
  eapply path_nodes_keys; eassumption.
Qed.

(* what the model returns satisfies the statement the check evaluates on the Go output *)
Lemma normalize_meets_spec ps v np c :
  wf_prices ps -> normalize ps v = Some np -> valid_price_b ps v c (sm_get np c) = true.
Proof.
  intros [Hm Hsym] H. unfold valid_price_b.
  destruct (str_eqb c v) eqn:E.
  - apply str_eqb_eq in E. subst. rewrite (normalize_self _ _ _ H). cbn [opt_dec_equal].
    apply dec_equal_refl.
  - apply str_eqb_neq in E. destruct (stored ps v c) as [p|] eqn:S.
    + rewrite (normalize_direct _ _ _ _ _ H E S). cbn [opt_dec_equal]. apply dec_equal_refl.
    + destruct (sm_get np c) as [x|] eqn:G.
      * destruct (normalize_chain _ _ _ _ _ H G) as (path & [P1 P2] & ND & _).
        apply existsb_exists. exists x. split; [|apply dec_equal_refl].
        inversion ND as [|? ? Hv ND']; subst.
        apply (path_values_complete ps path); try assumption; try reflexivity.
        -- intros n Hn [<-|[]]. contradiction.
        -- eapply simple_path_length; eassumption.
      * destruct (path_values (length ps) ps v one [v] c) as [|y l] eqn:PV; [reflexivity|].
        exfalso.
        assert (In y (path_values (length ps) ps v one [v] c)) as Hy by (rewrite PV; left; reflexivity).
        apply (path_values_sound ps Hm) in Hy. destruct Hy as (path & P1 & P2).
        destruct (normalize_reachable _ _ _ c H) as [x Gx]; [|congruence].
        exists path, y. split; assumption.
Qed.

Lemma valuate_no_price v s t p np :
  v_cur s = Some np -> sm_get np (p_com p) = None -> is_zero (p_qty p) = false -> p_com p <> v ->
  val_posting v s t p = RErr k_no_price (p_com p).
Proof.
  unfold val_posting. intros Hc Hn Hz Hne. rewrite Hz.
  assert (str_eqb v (p_com p) = false) as -> by (apply str_eqb_neq; congruence).
  cbn [v_cur]. rewrite Hc. unfold np_valuate. rewrite Hn. reflexivity.
Qed.

Lemma connected_refl ps v : connected ps v v.
Proof. exists [], one. split; reflexivity. Qed.

Lemma unreachable_errors ps v c np :
  normalize ps v = Some np -> ~ connected ps v c ->
  np_price np c = None /\
  (forall a, np_valuate np c a = None) /\
  (forall s t p, v_cur s = Some np -> p_com p = c -> is_zero (p_qty p) = false ->
                 exists f, pr_posting (valuate_proc v) = Some f /\ f s t p = RErr k_no_price c).
Proof.
  intros H Hn. pose proof (normalize_unreachable _ _ _ _ H Hn) as G.
  split; [exact G|]. split.
  - intros a. unfold np_valuate. rewrite G. reflexivity.
  - intros s t p Hc Hp Hz. exists (val_posting v). split; [reflexivity|].
    subst c. apply valuate_no_price with (np := np); try assumption.
    intros E. apply Hn. rewrite E. apply connected_refl.
Qed.

Lemma StronglySorted_all {A} (R : A -> A -> Prop) l :
  (forall a b, In a l -> In b l -> R a b) -> Sorted.StronglySorted R l.
Proof.
  induction l as [|a l IH]; intros H; constructor.
  - apply IH. intros x y Hx Hy. apply H; right; assumption.
  - apply Forall_forall. intros y Hy. apply H; [left; reflexivity | right; exact Hy].
Qed.

Section BfsLevels.
  Variable ps : prices.
  Variable v : str.

  (* lvl c = number of edges of the path by which c was reached *)
  Definition linv (lvl : str -> nat) (q : list str) (res : nprices) : Prop :=
    (forall c, In c q -> sm_has res c = true) /\
    lvl v = O /\
    (forall c x, sm_get res c = Some x ->
       exists path, path_value ps v one path = Some x /\ last path v = c /\ NoDup (v :: path) /\
                    (forall n, In n (v :: path) -> sm_has res n = true) /\ length path = lvl c) /\
    Sorted.StronglySorted (fun a b => (lvl a <= lvl b)%nat) q /\
    (forall h rest c, q = h :: rest -> sm_has res c = true -> (lvl c <= S (lvl h))%nat) /\
    (forall u, sm_has res u = true -> ~ In u q -> forall n, stored ps u n <> None ->
               sm_has res n = true /\ (lvl n <= S (lvl u))%nat).

  Lemma linv_inv lvl q res : linv lvl q res -> inv ps v q res.
  Proof.
    intros (I0 & _ & L1 & _ & _ & L4). split; [exact I0|]. split.
    - intros c x G. destruct (L1 _ _ G) as (path & P1 & P2 & P3 & P4 & _). exists path. auto.
    - intros c Hc Hn n Hs. apply (L4 c Hc Hn n Hs).
  Qed.

  Lemma linv_step lvl c rest res res' q' :
    linv lvl (c :: rest) res ->
    visit_neighbours (neighbours ps c) (match sm_get res c with Some p => p | None => one end) res rest
    = (res', q') ->
    linv (fun k => if sm_has res k then lvl k else S (lvl c)) q' res'.
  Proof.
    intros L H. destruct (inv_step ps v _ _ _ _ _ (linv_inv _ _ _ L) H) as (J0 & _ & J2).
    destruct L as (I0 & L0 & L1 & L2 & L3 & L4).
    pose proof (visit_extends _ _ _ _ _ _ H) as Hext.
    destruct (visit_new _ _ _ _ _ _ H) as (new & -> & Hnew).
    assert (sm_has res c = true) as Hc by (apply I0; left; reflexivity).
    pose proof Hc as Hc'. unfold sm_has in Hc'.
    destruct (sm_get res c) as [pc|] eqn:Gc; [clear Hc' | discriminate].
    set (lvl' := fun k => if sm_has res k then lvl k else S (lvl c)).
    assert (forall k, sm_has res k = true -> lvl' k = lvl k) as Lold.
    { intros k Hk. unfold lvl'. rewrite Hk. reflexivity. }
    assert (forall k, sm_has res k = false -> lvl' k = S (lvl c)) as Lnew.
    { intros k Hk. unfold lvl'. rewrite Hk. reflexivity. }
    assert (forall k, (lvl' k <= S (lvl c))%nat) as Lle.
    { intros k. destruct (sm_has res k) eqn:Hk.
      - rewrite (Lold _ Hk). apply (L3 c rest k eq_refl Hk).
      - rewrite (Lnew _ Hk). apply le_n. }
    assert (forall k, In k rest -> sm_has res k = true) as Hrest.
    { intros k Hk. apply I0. right. exact Hk. }
    inversion L2 as [|? ? L2rest L2all]; subst. rewrite Forall_forall in L2all.
    split; [exact J0|]. split; [|split; [|split; [|split]]].
    - destruct (L1 _ _ Gc) as (path & _ & _ & _ & P4 & _).
      rewrite Lold; [exact L0|]. apply P4. left. reflexivity.
    - intros k x G. destruct (visit_cases _ _ _ _ _ _ _ _ _ H G) as [Gk|(Hk & Hk' & p & Hst & ->)].
      + destruct (L1 _ _ Gk) as (path & P1 & P2 & P3 & P4 & P5).
        exists path. repeat split; try assumption.
        * intros n Hn. eapply extends_has; [exact Hext | auto].
        * rewrite Lold; [exact P5|]. unfold sm_has. rewrite Gk. reflexivity.
      + destruct (L1 _ _ Gc) as (path & P1 & P2 & P3 & P4 & P5).
        destruct (path_snoc ps v res res' path c pc k p P1 P2 P3 P4 Hext Hk Hk' Hst) as (R1 & R2 & R3 & R4).
        exists (path ++ [k]). repeat split; try assumption.
        rewrite app_length, P5, (Lnew _ Hk). cbn [length]. lia.
    - apply StronglySorted_app.
      + apply (StronglySorted_weaken_in (fun a b => (lvl a <= lvl b)%nat)); [|exact L2rest].
        intros a b Ha Hb Hab. rewrite (Lold _ (Hrest _ Ha)), (Lold _ (Hrest _ Hb)). exact Hab.
      + apply StronglySorted_all. intros a b Ha Hb.
        rewrite (Lnew a), (Lnew b) by (apply Hnew; assumption). apply le_n.
      + intros a b Ha Hb. rewrite (Lold _ (Hrest _ Ha)), (Lnew b) by (apply Hnew; exact Hb).
        apply (L3 c rest a eq_refl (Hrest _ Ha)).
    - (* the head of the new queue is at least as deep as c *)
      intros h rest2 k Hq _. specialize (Lle k).
      assert (In h (rest ++ new)) as Hh by (rewrite Hq; left; reflexivity).
      apply in_app_or in Hh. destruct Hh as [Hh|Hh].
      + rewrite (Lold _ (Hrest _ Hh)). specialize (L2all h Hh). cbn beta in L2all. lia.
      + rewrite (Lnew h) by (apply Hnew; exact Hh). lia.
    - intros u Hu Hnq n Hn. pose proof (J2 u Hu Hnq n Hn) as Hn'. split; [exact Hn'|].
      destruct (str_eq_dec u c) as [->|Hne]; [rewrite (Lold _ Hc); apply Lle|].
      destruct (sm_has res u) eqn:Hru.
      + assert (~ In u (c :: rest)) as Hnq'.
        { intros [E|Hin]; [congruence|]. apply Hnq. apply in_or_app. left. exact Hin. }
        destruct (L4 u Hru Hnq' n Hn) as [Hn1 Hn2]. rewrite (Lold _ Hn1), (Lold _ Hru). exact Hn2.
      + exfalso. apply Hnq. apply in_or_app. right. apply Hnew. auto.
  Qed.

  Lemma bfs_linv : forall fuel lvl q res np,
    bfs fuel ps q res = Some np -> linv lvl q res -> exists lvl', linv lvl' [] np.
  Proof.
    intros fuel lvl q res np H Hinv.
    refine (bfs_ind ps (fun q res => exists l, linv l q res) _ fuel q res np H (ex_intro _ lvl Hinv)).
    intros c rest r r' q' [l L] E. eexists. exact (linv_step l _ _ _ _ _ L E).
  Qed.

  Lemma linv_init : linv (fun _ => O) [v] [(v, one)].
  Proof.
    destruct (inv_init ps v) as (J0 & _ & _).
    split; [exact J0|]. split; [reflexivity|]. split; [|split; [|split]].
    - intros c x G. apply get_init in G. destruct G as [-> ->].
      destruct (path_nil ps v) as (R1 & R2 & R3 & R4). exists []. auto.
    - constructor; constructor.
    - intros h rest c _ _. apply le_S, le_n.
    - intros u Hu Hn. rewrite has_init in Hu. apply str_eqb_eq in Hu. subst u.
      exfalso. apply Hn. left. reflexivity.
  Qed.

  Lemma linv_path_level lvl np : linv lvl [] np -> forall path cur acc x,
    path_value ps cur acc path = Some x -> sm_has np cur = true ->
    sm_has np (last path cur) = true /\ (lvl (last path cur) <= lvl cur + length path)%nat.
  Proof.
    intros (_ & _ & _ & _ & _ & L4). induction path as [|n path IH]; intros cur acc x P Hc.
    - cbn [last length]. split; [exact Hc | lia].
    - cbn [path_value] in P. destruct (stored ps cur n) as [p|] eqn:S; [|discriminate].
      rewrite last_cons.
      destruct (L4 cur Hc (fun F => F) n ltac:(congruence)) as [Hn Hl].
      destruct (IH n _ _ P Hn) as [H1 H2]. split; [exact H1|]. cbn [length]. lia.
  Qed.

  (* the chain whose product is the price is a shortest path of stored edges from v *)
  Lemma normalize_shortest np c x :
    normalize ps v = Some np -> sm_get np c = Some x ->
    exists path, is_path ps v path c x /\ NoDup (v :: path) /\
                 forall path' x', is_path ps v path' c x' -> (length path <= length path')%nat.
  Proof.
    intros H G. destruct (bfs_linv _ _ _ _ _ H linv_init) as [lvl Hl].
    pose proof Hl as (_ & L0 & L1 & _).
    destruct (L1 _ _ G) as (path & P1 & P2 & P3 & P4 & P5).
    exists path. split; [split; assumption|]. split; [exact P3|].
    intros path' x' [Q1 Q2].
    assert (sm_has np v = true) as Hv by (apply P4; left; reflexivity).
    destruct (linv_path_level lvl np Hl path' v one x' Q1 Hv) as [_ Hle].
    rewrite Q2, L0 in Hle. lia.
  Qed.
End BfsLevels.

Definition sA : str := [65].
Definition sB : str := [66].
Definition sC : str := [67].
Definition sD : str := [68].
Definition sE : str := [69].
Definition sV : str := [86].

(* A is declared directly in V (2) and is also reachable through B (3 * 5 = 15) *)
Definition alt_history : list decl :=
  [(sA, of_int 2, sV); (sB, of_int 3, sV); (sA, of_int 5, sB)].

Definition rev_order (_ : str) (l : list (str * dec)) : list (str * dec) := rev l.
Definition id_order (_ : str) (l : list (str * dec)) : list (str * dec) := l.

Lemma dfs_refuted :
  exists ps v c p order,
    build alt_history = Some ps /\ (forall k l, Permutation (order k l) l) /\
    c <> v /\ stored ps v c = Some p /\
    sm_get (normalize_dfs order ps v) c <> Some (truncate p 8) /\
    sm_get (normalize_dfs order ps v) c <> sm_get (normalize_dfs id_order ps v) c.
Proof.
  destruct (build alt_history) as [ps|] eqn:B; [|vm_compute in B; discriminate].
  exists ps, sV, sA, (of_int 2), rev_order.
  split; [reflexivity|]. split; [intros k l; apply Permutation_sym, Permutation_rev|].
  vm_compute in B. injection B as <-.
  split; [discriminate|]. split; [vm_compute; reflexivity|].
  split; vm_compute; discriminate.
Qed.

Lemma normalize_total_built h ps v : build h = Some ps -> normalize ps v <> None.
Proof.
  intros B. destruct (normalize_total ps v (proj2 (wf_build h ps B))) as [np E].
  rewrite E. discriminate.
Qed.

Lemma normalize_direct_multiply ps v np c p :
  normalize ps v = Some np -> c <> v -> stored ps v c = Some p ->
  np_price np c = Some (multiply p one) /\ multiply p one = truncate p 8.
Proof.
  intros H Hne S. rewrite multiply_one. split; [|reflexivity].
  exact (normalize_direct ps v np c p H Hne S).
Qed.

Lemma order_independent h1 h2 ps1 ps2 :
  build h1 = Some ps1 -> build h2 = Some ps2 ->
  (forall c t, latest h1 c t = latest h2 c t) ->
  ps1 = ps2 /\ forall v, normalize ps1 v = normalize ps2 v.
Proof.
  intros B1 B2 H.
  assert (ps1 = ps2) as -> by (eapply build_order_independent; eassumption).
  split; reflexivity.
Qed.

Lemma model_meets_spec h ps v np c :
  build h = Some ps -> normalize ps v = Some np -> valid_price_b ps v c (np_price np c) = true.
Proof. intros B. apply normalize_meets_spec. exact (wf_build h ps B). Qed.
