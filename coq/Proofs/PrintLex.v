(* C09 (a): the leaves that journal.Print writes are in the parser's lexical classes.
   [mdir_lex d] says of a model directive what the parser guarantees of every journal it has read
   (and the model layer keeps): years 0..9999; account segments and commodities are non-empty
   runs of (Unicode) letters and digits; descriptions are valid UTF-8 without a double quote; a
   transaction has a booking, an assertion a balance.  Then the meaning journal.Print writes
   (PrintSem.sem_of_mdir) satisfies RoundTripInv.LexDir ([lex_mdir]): the ISO date is a date
   token, Decimal.String a decimal token, and so on; the two rune counts (fmt's and the format
   printer's) agree on valid UTF-8 ([rc_ok_runs]); account names split back into their segments
   ([printable_mdir]). *)
From Coq Require Import ZArith List Bool Lia.
From Knut Require Import Model.Bytes Model.Utf8 Model.UnicodeTables Model.Scanner Model.Parser Model.SynPrinter
     Spec.FormatSpec Model.SynRender.
From Knut Require Import Model.Str Model.Dec Model.Date Model.Account Model.Ledger Model.Journal Model.Pipeline
     Model.Table Model.Report Model.JPrinter.
From Knut Require Import Spec.TableSpec Proofs.CalendarSweep Proofs.CalendarProofs Proofs.DecStringProofs Proofs.TableProofs
     Proofs.ScannerProofs Proofs.RoundTripBase Proofs.RoundTripLeaf Proofs.RoundTripInv Proofs.RoundTripRuns Proofs.RoundTripTop
     Proofs.PrintProofs Proofs.PrintSem Proofs.PrintWeave.
Import ListNotations.
Open Scope bool_scope.
Open Scope Z_scope.

Notation uletter := UnicodeM.is_letter.
Notation udigit := UnicodeM.is_digit.
Notation ualnum := (RoundTripLeaf.alnum uletter udigit).
Notation uchunk := (chunk udec).
Notation ucls := (cls udec).
Notation uruns := (runs udec).
Notation ufr := (fr udec).

Lemma chunk_shape c b : uchunk c b ->
  exists b0 bt, b = b0 :: bt /\ is_cont b0 = false /\ Forall (fun x => is_cont x = true) bt /\
                (b0 < 128 -> bt = [] /\ c = b0) /\ (128 <= b0 -> Forall (fun x => 128 <= x) bt).
Proof.
  intros (Hne & Hx & Hv). specialize (Hx []). rewrite app_nil_r in Hx.
  destruct b as [|s0 t]; [congruence|]. exists s0, t. split; [reflexivity|].
  unfold decode, zlen in Hx.
  repeat match type of Hx with
  | context [if ?c then _ else _] => destruct c eqn:?
  | context [match ?x with [] => _ | _ :: _ => _ end] => destruct x
  end; apply pair_equal_spec in Hx; destruct Hx as [Hc Hl]; try subst c;
  try (exfalso; apply Hv; split; [reflexivity|unfold zlen; rewrite <- Hl; reflexivity]);
  cbn [length] in Hl.
  all: repeat match goal with l : list Z |- _ => destruct l; cbn [length] in Hl; try lia end.
  all: unfold cont, second_lo, second_hi, is_cont in *; unfold in_rng in *.
  all: repeat match goal with H : context [if ?c then _ else _] |- _ => destruct c eqn:? end.
  all: try (repeat split; try (repeat constructor); try lia; fail).
Qed.

Lemma table_rc_chunk c b : uchunk c b -> Table.rune_count b = 1.
Proof.
  intros H. destruct (chunk_shape c b H) as (b0 & bt & -> & H0 & Ht & _).
  unfold Table.rune_count. cbn [filter]. fold (is_cont b0). rewrite H0. cbn [negb length].
  replace (filter (fun b => negb ((128 <=? b) && (b <? 192))) bt) with (@nil Z); [reflexivity|].
  symmetry. clear H H0. induction Ht as [|x l Hx Hl IH]; [reflexivity|]. cbn [filter]. fold (is_cont x). rewrite Hx. exact IH.
Qed.

Lemma rc_fuel_runs s : uruns s -> forall n, (length s <= n)%nat ->
  SynPrintM.rune_count_fuel udec n s = Table.rune_count s.
Proof.
  induction 1 as [|c b r Hc Hr IH]; intros n Hn.
  - destruct n; reflexivity.
  - pose proof Hc as (Hne & Hx & _). rewrite TableProofs.rune_count_app, (table_rc_chunk c b Hc).
    destruct b as [|b0 bt]; [congruence|]. destruct n as [|n]; [cbn [app length] in Hn; lia|].
    change ((b0 :: bt) ++ r) with (b0 :: (bt ++ r)). cbn [SynPrintM.rune_count_fuel].
    change (b0 :: bt ++ r) with ((b0 :: bt) ++ r). rewrite (Hx r), skipn_zlen_app.
    rewrite IH; [reflexivity|]. rewrite app_length in Hn. cbn [length] in Hn. lia.
Qed.

Theorem rc_ok_runs s : uruns s -> rc_ok s.
Proof. intros H. unfold rc_ok, SynPrintM.rune_count. symmetry. now apply rc_fuel_runs. Qed.

Lemma udigit_ascii c : 48 <= c <= 57 -> udigit c = true.
Proof.
  intros H. assert (E : c = 48 \/ c = 49 \/ c = 50 \/ c = 51 \/ c = 52 \/ c = 53 \/ c = 54 \/ c = 55 \/ c = 56 \/ c = 57) by lia.
  repeat (destruct E as [->|E]; [vm_compute; reflexivity|]). subst. vm_compute. reflexivity.
Qed.

Lemma ualnum_0 : ualnum 0 = false. Proof. vm_compute. reflexivity. Qed.
Lemma ualnum_58 : ualnum 58 = false. Proof. vm_compute. reflexivity. Qed.
Lemma ualnum_36 : ualnum 36 = false. Proof. vm_compute. reflexivity. Qed.
Lemma udigit_46 : udigit 46 = false. Proof. vm_compute. reflexivity. Qed.

Lemma cls_digits l : forallb Dec.is_digit l = true -> ucls udigit l.
Proof.
  intros H. apply (cls_ascii udec utf8_decoder_ok). rewrite forallb_forall in H. apply Forall_forall. intros b Hb.
  specialize (H b Hb). apply is_digit_range in H. split; [lia|now apply udigit_ascii].
Qed.

Lemma cls_no_ascii (P : Z -> bool) z s : 0 <= z < 128 -> P z = false -> ucls P s -> ~ In z s.
Proof.
  intros Hz HP. induction 1 as [|c b x Hc Hp Hx IH]; [intros []|]. intros Hin. apply in_app_or in Hin.
  destruct Hin as [Hin|Hin]; [|tauto].
  destruct (chunk_shape c b Hc) as (b0 & bt & -> & _ & _ & Hlo & Hhi).
  destruct (Z_lt_ge_dec b0 128) as [L|G].
  - destruct (Hlo L) as (-> & ->). destruct Hin as [E|[]]. rewrite E, HP in Hp. discriminate.
  - destruct Hin as [E|Hin]; [lia|]. specialize (Hhi ltac:(lia)). rewrite Forall_forall in Hhi. specialize (Hhi _ Hin). lia.
Qed.

Inductive digs_list : nat -> Str.str -> Prop :=
| dl_nil : digs_list 0 []
| dl_cons k b x : 48 <= b <= 57 -> digs_list k x -> digs_list (S k) (b :: x).

Lemma digs_of_list k x : digs_list k x -> RoundTripLeaf.digs udec udigit k x.
Proof.
  induction 1 as [|k b x Hb Hx IH]; [constructor|]. change (b :: x) with ([b] ++ x).
  apply (digs_S udec udigit k b [b] x); [apply (chunk_ascii udec utf8_decoder_ok); lia|now apply udigit_ascii|exact IH].
Qed.

Lemma lex_date_printed d : date_printable d -> RoundTripInv.date_ok udec udigit (format_date d).
Proof.
  intros Hy. unfold date_printable, year_of in Hy. pose proof (civil_valid d) as Hv.
  unfold format_date. destruct (civil d) as [[y m] dd]. cbn [fst] in Hy. cbn [valid_civil] in Hv.
  destruct Hv as (Hm & Hd). pose proof (dim_pos y m) as Hdim.
  destruct (four_digits_spec y Hy) as (y1 & y2 & y3 & y4 & Ey & Y1 & Y2 & Y3 & Y4 & _).
  destruct (two_digits_spec m ltac:(lia)) as (m1 & m2 & Em & M1 & M2 & _).
  destruct (two_digits_spec dd ltac:(lia)) as (d1 & d2 & Ed & D1 & D2 & _).
  rewrite is_digit_range in Y1, Y2, Y3, Y4, M1, M2, D1, D2. rewrite Ey, Em, Ed. clear - Y1 Y2 Y3 Y4 M1 M2 D1 D2.
  split; [|split].
  - exists [y1; y2; y3; y4], [m1; m2], [d1; d2].
    split; [reflexivity|]. repeat split; apply digs_of_list; repeat constructor; lia.
  - cbn [app]. rewrite (fr_ascii udec utf8_decoder_ok) by lia. lia.
  - cbn [app]. rewrite (fr_ascii udec utf8_decoder_ok) by lia. lia.
Qed.

Lemma lex_decimal_printed q : RoundTripLeaf.lex_decimal udec udigit (to_string q).
Proof.
  unfold to_string. destruct (to_string_gen_shape true q) as (ip & fp & v & H1 & H2 & H3 & H4 & _).
  exists (sgn q), ip, (match fp with [] => [] | _ => [46] ++ fp end). split; [exact H1|].
  split.
  { unfold sgn. destruct (coef q <? 0); [now left|right]. split; [reflexivity|].
    destruct ip as [|c ip']; [congruence|]. cbn [forallb] in H3. apply andb_prop in H3. destruct H3 as [Hc _].
    apply is_digit_range in Hc. rewrite (fr_ascii udec utf8_decoder_ok) by lia. lia. }
  split; [now apply cls_digits|]. split; [exact H2|].
  destruct fp as [|c fp']; [now left|right]. split; [exact udigit_46|].
  exists (c :: fp'). split; [reflexivity|]. split; [now apply cls_digits|discriminate].
Qed.

Lemma decimal_runs_printed q : uruns (to_string q).
Proof. eapply decimal_runs; [exact utf8_decoder_ok|apply lex_decimal_printed]. Qed.

Definition seg_lex (s : Str.str) : Prop := ucls ualnum s /\ s <> [].
Definition com_lex (c : Str.str) : Prop := ucls ualnum c /\ c <> [].
Definition acc_lex (a : Account.account) : Prop := a <> [] /\ Forall seg_lex a /\ valid_account a = true.

Lemma join_colon_concat seg segs : Str.join [58] (seg :: segs) = seg ++ concat (map (cons 58) segs).
Proof.
  revert seg. induction segs as [|s segs IH]; intros seg; [cbn; now rewrite app_nil_r|].
  change (Str.join [58] (seg :: s :: segs)) with (seg ++ [58] ++ Str.join [58] (s :: segs)).
  rewrite IH. cbn [map concat app]. reflexivity.
Qed.

Lemma lex_account_printed a : acc_lex a -> RoundTripInv.LexAcc udec uletter udigit (sem_acc_of a).
Proof.
  intros (Hne & Hseg & _). unfold RoundTripInv.LexAcc, sem_acc_of. cbn [fst snd RoundTripLeaf.lex_account].
  destruct a as [|seg segs]; [congruence|]. inversion Hseg as [|? ? Hs Hss]; subst.
  unfold acc_name, colon. rewrite join_colon_concat. split.
  - destruct Hs as (Hc & Hn). destruct Hc as [|c b x Hch Hp Hx]; [congruence|].
    rewrite <- !app_assoc, (fr_chunk udec c b _ Hch). intros ->. rewrite ualnum_36 in Hp. discriminate.
  - exists seg, segs. split; [reflexivity|]. split; [exact Hs|]. split; [exact Hss|]. intros _. exact ualnum_58.
Qed.

Lemma acc_printable_lex a : acc_lex a -> acc_printable a.
Proof.
  intros (Hne & Hseg & Hv). split; [exact Hne|]. split; [|exact Hv].
  eapply Forall_impl; [|exact Hseg]. intros s (Hs & _). exact (cls_no_ascii _ 58 s ltac:(lia) ualnum_58 Hs).
Qed.

Lemma acc_runs_lex a : acc_lex a -> uruns (acc_name a).
Proof. intros H. eapply account_runs; [exact utf8_decoder_ok|exact (lex_account_printed a H)]. Qed.

Definition posting_lex (p : posting) : Prop := acc_lex (p_acc p) /\ acc_lex (p_other p) /\ com_lex (p_com p).

Definition mdir_lex (d : Ledger.directive) : Prop :=
  match d with
  | DPrice dt c _ t => date_printable dt /\ com_lex c /\ com_lex t
  | DOpen dt a => date_printable dt /\ acc_lex a
  | DClose dt a => date_printable dt /\ acc_lex a
  | DAssert dt bs => date_printable dt /\ bs <> [] /\ Forall (fun b => acc_lex (bal_acc b) /\ com_lex (bal_com b)) bs
  | DTxn t =>
    date_printable (t_date t) /\ ucls RoundTripLeaf.notquote (t_desc t) /\ odd_postings (t_postings t) <> [] /\
    Forall posting_lex (odd_postings (t_postings t)) /\
    match t_targets t with Some ts => Forall com_lex ts | None => True end
  end.

Theorem lex_mdir d : mdir_lex d -> RoundTripInv.LexDir udec uletter udigit (sem_of_mdir d).
Proof.
  destruct d as [dt c p t|dt a|dt a|dt bs|t]; cbn [mdir_lex sem_of_mdir RoundTripInv.LexDir].
  - intros (Hd & Hc & Ht). split; [now apply lex_date_printed|]. split; [exact Hc|]. split; [apply lex_decimal_printed|exact Ht].
  - intros (Hd & Ha). split; [now apply lex_date_printed|now apply lex_account_printed].
  - intros (Hd & Ha). split; [now apply lex_date_printed|now apply lex_account_printed].
  - intros (Hd & Hne & Hb). split; [now apply lex_date_printed|]. split; [destruct bs; [congruence|discriminate]|].
    apply Forall_forall. intros x Hx. apply in_map_iff in Hx. destruct Hx as (b & <- & Hb').
    rewrite Forall_forall in Hb. destruct (Hb b Hb') as (Ha & Hc).
    unfold RoundTripInv.LexBal, sem_balance_of. cbn [fst snd].
    split; [now apply lex_account_printed|]. split; [apply lex_decimal_printed|exact Hc].
  - intros (Hd & Hq & Hne & Hp & Ht). split; [now apply lex_date_printed|]. split; [exact Hq|].
    split; [destruct (odd_postings (t_postings t)); [congruence|discriminate]|].
    split; [|split; [exact Ht|exact I]].
    apply Forall_forall. intros x Hx. apply in_map_iff in Hx. destruct Hx as (p & <- & Hp').
    rewrite Forall_forall in Hp. destruct (Hp p Hp') as (Ha & Ho & Hc).
    unfold RoundTripInv.LexBooking, sem_booking_of. cbn [sb_credit sb_debit sb_quantity sb_commodity].
    split; [now apply lex_account_printed|]. split; [now apply lex_account_printed|]. split; [apply lex_decimal_printed|exact Hc].
Qed.

Theorem rc_mdir d : mdir_lex d -> mdir_rc d.
Proof.
  destruct d as [dt c p t|dt a|dt a|dt bs|t]; cbn [mdir_lex mdir_rc]; try (intros; exact I).
  intros (_ & _ & _ & Hp & _). eapply Forall_impl; [|exact Hp]. intros p (Ha & Ho & _).
  split; [apply rc_ok_runs, acc_runs_lex, Ho|]. split; [apply rc_ok_runs, acc_runs_lex, Ha|apply rc_ok_runs, decimal_runs_printed].
Qed.

Theorem printable_mdir d : mdir_lex d -> mdir_printable d.
Proof.
  destruct d as [dt c p t|dt a|dt a|dt bs|t]; cbn [mdir_lex mdir_printable].
  - intros (Hd & _). exact Hd.
  - intros (Hd & Ha). split; [exact Hd|now apply acc_printable_lex].
  - intros (Hd & Ha). split; [exact Hd|now apply acc_printable_lex].
  - intros (Hd & _ & Hb). split; [exact Hd|]. eapply Forall_impl; [|exact Hb]. intros b (Ha & _). now apply acc_printable_lex.
  - intros (Hd & _ & _ & Hp & _). split; [exact Hd|]. eapply Forall_impl; [|exact Hp].
    intros p (Ha & Ho & _). split; now apply acc_printable_lex.
Qed.
