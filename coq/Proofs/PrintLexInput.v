(* C09: the hypothesis of the text-level statements, on the INPUT.
   [sdir_lex s]: what the parser guarantees of a syntax-level directive -- years 0..9999, account
   segments and commodities non-empty runs of letters and digits, descriptions valid UTF-8 without
   a double quote, at least one booking / balance, and for an @accrue annotation an account of that
   shape and a window between years 0..9999.  The model layer keeps it: every model directive of
   a journal of such directives satisfies PrintLex.mdir_lex ([parse_lex]; accrual expansions get
   the description suffix " (accrual i/n)" and the period ends as dates), and its accounts are
   what C04/C05 call syntactic ([parse_syntactic]).  Hence [input_lex ss -> PrintText.lex_ok ss]. *)
From Coq Require Import ZArith List Bool Lia.
From Knut Require Import Model.Bytes Model.Utf8 Model.UnicodeTables Model.Scanner Model.Parser.
From Knut Require Import Model.Str Model.Dec Model.Date Model.Account Model.Ledger Model.Journal Model.JPrinter.
From Knut Require Import Spec.WellformedSpec Spec.DateSpec Proofs.CalendarSweep Proofs.CalendarProofs Proofs.DateProofs.
From Knut Require Import Proofs.DecStringProofs Proofs.ScannerProofs Proofs.RoundTripBase Proofs.RoundTripLeaf
     Proofs.OrderCmd Proofs.PrintProofs Proofs.PrintRequant Proofs.PrintNormal Proofs.PrintSem Proofs.PrintWeave Proofs.PrintLex Proofs.PrintText.
Import ListNotations.
Open Scope bool_scope.
Open Scope Z_scope.

Definition acc_lex0 (a : Account.account) : Prop := a <> [] /\ Forall seg_lex a.

Definition accrual_lex (ac : Ledger.accrual) : Prop :=
  acc_lex0 (ac_account ac) /\ date_printable (ac_start ac) /\ date_printable (ac_end ac).

(* the period ends of a window lie in the window, hence in years 0..9999 if its ends do *)
Lemma year_mono d1 d2 : d1 <= d2 -> year_of d1 <= year_of d2.
Proof.
  intros H. destruct (civil_le_mono d1 d2 H) as [E|L].
  - unfold year_of. rewrite E. lia.
  - rewrite (year_month_day d1), (year_month_day d2) in L. unfold lex_lt in L. lia.
Qed.

Lemma tiles_end_lower s e ps : tiles s e ps -> Forall (fun p => s <= p_end p) ps.
Proof.
  revert s. induction ps as [|p ps IH]; intros s H; [constructor|].
  cbn [tiles] in H. destruct H as (Hs & Hpe & Hrest). constructor; [lia|].
  destruct ps as [|q ps]; [constructor|]. specialize (IH _ Hrest).
  eapply Forall_impl; [|exact IH]. cbv beta. intros x Hx. lia.
Qed.

Lemma accrual_dates s e iv part :
  date_printable s -> date_printable e -> new_partition (mkPeriod s e) iv 0 = POk part ->
  Forall date_printable (end_dates part).
Proof.
  intros Hs He H. destruct (Z.eq_dec s 0) as [->|Hnz].
  { unfold new_partition in H. cbn [p_start] in H. discriminate. }
  assert (Hcase : iv = Once \/ iv <> Once) by (destruct iv; (now left) || (right; discriminate)).
  destruct Hcase as [->|Hiv].
  - rewrite (partition_once s e 0 Hnz) in H. inversion H. subst part. unfold end_dates. cbn [periods map p_end].
    constructor; [exact He|constructor].
  - destruct (partition_unlimited s e iv Hiv Hnz) as (ps & Hp & Hinv & Htiles & _).
    rewrite Hp in H. inversion H. subst part. unfold end_dates. cbn [periods].
    destruct (Z_lt_ge_dec e s) as [L|G]; [rewrite (Hinv L); constructor|].
    specialize (Htiles ltac:(lia)). destruct (tiles_end_ge s e ps Htiles) as (Hup & _).
    pose proof (tiles_end_lower s e ps Htiles) as Hlo.
    apply Forall_forall. intros d Hd. apply in_map_iff in Hd. destruct Hd as (p & <- & Hin).
    rewrite Forall_forall in Hup, Hlo. specialize (Hup p Hin). specialize (Hlo p Hin). cbv beta in *.
    unfold date_printable in *. pose proof (year_mono s (p_end p) Hlo). pose proof (year_mono (p_end p) e Hup). lia.
Qed.

Definition booking_lex (b : Ledger.booking) : Prop := acc_lex0 (b_credit b) /\ acc_lex0 (b_debit b) /\ com_lex (b_com b).

Definition sdir_lex (s : sdirective) : Prop :=
  match s with
  | SPrice d c _ t => date_printable d /\ com_lex c /\ com_lex t
  | SOpen d a => date_printable d /\ acc_lex0 a
  | SClose d a => date_printable d /\ acc_lex0 a
  | SAssert d bs => date_printable d /\ bs <> [] /\ Forall (fun b => acc_lex0 (bal_acc b) /\ com_lex (bal_com b)) bs
  | STxn st =>
    date_printable (st_date st) /\ ucls RoundTripLeaf.notquote (st_desc st) /\ st_bookings st <> [] /\
    Forall booking_lex (st_bookings st) /\
    match st_targets st with Some ts => Forall com_lex ts | None => True end /\
    match st_accrual st with Some ac => accrual_lex ac | None => True end
  | SInclude => True
  end.

Definition input_lex (ss : list sdirective) : Prop := Forall sdir_lex ss.

Lemma acc_lex_of a : acc_lex0 a -> valid_account a = true -> acc_lex a.
Proof. intros (H1 & H2) H3. repeat split; assumption. Qed.

Lemma check_account_valid a : check_account a = MOk tt -> valid_account a = true.
Proof. unfold check_account. destruct (valid_account a); [reflexivity|discriminate]. Qed.

Lemma check_balances_valid bs : check_balances bs = MOk tt -> Forall (fun b => valid_account (bal_acc b) = true) bs.
Proof.
  induction bs as [|b bs IH]; [constructor|]. cbn [check_balances].
  destruct (check_account (bal_acc b)) as [[]| |] eqn:E; cbn [mbind]; try discriminate.
  intros H. constructor; [now apply check_account_valid|now apply IH].
Qed.

Lemma pair_build_lex cr db com q v : acc_lex cr -> acc_lex db -> com_lex com -> Forall posting_lex (pair_build cr db com q v).
Proof.
  intros Hc Hd Hm. unfold pair_build.
  destruct (is_neg q || is_zero q && is_neg v); (constructor; [|constructor; [|constructor]]); (split; [|split]); assumption.
Qed.

Lemma odd_postings_pair_build cr db com q v rest :
  exists p, odd_postings (pair_build cr db com q v ++ rest) = p :: odd_postings rest.
Proof. unfold pair_build. destruct (is_neg q || is_zero q && is_neg v); eexists; reflexivity. Qed.

Lemma odd_postings_Forall (P : posting -> Prop) ps : Forall P ps -> Forall P (odd_postings ps).
Proof.
  induction ps as [|a|a b l IH] using list_pair_ind; intros H; try constructor.
  - inversion H as [|? ? _ H']; subst. now inversion H'.
  - apply IH. inversion H as [|? ? _ H']; subst. now inversion H'.
Qed.

Lemma postings_create_lex bs ps : postings_create bs = MOk ps -> Forall booking_lex bs ->
  Forall posting_lex ps /\ (bs <> [] -> odd_postings ps <> []).
Proof.
  revert ps. induction bs as [|b bs IH]; intros ps H HL; cbn [postings_create] in H.
  - injection H as <-. split; [constructor|congruence].
  - inversion HL as [|? ? (Hc & Hd & Hm) HL']; subst.
    destruct (check_account (b_credit b)) as [[]| |] eqn:Ec; cbn [mbind] in H; try discriminate.
    destruct (check_account (b_debit b)) as [[]| |] eqn:Ed; cbn [mbind] in H; try discriminate.
    destruct (postings_create bs) as [ps'| |] eqn:E; cbn [mbind] in H; try discriminate.
    injection H as <-. split.
    + apply Forall_app. split; [|exact (proj1 (IH ps' eq_refl HL'))].
      apply pair_build_lex; [apply acc_lex_of, check_account_valid|apply acc_lex_of, check_account_valid|]; assumption.
    + intros _. destruct (odd_postings_pair_build (b_credit b) (b_debit b) (b_com b) (b_qty b) Ledger.dec_nil ps') as (p & ->).
      discriminate.
Qed.

Lemma cls_notquote_ascii x : Forall (fun b => 0 <= b < 128 /\ b <> 34) x -> ucls RoundTripLeaf.notquote x.
Proof.
  intros H. apply (cls_ascii udec utf8_decoder_ok). eapply Forall_impl; [|exact H].
  intros b (Hb & Hq). split; [exact Hb|]. unfold RoundTripLeaf.notquote. apply negb_true_iff. lia.
Qed.

Lemma digits_plain n : 0 <= n -> Forall (fun b => 0 <= b < 128 /\ b <> 34) (digits n).
Proof.
  intros Hn. pose proof (digits_all_digits n Hn) as H. rewrite forallb_forall in H. apply Forall_forall.
  intros b Hb. specialize (H b Hb). apply is_digit_range in H. lia.
Qed.

Lemma accrual_suffix_lex i n : 0 <= i -> 0 <= n -> ucls RoundTripLeaf.notquote (accrual_suffix i n).
Proof.
  intros Hi Hn. apply cls_notquote_ascii. unfold accrual_suffix.
  repeat (apply Forall_app; split); try (apply digits_plain; assumption); repeat constructor; lia.
Qed.

Lemma pair_single_lex acc a com q :
  acc_lex acc -> acc_lex a -> com_lex com ->
  Forall posting_lex (odd_postings (pair_build acc a com q Ledger.dec_nil)) /\ odd_postings (pair_build acc a com q Ledger.dec_nil) <> [].
Proof.
  intros La Lb Lc. split; [now apply odd_postings_Forall, pair_build_lex|].
  destruct (odd_postings_pair_build acc a com q Ledger.dec_nil []) as (p & E). rewrite app_nil_r in E. rewrite E. discriminate.
Qed.

Lemma expansion_lex t ac ps x :
  date_printable (t_date t) -> ucls RoundTripLeaf.notquote (t_desc t) ->
  match t_targets t with Some ts => Forall com_lex ts | None => True end ->
  accrual_lex ac -> valid_account (ac_account ac) = true -> Forall posting_lex ps ->
  expansion_of t ac ps x -> mdir_lex (DTxn x).
Proof.
  intros Hd Hq Ht (La0 & Hs0 & He0) Hv Hps (p & d & desc & q & Hp & -> & Hshape).
  destruct (proj1 (Forall_forall _ _) Hps p Hp) as (Lp & _ & Lc).
  destruct (pair_single_lex (ac_account ac) (p_acc p) (p_com p) q (acc_lex_of _ La0 Hv) Lp Lc) as (H1 & H2).
  assert (Hdd : date_printable d /\ ucls RoundTripLeaf.notquote desc).
  { destruct Hshape as [(-> & ->)|(part & i & n & Ep & Hin & Hi & Hn & ->)]; [now split|]. split.
    - exact (proj1 (Forall_forall _ _) (accrual_dates _ _ _ part Hs0 He0 Ep) d Hin).
    - apply (cls_app udec); [exact Hq|now apply accrual_suffix_lex]. }
  cbn [mdir_lex t_date t_desc t_postings t_targets]. tauto.
Qed.

Lemma txn_create_lex st ts : sdir_lex (STxn st) -> txn_create st = MOk ts -> Forall (fun t => mdir_lex (DTxn t)) ts.
Proof.
  cbn [sdir_lex]. intros (Hd & Hq & Hne & Hb & Ht & Ha). unfold txn_create, txn_create_gen.
  destruct (postings_create (st_bookings st)) as [ps| |] eqn:E; cbn [mbind]; try discriminate.
  destruct (postings_create_lex _ _ E Hb) as (I1 & I2).
  destruct (st_accrual st) as [ac|].
  - unfold expand_gen. destruct (check_account (ac_account ac)) as [[]| |] eqn:Ec; cbn [mbind]; try discriminate.
    intros H. eapply Forall_impl; [|exact (expand_postings_shape _ _ _ _ _ H)].
    intros x. apply expansion_lex; try assumption. now apply check_account_valid.
  - intros H. inversion H. constructor; [|constructor]. cbn [mdir_lex t_date t_desc t_postings t_targets].
    split; [exact Hd|]. split; [exact Hq|]. split; [now apply I2|]. split; [now apply odd_postings_Forall|exact Ht].
Qed.

Lemma parse_directive_lex s ds : sdir_lex s -> parse_directive s = MOk ds -> Forall mdir_lex ds.
Proof.
  intros HL H. apply Forall_forall. intros d Hin. pose proof (parse_directive_inv s ds d H Hin) as I.
  destruct d as [dt c p t|dt a|dt a|dt bs|t]; cbn [mdir_lex].
  - subst s. exact HL.
  - destruct I as (-> & E), HL as (Hd & Ha). split; [exact Hd|]. apply acc_lex_of; [exact Ha|now apply check_account_valid].
  - destruct I as (-> & E), HL as (Hd & Ha). split; [exact Hd|]. apply acc_lex_of; [exact Ha|now apply check_account_valid].
  - destruct I as (-> & E), HL as (Hd & Hne & Hb). split; [exact Hd|]. split; [exact Hne|].
    pose proof (check_balances_valid bs E) as Hv. rewrite Forall_forall in *. intros b Hb'.
    destruct (Hb b Hb') as (Ha & Hc). split; [|exact Hc]. apply acc_lex_of; [exact Ha|now apply Hv].
  - destruct I as (st & ts & -> & E & Ht). exact (proj1 (Forall_forall _ _) (txn_create_lex st ts HL E) t Ht).
Qed.

Theorem parse_lex ss ds : input_lex ss -> parse_directives ss = MOk ds -> Forall mdir_lex ds.
Proof.
  unfold input_lex. revert ds. induction ss as [|s ss IH]; intros ds HL H; cbn [parse_directives] in H.
  - inversion H. constructor.
  - inversion HL as [|? ? Hs HL']; subst.
    destruct (parse_directive s) as [l1| |] eqn:E1; cbn [mbind] in H; try discriminate.
    destruct (parse_directives ss) as [l2| |] eqn:E2; cbn [mbind] in H; try discriminate.
    inversion H. apply Forall_app. split; [now apply (parse_directive_lex s)|now apply IH].
Qed.

Lemma account_ok_lex a : acc_lex a -> account_ok a = true.
Proof.
  intros (_ & Hseg & Hv). unfold account_ok. rewrite Hv. cbn [andb]. apply forallb_forall. intros s Hs.
  rewrite Forall_forall in Hseg. destruct (Hseg s Hs) as (Hc & _).
  unfold WellformedSpec.seg_ok. apply forallb_forall. intros c Hin.
  pose proof (cls_no_ascii _ 58 s ltac:(lia) ualnum_58 Hc) as H58. pose proof (cls_no_ascii _ 0 s ltac:(lia) ualnum_0 Hc) as H0.
  apply andb_true_iff. split; apply negb_true_iff; apply Z.eqb_neq; intros ->; unfold colon in *; tauto.
Qed.

Lemma canonical_all_lex ps : canonical ps -> Forall posting_lex (odd_postings ps) -> Forall (fun p => acc_lex (p_acc p)) ps.
Proof.
  induction 1 as [|p1 p2 rest (H1 & _) Hr IH]; intros H; [constructor|].
  cbn [odd_postings] in H. inversion H as [|? ? (La & Lo & _) H']; subst.
  constructor; [cbn [p_acc]; exact Lo|]. constructor; [exact La|now apply IH].
Qed.

Theorem parse_syntactic ss : input_lex ss -> sd_syntactic ss.
Proof.
  intros HL ds Hp. pose proof (parse_lex ss ds HL Hp) as HF. pose proof (parsed_dir_ok ss ds Hp) as Hok.
  intros d e Hd He. rewrite Forall_forall in HF, Hok. specialize (HF d Hd). specialize (Hok d Hd).
  apply account_ok_lex.
  destruct d as [dt c p t|dt a|dt a|dt bs|t]; cbn [events_of] in He.
  - destruct He.
  - destruct He as [<-|[]]. exact (proj2 HF).
  - destruct He as [<-|[]]. exact (proj2 HF).
  - apply in_map_iff in He. destruct He as (b & <- & Hb). destruct HF as (_ & _ & HF). rewrite Forall_forall in HF.
    exact (proj1 (HF b Hb)).
  - apply in_map_iff in He. destruct He as (p & <- & Hp'). destruct HF as (_ & _ & _ & HF & _).
    pose proof (canonical_all_lex _ (dir_ok_txn_canonical t Hok) HF) as Hall. rewrite Forall_forall in Hall. exact (Hall p Hp').
Qed.

Theorem input_lex_ok ss : input_lex ss -> lex_ok ss.
Proof. intros H. split; [now apply parse_syntactic|intros ds Hp; now apply (parse_lex ss)]. Qed.

Lemma chunk_2 b0 b1 c : Utf8M.decode [b0; b1] = (c, 2) -> (forall x, Utf8M.decode (b0 :: b1 :: x) = Utf8M.decode [b0; b1]) -> uchunk c [b0; b1].
Proof.
  intros H Hx. split; [discriminate|]. split; [intros x; cbn [app]; now rewrite Hx, H|].
  intros (_ & E). vm_compute in E. discriminate.
Qed.

(* an ASCII string is in a class if evaluation says so *)
Lemma cls_ascii_b p x : forallb (fun b => (0 <=? b) && (b <? 128) && p b) x = true -> ucls p x.
Proof.
  intros H. apply (cls_ascii udec utf8_decoder_ok), Forall_forall. intros b Hb.
  apply (proj1 (forallb_forall _ _) H) in Hb. apply andb_true_iff in Hb. destruct Hb as [Hb Hp]. split; [lia|exact Hp].
Qed.

Ltac ascii_cls := apply cls_ascii_b; vm_compute; reflexivity.

Lemma x_seg_bank : seg_lex [66;195;164;110;107].
Proof.
  split; [|discriminate].
  change [66;195;164;110;107] with ([66] ++ [195;164] ++ [110;107]).
  apply (cls_app udec); [ascii_cls|]. apply (cls_cons udec _ 228 [195;164] [110;107]).
  - apply chunk_2; [vm_compute; reflexivity|intros x; reflexivity].
  - vm_compute. reflexivity.
  - ascii_cls.
Qed.

Ltac seg_tac := first [exact x_seg_bank | (split; [ascii_cls|discriminate])].
Ltac forall_tac tac := repeat (apply Forall_cons; [tac|]); apply Forall_nil.
Ltac acc0_tac := split; [discriminate|forall_tac seg_tac].
Ltac date_tac := unfold date_printable; vm_compute; split; discriminate.
Ltac booking_tac := split; [acc0_tac|split; [acc0_tac|seg_tac]].
Ltac bal_tac := split; [acc0_tac|seg_tac].

Example x_journal_input_lex : input_lex x_journal.
Proof.
  unfold input_lex, x_journal.
  repeat (apply Forall_cons); try apply Forall_nil; cbn [sdir_lex st_date st_desc st_bookings st_targets st_accrual].
  - split; [date_tac|]. split; seg_tac.
  - split; [date_tac|acc0_tac].
  - split; [date_tac|acc0_tac].
  - split; [date_tac|acc0_tac].
  - split; [date_tac|acc0_tac].
  - split; [date_tac|]. split; [ascii_cls|]. split; [discriminate|].
    split; [forall_tac booking_tac|]. split; [forall_tac seg_tac|].
    split; [acc0_tac|]. split; date_tac.
  - split; [date_tac|]. split; [ascii_cls|]. split; [discriminate|].
    split; [forall_tac booking_tac|]. split; [apply Forall_nil|exact I].
  - split; [date_tac|]. split; [discriminate|]. forall_tac bal_tac.
  - split; [date_tac|]. split; [discriminate|]. forall_tac bal_tac.
  - split; [date_tac|]. split; [discriminate|]. forall_tac bal_tac.
  - split; [date_tac|acc0_tac].
Qed.
