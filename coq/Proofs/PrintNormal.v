(* C09, model level: the printed sequence of a journal is a NORMAL FORM for knut print.
   [print_printed_dirs]: printing the printed sequence writes the same bytes (the builder gives
   the printed days back, PrintRegroup.builder_of_printed; the sort is idempotent,
   TxnOrder.sort_days_idem; the checker accepts it, PrintRegroup.accepted_printed_dirs). *)
From Coq Require Import ZArith List Bool Lia Permutation.
From Knut Require Import Proofs.ListFacts Model.Str Model.Dec Model.Date Model.Account Model.Ledger Model.Journal
     Model.Check Model.Pipeline Model.Table Model.Report Model.JPrinter Model.Cli Model.ToModel.
From Knut Require Import Spec.WellformedSpec Spec.PrintSpec.
From Knut Require Import Proofs.DecEqProofs Proofs.DecNormalForm Proofs.BuilderProofs Proofs.StrProofs Proofs.OrderProofs Proofs.OrderCmd Proofs.PrintProofs
     Proofs.PrintRegroup Proofs.TxnOrder Proofs.PrintRequant Proofs.CheckQuant Proofs.QuantSim.
Import ListNotations.
Open Scope bool_scope.
Open Scope Z_scope.

Lemma printed_dir_ok ss ds : parse_directives ss = MOk ds -> Forall dir_ok (printed_model_dirs (b_days (builder_of ds))).
Proof.
  intros Hp. eapply Permutation_Forall; [apply Permutation_sym, printed_model_dirs_perm|exact (parsed_dir_ok ss ds Hp)].
Qed.

Lemma load_printed_dirs ss ds :
  parse_directives ss = MOk ds ->
  load (printed_dirs (b_days (builder_of ds))) =
  COk (mkBuilder (sort_days (b_days (builder_of ds))) (b_min (builder_of ds)) (b_max (builder_of ds))).
Proof.
  intros Hp. unfold load, printed_dirs. rewrite (parse_directives_denoted _ (printed_dir_ok ss ds Hp)).
  cbn [of_mresult cbind]. now rewrite builder_of_printed.
Qed.

Lemma print_journal_sorted days : print_journal (sort_days days) = print_journal days.
Proof. unfold print_journal. cbv zeta. now rewrite sort_days_idem. Qed.

(* C09_idem at the model level: the printed sequence prints the same bytes *)
Theorem print_printed_dirs l ss b text :
  sd_syntactic ss -> load ss = COk b -> printed (print_cmd l) ss text ->
  printed (print_cmd l) (printed_dirs (b_days b)) text.
Proof.
  intros Hs Hl Hpr. destruct (proj1 (printed_load l ss b text Hl) Hpr) as (Ha & ->).
  apply (accepted_printed_dirs l ss b Hs Hl) in Ha.
  destruct (load_days ss b Hl) as (ds & Hp & ->).
  apply (printed_load _ _ _ _ (load_printed_dirs ss ds Hp)). split; [exact Ha|].
  symmetry. apply print_journal_sorted.
Qed.

(* the printed sequence with every quantity as it is after a trip through its text: what the
   printed text denotes (Properties/C09.v, (a)) *)
Definition reparsed_dirs (days : list day) : list sdirective := map rq_sdir (printed_dirs days).

Lemma builder_days_canonical ds : Forall dir_ok ds -> Forall day_canonical (b_days (builder_of ds)).
Proof.
  intros H. apply Forall_forall. intros x Hx. apply Forall_forall. intros t Ht.
  apply dir_ok_txn_canonical. apply (proj1 (Forall_forall _ _) H). apply (builder_txn_in ds x t Hx Ht).
Qed.

Lemma sort_days_canonical D : Forall day_canonical D -> Forall day_canonical (sort_days D).
Proof.
  unfold sort_days. intros H. apply Forall_forall. intros x Hx. apply in_map_iff in Hx. destruct Hx as (y & <- & Hy).
  rewrite Forall_forall in H. specialize (H y Hy). unfold day_canonical in *. cbn [set_txns d_txns].
  eapply Permutation.Permutation_Forall; [apply Permutation.Permutation_sym, sort_by_perm|exact H].
Qed.

Lemma printed_days_canonical ss ds : parse_directives ss = MOk ds ->
  Forall day_canonical (sort_days (b_days (builder_of ds))).
Proof. intros Hp. apply sort_days_canonical, builder_days_canonical, (parsed_dir_ok ss ds Hp). Qed.

Lemma load_reparsed_dirs ss ds :
  parse_directives ss = MOk ds ->
  load (reparsed_dirs (b_days (builder_of ds))) =
  COk (mkBuilder (map rq_day (sort_days (b_days (builder_of ds)))) (b_min (builder_of ds)) (b_max (builder_of ds))).
Proof.
  intros Hp. unfold load, reparsed_dirs, printed_dirs. rewrite (parse_rq _ (printed_dir_ok ss ds Hp)).
  cbn [of_mresult cbind]. rewrite builder_of_rq, builder_of_printed. reflexivity.
Qed.

Lemma postings_v_rq ps : canonical ps -> Forall2 posting_v ps (rq_postings ps).
Proof.
  induction 1 as [|p1 p2 rest (H1 & _) Hr IH]; [constructor|]. cbn [rq_postings].
  constructor; [|constructor; [|exact IH]]; unfold posting_v, set_qty; cbn [p_acc p_other p_com p_qty p_val].
  - repeat split; try apply deqv_refl. subst p1. cbn [p_qty]. apply deqv_neg, deqv_sym, deqv_reread.
  - repeat split; try apply deqv_refl. apply deqv_sym, deqv_reread.
Qed.

Lemma day_v_rq x : day_canonical x -> day_v x (rq_day x).
Proof.
  intros H. unfold day_v, rq_day. cbn [d_date d_prices d_opens d_txns d_asserts d_closes d_normalized].
  split; [reflexivity|]. split; [|split; [reflexivity|split; [|split; [|split; [reflexivity|apply np_v_refl]]]]].
  - apply Forall2_map_r, Forall_forall. intros [[c p] t] _. repeat split. apply deqv_sym, deqv_reread.
  - apply Forall2_map_r. eapply Forall_impl; [|exact H]. intros t Ht. repeat split. now apply postings_v_rq.
  - apply Forall2_map_r, Forall_forall. intros a _. apply Forall2_map_r, Forall_forall. intros b _.
    repeat split. apply deqv_sym, deqv_reread.
Qed.

Lemma printed_days_v_rq ss ds : parse_directives ss = MOk ds ->
  Forall2 day_v (sort_days (b_days (builder_of ds))) (map rq_day (sort_days (b_days (builder_of ds)))).
Proof.
  intros Hp. apply Forall2_map_r. eapply Forall_impl; [apply day_v_rq|exact (printed_days_canonical ss ds Hp)].
Qed.

Theorem accepted_reparsed_dirs l ss b :
  load ss = COk b -> (accepted l (printed_dirs (b_days b)) <-> accepted l (reparsed_dirs (b_days b))).
Proof.
  intros Hl. destruct (load_days ss b Hl) as (ds & Hp & ->).
  rewrite (accepted_load l _ _ (load_printed_dirs ss ds Hp)), (accepted_load l _ _ (load_reparsed_dirs ss ds Hp)).
  cbn [b_days]. unfold run_stage. pose proof (check_stage_v l _ _ (printed_days_v_rq ss ds Hp)) as Hq.
  destruct (process_days _ _ (sort_days _)), (process_days _ _ (map rq_day _)); cbn [req of_presult] in *;
    try contradiction; split; intros [x Hx]; try discriminate; eauto.
Qed.

(* C09_accepted, C09_idem at the model level, for what the printed text denotes *)
Theorem accepted_reparsed l ss b :
  sd_syntactic ss -> load ss = COk b -> accepted l ss -> accepted l (reparsed_dirs (b_days b)).
Proof.
  intros Hs Hl Ha. apply (accepted_reparsed_dirs l ss b Hl). now apply (accepted_printed_dirs l ss b Hs Hl).
Qed.

Theorem print_reparsed_dirs l ss b text :
  sd_syntactic ss -> load ss = COk b -> printed (print_cmd l) ss text ->
  printed (print_cmd l) (reparsed_dirs (b_days b)) text.
Proof.
  intros Hs Hl Hpr. destruct (proj1 (printed_load l ss b text Hl) Hpr) as (Ha & ->).
  apply (accepted_reparsed l ss b Hs Hl) in Ha.
  destruct (load_days ss b Hl) as (ds & Hp & ->).
  apply (printed_load _ _ _ _ (load_reparsed_dirs ss ds Hp)). split; [exact Ha|]. cbn [b_days].
  rewrite (print_journal_rq _ (printed_days_canonical ss ds Hp)).
  symmetry. apply print_journal_sorted.
Qed.
