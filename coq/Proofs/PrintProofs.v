(* C09: printing and re-reading (Model/JPrinter.v, Model/ToModel.v).  Dates, accounts and decimals read back
   as printed; which directives the parser can deliver ([canonical], [dir_ok]) and that creating a
   transaction from what the printer writes for it reproduces it; [denote], the directives a syntax-level
   journal stands for; both print commands check first and then print the loaded days; the witness
   journals [w_*], [x_*] of Properties/C09.v. *)
From Coq Require Import ZArith List Bool Lia.
From Knut Require Import Model.Bytes Model.Scanner Model.Parser.
From Knut Require Import Model.Str Model.Dec Model.Date Model.Account Model.Ledger Model.Journal
     Model.Check Model.Pipeline Model.Table Model.Report Model.JPrinter Model.Cli Model.ToModel.
From Knut Require Import Spec.PrintSpec.
From Knut Require Import Spec.TableSpec Proofs.CalendarSweep Proofs.CalendarProofs Proofs.DecStringProofs.
Import ListNotations.
Open Scope bool_scope.
Open Scope Z_scope.

(* the digits time.Format writes for a month or day, and for a year *)
Lemma two_digits_spec n : 0 <= n <= 99 ->
  exists a b, two_digits n = [a; b] /\ Dec.is_digit a = true /\ Dec.is_digit b = true /\ 10 * (a - 48) + (b - 48) = n.
Proof.
  intros H. eexists _, _. split; [reflexivity|]. rewrite !is_digit_range. Z.div_mod_to_equations. lia.
Qed.

Lemma four_digits_spec n : 0 <= n <= 9999 ->
  exists a b c d, four_digits n = [a; b; c; d] /\
    Dec.is_digit a = true /\ Dec.is_digit b = true /\ Dec.is_digit c = true /\ Dec.is_digit d = true /\
    1000 * (a - 48) + 100 * (b - 48) + 10 * (c - 48) + (d - 48) = n.
Proof.
  intros H. eexists _, _, _, _. split; [reflexivity|]. rewrite !is_digit_range. Z.div_mod_to_equations. lia.
Qed.

Lemma parse_format_date d : 0 <= year_of d <= 9999 -> parse_date_str (format_date d) = Some d.
Proof.
  intros Hy. unfold year_of in Hy. pose proof (civil_valid d) as Hv. pose proof (of_civil_civil d) as Ho.
  unfold format_date. destruct (civil d) as [[y m] dd]. cbn [fst] in Hy. cbn [valid_civil] in Hv.
  destruct Hv as (Hm & Hd). pose proof (dim_pos y m) as Hdim.
  destruct (four_digits_spec y Hy) as (y1 & y2 & y3 & y4 & -> & Y1 & Y2 & Y3 & Y4 & Ey).
  destruct (two_digits_spec m ltac:(lia)) as (m1 & m2 & -> & M1 & M2 & Em).
  destruct (two_digits_spec dd ltac:(lia)) as (d1 & d2 & -> & D1 & D2 & Ed).
  cbn [app]. unfold parse_date_str. rewrite Y1, Y2, Y3, Y4, M1, M2, D1, D2, Ey, Em, Ed. cbn [Z.eqb Pos.eqb andb].
  unfold parse_ymd.
  replace (1 <=? m) with true by lia. replace (m <=? 12) with true by lia.
  replace (1 <=? dd) with true by lia. replace (dd <=? days_in_month y m) with true by lia.
  cbn [andb]. now rewrite Ho.
Qed.

Definition seg_ok (s : Str.str) : Prop := ~ In colon s.

Lemma split_colon_aux_run s r cur : seg_ok s ->
  split_colon_aux (s ++ r) cur = split_colon_aux r (rev s ++ cur).
Proof.
  revert cur. induction s as [|c s IH]; intros cur Hs; [reflexivity|].
  cbn [app split_colon_aux].
  destruct (Z.eqb_spec c colon) as [E|E]; [exfalso; apply Hs; left; now symmetry|].
  rewrite IH by (intros Hin; apply Hs; now right).
  cbn [rev]. now rewrite <- app_assoc.
Qed.

Lemma acc_name_roundtrip (a : account) : a <> [] -> Forall seg_ok a -> acc_of_name (acc_name a) = a.
Proof.
  unfold acc_of_name, acc_name, split_colon.
  induction a as [|x rest IH]; intros Hne Hok; [congruence|].
  inversion Hok as [|? ? Hx Hrest]; subst.
  destruct rest as [|y rest'].
  - cbn [join]. rewrite <- (app_nil_r x) at 1. rewrite split_colon_aux_run by assumption.
    cbn [split_colon_aux]. now rewrite app_nil_r, rev_involutive.
  - change (join [colon] (x :: y :: rest')) with (x ++ [colon] ++ join [colon] (y :: rest')).
    rewrite split_colon_aux_run by assumption. cbn [app split_colon_aux].
    rewrite Z.eqb_refl, app_nil_r, rev_involutive. f_equal.
    apply IH; [discriminate|assumption].
Qed.

(* what pair_build returns on valid accounts: the debit half carries the non-negative quantity,
   the credit half is its mirror image; values are the nil decimal before Valuate *)
Definition canonical_pair (p1 p2 : posting) : Prop :=
  p1 = mkPosting (p_other p2) (p_acc p2) (p_com p2) (neg (p_qty p2)) dec_nil /\
  is_neg (p_qty p2) = false /\ p_val p2 = dec_nil /\
  valid_account (p_acc p2) = true /\ valid_account (p_other p2) = true.

Inductive canonical : list posting -> Prop :=
| canonical_nil : canonical []
| canonical_cons p1 p2 rest : canonical_pair p1 p2 -> canonical rest -> canonical (p1 :: p2 :: rest).

Lemma canonical_app l1 l2 : canonical l1 -> canonical l2 -> canonical (l1 ++ l2).
Proof. induction 1; intros H2; cbn; [assumption|constructor; auto]. Qed.

Lemma pair_build_canonical cr db com q :
  valid_account cr = true -> valid_account db = true -> canonical (pair_build cr db com q dec_nil).
Proof.
  intros Hc Hd. unfold pair_build. change (is_neg dec_nil) with false. rewrite andb_false_r, orb_false_r.
  destruct (is_neg q) eqn:E; constructor; try constructor;
    unfold canonical_pair; cbn [p_other p_acc p_com p_qty p_val]; repeat split; try reflexivity; try assumption.
  unfold is_neg, neg in *. cbn [coef]. apply Z.ltb_lt in E. apply Z.ltb_ge. lia.
Qed.

(* printing the debit half and reading it as a booking reproduces both halves *)
Lemma pair_build_idem p1 p2 : canonical_pair p1 p2 ->
  pair_build (p_other p2) (p_acc p2) (p_com p2) (p_qty p2) dec_nil = [p1; p2].
Proof.
  intros (H1 & H2 & H3 & _). unfold pair_build. rewrite H2. change (is_neg dec_nil) with false.
  rewrite andb_false_r. cbn [orb]. subst p1. destruct p2 as [a o c q v]. cbn in *. subst v.
  reflexivity.
Qed.

(* the booking line printPosting writes for a (debit) posting: "Other Account Quantity Commodity" *)
Definition booking_of (p : posting) : booking := mkBooking (p_other p) (p_acc p) (p_qty p) (p_com p).

(* the transaction that the printed form of [t] denotes: its date and description, one booking per
   printed posting, the performance targets, no accrual *)
Definition stxn_of_txn (t : txn) : stxn :=
  mkStxn (t_date t) (t_desc t) (map booking_of (odd_postings (t_postings t))) (t_targets t) None.

Lemma check_account_ok a : valid_account a = true -> check_account a = MOk tt.
Proof. intros H. unfold check_account. now rewrite H. Qed.

Lemma postings_create_printed ps : canonical ps ->
  postings_create (map booking_of (odd_postings ps)) = MOk ps.
Proof.
  induction 1 as [|p1 p2 rest Hp Hr IH]; [reflexivity|].
  cbn [odd_postings map postings_create booking_of b_credit b_debit b_com b_qty].
  destruct Hp as (H1 & H2 & H3 & H4 & H5).
  rewrite (check_account_ok _ H5), (check_account_ok _ H4). cbn [mbind]. rewrite IH. cbn [mbind].
  rewrite (pair_build_idem p1 p2) by (repeat split; assumption). reflexivity.
Qed.

Lemma txn_create_printed t : canonical (t_postings t) -> txn_create (stxn_of_txn t) = MOk [t].
Proof.
  intros H. unfold txn_create, txn_create_gen, stxn_of_txn. cbn [st_bookings st_date st_desc st_targets st_accrual].
  rewrite postings_create_printed by assumption. cbn [mbind]. destruct t; reflexivity.
Qed.

Lemma postings_create_canonical bs ps : postings_create bs = MOk ps -> canonical ps.
Proof.
  revert ps. induction bs as [|b bs IH]; intros ps H; cbn in H.
  - inversion H. constructor.
  - unfold check_account in H.
    destruct (valid_account (b_credit b)) eqn:Ec; try discriminate. cbn in H.
    destruct (valid_account (b_debit b)) eqn:Ed; try discriminate. cbn in H.
    destruct (postings_create bs) as [ps'| |]; try discriminate. cbn in H. inversion H.
    apply canonical_app; [apply pair_build_canonical; assumption|apply IH; reflexivity].
Qed.

Definition txn_canonical (t : txn) : Prop := canonical (t_postings t).

Lemma canonical_accounts ps p : canonical ps -> In p ps -> valid_account (p_acc p) = true.
Proof.
  induction 1 as [|p1 p2 rest Hp Hr IH]; intros Hin; [contradiction|].
  destruct Hp as (H1 & H2 & H3 & H4 & H5).
  destruct Hin as [<-|[<-|Hin]]; [subst p1; exact H5|exact H4|auto].
Qed.

(* The transactions of an accrual expansion: each books one posting of the original against the
   accrual account, on the original date under the original description, or on a period end of
   the accrual window under the description with the suffix " (accrual i/n)". *)
Definition expansion_of (t : txn) (ac : accrual) (ps : list posting) (x : txn) : Prop :=
  exists p d desc q, In p ps /\
    x = mkTxn d desc (pair_build (ac_account ac) (p_acc p) (p_com p) q dec_nil) (t_targets t) /\
    ((d = t_date t /\ desc = t_desc t) \/
     exists part i n, new_partition (mkPeriod (ac_start ac) (ac_end ac)) (ac_interval ac) 0 = POk part /\
                      In d (end_dates part) /\ 0 <= i /\ 0 <= n /\ desc = t_desc t ++ accrual_suffix i n).

Lemma expansion_of_incl t ac ps ps' : incl ps ps' -> forall x, expansion_of t ac ps x -> expansion_of t ac ps' x.
Proof. intros Hi x (p & d & desc & q & Hp & H). exists p, d, desc, q. split; [now apply Hi|exact H]. Qed.

Lemma accrual_parts_shape desc tg acc p amount rem n ends x : forall i, 0 <= i ->
  In x (accrual_parts desc tg acc p amount rem n i ends) ->
  exists d j q, In d ends /\ 0 <= j /\ x = mkTxn d (desc ++ accrual_suffix j n) (pair_build acc (p_acc p) (p_com p) q dec_nil) tg.
Proof.
  induction ends as [|dt rest IH]; intros i Hi; cbn [accrual_parts]; [intros []|]. intros [<-|Hin].
  - eexists dt, (i + 1), _. split; [now left|]. split; [lia|reflexivity].
  - destruct (IH (i + 1) ltac:(lia) Hin) as (d & j & q & Hd & Hj & ->). exists d, j, q. split; [now right|now split].
Qed.

Lemma expand_posting_shape rebook t ac p l :
  expand_posting_gen rebook t ac p = MOk l -> Forall (expansion_of t ac [p]) l.
Proof.
  unfold expand_posting_gen. set (r1 := if rebook (p_acc p) then _ else _).
  assert (Hr1 : Forall (expansion_of t ac [p]) r1).
  { unfold r1. destruct (rebook (p_acc p)); constructor; [|constructor].
    exists p, (t_date t), (t_desc t), (p_qty p). split; [now left|]. split; [reflexivity|now left]. }
  destruct (is_IE (p_acc p)); [|intros H; injection H as <-; exact Hr1].
  destruct (new_partition _ _ _) as [part| |] eqn:Ep; try discriminate.
  destruct (quo_rem _ _ _) as [[amount rem]|]; try discriminate.
  intros H. injection H as <-. apply Forall_app. split; [exact Hr1|]. apply Forall_forall. intros x Hx.
  destruct (accrual_parts_shape _ _ _ _ _ _ _ _ x 0 ltac:(lia) Hx) as (d & j & q & Hd & Hj & ->).
  exists p, d, (t_desc t ++ accrual_suffix j (Z.of_nat (length (periods part)))), q.
  split; [now left|]. split; [reflexivity|]. right. exists part, j, (Z.of_nat (length (periods part))).
  repeat split; try assumption. lia.
Qed.

Lemma expand_postings_shape rebook t ac ps l :
  expand_postings_gen rebook t ac ps = MOk l -> Forall (expansion_of t ac ps) l.
Proof.
  revert l. induction ps as [|p ps IH]; intros l H; cbn [expand_postings_gen] in H.
  - injection H as <-. constructor.
  - destruct (expand_posting_gen rebook t ac p) as [l1| |] eqn:E1; cbn [mbind] in H; try discriminate.
    destruct (expand_postings_gen rebook t ac ps) as [l2| |] eqn:E2; cbn [mbind] in H; try discriminate.
    injection H as <-. apply Forall_app.
    split; [eapply Forall_impl; [apply expansion_of_incl|exact (expand_posting_shape _ _ _ _ _ E1)]
           |eapply Forall_impl; [apply expansion_of_incl|exact (IH l2 eq_refl)]].
    + intros q [<-|[]]. now left.
    + intros q Hq. now right.
Qed.

Lemma txn_create_gen_canonical rebook s l : txn_create_gen rebook s = MOk l -> Forall txn_canonical l.
Proof.
  unfold txn_create_gen. destruct (postings_create (st_bookings s)) as [ps| |] eqn:E; try discriminate. cbn [mbind].
  pose proof (postings_create_canonical _ _ E) as Hc.
  destruct (st_accrual s) as [ac|]; [|intros H; injection H as <-; constructor; [exact Hc|constructor]].
  unfold expand_gen, check_account. destruct (valid_account (ac_account ac)) eqn:Ea; try discriminate. cbn [mbind t_postings].
  intros H. eapply Forall_impl; [|exact (expand_postings_shape _ _ _ _ _ H)].
  intros x (p & d & desc & q & Hp & -> & _). apply pair_build_canonical; [exact Ea|]. eapply canonical_accounts; eassumption.
Qed.

(* Transactions: every transaction knut's model layer creates (accrual expansions
   included) is reproduced exactly -- both posting halves, description, date, targets -- by
   creating a transaction from what the printer writes for it: one booking line per second
   posting, "Other Account Quantity Commodity", the @performance targets, no @accrue. *)
Theorem txn_print_denotes s ts t :
  txn_create s = MOk ts -> In t ts -> txn_create (stxn_of_txn t) = MOk [t].
Proof.
  intros H Hin. apply txn_create_printed.
  exact (proj1 (Forall_forall _ _) (txn_create_gen_canonical _ _ _ H) t Hin).
Qed.

(* the other directives carry no normalisation: what is printed denotes the directive itself *)
Definition sdir_of_dir (d : directive) : sdirective :=
  match d with
  | DPrice dt c p t => SPrice dt c p t
  | DOpen dt a => SOpen dt a
  | DClose dt a => SClose dt a
  | DAssert dt bs => SAssert dt bs
  | DTxn t => STxn (stxn_of_txn t)
  end.

Lemma parse_directive_inv s ds d : parse_directive s = MOk ds -> In d ds ->
  match d with
  | DPrice dt c p t => s = SPrice dt c p t
  | DOpen dt a => s = SOpen dt a /\ check_account a = MOk tt
  | DClose dt a => s = SClose dt a /\ check_account a = MOk tt
  | DAssert dt bs => s = SAssert dt bs /\ check_balances bs = MOk tt
  | DTxn t => exists st ts, s = STxn st /\ txn_create st = MOk ts /\ In t ts
  end.
Proof.
  destruct s as [dt c p t|dt a|dt a|dt bs|st|]; cbn [parse_directive].
  - intros H Hin. injection H as <-. destruct Hin as [<-|[]]. reflexivity.
  - destruct (check_account a) as [[]| |] eqn:E; cbn [mbind]; try discriminate.
    intros H Hin. injection H as <-. destruct Hin as [<-|[]]. now split.
  - destruct (check_account a) as [[]| |] eqn:E; cbn [mbind]; try discriminate.
    intros H Hin. injection H as <-. destruct Hin as [<-|[]]. now split.
  - destruct (check_balances bs) as [[]| |] eqn:E; cbn [mbind]; try discriminate.
    intros H Hin. injection H as <-. destruct Hin as [<-|[]]. now split.
  - destruct (txn_create st) as [ts| |] eqn:E; cbn [mbind]; try discriminate.
    intros H Hin. injection H as <-. apply in_map_iff in Hin. destruct Hin as (t & <- & Ht). now exists st, ts.
  - intros H Hin. injection H as <-. destruct Hin.
Qed.

Theorem directive_print_denotes s ds d :
  parse_directive s = MOk ds -> In d ds -> parse_directive (sdir_of_dir d) = MOk [d].
Proof.
  intros H Hin. pose proof (parse_directive_inv s ds d H Hin) as I.
  destruct d as [dt c p t|dt a|dt a|dt bs|t]; cbn [sdir_of_dir parse_directive].
  - reflexivity.
  - now rewrite (proj2 I).
  - now rewrite (proj2 I).
  - now rewrite (proj2 I).
  - destruct I as (st & ts & _ & E & Ht). now rewrite (txn_print_denotes st ts t E Ht).
Qed.

(* a model directive that its own printed form denotes *)
Definition dir_ok (d : directive) : Prop := parse_directive (sdir_of_dir d) = MOk [d].

Lemma parsed_dir_ok ss ds : parse_directives ss = MOk ds -> Forall dir_ok ds.
Proof.
  revert ds. induction ss as [|s ss IH]; intros ds H; cbn [parse_directives] in H.
  - injection H as <-. constructor.
  - destruct (parse_directive s) as [l1| |] eqn:E1; cbn [mbind] in H; try discriminate.
    destruct (parse_directives ss) as [l2| |] eqn:E2; cbn [mbind] in H; try discriminate.
    injection H as <-. apply Forall_app. split; [|now apply IH].
    apply Forall_forall. intros d. apply (directive_print_denotes s l1 d E1).
Qed.

Lemma parse_directives_denoted ds : Forall dir_ok ds -> parse_directives (map sdir_of_dir ds) = MOk ds.
Proof.
  induction 1 as [|d ds Hd Hds IH]; [reflexivity|]. cbn [map parse_directives]. now rewrite Hd, IH.
Qed.

Lemma dir_ok_txn_canonical t : dir_ok (DTxn t) -> canonical (t_postings t).
Proof.
  unfold dir_ok. cbn [sdir_of_dir parse_directive]. unfold txn_create, txn_create_gen, stxn_of_txn.
  cbn [st_bookings st_accrual st_date st_desc st_targets].
  destruct (postings_create (map booking_of (odd_postings (t_postings t)))) as [ps| |] eqn:E; cbn [mbind]; try discriminate.
  intros H. injection H as H1. apply postings_create_canonical in E.
  rewrite <- H1. exact E.
Qed.

(* the directives a journal denotes after knut's model layer: one syntax-level directive per model
   directive, in the same order (accruals expanded, posting pairs normalised, no annotation but
   the performance targets) *)
Definition denote (ss : list sdirective) : list sdirective :=
  match parse_directives ss with MOk ds => map sdir_of_dir ds | _ => [] end.

Theorem denote_fixpoint ss ds :
  parse_directives ss = MOk ds -> parse_directives (denote ss) = MOk ds.
Proof.
  intros H. unfold denote. rewrite H. apply parse_directives_denoted. exact (parsed_dir_ok ss ds H).
Qed.

Lemma denote_load ss ds : parse_directives ss = MOk ds -> load (denote ss) = load ss.
Proof. intros H. unfold load. now rewrite (denote_fixpoint ss ds H), H. Qed.

(* at the model level: replacing a loadable journal by the directives it denotes changes nothing
   for check, print (either printer) or any balance report -- the same bytes *)
Theorem denote_same_commands ss ds : parse_directives ss = MOk ds ->
  (forall l, check_cmd_current l (denote ss) = check_cmd_current l ss) /\
  (forall l, print_cmd_pinned l (denote ss) = print_cmd_pinned l ss) /\
  (forall l, print_cmd l (denote ss) = print_cmd l ss) /\
  (forall cfg, balance_csv cfg (denote ss) = balance_csv cfg ss) /\
  (forall cfg tc, balance_text cfg tc (denote ss) = balance_text cfg tc ss).
Proof.
  intros H. pose proof (denote_load ss ds H) as HL.
  repeat split; intros.
  - unfold check_cmd_current. now rewrite HL.
  - unfold print_cmd_pinned. now rewrite HL.
  - unfold print_cmd. now rewrite HL.
  - unfold balance_csv, balance_table, balance_report. now rewrite HL.
  - unfold balance_text, balance_table, balance_report. now rewrite HL.
Qed.

Theorem denote_idem ss ds : parse_directives ss = MOk ds -> denote (denote ss) = denote ss.
Proof.
  intros H. unfold denote at 1. rewrite (denote_fixpoint ss ds H). unfold denote. now rewrite H.
Qed.

Lemma accepted_loads l ss : accepted l ss -> exists ds, parse_directives ss = MOk ds.
Proof.
  unfold accepted, check_cmd_current, load. destruct (parse_directives ss) as [ds| |]; cbn; try discriminate.
  intros _. now exists ds.
Qed.

Fixpoint multi_then_more (l : list (list balance)) : bool :=
  match l with
  | [] => false
  | a :: rest =>
    (match a, rest with
     | [_], _ => false
     | _, [] => false
     | _, _ => true
     end) || multi_then_more rest
  end.

Lemma print_asserts_same dt l : multi_then_more l = false ->
  print_asserts dt l = concat (map (fun a => print_assertion dt a ++ [10]) l).
Proof.
  induction l as [|a rest IH]; intros H; [reflexivity|].
  cbn [multi_then_more] in H. apply orb_false_iff in H. destruct H as [H1 H2].
  cbn [print_asserts map concat]. rewrite <- app_assoc. f_equal. f_equal.
  destruct rest as [|b rest']; [reflexivity|].
  rewrite <- (IH H2).
  destruct a as [|x [|y a']]; try discriminate. reflexivity.
Qed.

Definition no_multi_then_more (days : list day) : Prop :=
  Forall (fun d => multi_then_more (d_asserts d) = false) days.

Lemma print_journal_fixed_same days : no_multi_then_more days ->
  print_journal days = print_journal_pinned days.
Proof.
  intros H. unfold print_journal, print_journal_pinned. cbv zeta. f_equal.
  apply map_ext_in. intros d Hd. unfold print_day, print_day_pinned. rewrite print_asserts_same; [reflexivity|].
  unfold sort_days in Hd. apply in_map_iff in Hd. destruct Hd as (d0 & <- & Hd0).
  cbn [set_txns d_asserts]. exact (proj1 (Forall_forall _ _) H d0 Hd0).
Qed.

(* both print commands check first, then write the days of the journal they loaded *)
Lemma printed_iff (pj : list day -> Str.str) l ss text :
  cbind (load ss) (fun b => cbind (run_stage (check_proc_current l) check_init (b_days b)) (fun _ => COk (pj (b_days b)))) = COk text <->
  accepted l ss /\ exists b, load ss = COk b /\ text = pj (b_days b).
Proof.
  unfold accepted, check_cmd_current. destruct (load ss) as [b| |]; cbn [cbind].
  2, 3: split; [discriminate|intros [H _]; discriminate].
  destruct (run_stage (check_proc_current l) check_init (b_days b)); cbn [cbind].
  2, 3: split; [discriminate|intros [H _]; discriminate].
  split.
  - intros H. injection H as <-. eauto.
  - intros (_ & b' & Hb & ->). injection Hb as <-. reflexivity.
Qed.

Lemma printed_load l ss b text : load ss = COk b ->
  (printed (print_cmd l) ss text <-> accepted l ss /\ text = print_journal (b_days b)).
Proof.
  intros Hl. etransitivity; [apply (printed_iff print_journal)|]. split.
  - intros (Ha & b' & Hb & ->). rewrite Hl in Hb. injection Hb as <-. now split.
  - intros (Ha & ->). eauto.
Qed.

Lemma accepted_load l ss b : load ss = COk b ->
  (accepted l ss <-> exists x, run_stage (check_proc_current l) check_init (b_days b) = COk x).
Proof.
  intros Hl. unfold accepted, check_cmd_current. rewrite Hl. cbn [cbind].
  destruct (run_stage (check_proc_current l) check_init (b_days b)) as [x| |]; cbn [cbind];
    (split; [intros H|intros [y H]]); try discriminate; eauto.
Qed.

Lemma printed_accepted l ds text : printed (print_cmd_pinned l) ds text -> accepted l ds.
Proof. intros H. exact (proj1 (proj1 (printed_iff print_journal_pinned l ds text) H)). Qed.

Lemma printed_fixed_accepted l ds text : printed (print_cmd l) ds text -> accepted l ds.
Proof. intros H. exact (proj1 (proj1 (printed_iff print_journal l ds text) H)). Qed.

(* 2020-01-01 open Assets:A / open Assets:B / "t" Assets:A Assets:B 1 CHF /
   balance {Assets:A -1 CHF, Assets:B 1 CHF} / balance Assets:A -1 CHF *)
Definition w_A : account := [s_Assets; [65]].
Definition w_B : account := [s_Assets; [66]].
Definition w_CHF : commodity := [67; 72; 70].
Definition w_date : Z := of_civil 2020 1 1.
Definition w_journal : list sdirective :=
  [ SOpen w_date w_A; SOpen w_date w_B;
    STxn (mkStxn w_date [116] [mkBooking w_A w_B (mkDec 1 0) w_CHF] None None);
    SAssert w_date [mkBalance w_A (mkDec (-1) 0) w_CHF; mkBalance w_B (mkDec 1 0) w_CHF];
    SAssert w_date [mkBalance w_A (mkDec (-1) 0) w_CHF] ].

Definition text_of (r : cresult Str.str) : Str.str := match r with COk t => t | _ => [] end.
Definition w_text : Str.str := Eval vm_compute in text_of (print_cmd_pinned true w_journal).
Definition w_text_fixed : Str.str := Eval vm_compute in text_of (print_cmd true w_journal).

Lemma multi_assertion_refuted :
  exists ds text, accepted true ds /\ accepted false ds /\ printed (print_cmd_pinned true) ds text /\
                  printed (print_cmd_pinned false) ds text /\ reparse text = MErr e_syntax.
Proof.
  assert (Ht : printed (print_cmd_pinned true) w_journal w_text) by (vm_compute; reflexivity).
  assert (Hf : printed (print_cmd_pinned false) w_journal w_text) by (vm_compute; reflexivity).
  exists w_journal, w_text.
  split; [exact (printed_accepted _ _ _ Ht)|]. split; [exact (printed_accepted _ _ _ Hf)|].
  split; [exact Ht|]. split; [exact Hf|]. vm_compute. reflexivity.
Qed.

(* a journal with a Unicode account name, a two-line description, an accrual, performance targets,
   a negative amount (normalised by swapping), trailing zeros, a multi-balance assertion followed by
   another assertion, a close *)
Definition x_bank : account := [s_Assets; [66;195;164;110;107]].          (* Assets:Bänk *)
Definition x_acc : account := [s_Assets; [65;99;99]].
Definition x_rent : account := [s_Expenses; [82;101;110;116]].
Definition x_job : account := [s_Income; [74;111;98]].
Definition x_journal : list sdirective :=
  [ SPrice (of_civil 2019 12 30) [85;83;68] (mkDec 9150 (-4)) w_CHF;
    SOpen (of_civil 2019 12 31) x_bank; SOpen (of_civil 2019 12 31) x_acc;
    SOpen (of_civil 2019 12 31) x_rent; SOpen (of_civil 2019 12 31) x_job;
    STxn (mkStxn (of_civil 2020 1 15) [114;101;110;116;10;50] [mkBooking x_bank x_rent (mkDec 30050 (-2)) w_CHF]
                 (Some [w_CHF; [85;83;68]]) (Some (mkAccrual Monthly (of_civil 2020 1 1) (of_civil 2020 3 31) x_acc)));
    STxn (mkStxn (of_civil 2020 1 20) [112;97;121] [mkBooking x_job x_bank (mkDec (-1010) (-2)) w_CHF] (Some []) None);
    SAssert (of_civil 2020 1 20) [mkBalance x_bank (mkDec (-31060) (-2)) w_CHF; mkBalance x_bank (mkDec (-3106) (-1)) w_CHF];
    SAssert (of_civil 2020 1 20) [mkBalance x_bank (mkDec (-3106) (-1)) w_CHF];
    SAssert (of_civil 2020 3 31) [mkBalance x_acc (mkDec 0 (-2)) w_CHF];
    SClose (of_civil 2020 3 31) x_acc ].

Definition x_text : Str.str := Eval vm_compute in text_of (print_cmd true x_journal).
Definition x_cfg : balance_cfg :=
  mkBalanceCfg 0 (of_civil 2020 12 31) Monthly 0 false false None true [] [] [] [] [] true.

