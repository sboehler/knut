(* C09 (c): what printing does to the ORDER of a journal.
   journal.Print writes the days in date order, per day the prices, opens, transactions (sorted
   with transaction.Compare), assertions, closes.  [printed_dirs days] is that sequence as
   syntax-level directives (one per model directive, as PrintProofs.sdir_of_dir writes them).
   It is a permutation of the directives the journal denotes ([printed_dirs_perm]); by C05
   (Proofs/OrderCmd.v) `knut check` gives the same verdict on it ([accepted_printed_dirs]).
   Builder.Add over it builds the printed days again ([builder_of_printed]). *)
From Coq Require Import ZArith List Bool Lia Permutation Sorted.
From Knut Require Import Proofs.ListFacts Model.Str Model.Dec Model.Date Model.Account Model.Ledger Model.Journal
     Model.Check Model.Pipeline Model.Table Model.Report Model.JPrinter Model.Cli Model.ToModel.
From Knut Require Import Spec.WellformedSpec Spec.PrintSpec.
From Knut Require Import Proofs.ListFacts Proofs.StrProofs Proofs.BuilderProofs Proofs.CheckPerm Proofs.OrderProofs Proofs.OrderCmd
     Proofs.PrintProofs.
Import ListNotations.
Open Scope bool_scope.
Open Scope Z_scope.

Lemma flat_map_pick {A K} (key : K) (eqb : K -> K -> bool) (d : A) (f : K -> list A) (L : list K) :
  (forall k, eqb key k = true <-> key = k) -> NoDup L -> In key L ->
  Permutation (flat_map (fun k => (if eqb key k then [d] else []) ++ f k) L) (d :: flat_map f L).
Proof.
  intros Heq. induction L as [|k L IH]; intros Hnd Hin; [destruct Hin|].
  inversion Hnd as [|? ? Hk HL]; subst. cbn [flat_map].
  destruct (eqb key k) eqn:E.
  - apply Heq in E. subst k. cbn [app]. constructor. apply Permutation_app_head.
    rewrite (flat_map_ext_in _ f L); [reflexivity|]. intros k' Hk'.
    destruct (eqb key k') eqn:E'; [apply Heq in E'; subst k'; contradiction|reflexivity].
  - cbn [app]. destruct Hin as [->|Hin]; [exfalso; rewrite (proj2 (Heq key) eq_refl) in E; discriminate|].
    eapply Permutation_trans; [apply Permutation_app_head; apply IH; assumption|].
    apply Permutation_sym, Permutation_middle.
Qed.

Lemma group_by_key_perm {A} (key : A -> Z) (l : list A) (L : list Z) :
  NoDup L -> (forall d, In d l -> In (key d) L) ->
  Permutation (flat_map (fun k => filter (fun d => key d =? k) l) L) l.
Proof.
  intros Hnd. induction l as [|d l IH]; intros Hin.
  - clear. induction L as [|k L IH]; [reflexivity|exact IH].
  - assert (E : flat_map (fun k => filter (fun x => key x =? k) (d :: l)) L =
                flat_map (fun k => (if key d =? k then [d] else []) ++ filter (fun x => key x =? k) l) L).
    { apply flat_map_ext. intros k. cbn [filter]. destruct (key d =? k); reflexivity. }
    rewrite E.
    eapply Permutation_trans.
    + apply (flat_map_pick (key d) Z.eqb d); [intros k; apply Z.eqb_eq|exact Hnd|apply Hin; now left].
    + constructor. apply IH. intros x Hx. apply Hin. now right.
Qed.

Lemma filter_andb {A} (p q : A -> bool) l : filter (fun x => p x && q x) l = filter q (filter p l).
Proof.
  induction l as [|x l IH]; [reflexivity|]. cbn [filter]. destruct (p x); cbn [andb filter]; now rewrite IH.
Qed.

Lemma of_day_perm ds dt : Permutation (of_day ds dt) (filter (fun d => ddate d =? dt) ds).
Proof.
  eapply Permutation_trans; [|apply (group_by_key_perm dkind _ [0; 1; 2; 3; 4])].
  - unfold of_day, sel. cbn [flat_map]. now rewrite !filter_andb, app_nil_r.
  - repeat constructor; cbn [In]; lia.
  - intros d _. cbn [In]. pose proof (dkind_range d). lia.
Qed.

Theorem canonical_perm ds : Permutation (WellformedSpec.canonical ds) ds.
Proof.
  unfold WellformedSpec.canonical.
  eapply Permutation_trans; [|apply (group_by_key_perm ddate ds (dates ds))].
  - clear. induction (dates ds) as [|dt L IH]; [reflexivity|]. cbn [flat_map].
    apply Permutation_app; [apply of_day_perm|exact IH].
  - apply (StronglySorted_NoDup Z.lt Z.lt_irrefl), dates_sorted.
  - intros d Hd. apply dates_in. now apply in_map.
Qed.

Definition printed_model_dirs (days : list day) : list directive :=
  flat_map day_directives (sort_days days).

Definition printed_dirs (days : list day) : list sdirective := map sdir_of_dir (printed_model_dirs days).

Lemma day_directives_sorted_perm d :
  Permutation (day_directives (set_txns d (sort_by txn_ltb (d_txns d)))) (day_directives d).
Proof.
  unfold day_directives. cbn [set_txns d_date d_prices d_opens d_txns d_asserts d_closes].
  apply Permutation_app_head, Permutation_app_head, Permutation_app_tail, Permutation_map, sort_by_perm.
Qed.

Lemma printed_model_dirs_perm ds : Permutation (printed_model_dirs (b_days (builder_of ds))) ds.
Proof.
  unfold printed_model_dirs, sort_days.
  eapply Permutation_trans; [|apply canonical_perm]. rewrite <- builder_flat_canonical.
  induction (b_days (builder_of ds)) as [|d l IH]; [reflexivity|]. cbn [map flat_map].
  apply Permutation_app; [apply day_directives_sorted_perm|exact IH].
Qed.

Theorem printed_dirs_perm ss ds :
  parse_directives ss = MOk ds -> Permutation (printed_dirs (b_days (builder_of ds))) (denote ss).
Proof.
  intros H. unfold printed_dirs, denote. rewrite H. apply Permutation_map, printed_model_dirs_perm.
Qed.

Lemma sd_syntactic_denote ss : sd_syntactic ss -> sd_syntactic (denote ss).
Proof.
  intros Hs ds' H'. unfold denote in H'.
  destruct (parse_directives ss) as [ds| |] eqn:E.
  - pose proof (denote_fixpoint ss ds E) as Hf. unfold denote in Hf. rewrite E in Hf.
    rewrite Hf in H'. inversion H'. subst ds'. apply Hs. exact E.
  - cbn in H'. inversion H'. intros d e [].
  - cbn in H'. inversion H'. intros d e [].
Qed.

Lemma load_days ss b : load ss = COk b -> exists ds, parse_directives ss = MOk ds /\ b = builder_of ds.
Proof.
  unfold load. destruct (parse_directives ss) as [ds| |]; cbn; try discriminate.
  intros H. inversion H. eauto.
Qed.

Theorem accepted_printed_dirs l ss b :
  sd_syntactic ss -> load ss = COk b -> (accepted l ss <-> accepted l (printed_dirs (b_days b))).
Proof.
  intros Hs Hl. destruct (load_days ss b Hl) as (ds & Hp & ->).
  pose proof (printed_dirs_perm ss ds Hp) as P.
  destruct (verdict_perm _ _ (Permutation_sym P) (sd_syntactic_denote ss Hs)) as (_ & _ & V).
  unfold accepted. rewrite <- (V l).
  rewrite (proj1 (denote_same_commands ss ds Hp) l). reflexivity.
Qed.

(* a day as the builder makes it: its transactions carry its date *)
Definition day_wf (x : day) : Prop := forall t, In t (d_txns x) -> t_date t = d_date x.

Lemma ddate_day_directives x d : day_wf x -> In d (day_directives x) -> ddate d = d_date x.
Proof.
  intros Hw. unfold day_directives. rewrite !in_app_iff, !in_map_iff.
  intros [(y & <- & _)|[(y & <- & _)|[(y & <- & Hy)|[(y & <- & _)|(y & <- & _)]]]]; try reflexivity.
  cbn [ddate]. now apply Hw.
Qed.

Lemma filter_map_const {A B} (p : B -> bool) (g : A -> B) (b : bool) l :
  (forall a, In a l -> p (g a) = b) -> filter p (map g l) = if b then map g l else [].
Proof.
  induction l as [|a l IH]; intros H; [destruct b; reflexivity|]. cbn [map filter].
  rewrite (H a (or_introl eq_refl)). rewrite IH by (intros y Hy; apply H; now right).
  destruct b; reflexivity.
Qed.

Lemma sel_map {A} (g : A -> directive) l dt k k' :
  (forall a, In a l -> ddate (g a) = dt /\ dkind (g a) = k') -> sel (map g l) dt k = if k' =? k then map g l else [].
Proof.
  intros H. unfold sel. apply filter_map_const. intros a Ha. destruct (H a Ha) as [-> ->]. now rewrite Z.eqb_refl.
Qed.

Lemma day_matches_self x : day_wf x -> day_matches (day_directives x) x.
Proof.
  intros Hw. unfold day_matches, day_directives. rewrite !sel_app.
  rewrite !(sel_map (price_directive (d_date x)) _ _ _ 0), !(sel_map (DOpen (d_date x)) _ _ _ 1), !(sel_map DTxn _ _ _ 2),
          !(sel_map (DAssert (d_date x)) _ _ _ 3), !(sel_map (DClose (d_date x)) _ _ _ 4)
    by (intros a Ha; split; [try reflexivity; exact (Hw a Ha)|reflexivity]).
  cbn [Z.eqb Pos.eqb app]. rewrite !app_nil_r. repeat split.
Qed.

Lemma sel_other_date l dt k : (forall d, In d l -> ddate d <> dt) -> sel l dt k = [].
Proof.
  intros H. apply sel_nil. intros Hin. apply in_map_iff in Hin. destruct Hin as (d & E & Hd). exact (H d Hd E).
Qed.

Lemma day_matches_ext l1 l2 x : (forall k, sel l1 (d_date x) k = sel l2 (d_date x) k) -> day_matches l1 x -> day_matches l2 x.
Proof. intros E (H0 & H1 & H2 & H3 & H4). unfold day_matches. rewrite <- !E. tauto. Qed.

Lemma day_matches_flat D : NoDup (map d_date D) -> Forall day_wf D ->
  forall x, In x D -> day_matches (flat_map day_directives D) x.
Proof.
  induction D as [|y D IH]; intros Hnd Hw x Hx; [destruct Hx|].
  inversion Hnd as [|? ? Hy HD]; subst. inversion Hw as [|? ? Hwy HwD]; subst. cbn [flat_map].
  destruct Hx as [->|Hx].
  - apply (day_matches_ext (day_directives x)); [|now apply day_matches_self].
    intros k. rewrite sel_app. rewrite (sel_other_date (flat_map day_directives D)); [now rewrite app_nil_r|].
    intros d Hd E. apply in_flat_map in Hd. destruct Hd as (z & Hz & Hd).
    rewrite Forall_forall in HwD. rewrite (ddate_day_directives z d (HwD z Hz) Hd) in E.
    apply Hy. rewrite <- E. now apply in_map.
  - apply (day_matches_ext (flat_map day_directives D)); [|now apply IH].
    intros k. rewrite sel_app. rewrite (sel_other_date (day_directives y)); [reflexivity|].
    intros d Hd E. rewrite (ddate_day_directives y d Hwy Hd) in E.
    apply Hy. rewrite E. now apply in_map.
Qed.

(* a day list is determined by its dates and what each day matches *)
Lemma days_unique dl X : forall Y,
  map d_date X = map d_date Y ->
  (forall x, In x X -> day_matches dl x /\ d_normalized x = None) ->
  (forall y, In y Y -> day_matches dl y /\ d_normalized y = None) -> X = Y.
Proof.
  induction X as [|x X IH]; intros [|y Y] E HX HY; cbn [map] in E; try discriminate; [reflexivity|].
  injection E as E1 E2. f_equal; [|apply IH; [exact E2|intros; apply HX; now right|intros; apply HY; now right]].
  destruct (HX x (or_introl eq_refl)) as ((A0 & A1 & A2 & A3 & A4) & An).
  destruct (HY y (or_introl eq_refl)) as ((B0 & B1 & B2 & B3 & B4) & Bn).
  rewrite <- E1 in B0, B1, B2, B3, B4.
  destruct x as [xd xp xo xt xa xc xn], y as [yd yp yo yt ya yc yn]. cbn in *. subst yd xn yn.
  f_equal.
  - apply (map_inj_eq (price_directive xd)); [apply price_directive_inj|congruence].
  - apply (map_inj_eq (DOpen xd)); [intros a b H; now injection H|congruence].
  - apply (map_inj_eq DTxn); [intros a b H; now injection H|congruence].
  - apply (map_inj_eq (DAssert xd)); [intros a b H; now injection H|congruence].
  - apply (map_inj_eq (DClose xd)); [intros a b H; now injection H|congruence].
Qed.

Lemma builder_txn_in ds x t : In x (b_days (builder_of ds)) -> In t (d_txns x) -> In (DTxn t) ds /\ t_date t = d_date x.
Proof.
  intros Hx Ht. destruct (builder_canonical ds) as (_ & _ & _ & M). destruct (M x Hx) as (_ & _ & M2 & _).
  assert (H : In (DTxn t) (map DTxn (d_txns x))) by now apply in_map.
  rewrite M2 in H. apply sel_in in H. destruct H as (H1 & H2 & _). split; assumption.
Qed.

Lemma builder_days_wf ds : Forall day_wf (b_days (builder_of ds)).
Proof. apply Forall_forall. intros x Hx t Ht. apply (builder_txn_in ds x t Hx Ht). Qed.

Lemma sort_days_dates D : map d_date (sort_days D) = map d_date D.
Proof. unfold sort_days. rewrite map_map. reflexivity. Qed.

Lemma sort_days_wf D : Forall day_wf D -> Forall day_wf (sort_days D).
Proof.
  unfold sort_days. intros H. apply Forall_forall. intros x Hx. apply in_map_iff in Hx.
  destruct Hx as (y & <- & Hy). rewrite Forall_forall in H. intros t Ht.
  cbn [set_txns d_txns d_date] in *. apply (H y Hy).
  eapply Permutation_in; [apply sort_by_perm|exact Ht].
Qed.

Lemma sort_days_normalized D : (forall x, In x D -> d_normalized x = None) ->
  forall x, In x (sort_days D) -> d_normalized x = None.
Proof.
  unfold sort_days. intros H x Hx. apply in_map_iff in Hx. destruct Hx as (y & <- & Hy). exact (H y Hy).
Qed.

(* Builder.Add over the printed sequence builds exactly the days that were printed: the days in
   date order, each with its sorted transactions -- and the same period *)
Theorem builder_of_printed ds :
  builder_of (printed_model_dirs (b_days (builder_of ds))) =
  mkBuilder (sort_days (b_days (builder_of ds))) (b_min (builder_of ds)) (b_max (builder_of ds)).
Proof.
  set (D := sort_days (b_days (builder_of ds))).
  set (dl := printed_model_dirs (b_days (builder_of ds))).
  pose proof (printed_model_dirs_perm ds) as P. fold dl in P.
  destruct (build_perm dl ds P) as (_ & Hmin & Hmax).
  destruct (builder_canonical ds) as (S0 & D0 & _ & _). cbn zeta in *.
  destruct (builder_canonical dl) as (_ & D1 & _ & M1). cbn zeta in *.
  assert (HD : b_days (builder_of dl) = D).
  { apply (days_unique dl).
    - rewrite D1. unfold D. rewrite sort_days_dates, D0. apply dates_perm. exact P.
    - intros x Hx. split; [now apply M1|now apply (builder_not_normalized dl)].
    - intros x Hx. split.
      + unfold dl, printed_model_dirs. fold D. apply day_matches_flat; [| |exact Hx].
        * unfold D. rewrite sort_days_dates. now apply (StronglySorted_NoDup Z.lt Z.lt_irrefl).
        * unfold D. apply sort_days_wf, builder_days_wf.
      + revert x Hx. unfold D. apply sort_days_normalized. apply builder_not_normalized. }
  destruct (builder_of dl) as [bd bmin bmax]. cbn [b_days b_min b_max] in *. subst. reflexivity.
Qed.
