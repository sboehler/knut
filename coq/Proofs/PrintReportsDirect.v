(* C09_same_reports without C05's exclusion of conflicting prices.
   journal.Print reorders nothing but the transactions of a day: the printed days have the
   journal's price lists.  C05's stage lemmas need [prices_consistent] only to commute price
   declarations; with EQUAL price lists ComputePrices runs identically ([cp_stage_same]), and the
   rest of C05's chain (Valuate, Filter, CloseAccounts, Query.Into, the renderer) applies as it
   stands.  [reports_printed_dirs_direct]: the printed sequence has the journal's reports. *)
From Coq Require Import ZArith List Bool Lia Permutation.
From Knut Require Import Model.Str Model.Dec Model.Date Model.Account Model.Ledger Model.Price Model.Journal
     Model.Check Model.Pipeline Model.Table Model.Report Model.JPrinter Model.Cli.
From Knut Require Import Spec.WellformedSpec Proofs.StrProofs Proofs.JournalFacts Proofs.BuilderProofs Proofs.CheckPerm Proofs.OrderProofs Proofs.OrderStages
     Proofs.OrderPipeline Proofs.OrderReport Proofs.OrderRender Proofs.OrderCmd Proofs.BalanceChain
     Proofs.PrintProofs Proofs.PrintRegroup Proofs.PrintRequant Proofs.PrintNormal.
Import ListNotations.
Open Scope bool_scope.
Open Scope Z_scope.

Lemma ceq_eq_sym {A} (x y : cresult A) : ceq eq x y -> ceq eq y x.
Proof. destruct x, y; cbn; auto. Qed.
Lemma ceq_eq_trans {A} (x y z : cresult A) : ceq eq x y -> ceq eq y z -> ceq eq x z.
Proof. destruct x, y, z; cbn; try tauto; congruence. Qed.

Definition DIsame (d1 d2 : day) : Prop := DIok d1 d2 /\ d_prices d1 = d_prices d2.

Lemma cp_day_same v s1 s2 d1 d2 :
  s1 = s2 -> DIsame d1 d2 ->
  req (fun a b => fst a = fst b /\ DIok (snd a) (snd b))
      (process_day (compute_prices_proc v) s1 d1) (process_day (compute_prices_proc v) s2 d2).
Proof.
  intros <- [[De Hok] Hp]. pose proof De as (E0 & E1 & E2 & E3 & E4 & E5 & E6).
  unfold process_day. proc_fields. cbn [rbind fst snd]. rewrite <- Hp.
  destruct (fold_res cp_price_cb s1 (d_prices d1)) as [a1| |]; cbn [rbind req]; try exact I.
  rewrite !fold_txns_none by reflexivity. cbn [rbind fst snd].
  rewrite !fold_asserts_none by reflexivity. cbn [rbind]. rewrite !day_rebuild.
  assert (HR : forall n, day_equiv (set_normalized d1 n)
             (set_normalized (mkDay (d_date d2) (d_prices d1) (d_opens d2) (d_txns d2) (d_asserts d2) (d_closes d2) (d_normalized d2)) n)).
  { intros n. repeat split; cbn [set_normalized d_date d_prices d_opens d_txns d_asserts d_closes d_normalized]; try assumption. apply Permutation_refl. }
  unfold cp_day_end. cbn [d_prices].
  destruct (d_prices d1) as [|x1 r1].
  - cbn [req fst snd]. split; [reflexivity|]. split; [apply HR|exact Hok].
  - destruct (normalize (cp_prices a1) v); cbn [req fst snd]; [|exact I].
    split; [reflexivity|]. split; [apply HR|exact Hok].
Qed.

Theorem cp_stage_same v s l1 l2 :
  Forall2 DIsame l1 l2 ->
  req (fun a b => fst a = fst b /\ Forall2 DIok (snd a) (snd b))
      (process_days (compute_prices_proc v) s l1) (process_days (compute_prices_proc v) s l2).
Proof.
  intros HF. apply (process_days_rel (compute_prices_proc v) eq DIsame DIok); [|exact HF|reflexivity].
  intros; apply cp_day_same; assumption.
Qed.

Lemma builder_touch_same b1 b2 dates :
  Forall2 DIsame (b_days b1) (b_days b2) -> Forall2 DIsame (b_days (builder_touch b1 dates)) (b_days (builder_touch b2 dates)).
Proof.
  apply builder_touch_rel; [intros x y H; apply H|].
  intros dt. split; [|reflexivity]. split; [apply day_equiv_refl|]. intros t p [].
Qed.

Lemma Forall2_DIsame_ok l1 l2 : Forall2 DIsame l1 l2 -> Forall2 DIok l1 l2.
Proof. induction 1 as [|x y l1 l2 [H _] Hl IH]; constructor; assumption. Qed.

(* C05's chain from two builders whose days differ in the order of each day's transactions only *)
Theorem balance_table_same cfg X X' b b' :
  load X = COk b -> load X' = COk b' ->
  Forall2 DIsame (b_days b) (b_days b') -> b_min b = b_min b' -> b_max b = b_max b' ->
  ceq eq (balance_table cfg X) (balance_table cfg X').
Proof.
  intros HX HX' HF Hmin Hmax. unfold balance_table.
  eapply (ceq_bind (fun a a' => report_eq (fst a) (fst a') /\ snd a = snd a')).
  2:{ intros [r1 p1] [r2 p2] [H E]. cbn [fst snd ceq] in *. subst p2. apply render_report_eq. exact H. }
  apply (balance_report_rel (Forall2 DIsame) (Forall2 DIok) report_eq) with (b := b) (b' := b'); try assumption.
  - intros. now apply builder_touch_same.
  - intros r D D' H. eapply ceq_impl; [|apply check_stage_current, Forall2_DIsame_ok, H].
    intros a a' [-> ->]. exact H.
  - intros v. apply (stage_rel_req _ _ eq). intros. now apply cp_stage_same.
  - intros v. apply (stage_rel_req _ _ Rval). intros. apply val_stage_rel; [intros k0 a0 c0 q0 []|assumption].
  - apply Forall2_DIsame_ok.
  - intros sp. apply (stage_rel_req _ _ eq). intros. now apply filter_stage_rel.
  - intros cds. apply (stage_rel_req _ _ Rclose). intros. apply close_stage_rel; [intros k0 a0 c0 q0 []|assumption].
  - intros q D D' H. unfold run_stage. apply ceq_of_presult, query_stage_rel, Forall2_DIok_equiv, H.
Qed.

Lemma sort_days_same D : Forall day_accs_ok D -> Forall2 DIsame D (sort_days D).
Proof.
  unfold sort_days. induction 1 as [|x D Hx HD IH]; cbn [map]; constructor; [|exact IH].
  split; [|reflexivity]. split; [|exact Hx].
  apply set_txns_equiv; [apply day_equiv_refl|]. apply Permutation_sym, sort_by_perm.
Qed.

(* the printed sequence has the journal's reports: no condition on the prices *)
Theorem reports_printed_dirs_direct ss b :
  sd_syntactic ss -> load ss = COk b ->
  (forall cfg, ceq eq (balance_csv cfg ss) (balance_csv cfg (printed_dirs (b_days b)))) /\
  (forall cfg tc, ceq eq (balance_text cfg tc ss) (balance_text cfg tc (printed_dirs (b_days b)))).
Proof.
  intros Hs Hl. destruct (load_days ss b Hl) as (ds & Hp & ->).
  assert (HT : forall cfg, ceq eq (balance_table cfg ss) (balance_table cfg (printed_dirs (b_days (builder_of ds))))).
  { intros cfg. eapply (balance_table_same cfg _ _ _ _ Hl (load_printed_dirs ss ds Hp)); cbn [b_days b_min b_max]; try reflexivity.
    apply sort_days_same. apply builder_accs_ok. exact (Hs ds Hp). }
  split; [intros cfg|intros cfg tc]; unfold balance_csv, balance_text;
    (eapply ceq_bind; [apply HT|]); intros t1 t2 <-; cbn [ceq]; reflexivity.
Qed.
