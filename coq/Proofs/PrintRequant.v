(* C09 (b): what re-reading does to the QUANTITIES of a journal.
   The text carries Decimal.String of every quantity; reading it back gives [reread q]
   (DecNormalForm.v): same value, same text, in general another exponent.  [rq_sdir] is that
   change on a syntax-level directive, [rq_dir]/[rq_day] on model directives and days (the credit
   half of a posting pair is the negation of the re-read debit half, as posting.Builder makes it).
   Here: the model layer and the builder commute with it ([parse_rq], [builder_of_rq]), the sort
   of journal.Print commutes with it ([sort_days_rq]), and the printer does not see it
   ([print_journal_rq]). *)
From Coq Require Import ZArith List Bool Lia Permutation.
From Knut Require Import Model.Str Model.Dec Model.Date Model.Account Model.Ledger Model.Journal
     Model.Check Model.Pipeline Model.Table Model.Report Model.JPrinter Model.Cli Model.ToModel.
From Knut Require Import Spec.TableSpec Spec.WellformedSpec Spec.PrintSpec.
From Knut Require Import Proofs.DecProofs Proofs.DecEqProofs Proofs.DecNormalForm Proofs.StableSort
     Proofs.BuilderProofs Proofs.PrintProofs Proofs.PrintRegroup Proofs.TxnOrder.
Import ListNotations.
Open Scope bool_scope.
Open Scope Z_scope.

Definition set_qty (p : posting) (q : dec) : posting := mkPosting (p_acc p) (p_other p) (p_com p) q (p_val p).

Fixpoint rq_postings (ps : list posting) : list posting :=
  match ps with
  | p1 :: p2 :: rest =>
    set_qty p1 (neg (reread (p_qty p2))) :: set_qty p2 (reread (p_qty p2)) :: rq_postings rest
  | _ => ps
  end.

Definition rq_txn (t : txn) : txn := mkTxn (t_date t) (t_desc t) (rq_postings (t_postings t)) (t_targets t).
Definition rq_balance (b : balance) : balance := mkBalance (bal_acc b) (reread (bal_qty b)) (bal_com b).
Definition rq_price (x : commodity * dec * commodity) : commodity * dec * commodity :=
  (fst (fst x), reread (snd (fst x)), snd x).

Definition rq_dir (d : directive) : directive :=
  match d with
  | DPrice dt c p t => DPrice dt c (reread p) t
  | DAssert dt bs => DAssert dt (map rq_balance bs)
  | DTxn t => DTxn (rq_txn t)
  | _ => d
  end.

Definition rq_day (x : day) : day :=
  mkDay (d_date x) (map rq_price (d_prices x)) (d_opens x) (map rq_txn (d_txns x))
        (map (map rq_balance) (d_asserts x)) (d_closes x) (d_normalized x).

Definition rq_booking (b : booking) : booking := mkBooking (b_credit b) (b_debit b) (reread (b_qty b)) (b_com b).

(* a syntax-level directive after a trip through its text *)
Definition rq_sdir (s : sdirective) : sdirective :=
  match s with
  | SPrice d c p t => SPrice d c (reread p) t
  | SAssert d bs => SAssert d (map rq_balance bs)
  | STxn st => STxn (mkStxn (st_date st) (st_desc st) (map rq_booking (st_bookings st)) (st_targets st) (st_accrual st))
  | _ => s
  end.

Lemma list_pair_ind {A} (P : list A -> Prop) :
  P [] -> (forall a, P [a]) -> (forall a b l, P l -> P (a :: b :: l)) -> forall l, P l.
Proof.
  intros H0 H1 H2.
  assert (H : forall l, P l /\ forall a, P (a :: l)).
  { induction l as [|x l [IH1 IH2]]; split; auto. }
  intros l. apply H.
Qed.

Lemma odd_postings_rq ps :
  odd_postings (rq_postings ps) = map (fun p => set_qty p (reread (p_qty p))) (odd_postings ps).
Proof.
  induction ps as [|a|a b l IH] using list_pair_ind; try reflexivity.
  cbn [rq_postings odd_postings map]. now rewrite IH.
Qed.

Lemma sdir_of_rq d : sdir_of_dir (rq_dir d) = rq_sdir (sdir_of_dir d).
Proof.
  destruct d as [dt c p t|dt a|dt a|dt bs|t]; try reflexivity.
  cbn [rq_dir sdir_of_dir rq_sdir]. f_equal. unfold stxn_of_txn, rq_txn.
  cbn [t_date t_desc t_postings t_targets st_date st_desc st_bookings st_targets st_accrual].
  f_equal. rewrite odd_postings_rq, !map_map. apply map_ext. intros p. reflexivity.
Qed.

Lemma canonical_rq ps : canonical ps -> canonical (rq_postings ps).
Proof.
  induction 1 as [|p1 p2 rest (H1 & H2 & H3 & H4 & H5) Hr IH]; [constructor|].
  cbn [rq_postings]. constructor; [|exact IH].
  unfold canonical_pair, set_qty. cbn [p_acc p_other p_com p_qty p_val].
  subst p1. cbn [p_acc p_other p_com p_qty p_val]. rewrite H3.
  repeat split; try assumption. rewrite reread_is_neg. exact H2.
Qed.

Lemma check_balances_rq bs : check_balances (map rq_balance bs) = check_balances bs.
Proof. induction bs as [|b bs IH]; [reflexivity|]. cbn [map check_balances rq_balance bal_acc]. now rewrite IH. Qed.

Lemma dir_ok_rq d : dir_ok d -> dir_ok (rq_dir d).
Proof.
  destruct d as [dt c p t|dt a|dt a|dt bs|t]; intros H; try exact H.
  - reflexivity.
  - unfold dir_ok in *. cbn [rq_dir sdir_of_dir parse_directive] in *. rewrite check_balances_rq.
    destruct (check_balances bs); cbn [mbind] in *; try discriminate. reflexivity.
  - unfold dir_ok. cbn [rq_dir sdir_of_dir parse_directive].
    rewrite txn_create_printed; [reflexivity|]. unfold rq_txn. cbn [t_postings].
    apply canonical_rq, dir_ok_txn_canonical, H.
Qed.

Theorem parse_rq ds : Forall dir_ok ds ->
  parse_directives (map rq_sdir (map sdir_of_dir ds)) = MOk (map rq_dir ds).
Proof.
  intros H. rewrite map_map. rewrite (map_ext _ (fun d => sdir_of_dir (rq_dir d))) by (intros; symmetry; apply sdir_of_rq).
  rewrite <- map_map. apply parse_directives_denoted, Forall_map. eapply Forall_impl; [apply dir_ok_rq|exact H].
Qed.

Definition map_builder (g : day -> day) (b : builder) : builder := mkBuilder (map g (b_days b)) (b_min b) (b_max b).

Lemma upd_day_map (g : day -> day) f f' : forall days dt,
  (forall x, d_date (g x) = d_date x) -> (forall x, g (f x) = f' (g x)) -> g (empty_day dt) = empty_day dt ->
  upd_day (map g days) dt f' = map g (upd_day days dt f).
Proof.
  intros days dt Hd Hf He. induction days as [|x days IH]; cbn [map upd_day].
  - now rewrite Hf, He.
  - rewrite Hd. destruct (dt =? d_date x); [cbn [map]; now rewrite Hf|].
    destruct (dt <? d_date x); cbn [map]; [now rewrite Hf, He|now rewrite IH].
Qed.

Lemma builder_touch_rel (R : day -> day -> Prop) b b' dates :
  (forall x y, R x y -> d_date x = d_date y) -> (forall dt, R (empty_day dt) (empty_day dt)) ->
  Forall2 R (b_days b) (b_days b') -> Forall2 R (b_days (builder_touch b dates)) (b_days (builder_touch b' dates)).
Proof.
  intros Hdate Hempty. unfold builder_touch. cbn [b_days]. generalize (b_days b) (b_days b').
  induction dates as [|dt dates IH]; intros l l' H; cbn [fold_left]; [exact H|]. apply IH. clear IH.
  induction H as [|x y l l' Hx Hl IH]; cbn [upd_day]; [constructor; [apply Hempty|constructor]|].
  rewrite <- (Hdate x y Hx). destruct (dt =? d_date x); [constructor; assumption|].
  destruct (dt <? d_date x); constructor; try assumption; [apply Hempty|constructor; assumption].
Qed.

Lemma ddate_rq d : ddate (rq_dir d) = ddate d.
Proof. destruct d; reflexivity. Qed.

Lemma rq_day_add d x : rq_day (add_to_day d x) = add_to_day (rq_dir d) (rq_day x).
Proof.
  destruct d as [dt c p t|dt a|dt a|dt bs|t]; unfold rq_day, add_to_day, add_txn_day;
    cbn [rq_dir d_date d_prices d_opens d_txns d_asserts d_closes d_normalized]; rewrite ?map_app; reflexivity.
Qed.

Lemma builder_add_rq b d : builder_add (map_builder rq_day b) (rq_dir d) = map_builder rq_day (builder_add b d).
Proof.
  assert (Hdays : b_days (builder_add (map_builder rq_day b) (rq_dir d)) = map rq_day (b_days (builder_add b d))).
  { rewrite !builder_add_days, ddate_rq. unfold map_builder. cbn [b_days].
    apply upd_day_map; [reflexivity|apply rq_day_add|reflexivity]. }
  destruct d as [dt c p t|dt a|dt a|dt bs|t]; unfold map_builder in *;
    cbn [builder_add rq_dir b_days b_min b_max rq_txn t_date] in *; rewrite Hdays; reflexivity.
Qed.

Theorem builder_of_rq ds : builder_of (map rq_dir ds) = map_builder rq_day (builder_of ds).
Proof.
  induction ds as [|d ds IH] using rev_ind.
  { (* without evaluating max_date *) cbv [builder_of map fold_left map_builder new_builder b_days b_min b_max]. reflexivity. }
  rewrite map_app. cbn [map]. rewrite !builder_of_snoc, IH. apply builder_add_rq.
Qed.

Lemma day_directives_rq x : day_directives (rq_day x) = map rq_dir (day_directives x).
Proof.
  unfold day_directives, rq_day. cbn [d_date d_prices d_opens d_txns d_asserts d_closes].
  rewrite !map_app, !map_map. repeat f_equal.
Qed.

Lemma flat_day_directives_rq D : flat_map day_directives (map rq_day D) = map rq_dir (flat_map day_directives D).
Proof. induction D as [|x D IH]; [reflexivity|]. cbn [map flat_map]. now rewrite map_app, day_directives_rq, IH. Qed.

Lemma deqv_of_eqv a b : dec_eqv a b -> dec_equal a b = true.
Proof. unfold dec_eqv, coef_at. intros H. apply dec_equal_min. unfold scale_to, pow10. exact H. Qed.

Lemma deqv_reread q : dec_equal (reread q) q = true.
Proof. apply deqv_of_eqv, reread_eqv. Qed.

Lemma deqv_neg a b : dec_equal a b = true -> dec_equal (neg a) (neg b) = true.
Proof.
  intros H. apply dec_equal_min in H. apply dec_equal_min. unfold scale_to, neg in *. cbn [coef ex].
  rewrite !Z.mul_opp_l. now rewrite H.
Qed.

Lemma posting_cmp_set_qty p r a b :
  dec_equal a (p_qty p) = true -> dec_equal b (p_qty r) = true ->
  posting_cmp (set_qty p a) (set_qty r b) = posting_cmp p r.
Proof.
  intros Ha Hb. unfold posting_cmp, set_qty. cbn [p_acc p_other p_qty p_val p_com].
  now rewrite (dec_cmp_eqv_l _ _ _ Ha), (dec_cmp_eqv_r _ _ _ Hb).
Qed.

Lemma postings_cmp_rq ps : canonical ps -> forall qs, canonical qs ->
  postings_cmp (rq_postings ps) (rq_postings qs) = postings_cmp ps qs.
Proof.
  induction 1 as [|p1 p2 rest (H1 & _) Hr IH]; intros qs Hq.
  - destruct Hq; reflexivity.
  - destruct Hq as [|r1 r2 rest' (K1 & _) Hr']; [reflexivity|].
    cbn [rq_postings postings_cmp]. subst p1 r1.
    rewrite !posting_cmp_set_qty, (IH rest' Hr'); try reflexivity; cbn [p_qty];
      try apply deqv_reread; apply deqv_neg, deqv_reread.
Qed.

Lemma txn_ltb_rq a b : txn_canonical a -> txn_canonical b -> txn_ltb (rq_txn a) (rq_txn b) = txn_ltb a b.
Proof.
  intros Ha Hb. unfold txn_ltb, txn_cmp, rq_txn. cbn [t_date t_desc t_postings].
  now rewrite postings_cmp_rq.
Qed.

Lemma insert_sorted_map {A} (lt : A -> A -> bool) (f : A -> A) x l :
  (forall y, In y l -> lt (f x) (f y) = lt x y) ->
  insert_sorted lt (f x) (map f l) = map f (insert_sorted lt x l).
Proof.
  induction l as [|y l IH]; intros H; [reflexivity|]. cbn [map insert_sorted].
  rewrite (H y (or_introl eq_refl)). destruct (lt x y); [reflexivity|].
  cbn [map]. rewrite IH by (intros z Hz; apply H; now right). reflexivity.
Qed.

Lemma sort_by_map {A} (lt : A -> A -> bool) (f : A -> A) l :
  (forall x y, In x l -> In y l -> lt (f x) (f y) = lt x y) ->
  sort_by lt (map f l) = map f (sort_by lt l).
Proof.
  induction l as [|x l IH] using rev_ind; intros H; [reflexivity|].
  rewrite map_app. cbn [map]. rewrite !sort_by_snoc.
  rewrite IH by (intros a b Ha Hb; apply H; apply in_or_app; now left).
  apply insert_sorted_map. intros y Hy. apply H; apply in_or_app; [right; now left|left].
  eapply Permutation_in; [apply StrProofs.sort_by_perm|exact Hy].
Qed.

Definition day_canonical (x : day) : Prop := Forall txn_canonical (d_txns x).

Lemma sort_days_rq D : Forall day_canonical D -> sort_days (map rq_day D) = map rq_day (sort_days D).
Proof.
  unfold sort_days. intros H. rewrite !map_map. apply map_ext_in. intros x Hx.
  rewrite Forall_forall in H. specialize (H x Hx). unfold day_canonical in H. rewrite Forall_forall in H.
  unfold set_txns, rq_day. cbn [d_date d_prices d_opens d_txns d_asserts d_closes d_normalized].
  f_equal. apply sort_by_map. intros a b Ha Hb. apply txn_ltb_rq; now apply H.
Qed.

Lemma print_posting_rq pad p : print_posting pad (set_qty p (reread (p_qty p))) = print_posting pad p.
Proof. unfold print_posting, set_qty. cbn [p_acc p_other p_qty p_com]. now rewrite to_string_reread. Qed.

Lemma print_txn_rq pad t : print_txn pad (rq_txn t) = print_txn pad t.
Proof.
  unfold print_txn, rq_txn. cbn [t_date t_desc t_postings t_targets].
  rewrite odd_postings_rq, map_map.
  rewrite (map_ext _ (fun p => print_posting pad p ++ [10]))
    by (intros p; now rewrite print_posting_rq).
  reflexivity.
Qed.

Lemma print_price_rq dt x : print_price dt (rq_price x) = print_price dt x.
Proof. destruct x as [[c p] t]. unfold rq_price, print_price. cbn [fst snd]. now rewrite to_string_reread. Qed.

Lemma print_balance_line_rq b : print_balance_line (rq_balance b) = print_balance_line b.
Proof. unfold print_balance_line, rq_balance. cbn [bal_acc bal_qty bal_com]. now rewrite to_string_reread. Qed.

Lemma print_assertion_rq dt bs : print_assertion dt (map rq_balance bs) = print_assertion dt bs.
Proof.
  unfold print_assertion. f_equal. f_equal.
  destruct bs as [|b [|b2 bs]]; cbn [map].
  - reflexivity.
  - now rewrite print_balance_line_rq.
  - cbn [map concat]. rewrite !print_balance_line_rq, map_map.
    rewrite (map_ext _ (fun b => [10] ++ print_balance_line b))
      by (intros x; now rewrite print_balance_line_rq).
    reflexivity.
Qed.

Lemma print_asserts_rq dt l : print_asserts dt (map (map rq_balance) l) = print_asserts dt l.
Proof.
  induction l as [|a rest IH]; [reflexivity|]. cbn [map print_asserts]. rewrite print_assertion_rq.
  destruct rest as [|b rest']; [reflexivity|]. cbn [map] in *. rewrite IH.
  destruct a as [|x [|y a']]; reflexivity.
Qed.

Lemma print_day_rq pad x : print_day pad (rq_day x) = print_day pad x.
Proof.
  unfold print_day, rq_day. cbn [d_date d_prices d_opens d_txns d_asserts d_closes].
  rewrite print_asserts_rq, !map_map.
  rewrite (map_ext _ (fun y => print_price (d_date x) y ++ [10]))
    by (intros y; now rewrite print_price_rq).
  rewrite (map_ext _ (fun y => print_txn pad y ++ [10]))
    by (intros y; now rewrite print_txn_rq).
  destruct (d_prices x), (d_asserts x); reflexivity.
Qed.

Lemma padding_postings_rq (f : Z -> posting -> Z) ps :
  (forall pad p q, f pad (set_qty p q) = f pad p) ->
  forall pad, fold_left f (rq_postings ps) pad = fold_left f ps pad.
Proof.
  intros Hf. induction ps as [|a|a b l IH] using list_pair_ind; intros pad; try reflexivity.
  cbn [rq_postings fold_left]. now rewrite !Hf, IH.
Qed.

Lemma padding_of_rq D : padding_of (map rq_day D) = padding_of D.
Proof.
  unfold padding_of. generalize 0. induction D as [|x D IH]; intros pad; [reflexivity|].
  cbn [map fold_left]. rewrite IH. f_equal.
  unfold rq_day. cbn [d_txns]. generalize pad. clear. induction (d_txns x) as [|t ts IH]; intros pad; [reflexivity|].
  cbn [map fold_left]. rewrite IH. f_equal. unfold rq_txn. cbn [t_postings].
  apply padding_postings_rq. reflexivity.
Qed.

Theorem print_journal_rq D : Forall day_canonical D -> print_journal (map rq_day D) = print_journal D.
Proof.
  intros H. unfold print_journal. cbv zeta. rewrite (sort_days_rq D H), padding_of_rq, map_map.
  f_equal. apply map_ext. intros x. apply print_day_rq.
Qed.
