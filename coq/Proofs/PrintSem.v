(* C09 (a): ToModel as a function of the MEANING of a parsed file (Spec/FormatSpec.v sem:
   the strings cut out of the text), and the meaning that journal.Print gives every model
   directive ([sem_of_mdir]: ISO date, account names, Decimal.String, commodities, description,
   targets).  Converting that meaning back gives the printed directive with re-read quantities
   ([sem_get_printed]). *)
From Coq Require Import ZArith List Bool Lia.
From Knut Require Import Model.Bytes Model.Utf8 Model.UnicodeTables Model.Scanner Model.Parser Spec.FormatSpec.
From Knut Require Import Model.Str Model.Dec Model.Date Model.Account Model.Ledger Model.Journal Model.Table Model.Report Model.JPrinter Model.ToModel.
From Knut Require Import Proofs.DecNormalForm Proofs.PrintProofs Proofs.PrintRequant.
Import ListNotations.
Open Scope bool_scope.
Open Scope Z_scope.

Definition sem_get_date (s : Str.str) : mresult Z :=
  match parse_date_str s with Some d => MOk d | None => MErr e_date end.
Definition sem_get_dec (s : Str.str) : mresult dec :=
  match of_string s with Some d => MOk d | None => MErr e_decimal end.
Definition sem_get_account (a : sem_account) : mresult Account.account :=
  let x := acc_of_name (fst a) in mbind (check_account x) (fun _ => MOk x).
Definition sem_get_interval (s : Str.str) : mresult interval :=
  match parse_interval_str s with Some i => MOk i | None => MErr e_interval end.

Fixpoint sem_get_bookings (bs : list sem_booking) : mresult (list Ledger.booking) :=
  match bs with
  | [] => MOk []
  | b :: rest =>
    mbind (sem_get_account (sb_credit b)) (fun cr =>
    mbind (sem_get_account (sb_debit b)) (fun db =>
    mbind (sem_get_dec (sb_quantity b)) (fun q =>
    mbind (sem_get_bookings rest) (fun l =>
    MOk (Ledger.mkBooking cr db q (sb_commodity b) :: l)))))
  end.

Fixpoint sem_get_balances (bs : list (sem_account * Str.str * Str.str)) : mresult (list Ledger.balance) :=
  match bs with
  | [] => MOk []
  | b :: rest =>
    mbind (sem_get_account (fst (fst b))) (fun a =>
    mbind (sem_get_dec (snd (fst b))) (fun q =>
    mbind (sem_get_balances rest) (fun l =>
    MOk (Ledger.mkBalance a q (snd b) :: l))))
  end.

Definition sem_get_accrual (a : sem_accrual) : mresult Ledger.accrual :=
  mbind (sem_get_account (sa_account a)) (fun acc =>
  mbind (sem_get_date (sa_start a)) (fun s =>
  mbind (sem_get_date (sa_end a)) (fun e =>
  mbind (sem_get_interval (sa_interval a)) (fun iv =>
  MOk (Ledger.mkAccrual iv s e acc))))).

Definition sem_get_directive (d : sem_directive) : mresult sdirective :=
  match d with
  | SemTrx date desc bs perf accr =>
    mbind (mbind (sem_get_date date) (fun d =>
           mbind (sem_get_bookings bs) (fun bs' =>
           mbind (match accr with
                  | None => MOk None
                  | Some a => mbind (sem_get_accrual a) (fun a' => MOk (Some a'))
                  end) (fun ac =>
           MOk (mkStxn d desc bs' perf ac))))) (fun s => MOk (STxn s))
  | SemOpen date a =>
    mbind (sem_get_account a) (fun x => mbind (sem_get_date date) (fun dt => MOk (SOpen dt x)))
  | SemClose date a =>
    mbind (sem_get_account a) (fun x => mbind (sem_get_date date) (fun dt => MOk (SClose dt x)))
  | SemAssertion date bs =>
    mbind (sem_get_date date) (fun dt => mbind (sem_get_balances bs) (fun l => MOk (SAssert dt l)))
  | SemPrice date c p tg =>
    mbind (sem_get_date date) (fun dt => mbind (sem_get_dec p) (fun q => MOk (SPrice dt c q tg)))
  | SemInclude _ => MOk SInclude
  | SemNone => MErr e_unknown
  end.

Fixpoint sem_get_directives (ds : list sem_directive) : mresult (list sdirective) :=
  match ds with
  | [] => MOk []
  | d :: rest => mbind (sem_get_directive d) (fun s => mbind (sem_get_directives rest) (fun l => MOk (s :: l)))
  end.

Section WithText.
Variable t : Str.str.

Lemma get_bookings_sem bs : get_bookings t bs = sem_get_bookings (map (sem_of_booking t) bs).
Proof. induction bs as [|b bs IH]; [reflexivity|]. cbn [map get_bookings sem_get_bookings]. rewrite IH. reflexivity. Qed.

Lemma get_balances_sem bs :
  get_balances t bs =
  sem_get_balances (map (fun b => (sem_acc t (SynM.bl_account b), cut t (SynM.bl_quantity b), cut t (SynM.bl_commodity b))) bs).
Proof. induction bs as [|b bs IH]; [reflexivity|]. cbn [map get_balances sem_get_balances]. rewrite IH. reflexivity. Qed.

Lemma get_directive_sem d : get_directive t d = sem_get_directive (sem_of_directive t d).
Proof.
  unfold get_directive, sem_of_directive. destruct (SynM.d_body d) as [x|o|c|a|p|i|]; try reflexivity.
  - unfold get_txn. cbn [sem_get_directive]. rewrite get_bookings_sem.
    destruct (range_empty (SynM.ac_range (SynM.ad_accrual (SynM.tx_addons x)))); reflexivity.
  - cbn [sem_get_directive]. rewrite get_balances_sem. reflexivity.
Qed.

Lemma get_directives_sem ds : get_directives t ds = sem_get_directives (map (sem_of_directive t) ds).
Proof.
  induction ds as [|d ds IH]; [reflexivity|]. cbn [map get_directives sem_get_directives].
  rewrite get_directive_sem, IH. reflexivity.
Qed.
End WithText.

Lemma to_model_sem t f : to_model t f = sem_get_directives (sem t f).
Proof. unfold to_model, sem. apply get_directives_sem. Qed.

Definition sem_acc_of (a : Account.account) : sem_account := (acc_name a, false).
Definition sem_booking_of (p : posting) : sem_booking :=
  mkSemBooking (sem_acc_of (p_other p)) (sem_acc_of (p_acc p)) (to_string (p_qty p)) (p_com p).
Definition sem_balance_of (b : Ledger.balance) : sem_account * Str.str * Str.str :=
  (sem_acc_of (bal_acc b), to_string (bal_qty b), bal_com b).

Definition sem_of_mdir (d : Ledger.directive) : sem_directive :=
  match d with
  | DPrice dt c p t => SemPrice (format_date dt) c (to_string p) t
  | DOpen dt a => SemOpen (format_date dt) (sem_acc_of a)
  | DClose dt a => SemClose (format_date dt) (sem_acc_of a)
  | DAssert dt bs => SemAssertion (format_date dt) (map sem_balance_of bs)
  | DTxn t => SemTrx (format_date (t_date t)) (t_desc t) (map sem_booking_of (odd_postings (t_postings t)))
                     (t_targets t) None
  end.

(* what can be read back: years 0..9999, account names that split into their segments and are
   accepted by the registry *)
Definition date_printable (d : Z) : Prop := 0 <= year_of d <= 9999.
Definition acc_printable (a : Account.account) : Prop :=
  a <> [] /\ Forall PrintProofs.seg_ok a /\ valid_account a = true.

Definition mdir_printable (d : Ledger.directive) : Prop :=
  match d with
  | DPrice dt _ _ _ => date_printable dt
  | DOpen dt a => date_printable dt /\ acc_printable a
  | DClose dt a => date_printable dt /\ acc_printable a
  | DAssert dt bs => date_printable dt /\ Forall (fun b => acc_printable (bal_acc b)) bs
  | DTxn t => date_printable (t_date t) /\
              Forall (fun p => acc_printable (p_acc p) /\ acc_printable (p_other p)) (odd_postings (t_postings t))
  end.

Lemma sem_get_date_printed d : date_printable d -> sem_get_date (format_date d) = MOk d.
Proof. intros H. unfold sem_get_date. now rewrite parse_format_date. Qed.

Lemma sem_get_dec_printed q : sem_get_dec (to_string q) = MOk (reread q).
Proof. unfold sem_get_dec. now rewrite (proj1 (reread_spec q)). Qed.

Lemma sem_get_account_printed a : acc_printable a -> sem_get_account (sem_acc_of a) = MOk a.
Proof.
  intros (Hne & Hseg & Hv). unfold sem_get_account, sem_acc_of. cbn [fst].
  rewrite acc_name_roundtrip by assumption. now rewrite (check_account_ok _ Hv).
Qed.

Lemma sem_get_bookings_printed ps :
  Forall (fun p => acc_printable (p_acc p) /\ acc_printable (p_other p)) ps ->
  sem_get_bookings (map sem_booking_of ps) = MOk (map rq_booking (map booking_of ps)).
Proof.
  induction 1 as [|p ps (Ha & Ho) Hps IH]; [reflexivity|].
  cbn [map sem_get_bookings sem_booking_of sb_credit sb_debit sb_quantity sb_commodity].
  rewrite (sem_get_account_printed _ Ho), (sem_get_account_printed _ Ha), sem_get_dec_printed, IH. reflexivity.
Qed.

Lemma sem_get_balances_printed bs :
  Forall (fun b => acc_printable (bal_acc b)) bs ->
  sem_get_balances (map sem_balance_of bs) = MOk (map rq_balance bs).
Proof.
  induction 1 as [|b bs Hb Hbs IH]; [reflexivity|].
  cbn [map sem_get_balances sem_balance_of fst snd].
  rewrite (sem_get_account_printed _ Hb), sem_get_dec_printed, IH. reflexivity.
Qed.

Theorem sem_get_printed d : mdir_printable d ->
  sem_get_directive (sem_of_mdir d) = MOk (rq_sdir (sdir_of_dir d)).
Proof.
  destruct d as [dt c p t|dt a|dt a|dt bs|t]; cbn [mdir_printable sem_of_mdir sem_get_directive sdir_of_dir rq_sdir].
  - intros H. now rewrite (sem_get_date_printed _ H), sem_get_dec_printed.
  - intros [H Ha]. now rewrite (sem_get_account_printed _ Ha), (sem_get_date_printed _ H).
  - intros [H Ha]. now rewrite (sem_get_account_printed _ Ha), (sem_get_date_printed _ H).
  - intros [H Hb]. now rewrite (sem_get_date_printed _ H), (sem_get_balances_printed _ Hb).
  - intros [H Hp]. rewrite (sem_get_date_printed _ H), (sem_get_bookings_printed _ Hp). reflexivity.
Qed.

Theorem sem_get_all_printed ds : Forall mdir_printable ds ->
  sem_get_directives (map sem_of_mdir ds) = MOk (map rq_sdir (map sdir_of_dir ds)).
Proof.
  induction 1 as [|d ds Hd Hds IH]; [reflexivity|].
  cbn [map sem_get_directives]. now rewrite (sem_get_printed d Hd), IH.
Qed.
