(* C09 (a): the text of journal.Print is read back as the printed sequence with re-read
   quantities ([reparse_print_journal]): RoundTripFile.parse_woven on the woven form
   (PrintWeave.print_journal_woven) with the lexical facts of PrintLex.v, then ToModel on the
   meaning (PrintSem.sem_get_all_printed).  With the model-level normal form (PrintNormal.v) and
   the reports of value-equal journals (QuantValue.v) this gives the text-level statements of
   Properties/C09.v, all from [print_reread]. *)
From Coq Require Import ZArith List Bool Lia Permutation.
From Knut Require Import Model.Bytes Model.Utf8 Model.UnicodeTables Model.Scanner Model.Parser Model.SynPrinter
     Spec.FormatSpec Model.SynRender.
From Knut Require Import Model.Str Model.Dec Model.Date Model.Account Model.Ledger Model.Journal Model.Check Model.Pipeline
     Model.Table Model.Report Model.JPrinter Model.Cli Model.ToModel.
From Knut Require Import Spec.PrintSpec.
From Knut Require Import Proofs.ScannerProofs Proofs.RoundTripBase Proofs.RoundTripLeaf Proofs.RoundTripInv Proofs.RoundTripRuns
     Proofs.RoundTripFile Proofs.RoundTripTop Proofs.OrderCmd
     Proofs.PrintProofs Proofs.PrintRegroup Proofs.PrintRequant Proofs.PrintNormal Proofs.PrintReportsDirect Proofs.PrintSem Proofs.PrintWeave Proofs.PrintLex Proofs.QuantValue.
Import ListNotations.
Open Scope bool_scope.
Open Scope Z_scope.

Theorem parse_print_journal D : Forall mdir_lex (printed_model_dirs D) ->
  exists f, parse_text uletter udigit (print_journal D) = ParseOk f /\
            sem (print_journal D) f = map sem_of_mdir (printed_model_dirs D).
Proof.
  intros HL. set (t := print_journal D). set (E := mk_env udec uletter udigit t).
  assert (Hfuel : (length (e_text E) < e_fuel E)%nat) by (cbn [E mk_env e_text e_fuel]; lia).
  destruct (parse_woven E eq_refl Hfuel utf8_decoder_ok utf8_decoder_local unicode_class_ok
              (padding_of (sort_days D)) [] (days_gaps (sort_days D))
              (map sem_of_mdir (printed_model_dirs D))
              (map (mdir_text (padding_of (sort_days D))) (printed_model_dirs D))) as (f & Hp & Hs & _).
  - apply FL_newline_gaps.
    + apply Forall_forall. intros x Hx. apply in_map_iff in Hx. destruct Hx as (d & <- & Hd).
      rewrite Forall_forall in HL. apply lex_mdir. now apply HL.
    + rewrite map_length. unfold printed_model_dirs. symmetry. apply days_gaps_length.
    + apply days_gaps_nl.
  - apply render_all_mdirs. eapply Forall_impl; [|exact HL]. intros d. apply rc_mdir.
  - apply print_journal_woven.
  - exists f. split; [exact Hp|exact Hs].
Qed.

(* (a) of Properties/C09.v *)
Theorem reparse_print_journal D : Forall mdir_lex (printed_model_dirs D) ->
  reparse (print_journal D) = MOk (reparsed_dirs D).
Proof.
  intros HL. destruct (parse_print_journal D HL) as (f & Hp & Hs).
  unfold reparse. rewrite Hp, to_model_sem, Hs.
  unfold reparsed_dirs, printed_dirs. apply sem_get_all_printed.
  eapply Forall_impl; [|exact HL]. intros d. apply printable_mdir.
Qed.

(* what the parser guarantees of every journal it has read, stated on what the model layer makes
   of it (PrintLex.mdir_lex), and C04/C05's condition on account names *)
Definition lex_ok (ss : list sdirective) : Prop :=
  sd_syntactic ss /\ forall ds, parse_directives ss = MOk ds -> Forall mdir_lex ds.

Lemma printed_text l ss text :
  lex_ok ss -> printed (print_cmd l) ss text ->
  exists b, load ss = COk b /\ text = print_journal (b_days b) /\ reparse text = MOk (reparsed_dirs (b_days b)).
Proof.
  intros (Hs & HL) Hpr. destruct (proj1 (printed_iff print_journal l ss text) Hpr) as (_ & b & Hl & ->).
  exists b. split; [exact Hl|]. split; [reflexivity|].
  destruct (load_days ss b Hl) as (ds & Hp & ->). apply reparse_print_journal.
  eapply Permutation_Forall; [apply Permutation_sym, printed_model_dirs_perm|]. exact (HL ds Hp).
Qed.

Theorem reports_reparsed ss b :
  load ss = COk b ->
  (forall cfg, ceq eq (balance_csv cfg (printed_dirs (b_days b))) (balance_csv cfg (reparsed_dirs (b_days b)))) /\
  (forall cfg tc, ceq eq (balance_text cfg tc (printed_dirs (b_days b))) (balance_text cfg tc (reparsed_dirs (b_days b)))).
Proof.
  intros Hl. destruct (load_days ss b Hl) as (ds & Hp & ->).
  split; intros cfg; [|intros tc].
  - eapply (balance_csv_v cfg _ _ _ _ (load_printed_dirs ss ds Hp) (load_reparsed_dirs ss ds Hp)); cbn [b_days b_min b_max]; try reflexivity.
    exact (printed_days_v_rq ss ds Hp).
  - eapply (balance_text_v cfg tc _ _ _ _ (load_printed_dirs ss ds Hp) (load_reparsed_dirs ss ds Hp)); cbn [b_days b_min b_max]; try reflexivity.
    exact (printed_days_v_rq ss ds Hp).
Qed.

(* All of C09 for the one journal the text is read back as: the printed sequence [ss1], a
   permutation of the denoted directives with the journal's reports, with re-read quantities. *)
Theorem print_reread l ss text :
  lex_ok ss -> printed (print_cmd l) ss text ->
  exists ss1, Permutation ss1 (denote ss) /\ reparse text = MOk (map rq_sdir ss1) /\
    accepted l (map rq_sdir ss1) /\ printed (print_cmd l) (map rq_sdir ss1) text /\
    (forall cfg, ceq eq (balance_csv cfg ss1) (balance_csv cfg ss) /\
                 ceq eq (balance_csv cfg (map rq_sdir ss1)) (balance_csv cfg ss)) /\
    (forall cfg tc, ceq eq (balance_text cfg tc ss1) (balance_text cfg tc ss) /\
                    ceq eq (balance_text cfg tc (map rq_sdir ss1)) (balance_text cfg tc ss)).
Proof.
  intros HL Hpr. destruct (printed_text l ss text HL Hpr) as (b & Hl & _ & Hr).
  destruct (reports_reparsed ss b Hl) as (R1 & R2). destruct (reports_printed_dirs_direct ss b (proj1 HL) Hl) as (P1 & P2).
  exists (printed_dirs (b_days b)). fold (reparsed_dirs (b_days b)).
  split; [destruct (load_days ss b Hl) as (ds & Hp & ->); exact (printed_dirs_perm ss ds Hp)|].
  split; [exact Hr|].
  split; [apply (accepted_reparsed l ss b (proj1 HL) Hl), (printed_fixed_accepted l ss text Hpr)|].
  split; [exact (print_reparsed_dirs l ss b text (proj1 HL) Hl Hpr)|].
  split; [intros cfg|intros cfg tc]; (split; [apply ceq_eq_sym|eapply ceq_eq_trans; apply ceq_eq_sym]); eauto.
Qed.

(* C09_accepted and C09_idem: the printed text is read back, accepted, and printed again byte for byte *)
Theorem print_normal_form l ss text :
  lex_ok ss -> printed (print_cmd l) ss text -> normal_form (print_cmd l) l text.
Proof.
  intros HL Hpr. destruct (print_reread l ss text HL Hpr) as (ss1 & _ & Hr & Ha & Hp & _). now exists (map rq_sdir ss1).
Qed.

(* the text is read back as the re-quantised form of a permutation of the denoted directives
   whose reports are the journal's *)
Theorem print_same_reports_upto_requant l ss text :
  lex_ok ss -> no_conflicting_prices ss -> printed (print_cmd l) ss text ->
  exists ss1, reparse text = MOk (map rq_sdir ss1) /\ Permutation ss1 (denote ss) /\
    (forall cfg, ceq eq (balance_csv cfg ss1) (balance_csv cfg ss)) /\
    (forall cfg tc, ceq eq (balance_text cfg tc ss1) (balance_text cfg tc ss)).
Proof.
  intros HL _ Hpr. destruct (print_reread l ss text HL Hpr) as (ss1 & P & Hr & _ & _ & Hc & Ht).
  exists ss1. split; [exact Hr|]. split; [exact P|]. split; [intros cfg; apply Hc|intros cfg tc; apply Ht].
Qed.
