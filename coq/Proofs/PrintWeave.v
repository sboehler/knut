(* C09 (a): the text of journal.Print IS a woven text of the format printer.
   Every model directive is written exactly as Model/SynRender.v [render_sem] renders its meaning
   [PrintSem.sem_of_mdir] ([render_mdir]; a multi-line assertion's rendering includes the newline
   behind its last balance line), and between the directives journal.Print writes nothing but
   newlines ([days_zipcat], [day_gaps]).  Hence [print_journal days] =
   [weave ([] :: gaps) renderings] with a file structure FL whose gaps are runs of newlines
   ([print_journal_woven], [FL_newline_gaps]), which is what RoundTripFile.parse_woven reads. *)
From Coq Require Import ZArith List Bool Lia.
From Knut Require Import Model.Bytes Model.Utf8 Model.UnicodeTables Model.Scanner Model.Parser Model.SynPrinter
     Spec.FormatSpec Model.SynRender.
From Knut Require Import Model.Str Model.Dec Model.Date Model.Account Model.Ledger Model.Journal Model.Pipeline
     Model.Table Model.Report Model.JPrinter.
From Knut Require Import Proofs.BuilderProofs Proofs.RoundTripBase Proofs.RoundTripLeaf Proofs.RoundTripInv Proofs.RoundTripRuns
     Proofs.PrintProofs Proofs.PrintRegroup Proofs.PrintSem.
Import ListNotations.
Open Scope bool_scope.
Open Scope Z_scope.

Notation udec := Utf8M.decode.

(* fmt's rune count (Model/Table.v: non-continuation bytes) and the format printer's
   (decoding steps) agree on s *)
Definition rc_ok (s : Str.str) : Prop := Table.rune_count s = SynPrintM.rune_count udec s.

Definition posting_rc (p : posting) : Prop :=
  rc_ok (acc_name (p_other p)) /\ rc_ok (acc_name (p_acc p)) /\ rc_ok (to_string (p_qty p)).

Definition mdir_rc (d : Ledger.directive) : Prop :=
  match d with DTxn t => Forall posting_rc (odd_postings (t_postings t)) | _ => True end.

(* the bytes of one directive as the format printer delimits it *)
Definition mdir_text (pad : Z) (d : Ledger.directive) : Str.str :=
  match d with
  | DPrice dt c p t => print_price dt (c, p, t)
  | DOpen dt a => print_open dt a
  | DClose dt a => print_close dt a
  | DAssert dt bs => print_assertion dt bs ++ (match bs with [_] => [] | _ => [10] end)
  | DTxn t => print_txn pad t
  end.

Lemma join_same sep l : Str.join sep l = SynPrintM.join sep l.
Proof.
  induction l as [|x l IH]; [reflexivity|]. destruct l as [|y l]; [reflexivity|].
  change (Str.join sep (x :: y :: l)) with (x ++ sep ++ Str.join sep (y :: l)).
  change (SynPrintM.join sep (x :: y :: l)) with (x ++ sep ++ SynPrintM.join sep (y :: l)).
  now rewrite IH.
Qed.

Lemma render_posting_printed pad p : posting_rc p ->
  render_posting udec pad (sem_booking_of p) = print_posting pad p.
Proof.
  intros (H1 & H2 & H3). unfold render_posting, print_posting, sem_booking_of, sem_acc_of.
  cbn [sb_credit sb_debit sb_quantity sb_commodity fst].
  unfold SynPrintM.pad_right, SynPrintM.pad_left, JPrinter.pad_right, pad10, Table.pad_left.
  unfold rc_ok in *. rewrite <- H1, <- H2, <- H3. reflexivity.
Qed.

Lemma concat_nl_shift {A} (f : A -> Str.str) l :
  concat (map (fun b => [10] ++ f b) l) ++ [10] = [10] ++ concat (map (fun b => f b ++ [10]) l).
Proof.
  induction l as [|b l IH]; [reflexivity|]. cbn [map concat].
  rewrite <- ?app_assoc. rewrite IH. rewrite <- ?app_assoc. reflexivity.
Qed.

Theorem render_mdir pad d : mdir_rc d -> render_sem udec pad (sem_of_mdir d) = Some (mdir_text pad d).
Proof.
  destruct d as [dt c p t|dt a|dt a|dt bs|t]; cbn [mdir_rc sem_of_mdir render_sem mdir_text]; intros H; try reflexivity; f_equal.
  - unfold print_assertion. rewrite <- !app_assoc.
    apply (f_equal (app (format_date dt))). apply (f_equal (app JPrinter.s_balance)).
    destruct bs as [|b [|b2 bs]].
    + reflexivity.
    + cbn [map]. rewrite app_nil_r. reflexivity.
    + set (l := b :: b2 :: bs).
      change (map sem_balance_of l) with (sem_balance_of b :: sem_balance_of b2 :: map sem_balance_of bs).
      cbv iota beta.
      change (sem_balance_of b :: sem_balance_of b2 :: map sem_balance_of bs) with (map sem_balance_of l).
      rewrite map_map. symmetry. exact (concat_nl_shift print_balance_line l).
  - unfold print_txn. rewrite map_map, app_nil_l.
    rewrite (map_ext_in _ (fun p => print_posting pad p ++ [10]))
      by (intros p Hp; now rewrite (render_posting_printed pad p (proj1 (Forall_forall _ _) H p Hp))).
    destruct (t_targets t) as [ts|]; [rewrite <- join_same|]; reflexivity.
Qed.

Lemma render_all_mdirs pad ds : Forall mdir_rc ds ->
  render_all udec pad (map sem_of_mdir ds) = Some (map (mdir_text pad) ds).
Proof.
  induction 1 as [|d ds Hd Hds IH]; [reflexivity|]. cbn [map render_all]. now rewrite (render_mdir pad d Hd), IH.
Qed.

(* p1 ++ g1 ++ p2 ++ g2 ++ ... *)
Fixpoint zipcat (ps gs : list Str.str) : Str.str :=
  match ps, gs with
  | p :: ps', g :: gs' => p ++ g ++ zipcat ps' gs'
  | _, _ => []
  end.

Lemma zipcat_app p1 g1 p2 g2 : length p1 = length g1 ->
  zipcat (p1 ++ p2) (g1 ++ g2) = zipcat p1 g1 ++ zipcat p2 g2.
Proof.
  revert g1. induction p1 as [|p p1 IH]; intros [|g g1] H; cbn [length] in H; try discriminate; [reflexivity|].
  cbn [app zipcat]. rewrite IH by lia. now rewrite <- !app_assoc.
Qed.

Lemma weave_zipcat ps : forall gs g0, length ps = length gs -> weave (g0 :: gs) ps = g0 ++ zipcat ps gs.
Proof.
  induction ps as [|p ps IH]; intros [|g gs] g0 H; cbn [length] in H; try discriminate.
  - cbn [weave zipcat]. reflexivity.
  - rewrite weave_cons. cbn [zipcat]. rewrite IH by lia. reflexivity.
Qed.

(* behind the directives of a group (prices, opens, closes): a newline, and a blank line after the last *)
Fixpoint group_gaps {A} (l : list A) : list Str.str :=
  match l with
  | [] => []
  | [_] => [[10; 10]]
  | _ :: r => [10] :: group_gaps r
  end.

Fixpoint assert_gaps (l : list (list Ledger.balance)) : list Str.str :=
  match l with
  | [] => []
  | a :: rest => (match a, rest with [_], [] => [10; 10] | _, _ => [10] end) :: assert_gaps rest
  end.

Definition day_gaps (d : day) : list Str.str :=
  group_gaps (d_prices d) ++ group_gaps (d_opens d) ++ map (fun _ => [10]) (d_txns d) ++
  assert_gaps (d_asserts d) ++ group_gaps (d_closes d).

Lemma group_gaps_length {A} (l : list A) : length (group_gaps l) = length l.
Proof. induction l as [|x [|y l] IH]; cbn [group_gaps length] in *; try reflexivity. now rewrite IH. Qed.

Lemma assert_gaps_length l : length (assert_gaps l) = length l.
Proof. induction l as [|a l IH]; [reflexivity|]. cbn [assert_gaps length]. now rewrite IH. Qed.

Lemma group_zipcat {A} (f : A -> Str.str) l :
  concat (map (fun x => f x ++ [10]) l) ++ (match l with [] => [] | _ => [10] end) = zipcat (map f l) (group_gaps l).
Proof.
  induction l as [|x [|y l] IH]; [reflexivity| |].
  - cbn [map concat group_gaps zipcat]. rewrite !app_nil_r, <- app_assoc. reflexivity.
  - change (map (fun x => f x ++ [10]) (x :: y :: l)) with ((f x ++ [10]) :: map (fun x => f x ++ [10]) (y :: l)).
    change (group_gaps (x :: y :: l)) with ([10] :: group_gaps (y :: l)).
    change (map f (x :: y :: l)) with (f x :: map f (y :: l)).
    cbn [concat zipcat]. rewrite <- IH, <- !app_assoc. reflexivity.
Qed.

Lemma txns_zipcat (f : txn -> Str.str) l :
  concat (map (fun x => f x ++ [10]) l) = zipcat (map f l) (map (fun _ => [10]) l).
Proof. induction l as [|x l IH]; [reflexivity|]. cbn [map concat zipcat]. now rewrite IH, <- app_assoc. Qed.

Lemma print_asserts_cons2 dt a b rest :
  print_asserts dt (a :: b :: rest) =
  print_assertion dt a ++ [10] ++ (match a with [_] => [] | _ => [10] end) ++ print_asserts dt (b :: rest).
Proof. reflexivity. Qed.

Lemma assert_gaps_cons2 a b rest : assert_gaps (a :: b :: rest) = [10] :: assert_gaps (b :: rest).
Proof. destruct a as [|x [|y a']]; reflexivity. Qed.

Lemma asserts_zipcat pad dt l :
  print_asserts dt l ++ (match l with [] => [] | _ => [10] end) =
  zipcat (map (fun a => mdir_text pad (DAssert dt a)) l) (assert_gaps l).
Proof.
  induction l as [|a rest IH]; [reflexivity|].
  destruct rest as [|b rest'].
  - cbn [map assert_gaps zipcat print_asserts mdir_text].
    destruct a as [|x [|y a']]; rewrite ?app_nil_r, <- ?app_assoc; reflexivity.
  - rewrite print_asserts_cons2, assert_gaps_cons2.
    change (map (fun a0 => mdir_text pad (DAssert dt a0)) (a :: b :: rest'))
      with (mdir_text pad (DAssert dt a) :: map (fun a0 => mdir_text pad (DAssert dt a0)) (b :: rest')).
    cbn [zipcat]. rewrite <- IH. cbn [mdir_text]. rewrite <- !app_assoc.
    destruct a as [|x [|y a']]; reflexivity.
Qed.

Lemma print_day_zipcat pad d :
  print_day pad d = zipcat (map (mdir_text pad) (day_directives d)) (day_gaps d).
Proof.
  unfold print_day, day_directives, day_gaps. rewrite !map_app, !map_map.
  rewrite !zipcat_app by (rewrite ?map_length; first [symmetry; apply group_gaps_length|symmetry; apply assert_gaps_length|reflexivity]).
  rewrite <- (group_zipcat (fun x => mdir_text pad (price_directive (d_date d) x)) (d_prices d)).
  rewrite <- (group_zipcat (fun x => mdir_text pad (DOpen (d_date d) x)) (d_opens d)).
  rewrite <- (group_zipcat (fun x => mdir_text pad (DClose (d_date d) x)) (d_closes d)).
  rewrite <- (txns_zipcat (fun x => mdir_text pad (DTxn x)) (d_txns d)).
  rewrite <- (asserts_zipcat pad (d_date d) (d_asserts d)).
  rewrite <- !app_assoc.
  rewrite (map_ext (fun x => mdir_text pad (price_directive (d_date d) x) ++ [10]) (fun x => print_price (d_date d) x ++ [10]))
    by (intros [[c p] t]; reflexivity).
  reflexivity.
Qed.

Definition days_gaps (D : list day) : list Str.str := flat_map day_gaps D.

Lemma day_gaps_length d : length (day_gaps d) = length (day_directives d).
Proof.
  unfold day_gaps, day_directives. rewrite !app_length, !map_length, !group_gaps_length, assert_gaps_length. reflexivity.
Qed.

Lemma days_zipcat pad D :
  concat (map (print_day pad) D) = zipcat (map (mdir_text pad) (flat_map day_directives D)) (days_gaps D).
Proof.
  induction D as [|d D IH]; [reflexivity|]. cbn [map concat flat_map days_gaps].
  rewrite map_app, zipcat_app by (rewrite map_length; symmetry; apply day_gaps_length).
  now rewrite print_day_zipcat, IH.
Qed.

Lemma days_gaps_length D : length (days_gaps D) = length (flat_map day_directives D).
Proof. induction D as [|d D IH]; [reflexivity|]. cbn [days_gaps flat_map]. rewrite !app_length, day_gaps_length. unfold days_gaps in IH. now rewrite IH. Qed.

Theorem print_journal_woven D :
  print_journal D =
  weave ([] :: days_gaps (sort_days D))
        (map (mdir_text (padding_of (sort_days D))) (printed_model_dirs D)).
Proof.
  unfold print_journal, printed_model_dirs. cbv zeta. rewrite days_zipcat.
  rewrite weave_zipcat by (rewrite map_length; symmetry; apply days_gaps_length). reflexivity.
Qed.

Definition nl_run (g : Str.str) : Prop := exists n, g = repeat 10 (S n).

Lemma group_gaps_nl {A} (l : list A) : Forall nl_run (group_gaps l).
Proof.
  induction l as [|x [|y l] IH]; cbn [group_gaps]; [constructor| |].
  - constructor; [exists 1%nat; reflexivity|constructor].
  - constructor; [exists 0%nat; reflexivity|exact IH].
Qed.

Lemma assert_gaps_nl l : Forall nl_run (assert_gaps l).
Proof.
  induction l as [|a l IH]; cbn [assert_gaps]; constructor; [|exact IH].
  destruct a as [|x [|y a']], l; (exists 0%nat; reflexivity) || (exists 1%nat; reflexivity).
Qed.

Lemma days_gaps_nl D : Forall nl_run (days_gaps D).
Proof.
  induction D as [|d D IH]; [constructor|]. cbn [days_gaps flat_map]. apply Forall_app. split; [|exact IH].
  unfold day_gaps. repeat (apply Forall_app; split); try apply group_gaps_nl; try apply assert_gaps_nl.
  apply Forall_forall. intros g Hg. apply in_map_iff in Hg. destruct Hg as (_ & <- & _). exists 0%nat. reflexivity.
Qed.

Section FLNewlines.
Variables letter digit : Z -> bool.
Notation FL := (FL udec letter digit).
Notation LexDir := (LexDir udec letter digit).

Lemma FL_nl_run n gst ds : FL MHead [] gst ds -> FL MNL (repeat 10 (S n)) gst ds.
Proof.
  intros H. induction n as [|n IH]; cbn [repeat].
  - now apply FL_nl.
  - apply FL_nl. apply (FL_blank udec letter digit [] (repeat 10 (S n)) gst ds); [constructor|discriminate|exact IH].
Qed.

Theorem FL_newline_gaps sems : forall gs,
  Forall LexDir sems -> length sems = length gs -> Forall nl_run gs -> FL MHead [] gs sems.
Proof.
  induction sems as [|d ds IH]; intros [|g gs] Hl Hlen Hg; cbn [length] in Hlen; try discriminate.
  - apply FL_eof.
  - inversion Hl as [|? ? Hd Hds]; subst. inversion Hg as [|? ? (n & ->) Hgs]; subst.
    apply (FL_dir udec letter digit d ds [] (repeat 10 (S n)) gs); [exact Hd|constructor|]. apply FL_nl_run. apply IH; [exact Hds|lia|exact Hgs].
Qed.
End FLNewlines.
