(* C09 (b), reports: the decimal operations of the valuation stages respect value equality.
   Mul, Sub, Cmp by values (Proofs/DecValue.v); Truncate and DivRound by the integer arithmetic of
   their definitions: value-equal arguments differ by a power of ten in the coefficient, which
   cancels in big.Int.Quo ([truncate_deqv], [div_deqv]: the quotient of value-equal arguments is
   the same record). *)
From Coq Require Import ZArith QArith List Bool Lia.
From Knut Require Import Model.Str Model.Dec Model.Ledger Model.Price Model.Pipeline.
From Knut Require Import Spec.TableSpec Proofs.DecProofs Proofs.DecEqProofs Proofs.DecValue Proofs.DecNormalForm Proofs.TxnOrder
     Proofs.PrintRequant Proofs.QuantReport.
Import ListNotations.
Open Scope bool_scope.
Open Scope Z_scope.

Lemma deqv_value a b : deqv a b <-> (dvalue a == dvalue b)%Q.
Proof. apply dec_equal_value. Qed.

Lemma mul_deqv a a' b b' : deqv a a' -> deqv b b' -> deqv (mul a b) (mul a' b').
Proof. rewrite !deqv_value, !dvalue_mul. intros -> ->. reflexivity. Qed.

Lemma sub_deqv a a' b b' : deqv a a' -> deqv b b' -> deqv (sub a b) (sub a' b').
Proof. rewrite !deqv_value, !dvalue_sub. intros -> ->. reflexivity. Qed.

Lemma deqv_sgn a b : deqv a b -> Z.sgn (coef a) = Z.sgn (coef b).
Proof. intros H. apply dec_eqv_sign, eqv_of_deqv, H. Qed.

(* the finer of two value-equal decimals has the coarser one's coefficient times a power of ten *)

Lemma deqv_finer a b : deqv a b -> ex a <= ex b -> coef a = coef b * 10 ^ (ex b - ex a).
Proof.
  intros H L. apply (dec_equal_scaled a b (ex a)) in H; [|lia|lia].
  rewrite scale_to_self in H. unfold scale_to, pow10 in H. exact H.
Qed.

Lemma finer_deqv a b : ex a <= ex b -> coef a = coef b * 10 ^ (ex b - ex a) -> deqv a b.
Proof.
  intros L H. apply (dec_equal_scaled a b (ex a)); [lia|lia|]. rewrite scale_to_self. unfold scale_to, pow10. exact H.
Qed.

Lemma p10_nz k : 0 <= k -> 10 ^ k <> 0.
Proof. intros H. pose proof (Z.pow_pos_nonneg 10 k ltac:(lia) H). lia. Qed.

Lemma truncate_finer a b p : 0 <= p -> deqv a b -> ex a <= ex b -> deqv (truncate a p) (truncate b p).
Proof.
  intros Hp H L. pose proof (deqv_finer a b H L) as Hc. unfold truncate. replace (0 <=? p) with true by lia. cbn [andb].
  destruct (ex b <? - p) eqn:Eb.
  - replace (ex a <? - p) with true by lia. rewrite !rescale_up by lia. unfold pow10.
    replace (coef a ÷ 10 ^ (- p - ex a)) with (coef b ÷ 10 ^ (- p - ex b)); [apply deqv_refl|].
    rewrite Hc. replace (- p - ex a) with ((- p - ex b) + (ex b - ex a)) by lia.
    rewrite Z.pow_add_r by lia. symmetry. apply Z.quot_mul_cancel_r; apply p10_nz; lia.
  - destruct (ex a <? - p) eqn:Ea; [|exact H]. rewrite rescale_up by lia. unfold pow10.
    apply finer_deqv; cbn [ex coef]; [lia|]. rewrite Hc.
    replace (ex b - ex a) with ((ex b - - p) + (- p - ex a)) by lia. rewrite Z.pow_add_r by lia.
    rewrite Z.mul_assoc, Z.quot_mul by (apply p10_nz; lia). reflexivity.
Qed.

Theorem truncate_deqv a b p : 0 <= p -> deqv a b -> deqv (truncate a p) (truncate b p).
Proof.
  intros Hp H. destruct (Z.le_ge_cases (ex a) (ex b)) as [L|G].
  - now apply truncate_finer.
  - apply deqv_sym. apply truncate_finer; [exact Hp|now apply deqv_sym|lia].
Qed.

Lemma multiply_deqv a a' b b' : deqv a a' -> deqv b b' -> deqv (multiply a b) (multiply a' b').
Proof. intros Ha Hb. unfold multiply. apply truncate_deqv; [lia|now apply mul_deqv]. Qed.

Definition qr_rel (x y : dresult (dec * dec)) : Prop :=
  match x, y with
  | DOk (q, r), DOk (q', r') => q = q' /\ deqv r r'
  | DPanic, DPanic => True
  | _, _ => False
  end.

Lemma qr_rel_sym x y : qr_rel x y -> qr_rel y x.
Proof. destruct x as [[q r]|], y as [[q' r']|]; cbn; try tauto. intros [-> H]. split; [reflexivity|now apply deqv_sym]. Qed.

Lemma qr_rel_trans x y z : qr_rel x y -> qr_rel y z -> qr_rel x z.
Proof.
  destruct x as [[q r]|], y as [[q' r']|], z as [[q'' r'']|]; cbn; try tauto.
  intros [-> H1] [-> H2]. split; [reflexivity|eapply deqv_trans; eassumption].
Qed.

(* QuoRem divides the two coefficients brought to the common exponent m = min (ex d) (ex d2 - prec);
   the remainder has exponent m *)
Lemma quo_rem_norm d d2 prec : coef d2 <> 0 ->
  let m := Z.min (ex d) (ex d2 - prec) in
  let a := coef d * 10 ^ (ex d - m) in
  let b := coef d2 * 10 ^ (ex d2 - prec - m) in
  quo_rem d d2 prec = DOk (mkDec (a ÷ b) (- prec), mkDec (Z.rem a b) m).
Proof.
  intros NZ. cbv zeta. unfold quo_rem, pow10. replace (coef d2 =? 0) with false by lia.
  destruct (ex d - ex d2 - - prec <? 0) eqn:E.
  - replace (Z.min (ex d) (ex d2 - prec)) with (ex d) by lia.
    replace (- (ex d - ex d2 - - prec)) with (ex d2 - prec - ex d) by lia.
    now rewrite Z.sub_diag, Z.mul_1_r.
  - replace (Z.min (ex d) (ex d2 - prec)) with (ex d2 - prec) by lia.
    replace (ex d - ex d2 - - prec) with (ex d - (ex d2 - prec)) by lia.
    replace (- prec + ex d2) with (ex d2 - prec) by lia.
    now rewrite Z.sub_diag, Z.mul_1_r.
Qed.

(* in finer representations both coefficients are scaled by the same power of ten *)
Lemma quo_rem_finer d d' d2 d2' prec :
  deqv d' d -> ex d' <= ex d -> deqv d2' d2 -> ex d2' <= ex d2 -> qr_rel (quo_rem d d2 prec) (quo_rem d' d2' prec).
Proof.
  intros H L H2 L2.
  remember (Z.min (ex d) (ex d2 - prec)) as m eqn:Em. remember (Z.min (ex d') (ex d2' - prec)) as m' eqn:Em'.
  (* the exponent arithmetic first, while the context holds nothing nonlinear for lia to chew on *)
  assert (Lm : 0 <= m - m' /\ 0 <= ex d - m /\ 0 <= ex d2 - prec - m /\ 0 <= ex d2 - ex d2') by lia.
  assert (Xa : ex d - ex d' + (ex d' - m') = ex d - m + (m - m')) by lia.
  assert (Xb : ex d2 - ex d2' + (ex d2' - prec - m') = ex d2 - prec - m + (m - m')) by lia.
  assert (Xd : 0 <= ex d - ex d' /\ 0 <= ex d' - m' /\ 0 <= ex d2' - prec - m') by lia.
  destruct Lm as (Lm & La & Lb & L2'), Xd as (Xd1 & Xd2 & Xd3).
  pose proof (deqv_finer d' d H L) as Hc. pose proof (deqv_finer d2' d2 H2 L2) as Hc2.
  pose proof (p10_nz (ex d2 - ex d2') L2') as P2.
  destruct (Z.eq_dec (coef d2) 0) as [Z0|NZ].
  { unfold quo_rem. rewrite Hc2, Z0. exact I. }
  assert (NZ' : coef d2' <> 0) by (rewrite Hc2; apply Z.neq_mul_0; split; assumption).
  rewrite (quo_rem_norm d d2 prec NZ), (quo_rem_norm d' d2' prec NZ'). cbv zeta. rewrite <- Em, <- Em'.
  assert (Ea : coef d' * 10 ^ (ex d' - m') = coef d * 10 ^ (ex d - m) * 10 ^ (m - m')).
  { rewrite Hc, <- !Z.mul_assoc, <- !Z.pow_add_r by assumption. rewrite Xa. reflexivity. }
  assert (Eb : coef d2' * 10 ^ (ex d2' - prec - m') = coef d2 * 10 ^ (ex d2 - prec - m) * 10 ^ (m - m')).
  { rewrite Hc2, <- !Z.mul_assoc, <- !Z.pow_add_r by assumption. rewrite Xb. reflexivity. }
  rewrite Ea, Eb.
  assert (B : coef d2 * 10 ^ (ex d2 - prec - m) <> 0) by (apply Z.neq_mul_0; split; [exact NZ|apply p10_nz; exact Lb]).
  rewrite Z.quot_mul_cancel_r, Z.mul_rem_distr_r by (try exact B; apply p10_nz; exact Lm).
  split; [reflexivity|]. apply deqv_sym, finer_deqv; cbn [ex coef]; [|reflexivity].
  clear -Lm. lia.
Qed.

(* of two value-equal decimals one is the finer *)
Lemma common_finer d d' : deqv d d' -> exists f, deqv f d /\ ex f <= ex d /\ deqv f d' /\ ex f <= ex d'.
Proof.
  intros H. destruct (Z.le_ge_cases (ex d) (ex d')); [exists d|exists d'];
    (split; [|split; [|split]]); try apply deqv_refl; try exact H; try (now apply deqv_sym); lia.
Qed.

Theorem quo_rem_deqv d d' d2 d2' prec : deqv d d' -> deqv d2 d2' -> qr_rel (quo_rem d d2 prec) (quo_rem d' d2' prec).
Proof.
  intros Hd Hd2. destruct (common_finer d d' Hd) as (f & F1 & L1 & F1' & L1'), (common_finer d2 d2' Hd2) as (f2 & F2 & L2 & F2' & L2').
  apply (qr_rel_trans _ (quo_rem f f2 prec)); [|apply qr_rel_sym]; now apply quo_rem_finer.
Qed.

Theorem div_round_deqv d d' d2 d2' prec : deqv d d' -> deqv d2 d2' -> div_round d d2 prec = div_round d' d2' prec.
Proof.
  intros Hd Hd2. unfold div_round. pose proof (quo_rem_deqv d d' d2 d2' prec Hd Hd2) as H.
  destruct (quo_rem d d2 prec) as [[q r]|], (quo_rem d' d2' prec) as [[q' r']|]; cbn [qr_rel] in H; try contradiction; [|reflexivity].
  destruct H as [<- Hr].
  assert (Hr2 : deqv (mkDec (Z.abs (coef r) * 2) (ex r + prec)) (mkDec (Z.abs (coef r') * 2) (ex r' + prec))).
  { assert (E : forall x, mkDec (Z.abs (coef x) * 2) (ex x + prec) = mul (dabs x) (mkDec 2 prec)).
    { intros x. unfold mul, dabs. destruct (coef x <? 0) eqn:E; cbn [coef ex]; f_equal; lia. }
    rewrite !E. apply mul_deqv; [now apply deqv_dabs|apply deqv_refl]. }
  rewrite (cmp_deqv _ _ _ _ Hr2 (deqv_dabs _ _ Hd2)), (deqv_sgn _ _ Hd), (deqv_sgn _ _ Hd2). reflexivity.
Qed.

Theorem div_deqv d d' d2 d2' : deqv d d' -> deqv d2 d2' -> div d d2 = div d' d2'.
Proof. apply div_round_deqv. Qed.
