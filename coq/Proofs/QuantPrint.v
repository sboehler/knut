(* C09_roundtrip and C09_same_reports, read off PrintText.print_reread. *)
From Coq Require Import ZArith List Bool.
From Knut Require Import Model.Str Model.Dec Model.Date Model.Account Model.Ledger Model.Journal
     Model.Check Model.Pipeline Model.Table Model.Report Model.JPrinter Model.Cli Model.ToModel.
From Knut Require Import Spec.PrintSpec.
From Knut Require Import Proofs.OrderCmd Proofs.PrintRequant Proofs.PrintText.
Import ListNotations.
Open Scope bool_scope.
Open Scope Z_scope.

(* all of C09 for one and the same re-read journal *)
Theorem print_roundtrip l ss text :
  lex_ok ss -> printed (print_cmd l) ss text ->
  exists ss', reparse text = MOk ss' /\ accepted l ss' /\ printed (print_cmd l) ss' text /\
    (forall cfg, ceq eq (balance_csv cfg ss') (balance_csv cfg ss)) /\
    (forall cfg tc, ceq eq (balance_text cfg tc ss') (balance_text cfg tc ss)).
Proof.
  intros HL Hpr. destruct (print_reread l ss text HL Hpr) as (ss1 & _ & Hr & Ha & Hp & Hc & Ht).
  exists (map rq_sdir ss1). repeat (split; [assumption|]). split; [intros cfg; apply Hc|intros cfg tc; apply Ht].
Qed.

(* C09_same_reports *)
Theorem print_same_reports l ss text :
  lex_ok ss -> printed (print_cmd l) ss text ->
  exists ss', reparse text = MOk ss' /\
    (forall cfg, ceq eq (balance_csv cfg ss') (balance_csv cfg ss)) /\
    (forall cfg tc, ceq eq (balance_text cfg tc ss') (balance_text cfg tc ss)).
Proof.
  intros HL Hpr. destruct (print_roundtrip l ss text HL Hpr) as (ss' & Hr & _ & _ & Hrep). now exists ss'.
Qed.

Theorem print_same_reports_unvalued l ss text :
  lex_ok ss -> no_conflicting_prices ss -> printed (print_cmd l) ss text ->
  exists ss', reparse text = MOk ss' /\
    forall cfg, bc_valuation cfg = None -> ceq eq (balance_csv cfg ss') (balance_csv cfg ss).
Proof.
  intros HL _ Hpr. destruct (print_same_reports l ss text HL Hpr) as (ss' & Hr & Hcsv & _).
  exists ss'. split; [exact Hr|]. intros cfg _. apply Hcsv.
Qed.
