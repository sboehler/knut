(* C09 (b), reports: Report.Insert, the sort and the renderer of the balance report see the
   VALUES of amounts only.  Report trees with the same shape and keys and pairwise value-equal
   amounts ([report_v]) render to tables that agree in everything but the representation of the
   numbers in their numeric cells ([table_v], [render_report_v]); such tables have the same CSV
   bytes ([render_csv_v]: Decimal.String is a function of the value, DecStringValue.to_string_value). *)
From Coq Require Import ZArith List Bool Lia.
From Knut Require Import Proofs.ListFacts Model.Str Model.Dec Model.Date Model.Account Model.Ledger Model.Price Model.Journal
     Model.Check Model.Pipeline Model.Table Model.Report.
From Knut Require Import Spec.TableSpec Proofs.DecProofs Proofs.DecEqProofs Proofs.DecValue Proofs.DecRoundProofs Proofs.DecStringProofs
     Proofs.DecNormalForm Proofs.DecStringValue Proofs.ReportSum Proofs.OrderProofs Proofs.OrderRender Proofs.TxnOrder Proofs.CheckQuant Proofs.PrintRequant Proofs.QuantSim.
Import ListNotations.
Open Scope bool_scope.
Open Scope Z_scope.

Lemma eqv_of_deqv a b : deqv a b -> dec_eqv a b.
Proof. unfold deqv, dec_eqv, coef_at. intros H. apply dec_equal_min in H. unfold scale_to, pow10 in H. exact H. Qed.

Lemma deqv_is_neg a b : deqv a b -> is_neg a = is_neg b.
Proof. intros H. unfold is_neg. pose proof (dec_eqv_sign _ _ (eqv_of_deqv _ _ H)). lia. Qed.

Lemma deqv_neg' a b : deqv a b -> deqv (neg a) (neg b).
Proof. apply deqv_neg. Qed.

Lemma deqv_dabs a b : deqv a b -> deqv (dabs a) (dabs b).
Proof.
  intros H. unfold dabs. pose proof (deqv_is_neg a b H) as Hs. unfold is_neg in Hs. rewrite <- Hs.
  destruct (coef a <? 0) eqn:E; [|exact H].
  assert (Ha : mkDec (Z.abs (coef a)) (ex a) = neg a) by (unfold neg; f_equal; lia).
  assert (Hb : mkDec (Z.abs (coef b)) (ex b) = neg b) by (unfold neg; f_equal; lia).
  rewrite Ha, Hb. now apply deqv_neg.
Qed.

Lemma cmp_dec_cmp a b : cmp a b = match dec_cmp a b with Lt => -1 | Eq => 0 | Gt => 1 end.
Proof. unfold dec_cmp, cmp. destruct (rescale_pair a b) as [x y]. destruct (coef x ?= coef y); reflexivity. Qed.

Lemma cmp_deqv a a' b b' : deqv a a' -> deqv b b' -> cmp a b = cmp a' b'.
Proof. intros Ha Hb. rewrite !cmp_dec_cmp, (dec_cmp_eqv_l _ _ _ Ha), (dec_cmp_eqv_r _ _ _ Hb). reflexivity. Qed.

Lemma less_than_deqv a a' b b' : deqv a a' -> deqv b b' -> less_than a b = less_than a' b'.
Proof. intros Ha Hb. unfold less_than. now rewrite (cmp_deqv a a' b b' Ha Hb). Qed.

Theorem to_string_eqv a b : deqv a b -> to_string a = to_string b.
Proof. intros H. apply to_string_value, dec_equal_value, H. Qed.

Definition ra_v (x y : rkey * dec) : Prop := fst x = fst y /\ deqv (snd x) (snd y).
Definition ras_v (a b : ramounts) : Prop := Forall2 ra_v a b.

Lemma ras_v_refl a : ras_v a a.
Proof. apply Forall2_refl. intros x. split; [reflexivity|apply deqv_refl]. Qed.

Lemma ra_add_v a a' k v v' : ras_v a a' -> deqv v v' -> ras_v (ra_add a k v) (ra_add a' k v').
Proof.
  intros H Hv. induction H as [|[k0 x] [k0' x'] a a' (Hk & Hx) Ha IH]; cbn [ra_add].
  - constructor; [|constructor]. split; [reflexivity|]. cbn [snd]. apply deqv_add; [apply deqv_refl|exact Hv].
  - cbn [fst snd] in *. subst k0'. destruct (rkey_eqb k k0).
    + constructor; [|exact Ha]. split; [reflexivity|]. cbn [snd]. now apply deqv_add.
    + constructor; [split; [reflexivity|exact Hx]|exact IH].
Qed.

Lemma ra_get0_v a a' k : ras_v a a' -> deqv (ra_get0 a k) (ra_get0 a' k).
Proof.
  unfold ra_get0. induction 1 as [|[k0 x] [k0' x'] a a' (Hk & Hx) Ha IH]; cbn [ra_get]; [apply deqv_refl|].
  cbn [fst snd] in *. subst k0'. destruct (rkey_eqb k k0); [exact Hx|exact IH].
Qed.

Lemma fold_ra_add_v (g : rkey -> rkey) src src' : ras_v src src' -> forall d d', ras_v d d' ->
  ras_v (fold_left (fun d kv => ra_add d (g (fst kv)) (snd kv)) src d)
        (fold_left (fun d kv => ra_add d (g (fst kv)) (snd kv)) src' d').
Proof.
  intros Hs. apply (fold_left_rel ra_v ras_v); [exact Hs|]. intros d d' x y _ Hd (Hk & Hx). rewrite Hk. now apply ra_add_v.
Qed.

Lemma filter_nz_v a a' : ras_v a a' ->
  ras_v (filter (fun kv : rkey * dec => negb (is_zero (snd kv))) a) (filter (fun kv : rkey * dec => negb (is_zero (snd kv))) a').
Proof.
  induction 1 as [|x y a a' (Hk & Hx) Ha IH]; cbn [filter]; [constructor|].
  rewrite (deqv_is_zero _ _ Hx). destruct (negb (is_zero (snd y))); [constructor; [split; assumption|exact IH]|exact IH].
Qed.

Lemma ra_sum_into_v f d d' s s' : ras_v d d' -> ras_v s s' -> ras_v (ra_sum_into d s f) (ra_sum_into d' s' f).
Proof. intros Hd Hs. unfold ra_sum_into. apply filter_nz_v. now apply fold_ra_add_v. Qed.

Lemma ra_plus_v a a' b b' : ras_v a a' -> ras_v b b' -> ras_v (ra_plus a b) (ra_plus a' b').
Proof. intros Ha Hb. unfold ra_plus. now apply (fold_ra_add_v (fun k => k)). Qed.

Lemma ra_commodities_v a a' : ras_v a a' -> ra_commodities a = ra_commodities a'.
Proof.
  intros H. apply (fold_left_rel ra_v eq); [exact H| |reflexivity]. intros l l' x y _ <- (Hk & _). cbv beta. f_equal. exact (f_equal snd Hk).
Qed.

Lemma ras_v_nil a a' : ras_v a a' -> (a = [] <-> a' = []).
Proof. intros H. inversion H; subst; split; intros E; try reflexivity; discriminate. Qed.

Inductive node_v : node -> node -> Prop :=
| NodeV s p hv a a' ch ch' : ras_v a a' -> Forall2 node_v ch ch' -> node_v (Node s p hv a ch) (Node s p hv a' ch').

Lemma node_v_seg n n' : node_v n n' -> n_seg n = n_seg n'.
Proof. intros H. inversion H; reflexivity. Qed.
Lemma node_v_path n n' : node_v n n' -> n_path n = n_path n'.
Proof. intros H. inversion H; reflexivity. Qed.
Lemma node_v_children n n' : node_v n n' -> Forall2 node_v (n_children n) (n_children n').
Proof. intros H. inversion H; subst. assumption. Qed.

Lemma node_v_refl n : node_v n n.
Proof.
  induction n as [s p hv a ch IH] using node_ind_size. constructor; [apply ras_v_refl|].
  induction IH; constructor; assumption.
Qed.

Lemma children_insert_v rec rec' h p l l' :
  (forall c c', node_v c c' -> node_v (rec c) (rec' c')) ->
  Forall2 node_v l l' -> Forall2 node_v (children_insert rec h p l) (children_insert rec' h p l').
Proof.
  intros resp. induction 1 as [|c c' l l' Hc Hl IH]; cbn [children_insert].
  - constructor; [apply resp, node_v_refl|constructor].
  - rewrite <- (node_v_seg c c' Hc). destruct (str_cmp h (n_seg c)).
    + constructor; [apply resp; exact Hc|exact Hl].
    + constructor; [apply resp, node_v_refl|]. constructor; assumption.
    + constructor; assumption.
Qed.

Lemma node_insert_v : forall f pre rest k v v' n n', deqv v v' ->
  node_v n n' -> node_v (node_insert f pre rest k v n) (node_insert f pre rest k v' n').
Proof.
  induction f as [|f IH]; intros pre rest k v v' n n' Hv H; inversion H as [s p hv a a' ch ch' Ha Hch]; subst;
    destruct rest as [|h t]; cbn [node_insert].
  - constructor; [apply ra_add_v|]; assumption.
  - exact H.
  - constructor; [apply ra_add_v|]; assumption.
  - constructor; [assumption|]. apply children_insert_v; [intros; apply IH; assumption|assumption].
Qed.

Definition report_v (r r' : report) : Prop := node_v (r_al r) (r_al r') /\ node_v (r_eie r) (r_eie r').

Lemma report_v_refl r : report_v r r.
Proof. split; apply node_v_refl. Qed.

Lemma report_insert_v r r' d a c v v' : report_v r r' -> deqv v v' ->
  report_v (report_insert r d a c v) (report_insert r' d a c v').
Proof.
  intros [H1 H2] Hv. unfold report_insert. destruct (is_AL a); split; cbn [r_al r_eie]; try assumption; now apply node_insert_v.
Qed.

Lemma fold_add_v (a a' : ramounts) : ras_v a a' -> forall s s', deqv s s' ->
  deqv (fold_left (fun s (kv : rkey * dec) => add s (snd kv)) a s) (fold_left (fun s (kv : rkey * dec) => add s (snd kv)) a' s').
Proof.
  intros H. apply (fold_left_rel ra_v deqv); [exact H|]. intros s s' x y _ Hs (_ & Hx). now apply deqv_add.
Qed.

Lemma node_weight_v valued n : forall n', node_v n n' -> deqv (node_weight valued n) (node_weight valued n').
Proof.
  induction n as [s p hv a ch IH] using node_ind_size. intros n' H.
  inversion H as [? ? ? ? a' ? ch' Ha Hch]; subst. cbn [node_weight]. rewrite Forall_forall in IH.
  apply (fold_left_rel node_v deqv); [exact Hch| |].
  - intros w w' c c' Hin Hw Hc. apply deqv_add; [exact Hw|now apply IH].
  - apply deqv_neg, deqv_dabs. destruct valued; [|apply deqv_refl]. apply fold_add_v; [exact Ha|apply deqv_refl].
Qed.

Lemma sibling_ltb_v alpha valued x x' y y' :
  node_v x x' -> node_v y y' -> sibling_ltb alpha valued x y = sibling_ltb alpha valued x' y'.
Proof.
  intros Hx Hy. unfold sibling_ltb, top_ltb.
  rewrite (node_v_path _ _ Hx), (node_v_path _ _ Hy), (node_v_seg _ _ Hx), (node_v_seg _ _ Hy).
  rewrite (less_than_deqv _ _ _ _ (node_weight_v valued _ _ Hx) (node_weight_v valued _ _ Hy)). reflexivity.
Qed.

Lemma node_sort_v alpha valued n : forall n', node_v n n' -> node_v (node_sort alpha valued n) (node_sort alpha valued n').
Proof.
  induction n as [s p hv a ch IH] using node_ind_size. intros n' H.
  inversion H as [? ? ? ? a' ? ch' Ha Hch]; subst. cbn [node_sort]. constructor; [exact Ha|].
  apply (sort_by_rel (sibling_ltb alpha valued) node_v).
  - intros; apply sibling_ltb_v; assumption.
  - clear - IH Hch. revert ch' Hch. induction IH as [|c ch Hc _ IHch]; intros ch' Hch; inversion Hch; subst; cbn [map]; constructor; auto.
Qed.

Lemma node_totals_v f n : forall n' acc acc', node_v n n' -> ras_v acc acc' -> ras_v (node_totals f n acc) (node_totals f n' acc').
Proof.
  induction n as [s p hv a ch IH] using node_ind_size. intros n' acc acc' H Hacc.
  inversion H as [? ? ? ? a' ? ch' Ha Hch]; subst. cbn [node_totals]. rewrite Forall_forall in IH.
  apply ra_sum_into_v; [|exact Ha]. apply (fold_left_rel node_v ras_v); [exact Hch| |exact Hacc].
  intros x x' c c' Hin Hx Hc. now apply IH.
Qed.

Definition cell_v (c c' : cell) : Prop :=
  match c, c' with
  | CNum n, CNum n' => deqv n n'
  | CNum _, _ => False
  | _, CNum _ => False
  | _, _ => c = c'
  end.

Definition rows_v (r r' : list (list cell)) : Prop := Forall2 (Forall2 cell_v) r r'.
Definition table_v (t t' : table) : Prop := t_columns t = t_columns t' /\ rows_v (t_rows t) (t_rows t').

Lemma cell_v_refl c : cell_v c c.
Proof. destruct c; cbn; try reflexivity. apply deqv_refl. Qed.
Lemma cells_v_refl l : Forall2 cell_v l l.
Proof. apply Forall2_refl, cell_v_refl. Qed.
Lemma table_v_refl t : table_v t t.
Proof. split; [reflexivity|]. apply Forall2_refl, cells_v_refl. Qed.

Lemma add_row_v t t' r r' : table_v t t' -> Forall2 cell_v r r' -> table_v (add_row t r) (add_row t' r').
Proof.
  intros [Hc Hr] Hrow. split; [exact Hc|]. unfold add_row. cbn [t_rows]. apply Forall2_app; [exact Hr|].
  constructor; [exact Hrow|constructor].
Qed.

Lemma t_width_v t t' : table_v t t' -> t_width t = t_width t'.
Proof. intros [Hc _]. unfold t_width. now rewrite Hc. Qed.

Lemma add_separator_row_v t t' : table_v t t' -> table_v (add_separator_row t) (add_separator_row t').
Proof. intros H. unfold add_separator_row. rewrite <- (t_width_v _ _ H). apply add_row_v; [exact H|apply cells_v_refl]. Qed.

Lemma add_empty_row_v t t' : table_v t t' -> table_v (add_empty_row t) (add_empty_row t').
Proof. intros H. unfold add_empty_row. rewrite <- (t_width_v _ _ H). apply add_row_v; [exact H|apply cells_v_refl]. Qed.

Lemma row_numbers_v diff neg_ vals vals' c dates : ras_v vals vals' ->
  forall total total', deqv total total' ->
  Forall2 cell_v (row_numbers diff neg_ vals c dates total) (row_numbers diff neg_ vals' c dates total').
Proof.
  intros H. induction dates as [|d rest IH]; intros total total' Ht; cbn [row_numbers]; [constructor|].
  pose proof (ra_get0_v vals vals' (Some d, c) H) as Hv.
  pose proof (deqv_add _ _ _ _ Ht Hv) as Hs.
  constructor; [|now apply IH]. cbn [cell_v].
  destruct diff, neg_; try apply deqv_neg; assumption.
Qed.

Lemma render_rows_v cfg dates indent name neg_ vals vals' coms : ras_v vals vals' ->
  forall first, rows_v (render_rows cfg dates indent name neg_ vals coms first) (render_rows cfg dates indent name neg_ vals' coms first).
Proof.
  intros H. induction coms as [|c rest IH]; intros first; cbn [render_rows]; [constructor|].
  constructor; [|apply IH]. constructor; [apply cell_v_refl|].
  apply Forall2_app; [apply cells_v_refl|]. apply row_numbers_v; [exact H|apply deqv_refl].
Qed.

Lemma fold_add_row_v rows rows' : rows_v rows rows' -> forall t t', table_v t t' ->
  table_v (fold_left add_row rows t) (fold_left add_row rows' t').
Proof.
  intros H. apply (fold_left_rel (Forall2 cell_v) table_v); [exact H|]. intros t t' r r' _ Ht Hr. now apply add_row_v.
Qed.

Lemma render_amounts_v cfg t t' dates indent name neg_ vals vals' : table_v t t' -> ras_v vals vals' ->
  table_v (render_amounts cfg t dates indent name neg_ vals) (render_amounts cfg t' dates indent name neg_ vals').
Proof.
  intros Ht H. unfold render_amounts.
  pose proof (ras_v_nil _ _ H) as N. pose proof (ra_commodities_v _ _ H) as C.
  destruct vals as [|x r], vals' as [|x' r'].
  - apply add_row_v; [exact Ht|]. unfold fill_empty. rewrite <- (t_width_v _ _ Ht). apply cells_v_refl.
  - destruct N as [N _]. specialize (N eq_refl). discriminate.
  - destruct N as [_ N]. specialize (N eq_refl). discriminate.
  - rewrite C. apply fold_add_row_v; [|exact Ht]. now apply render_rows_v.
Qed.

Lemma render_node_v cfg dates neg_ n : forall n' indent t t',
  node_v n n' -> table_v t t' -> table_v (render_node cfg dates indent neg_ t n) (render_node cfg dates indent neg_ t' n').
Proof.
  induction n as [s p hv a ch IH] using node_ind_size. intros n' indent t t' H Ht.
  inversion H as [? ? ? ? a' ? ch' Ha Hch]; subst. cbn [render_node]. rewrite Forall_forall in IH.
  apply (fold_left_rel node_v table_v); [exact Hch| |].
  - intros x x' c c' Hin Hx Hc. now apply IH.
  - destruct s; [exact Ht|]. apply render_amounts_v; [exact Ht|]. apply ra_sum_into_v; [constructor|exact Ha].
Qed.

Lemma fold_render_nodes_v cfg dates neg_ l l' : Forall2 node_v l l' -> forall t t', table_v t t' ->
  table_v (fold_left (fun t n => add_empty_row (render_node cfg dates 0 neg_ t n)) l t)
          (fold_left (fun t n => add_empty_row (render_node cfg dates 0 neg_ t n)) l' t').
Proof.
  intros H. apply (fold_left_rel node_v table_v); [exact H|]. intros t t' c c' _ Ht Hc.
  apply add_empty_row_v. now apply render_node_v.
Qed.

Theorem render_report_v cfg r r' dates : report_v r r' -> table_v (render_report cfg r dates) (render_report cfg r' dates).
Proof.
  intros [Hal Heie]. unfold render_report.
  set (valued := match rc_valuation cfg with Some _ => true | None => false end).
  pose proof (node_sort_v (rc_alpha cfg) valued _ _ Hal) as Sal.
  pose proof (node_sort_v (rc_alpha cfg) valued _ _ Heie) as Seie.
  set (al := node_sort (rc_alpha cfg) valued (r_al r)) in *.
  set (al' := node_sort (rc_alpha cfg) valued (r_al r')) in *.
  set (eie := node_sort (rc_alpha cfg) valued (r_eie r)) in *.
  set (eie' := node_sort (rc_alpha cfg) valued (r_eie r')) in *.
  assert (Tal : ras_v (node_totals (collapse_key (negb valued)) al []) (node_totals (collapse_key (negb valued)) al' [])).
  { apply node_totals_v; [exact Sal|constructor]. }
  assert (Teie : ras_v (node_totals (collapse_key (negb valued)) eie []) (node_totals (collapse_key (negb valued)) eie' [])).
  { apply node_totals_v; [exact Seie|constructor]. }
  cbv zeta.
  apply add_separator_row_v. apply render_amounts_v; [|now apply ra_plus_v].
  apply add_separator_row_v. apply render_amounts_v; [|exact Teie].
  apply fold_render_nodes_v; [apply node_v_children; exact Seie|].
  apply add_separator_row_v. apply render_amounts_v; [|exact Tal].
  apply fold_render_nodes_v; [apply node_v_children; exact Sal|].
  apply table_v_refl.
Qed.

Lemma csv_cell_v c c' : cell_v c c' -> csv_cell c = csv_cell c'.
Proof. destruct c, c'; cbn; intros H; try contradiction; try discriminate; try (now inversion H); try reflexivity. now apply to_string_eqv. Qed.

Theorem render_csv_v t t' : table_v t t' -> render_csv t = render_csv t'.
Proof.
  intros [_ H]. unfold render_csv, render_csv_rows. do 3 f_equal.
  apply (map_rel (Forall2 cell_v)); [exact H|]. intros r r' Hr. apply (map_rel cell_v); [exact Hr|apply csv_cell_v].
Qed.
