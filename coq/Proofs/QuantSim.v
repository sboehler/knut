(* C09 (b), reports: day lists that agree in everything but the REPRESENTATION of quantities
   (posting quantities and values, prices, normalized prices, assertion quantities: the same
   values, [deqv]) -- the relation [day_v] -- and the generic simulation of Processor.Process over
   such lists: if every callback of a processor maps related states and related arguments to
   related results, so does a whole stage ([process_days_v]). *)
From Coq Require Import ZArith List Bool Lia.
From Knut Require Import Proofs.ListFacts Model.Str Model.Dec Model.Date Model.Account Model.Ledger Model.Price Model.Journal
     Model.Check Model.Cli.
From Knut Require Import Proofs.DecEqProofs Proofs.OrderProofs Proofs.OrderStages Proofs.CheckQuant.
Import ListNotations.
Open Scope bool_scope.
Open Scope Z_scope.

Definition posting_v (p p' : posting) : Prop :=
  p_acc p = p_acc p' /\ p_other p = p_other p' /\ p_com p = p_com p' /\
  deqv (p_qty p) (p_qty p') /\ deqv (p_val p) (p_val p').

Definition txn_v (t t' : txn) : Prop :=
  t_date t = t_date t' /\ t_desc t = t_desc t' /\ t_targets t = t_targets t' /\
  Forall2 posting_v (t_postings t) (t_postings t').

Definition price_v (x y : commodity * dec * commodity) : Prop :=
  fst (fst x) = fst (fst y) /\ snd x = snd y /\ deqv (snd (fst x)) (snd (fst y)).

Definition kv_v (x y : str * dec) : Prop := fst x = fst y /\ deqv (snd x) (snd y).
Definition np_v (a b : option nprices) : Prop :=
  match a, b with
  | Some m, Some m' => Forall2 kv_v m m'
  | None, None => True
  | _, _ => False
  end.

Definition day_v (d d' : day) : Prop :=
  d_date d = d_date d' /\ Forall2 price_v (d_prices d) (d_prices d') /\ d_opens d = d_opens d' /\
  Forall2 txn_v (d_txns d) (d_txns d') /\ Forall2 (Forall2 bal_q) (d_asserts d) (d_asserts d') /\
  d_closes d = d_closes d' /\ np_v (d_normalized d) (d_normalized d').

Lemma posting_v_refl p : posting_v p p.
Proof. repeat split; apply deqv_refl. Qed.
Lemma txn_v_refl t : txn_v t t.
Proof. repeat split. apply Forall2_refl, posting_v_refl. Qed.
Lemma bal_q_refl b : bal_q b b.
Proof. repeat split. apply deqv_refl. Qed.
Lemma np_v_refl n : np_v n n.
Proof. destruct n as [m|]; [|exact I]. apply Forall2_refl. intros x. split; [reflexivity|apply deqv_refl]. Qed.
Lemma day_v_refl d : day_v d d.
Proof.
  repeat split; try apply np_v_refl.
  - apply Forall2_refl. intros x. repeat split. apply deqv_refl.
  - apply Forall2_refl, txn_v_refl.
  - apply Forall2_refl. intros a. apply Forall2_refl, bal_q_refl.
Qed.

Lemma posting_v_q p p' : posting_v p p' -> posting_q p p'.
Proof. intros (H1 & _ & H3 & H4 & _). repeat split; assumption. Qed.

(* the callbacks thread a state and return it with their argument *)
Definition rel_pair {A B} (RA : A -> A -> Prop) (RB : B -> B -> Prop) (x y : A * B) : Prop :=
  RA (fst x) (fst y) /\ RB (snd x) (snd y).

Section Sim.
  Context {S : Type} (RS : S -> S -> Prop) (p : processor S).

  Hypothesis H_day_start : match pr_day_start p with
    | Some f => forall s s' d d', RS s s' -> day_v d d' -> req (rel_pair RS day_v) (f s d) (f s' d') | None => True end.
  Hypothesis H_price : match pr_price p with
    | Some f => forall s s' x x', RS s s' -> price_v x x' -> req RS (f s x) (f s' x') | None => True end.
  Hypothesis H_open : match pr_open p with
    | Some f => forall s s' a, RS s s' -> req RS (f s a) (f s' a) | None => True end.
  Hypothesis H_txn : match pr_txn p with
    | Some f => forall s s' t t', RS s s' -> txn_v t t' -> req RS (f s t) (f s' t') | None => True end.
  Hypothesis H_posting : match pr_posting p with
    | Some f => forall s s' t t' x x', RS s s' -> txn_v t t' -> posting_v x x' ->
                req (rel_pair RS posting_v) (f s t x) (f s' t' x') | None => True end.
  Hypothesis H_balance : match pr_balance p with
    | Some f => forall s s' a a' b b', RS s s' -> Forall2 bal_q a a' -> bal_q b b' -> req RS (f s a b) (f s' a' b') | None => True end.
  Hypothesis H_close : match pr_close p with
    | Some f => forall s s' a, RS s s' -> req RS (f s a) (f s' a) | None => True end.
  Hypothesis H_day_end : match pr_day_end p with
    | Some f => forall s s' d d', RS s s' -> day_v d d' -> req (rel_pair RS day_v) (f s d) (f s' d') | None => True end.

  Lemma fold_res_v {A} (RA : A -> A -> Prop) (f f' : S -> A -> presult S) l l' :
    (forall s s' a a', RS s s' -> RA a a' -> req RS (f s a) (f' s' a')) -> Forall2 RA l l' ->
    forall s s', RS s s' -> req RS (fold_res f s l) (fold_res f' s' l').
  Proof.
    intros Hf. induction 1 as [|a a' l l' Ha Hl IH]; intros s s' H; cbn [fold_res]; [exact H|].
    eapply req_bind; [apply Hf; eassumption|]. intros x y Hxy. now apply IH.
  Qed.

  Lemma fold_res_same {A} (f : S -> A -> presult S) l :
    (forall s s' a, RS s s' -> req RS (f s a) (f s' a)) ->
    forall s s', RS s s' -> req RS (fold_res f s l) (fold_res f s' l).
  Proof.
    intros Hf. apply (fold_res_v eq); [intros s s' a a' H <-; now apply Hf|]. apply Forall2_refl. reflexivity.
  Qed.

  Lemma fold_postings_v f t t' ps ps' :
    (forall s s' x x', RS s s' -> posting_v x x' -> req (rel_pair RS posting_v) (f s t x) (f s' t' x')) ->
    Forall2 posting_v ps ps' ->
    forall s s', RS s s' -> req (rel_pair RS (Forall2 posting_v)) (fold_postings f t s ps) (fold_postings f t' s' ps').
  Proof.
    intros Hf. induction 1 as [|x y ps ps' Hxy Hps IH]; intros s s' H; cbn [fold_postings].
    - split; [exact H|constructor].
    - eapply req_bind; [apply Hf; assumption|]. intros a b (Hab1 & Hab2).
      eapply req_bind; [apply IH; exact Hab1|]. intros a1 b1 (H1 & H2).
      split; cbn [fst snd]; [exact H1|constructor; assumption].
  Qed.

  Lemma fold_txns_v ts ts' : Forall2 txn_v ts ts' ->
    forall s s', RS s s' -> req (rel_pair RS (Forall2 txn_v)) (fold_txns p s ts) (fold_txns p s' ts').
  Proof.
    induction 1 as [|t t' ts ts' Ht Hts IH]; intros s s' H; cbn [fold_txns].
    - split; [exact H|constructor].
    - eapply (req_bind RS).
      { destruct (pr_txn p) as [f|]; [now apply H_txn|exact H]. }
      intros s1 s1' H1.
      eapply (req_bind (rel_pair RS txn_v)).
      { destruct (pr_posting p) as [f|]; [|split; assumption].
        eapply req_bind; [apply fold_postings_v; [intros; now apply H_posting|apply Ht|exact H1]|].
        intros a b (Ha & Hb). split; [exact Ha|].
        destruct Ht as (T1 & T2 & T3 & _). repeat split; assumption. }
      intros a b (Ha & Hb).
      eapply req_bind; [apply IH; exact Ha|]. intros a1 b1 (K1 & K2).
      split; cbn [fst snd]; [exact K1|constructor; assumption].
  Qed.

  Lemma fold_asserts_v l l' : Forall2 (Forall2 bal_q) l l' ->
    forall s s', RS s s' -> req RS (fold_asserts p s l) (fold_asserts p s' l').
  Proof.
    induction 1 as [|a a' l l' Ha Hl IH]; intros s s' H; cbn [fold_asserts]; [exact H|].
    eapply req_bind.
    { destruct (pr_balance p) as [f|]; [|exact H].
      apply (fold_res_v bal_q); [intros; now apply H_balance|exact Ha|exact H]. }
    intros x y Hxy. now apply IH.
  Qed.

  Lemma process_day_v d d' s s' :
    day_v d d' -> RS s s' -> req (rel_pair RS day_v) (process_day p s d) (process_day p s' d').
  Proof.
    intros Hd H. unfold process_day.
    eapply (req_bind (rel_pair RS day_v)).
    { destruct (pr_day_start p) as [f|]; [now apply H_day_start|split; assumption]. }
    intros [s1 d1] [s1' d1'] (H1 & (D1 & D2 & D3 & D4 & D5 & D6 & D7)). cbn [fst snd] in *.
    eapply (req_bind RS).
    { destruct (pr_price p) as [f|]; [|exact H1]. apply (fold_res_v price_v); [intros; now apply H_price|exact D2|exact H1]. }
    intros s2 s2' H2.
    eapply (req_bind RS).
    { destruct (pr_open p) as [f|]; [|exact H2]. rewrite <- D3. apply fold_res_same; [intros; now apply H_open|exact H2]. }
    intros s3 s3' H3.
    eapply req_bind; [apply fold_txns_v; [exact D4|exact H3]|].
    intros [s4 ts] [s4' ts'] (H4 & T4). cbn [fst snd] in *.
    eapply (req_bind RS); [apply fold_asserts_v; [exact D5|exact H4]|].
    intros s5 s5' H5.
    eapply (req_bind RS).
    { destruct (pr_close p) as [f|]; [|exact H5]. rewrite <- D6. apply fold_res_same; [intros; now apply H_close|exact H5]. }
    intros s6 s6' H6.
    assert (Dn : day_v (mkDay (d_date d1) (d_prices d1) (d_opens d1) ts (d_asserts d1) (d_closes d1) (d_normalized d1))
                       (mkDay (d_date d1') (d_prices d1') (d_opens d1') ts' (d_asserts d1') (d_closes d1') (d_normalized d1')))
      by (repeat split; assumption).
    destruct (pr_day_end p) as [f|]; [now apply H_day_end|split; assumption].
  Qed.

  Theorem process_days_v D D' : Forall2 day_v D D' ->
    forall s s', RS s s' -> req (rel_pair RS (Forall2 day_v)) (process_days p s D) (process_days p s' D').
  Proof. apply (process_days_rel p RS day_v day_v). intros. now apply process_day_v. Qed.
End Sim.

Lemma ck_posting_v s s' t t' x x' : Rq s s' -> posting_v x x' -> req (rel_pair Rq posting_v) (ck_posting_cb s t x) (ck_posting_cb s' t' x').
Proof.
  intros H Hx. pose proof Hx as (Ha & Ho & Hc & Hq & Hv). unfold ck_posting_cb.
  rewrite <- Ha, <- Hc, (is_open_q s s' _ H).
  destruct (negb (is_open s' (p_acc x))); cbn [req]; [exact I|].
  destruct (is_AL (p_acc x)); cbn [req]; split; cbn [fst snd]; try exact Hx; [|exact H].
  destruct H as [Ho' Hm]. split; cbn [ck_open ck_qty]; [exact Ho'|now apply pos_add_q].
Qed.

Lemma check_proc_v fb D D' :
  (forall s s' a a' b b', Rq s s' -> Forall2 bal_q a a' -> bal_q b b' -> req Rq (fb s a b) (fb s' a' b')) ->
  Forall2 day_v D D' ->
  let p := mkProc None None (Some ck_open_cb) None (Some ck_posting_cb) (Some fb) (Some ck_close_cb) None in
  req (rel_pair Rq (Forall2 day_v)) (process_days p check_init D) (process_days p check_init D').
Proof.
  intros Hfb H p. apply process_days_v; cbn [p pr_day_start pr_price pr_open pr_txn pr_posting pr_balance pr_close pr_day_end];
    [exact I|exact I|intros; now apply ck_open_q|exact I|intros; now apply ck_posting_v|exact Hfb
    |intros; now apply ck_close_q|exact I|exact H|apply Rq_refl].
Qed.

Theorem check_stage_v r D D' : Forall2 day_v D D' ->
  req (rel_pair Rq (Forall2 day_v)) (process_days (check_proc_current r) check_init D) (process_days (check_proc_current r) check_init D').
Proof.
  intros H. destruct r; apply check_proc_v; try exact H; intros; [now apply ck_balance_fixed_q|now apply ck_balance_cb_q].
Qed.
