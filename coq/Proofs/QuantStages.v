(* C09 (b), reports: the pipeline stages Filter, CloseAccounts and Query.Into and Builder.Days
   under value-equal quantities (QuantSim.day_v). *)
From Coq Require Import ZArith List Bool Lia.
From Knut Require Import Model.Str Model.Dec Model.Date Model.Account Model.Ledger Model.Price Model.Journal
     Model.Check Model.Pipeline Model.Table Model.Report Model.Cli.
From Knut Require Import Proofs.DecProofs Proofs.DecEqProofs Proofs.OrderProofs Proofs.OrderCmd Proofs.CheckQuant
     Proofs.PrintRequant Proofs.QuantSim Proofs.QuantReport.
Import ListNotations.
Open Scope bool_scope.
Open Scope Z_scope.

Lemma pair_build_v a b c q q' v v' : deqv q q' -> deqv v v' ->
  Forall2 posting_v (pair_build a b c q v) (pair_build a b c q' v').
Proof.
  intros Hq Hv. unfold pair_build.
  rewrite (deqv_is_neg _ _ Hq), (deqv_is_zero _ _ Hq), (deqv_is_neg _ _ Hv).
  destruct (is_neg q' || is_zero q' && is_neg v'); repeat constructor; cbn [p_acc p_other p_com p_qty p_val];
    try reflexivity; try assumption; repeat apply deqv_neg; assumption.
Qed.

Lemma day_v_set_txns d d' ts ts' : day_v d d' -> Forall2 txn_v ts ts' -> day_v (set_txns d ts) (set_txns d' ts').
Proof. intros (E0 & E1 & E2 & _ & E4 & E5 & E6) H. repeat split; assumption. Qed.

Lemma day_v_set_normalized d d' n n' : day_v d d' -> np_v n n' -> day_v (set_normalized d n) (set_normalized d' n').
Proof. intros (E0 & E1 & E2 & E3 & E4 & E5 & _) H. repeat split; assumption. Qed.

Theorem filter_stage_v span D D' : Forall2 day_v D D' ->
  req (rel_pair eq (Forall2 day_v)) (process_days (filter_proc span) tt D) (process_days (filter_proc span) tt D').
Proof.
  intros H. apply process_days_v; [| | | | | | | |exact H|reflexivity];
    cbn [filter_proc pr_day_start pr_price pr_open pr_txn pr_posting pr_balance pr_close pr_day_end]; try exact I.
  intros s s' d d' <- Hd. cbn [req]. split; cbn [fst snd]; [reflexivity|]. rewrite <- (proj1 Hd).
  destruct (period_contains span (d_date d)); [exact Hd|]. apply day_v_set_txns; [exact Hd|constructor].
Qed.

Definition Rc (s s' : close_state) : Prop :=
  Forall2 ent_q (c_qty s) (c_qty s') /\ Forall2 ent_q (c_val s) (c_val s').

Lemma closing_txns_v date qs qs' vs vs' : Forall2 ent_q qs qs' -> Forall2 ent_q vs vs' ->
  Forall2 txn_v (closing_txns date qs vs) (closing_txns date qs' vs').
Proof.
  intros Hq Hv. induction Hq as [|[k [[a c] q]] [k' [[a' c'] q']] qs qs' (Hk & Ha & Hc & Hqq) Hqs IH]; cbn [closing_txns]; [constructor|].
  cbn [fst snd] in *. subst k' a' c'.
  pose proof (pos_get_q vs vs' a c Hv) as Hg.
  assert (Hvv : deqv (match pos_get vs a c with Some x => x | None => dec_nil end)
                     (match pos_get vs' a c with Some x => x | None => dec_nil end)).
  { destruct (pos_get vs a c), (pos_get vs' a c); try contradiction; [exact Hg|apply deqv_refl]. }
  rewrite (deqv_is_zero _ _ Hqq), (deqv_is_zero _ _ Hvv).
  destruct (is_zero q' && is_zero _); [exact IH|]. constructor; [|exact IH].
  repeat split; cbn [t_date t_desc t_targets t_postings]. now apply pair_build_v.
Qed.

Theorem close_stage_v closing D D' : Forall2 day_v D D' ->
  req (rel_pair Rc (Forall2 day_v)) (process_days (close_proc closing) (mkClose [] []) D) (process_days (close_proc closing) (mkClose [] []) D').
Proof.
  intros H. apply process_days_v; [| | | | | | | |exact H|split; constructor];
    cbn [close_proc pr_day_start pr_price pr_open pr_txn pr_posting pr_balance pr_close pr_day_end]; try exact I.
  - intros s s' d d' (Hq & Hv) Hd. unfold close_day_start. rewrite <- (proj1 Hd).
    destruct (existsb (Z.eqb (d_date d)) closing); cbn [req]; (split; cbn [fst snd]; [split; assumption|]); [|exact Hd].
    apply day_v_set_txns; [exact Hd|]. apply Forall2_app; [apply Hd|]. now apply closing_txns_v.
  - intros s s' t t' x x' (Hq & Hv) _ Hx. unfold close_posting.
    pose proof Hx as (Ha & Ho & Hc & Hqq & Hvv). rewrite <- Ha, <- Hc.
    destruct (is_AL (p_acc x) || acc_eqb (p_acc x) equity_account); cbn [req]; (split; cbn [fst snd]; [|exact Hx]).
    + split; assumption.
    + split; cbn [c_qty c_val]; now apply pos_add_q.
Qed.

Theorem query_stage_v q D D' r r' : Forall2 day_v D D' -> report_v r r' ->
  req (rel_pair report_v (Forall2 day_v)) (process_days (query_proc q report_insert) r D) (process_days (query_proc q report_insert) r' D').
Proof.
  intros H Hr. apply process_days_v; [| | | | | | | |exact H|exact Hr];
    cbn [query_proc pr_day_start pr_price pr_open pr_txn pr_posting pr_balance pr_close pr_day_end]; try exact I.
  intros s s' t t' x x' Hs Ht Hx. unfold query_posting.
  pose proof Hx as (Ha & Ho & Hc & Hqq & Hvv). destruct Ht as (Td & _). rewrite <- Ha, <- Hc, <- Td.
  destruct (q_where q (p_acc x) (p_com x)); cbn [req]; [|split; assumption].
  destruct (q_account q (p_acc x)); cbn [req]; try exact I; (split; cbn [fst snd]; [|exact Hx]); [|exact Hs].
  apply report_insert_v; [exact Hs|]. destruct (q_valued q); assumption.
Qed.

Lemma builder_touch_v b b' dates : Forall2 day_v (b_days b) (b_days b') ->
  Forall2 day_v (b_days (builder_touch b dates)) (b_days (builder_touch b' dates)).
Proof. apply builder_touch_rel; [intros x y H; apply H|intros dt; apply day_v_refl]. Qed.
