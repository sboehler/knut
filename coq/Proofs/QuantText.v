(* C09 (b), reports: the text renderer of the balance table sees values only ([render_text_v]):
   Decimal.StringFixed rounds the value (DecRoundProofs.round_haz_eqv), the division by 1000 of
   --thousands gives the same record for value-equal amounts (QuantNum.div_deqv). *)
From Coq Require Import ZArith List Bool Lia.
From Knut Require Import Proofs.ListFacts Model.Str Model.Dec Model.Table.
From Knut Require Import Spec.TableSpec Proofs.DecProofs Proofs.DecEqProofs Proofs.DecRoundProofs Proofs.CheckQuant
     Proofs.QuantSim Proofs.QuantReport Proofs.QuantNum.
Import ListNotations.
Open Scope bool_scope.
Open Scope Z_scope.

Lemma to_string_fixed_deqv a b p : deqv a b -> to_string_fixed a p = to_string_fixed b p.
Proof. intros H. unfold to_string_fixed. rewrite !round_eq_haz, (round_haz_eqv a b p (eqv_of_deqv _ _ H)). reflexivity. Qed.

Lemma num_str_deqv cfg a b : deqv a b -> num_str cfg a = num_str cfg b.
Proof.
  intros H. unfold num_str, num_to_string. destruct (tc_thousands cfg).
  - rewrite (div_deqv a b k1000 k1000 H (deqv_refl _)). reflexivity.
  - now rewrite (to_string_fixed_deqv a b _ H).
Qed.

Lemma min_length_cell_v cfg c c' : cell_v c c' -> min_length_cell cfg c = min_length_cell cfg c'.
Proof.
  destruct c, c'; cbn [cell_v min_length_cell]; intros H; try contradiction; try discriminate; try (now inversion H); try reflexivity.
  now rewrite (num_str_deqv cfg _ _ H).
Qed.

Lemma is_sep_v c c' : cell_v c c' -> is_sep c = is_sep c'.
Proof. destruct c, c'; cbn; intros H; try contradiction; try discriminate; reflexivity. Qed.

Lemma render_cell_v cfg c c' w : cell_v c c' -> render_cell cfg c w = render_cell cfg c' w.
Proof.
  destruct c, c'; cbn [cell_v render_cell]; intros H; try contradiction; try discriminate; try (now inversion H); try reflexivity.
  now rewrite (deqv_is_zero _ _ H), (num_str_deqv cfg _ _ H).
Qed.

Lemma col_widths_v cfg t t' : table_v t t' -> col_widths cfg t = col_widths cfg t'.
Proof.
  intros H. unfold col_widths. rewrite (t_width_v _ _ H).
  apply (fold_left_rel (Forall2 cell_v) eq); [exact (proj2 H)| |reflexivity].
  intros ws ws' r r' _ <- Hr. cbv beta. now rewrite (map_rel cell_v _ r r' Hr (min_length_cell_v cfg)).
Qed.

Lemma final_widths_v cfg t t' : table_v t t' -> final_widths cfg t = final_widths cfg t'.
Proof. intros H. unfold final_widths. rewrite (col_widths_v cfg t t' H), (proj1 H). reflexivity. Qed.

Lemma render_cells_v cfg cs cs' : Forall2 cell_v cs cs' -> forall ws, render_cells cfg cs ws = render_cells cfg cs' ws.
Proof.
  induction 1 as [|c c' cs cs' Hc Hcs IH]; intros ws; [reflexivity|].
  destruct Hcs as [|c2 c2' rest rest' Hc2 Hrest].
  - destruct ws as [|w ws']; [reflexivity|]. cbn [render_cells]. now apply render_cell_v.
  - destruct ws as [|w ws']; [reflexivity|].
    change (render_cells cfg (c :: c2 :: rest) (w :: ws')) with (render_cell cfg c w ++ create_sep c c2 ++ render_cells cfg (c2 :: rest) ws').
    change (render_cells cfg (c' :: c2' :: rest') (w :: ws')) with (render_cell cfg c' w ++ create_sep c' c2' ++ render_cells cfg (c2' :: rest') ws').
    rewrite (render_cell_v cfg c c' w Hc), (IH ws'). unfold create_sep. now rewrite (is_sep_v c c' Hc), (is_sep_v c2 c2' Hc2).
Qed.

Lemma last_v r r' : Forall2 cell_v r r' -> cell_v (last r CEmpty) (last r' CEmpty).
Proof.
  induction 1 as [|c c' r r' Hc Hr IH]; [reflexivity|]. destruct Hr as [|c2 c2' rest rest' Hc2 Hrest]; [exact Hc|exact IH].
Qed.

Lemma render_row_v cfg ws r r' : Forall2 cell_v r r' -> render_row cfg ws r = render_row cfg ws r'.
Proof.
  intros H. unfold render_row. pose proof (last_v r r' H) as Hl. pose proof (render_cells_v cfg r r' H ws) as Hc.
  destruct H as [|c c' rest rest' Hc0 Hrest]; [reflexivity|].
  rewrite Hc, (is_sep_v c c' Hc0), (is_sep_v _ _ Hl). reflexivity.
Qed.

Theorem render_text_v cfg t t' : table_v t t' -> render_text cfg t = render_text cfg t'.
Proof.
  intros H. unfold render_text. rewrite (final_widths_v cfg t t' H). f_equal. f_equal.
  apply (map_rel (Forall2 cell_v)); [exact (proj2 H)|]. intros r r'. apply render_row_v.
Qed.
