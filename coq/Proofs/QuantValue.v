(* C09 (b), reports: ComputePrices and Valuate under value-equal quantities, and the balance
   command for every configuration ([balance_csv_v], [balance_text_v]). *)
From Coq Require Import ZArith List Bool Lia.
From Knut Require Import Model.Str Model.Dec Model.Date Model.Account Model.Ledger Model.Price Model.Journal
     Model.Check Model.Pipeline Model.Table Model.Report Model.Cli.
From Knut Require Import Proofs.DecProofs Proofs.DecEqProofs Proofs.OrderProofs Proofs.OrderCmd Proofs.BalanceChain Proofs.CheckQuant
     Proofs.PrintRequant Proofs.QuantSim Proofs.QuantReport Proofs.QuantNum Proofs.QuantText Proofs.QuantStages.
Import ListNotations.
Open Scope bool_scope.
Open Scope Z_scope.

Section SMapRel.
  Context {V : Type} (RV : V -> V -> Prop).
  Definition sm_v (m m' : smap V) : Prop := Forall2 (fun x y => fst x = fst y /\ RV (snd x) (snd y)) m m'.

  Lemma sm_get_v m m' k : sm_v m m' ->
    match sm_get m k, sm_get m' k with Some x, Some y => RV x y | None, None => True | _, _ => False end.
  Proof.
    induction 1 as [|[k1 v1] [k2 v2] m m' (Hk & Hv) Hm IH]; cbn [sm_get]; [exact I|].
    cbn [fst snd] in *. subst k2. destruct (str_eqb k k1); [exact Hv|exact IH].
  Qed.

  Lemma sm_get_default_v m m' k d d' : sm_v m m' -> RV d d' ->
    RV (match sm_get m k with Some x => x | None => d end) (match sm_get m' k with Some x => x | None => d' end).
  Proof.
    intros H Hd. pose proof (sm_get_v m m' k H) as G. destruct (sm_get m k), (sm_get m' k); try contradiction; assumption.
  Qed.

  Lemma sm_put_v m m' k v v' : sm_v m m' -> RV v v' -> sm_v (sm_put m k v) (sm_put m' k v').
  Proof.
    intros Hm Hv. induction Hm as [|[k1 v1] [k2 v2] m m' Hx Hm IH]; cbn [sm_put].
    - constructor; [split; [reflexivity|exact Hv]|constructor].
    - pose proof Hx as (Hk & _). cbn [fst] in Hk. subst k2.
      destruct (str_cmp k k1).
      + constructor; [split; [reflexivity|exact Hv]|exact Hm].
      + constructor; [split; [reflexivity|exact Hv]|constructor; assumption].
      + constructor; [exact Hx|exact IH].
  Qed.

  Lemma sm_has_v m m' k : sm_v m m' -> sm_has m k = sm_has m' k.
  Proof. intros H. unfold sm_has. pose proof (sm_get_v m m' k H) as G. destruct (sm_get m k), (sm_get m' k); tauto. Qed.
End SMapRel.

Definition np_rel (m m' : nprices) : Prop := sm_v deqv m m'.
Definition prices_rel (p p' : prices) : Prop := sm_v np_rel p p'.

Lemma np_v_some m m' : np_rel m m' -> np_v (Some m) (Some m').
Proof. intros H. exact H. Qed.

Lemma add_price_v ps ps' t c p p' : prices_rel ps ps' -> deqv p p' -> prices_rel (add_price ps t c p) (add_price ps' t c p').
Proof.
  intros H Hp. unfold add_price. apply sm_put_v; [exact H|].
  apply sm_put_v; [|exact Hp]. apply (sm_get_default_v (V:=smap dec) np_rel); [exact H|constructor].
Qed.

Lemma prices_insert_v ps ps' c p p' t : prices_rel ps ps' -> deqv p p' ->
  match prices_insert ps c p t, prices_insert ps' c p' t with
  | InsOk x, InsOk y => prices_rel x y
  | InsErrZero, InsErrZero => True
  | InsPanic, InsPanic => True
  | _, _ => False
  end.
Proof.
  intros H Hp. unfold prices_insert. rewrite (deqv_is_zero _ _ Hp). destruct (is_zero p'); [exact I|].
  rewrite (div_deqv one one p p' (deqv_refl _) Hp). destruct (div one p') as [inv|]; [|exact I].
  apply add_price_v; [now apply add_price_v|apply deqv_refl].
Qed.

Lemma visit_neighbours_v nb nb' pc pc' res res' queue :
  np_rel nb nb' -> deqv pc pc' -> np_rel res res' ->
  np_rel (fst (visit_neighbours nb pc res queue)) (fst (visit_neighbours nb' pc' res' queue)) /\
  snd (visit_neighbours nb pc res queue) = snd (visit_neighbours nb' pc' res' queue).
Proof.
  intros Hnb Hpc. revert res res' queue.
  induction Hnb as [|[n p] [n' p'] nb nb' (Hn & Hp) Hnb IH]; intros res res' queue Hres; cbn [visit_neighbours].
  - split; [exact Hres|reflexivity].
  - cbn [fst snd] in *. subst n'. rewrite (sm_has_v deqv res res' n Hres).
    destruct (sm_has res' n); [now apply IH|]. apply IH. apply sm_put_v; [exact Hres|now apply multiply_deqv].
Qed.

Lemma bfs_v fuel ps ps' : prices_rel ps ps' -> forall queue res res', np_rel res res' ->
  match bfs fuel ps queue res, bfs fuel ps' queue res' with
  | Some x, Some y => np_rel x y
  | None, None => True
  | _, _ => False
  end.
Proof.
  intros Hps. induction fuel as [|f IH]; intros queue res res' Hres; destruct queue as [|c rest]; cbn [bfs]; try exact Hres; try exact I.
  set (nb := match sm_get ps c with Some m => m | None => [] end).
  set (nb' := match sm_get ps' c with Some m => m | None => [] end).
  set (pc := match sm_get res c with Some p => p | None => one end).
  set (pc' := match sm_get res' c with Some p => p | None => one end).
  assert (Hnb : np_rel nb nb') by (apply (sm_get_default_v (V:=smap dec) np_rel); [exact Hps|constructor]).
  assert (Hpc : deqv pc pc') by (apply (sm_get_default_v deqv); [exact Hres|apply deqv_refl]).
  destruct (visit_neighbours_v nb nb' pc pc' res res' rest Hnb Hpc Hres) as (H1 & H2).
  destruct (visit_neighbours nb pc res rest) as [r1 q1], (visit_neighbours nb' pc' res' rest) as [r2 q2]. cbn [fst snd] in *. subst q2.
  now apply IH.
Qed.

Lemma Forall2_len {A B} (R : A -> B -> Prop) l l' : Forall2 R l l' -> length l = length l'.
Proof. induction 1; cbn [length]; congruence. Qed.

Lemma normalize_v ps ps' t : prices_rel ps ps' ->
  match normalize ps t, normalize ps' t with Some x, Some y => np_rel x y | None, None => True | _, _ => False end.
Proof.
  intros H. unfold normalize. assert (E : length ps = length ps') by exact (Forall2_len _ _ _ H). rewrite E. apply bfs_v; [exact H|].
  constructor; [split; [reflexivity|apply deqv_refl]|constructor].
Qed.

Definition Rcp (s s' : cp_state) : Prop := prices_rel (cp_prices s) (cp_prices s') /\ np_v (cp_previous s) (cp_previous s').

Theorem cp_stage_v v D D' : Forall2 day_v D D' ->
  req (rel_pair Rcp (Forall2 day_v)) (process_days (compute_prices_proc v) (mkCp [] None) D) (process_days (compute_prices_proc v) (mkCp [] None) D').
Proof.
  intros H. apply process_days_v; [| | | | | | | |exact H|split; [constructor|exact I]];
    cbn [compute_prices_proc pr_day_start pr_price pr_open pr_txn pr_posting pr_balance pr_close pr_day_end]; try exact I.
  - intros s s' [[c p] t] [[c' p'] t'] (Hp & Hn) (Hc & Ht & Hq). cbn [fst snd] in *. subst c' t'. unfold cp_price_cb.
    pose proof (prices_insert_v (cp_prices s) (cp_prices s') c p p' t Hp Hq) as G.
    destruct (prices_insert (cp_prices s) c p t), (prices_insert (cp_prices s') c p' t); cbn [req]; try contradiction; try exact I.
    split; assumption.
  - intros s s' d d' (Hp & Hn) Hd. unfold cp_day_end.
    destruct (proj1 (proj2 Hd)) as [|x y l l' Hx Hl]; cbn [req].
    + split; [split; assumption|now apply day_v_set_normalized].
    + pose proof (normalize_v (cp_prices s) (cp_prices s') v Hp) as G.
      destruct (normalize (cp_prices s) v), (normalize (cp_prices s') v); cbn [req]; try contradiction; try exact I.
      split; [split; assumption|now apply day_v_set_normalized].
Qed.

Definition Rval (s s' : val_state) : Prop :=
  np_v (v_prev s) (v_prev s') /\ np_v (v_cur s) (v_cur s') /\ Forall2 ent_q (v_qty s) (v_qty s').

Lemma np_price_opt_v n n' c : np_v n n' ->
  match np_price_opt n c, np_price_opt n' c with Some x, Some y => deqv x y | None, None => True | _, _ => False end.
Proof.
  intros H. unfold np_price_opt, np_price. destruct n as [m|], n' as [m'|]; cbn [np_v] in H; try contradiction; [|exact I].
  exact (sm_get_v deqv m m' c H).
Qed.

Lemma val_adjustments_v v date prev prev' cur cur' pos pos' :
  np_v prev prev' -> np_v cur cur' -> Forall2 ent_q pos pos' ->
  req (Forall2 txn_v) (val_adjustments v date prev cur pos) (val_adjustments v date prev' cur' pos').
Proof.
  intros Hp Hc. induction 1 as [|[k [[a c] q]] [k' [[a' c'] q']] pos pos' (Hk & Ha & Hcc & Hq) Hpos IH]; cbn [val_adjustments]; [constructor|].
  cbn [fst snd] in *. subst k' a' c'. rewrite (deqv_is_zero _ _ Hq).
  destruct (str_eqb c v || negb (is_AL a) || is_zero q'); [exact IH|].
  pose proof (np_price_opt_v prev prev' c Hp) as G1. pose proof (np_price_opt_v cur cur' c Hc) as G2.
  destruct (np_price_opt prev c) as [pp|], (np_price_opt prev' c) as [pp'|]; cbn [req]; try contradiction; try exact I.
  destruct (np_price_opt cur c) as [cp|], (np_price_opt cur' c) as [cp'|]; cbn [req]; try contradiction; try exact I.
  pose proof (sub_deqv _ _ _ _ G2 G1) as Hd. rewrite (deqv_is_zero _ _ Hd).
  destruct (is_zero (sub cp' pp')); [exact IH|].
  eapply req_bind; [exact IH|]. intros ts ts' Hts. cbn [req]. constructor; [|exact Hts].
  repeat split; cbn [t_date t_desc t_targets t_postings]. apply pair_build_v; [apply deqv_refl|now apply multiply_deqv].
Qed.

Theorem val_stage_v v D D' : Forall2 day_v D D' ->
  req (rel_pair Rval (Forall2 day_v)) (process_days (valuate_proc v) (mkVal None None []) D) (process_days (valuate_proc v) (mkVal None None []) D').
Proof.
  intros H. apply process_days_v; [| | | | | | | |exact H|repeat split; constructor];
    cbn [valuate_proc pr_day_start pr_price pr_open pr_txn pr_posting pr_balance pr_close pr_day_end]; try exact I.
  - intros s s' d d' (Hp & Hc & Hq) Hd. unfold val_day_start.
    pose proof Hd as (E0 & _ & _ & E3 & _ & _ & E6). rewrite <- E0.
    eapply req_bind; [apply (val_adjustments_v v (d_date d) _ _ _ _ _ _ Hp E6 Hq)|].
    intros ts ts' Hts. cbn [req]. split; [repeat split; assumption|].
    apply day_v_set_txns; [exact Hd|now apply Forall2_app].
  - intros s s' t t' x x' (Hp & Hc & Hq) _ Hx. unfold val_posting.
    pose proof Hx as (Ha & Ho & Hcm & Hqq & Hvv). rewrite <- Ha, <- Ho, <- Hcm, (deqv_is_zero _ _ Hqq).
    destruct (is_zero (p_qty x')); cbn [req]; [split; [repeat split; assumption|exact Hx]|].
    assert (Hs' : Rval (if is_AL (p_acc x) then mkVal (v_prev s) (v_cur s) (pos_add (v_qty s) (p_acc x) (p_com x) (p_qty x)) else s)
                       (if is_AL (p_acc x) then mkVal (v_prev s') (v_cur s') (pos_add (v_qty s') (p_acc x) (p_com x) (p_qty x')) else s')).
    { destruct (is_AL (p_acc x)); repeat split; try assumption. now apply pos_add_q. }
    destruct (str_eqb v (p_com x)); cbn [req]; [split; [exact Hs'|repeat split; assumption]|].
    destruct (v_cur s) as [n|], (v_cur s') as [n'|]; cbn [np_v] in Hc; try contradiction; cbn [req]; try exact I.
    unfold np_valuate. pose proof (sm_get_v deqv n n' (p_com x) Hc) as G.
    destruct (sm_get n (p_com x)) as [pr|], (sm_get n' (p_com x)) as [pr'|]; try contradiction; cbn [req]; try exact I.
    split; [exact Hs'|]. repeat split; try assumption. now apply multiply_deqv.
  - intros s s' d d' (Hp & Hc & Hq) Hd. unfold val_day_end. cbn [req]. split; [|exact Hd].
    repeat split; try assumption. apply Hd.
Qed.

Theorem balance_report_v cfg X X' b b' :
  load X = COk b -> load X' = COk b' ->
  Forall2 day_v (b_days b) (b_days b') -> b_min b = b_min b' -> b_max b = b_max b' ->
  ceq (fun a a' => report_v (fst a) (fst a') /\ snd a = snd a') (balance_report cfg X) (balance_report cfg X').
Proof.
  intros HX HX' Hd Hmin Hmax.
  apply (balance_report_rel (Forall2 day_v) (Forall2 day_v) report_v) with (b := b) (b' := b'); try assumption.
  - intros. now apply builder_touch_v.
  - intros r. apply (stage_rel_req _ _ Rq). intros. now apply check_stage_v.
  - intros v. apply (stage_rel_req _ _ Rcp). intros. now apply cp_stage_v.
  - intros v. apply (stage_rel_req _ _ Rval). intros. now apply val_stage_v.
  - auto.
  - intros sp. apply (stage_rel_req _ _ eq). intros. now apply filter_stage_v.
  - intros cds. apply (stage_rel_req _ _ Rc). intros. now apply close_stage_v.
  - intros q D D' H. unfold run_stage. apply ceq_of_presult.
    eapply req_impl; [|exact (query_stage_v q D D' _ _ H (report_v_refl new_report))]. intros a a' [Hr _]. exact Hr.
Qed.

Theorem balance_table_v cfg X X' b b' :
  load X = COk b -> load X' = COk b' ->
  Forall2 day_v (b_days b) (b_days b') -> b_min b = b_min b' -> b_max b = b_max b' ->
  ceq table_v (balance_table cfg X) (balance_table cfg X').
Proof.
  intros HX HX' Hd Hmin Hmax. unfold balance_table.
  eapply ceq_bind; [apply (balance_report_v cfg X X' b b'); assumption|].
  intros [r p] [r' p'] (Hr & Hp). cbn [fst snd ceq] in *. subst p'. now apply render_report_v.
Qed.

Theorem balance_csv_v cfg X X' b b' :
  load X = COk b -> load X' = COk b' ->
  Forall2 day_v (b_days b) (b_days b') -> b_min b = b_min b' -> b_max b = b_max b' ->
  ceq eq (balance_csv cfg X) (balance_csv cfg X').
Proof.
  intros HX HX' Hd Hmin Hmax. unfold balance_csv.
  eapply ceq_bind; [apply (balance_table_v cfg X X' b b'); assumption|].
  intros t t' Ht. cbn [ceq]. now apply render_csv_v.
Qed.

Theorem balance_text_v cfg tc X X' b b' :
  load X = COk b -> load X' = COk b' ->
  Forall2 day_v (b_days b) (b_days b') -> b_min b = b_min b' -> b_max b = b_max b' ->
  ceq eq (balance_text cfg tc X) (balance_text cfg tc X').
Proof.
  intros HX HX' Hd Hmin Hmax. unfold balance_text.
  eapply ceq_bind; [apply (balance_table_v cfg X X' b b'); assumption|].
  intros t t' Ht. cbn [ceq]. now apply render_text_v.
Qed.
