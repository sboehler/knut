(* The reciprocal that Prices.Insert stores, one.Div(p).Truncate(8), characterised without
   the division algorithm of shopspring/decimal: it is 10^16/p rounded to the nearest integer
   (ties away from zero), cut toward zero to 8 decimals. *)
From Coq Require Import ZArith List Bool Lia.
From Knut Require Import Model.Str Model.Dec Model.Price Spec.PriceSpec Proofs.DecProofs.
Import ListNotations.
Open Scope bool_scope.
Open Scope Z_scope.

Lemma round_core a b :
  0 < a -> b <> 0 ->
  (2 * Z.abs (Z.rem a b) < Z.abs b -> nearest_half_away a b (Z.quot a b)) /\
  (Z.abs b <= 2 * Z.abs (Z.rem a b) ->
   nearest_half_away a b (if Z.sgn b <? 0 then Z.quot a b - 1 else Z.quot a b + 1)).
Proof.
  intros Ha Hb.
  pose proof (Z.quot_rem' a b) as E.
  pose proof (Z.rem_nonneg a b Hb (Z.lt_le_incl _ _ Ha)) as Hr0.
  pose proof (Z.rem_bound_abs a b Hb) as Hr1.
  set (q := Z.quot a b) in *. set (r := Z.rem a b) in *.
  rewrite (Z.abs_eq r) in * by exact Hr0. unfold nearest_half_away.
  split; intros H.
  - replace (a - q * b) with r by lia. rewrite (Z.abs_eq r) by exact Hr0. split; lia.
  - (* the signs of everything under Z.abs are known once that of b is: lia gets linear goals *)
    destruct (Z.abs_spec b) as [[Hs Eb]|[Hs Eb]]; rewrite Eb in *.
    + assert (Z.sgn b <? 0 = false) as -> by (apply Z.ltb_ge, Z.sgn_nonneg, Hs).
      replace (a - (q + 1) * b) with (r - b) by lia. replace ((q + 1) * b) with (a + (b - r)) by lia.
      rewrite (Z.abs_neq (r - b)), (Z.abs_eq a), (Z.abs_eq (a + (b - r))) by lia. split; lia.
    + assert (Z.sgn b <? 0 = true) as -> by (apply Z.ltb_lt, Z.sgn_neg_iff; lia).
      replace (a - (q - 1) * b) with (r + b) by lia. replace ((q - 1) * b) with (a + (- b - r)) by lia.
      rewrite (Z.abs_neq (r + b)), (Z.abs_eq a), (Z.abs_eq (a + (- b - r))) by lia. split; lia.
Qed.

Lemma cmp_same_ex a b e :
  cmp (mkDec a e) (mkDec b e) = match a ?= b with Lt => -1 | Eq => 0 | Gt => 1 end.
Proof. unfold cmp, rescale_pair. cbn [ex coef]. rewrite Z.eqb_refl. reflexivity. Qed.

Lemma cmp_lt0 x y : (match x ?= y with Lt => -1 | Eq => 0 | Gt => 1 end <? 0) = (x <? y).
Proof. unfold Z.ltb at 2. destruct (x ?= y); reflexivity. Qed.

Lemma dabs_mk c e : dabs (mkDec c e) = mkDec (Z.abs c) e.
Proof.
  unfold dabs. cbn [coef ex]. destruct (Z.ltb_spec c 0); [reflexivity|].
  rewrite Z.abs_eq by assumption. reflexivity.
Qed.

Lemma round_recip a b s m :
  0 < a -> b <> 0 -> Z.sgn b = Z.sgn s -> Z.abs b = m ->
  exists n, nearest_half_away a b n /\
    match (if Z.abs (Z.rem a b) * 2 <? m then DOk (mkDec (Z.quot a b) (-16))
           else if Z.sgn 1 * Z.sgn s <? 0 then DOk (sub (mkDec (Z.quot a b) (-16)) (dec_new 1 (-16)))
           else DOk (add (mkDec (Z.quot a b) (-16)) (dec_new 1 (-16))))
    with DOk x => truncate x 8 | DPanic => dec_zero end
    = mkDec (Z.quot n (pow10 8)) (-8).
Proof.
  intros Ha Hb Hs <-. destruct (round_core a b Ha Hb) as [R1 R2].
  assert (forall n, truncate (mkDec n (-16)) 8 = mkDec (Z.quot n (pow10 8)) (-8)) as Htr by reflexivity.
  destruct (Z.ltb_spec (Z.abs (Z.rem a b) * 2) (Z.abs b)) as [Hlt|Hge].
  - eexists. split; [apply R1; lia | apply Htr].
  - change (Z.sgn 1) with 1. rewrite Z.mul_1_l, <- Hs.
    unfold sub, add, dec_new, rescale_pair. cbn [coef ex]. rewrite Z.eqb_refl. cbn [coef ex].
    specialize (R2 ltac:(lia)). destruct (Z.sgn b <? 0); eexists; (split; [exact R2 | apply Htr]).
Qed.

Lemma recip_is_recip p : is_zero p = false -> is_recip p (recip p).
Proof.
  unfold is_zero. intros Hz. apply Z.eqb_neq in Hz.
  destruct p as [c e]. cbn [coef] in Hz.
  unfold is_recip, recip_fraction, recip, div, div_round, quo_rem, one, of_int, division_precision.
  cbn [coef ex]. apply Z.eqb_neq in Hz. rewrite Hz. apply Z.eqb_neq in Hz.
  replace (0 - e - - (16)) with (16 - e) by lia.
  replace (- (16) + e) with (e - 16) by lia.
  change (- (16)) with (-16). rewrite dabs_mk.
  destruct (Z.leb_spec e 16) as [He|He].
  - (* 10^(16-e) / c *)
    assert (16 - e <? 0 = false) as -> by (apply Z.ltb_ge; lia).
    rewrite Z.mul_1_l. cbn [fst snd coef ex].
    replace (e - 16 + 16) with e by lia. rewrite cmp_same_ex, cmp_lt0.
    apply round_recip; [apply pow10_nonneg_pos; lia | exact Hz | reflexivity | reflexivity].
  - (* 1 / (c * 10^(e-16)) *)
    assert (16 - e <? 0 = true) as -> by (apply Z.ltb_lt; lia).
    replace (- (16 - e)) with (e - 16) by lia. cbn [fst snd coef ex].
    assert (0 < pow10 (e - 16)) as Hpos by (apply pow10_nonneg_pos; lia).
    assert (cmp (mkDec (Z.abs (Z.rem 1 (c * pow10 (e - 16))) * 2) (0 + 16)) (mkDec (Z.abs c) e)
            = match Z.abs (Z.rem 1 (c * pow10 (e - 16))) * 2 ?= Z.abs c * pow10 (e - 16) with
              | Lt => -1 | Eq => 0 | Gt => 1 end) as ->.
    { unfold cmp, rescale_pair, rescale. cbn [coef ex].
      assert (0 + 16 =? e = false) as -> by (apply Z.eqb_neq; lia).
      rewrite Z.min_l by lia. rewrite Z.eqb_refl. cbn [negb coef ex].
      assert (e =? 0 + 16 = false) as -> by (apply Z.eqb_neq; lia).
      assert (e <? 0 + 16 = false) as -> by (apply Z.ltb_ge; lia).
      cbn [coef ex]. replace (Z.abs (0 + 16 - e)) with (e - 16) by lia. reflexivity. }
    rewrite cmp_lt0. apply round_recip; [lia | nia | |].
    + rewrite Z.sgn_mul, (Z.sgn_pos (pow10 (e - 16))) by lia. lia.
    + rewrite Z.abs_mul, (Z.abs_eq (pow10 (e - 16))) by lia. reflexivity.
Qed.
