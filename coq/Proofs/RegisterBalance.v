(* `knut register` against `knut balance`: the rows of the register with date [col], Dest account
   [row] and commodity [c] -- over all sources and descriptions -- show amounts that sum to the
   amount the balance report stores for account [row], commodity [c] under the period end [col]
   (the cell `balance --diff --close=false` prints), for the same window, valuation, mapping and
   remap, with register's --dest / --commodity filters equal to balance's --account / --commodity
   and no --source filter.

   Why: every booking is a pair of postings (p, p') with p booked on the account p' names as the
   other side, equal commodity and opposite amounts (Proofs/PairAccounts.v).  The register files
   posting p under p's OTHER account and shows the negated amount; the balance files p' under p''s
   own account.  Both commands hand the same postings to their collection (Sort only permutes the
   transactions of a day; the checker does not change the days). *)
From Coq Require Import ZArith QArith List Bool Lia Permutation.
From Knut Require Import Model.Str Model.Dec Model.Date Model.Account Model.Ledger Model.Price Model.Journal
     Model.Check Model.Pipeline Model.Table Model.Report Model.Cli Model.Loader Model.CliSafe Model.Register
     Spec.LedgerSpec Spec.WellformedSpec
     Proofs.DecProofs Proofs.DecValue Proofs.StrProofs Proofs.SMapProofs Proofs.JournalFacts Proofs.ReportSum Proofs.Conservation
     Proofs.LedgerProofs Proofs.PairAccounts Proofs.OrderProofs Proofs.OrderStages Proofs.OrderPipeline Proofs.OrderCmd
     Proofs.CheckPerm Proofs.NoPanic Proofs.RegisterOrder.
Import ListNotations.
Open Scope bool_scope.
Open Scope Q_scope.

Section VSum.
  Context {V : Type} (f : V -> Q).

  Definition vsum (m : smap V) : Q := qsum (fun kv => f (snd kv)) m.

  Lemma sorted_lt_get_none (m : smap V) k k0 v0 :
    sorted ((k0, v0) :: m) -> str_cmp k k0 = Lt -> sm_get ((k0, v0) :: m) k = None.
  Proof.
    intros Hs E. apply sm_get_none. cbn [keys map fst]. intros [H|H].
    - subst k0. rewrite str_cmp_refl in E. discriminate.
    - inversion Hs as [|? ? ? _ Hlt]; subst. specialize (Hlt k H).
      pose proof (str_cmp_lt_trans _ _ _ E Hlt) as C. rewrite str_cmp_refl in C. discriminate.
  Qed.

  Lemma vsum_put (m : smap V) k v :
    sorted m ->
    vsum (sm_put m k v) == vsum m - (match sm_get m k with Some o => f o | None => 0 end) + f v.
  Proof.
    induction 1 as [|k0 v0 m Hs IH Hlt].
    - cbn. ring.
    - assert (Hs0 : sorted ((k0, v0) :: m)) by (constructor; assumption).
      cbn [sm_put]. destruct (str_cmp k k0) eqn:E.
      + apply str_cmp_eq in E. subst k0. cbn [sm_get]. rewrite str_eqb_refl.
        unfold vsum, qsum. cbn [fold_right snd]. ring.
      + rewrite (sorted_lt_get_none m k k0 v0 Hs0 E).
        unfold vsum, qsum. cbn [fold_right snd]. ring.
      + cbn [sm_get]. assert (Hne : str_eqb k k0 = false).
        { unfold str_eqb. rewrite E. reflexivity. }
        rewrite Hne. unfold vsum, qsum in *. cbn [fold_right snd]. rewrite IH. ring.
  Qed.
End VSum.

Definition reg_match (col : Z) (row : account) (c : commodity) (k : Register.rkey) : bool :=
  (rk_date k =? col)%Z
  && (match rk_other k with Some a => acc_eqb a row | None => false end)
  && (match rk_com k with Some c' => str_eqb c' c | None => false end).

(* what the Amount column shows for an entry: the negated stored amount *)
Definition shown (col : Z) (row : account) (c : commodity) (kv : Register.rkey * dec) : Q :=
  if reg_match col row c (fst kv) then dvalue (neg (snd kv)) else 0.

Definition reg_rows_total (r : reg_report) (col : Z) (row : account) (c : commodity) : Q :=
  vsum (shown col row c) r.

Definition reg_sorted (r : reg_report) : Prop :=
  sorted r /\ forall k x, In (k, x) r -> k = rk_enc (fst x).

Lemma reg_sorted_new : reg_sorted new_reg_report.
Proof. split; [constructor|intros k x []]. Qed.

Lemma reg_add_sorted r k v : reg_sorted r -> reg_sorted (reg_add r k v).
Proof.
  intros [Hs Hk]. split; [apply sorted_put; exact Hs|].
  intros k0 x Hin. unfold reg_add in Hin. apply sm_put_in in Hin. destruct Hin as [E|Hin].
  - inversion E; subst. reflexivity.
  - eapply Hk. exact Hin.
Qed.

Lemma dvalue_nil : dvalue dec_nil == 0.
Proof. unfold dvalue, dec_nil. cbn. ring. Qed.

Lemma reg_rows_total_add r k v col row c :
  reg_sorted r ->
  reg_rows_total (reg_add r k v) col row c ==
  reg_rows_total r col row c + (if reg_match col row c k then - dvalue v else 0).
Proof.
  intros [Hs Hk]. unfold reg_rows_total, reg_add. rewrite (vsum_put _ r (rk_enc k) _ Hs).
  unfold reg_get. destruct (sm_get r (rk_enc k)) as [[k0 q]|] eqn:E.
  - assert (k0 = k).
    { apply sm_get_in in E. specialize (Hk _ _ E). cbn [fst] in Hk. symmetry. apply rk_enc_inj. exact Hk. }
    subst k0. unfold shown. cbn [fst snd]. destruct (reg_match col row c k); [|ring].
    rewrite !dvalue_neg, dvalue_add. ring.
  - unfold shown. cbn [fst snd]. destruct (reg_match col row c k); [|ring].
    rewrite dvalue_neg, dvalue_add, dvalue_nil. ring.
Qed.

Definition rq_contrib (q : reg_query) (col : Z) (row : account) (c : commodity) (dp : Z * posting) : Q :=
  let '(d, p) := dp in
  if rq_where q p then
    match rq_other q (p_other p) with
    | ShPanic => 0
    | o =>
      if reg_match col row c (mkRKey (rq_date q d) (rq_account q (p_acc p))
                                     (match o with ShAcc a => Some a | _ => None end)
                                     (rq_com q (p_com p)) (rq_desc q [])) (* description: irrelevant, see below *)
      then - dvalue (if rq_valued q then p_val p else p_qty p) else 0
    end
  else 0.

Lemma reg_match_desc col row c d a o cm s s' :
  reg_match col row c (mkRKey d a o cm s) = reg_match col row c (mkRKey d a o cm s').
Proof. reflexivity. Qed.

Section RegQueryFold.
  Variable q : reg_query.
  Variable col : Z.
  Variable row : account.
  Variable c : commodity.

  Let total r := reg_rows_total r col row c.

  Lemma reg_query_posting_sum r t p r' p' :
    reg_sorted r -> reg_query_posting q r t p = ROk (r', p') ->
    p' = p /\ reg_sorted r' /\ total r' == total r + rq_contrib q col row c (t_date t, p).
  Proof.
    intros Hs H. unfold reg_query_posting in H. unfold rq_contrib.
    destruct (rq_where q p); [|inversion H; subst; split; [reflexivity|split; [assumption|ring]]].
    destruct (rq_other q (p_other p)) as [a| |] eqn:E; try discriminate; inversion H; subst r' p'; clear H.
    all: split; [reflexivity|]; split; [apply reg_add_sorted; exact Hs|].
    all: unfold total; rewrite reg_rows_total_add by exact Hs.
    all: rewrite (reg_match_desc col row c _ _ _ _ (rq_desc q (t_desc t)) (rq_desc q [])); reflexivity.
  Qed.

  Lemma reg_query_days_sum ds r r' ds' :
    reg_sorted r -> process_days (reg_query_proc q) r ds = ROk (r', ds') ->
    reg_sorted r' /\ total r' == total r + qsum (rq_contrib q col row c) (days_postings ds).
  Proof.
    intros Hs H.
    assert (Honly : posting_only (reg_query_proc q) (reg_query_posting q)) by (repeat split).
    refine (proj2 (process_days_trace _ _
              (fun done r1 => reg_sorted r1 /\ total r1 == total r + qsum (rq_contrib q col row c) done)
              Honly _ ds [] r r' ds' _ H)).
    2: { split; [exact Hs|]. cbn. ring. }
    intros done r1 t p r2 p' [Hs1 Hc1] E. destruct (reg_query_posting_sum _ _ _ _ _ Hs1 E) as (-> & Hs2 & Hc2).
    split; [reflexivity|]. split; [exact Hs2|]. rewrite qsum_app, Hc2, Hc1. unfold qsum. cbn [fold_right]. ring.
  Qed.
End RegQueryFold.

(* the configurations agree: same window, valuation, checker, mapping, remap; register's --dest and
   --commodity are balance's --account and --commodity; no --source; commodities are kept in the keys
   (-c, or no valuation); balance without --close *)
Record cfgs_agree (rc : register_cfg) (bc : balance_cfg) : Prop := mkAgree {
  ag_from : rg_from rc = bc_from bc;
  ag_to : rg_to rc = bc_to bc;
  ag_interval : rg_interval rc = bc_interval bc;
  ag_last : rg_last rc = bc_last bc;
  ag_valuation : rg_valuation rc = bc_valuation bc;
  ag_lenient : rg_lenient rc = bc_lenient bc;
  ag_mapping : rg_mapping rc = bc_mapping bc;
  ag_remap : rg_remap rc = bc_remap bc;
  ag_sources : rg_sources rc = [];
  ag_dests : rg_dests rc = bc_accounts bc;
  ag_commodities : rg_commodities rc = bc_commodities bc;
  ag_comms : rg_comms rc = true;
  ag_close : bc_close bc = false }.

Section Pairing.
  Variables (rc : register_cfg) (bc : balance_cfg) (part : partition).
  Hypothesis AG : cfgs_agree rc bc.
  Variables (col : Z) (row : account) (c : commodity).
  Hypothesis Hcol : col <> 0%Z.

  Let qb := balance_query bc part.
  Let qr := register_query rc part.
  Let k : Report.rkey := (Some col, Some c).

  Lemma date_match d : (align_z part d =? col)%Z = oz_eqb (Date.align part d) (Some col).
  Proof.
    unfold align_z. destruct (Date.align part d) as [x|]; cbn [oz_eqb]; [reflexivity|].
    apply Z.eqb_neq. auto.
  Qed.

  (* the register's contribution of p = the balance's contribution of its partner p' *)
  Lemma pair_contrib d p p' :
    pair2_ok p p' -> rq_contrib qr col row c (d, p) == q_contrib qb row k (d, p').
  Proof.
    intros (Hc & Hq & Hv & Ha & Ho).
    unfold rq_contrib, q_contrib, qr, qb, register_query, balance_query.
    cbn [rq_where rq_other rq_account rq_com rq_desc rq_date rq_valued q_where q_account q_date q_valued].
    destruct AG as [_ _ _ _ Eval _ Emap Eremap Esrc Edst Ecom Ecomms _].
    rewrite Esrc, Edst, Ecom, Emap, Eremap, Ecomms, Eval, Ho, Hc. cbn [rxs_or_all andb].
    assert (W : rxs_or_all (bc_accounts bc) (acc_name (p_acc p')) && rxs_or_all (bc_commodities bc) (p_com p') =
                (match bc_accounts bc with [] => true | rs => rxs_match rs (acc_name (p_acc p')) end)
                && (match bc_commodities bc with [] => true | rs => rxs_match rs (p_com p') end))
      by (unfold rxs_or_all; destruct (bc_accounts bc), (bc_commodities bc); reflexivity).
    rewrite W. clear W.
    destruct ((match bc_accounts bc with [] => true | rs => rxs_match rs (acc_name (p_acc p')) end)
              && (match bc_commodities bc with [] => true | rs => rxs_match rs (p_com p') end)); [|reflexivity].
    destruct (shorten (bc_mapping bc) (remap (bc_remap bc) (p_acc p'))) as [a| |]; try reflexivity.
    - unfold reg_match, delta_at, contrib, idk, k, rkey_eqb. cbn [rk_date rk_other rk_com fst snd ocom_eqb].
      rewrite date_match.
      destruct (acc_eqb a row); [|rewrite andb_false_r; reflexivity]. rewrite andb_true_r.
      destruct (oz_eqb (Date.align part d) (Some col)); cbn [andb]; [|reflexivity].
      destruct (str_eqb (p_com p') c); [|reflexivity].
      destruct (bc_valuation bc); [rewrite Hv|rewrite Hq]; rewrite dvalue_neg; ring.
    - unfold reg_match. cbn [rk_other]. rewrite andb_false_r. reflexivity.
  Qed.

  Lemma paired_contribs d ps :
    paired2 ps ->
    qsum (rq_contrib qr col row c) (map (fun p => (d, p)) ps) == qsum (q_contrib qb row k) (map (fun p => (d, p)) ps).
  Proof.
    induction 1 as [|p p' rest Hp Hrest IH]; [reflexivity|].
    cbn [map]. unfold qsum, qsum in *. cbn [fold_right].
    rewrite IH. rewrite (pair_contrib d p p' Hp).
    assert (Hp' : pair2_ok p' p).
    { destruct Hp as (H1 & H2 & H3 & H4 & H5). repeat split; try (symmetry; assumption).
      - rewrite H2, neg_involutive. reflexivity.
      - rewrite H3, neg_involutive. reflexivity. }
    rewrite (pair_contrib d p' p Hp'). ring.
  Qed.

  Lemma days_contribs ds :
    Forall day2_ok ds ->
    qsum (rq_contrib qr col row c) (days_postings ds) == qsum (q_contrib qb row k) (days_postings ds).
  Proof.
    induction 1 as [|d ds Hd _ IH]; [reflexivity|].
    unfold days_postings in *. cbn [map concat]. rewrite qsum_app, qsum_app, IH.
    apply Qplus_comp; [|reflexivity].
    unfold day_postings. unfold day2_ok in Hd.
    induction Hd as [|t ts Ht _ IHt]; [reflexivity|].
    cbn [map concat]. rewrite qsum_app, qsum_app, IHt. apply Qplus_comp; [|reflexivity].
    apply paired_contribs. exact Ht.
  Qed.
End Pairing.

Lemma sort_stage_equiv l (s s' : unit) l' :
  process_days sort_proc s l = ROk (s', l') -> Forall2 day_equiv l l'.
Proof.
  rewrite sort_stage_eq. intros [= _ <-]. induction l as [|d l IH]; cbn [map]; constructor; [|exact IH].
  apply set_txns_equiv; [apply day_equiv_refl|]. apply Permutation_sym. apply sort_by_perm.
Qed.

Lemma day_postings_perm d1 d2 : Permutation (d_txns d1) (d_txns d2) -> Permutation (day_postings d1) (day_postings d2).
Proof.
  intros P. unfold day_postings. rewrite <- !flat_map_concat_map. apply Permutation_flat_map. exact P.
Qed.

Lemma days_postings_perm l1 l2 : Forall2 day_equiv l1 l2 -> Permutation (days_postings l1) (days_postings l2).
Proof.
  induction 1 as [|d1 d2 l1 l2 Hd _ IH]; [constructor|].
  unfold days_postings in *. cbn [map concat]. apply Permutation_app; [|exact IH].
  apply day_postings_perm. apply Hd.
Qed.

Lemma filter_days_ok sp ds : Forall day2_ok ds ->
  Forall day2_ok (map (fun d => if period_contains sp (d_date d) then d else set_txns d []) ds).
Proof.
  induction 1 as [|d ds Hd _ IH]; cbn [map]; constructor; [|exact IH].
  destruct (period_contains sp (d_date d)); [exact Hd|constructor].
Qed.

Lemma Forall2_refl_in {A} (R : A -> A -> Prop) (P : A -> Prop) l :
  (forall a, P a -> R a a) -> Forall P l -> Forall2 R l l.
Proof. intros H. induction 1; constructor; auto. Qed.

Lemma partitions_agree rc bc b p1 p2 :
  cfgs_agree rc bc -> rg_partition rc b = COk p1 -> cfg_partition bc b = COk p2 -> p1 = p2.
Proof.
  intros AG H1 H2. destruct AG as [E1 E2 E3 E4 _ _ _ _ _ _ _ _ _].
  unfold rg_partition, cfg_partition_safe, cfg_partition in *.
  cbn [bc_from bc_to bc_interval bc_last] in H1. rewrite E1, E2, E3, E4 in H1.
  destruct (p_start _ =? 0)%Z; [discriminate|].
  destruct (new_partition _ _ _); try discriminate. congruence.
Qed.

Theorem register_matches_balance rc bc ds rr rb part :
  cfgs_agree rc bc -> sd_syntactic ds -> no_conflicting_prices ds ->
  register_report rc ds = COk rr -> balance_report bc ds = COk (rb, part) ->
  forall row c col, col <> 0%Z ->
    reg_rows_total rr col row c == rcell row (Some col, Some c) rb.
Proof.
  intros AG Hsyn Hnc Hr Hb row c col Hcol.
  pose proof AG as [_ _ _ _ Eval Elen _ _ _ _ _ _ Eclose].
  (* balance: the days Lb that reach Query.Into *)
  destruct (balance_report_stages _ _ _ _ Hb) as (dl & s1 & d1 & L2b & c3 & Lb & d5 & d6 & Ep & Epart & E1 & Evb & Efb & E5 & Eqb).
  rewrite Eclose in E1, E5. subst d5. rewrite <- Eval in Evb.
  set (L0 := b_days (builder_of dl)) in *. apply check_current_stage_id in E1. subst d1.
  (* register: the days Lr *)
  unfold register_report, register_with in Hr.
  apply cbind_ok in Hr. destruct Hr as ([] & _ & Hr).
  rewrite load_safe_eq, Ep in Hr. cbn [depanic of_mresult cbind] in Hr. unfold register_report_of in Hr.
  apply cbind_ok in Hr. destruct Hr as ([Lr partr] & Erd & Hr). cbn [fst snd] in Hr.
  apply cbind_ok in Hr. destruct Hr as ([rr' lr'] & Erq & Hr). apply run_stage_ok in Erq.
  cbn [fst] in Hr. injection Hr as ->.
  unfold register_days_of in Erd. fold L0 in Erd.
  apply cbind_ok in Erd. destruct Erd as (partr0 & Epr & Erd).
  pose proof (partitions_agree rc bc _ _ _ AG Epr Epart) as ->.
  apply cbind_ok in Erd. destruct Erd as ([s0 L0'] & Es & Erd). apply run_stage_ok in Es. cbn [snd] in Erd.
  apply cbind_ok in Erd. destruct Erd as (L1r & Ecr & Erd).
  apply cbind_ok in Erd. destruct Erd as ([c4 L1r'] & Ekr & Erd). apply run_stage_ok in Ekr.
  pose proof (check_current_stage_id _ _ _ _ _ Ekr) as ->. cbn [snd] in Erd.
  apply cbind_ok in Erd. destruct Erd as (L2r & Evr & Erd).
  apply cbind_ok in Erd. destruct Erd as ([c3' Lr'] & Efr & Erd). apply run_stage_ok in Efr.
  cbn [snd] in Erd. injection Erd as -> <-.
  (* the days that reach Filter on both sides *)
  assert (Hok0 : Forall day2_ok L0) by (apply builder_of_ok; eapply parse_directives_ok; exact Ep).
  assert (H00 : Forall2 DIok L0 L0').
  { apply Forall2_DIok_join; [eapply sort_stage_equiv; exact Es|]. apply builder_accs_ok. apply Hsyn. exact Ep. }
  assert (R2 : Forall2 DIok L2b L2r /\ Forall day2_ok L2b).
  { destruct (rg_valuation rc) as [v|].
    - destruct Evb as (c1 & L1b & c2 & Ecb & Evb).
      apply cbind_ok in Ecr. destruct Ecr as ([c1' L1r'] & Ecr & E). apply run_stage_ok in Ecr. injection E as <-.
      apply cbind_ok in Evr. destruct Evr as ([c2' L2r'] & Evr & E). apply run_stage_ok in Evr. injection E as <-.
      assert (Hpc : Forall (fun x => prices_consistent (d_prices x)) L0) by (eapply builder_prices_consistent; eassumption).
      pose proof (cp_stage_rel v (mkCp [] None) L0 L0' (Forall2_and_l _ _ _ _ H00 Hpc)) as R1.
      rewrite Ecb, Ecr in R1. cbn [req fst snd] in R1. destruct R1 as [_ R1].
      pose proof (val_stage_rel v (mkVal None None []) _ _ (fun k0 a0 c0 q0 (H : In _ []) => match H with end) R1) as R2.
      rewrite Evb, Evr in R2. cbn [req fst snd] in R2. split; [apply R2|].
      eapply valuate_stage_ok; [|exact Evb]. eapply prices_stage_ok; [|exact Ecb]. exact Hok0.
    - subst L2b. injection Ecr as <-. injection Evr as <-. split; assumption. }
  destruct R2 as [R2 Hok2].
  pose proof (filter_stage_rel (span part) tt L2b L2r R2) as R3.
  rewrite Efb, Efr in R3. cbn [req fst snd] in R3. destruct R3 as [_ R3].
  assert (Hok : Forall day2_ok Lb) by (rewrite (filter_stage_spec _ _ _ _ _ Efb); apply filter_days_ok; exact Hok2).
  (* both sums *)
  destruct (query_days (balance_query bc part) row (Some col, Some c) _ _ _ _ wf_new_report Eqb) as (_ & _ & Hcell).
  rewrite Hcell, rcell_new, Qplus_0_l.
  destruct (reg_query_days_sum (register_query rc part) col row c _ _ _ _ reg_sorted_new Erq) as (_ & Hsum).
  rewrite Hsum.
  assert (Z0 : reg_rows_total new_reg_report col row c == 0) by reflexivity.
  rewrite Z0, Qplus_0_l.
  rewrite <- (qsum_perm _ _ _ (days_postings_perm _ _ (Forall2_DIok_equiv _ _ R3))).
  apply (days_contribs rc bc part AG col row c Hcol). exact Hok.
Qed.
