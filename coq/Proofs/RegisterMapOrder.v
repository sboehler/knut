(* `knut register`, renderNode: Amounts.Index(cmp) ranges over a Go map and sorts the keys.  With
   the comparison of the repaired code (Model/Register.v rkey_cmp: Other, Commodity if shown,
   Account if shown, Description) -- a total preorder that is a total order on the keys of one
   node -- the index, and so the rows, are the same for every enumeration of the map. *)
From Coq Require Import ZArith List Bool Lia Permutation.
From Knut Require Import Model.Str Model.Dec Model.Date Model.Account Model.Ledger Model.Price Model.Journal
     Model.Pipeline Model.Table Model.Register Proofs.StrProofs Proofs.StableSort Proofs.TxnOrder.
Import ListNotations.
Open Scope bool_scope.
Open Scope Z_scope.

Lemma good_const {A} : good_cmp (fun _ _ : A => Eq).
Proof. constructor; intros; try reflexivity; discriminate. Qed.

Lemma good_if {A} (b : bool) (c : A -> A -> comparison) : good_cmp c -> good_cmp (fun x y => if b then c x y else Eq).
Proof. intros G. destruct b; [exact G|apply good_const]. Qed.

Lemma good_oacc : good_cmp oacc_cmp.
Proof.
  pose proof good_acc as G. constructor.
  - intros [a|]; cbn; [apply (gc_refl _ G)|reflexivity].
  - intros [a|] [b|]; cbn; try reflexivity. apply (gc_anti _ G).
  - intros [a|] [b|] [x|]; cbn; try discriminate; try reflexivity. apply (gc_trans _ G).
  - intros [a|] [b|] [x|]; cbn; try discriminate; try reflexivity. apply (gc_eq_l _ G).
Qed.

Lemma good_rkey rc : good_cmp (rkey_cmp rc).
Proof.
  unfold rkey_cmp.
  apply (good_then (fun k1 k2 => oacc_cmp (rk_other k1) (rk_other k2))); [apply (good_proj rk_other), good_oacc|].
  apply (good_then (fun k1 k2 => if rr_commodities rc then str_cmp (ostr (rk_com k1)) (ostr (rk_com k2)) else Eq)).
  { apply good_if. apply (good_proj (fun k => ostr (rk_com k))), good_str. }
  apply (good_then (fun k1 k2 => if rr_source rc then oacc_cmp (rk_account k1) (rk_account k2) else Eq)).
  { apply good_if. apply (good_proj rk_account), good_oacc. }
  apply (good_proj rk_desc), good_str.
Qed.

Lemma good_rkey_pinned rc : good_cmp (rkey_cmp_pinned rc).
Proof.
  unfold rkey_cmp_pinned.
  apply (good_then (fun k1 k2 => oacc_cmp (rk_other k1) (rk_other k2))); [apply (good_proj rk_other), good_oacc|].
  apply good_if. apply (good_proj (fun k => ostr (rk_com k))), good_str.
Qed.

Lemma rentry_ltb_of cmp a b : rentry_ltb cmp a b = ltb_of (fun x y : rkey * dec => cmp (fst x) (fst y)) a b.
Proof. reflexivity. Qed.

(* the index of a node is the same for every enumeration of its map, provided the comparison
   distinguishes the entries (no two entries compare Equal) *)
Theorem reg_index_order_free cmp l l' :
  good_cmp cmp -> Permutation l l' ->
  (forall x y, In x l -> In y l -> cmp (fst x) (fst y) = Eq -> x = y) ->
  reg_index_with cmp l = reg_index_with cmp l'.
Proof.
  intros G P Hinj. unfold reg_index_with.
  pose proof (good_proj (@fst rkey dec) cmp G) as G'.
  apply (sort_by_perm_inj (rentry_ltb cmp)).
  - intros a. rewrite rentry_ltb_of. apply (ltb_of_irrefl _ G').
  - intros a b c. rewrite !rentry_ltb_of. apply (ltb_of_trans _ G').
  - intros a b c. rewrite !rentry_ltb_of. apply (ltb_of_cotrans _ G').
  - exact P.
  - intros x y Hx Hy E. apply Hinj; try assumption.
    unfold eqv in E. rewrite !rentry_ltb_of in E. unfold ltb_of in E.
    rewrite (gc_anti _ G' x y) in E. cbn beta in E.
    destruct (cmp (fst x) (fst y)); cbn in E; try discriminate. reflexivity.
Qed.

(* what "the comparison distinguishes the entries" means for the keys the command builds: the
   components that are not shown are constant (nil / ""), so two keys of one date that compare
   Equal agree in every component -- up to the identification of accounts with their names, which
   is how Go interns them (Registry.Get) *)
Definition okey_name_eq (a b : option account) : Prop :=
  match a, b with
  | Some x, Some y => acc_rank x = acc_rank y /\ acc_name x = acc_name y
  | None, None => True
  | _, _ => False
  end.

Lemma cmp_then_eq c k : cmp_then c k = Eq -> c = Eq /\ k = Eq.
Proof. destruct c; cbn [cmp_then]; [auto|discriminate|discriminate]. Qed.

Lemma oacc_cmp_eq a b : oacc_cmp a b = Eq -> okey_name_eq a b.
Proof.
  destruct a as [a|], b as [b|]; cbn; try discriminate; [|auto].
  rewrite acc_cmp_lex. intros H. apply cmp_then_eq in H. destruct H as [E1 E2].
  split; [apply Z.compare_eq; exact E1|apply str_cmp_eq; exact E2].
Qed.
