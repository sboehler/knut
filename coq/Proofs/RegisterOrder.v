(* `knut register` (Model/Register.v) and the order of the directives: the report is the same
   association list, the table and the bytes are equal, for every permutation of the syntax-level
   directives (the C05/C06 statement of `balance`, Proofs/OrderCmd.v, for this command). *)
From Coq Require Import ZArith List Bool Lia Permutation.
From Knut Require Import Model.Str Model.Dec Model.Date Model.Account Model.Ledger Model.Price Model.Journal
     Model.Check Model.Pipeline Model.Table Model.Report Model.Cli Model.Loader Model.CliSafe Model.Register
     Spec.WellformedSpec Proofs.DecProofs Proofs.StrProofs Proofs.SMapProofs Proofs.CheckLemmas Proofs.BuilderProofs
     Proofs.JournalFacts Proofs.CheckPerm Proofs.OrderProofs Proofs.OrderSMap Proofs.OrderStages Proofs.OrderPipeline Proofs.OrderCmd
     Proofs.NoPanic.
Import ListNotations.
Open Scope bool_scope.
Open Scope Z_scope.

Lemma app_same_length {A} (a b x y : list A) : length a = length b -> a ++ x = b ++ y -> a = b /\ x = y.
Proof.
  revert b. induction a as [|h a IH]; intros [|h' b] HL H; cbn in *; try discriminate.
  - split; [reflexivity|exact H].
  - injection H as -> H. injection HL as HL. destruct (IH b HL H) as [-> ->]. split; reflexivity.
Qed.

Lemma enc_str_inj a b x y : enc_str a ++ x = enc_str b ++ y -> a = b /\ x = y.
Proof.
  unfold enc_str. cbn [app]. intros H. injection H as HL H. apply Nat2Z.inj in HL.
  apply app_same_length; assumption.
Qed.

Lemma enc_segs_inj a : forall b x y, length a = length b ->
  concat (map enc_str a) ++ x = concat (map enc_str b) ++ y -> a = b /\ x = y.
Proof.
  induction a as [|s a IH]; intros [|s' b] x y HL H; cbn [length map concat app] in *; try discriminate.
  - split; [reflexivity|exact H].
  - rewrite <- !app_assoc in H. apply enc_str_inj in H. destruct H as [-> H].
    injection HL as HL. destruct (IH b x y HL H) as [-> ->]. split; reflexivity.
Qed.

Lemma enc_acc_inj a b x y : enc_acc a ++ x = enc_acc b ++ y -> a = b /\ x = y.
Proof.
  unfold enc_acc. cbn [app]. intros H. injection H as HL H. apply Nat2Z.inj in HL.
  apply enc_segs_inj; assumption.
Qed.

Lemma enc_oacc_inj a b x y : enc_oacc a ++ x = enc_oacc b ++ y -> a = b /\ x = y.
Proof.
  destruct a as [a|], b as [b|]; cbn [enc_oacc app]; intros H; try discriminate.
  - apply (f_equal (@tl Z)) in H. cbn [tl] in H. apply enc_acc_inj in H. destruct H as [-> ->]. split; reflexivity.
  - apply (f_equal (@tl Z)) in H. cbn [tl] in H. split; [reflexivity|exact H].
Qed.

Lemma enc_ostr_inj a b x y : enc_ostr a ++ x = enc_ostr b ++ y -> a = b /\ x = y.
Proof.
  destruct a as [a|], b as [b|]; cbn [enc_ostr app]; intros H; try discriminate.
  - apply (f_equal (@tl Z)) in H. cbn [tl] in H. apply enc_str_inj in H. destruct H as [-> ->]. split; reflexivity.
  - apply (f_equal (@tl Z)) in H. cbn [tl] in H. split; [reflexivity|exact H].
Qed.

Theorem rk_enc_inj k1 k2 : rk_enc k1 = rk_enc k2 -> k1 = k2.
Proof.
  destruct k1 as [d1 a1 o1 c1 s1], k2 as [d2 a2 o2 c2 s2]. unfold rk_enc. cbn [rk_date rk_account rk_other rk_com rk_desc].
  intros H. injection H as -> H.
  apply enc_oacc_inj in H. destruct H as [-> H].
  apply enc_oacc_inj in H. destruct H as [-> H].
  apply enc_ostr_inj in H. destruct H as [-> ->]. reflexivity.
Qed.

Lemma reg_add_comm r k1 v1 k2 v2 :
  reg_add (reg_add r k1 v1) k2 v2 = reg_add (reg_add r k2 v2) k1 v1.
Proof.
  unfold reg_add, reg_get.
  destruct (WellformedSpec.str_eq_dec (rk_enc k1) (rk_enc k2)) as [E|N].
  - pose proof (rk_enc_inj _ _ E) as ->.
    rewrite !sm_get_put_same, !sm_put_put_same.
    f_equal. f_equal. rewrite !add_assoc. f_equal. apply add_comm.
  - rewrite (sm_get_put_other r (rk_enc k1) _ (rk_enc k2)) by congruence.
    rewrite (sm_get_put_other r (rk_enc k2) _ (rk_enc k1)) by congruence.
    apply sm_put_comm. exact N.
Qed.

Inductive raction := RaPanic | RaSkip | RaInsert (k : rkey) (v : dec).

Definition ract (q : reg_query) (tp : txn * posting) : raction :=
  let t := fst tp in let p := snd tp in
  if rq_where q p then
    match rq_other q (p_other p) with
    | ShPanic => RaPanic
    | o => RaInsert (mkRKey (rq_date q (t_date t)) (rq_account q (p_acc p))
                            (match o with ShAcc a => Some a | _ => None end)
                            (rq_com q (p_com p)) (rq_desc q (t_desc t)))
                    (if rq_valued q then p_val p else p_qty p)
    end
  else RaSkip.

Lemma reg_pstep_eq q r tp :
  pstep (reg_query_posting q) r tp =
  match ract q tp with
  | RaPanic => RPanic k_shorten
  | RaSkip => ROk r
  | RaInsert k v => ROk (reg_add r k v)
  end.
Proof.
  unfold pstep, reg_query_posting, ract. destruct (rq_where q (snd tp)); [|reflexivity].
  destruct (rq_other q (p_other (snd tp))); reflexivity.
Qed.

Lemma reg_query_txns_rel q r ts1 ts2 :
  Permutation ts1 ts2 ->
  req (fun a b => fst a = fst b /\ snd a = ts1 /\ snd b = ts2)
      (fold_txns (reg_query_proc q) r ts1) (fold_txns (reg_query_proc q) r ts2).
Proof.
  intros P.
  apply (fold_txns_perm_id (reg_query_proc q) (reg_query_posting q) eq (fun _ => True) eq_refl eq_refl); auto.
  - intros a b c -> ->. reflexivity.
  - intros s t x s' x'. unfold reg_query_posting. destruct (rq_where q x); [|intros [= _ <-]; reflexivity].
    destruct (rq_other q (p_other x)); intros [= _ <-]; reflexivity.
  - intros s s' a _ <-. apply req_refl. reflexivity.
  - intros s a b _ _ _. rewrite !reg_pstep_eq.
    destruct (ract q a) as [| |k1 v1] eqn:Ea, (ract q b) as [| |k2 v2] eqn:Eb; cbn [rbind];
      rewrite ?reg_pstep_eq, ?Ea, ?Eb; cbn [req]; try exact I; try reflexivity.
    apply reg_add_comm.
  - apply Forall_forall. intros; exact I.
Qed.

Lemma reg_query_day_rel q r1 r2 d1 d2 :
  r1 = r2 -> day_equiv d1 d2 ->
  req (fun a b => fst a = fst b /\ True)
      (process_day (reg_query_proc q) r1 d1) (process_day (reg_query_proc q) r2 d2).
Proof.
  intros <- (E0 & E1 & E2 & E3 & E4 & E5 & E6).
  unfold process_day. cbn [reg_query_proc pr_day_start pr_price pr_open pr_close pr_day_end rbind fst snd].
  eapply req_bind; [apply reg_query_txns_rel; exact E3|].
  intros [a1 t1] [a2 t2] (Ha & _ & _). cbn [fst snd] in *. subst a2.
  rewrite !fold_asserts_none by reflexivity. cbn [rbind req fst snd]. split; [reflexivity|exact I].
Qed.

Theorem reg_query_stage_rel q l1 l2 :
  Forall2 day_equiv l1 l2 ->
  req (fun a b => fst a = fst b)
      (process_days (reg_query_proc q) new_reg_report l1) (process_days (reg_query_proc q) new_reg_report l2).
Proof.
  intros HF.
  eapply req_impl; [|apply (process_days_rel (reg_query_proc q) eq day_equiv (fun _ _ => True));
                     [intros; apply reg_query_day_rel; assumption|exact HF|reflexivity]].
  intros a b [H _]. exact H.
Qed.

Definition sort_day (d : day) : day := set_txns d (sort_by txn_ltb (d_txns d)).

Lemma sort_day_eq (s : unit) d : process_day sort_proc s d = ROk (s, sort_day d).
Proof.
  unfold process_day. cbn [sort_proc pr_day_start pr_price pr_open pr_txn pr_posting pr_balance pr_close pr_day_end].
  cbn [rbind fst snd].
  rewrite fold_txns_none by reflexivity. cbn [rbind fst snd].
  rewrite fold_asserts_none by reflexivity. cbn [rbind]. rewrite day_rebuild. reflexivity.
Qed.

Lemma sort_stage_eq (s : unit) l : process_days sort_proc s l = ROk (s, map sort_day l).
Proof.
  induction l as [|d l IH]; cbn [process_days map]; [reflexivity|].
  rewrite sort_day_eq. cbn [rbind fst snd]. rewrite IH. reflexivity.
Qed.

Lemma sort_day_ok d1 d2 : DIok d1 d2 -> DIok (sort_day d1) (sort_day d2).
Proof.
  intros [De Hok]. pose proof De as (_ & _ & _ & E3 & _). split.
  - apply set_txns_equiv; [exact De|].
    eapply Permutation_trans; [apply sort_by_perm|].
    eapply Permutation_trans; [exact E3|]. apply Permutation_sym. apply sort_by_perm.
  - unfold day_accs_ok. cbn [sort_day set_txns d_txns].
    eapply txns_accs_ok_perm; [apply Permutation_sym; apply sort_by_perm|exact Hok].
Qed.

Theorem sort_stage_rel s l1 l2 :
  Forall2 DIok l1 l2 ->
  req (fun a b => fst a = fst b /\ Forall2 DIok (snd a) (snd b))
      (process_days sort_proc s l1) (process_days sort_proc s l2).
Proof.
  intros HF. rewrite !sort_stage_eq. cbn [req fst snd]. split; [reflexivity|].
  induction HF; cbn [map]; constructor; auto using sort_day_ok.
Qed.

Lemma load_safe_eq ds : load_safe ds = cbind (of_mresult (depanic (parse_directives ds))) (fun l => COk (builder_of l)).
Proof. unfold load_safe. rewrite parse_directives_safe_eq. reflexivity. Qed.

Theorem load_safe_perm sds1 sds2 :
  Permutation sds1 sds2 -> sd_syntactic sds1 -> no_conflicting_prices sds1 ->
  ceq (fun b1 b2 => builders_equiv b1 b2 /\ Forall (fun x => prices_consistent (d_prices x)) (b_days b1))
      (load_safe sds1) (load_safe sds2).
Proof.
  intros P Hs Hn. pose proof (load_perm sds1 sds2 P Hs) as H. rewrite !load_safe_eq. unfold Cli.load in H.
  destruct (parse_directives sds1) as [ds1| |] eqn:E1, (parse_directives sds2) as [ds2| |]; cbn in *; try tauto.
  split; [exact H|]. eapply builder_prices_consistent; eassumption.
Qed.

Lemma rg_partition_equiv cfg b1 b2 : b_min b1 = b_min b2 -> b_max b1 = b_max b2 -> rg_partition cfg b1 = rg_partition cfg b2.
Proof. intros H1 H2. unfold rg_partition, cfg_partition_safe, builder_period. rewrite H1, H2. reflexivity. Qed.

Theorem register_days_of_perm cfg b1 b2 :
  builders_equiv b1 b2 -> Forall (fun x => prices_consistent (d_prices x)) (b_days b1) ->
  ceq (fun a b => Forall2 DIok (fst a) (fst b) /\ snd a = snd b) (register_days_of cfg b1) (register_days_of cfg b2).
Proof.
  intros (HF & Hmin & Hmax) Hpc. unfold register_days_of.
  rewrite (rg_partition_equiv cfg b1 b2 Hmin Hmax).
  destruct (rg_partition cfg b2) as [part| |]; cbn [cbind ceq]; try exact I.
  eapply ceq_bind.
  { instantiate (1 := fun a b => Forall2 DIcp (snd a) (snd b)).
    unfold run_stage. pose proof (sort_stage_rel tt _ _ HF) as H. rewrite !sort_stage_eq in *.
    destruct H as [_ H]. apply Forall2_and_l; [exact H|]. apply Forall_map. exact Hpc. }
  intros [s1 l1] [s2 l2] H0. cbn [fst snd] in H0.
  assert (H0' : Forall2 DIok l1 l2).
  { clear -H0. induction H0 as [|a b la lb [Hab _] _ IH]; constructor; assumption. }
  eapply ceq_bind.
  { instantiate (1 := fun la lb => Forall2 DIok la lb). cbn [snd].
    destruct (rg_valuation cfg) as [v|]; [|exact H0'].
    eapply ceq_bind.
    - unfold run_stage. apply ceq_of_presult. apply cp_stage_rel. exact H0.
    - intros [u1 q1] [u2 q2] [_ Hq]. cbn [fst snd ceq] in *. exact Hq. }
  intros l3 l4 H34. eapply ceq_bind; [apply check_stage_current; exact H34|].
  intros [c1 r1] [c2 r2] [E1 E2]. cbn [fst snd] in *. subst r1 r2.
  eapply ceq_bind.
  { instantiate (1 := fun la lb => Forall2 DIok la lb).
    destruct (rg_valuation cfg) as [v|]; [|exact H34].
    eapply ceq_bind.
    - unfold run_stage. apply ceq_of_presult. apply val_stage_rel; [intros k0 a0 c0 q0 []|exact H34].
    - intros [w1 z1] [w2 z2] [_ Hz]. cbn [fst snd ceq] in *. exact Hz. }
  intros l5 l6 H56. eapply ceq_bind.
  { unfold run_stage. apply ceq_of_presult. apply filter_stage_rel. exact H56. }
  intros [u1 q1] [u2 q2] [_ Hq]. cbn [fst snd ceq] in *. split; [exact Hq|reflexivity].
Qed.

Theorem register_report_of_perm cfg b1 b2 :
  builders_equiv b1 b2 -> Forall (fun x => prices_consistent (d_prices x)) (b_days b1) ->
  ceq eq (register_report_of cfg b1) (register_report_of cfg b2).
Proof.
  intros HB Hpc. unfold register_report_of.
  eapply ceq_bind; [apply register_days_of_perm; assumption|].
  intros [l1 p1] [l2 p2] [HF E]. cbn [fst snd] in *. subst p2.
  eapply ceq_bind.
  - unfold run_stage. apply ceq_of_presult. apply reg_query_stage_rel. apply Forall2_DIok_equiv. exact HF.
  - intros [r1 x1] [r2 x2] H. cbn [ceq fst snd] in *. exact H.
Qed.

Lemma ceq_eq_bind {A B} (x y : cresult A) (f : A -> cresult B) : ceq eq x y -> ceq eq (cbind x f) (cbind y f).
Proof.
  intros H. eapply ceq_bind; [exact H|]. intros a b <-. destruct (f a); cbn; auto.
Qed.

Theorem register_text_of_perm cfg tc b1 b2 :
  builders_equiv b1 b2 -> Forall (fun x => prices_consistent (d_prices x)) (b_days b1) ->
  ceq eq (register_table_of cfg b1) (register_table_of cfg b2) /\
  ceq eq (register_text_of cfg tc b1) (register_text_of cfg tc b2).
Proof.
  intros HB Hpc.
  assert (T : ceq eq (register_table_of cfg b1) (register_table_of cfg b2)).
  { unfold register_table_of. apply ceq_eq_bind. apply register_report_of_perm; assumption. }
  split; [exact T|]. unfold register_text_of. apply ceq_eq_bind. exact T.
Qed.

Lemma register_with_perm {R} cfg (k : builder -> cresult R) sds1 sds2 :
  Permutation sds1 sds2 -> sd_syntactic sds1 -> no_conflicting_prices sds1 ->
  (forall b1 b2, builders_equiv b1 b2 -> Forall (fun x => prices_consistent (d_prices x)) (b_days b1) ->
                 ceq eq (k b1) (k b2)) ->
  ceq eq (register_with cfg k sds1) (register_with cfg k sds2).
Proof.
  intros P Hs Hn Hk. unfold register_with.
  destruct (register_flags cfg); cbn [cbind ceq]; try exact I.
  eapply ceq_bind; [apply load_safe_perm; eassumption|].
  intros b1 b2 [HB Hpc]. apply Hk; assumption.
Qed.
