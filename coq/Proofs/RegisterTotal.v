(* `knut register` (Model/Register.v) never panics -- except through a -m rule of level 0: such a
   rule makes account.Shorten return nil for the Dest account, the key is inserted with Other = nil
   and Renderer.Render dereferences it (finding C06-register-hidden-dest-panic).  Without such a
   rule every key of the report has a Dest account and the command returns bytes or an error. *)
From Coq Require Import ZArith List Bool Lia Permutation.
From Knut Require Import Model.Str Model.Dec Model.Date Model.Account Model.Ledger Model.Price Model.Journal
     Model.Check Model.Pipeline Model.Table Model.Report Model.Cli Model.Loader Model.CliSafe Model.Register
     Spec.FailSpec Proofs.CheckLemmas Proofs.JournalFacts Proofs.OrderProofs Proofs.OrderStages Proofs.OrderPipeline Proofs.NoPanic Proofs.NoPanicMore.
Import ListNotations.
Open Scope bool_scope.
Open Scope Z_scope.

(* no -m rule hides accounts *)
Definition mapping_shows (m : list rule) : bool := forallb (fun r => negb (r_level r =? 0)) m.

Lemma shorten_not_hidden m a : mapping_shows m = true -> shorten m a <> ShHidden.
Proof.
  intros Hm. unfold shorten. destruct m as [|r m']; [discriminate|].
  destruct (mapping_level (r :: m') (acc_name a)) as [[l sf]|] eqn:El; [|discriminate].
  destruct (mapping_level_in _ _ _ _ El) as (r0 & Hin & Hl & _).
  unfold mapping_shows in Hm. rewrite forallb_forall in Hm. specialize (Hm r0 Hin). rewrite Hl in Hm.
  destruct (l =? 0); [discriminate|].
  destruct (acc_level a <=? sf); [discriminate|]. destruct (acc_level a - sf <? l); [discriminate|].
  destruct ((l <? 0) || (sf <? 0)); discriminate.
Qed.

(* every key of the report has a Dest account *)
Definition reg_shown (r : reg_report) : Prop := forall k x, In (k, x) r -> rk_other (fst x) <> None.

Lemma reg_shown_hidden r : reg_shown r -> reg_hidden r = false.
Proof.
  intros H. unfold reg_hidden. apply not_true_is_false. intros E. apply existsb_exists in E.
  destruct E as ([k x] & Hin & Hx). cbn [snd] in Hx. specialize (H k x Hin).
  destruct (rk_other (fst x)); [discriminate|contradiction].
Qed.

Lemma reg_add_shown r k v : rk_other k <> None -> reg_shown r -> reg_shown (reg_add r k v).
Proof.
  intros Hk Hr k0 x Hin. unfold reg_add in Hin. apply sm_put_in in Hin. destruct Hin as [E|Hin].
  - inversion E; subst. exact Hk.
  - eapply Hr. exact Hin.
Qed.

Section Query.
  Variable q : reg_query.
  Hypothesis Hq : forall a, rq_other q a <> ShHidden.

  Lemma reg_query_posting_shown r t p r' p' :
    reg_shown r -> reg_query_posting q r t p = ROk (r', p') -> p' = p /\ reg_shown r'.
  Proof.
    intros Hr H. unfold reg_query_posting in H. destruct (rq_where q p); [|inversion H; subst; auto].
    destruct (rq_other q (p_other p)) as [a| |] eqn:E; try discriminate.
    - inversion H; subst. split; [reflexivity|]. apply reg_add_shown; [discriminate|exact Hr].
    - exfalso. exact (Hq _ E).
  Qed.

  Lemma reg_query_stage_shown l r' l' :
    process_days (reg_query_proc q) new_reg_report l = ROk (r', l') -> reg_shown r'.
  Proof.
    intros E.
    refine (proj1 (process_days_inv (reg_query_proc q) reg_shown (fun _ => True) _ _ _ _ _ _ _ _ l _ r' l' _ _ E));
      cbn [reg_query_proc pr_day_start pr_price pr_open pr_txn pr_posting pr_balance pr_close pr_day_end]; try discriminate.
    - intros f s t s' ps [= <-] Hs _ H. split; [|exact I]. rewrite fold_postings_fold_map in H.
      refine (proj1 (fold_map_inv _ reg_shown (fun _ _ => True) _ _ _ _ _ Hs H)).
      intros s0 x s1 y _ Hs0 E0. split; [exact (proj2 (reg_query_posting_shown _ _ _ _ _ Hs0 E0))|exact I].
    - intros k x [].
    - apply Forall_forall. intros d _. apply Forall_forall. intros t _. exact I.
  Qed.
End Query.

Lemma reg_query_proc_safe q : (forall a, rq_other q a <> ShPanic) -> proc_safe (reg_query_proc q).
Proof.
  intros Hq.
  unfold proc_safe, reg_query_proc. cbn [pr_day_start pr_price pr_open pr_txn pr_posting pr_balance pr_close pr_day_end].
  repeat split; some_inv.
  intros s t x. unfold reg_query_posting.
  destruct (rq_where q x); [|apply np_ok].
  destruct (rq_other q (p_other x)) eqn:E; [apply np_ok|apply np_ok|].
  exfalso. exact (Hq _ E).
Qed.

Lemma register_flags_np cfg : cnp (register_flags cfg).
Proof.
  unfold register_flags. destruct (mapping_flag_ok (rg_mapping cfg)); cbn [negb]; [|apply cnp_err].
  destruct (rg_valuation cfg) as [v|]; [destruct (valid_commodity v); [apply cnp_ok|apply cnp_err]|apply cnp_ok].
Qed.

Lemma rg_partition_np cfg b : cnp (rg_partition cfg b).
Proof. apply cfg_partition_safe_np. Qed.

Lemma register_days_of_np cfg b : cnp (register_days_of cfg b).
Proof.
  unfold register_days_of.
  apply cbind_np; [apply rg_partition_np|]. intros part.
  apply cbind_np; [apply run_stage_np, sort_proc_safe|]. intros r0.
  apply cbind_np.
  { destruct (rg_valuation cfg) as [v|]; [|apply cnp_ok].
    apply cbind_np; [apply compute_prices_stage_np|]. intros r1. apply cnp_ok. }
  intros days. apply cbind_np; [apply run_stage_np, check_proc_current_safe|]. intros r2.
  apply cbind_np.
  { destruct (rg_valuation cfg) as [v|]; [|apply cnp_ok].
    apply cbind_np; [apply run_stage_np, valuate_proc_safe|]. intros r3. apply cnp_ok. }
  intros days2. apply cbind_np; [apply run_stage_np, filter_proc_safe|]. intros r4. apply cnp_ok.
Qed.

(* up to the report the command never panics, whatever the mapping (flags are checked first) *)
Lemma register_report_of_np cfg b : mapping_flag_ok (rg_mapping cfg) = true -> cnp (register_report_of cfg b).
Proof.
  intros Emf. unfold register_report_of.
  apply cbind_np; [apply register_days_of_np|]. intros dp.
  apply cbind_np; [|intros r5; apply cnp_ok].
  apply run_stage_np, reg_query_proc_safe. intros a. cbn [register_query rq_other].
  apply shorten_np. rewrite <- mapping_flag_ok_eq. exact Emf.
Qed.

Lemma register_with_np {R} cfg (k : builder -> cresult R) ds :
  (mapping_flag_ok (rg_mapping cfg) = true -> forall b, cnp (k b)) -> cnp (register_with cfg k ds).
Proof.
  intros Hk. unfold register_with. destruct (mapping_flag_ok (rg_mapping cfg)) eqn:Emf.
  - apply cbind_np; [apply register_flags_np|]. intros _.
    apply cbind_np; [apply load_safe_np|]. intros b. apply Hk. reflexivity.
  - unfold register_flags. rewrite Emf. apply cnp_err.
Qed.

(* the report of a command without a level-0 rule has a Dest account in every key *)
Lemma register_report_of_shown cfg b r :
  mapping_shows (rg_mapping cfg) = true -> register_report_of cfg b = COk r -> reg_shown r.
Proof.
  intros Hm H. unfold register_report_of in H.
  destruct (register_days_of cfg b) as [dp| |]; cbn [cbind] in H; try discriminate.
  unfold run_stage in H.
  destruct (process_days (reg_query_proc (register_query cfg (snd dp))) new_reg_report (fst dp)) as [[r' l']| |] eqn:E;
    cbn [of_presult cbind fst] in H; try discriminate.
  inversion H; subst. eapply reg_query_stage_shown; [|exact E].
  intros a. cbn [register_query rq_other]. apply shorten_not_hidden. exact Hm.
Qed.

Lemma register_table_of_np cfg b :
  mapping_flag_ok (rg_mapping cfg) = true -> mapping_shows (rg_mapping cfg) = true -> cnp (register_table_of cfg b).
Proof.
  intros Emf Hm. unfold register_table_of.
  destruct (register_report_of cfg b) as [r| |] eqn:E; cbn [cbind].
  - unfold reg_render. rewrite (reg_shown_hidden r (register_report_of_shown cfg b r Hm E)). apply cnp_ok.
  - apply cnp_err.
  - exfalso. exact (register_report_of_np cfg b Emf _ E).
Qed.

Theorem register_total cfg tc ds :
  mapping_shows (rg_mapping cfg) = true ->
  cnp (register_table cfg ds) /\ cnp (register_text cfg tc ds).
Proof.
  intros Hm. split; apply register_with_np; intros Emf b.
  - apply register_table_of_np; assumption.
  - unfold register_text_of. apply cbind_np; [apply register_table_of_np; assumption|]. intros t. apply cnp_ok.
Qed.

(* the only panic of the command is the nil Dest account *)
Theorem register_panic_is_nil_account cfg tc ds m :
  register_text cfg tc ds = CPanic m -> m = k_nil_account /\ mapping_shows (rg_mapping cfg) = false.
Proof.
  intros H. split.
  - unfold register_text, register_with in H.
    destruct (register_flags cfg) eqn:Ef; cbn [cbind] in H; try discriminate.
    2: { exfalso. exact (register_flags_np cfg _ Ef). }
    destruct (load_safe ds) as [b| |] eqn:El; cbn [cbind] in H; try discriminate.
    2: { exfalso. exact (load_safe_np ds _ El). }
    unfold register_text_of, register_table_of in H.
    assert (Emf : mapping_flag_ok (rg_mapping cfg) = true).
    { unfold register_flags in Ef. destruct (mapping_flag_ok (rg_mapping cfg)); [reflexivity|]. cbn in Ef. discriminate. }
    destruct (register_report_of cfg b) as [r| |] eqn:E; cbn [cbind] in H; try discriminate.
    + destruct (reg_render (rg_render_cfg cfg) r); cbn [cbind] in H; [discriminate|]. inversion H. reflexivity.
    + exfalso. exact (register_report_of_np cfg b Emf _ E).
  - destruct (mapping_shows (rg_mapping cfg)) eqn:Hm; [|reflexivity].
    exfalso. exact (proj2 (register_total cfg tc ds Hm) m H).
Qed.
