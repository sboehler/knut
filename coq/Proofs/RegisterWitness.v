(* Concrete runs of the register model (Model/Register.v) on the journal of Proofs/OrderWitness.v:
   the hypotheses of the theorems of Properties/C06reg.v are satisfiable, and the two refutations. *)
From Coq Require Import ZArith List Bool Permutation.
From Knut Require Import Model.Str Model.Dec Model.Date Model.Account Model.Ledger Model.Price Model.Journal
     Model.Check Model.Pipeline Model.Table Model.Report Model.Cli Model.Loader Model.CliSafe Model.Register
     Proofs.OrderCmd Proofs.OrderWitness Proofs.RegisterTotal.
Import ListNotations.
Open Scope bool_scope.
Open Scope Z_scope.

(* register --to .. --months -v CHF -a -d: valued, source and description columns *)
Definition rw_cfg : register_cfg :=
  mkRegisterCfg 0 (w_d0 + 90) Monthly 0 (Some w_chf) false true true false [] [] [] [] [] true.
(* register --to .. -c --digits 2 -k *)
Definition rw_cfg_plain : register_cfg :=
  mkRegisterCfg 0 (w_d0 + 90) Once 0 None true false false false [] [] [] [] [] true.
Definition rw_tc : text_cfg := mkTextCfg false 2.

Lemma register_text_table cfg tc ds t :
  register_table cfg ds = COk t -> register_text cfg tc ds = COk (render_text tc t).
Proof.
  unfold register_table, register_text, register_with, register_text_of.
  destruct (register_flags cfg); cbn [cbind]; try discriminate.
  destruct (load_safe ds); cbn [cbind]; try discriminate.
  intros ->. reflexivity.
Qed.

(* The journal is run once per arrival order and configuration, up to the table; the text is
   rendered from the one table both runs give. *)
Lemma rw_tables_equal :
  (exists t, register_table rw_cfg w_journal = COk t /\ register_table rw_cfg w_permuted = COk t /\
             length (t_rows t) = 15%nat /\ (1000 <? Z.of_nat (length (render_text rw_tc t))) = true) /\
  (exists t, register_table rw_cfg_plain w_journal = COk t /\ register_table rw_cfg_plain w_permuted = COk t).
Proof.
  split; eexists.
  - split; [vm_compute; reflexivity|]. split; [vm_compute; reflexivity|]. split; vm_compute; reflexivity.
  - split; vm_compute; reflexivity.
Qed.

Lemma rw_bytes_equal :
  register_text rw_cfg rw_tc w_journal = register_text rw_cfg rw_tc w_permuted /\
  register_text rw_cfg_plain rw_tc w_journal = register_text rw_cfg_plain rw_tc w_permuted /\
  (exists out, register_text rw_cfg rw_tc w_journal = COk out /\ (1000 <? Z.of_nat (length out)) = true) /\
  (exists t, register_table rw_cfg w_journal = COk t /\ length (t_rows t) = 15%nat).
Proof.
  destruct rw_tables_equal as [(t & J & P & R & L) (t' & J' & P')].
  rewrite (register_text_table _ rw_tc _ _ J), (register_text_table _ rw_tc _ _ P),
          (register_text_table _ rw_tc _ _ J'), (register_text_table _ rw_tc _ _ P').
  split; [reflexivity|]. split; [reflexivity|]. split.
  - exists (render_text rw_tc t). split; [reflexivity|exact L].
  - exists t. split; [exact J|exact R].
Qed.

(* -m 0,Expenses hides the Dest account Expenses:R *)
Definition rw_hide : list rule := [mkRule 0 0 (Some (mkRx false s_Expenses false))].
Definition rw_cfg_hidden : register_cfg :=
  mkRegisterCfg 0 (w_d0 + 90) Once 0 None false false false false rw_hide [] [] [] [] true.

Lemma rw_hidden_panics :
  register_text rw_cfg_hidden rw_tc w_journal = CPanic k_nil_account /\
  mapping_flag_ok rw_hide = true /\ mapping_shows rw_hide = false.
Proof. vm_compute. repeat split; reflexivity. Qed.

(* two keys of one date with the same Dest and no commodity shown, different descriptions: the
   pinned comparison leaves them in the order of the enumeration *)
Definition rw_k1 : rkey := mkRKey (w_d0 + 1) None (Some w_A) None [50].
Definition rw_k2 : rkey := mkRKey (w_d0 + 1) None (Some w_A) None [51].
Definition rw_entries : list (rkey * dec) := [(rw_k1, mkDec 500 0); (rw_k2, mkDec 77 (-1))].
Definition rw_rc : reg_render_cfg := mkRegRenderCfg false false true.

Lemma rw_pinned_depends_on_enumeration :
  Permutation rw_entries (rev rw_entries) /\ NoDup (map fst rw_entries) /\
  reg_render_node_pinned rw_rc (table_new (reg_groups rw_rc)) rw_entries <>
  reg_render_node_pinned rw_rc (table_new (reg_groups rw_rc)) (rev rw_entries) /\
  reg_render_node rw_rc (table_new (reg_groups rw_rc)) rw_entries =
  reg_render_node rw_rc (table_new (reg_groups rw_rc)) (rev rw_entries).
Proof.
  split; [apply Permutation_rev|].
  split; [repeat constructor; cbn [In]; intros H; repeat (destruct H as [H|H]; [discriminate H|]); exact H|].
  split; [vm_compute; discriminate|vm_compute; reflexivity].
Qed.

From Coq Require Import QArith.
From Knut Require Import Proofs.DecValue Proofs.LedgerProofs Proofs.RegisterBalance.

(* register -v CHF -c -a -d --months  /  balance -v CHF --months --diff --close=false *)
Definition rw_cfg_c : register_cfg :=
  mkRegisterCfg 0 (w_d0 + 90) Monthly 0 (Some w_chf) true true true false [] [] [] [] [] true.
Definition rw_bcfg : balance_cfg :=
  mkBalanceCfg 0 (w_d0 + 90) Monthly 0 true false (Some w_chf) true [] [] [] [] [] true.
Definition rw_col : Z := Eval vm_compute in Date.of_civil 2020 1 31.

Lemma rw_agree : cfgs_agree rw_cfg_c rw_bcfg.
Proof. constructor; reflexivity. Qed.

(* the two reports, evaluated once and referred to by name below *)
Definition rw_rr : reg_report :=
  ltac:(let v := eval vm_compute in (register_report rw_cfg_c w_journal) in
        match v with COk ?rr => exact rr end).
Definition rw_rb : report * partition :=
  ltac:(let v := eval vm_compute in (balance_report rw_bcfg w_journal) in
        match v with COk ?x => exact x end).

Lemma rw_matches :
  exists rr rb part,
    register_report rw_cfg_c w_journal = COk rr /\ balance_report rw_bcfg w_journal = COk (rb, part) /\
    In rw_col (end_dates part) /\ rw_col <> 0%Z /\
    (reg_rows_total rr rw_col w_A w_usd == rcell w_A (Some rw_col, Some w_usd) rb)%Q /\
    ~ (reg_rows_total rr rw_col w_A w_usd == 0)%Q /\
    (reg_rows_total rr rw_col w_I w_chf == rcell w_I (Some rw_col, Some w_chf) rb)%Q.
Proof.
  exists rw_rr, (fst rw_rb), (snd rw_rb).
  split; [vm_compute; reflexivity|]. split; [vm_compute; reflexivity|].
  split; [vm_compute; auto|]. split; [discriminate|].
  split; [vm_compute; reflexivity|]. split; [vm_compute; discriminate|vm_compute; reflexivity].
Qed.
