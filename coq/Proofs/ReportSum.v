(* Sums over the report trees, in rationals.  For a key mapper f and a key k', [tsum f k' n] is
   the total value of all amounts stored anywhere in the tree n under keys that f maps to k'. *)
From Coq Require Import ZArith QArith List Bool Lia Permutation Setoid Morphisms.
From Knut Require Import Model.Str Model.Dec Model.Date Model.Account Model.Ledger Model.Price
     Model.Table Model.Report Proofs.DecProofs Proofs.DecValue Proofs.StrProofs.
Import ListNotations.
Open Scope Q_scope.

Lemma oz_eqb_eq a b : oz_eqb a b = true <-> a = b.
Proof.
  destruct a, b; cbn; try (split; congruence).
  rewrite Z.eqb_eq. split; congruence.
Qed.

Lemma ocom_eqb_eq a b : ocom_eqb a b = true <-> a = b.
Proof.
  destruct a, b; cbn; try (split; congruence).
  rewrite str_eqb_eq. split; congruence.
Qed.

Lemma rkey_eqb_eq a b : rkey_eqb a b = true <-> a = b.
Proof.
  destruct a, b. unfold rkey_eqb. cbn [fst snd]. rewrite andb_true_iff, oz_eqb_eq, ocom_eqb_eq.
  split; [intros [-> ->]; reflexivity|intros H; inversion H; auto].
Qed.

Lemma rkey_eqb_refl a : rkey_eqb a a = true.
Proof. apply rkey_eqb_eq. reflexivity. Qed.

Definition contrib (f : rkey -> rkey) (k' : rkey) (k : rkey) (v : dec) : Q :=
  if rkey_eqb (f k) k' then dvalue v else 0.

Fixpoint esum (f : rkey -> rkey) (k' : rkey) (m : ramounts) : Q :=
  match m with
  | [] => 0
  | (k, v) :: rest => contrib f k' k v + esum f k' rest
  end.

Fixpoint tsum (f : rkey -> rkey) (k' : rkey) (n : node) : Q :=
  match n with
  | Node _ _ _ a ch => esum f k' a + fold_right (fun c acc => tsum f k' c + acc) 0 ch
  end.

Definition csum (f : rkey -> rkey) (k' : rkey) (ch : list node) : Q :=
  fold_right (fun c acc => tsum f k' c + acc) 0 ch.

Lemma tsum_unfold f k' s p hv a ch : tsum f k' (Node s p hv a ch) = esum f k' a + csum f k' ch.
Proof. reflexivity. Qed.

Lemma esum_app f k' a b : esum f k' (a ++ b) == esum f k' a + esum f k' b.
Proof.
  induction a as [|[k v] a IH]; cbn [app esum]; [ring|]. rewrite IH. ring.
Qed.

Lemma contrib_add f k' k a b : contrib f k' k (add a b) == contrib f k' k a + contrib f k' k b.
Proof. unfold contrib. destruct (rkey_eqb (f k) k'); [apply dvalue_add|ring]. Qed.

Lemma esum_ra_add f k' m k v : esum f k' (ra_add m k v) == esum f k' m + contrib f k' k v.
Proof.
  induction m as [|[k0 v0] m IH]; cbn [ra_add esum].
  - rewrite contrib_add. unfold contrib at 1. destruct (rkey_eqb (f k) k'); [rewrite dvalue_nil|]; ring.
  - destruct (rkey_eqb k k0) eqn:E.
    + apply rkey_eqb_eq in E. subst k0. cbn [esum]. rewrite contrib_add. ring.
    + cbn [esum]. rewrite IH. ring.
Qed.

Lemma esum_filter_nonzero f k' m :
  esum f k' (filter (fun kv => negb (is_zero (snd kv))) m) == esum f k' m.
Proof.
  induction m as [|[k v] m IH]; cbn [filter esum snd]; [reflexivity|].
  destruct (is_zero v) eqn:E; cbn [negb].
  - rewrite IH. unfold contrib. destruct (rkey_eqb (f k) k'); [|ring].
    apply is_zero_value in E. rewrite E. ring.
  - cbn [esum]. rewrite IH. reflexivity.
Qed.

(* folding ra_add with a mapped key: the contribution of every source entry is added *)
Lemma esum_fold_add g f k' src : forall dest,
  esum f k' (fold_left (fun d kv => ra_add d (g (fst kv)) (snd kv)) src dest)
  == esum f k' dest + esum (fun k => f (g k)) k' src.
Proof.
  induction src as [|[k v] src IH]; intros dest; cbn [fold_left esum fst snd]; [ring|].
  rewrite IH, esum_ra_add. unfold contrib. ring.
Qed.

Lemma esum_sum_into f k' dest src g :
  esum f k' (ra_sum_into dest src g) == esum f k' dest + esum (fun k => f (g k)) k' src.
Proof. unfold ra_sum_into. rewrite esum_filter_nonzero. apply esum_fold_add. Qed.

Lemma esum_plus f k' a b : esum f k' (ra_plus a b) == esum f k' a + esum f k' b.
Proof.
  unfold ra_plus. rewrite (esum_fold_add (fun k => k)). reflexivity.
Qed.


Lemma csum_children_insert f k' rec h path (delta : Q) l :
  (forall c, tsum f k' (rec c) == tsum f k' c + delta) ->
  csum f k' (children_insert rec h path l) == csum f k' l + delta.
Proof.
  intros Hrec. induction l as [|c l IH]; cbn [children_insert].
  - unfold csum. cbn [fold_right]. rewrite Hrec. cbn [tsum esum fold_right]. ring.
  - destruct (str_cmp h (n_seg c)).
    + unfold csum. cbn [fold_right]. rewrite Hrec. ring.
    + unfold csum. cbn [fold_right]. rewrite Hrec. cbn [tsum esum fold_right]. ring.
    + unfold csum in *. cbn [fold_right]. rewrite IH. ring.
Qed.

Lemma tsum_node_insert f k' k v : forall fuel prefix rest n,
  (length rest <= fuel)%nat ->
  tsum f k' (node_insert fuel prefix rest k v n) == tsum f k' n + contrib f k' k v.
Proof.
  induction fuel as [|fu IH]; intros prefix rest [s p hv a ch] Hlen.
  - destruct rest; [|cbn in Hlen; lia]. cbn [node_insert]. rewrite !tsum_unfold, esum_ra_add. ring.
  - destruct rest as [|h tail].
    + cbn [node_insert]. rewrite !tsum_unfold, esum_ra_add. ring.
    + cbn [node_insert]. rewrite !tsum_unfold.
      rewrite (csum_children_insert f k' _ h (prefix ++ [h]) (contrib f k' k v)).
      * ring.
      * intros c. apply IH. cbn in Hlen. lia.
Qed.

Definition rsum (f : rkey -> rkey) (k' : rkey) (r : report) : Q := tsum f k' (r_al r) + tsum f k' (r_eie r).

Lemma rsum_insert f k' r date a c v :
  rsum f k' (report_insert r date a c v) == rsum f k' r + contrib f k' (date, Some c) v.
Proof.
  unfold report_insert, rsum. destruct (is_AL a); cbn [r_al r_eie];
    rewrite tsum_node_insert by lia; ring.
Qed.

Lemma rsum_new f k' : rsum f k' new_report == 0.
Proof. unfold rsum, new_report, empty_root. cbn. ring. Qed.


Lemma csum_perm f k' l1 l2 : Permutation l1 l2 -> csum f k' l1 == csum f k' l2.
Proof.
  induction 1; unfold csum in *; cbn [fold_right]; try reflexivity.
  - rewrite IHPermutation. reflexivity.
  - ring.
  - rewrite IHPermutation1. exact IHPermutation2.
Qed.

Lemma csum_map_ext f k' g l :
  Forall (fun c => tsum f k' (g c) == tsum f k' c) l -> csum f k' (map g l) == csum f k' l.
Proof.
  induction 1 as [|c l Hc _ IH]; unfold csum in *; cbn [map fold_right]; [reflexivity|].
  rewrite Hc, IH. reflexivity.
Qed.

Fixpoint node_size (n : node) : nat :=
  match n with Node _ _ _ _ ch => S (fold_right (fun c acc => node_size c + acc)%nat O ch) end.

Lemma node_ind_size (P : node -> Prop) :
  (forall s p hv a ch, Forall P ch -> P (Node s p hv a ch)) -> forall n, P n.
Proof.
  intros H. fix IH 1. intros [s p hv a ch]. apply H.
  induction ch as [|c ch IHch]; constructor; [apply IH|exact IHch].
Qed.

Lemma tsum_node_sort f k' alpha valued n : tsum f k' (node_sort alpha valued n) == tsum f k' n.
Proof.
  induction n as [s p hv a ch IH] using node_ind_size.
  cbn [node_sort]. rewrite !tsum_unfold.
  rewrite (csum_perm f k' _ _ (sort_by_perm _ _)).
  rewrite csum_map_ext; [reflexivity|exact IH].
Qed.

Lemma esum_node_totals f k' g n : forall acc,
  esum f k' (node_totals g n acc) == esum f k' acc + tsum (fun k => f (g k)) k' n.
Proof.
  induction n as [s p hv a ch IH] using node_ind_size. intros acc.
  cbn [node_totals]. rewrite esum_sum_into, tsum_unfold.
  assert (Hch : forall acc0, esum f k' (fold_left (fun x c => node_totals g c x) ch acc0)
                             == esum f k' acc0 + csum (fun k => f (g k)) k' ch).
  { clear - IH. induction IH as [|c ch Hc _ IHch]; intros acc0; cbn [fold_left].
    - unfold csum. cbn. ring.
    - rewrite IHch, Hc. unfold csum. cbn [fold_right]. ring. }
  rewrite Hch. ring.
Qed.
