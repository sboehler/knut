(* The table that the balance report builds (Model/Report.v render_report), described without the
   table-threading renderer: its rows are Spec.BalanceTableSpec.report_table_rows -- for every
   report, every render configuration (valued or not, --show-commodities or not) and every list of
   dates.  Every such row is as wide as the table and has no negative indent: the hypotheses of
   C17_rect. *)
From Coq Require Import ZArith List Lia.
From Knut Require Import Model.Dec Model.Ledger Model.Table Model.Report Spec.TableSpec Spec.BalanceTableSpec Proofs.ReportSum.
Import ListNotations.
Open Scope bool_scope.
Open Scope Z_scope.

Definition report_width (cfg : render_cfg) (dates : list Z) : nat :=
  ((if draw_comms cfg then 2 else 1) + length dates)%nat.

Definition app_rows (t : table) (rows : list (list cell)) : table := mkTable (t_columns t) (t_rows t ++ rows).

Lemma app_rows_nil t : app_rows t [] = t.
Proof. destruct t as [c r]. unfold app_rows. cbn [t_columns t_rows]. rewrite app_nil_r. reflexivity. Qed.

Lemma app_rows_app t a b : app_rows (app_rows t a) b = app_rows t (a ++ b).
Proof. unfold app_rows. cbn [t_columns t_rows]. rewrite <- app_assoc. reflexivity. Qed.

Lemma app_rows_width t a : t_width (app_rows t a) = t_width t.
Proof. reflexivity. Qed.

Lemma add_row_app_rows t r : add_row t r = app_rows t [r].
Proof. reflexivity. Qed.

Lemma fold_add_row_app_rows rows : forall t, fold_left add_row rows t = app_rows t rows.
Proof.
  induction rows as [|r rows IH]; intros t; cbn [fold_left]; [symmetry; apply app_rows_nil|].
  rewrite IH, add_row_app_rows, app_rows_app. reflexivity.
Qed.

Lemma render_amounts_layout rc t dates indent name neg_ vals :
  t_width t = tw rc dates ->
  render_amounts rc t dates indent name neg_ vals = app_rows t (line_rows rc dates indent name neg_ vals).
Proof.
  intros Hw. unfold render_amounts, line_rows. destruct vals as [|kv vals].
  - rewrite add_row_app_rows. unfold fill_empty. rewrite Hw. cbn [length app]. reflexivity.
  - apply fold_add_row_app_rows.
Qed.

Lemma blocks_rows_cons x l : blocks_rows (x :: l) = snd x ++ blocks_rows l.
Proof. reflexivity. Qed.

Lemma blocks_rows_app a b : blocks_rows (a ++ b) = blocks_rows a ++ blocks_rows b.
Proof. unfold blocks_rows. rewrite map_app, concat_app. reflexivity. Qed.

Lemma render_node_layout rc dates neg_ : forall n indent t,
  t_width t = tw rc dates ->
  render_node rc dates indent neg_ t n = app_rows t (blocks_rows (node_blocks rc dates indent neg_ n)).
Proof.
  induction n as [s p hv a ch IH] using node_ind_size. intros indent t Hw.
  cbn [render_node node_blocks]. rewrite blocks_rows_cons. cbn [snd].
  fold (show_of rc p). fold (shown_vals rc p a).
  set (own := match s with [] => [] | _ => line_rows rc dates indent s neg_ (shown_vals rc p a) end).
  assert (H1 : match s with [] => t | _ => render_amounts rc t dates indent s neg_ (shown_vals rc p a) end = app_rows t own).
  { unfold own. destruct s; [symmetry; apply app_rows_nil|]. apply render_amounts_layout. exact Hw. }
  rewrite H1. rewrite <- app_rows_app.
  assert (Hw1 : t_width (app_rows t own) = tw rc dates) by (rewrite app_rows_width; exact Hw).
  clear H1. remember (app_rows t own) as t1 eqn:Et1. clear Et1 Hw own t.
  rename t1 into t, Hw1 into Hw. revert t Hw.
  induction IH as [|c ch Hc _ IHch]; intros t Hw; cbn [fold_left flat_map]; [symmetry; apply app_rows_nil|].
  rewrite blocks_rows_app, <- app_rows_app. rewrite (Hc (indent + 2) t Hw).
  apply IHch. rewrite app_rows_width. exact Hw.
Qed.

Lemma section_layout rc dates neg_ : forall tops t,
  t_width t = tw rc dates ->
  fold_left (fun t n => add_empty_row (render_node rc dates 0 neg_ t n)) tops t
  = app_rows t (section_rows rc dates neg_ tops).
Proof.
  induction tops as [|top tops IH]; intros t Hw; cbn [fold_left]; [symmetry; apply app_rows_nil|].
  unfold section_rows. cbn [map concat]. fold (section_rows rc dates neg_ tops).
  rewrite render_node_layout by exact Hw.
  unfold add_empty_row. rewrite add_row_app_rows, app_rows_width, Hw, app_rows_app.
  rewrite IH by (rewrite app_rows_width; exact Hw).
  rewrite app_rows_app. reflexivity.
Qed.

Lemma add_separator_row_layout t w : t_width t = w -> add_separator_row t = app_rows t [repeat CSep w].
Proof. intros <-. reflexivity. Qed.

Lemma columns_of_length groups no :
  Forall (fun g => 0 <= g) groups ->
  length (columns_of groups no) = Z.to_nat (fold_right Z.add 0 groups).
Proof.
  revert no. induction groups as [|g groups IH]; intros no H; cbn [columns_of fold_right]; [reflexivity|].
  inversion H as [|g' gs Hg Hgs]; subst.
  rewrite app_length, repeat_length, IH by exact Hgs.
  assert (0 <= fold_right Z.add 0 groups).
  { clear - Hgs. induction Hgs; cbn [fold_right]; lia. }
  lia.
Qed.

Lemma table_new_width rc (dates : list Z) :
  t_width (if draw_comms rc then table_new [1; 1; Z.of_nat (length dates)] else table_new [1; Z.of_nat (length dates)])
  = tw rc dates.
Proof.
  unfold tw. destruct (draw_comms rc); unfold table_new, t_width; cbn [t_columns];
    rewrite columns_of_length by (repeat constructor; lia); cbn [fold_right]; lia.
Qed.

Theorem render_report_table rc r dates :
  t_width (render_report rc r dates) = tw rc dates /\
  t_rows (render_report rc r dates) = report_table_rows rc r dates.
Proof.
  unfold render_report, report_table_rows.
  fold (sorted_al rc r). fold (sorted_eie rc r). fold (total_key rc).
  set (al := sorted_al rc r). set (eie := sorted_eie rc r).
  set (t0 := if draw_comms rc then table_new [1; 1; Z.of_nat (length dates)] else table_new [1; Z.of_nat (length dates)]).
  pose proof (table_new_width rc dates) as Hw0. fold t0 in Hw0.
  assert (Hr0 : t_rows t0 = []) by (unfold t0; destruct (draw_comms rc); reflexivity).
  set (w := tw rc dates) in *.
  fold (header_cells rc dates).
  rewrite (add_separator_row_layout t0 w Hw0).
  rewrite add_row_app_rows, app_rows_app.
  rewrite (add_separator_row_layout (app_rows t0 _) w Hw0), app_rows_app.
  rewrite (section_layout rc dates false (n_children al) (app_rows t0 _) Hw0), app_rows_app.
  rewrite (render_amounts_layout rc (app_rows t0 _) dates 0 s_TotalAL false _ Hw0), app_rows_app.
  rewrite (add_separator_row_layout (app_rows t0 _) w Hw0), app_rows_app.
  rewrite (section_layout rc dates true (n_children eie) (app_rows t0 _) Hw0), app_rows_app.
  rewrite (render_amounts_layout rc (app_rows t0 _) dates 0 s_TotalEIE true _ Hw0), app_rows_app.
  rewrite (add_separator_row_layout (app_rows t0 _) w Hw0), app_rows_app.
  rewrite (render_amounts_layout rc (app_rows t0 _) dates 0 s_Delta false _ Hw0), app_rows_app.
  rewrite (add_separator_row_layout (app_rows t0 _) w Hw0), app_rows_app.
  split; [exact Hw0|].
  unfold app_rows. cbn [t_rows]. rewrite Hr0. cbn [app].
  repeat rewrite <- app_assoc. reflexivity.
Qed.

Theorem render_report_layout rc r dates :
  t_rows (render_report rc r dates) = report_table_rows rc r dates.
Proof. apply render_report_table. Qed.

Definition row_ok (w : nat) (row : list cell) : Prop := length row = w /\ Forall cell_indent_ok row.

Lemma row_ok_repeat w c : cell_indent_ok c -> row_ok w (repeat c w).
Proof.
  intros Hc. split; [apply repeat_length|]. apply Forall_forall. intros x Hx.
  apply repeat_spec in Hx. subst x. exact Hc.
Qed.

Lemma row_numbers_ok diff neg_ vals c dates total :
  length (row_numbers diff neg_ vals c dates total) = length dates /\
  Forall cell_indent_ok (row_numbers diff neg_ vals c dates total).
Proof.
  revert total. induction dates as [|d dates IH]; intros total; cbn [row_numbers].
  - split; [reflexivity|constructor].
  - destruct (IH (add total (ra_get0 vals (Some d, c)))) as [Hl Hf]. split.
    + cbn [length]. rewrite Hl. reflexivity.
    + constructor; [exact I|exact Hf].
Qed.

Lemma render_rows_ok cfg dates indent name neg_ vals coms first :
  0 <= indent ->
  Forall (row_ok (tw cfg dates)) (render_rows cfg dates indent name neg_ vals coms first).
Proof.
  intros Hi. revert first. induction coms as [|c coms IH]; intros first; cbn [render_rows]; [constructor|].
  constructor; [|apply IH].
  destruct (row_numbers_ok (rc_diff cfg) neg_ vals c dates dec_nil) as [Hl Hf].
  unfold row_ok, tw. split.
  - cbn [length]. rewrite app_length, Hl. destruct (draw_comms cfg); cbn [length]; lia.
  - constructor.
    + destruct first; [exact Hi|exact I].
    + apply Forall_app. split; [|exact Hf].
      destruct (draw_comms cfg); [|constructor].
      constructor; [|constructor].
      destruct c as [x|]; [cbn; lia|]. destruct (rc_valuation cfg); [cbn; lia|exact I].
Qed.

Lemma line_rows_ok rc dates indent name neg_ vals :
  0 <= indent -> Forall (row_ok (tw rc dates)) (line_rows rc dates indent name neg_ vals).
Proof.
  intros Hi. unfold line_rows. destruct vals; [|apply render_rows_ok; exact Hi].
  constructor; [|constructor]. destruct (row_ok_repeat (tw rc dates - 1) CEmpty I) as [Hl Hf]. split.
  - cbn [length]. rewrite Hl. unfold tw. destruct (draw_comms rc); lia.
  - constructor; [exact Hi|exact Hf].
Qed.

Lemma node_blocks_ok rc dates neg_ : forall n indent,
  0 <= indent -> Forall (row_ok (tw rc dates)) (blocks_rows (node_blocks rc dates indent neg_ n)).
Proof.
  induction n as [s p hv a ch IH] using node_ind_size. intros indent Hi.
  cbn [node_blocks]. rewrite blocks_rows_cons. cbn [snd]. apply Forall_app. split.
  - destruct s; [constructor|]. apply line_rows_ok. exact Hi.
  - induction IH as [|c ch Hc _ IHch]; cbn [flat_map]; [constructor|].
    rewrite blocks_rows_app. apply Forall_app. split; [apply Hc; lia|exact IHch].
Qed.

Lemma section_rows_ok rc dates neg_ tops : Forall (row_ok (tw rc dates)) (section_rows rc dates neg_ tops).
Proof.
  unfold section_rows. induction tops as [|top tops IH]; cbn [map concat]; [constructor|].
  rewrite <- app_assoc. apply Forall_app. split; [apply node_blocks_ok; lia|].
  constructor; [apply row_ok_repeat; exact I|exact IH].
Qed.

Lemma header_cells_ok rc dates : row_ok (tw rc dates) (header_cells rc dates).
Proof.
  unfold row_ok, tw, header_cells. split.
  - cbn [length]. rewrite app_length, map_length. destruct (draw_comms rc); cbn [length]; lia.
  - constructor; [cbn; lia|]. apply Forall_app. split.
    + destruct (draw_comms rc); repeat constructor; cbn; lia.
    + apply Forall_forall. intros c Hc. apply in_map_iff in Hc. destruct Hc as [d [<- _]]. cbn. lia.
Qed.

Lemma report_table_rows_ok rc r dates : Forall (row_ok (tw rc dates)) (report_table_rows rc r dates).
Proof.
  pose proof (row_ok_repeat (tw rc dates) CSep I) as Hsep.
  unfold report_table_rows. cbv zeta.
  repeat first [apply Forall_nil | apply Forall_cons | apply Forall_app; split];
    first [exact Hsep | apply header_cells_ok | apply section_rows_ok | apply line_rows_ok; lia].
Qed.

Theorem render_report_rows_full cfg r dates :
  let t := render_report cfg r dates in
  (0 < t_width t)%nat /\
  Forall (fun row => length row = t_width t /\ Forall cell_indent_ok row) (t_rows t).
Proof.
  cbv zeta. destruct (render_report_table cfg r dates) as [-> ->]. split.
  - unfold tw. destruct (draw_comms cfg); lia.
  - apply report_table_rows_ok.
Qed.

