(* C08 round trip (DESIGN.md Appendix B.3): the rune structure of a text and the
   scanner primitives in both directions.

   [chunk c b]: the bytes b are one complete encoding of the rune c, whatever follows them
   (Go's decoder looks at no byte beyond a valid sequence: [decoder_local]).
   [runs r]: r is a sequence of chunks (valid UTF-8 to the end); [cls p x]: x is a sequence of
   chunks whose runes satisfy p; [fr r]: the rune the scanner sees in front of r (EOF on []).

   CONSTRUCTION ([*_cons]): the scanner state is [At s r] -- in Inv, positioned in front of
   the suffix r of the text, r valid to the end.  Each primitive, run in front of
   (x ++ r) with x of the right class and r not extending it, succeeds and ends [At s' r].
   INVERSION ([inv_*]): from a successful run of a primitive from a valid state
   ([VInv]: Inv and not the (RuneError, 1) state) the consumed window [Win s x s'] and its
   class.  Nothing here mentions errors: only successful runs matter for the round trip. *)
From Coq Require Import ZArith List Bool Lia ZifyBool.
From Knut Require Import Model.Bytes Model.Utf8 Model.Scanner Proofs.ScannerProofs.
Import ListNotations.
Open Scope bool_scope.
Open Scope Z_scope.

Definition decoder_local (dec : str -> Z * Z) : Prop :=
  forall l c w, l <> [] -> dec l = (c, w) -> ~ (c = rune_error /\ w = 1) ->
  forall x, dec (firstn (Z.to_nat w) l ++ x) = (c, w).

Lemma utf8_decoder_local : decoder_local Utf8M.decode.
Proof.
  intros l c w Hl H Hv x. destruct l as [|s0 t]; [congruence|].
  unfold decode in H.
  repeat match type of H with
  | context [if ?c then _ else _] => destruct c eqn:?
  | context [match ?x with [] => _ | _ :: _ => _ end] => destruct x
  end; inversion H; subst; try (exfalso; apply Hv; split; reflexivity);
  match goal with |- context [Z.to_nat ?k] => let v := eval compute in (Z.to_nat k) in change (Z.to_nat k) with v end;
  cbn [firstn app]; unfold decode;
  repeat match goal with [ Hx : ?e = _ |- context [?e] ] => rewrite Hx end; reflexivity.
Qed.

Lemma zlen_app (a b : str) : zlen (a ++ b) = zlen a + zlen b.
Proof. unfold zlen. rewrite app_length. lia. Qed.

Lemma zlen_nonneg (a : str) : 0 <= zlen a.
Proof. unfold zlen. lia. Qed.

Lemma zlen_cons (x : Z) (a : str) : zlen (x :: a) = 1 + zlen a.
Proof. unfold zlen. cbn [length]. lia. Qed.

Lemma zlen_nil : zlen [] = 0.
Proof. reflexivity. Qed.

Lemma zlen_pos (a : str) : a <> [] -> 1 <= zlen a.
Proof. destruct a; [congruence|]. rewrite zlen_cons. pose proof (zlen_nonneg a). lia. Qed.

Lemma firstn_zlen_app (a b : str) : firstn (Z.to_nat (zlen a)) (a ++ b) = a.
Proof.
  unfold zlen. rewrite Nat2Z.id. rewrite firstn_app, Nat.sub_diag, firstn_all. cbn [firstn].
  apply app_nil_r.
Qed.

Lemma skipn_zlen_app (a b : str) : skipn (Z.to_nat (zlen a)) (a ++ b) = b.
Proof.
  unfold zlen. rewrite Nat2Z.id. rewrite skipn_app, Nat.sub_diag, skipn_all. reflexivity.
Qed.

Lemma app_eq_len (a a' b b' : str) : zlen a = zlen a' -> a ++ b = a' ++ b' -> a = a' /\ b = b'.
Proof.
  intros Hl H. split.
  - rewrite <- (firstn_zlen_app a b), H, Hl. apply firstn_zlen_app.
  - rewrite <- (skipn_zlen_app a b), H, Hl. apply skipn_zlen_app.
Qed.

(* a table for ReadAlternative: ASCII, no empty keyword, none a prefix of another -- so the
   alternative that matches is determined by the text; checked by evaluation *)
Definition ascii_b (l : str) : bool := forallb (fun b => (0 <=? b) && (b <? 128)) l.

Fixpoint prefix_b (x w : str) : bool :=
  match x, w with
  | [], _ => true
  | a :: x', b :: w' => (a =? b) && prefix_b x' w'
  | _ :: _, [] => false
  end.

Definition kws_ok (ss : list str) : bool :=
  forallb (fun x => match x with [] => false | _ => ascii_b x end) ss &&
  forallb (fun x => forallb (fun y => negb (prefix_b x y) || str_eqb x y) ss) ss.

Lemma ascii_b_ok l : ascii_b l = true -> Forall ascii l.
Proof.
  unfold ascii_b. rewrite forallb_forall, Forall_forall. intros H b Hb. specialize (H b Hb). unfold ascii. lia.
Qed.

Lemma asciis_b_ok ls : forallb ascii_b ls = true -> Forall (Forall ascii) ls.
Proof. rewrite forallb_forall, Forall_forall. intros H l Hl. apply ascii_b_ok. now apply H. Qed.

Lemma app_eq_prefix x : forall y r r', x ++ r = y ++ r' -> prefix_b x y = true \/ prefix_b y x = true.
Proof.
  induction x as [|a x IH]; intros [|b y] r r' H; cbn [prefix_b]; auto.
  cbn [app] in H. injection H as -> H. rewrite Z.eqb_refl. cbn [andb]. eauto.
Qed.

Lemma kws_ok_elim ss : kws_ok ss = true ->
  Forall (Forall ascii) ss /\ (forall x, In x ss -> x <> []) /\
  (forall x y r r', In x ss -> In y ss -> x ++ r = y ++ r' -> y = x).
Proof.
  unfold kws_ok. rewrite andb_true_iff, !forallb_forall. intros (H1 & H2). split; [|split].
  - apply Forall_forall. intros x Hx. specialize (H1 x Hx). destruct x; [discriminate|now apply ascii_b_ok].
  - intros x Hx ->. discriminate (H1 [] Hx).
  - intros x y r r' Hx Hy He. pose proof (H2 x Hx) as Hxy. pose proof (H2 y Hy) as Hyx.
    rewrite forallb_forall in Hxy, Hyx. specialize (Hxy y Hy). specialize (Hyx x Hx).
    destruct (app_eq_prefix x y r r' He) as [Hp|Hp]; rewrite Hp in *; cbn [negb orb] in *.
    + symmetry. now apply str_eqb_eq.
    + now apply str_eqb_eq.
Qed.

Section Chunks.
Variable dec : str -> Z * Z.
Hypothesis Hdec : decoder_ok dec.

Definition chunk (c : Z) (b : str) : Prop :=
  b <> [] /\ (forall x, dec (b ++ x) = (c, zlen b)) /\ ~ (c = rune_error /\ zlen b = 1).

Inductive runs : str -> Prop :=
| runs_nil : runs []
| runs_cons c b r : chunk c b -> runs r -> runs (b ++ r).

Inductive cls (p : Z -> bool) : str -> Prop :=
| cls_nil : cls p []
| cls_cons c b x : chunk c b -> p c = true -> cls p x -> cls p (b ++ x).

Definition fr (r : str) : Z := match r with [] => eof | _ => fst (dec r) end.

Definition stops (p : Z -> bool) (r : str) : Prop := p (fr r) && negb (fr r =? eof) = false.

Lemma chunk_nonneg c b : chunk c b -> 0 <= c.
Proof using Hdec.
  intros (_ & H & _). specialize (H []). apply (dec_nonneg _ Hdec) in H. exact H.
Qed.

Lemma chunk_not_eof c b : chunk c b -> c <> eof.
Proof using Hdec. intros H. apply chunk_nonneg in H. unfold eof. lia. Qed.

Lemma chunk_len c b : chunk c b -> 1 <= zlen b.
Proof using. intros (H & _). now apply zlen_pos. Qed.

Lemma chunk_ascii b : 0 <= b < 128 -> chunk b [b].
Proof using Hdec.
  intros Hb. split; [discriminate|]. split.
  - intros x. cbn [app]. now rewrite (dec_ascii _ Hdec b x Hb).
  - unfold rune_error. lia.
Qed.

Lemma chunk_ascii_inv c b : chunk c b -> 0 <= c < 128 -> b = [c].
Proof using Hdec.
  intros (Hne & Hd & _) Hc. specialize (Hd []). rewrite app_nil_r in Hd.
  destruct (dec_cases dec b c (zlen b) Hdec Hne Hd) as [(b0 & b' & -> & _ & -> & Hl)|(H128 & _)]; [|lia].
  rewrite zlen_cons in Hl. destruct b'; [reflexivity|]. rewrite zlen_cons in Hl. pose proof (zlen_nonneg b'). lia.
Qed.

Lemma chunk_det c b x c' b' x' :
  chunk c b -> chunk c' b' -> b ++ x = b' ++ x' -> c = c' /\ b = b' /\ x = x'.
Proof using.
  intros (_ & H1 & _) (_ & H2 & _) He. specialize (H1 x). specialize (H2 x').
  rewrite He in H1. rewrite H1 in H2. inversion H2 as [[Hc Hl]].
  destruct (app_eq_len b b' x x' Hl He). auto.
Qed.

Lemma fr_chunk c b r : chunk c b -> fr (b ++ r) = c.
Proof using.
  intros (Hne & H & _). unfold fr. destruct (b ++ r) eqn:Hb.
  - destruct b; [congruence|discriminate].
  - rewrite <- Hb, H. reflexivity.
Qed.

Lemma fr_ascii b r : 0 <= b < 128 -> fr (b :: r) = b.
Proof using Hdec. intros Hb. apply (fr_chunk b [b] r). now apply chunk_ascii. Qed.

Lemma fr_nil : fr [] = eof.
Proof using. reflexivity. Qed.

Lemma runs_app x y : runs x -> runs y -> runs (x ++ y).
Proof using.
  induction 1 as [|c b r Hc Hr IH]; intros Hy; [exact Hy|].
  rewrite <- app_assoc. apply (runs_cons c); auto.
Qed.

Lemma runs_chunk_inv c b r : chunk c b -> runs (b ++ r) -> runs r.
Proof using.
  intros Hc Hr. inversion Hr as [Hn|c' b' r' Hc' Hr' He].
  - destruct Hc as (Hne & _). symmetry in Hn. apply app_eq_nil in Hn. tauto.
  - destruct (chunk_det _ _ _ _ _ _ Hc' Hc He) as (_ & _ & ->). exact Hr'.
Qed.

Lemma cls_runs p x : cls p x -> runs x.
Proof using. induction 1; [constructor|econstructor; eauto]. Qed.

Lemma cls_app p x y : cls p x -> cls p y -> cls p (x ++ y).
Proof using.
  induction 1 as [|c b x Hc Hp Hx IH]; intros Hy; [exact Hy|].
  rewrite <- app_assoc. apply (cls_cons p c); auto.
Qed.

Lemma runs_cls_inv p x r : cls p x -> runs (x ++ r) -> runs r.
Proof using.
  induction 1 as [|c b x Hc Hp Hx IH]; intros Hr; [exact Hr|].
  rewrite <- app_assoc in Hr. apply IH. eapply runs_chunk_inv; eauto.
Qed.

Lemma cls_impl (p q : Z -> bool) x : (forall c, p c = true -> q c = true) -> cls p x -> cls q x.
Proof using. intros Hpq. induction 1; [constructor|econstructor; eauto]. Qed.

Lemma cls_ascii p x : Forall (fun b => 0 <= b < 128 /\ p b = true) x -> cls p x.
Proof using Hdec.
  induction 1 as [|b x (Hb & Hp) Hx IH]; [constructor|].
  change (b :: x) with ([b] ++ x). apply (cls_cons p b); auto. now apply chunk_ascii.
Qed.

Lemma runs_ascii_app x r : Forall ascii x -> runs r -> runs (x ++ r).
Proof using Hdec.
  intros Hx Hr. apply runs_app; [|exact Hr]. apply (cls_runs (fun _ => true)).
  apply cls_ascii. eapply Forall_impl; [|exact Hx]. unfold ascii. auto.
Qed.

Lemma runs_cons_ascii b r : 0 <= b < 128 -> runs r -> runs (b :: r).
Proof using Hdec. intros Hb Hr. change (b :: r) with ([b] ++ r). apply (runs_cons b); auto. now apply chunk_ascii. Qed.

Lemma runs_cons_inv b r : 0 <= b < 128 -> runs (b :: r) -> runs r.
Proof using Hdec. intros Hb Hr. apply (runs_chunk_inv b [b] r); [now apply chunk_ascii|exact Hr]. Qed.

Lemma cls_first p x r : cls p x -> x <> [] -> fr (x ++ r) <> eof /\ p (fr (x ++ r)) = true.
Proof using Hdec.
  intros Hx Hne. destruct Hx as [|c b x Hc Hp Hx]; [congruence|].
  rewrite <- app_assoc, (fr_chunk c b _ Hc). split; [eapply chunk_not_eof; eauto|exact Hp].
Qed.

End Chunks.

Arguments runs_nil {dec}.
Arguments cls_nil {dec p}.

Section WithEnv.
Variable E : env.
Hypothesis Hlen : e_len E = Z.of_nat (length (e_text E)).
Hypothesis Hfuel : (length (e_text E) < e_fuel E)%nat.
Hypothesis Hdec : decoder_ok (e_decode E).
Hypothesis Hloc : decoder_local (e_decode E).

Notation t := (e_text E).
Notation len := (e_len E).
Notation dec := (e_decode E).
Notation Inv := (Inv E).
Notation chunk := (chunk dec).
Notation runs := (runs dec).
Notation cls := (cls dec).
Notation fr := (fr dec).
Notation stops := (stops dec).

Local Notation inv_facts := (ScannerProofs.inv_facts E Hlen Hfuel Hdec).
Local Notation rest_length := (ScannerProofs.rest_length E Hlen Hfuel Hdec).

Definition At (s : state) (r : str) : Prop := Inv s /\ rest s = r /\ runs r.

Lemma At_inv s r : At s r -> Inv s.
Proof using. intros H; apply H. Qed.

Lemma At_len s r : At s r -> zlen r = len - off s.
Proof using All. intros (HI & Hr & _). rewrite <- Hr. unfold zlen. now apply rest_length. Qed.

Lemma At_off s x r s' : At s (x ++ r) -> At s' r -> off s' = off s + zlen x.
Proof using All.
  intros H1 H2. apply At_len in H1. apply At_len in H2. rewrite zlen_app in H1. lia.
Qed.

Lemma At_slice s x r s' : At s (x ++ r) -> At s' r -> slice t (off s) (off s') = x.
Proof using All.
  intros H1 H2. rewrite (At_off s x r s' H1 H2).
  destruct H1 as ((_ & Hr & _) & Hx & _).
  rewrite (slice_rest t (off s) (zlen x) (rest s) Hr), Hx. apply firstn_zlen_app.
Qed.

Lemma inv_cur_fr s : Inv s -> cur s = fr (rest s).
Proof using All.
  intros HI. pose proof (rest_length s HI) as HL.
  destruct HI as (_ & _ & [(Hc & _ & Ho)|(Ho & Hd)]).
  - destruct (rest s); [now rewrite Hc|]. cbn [length] in HL. lia.
  - remember (rest s) as r eqn:Hr. destruct r as [|b r]; [cbn [length] in HL; lia|].
    unfold RoundTripBase.fr. rewrite <- Hd. reflexivity.
Qed.

Lemma At_cur s r : At s r -> cur s = fr r.
Proof using All. intros (HI & <- & _). now apply inv_cur_fr. Qed.

Lemma At_chunk s c b r : At s (b ++ r) -> chunk c b -> cur s = c /\ clen s = zlen b.
Proof using All.
  intros H Hc. pose proof (At_len s _ H) as HL. pose proof (chunk_len dec c b Hc) as Hb.
  rewrite zlen_app in HL. pose proof (zlen_nonneg r).
  destruct H as (HI & Hr & _). destruct HI as (_ & _ & [(_ & _ & Ho)|(Ho & Hd)]); [lia|].
  destruct Hc as (_ & Hx & _). rewrite Hr, Hx in Hd. inversion Hd. auto.
Qed.

Lemma At_nil_eof s : At s [] -> cur s = eof.
Proof using All. intros H. now rewrite (At_cur s [] H). Qed.

Lemma advance_cons s c b r : At s (b ++ r) -> chunk c b ->
  exists s', advance E s = Ok tt s' /\ At s' r.
Proof using All.
  intros HA Hc. destruct (At_chunk s c b r HA Hc) as (Hcur & Hclen).
  pose proof (At_len s _ HA) as HL. rewrite zlen_app in HL.
  pose proof (chunk_len dec c b Hc) as Hb1. pose proof (chunk_not_eof dec Hdec c b Hc) as Hne.
  destruct HA as (HI & Hr & Hruns).
  pose proof (runs_chunk_inv dec c b r Hc Hruns) as Hrr.
  pose proof (inv_facts s HI) as (H0 & _).
  pose proof HI as (_ & Hrest & _).
  assert (Hsk : skipn (Z.to_nat (clen s)) (rest s) = r).
  { rewrite Hr, Hclen. apply skipn_zlen_app. }
  assert (Hsk2 : r = skipn (Z.to_nat (off s + clen s)) t).
  { rewrite <- Hsk, Hrest, skipn_add. f_equal. pose proof (zlen_nonneg b). lia. }
  unfold advance. rewrite Hsk.
  destruct (Z.eqb_spec (off s + clen s) len) as [He|He].
  - assert (Hb : negb (cur s =? eof) = true) by (apply negb_true_iff, Z.eqb_neq; congruence).
    rewrite Hb. cbn [andb]. eexists. split; [reflexivity|].
    assert (Hrn : r = []).
    { destruct r; [reflexivity|]. rewrite zlen_cons in HL. pose proof (zlen_nonneg r). lia. }
    split; [|split; [cbn [rest]; reflexivity|exact Hrr]].
    apply (inv_eof_state E Hlen Hfuel Hdec); [exact He|exact Hsk2].
  - cbn [andb].
    inversion Hrr as [Hn|c' b' r' Hc' Hr' Heq].
    { exfalso. rewrite <- Hn in HL. rewrite zlen_nil in HL. lia. }
    pose proof Hc' as (_ & Hx' & Hv'). rewrite (Hx' r').
    pose proof (chunk_len dec c' b' Hc') as Hb'.
    assert (Hok : exists s', Ok tt (mkState (off s + clen s) c' (zlen b') (b' ++ r')) = Ok tt s' /\ At s' (b' ++ r')).
    { eexists. split; [reflexivity|]. split; [|split; [reflexivity|rewrite Heq; exact Hrr]].
      apply (inv_dec_state E Hlen Hfuel Hdec).
      - pose proof (zlen_nonneg r). lia.
      - rewrite Heq. exact Hsk2.
      - apply Hx'. }
    destruct (Z.eqb_spec c' rune_error) as [Hce|Hce]; [|exact Hok].
    destruct (Z.eqb_spec (zlen b') 0) as [Hw0|Hw0]; [lia|].
    destruct (Z.eqb_spec (zlen b') 1) as [Hw1|Hw1]; [tauto|exact Hok].
Qed.

Lemma read_while_loop_cons p x : cls p x ->
  forall n s r start, At s (x ++ r) -> stops p r -> (length x < n)%nat ->
  exists s', read_while_loop E p start n s = Ok (mkRange start (off s')) s' /\ At s' r.
Proof using All.
  induction 1 as [|c b x Hc Hp Hx IH]; intros n s r start HA Hst Hn.
  - destruct n as [|n]; [lia|]. cbn [read_while_loop app] in *.
    rewrite (At_cur s r HA). unfold stops in Hst. rewrite Hst. eauto.
  - destruct n as [|n]; [cbn [length] in Hn; lia|]. cbn [read_while_loop].
    rewrite <- app_assoc in HA.
    destruct (At_chunk s c b _ HA Hc) as (Hcur & _).
    pose proof (chunk_not_eof dec Hdec c b Hc) as Hne.
    rewrite Hcur, Hp. destruct (Z.eqb_spec c eof) as [|_]; [contradiction|]. cbn [andb negb].
    destruct (advance_cons s c b _ HA Hc) as (s1 & -> & HA1).
    apply (IH n s1 r start HA1 Hst).
    rewrite app_length in Hn. pose proof (chunk_len dec c b Hc). unfold zlen in *. lia.
Qed.

Lemma fuel_rest s : Inv s -> (length (rest s) < e_fuel E)%nat.
Proof using All.
  intros HI. pose proof (rest_length s HI). pose proof (inv_facts s HI). lia.
Qed.

Lemma At_fuel s x r : At s (x ++ r) -> (length x < e_fuel E)%nat.
Proof using All.
  intros HA. pose proof (fuel_rest s (At_inv _ _ HA)) as Hf. destruct HA as (_ & Hr & _).
  rewrite Hr, app_length in Hf. lia.
Qed.

Lemma read_while_cons p x s r : At s (x ++ r) -> cls p x -> stops p r ->
  exists s', read_while E p s = Ok (mkRange (off s) (off s')) s' /\ At s' r.
Proof using All.
  intros HA Hx Hst. unfold read_while. apply (read_while_loop_cons p x Hx); try assumption.
  exact (At_fuel s x r HA).
Qed.

Lemma read_while1_cons p x s r : At s (x ++ r) -> cls p x -> x <> [] -> stops p r ->
  exists s', read_while1 E p s = Ok (mkRange (off s) (off s')) s' /\ At s' r.
Proof using All.
  intros HA Hx Hne Hst. unfold read_while1.
  destruct (cls_first dec Hdec p x r Hx Hne) as (H1 & H2).
  rewrite (At_cur s _ HA). destruct (Z.eqb_spec (fr (x ++ r)) eof) as [|_]; [contradiction|].
  rewrite H2. cbn [negb].
  apply (read_while_loop_cons p x Hx); try assumption.
  exact (At_fuel s x r HA).
Qed.

Lemma read_character_with_cons p s c b r : At s (b ++ r) -> chunk c b -> p c = true ->
  exists s', read_character_with E p s = Ok (mkRange (off s) (off s')) s' /\ At s' r.
Proof using All.
  intros HA Hc Hp. unfold read_character_with.
  destruct (At_chunk s c b _ HA Hc) as (Hcur & _).
  pose proof (chunk_not_eof dec Hdec c b Hc) as Hne.
  rewrite Hcur, Hp. destruct (Z.eqb_spec c eof) as [|_]; [contradiction|]. cbn [negb].
  destruct (advance_cons s c b _ HA Hc) as (s1 & -> & HA1). eauto.
Qed.

Lemma read_character_cons c s r : At s (c :: r) -> 0 <= c < 128 ->
  exists s', read_character E c s = Ok (mkRange (off s) (off s')) s' /\ At s' r.
Proof using All.
  intros HA Hc. unfold read_character.
  apply (read_character_with_cons _ s c [c] r HA); [now apply chunk_ascii|apply Z.eqb_refl].
Qed.

Lemma read_string_loop_cons str : Forall ascii str ->
  forall s r start, At s (str ++ r) ->
  exists s', read_string_loop E str start s = Ok (mkRange start (off s')) s' /\ At s' r.
Proof using All.
  induction 1 as [|c str Hc Hstr IH]; intros s r start HA.
  - cbn [read_string_loop app] in *. eauto.
  - cbn [read_string_loop]. cbn [app] in HA.
    pose proof (chunk_ascii dec Hdec c Hc) as Hch.
    destruct (At_chunk s c [c] _ HA Hch) as (Hcur & _).
    rewrite Hcur, Z.eqb_refl. cbn [negb].
    destruct (advance_cons s c [c] _ HA Hch) as (s1 & -> & HA1).
    apply (IH s1 r start HA1).
Qed.

Lemma read_string_cons str s r : Forall ascii str -> At s (str ++ r) ->
  exists s', read_string E str s = Ok (mkRange (off s) (off s')) s' /\ At s' r.
Proof using All. intros Hs HA. unfold read_string. now apply read_string_loop_cons. Qed.

Lemma read_string_fail str s : Forall ascii str -> Inv s -> (forall r', rest s <> str ++ r') ->
  exists e s', read_string E str s = Err e s'.
Proof using All.
  intros Hs HI Hnp. pose proof (read_string_spec E Hlen Hfuel Hdec str s Hs HI) as H.
  destruct (read_string E str s) as [rg s'|e s'|]; cbn [post] in H; [|eauto|contradiction].
  exfalso. destruct H as (_ & _ & _ & Ho & Hsl).
  destruct HI as (_ & Hr & _).
  rewrite Ho, (slice_rest t (off s) _ (rest s) Hr), Nat2Z.id in Hsl.
  apply (Hnp (skipn (length str) (rest s))). rewrite <- Hsl at 1. symmetry. apply firstn_skipn.
Qed.

Lemma read_alternative_loop_cons ss kw s r : Forall (Forall ascii) ss ->
  (forall x r', In x ss -> kw ++ r = x ++ r' -> x = kw) -> In kw ss -> At s (kw ++ r) -> cur s <> eof ->
  exists s', read_alternative_loop E ss (off s) s = Ok (mkRange (off s) (off s')) s' /\ At s' r.
Proof using All.
  intros Hasc Hpf Hin HA Hc. induction Hasc as [|x ss Hx Hasc IH]; [destruct Hin|]. cbn [read_alternative_loop].
  destruct (list_eq_dec Z.eq_dec x kw) as [->|Hne].
  - destruct (read_string_cons kw s r Hx HA) as (s' & -> & HA'). eauto.
  - destruct (read_string_fail x s Hx (At_inv _ _ HA)) as (e & s1 & ->).
    { destruct HA as (_ & -> & _). intros r' He. apply Hne. apply (Hpf x r'); [now left|exact He]. }
    rewrite (backtrack_id E Hlen Hfuel Hdec s (At_inv _ _ HA) Hc). apply IH.
    + intros y r' Hy. apply Hpf. now right.
    + destruct Hin as [Heq|Hin]; [congruence|exact Hin].
Qed.

Lemma read_alternative_cons ss kw s r : kws_ok ss = true -> In kw ss -> At s (kw ++ r) ->
  exists s', read_alternative E ss s = Ok (mkRange (off s) (off s')) s' /\ At s' r.
Proof using All.
  intros Hok Hin HA. destruct (kws_ok_elim ss Hok) as (Hasc & Hne & Hpf). unfold read_alternative.
  assert (Hc : cur s <> eof).
  { pose proof (proj1 (Forall_forall _ _) Hasc kw Hin) as Hkw. specialize (Hne kw Hin).
    destruct kw as [|c kw]; [congruence|]. inversion Hkw as [|? ? Hcc _]. subst.
    cbn [app] in HA. rewrite (At_cur s _ HA), (fr_ascii dec Hdec c _ Hcc). unfold ascii, eof in *. lia. }
  destruct (Z.eqb_spec (cur s) eof) as [|_]; [contradiction|].
  apply (read_alternative_loop_cons ss kw s r); try assumption. intros x r' Hx He. exact (Hpf kw x r r' Hin Hx He).
Qed.

Definition VInv (s : state) : Prop := Inv s /\ ~ (cur s = rune_error /\ clen s = 1).

(* the bytes between two states *)
Definition Win (s : state) (x : str) (s' : state) : Prop := rest s = x ++ rest s'.

Lemma At_VInv s r : At s r -> VInv s.
Proof using All.
  intros HA. split; [apply HA|]. intros (Hc & Hw).
  pose proof (At_len s r HA) as HL. destruct HA as (HI & Hr & Hruns).
  destruct Hruns as [|c b r' Hch Hr'].
  - pose proof HI as (_ & _ & [(Hce & _)|(Ho & _)]); [unfold rune_error, eof in *; lia|].
    rewrite zlen_nil in HL. lia.
  - assert (HA : At s (b ++ r')) by (split; [|split]; auto; econstructor; eauto).
    destruct (At_chunk s c b r' HA Hch) as (Hc1 & Hw1).
    destruct Hch as (_ & _ & Hv). apply Hv. split; congruence.
Qed.

Lemma win_nil s : Win s [] s.
Proof using. reflexivity. Qed.

Lemma win_trans s x s1 y s2 : Win s x s1 -> Win s1 y s2 -> Win s (x ++ y) s2.
Proof using. unfold Win. intros -> ->. now rewrite app_assoc. Qed.

Lemma win_off s x s' : Inv s -> Inv s' -> Win s x s' -> off s' = off s + zlen x.
Proof using All.
  intros H1 H2 Hw. pose proof (rest_length s H1) as L1. pose proof (rest_length s' H2) as L2.
  rewrite Hw, app_length in L1. unfold zlen. lia.
Qed.

Lemma win_slice s x s' : Inv s -> Inv s' -> Win s x s' -> slice t (off s) (off s') = x.
Proof using All.
  intros H1 H2 Hw. rewrite (win_off s x s' H1 H2 Hw). destruct H1 as (_ & Hr & _).
  rewrite (slice_rest t (off s) (zlen x) (rest s) Hr), Hw. apply firstn_zlen_app.
Qed.

Lemma vinv_chunk s : VInv s -> cur s <> eof ->
  exists b, chunk (cur s) b /\ rest s = b ++ skipn (Z.to_nat (clen s)) (rest s) /\ zlen b = clen s.
Proof using All.
  intros (HI & Hv) Hc. pose proof (rest_length s HI) as HL.
  pose proof (inv_facts s HI) as (_ & _ & _ & _ & Hne).
  destruct (Hne Hc) as (Hw & _ & Ho & Hd). symmetry in Hd.
  assert (Hrne : rest s <> []) by (intros Hn; rewrite Hn in HL; cbn [length] in HL; lia).
  pose proof (dec_width _ Hdec _ _ _ Hrne Hd) as Hww.
  exists (firstn (Z.to_nat (clen s)) (rest s)).
  assert (Hzl : zlen (firstn (Z.to_nat (clen s)) (rest s)) = clen s).
  { unfold zlen. rewrite firstn_length. lia. }
  split; [|split; [symmetry; apply firstn_skipn|exact Hzl]].
  split; [|split].
  - intros Hn. rewrite Hn in Hzl. rewrite zlen_nil in Hzl. lia.
  - intros x. rewrite Hzl. apply (Hloc _ _ _ Hrne Hd). exact Hv.
  - rewrite Hzl. exact Hv.
Qed.

(* Advance does not succeed into the (RuneError, 1) state *)
Lemma advance_ok_state s u s' : advance E s = Ok u s' ->
  rest s' = skipn (Z.to_nat (clen s)) (rest s) /\ ~ (cur s' = rune_error /\ clen s' = 1).
Proof using All.
  intros H. unfold advance in H.
  destruct ((off s + clen s =? len) && negb (cur s =? eof)).
  - inversion H; subst s'. cbn [rest cur clen]. split; [reflexivity|]. unfold rune_error, eof. lia.
  - destruct (dec (skipn (Z.to_nat (clen s)) (rest s))) as [c w] eqn:Hd.
    destruct (Z.eqb_spec c rune_error) as [Hce|Hce].
    + destruct (w =? 0); [discriminate|]. destruct (Z.eqb_spec w 1) as [Hw1|Hw1]; [discriminate|].
      inversion H; subst s'. cbn [rest cur clen]. split; [reflexivity|]. lia.
    + inversion H; subst s'. cbn [rest cur clen]. split; [reflexivity|]. lia.
Qed.

Lemma inv_advance s u s' : VInv s -> advance E s = Ok u s' ->
  VInv s' /\ cur s <> eof /\ exists b, chunk (cur s) b /\ Win s b s' /\ off s' = off s + zlen b.
Proof using All.
  intros HV H. pose proof HV as (HI & Hv).
  pose proof (advance_spec E Hlen Hfuel Hdec s HI) as Hs. rewrite H in Hs. cbn [post] in Hs.
  destruct Hs as (HI' & _ & Ho & Hc & _).
  destruct (vinv_chunk s HV Hc) as (b & Hch & Hrb & Hzl).
  destruct (advance_ok_state s u s' H) as (Hr' & Hv').
  split; [split; assumption|]. split; [assumption|].
  exists b. split; [assumption|]. split; [unfold Win; rewrite Hr'; exact Hrb|lia].
Qed.

Lemma vinv_cur_fr s : VInv s -> cur s = fr (rest s).
Proof using All. intros (HI & _). now apply inv_cur_fr. Qed.

Lemma inv_read_while_loop p : forall n s start rg s', VInv s ->
  read_while_loop E p start n s = Ok rg s' ->
  VInv s' /\ rg = mkRange start (off s') /\ off s <= off s' /\
  exists x, cls p x /\ Win s x s' /\ stops p (rest s') /\ p (cur s') && negb (cur s' =? eof) = false.
Proof using All.
  induction n as [|n IH]; intros s start rg s' HV H; cbn [read_while_loop] in H; [discriminate|].
  destruct (p (cur s) && negb (cur s =? eof)) eqn:Hp.
  - destruct (advance E s) as [u s1|e s1|] eqn:Ha; try discriminate.
    destruct (inv_advance s u s1 HV Ha) as (HV1 & Hc & b & Hch & Hw & Ho).
    destruct (IH s1 start rg s' HV1 H) as (HV' & Hrg & Hle & x & Hx & Hwx & Hst).
    split; [assumption|]. split; [assumption|]. pose proof (zlen_nonneg b). split; [lia|].
    exists (b ++ x). split; [|split; [eapply win_trans; eauto|exact Hst]].
    apply (cls_cons dec p (cur s)); auto. lia.
  - inversion H; subst. split; [assumption|]. split; [reflexivity|]. split; [lia|].
    exists []. split; [constructor|]. split; [apply win_nil|].
    pose proof (vinv_cur_fr s' HV) as Hcf.
    split; [unfold stops; rewrite <- Hcf; exact Hp|exact Hp].
Qed.

Lemma inv_read_while p s rg s' : VInv s -> read_while E p s = Ok rg s' ->
  VInv s' /\ rg = mkRange (off s) (off s') /\ off s <= off s' /\
  exists x, cls p x /\ Win s x s' /\ stops p (rest s') /\ p (cur s') && negb (cur s' =? eof) = false.
Proof using All. unfold read_while. apply inv_read_while_loop. Qed.

Lemma inv_read_while1 p s rg s' : VInv s -> read_while1 E p s = Ok rg s' ->
  VInv s' /\ rg = mkRange (off s) (off s') /\ off s < off s' /\
  exists x, cls p x /\ x <> [] /\ Win s x s' /\ p (cur s') && negb (cur s' =? eof) = false.
Proof using All.
  intros HV H. unfold read_while1 in H.
  destruct (Z.eqb_spec (cur s) eof) as [Hc|Hc]; [discriminate|].
  destruct (p (cur s)) eqn:Hp; cbn [negb] in H; [|discriminate].
  destruct (inv_read_while_loop p _ s (off s) rg s' HV H) as (HV' & Hrg & Hle & x & Hx & Hw & _ & Hst).
  split; [assumption|]. split; [assumption|].
  assert (Hne : x <> []).
  { intros ->. unfold Win in Hw. cbn [app] in Hw.
    rewrite (vinv_cur_fr s' HV'), <- Hw, <- (vinv_cur_fr s HV), Hp in Hst.
    destruct (Z.eqb_spec (cur s) eof); [contradiction|discriminate]. }
  pose proof (win_off s x s' (proj1 HV) (proj1 HV') Hw) as Ho. pose proof (zlen_pos x Hne).
  split; [lia|]. exists x. auto.
Qed.

Lemma inv_read_character_with p s rg s' : VInv s -> read_character_with E p s = Ok rg s' ->
  VInv s' /\ rg = mkRange (off s) (off s') /\ off s < off s' /\ p (cur s) = true /\
  exists b, chunk (cur s) b /\ Win s b s'.
Proof using All.
  intros HV H. unfold read_character_with in H.
  destruct (Z.eqb_spec (cur s) eof) as [Hc|Hc]; [discriminate|].
  destruct (p (cur s)) eqn:Hp; cbn [negb] in H; [|discriminate].
  destruct (advance E s) as [u s1|e s1|] eqn:Ha; try discriminate. inversion H; subst.
  destruct (inv_advance s u s' HV Ha) as (HV1 & _ & b & Hch & Hw & Ho).
  pose proof (chunk_len dec _ _ Hch).
  split; [assumption|]. split; [reflexivity|]. split; [lia|]. split; [reflexivity|]. eauto.
Qed.

Lemma inv_read_character c s rg s' : VInv s -> 0 <= c < 128 -> read_character E c s = Ok rg s' ->
  VInv s' /\ rg = mkRange (off s) (off s') /\ off s' = off s + 1 /\ cur s = c /\ Win s [c] s'.
Proof using All.
  intros HV Hc H. unfold read_character in H.
  destruct (inv_read_character_with _ s rg s' HV H) as (HV' & Hrg & Hlt & Hp & b & Hch & Hw).
  apply Z.eqb_eq in Hp.
  split; [assumption|]. split; [assumption|].
  rewrite Hp in Hch. rewrite (chunk_ascii_inv dec Hdec c b Hch Hc) in Hw.
  pose proof (win_off s [c] s' (proj1 HV) (proj1 HV') Hw) as Ho.
  rewrite zlen_cons, zlen_nil in Ho. split; [lia|]. auto.
Qed.

Lemma inv_read_string_loop str : Forall ascii str -> forall s start rg s', VInv s ->
  read_string_loop E str start s = Ok rg s' ->
  VInv s' /\ rg = mkRange start (off s') /\ Win s str s'.
Proof using All.
  induction 1 as [|c str Hc Hstr IH]; intros s start rg s' HV H; cbn [read_string_loop] in H.
  - inversion H; subst. split; [assumption|]. split; [reflexivity|apply win_nil].
  - destruct (Z.eqb_spec c (cur s)) as [He|He]; cbn [negb] in H; [|discriminate].
    destruct (advance E s) as [u s1|e s1|] eqn:Ha; try discriminate.
    assert (Hrc : read_character E c s = Ok (mkRange (off s) (off s1)) s1).
    { unfold read_character, read_character_with. rewrite <- He, Z.eqb_refl. cbn [negb].
      destruct (Z.eqb_spec c eof) as [Hce|_]; [unfold ascii, eof in *; lia|]. now rewrite Ha. }
    destruct (inv_read_character c s _ s1 HV Hc Hrc) as (HV1 & _ & _ & _ & Hw1).
    destruct (IH s1 start rg s' HV1 H) as (HV' & Hrg & Hw).
    split; [assumption|]. split; [assumption|]. apply (win_trans s [c] s1 str s' Hw1 Hw).
Qed.

Lemma inv_read_string str s rg s' : Forall ascii str -> VInv s -> read_string E str s = Ok rg s' ->
  VInv s' /\ rg = mkRange (off s) (off s') /\ Win s str s'.
Proof using All. intros Hs HV H. unfold read_string in H. eapply inv_read_string_loop; eauto. Qed.

Lemma inv_read_alternative ss s rg s' : Forall (Forall ascii) ss -> VInv s ->
  read_alternative E ss s = Ok rg s' ->
  VInv s' /\ rg = mkRange (off s) (off s') /\ exists kw, In kw ss /\ Win s kw s'.
Proof using All.
  intros Hss HV H. unfold read_alternative in H.
  destruct (Z.eqb_spec (cur s) eof) as [Hc|Hc]; [discriminate|].
  induction Hss as [|str ss Hstr Hss IH]; cbn [read_alternative_loop] in H; [discriminate|].
  destruct (read_string E str s) as [r1 s1|e s1|] eqn:Hr; try discriminate.
  - inversion H; subst. destruct (inv_read_string str s rg s' Hstr HV Hr) as (HV' & Hrg & Hw).
    split; [assumption|]. split; [assumption|]. exists str. split; [now left|assumption].
  - rewrite (backtrack_id E Hlen Hfuel Hdec s (proj1 HV) Hc) in H.
    destruct (IH H) as (HV' & Hrg & kw & Hin & Hw). split; [assumption|]. split; [assumption|].
    exists kw. split; [now right|assumption].
Qed.

(* the first Advance of ParseFile *)
Lemma inv_advance_init u s : advance E (init_state E) = Ok u s -> VInv s /\ off s = 0.
Proof using All.
  intros H. pose proof (advance_init E Hlen Hfuel Hdec) as Hs. rewrite H in Hs. cbn [post] in Hs.
  destruct Hs as (HI & _ & Ho). split; [|exact Ho]. split; [exact HI|]. exact (proj2 (advance_ok_state _ u s H)).
Qed.

Lemma At_init u s : advance E (init_state E) = Ok u s -> runs t -> At s t.
Proof using All.
  intros H Hr. destruct (inv_advance_init u s H) as ((HI & _) & Ho).
  split; [exact HI|]. split; [|exact Hr]. destruct HI as (_ & Hrest & _). now rewrite Hrest, Ho.
Qed.

End WithEnv.
