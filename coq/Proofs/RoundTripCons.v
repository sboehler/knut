(* C08 round trip: CONSTRUCTION for bookings, balances and the single-line directive
   kinds (and the multi-line assertion): in front of the rendered meaning
   (Model/SynRender.v render_sem) followed by r, r starting with a blank, a newline or
   nothing, parse_directive succeeds, consumes exactly the rendered text and returns a
   directive with that meaning.  Needs [class_ok] (blank, newline, ',' ')' '#' '*' '/' are not
   alphanumeric; 'i' is).                                                                    *)
From Coq Require Import ZArith List Bool Lia ZifyBool.
From Knut Require Import Model.Bytes Model.Utf8 Model.Scanner Model.Parser Model.SynPrinter Spec.SyntaxSpec
  Proofs.ScannerProofs Proofs.ParserProofs Spec.FormatSpec Model.SynRender
  Proofs.RoundTripBase Proofs.RoundTripLeaf Proofs.RoundTripInv.
Import ListNotations.
Open Scope bool_scope.
Open Scope Z_scope.

Section WithEnv.
Variable E : env.
Hypothesis Hlen : e_len E = Z.of_nat (length (e_text E)).
Hypothesis Hfuel : (length (e_text E) < e_fuel E)%nat.
Hypothesis Hdec : decoder_ok (e_decode E).
Hypothesis Hloc : decoder_local (e_decode E).
Hypothesis Hcls : class_ok (e_letter E) (e_digit E).

Notation t := (e_text E).
Notation dec := (e_decode E).
Notation letter := (e_letter E).
Notation digit := (e_digit E).
Notation fr := (fr dec).
Notation cls := (cls dec).
Notation At := (At E).
Notation stops := (stops dec).
Notation sepr := (sepr dec).
Notation wsl := (wsl dec).
Notation alnum := (alnum letter digit).
Notation lex_commodity := (lex_commodity dec letter digit).
Notation lex_decimal := (lex_decimal dec digit).
Notation lex_account := (lex_account dec letter digit).
Notation lex_date := (lex_date dec digit).
Notation lex_quoted := (lex_quoted dec).
Notation LexAcc := (LexAcc dec letter digit).
Notation LexBooking := (LexBooking dec letter digit).
Notation LexBal := (LexBal dec letter digit).
Notation LexDir := (LexDir dec letter digit).
Notation date_ok := (date_ok dec digit).

Local Notation At_cur := (RoundTripBase.At_cur E Hlen Hfuel Hdec Hloc).
Local Notation At_off := (RoundTripBase.At_off E Hlen Hfuel Hdec Hloc).
Local Notation At_slice := (RoundTripBase.At_slice E Hlen Hfuel Hdec Hloc).
Local Notation rw1_cons := (RoundTripBase.read_while1_cons E Hlen Hfuel Hdec Hloc).
Local Notation rs_cons := (RoundTripBase.read_string_cons E Hlen Hfuel Hdec Hloc).
Local Notation ra_cons := (RoundTripBase.read_alternative_cons E Hlen Hfuel Hdec Hloc).
Local Notation ws1_cons := (RoundTripLeaf.ws1_cons E Hlen Hfuel Hdec Hloc).
Local Notation rest_nl_cons := (RoundTripLeaf.rest_nl_cons E Hlen Hfuel Hdec Hloc).
Local Notation commodity_cons := (RoundTripLeaf.commodity_cons E Hlen Hfuel Hdec Hloc).
Local Notation decimal_cons := (RoundTripLeaf.decimal_cons E Hlen Hfuel Hdec Hloc).
Local Notation account_cons := (RoundTripLeaf.account_cons E Hlen Hfuel Hdec Hloc).
Local Notation date_cons := (RoundTripLeaf.date_cons E Hlen Hfuel Hdec Hloc).
Local Notation quoted_cons := (RoundTripLeaf.quoted_cons E Hlen Hfuel Hdec Hloc).
Local Notation wsl_sp := (RoundTripLeaf.wsl_sp E Hlen Hfuel Hdec Hloc).
Local Notation sepr_stops_alnum := (RoundTripLeaf.sepr_stops_alnum dec letter digit Hcls).
Local Notation sepr_stops_digit := (RoundTripLeaf.sepr_stops_digit dec letter digit Hcls).
Local Notation sepr_stops_letter := (RoundTripLeaf.sepr_stops_letter dec letter digit Hcls).

(* r starts with a blank or a newline, or is empty: what follows a directive *)
Definition blankstart (r : str) : Prop := is_whitespace_or_newline (fr r) || (fr r =? eof) = true.
(* r starts with something else *)
Definition tokstart (r : str) : Prop := is_whitespace_or_newline (fr r) || (fr r =? eof) = false.

Lemma blankstart_sepr r : blankstart r -> sepr r.
Proof using All.
  unfold blankstart, RoundTripLeaf.sepr, is_whitespace_or_newline, is_newline, is_whitespace, seps. cbn [In]. lia.
Qed.

Lemma tokstart_stops_ws r : tokstart r -> stops is_whitespace r.
Proof using All.
  unfold tokstart, RoundTripBase.stops, is_whitespace_or_newline, is_newline, is_whitespace. lia.
Qed.

Lemma tokstart_ascii b r : 0 <= b < 128 -> ~ In b [32; 9; 13; 10] -> tokstart (b :: r).
Proof using All.
  intros Hb Hn. unfold tokstart. rewrite (fr_ascii dec Hdec b r Hb).
  unfold is_whitespace_or_newline, is_newline, is_whitespace, eof. cbn [In] in Hn. lia.
Qed.

Lemma tokstart_alnum c : alnum c = true -> c <> eof ->
  is_whitespace_or_newline c || (c =? eof) = false.
Proof using All.
  intros Ha Hc. pose proof (alnum_not_sep letter digit Hcls c Ha) as Hn.
  unfold is_whitespace_or_newline, is_newline, is_whitespace. cbn [In] in Hn. lia.
Qed.

Lemma commodity_start w r : lex_commodity w -> tokstart (w ++ r).
Proof using All.
  intros (Hw & Hne). destruct (cls_first dec Hdec _ w r Hw Hne) as (H1 & H2).
  unfold tokstart. now apply tokstart_alnum.
Qed.

Lemma decimal_start w r : lex_decimal w -> tokstart (w ++ r).
Proof using All.
  intros (sg & ip & fp & -> & Hsg & Hip & Hipne & _).
  destruct Hsg as [->|(-> & _)].
  - cbn [app]. apply tokstart_ascii; [lia|cbn [In]; lia].
  - cbn [app]. rewrite <- app_assoc. destruct (cls_first dec Hdec _ ip (fp ++ r) Hip Hipne) as (H1 & H2).
    unfold tokstart. apply tokstart_alnum; [|assumption]. unfold RoundTripLeaf.alnum. rewrite H2. apply orb_true_r.
Qed.

Lemma account_start w m r : lex_account w m -> tokstart (w ++ r).
Proof using All.
  destruct m; cbn [RoundTripLeaf.lex_account].
  - intros (l & -> & _). cbn [app]. apply tokstart_ascii; [lia|cbn [In]; lia].
  - intros (_ & seg & segs & -> & (Hs & Hne) & _). rewrite <- app_assoc.
    destruct (cls_first dec Hdec _ seg (concat (map (cons 58) segs) ++ r) Hs Hne) as (H1 & H2).
    unfold tokstart. now apply tokstart_alnum.
Qed.

Lemma sepr_ws W r : wsl W -> W <> [] -> sepr (W ++ r).
Proof using All.
  intros HW Hne. right. pose proof (wsl_first dec Hdec W r HW Hne) as H. unfold seps. cbn [In] in *. lia.
Qed.

Lemma sepr_58 r : sepr r -> fr r <> 58.
Proof using All. unfold RoundTripLeaf.sepr, seps, eof. cbn [In]. lia. Qed.

Lemma sepr_46 r : sepr r -> fr r <> 46.
Proof using All. unfold RoundTripLeaf.sepr, seps, eof. cbn [In]. lia. Qed.

Lemma acc_sep a r s : At s (fst a ++ r) -> LexAcc a -> sepr r ->
  exists s', parse_account E s = Ok (mkAccount (mkRange (off s) (off s')) (snd a)) s' /\ At s' r.
Proof using All.
  intros HA Hl Hr. apply (account_cons (fst a) (snd a) s r HA Hl).
  - now apply sepr_stops_alnum.
  - now apply sepr_stops_letter.
  - now apply sepr_58.
Qed.

Lemma dec_sep w r s : At s (w ++ r) -> lex_decimal w -> sepr r ->
  exists s', parse_decimal E s = Ok (mkRange (off s) (off s')) s' /\ At s' r.
Proof using All.
  intros HA Hl Hr. apply (decimal_cons w s r HA Hl); [now apply sepr_stops_digit|now apply sepr_46].
Qed.

Lemma comm_sep w r s : At s (w ++ r) -> lex_commodity w -> sepr r ->
  exists s', parse_commodity E s = Ok (mkRange (off s) (off s')) s' /\ At s' r.
Proof using All. intros HA Hl Hr. apply (commodity_cons w s r HA Hl). now apply sepr_stops_alnum. Qed.

Lemma sepr_32 r : sepr (32 :: r).
Proof using All. apply sepr_cons; [assumption|unfold seps; cbn [In]; lia]. Qed.

Lemma sepr_10 r : sepr (10 :: r).
Proof using All. apply sepr_cons; [assumption|unfold seps; cbn [In]; lia]. Qed.

(* one blank between tokens, read by readWhitespace1 *)
Lemma sp_cons r s : At s (32 :: r) -> tokstart r ->
  exists s', read_whitespace1 E s = Ok (mkRange (off s) (off s')) s' /\ At s' r.
Proof using All.
  intros HA Hr. apply (ws1_cons [32] s r HA wsl_sp); [now apply tokstart_stops_ws|left; discriminate].
Qed.

Lemma booking_cons c d q m W1 W2 W3 r s :
  At s (fst c ++ W1 ++ fst d ++ W2 ++ q ++ W3 ++ m ++ r) ->
  LexAcc c -> LexAcc d -> lex_decimal q -> lex_commodity m ->
  wsl W1 -> W1 <> [] -> wsl W2 -> W2 <> [] -> wsl W3 -> W3 <> [] -> sepr r ->
  exists b s', parse_booking E s = Ok b s' /\ At s' r /\
    sem_of_booking t b = mkSemBooking c d q m.
Proof using All.
  intros HA Hc Hd Hq Hm HW1 N1 HW2 N2 HW3 N3 Hr.
  destruct (acc_sep c _ s HA Hc) as (s1 & H1 & A1). { now apply sepr_ws. }
  destruct (rw1_cons is_whitespace W1 s1 _ A1 HW1 N1) as (s2 & H2 & A2).
  { apply tokstart_stops_ws. eapply account_start; eauto. }
  destruct (acc_sep d _ s2 A2 Hd) as (s3 & H3 & A3). { now apply sepr_ws. }
  destruct (rw1_cons is_whitespace W2 s3 _ A3 HW2 N2) as (s4 & H4 & A4).
  { apply tokstart_stops_ws. now apply decimal_start. }
  destruct (dec_sep q _ s4 A4 Hq) as (s5 & H5 & A5). { now apply sepr_ws. }
  destruct (rw1_cons is_whitespace W3 s5 _ A5 HW3 N3) as (s6 & H6 & A6).
  { apply tokstart_stops_ws. now apply commodity_start. }
  destruct (comm_sep m _ s6 A6 Hm Hr) as (s7 & H7 & A7).
  eexists _, s7. split; [|split; [exact A7|]].
  - unfold parse_booking. cbv zeta. apply annot_ok.
    run H1. run H2. run H3. run H4. run H5. run H6. run H7. reflexivity.
  - unfold sem_of_booking, sem_acc, cut. prj.
    rewrite (At_slice s _ _ s1 HA A1), (At_slice s2 _ _ s3 A2 A3), (At_slice s4 _ _ s5 A4 A5), (At_slice s6 _ _ s7 A6 A7).
    destruct c, d. reflexivity.
Qed.

Lemma render_posting_shape pad b r :
  render_posting dec pad b ++ r =
  fst (sb_credit b) ++ (spaces (pad - rune_count dec (fst (sb_credit b))) ++ [32]) ++
  fst (sb_debit b) ++ (spaces (pad - rune_count dec (fst (sb_debit b))) ++ [32] ++ spaces (10 - rune_count dec (sb_quantity b))) ++
  sb_quantity b ++ [32] ++ sb_commodity b ++ r.
Proof using. unfold render_posting, pad_right, pad_left, s_sp. rewrite <- !app_assoc. reflexivity. Qed.

Lemma posting_cons pad b r s : At s (render_posting dec pad b ++ r) -> LexBooking b -> sepr r ->
  exists b' s', parse_booking E s = Ok b' s' /\ At s' r /\ sem_of_booking t b' = b.
Proof using All.
  intros HA (Hc & Hd & Hq & Hm) Hr. rewrite render_posting_shape in HA.
  destruct (booking_cons _ _ _ _ _ _ _ _ _ HA Hc Hd Hq Hm) as (b' & s' & H & A & Hs); try assumption.
  - apply cls_app; [apply wsl_spaces; assumption|apply wsl_sp].
  - intros Hn. apply app_eq_nil in Hn. destruct Hn; discriminate.
  - apply cls_app; [apply wsl_spaces; assumption|]. apply cls_app; [apply wsl_sp|apply wsl_spaces; assumption].
  - intros Hn. apply app_eq_nil in Hn. destruct Hn as (_ & Hn). discriminate.
  - apply wsl_sp.
  - discriminate.
  - exists b', s'. split; [assumption|]. split; [assumption|]. rewrite Hs. destruct b; reflexivity.
Qed.

Lemma balance_cons b r s : At s (render_balance b ++ r) -> LexBal b -> sepr r ->
  exists b' s', parse_balance E s = Ok b' s' /\ At s' r /\ sem_of_balance t b' = b.
Proof using All.
  intros HA (Ha & Hq & Hm) Hr. unfold render_balance, s_sp in HA. rewrite <- !app_assoc in HA. cbn [app] in HA.
  destruct (acc_sep _ _ s HA Ha) as (s1 & H1 & A1). { apply sepr_32. }
  destruct (sp_cons _ s1 A1) as (s2 & H2 & A2). { now apply decimal_start. }
  destruct (dec_sep _ _ s2 A2 Hq) as (s3 & H3 & A3). { apply sepr_32. }
  destruct (sp_cons _ s3 A3) as (s4 & H4 & A4). { now apply commodity_start. }
  destruct (comm_sep _ _ s4 A4 Hm Hr) as (s5 & H5 & A5).
  eexists _, s5. split; [|split; [exact A5|]].
  - unfold parse_balance. cbv zeta. apply annot_ok. run H1. run H2. run H3. run H4. run H5. reflexivity.
  - unfold sem_of_balance, sem_acc, cut. prj.
    rewrite (At_slice s _ _ s1 HA A1), (At_slice s2 _ _ s3 A2 A3), (At_slice s4 _ _ s5 A4 A5).
    destruct b as [[[a1 a2] q] m]. reflexivity.
Qed.

(* the lines of a transaction or of a multi-line balance assertion: one rendered meaning per
   line, each parsed by m *)
Lemma lines_loop_cons {A B} (m : M A) (render : B -> str) (semof : A -> B) (P : B -> Prop) :
  (forall b r s, At s (render b ++ r) -> P b -> sepr r -> exists b' s', m s = Ok b' s' /\ At s' r /\ semof b' = b) ->
  (forall b r, P b -> tokstart (render b ++ r)) ->
  forall bs n s r,
  At s (concat (map (fun b => render b ++ s_nl) bs) ++ r) -> bs <> [] -> Forall P bs ->
  blankstart r -> (length (concat (map (fun b => render b ++ s_nl) bs)) < n)%nat ->
  exists bs' s', lines_loop E m n s = Ok bs' s' /\ At s' r /\ map semof bs' = bs.
Proof using All.
  intros Hm Hstart. induction bs as [|b bs IH]; intros n s r HA Hne Hl Hr Hn; [congruence|].
  destruct n as [|n]; [lia|]. cbn [lines_loop]. cbn [map concat] in HA, Hn.
  inversion Hl as [|? ? Hb Hl']. subst. unfold s_nl in HA. rewrite <- !app_assoc in HA. cbn [app] in HA.
  destruct (Hm b _ s HA Hb) as (b' & s1 & H1 & A1 & S1). { apply sepr_10. }
  destruct (rest_nl_cons [] s1 _ A1) as (rg & s2 & H2 & A2). { constructor. }
  destruct bs as [|b2 bs].
  - cbn [map concat app] in *. exists [b'], s2. split; [|split; [exact A2|cbn [map]; now rewrite S1]].
    run H1. run H2. apply ifM_true; [|reflexivity]. rewrite (At_cur s2 _ A2). exact Hr.
  - destruct (IH n s2 r A2) as (bs' & s3 & H3 & A3 & S3); try assumption; [discriminate| |].
    { rewrite !app_length in Hn. change (length s_nl) with 1%nat in Hn. lia. }
    exists (b' :: bs'), s3. split; [|split; [exact A3|cbn [map]; now rewrite S1, S3]].
    run H1. run H2. apply ifM_false.
    { rewrite (At_cur s2 _ A2). cbn [map concat]. inversion Hl' as [|? ? Hb2 _]. subst.
      rewrite <- !app_assoc. now apply Hstart. }
    run H3. reflexivity.
Qed.

Lemma balances_loop_cons bs n s r :
  At s (concat (map (fun b => render_balance b ++ s_nl) bs) ++ r) -> bs <> [] -> Forall LexBal bs ->
  blankstart r -> (length (concat (map (fun b => render_balance b ++ s_nl) bs)) < n)%nat ->
  exists bs' s', balances_loop E n s = Ok bs' s' /\ At s' r /\ map (sem_of_balance t) bs' = bs.
Proof using All.
  rewrite balances_loop_lines. apply (lines_loop_cons (parse_balance E) render_balance (sem_of_balance t) LexBal).
  - intros b r0 s0. apply balance_cons.
  - intros b r0 (Ha & _). unfold render_balance. rewrite <- !app_assoc. eapply account_start; eauto.
Qed.

Lemma include_start r : fr (s_include ++ r) = 105.
Proof using All. unfold s_include. cbn [app]. apply fr_ascii; [assumption|lia]. Qed.

Lemma include_cons p r s : At s (s_include ++ p ++ s_quote ++ r) -> lex_quoted p ->
  exists d s', parse_directive E s = Ok d s' /\ At s' r /\ d_range d = mkRange (off s) (off s') /\
               sem_of_directive t d = SemInclude p.
Proof using All.
  intros HA Hp.
  assert (Hc : cur s = 105) by (rewrite (At_cur s _ HA); apply include_start).
  change s_include with (kw_include ++ [32; 34]) in HA. rewrite <- app_assoc in HA. cbn [app] in HA.
  destruct (rs_cons kw_include s (32 :: 34 :: p ++ s_quote ++ r)) as (s1 & H1 & A1); [now apply ascii_b_ok|exact HA|].
  destruct (sp_cons _ s1 A1) as (s2 & H2 & A2). { apply tokstart_ascii; [lia|cbn [In]; lia]. }
  unfold s_quote in A2. cbn [app] in A2.
  destruct (quoted_cons p s2 r A2 Hp) as (q & s3 & H3 & A3 & Hq & Hqc).
  eexists _, s3. split; [|split; [exact A3|split]].
  - unfold parse_directive. cbv zeta. apply annot_ok.
    eapply bind_ok. { apply ifM_false; [unfold cur_is; rewrite Hc; reflexivity|reflexivity]. }
    cbv beta. apply ifM_true. { unfold cur_is. rewrite Hc. reflexivity. }
    eapply bind_ok; [|reflexivity].
    unfold parse_include. cbv zeta. apply annot_ok. run H1. run H2. run H3. reflexivity.
  - reflexivity.
  - unfold sem_of_directive. prj. unfold cut. now rewrite Hqc.
Qed.

Definition dir_kws : list (list Z) := [kw_open; kw_close; kw_balance; kw_price].

Lemma date_start_facts date r : date_ok date ->
  fr (date ++ r) <> 64 /\ fr (date ++ r) <> 105 /\ alnum (fr (date ++ r)) = true.
Proof using All.
  intros (Hl & H64 & H105). destruct (lex_date_first dec digit Hdec date r Hl) as (-> & Hd & _).
  split; [assumption|]. split; [assumption|]. unfold RoundTripLeaf.alnum. rewrite Hd. apply orb_true_r.
Qed.

(* the common part of open / close / balance / price: date, blank, keyword, blanks *)
Lemma dir_kw_cons date kw W r s : date_ok date -> In kw dir_kws ->
  At s (date ++ 32 :: kw ++ W ++ r) -> wsl W -> stops is_whitespace r -> (W <> [] \/ fr r = 10) ->
  exists s2 s3 s4 rg5 s5,
    parse_date E s = Ok (mkRange (off s) (off s2)) s2 /\
    read_whitespace1 E s2 = Ok (mkRange (off s2) (off s3)) s3 /\
    cur_is 34 s3 = false /\
    read_alternative E dir_kws s3 = Ok (mkRange (off s3) (off s4)) s4 /\
    extract E (mkRange (off s3) (off s4)) = kw /\
    read_whitespace1 E s4 = Ok rg5 s5 /\ At s5 r /\
    slice t (off s) (off s2) = date /\ off s <= off s5.
Proof using All.
  intros Hd Hkw HA HW Hst Hw.
  destruct (date_cons date s _ HA (proj1 Hd)) as (s2 & H2 & A2).
  assert (Hk0 : tokstart (kw ++ W ++ r) /\ fr (kw ++ W ++ r) <> 34 /\ kw <> []).
  { unfold dir_kws in Hkw. cbn [In] in Hkw.
    destruct Hkw as [<-|[<-|[<-|[<-|[]]]]]; (split; [apply tokstart_ascii; [lia|cbn [In]; lia]|]);
      (split; [unfold kw_open, kw_close, kw_balance, kw_price; cbn [app]; rewrite (fr_ascii dec Hdec) by lia; lia|discriminate]). }
  destruct Hk0 as (Hk1 & Hk2 & Hk3).
  destruct (sp_cons _ s2 A2 Hk1) as (s3 & H3 & A3).
  destruct (ra_cons dir_kws kw s3 (W ++ r) eq_refl Hkw A3) as (s4 & H4 & A4).
  destruct (ws1_cons W s4 r A4 HW Hst) as (s5 & H5 & A5).
  { destruct Hw as [Hw|Hw]; [now left|right; now left]. }
  exists s2, s3, s4, (mkRange (off s4) (off s5)), s5. split; [exact H2|]. split; [exact H3|].
  split; [unfold cur_is; rewrite (At_cur s3 _ A3); now apply Z.eqb_neq|].
  split; [exact H4|]. split; [unfold extract; prj; apply (At_slice s3 kw _ s4 A3 A4)|].
  split; [exact H5|]. split; [exact A5|]. split; [apply (At_slice s date _ s2 HA A2)|].
  pose proof (At_off s _ _ s2 HA A2). change (32 :: kw ++ W ++ r) with ([32] ++ kw ++ W ++ r) in A2.
  pose proof (At_off s2 _ _ s3 A2 A3). pose proof (At_off s3 _ _ s4 A3 A4). pose proof (At_off s4 _ _ s5 A4 A5).
  pose proof (zlen_nonneg date). pose proof (zlen_nonneg kw). pose proof (zlen_nonneg W). rewrite zlen_cons, zlen_nil in *. lia.
Qed.

(* entering parseDirective in front of a date: no addons, no include *)
Lemma enter_date date r s : date_ok date -> At s (date ++ r) ->
  cur_is 64 s = false /\ cur_is 105 s = false.
Proof using All.
  intros Hd HA. destruct (date_start_facts date r Hd) as (H1 & H2 & _).
  unfold cur_is. rewrite (At_cur s _ HA). split; now apply Z.eqb_neq.
Qed.

Ltac enter_directive Hent :=
  unfold parse_directive; cbv zeta; apply annot_ok;
  eapply bind_ok; [apply ifM_false; [exact (proj1 Hent)|reflexivity]|];
  cbv beta; apply ifM_false; [exact (proj2 Hent)|].

Lemma open_cons date a r s : At s (date ++ s_open ++ fst a ++ r) -> date_ok date -> LexAcc a -> sepr r ->
  exists d s', parse_directive E s = Ok d s' /\ At s' r /\ d_range d = mkRange (off s) (off s') /\
               sem_of_directive t d = SemOpen date a.
Proof using All.
  intros HA Hd Ha Hr. pose proof (enter_date date _ s Hd HA) as Hent.
  change s_open with (32 :: kw_open ++ [32]) in HA. cbn [app] in HA. rewrite <- app_assoc in HA.
  destruct (dir_kw_cons date kw_open [32] (fst a ++ r) s Hd) with (2 := HA) as (s2 & s3 & s4 & rg5 & s5 & H2 & H3 & H34 & H4 & Hex & H5 & A5 & Hsl & Hle).
  { unfold dir_kws. cbn [In]. auto. } { apply wsl_sp. }
  { apply tokstart_stops_ws. eapply account_start; eauto. } { left; discriminate. }
  destruct (acc_sep a r s5 A5 Ha Hr) as (s6 & H6 & A6).
  eexists _, s6. split; [|split; [exact A6|split]].
  - enter_directive Hent. run H2. run H3. apply ifM_false; [exact H34|]. run H4. run H5. cbv zeta. rewrite Hex.
    change (str_eqb kw_open kw_open) with true. cbv iota.
    eapply bind_ok; [|reflexivity]. unfold parse_open. apply annot_ok. run H6. reflexivity.
  - reflexivity.
  - unfold sem_of_directive. prj. unfold sem_acc, cut. prj. rewrite Hsl, (At_slice s5 _ _ s6 A5 A6).
    destruct a; reflexivity.
Qed.

Lemma close_cons date a r s : At s (date ++ s_close ++ fst a ++ r) -> date_ok date -> LexAcc a -> sepr r ->
  exists d s', parse_directive E s = Ok d s' /\ At s' r /\ d_range d = mkRange (off s) (off s') /\
               sem_of_directive t d = SemClose date a.
Proof using All.
  intros HA Hd Ha Hr. pose proof (enter_date date _ s Hd HA) as Hent.
  change s_close with (32 :: kw_close ++ [32]) in HA. cbn [app] in HA. rewrite <- app_assoc in HA.
  destruct (dir_kw_cons date kw_close [32] (fst a ++ r) s Hd) with (2 := HA) as (s2 & s3 & s4 & rg5 & s5 & H2 & H3 & H34 & H4 & Hex & H5 & A5 & Hsl & Hle).
  { unfold dir_kws. cbn [In]. auto. } { apply wsl_sp. }
  { apply tokstart_stops_ws. eapply account_start; eauto. } { left; discriminate. }
  destruct (acc_sep a r s5 A5 Ha Hr) as (s6 & H6 & A6).
  eexists _, s6. split; [|split; [exact A6|split]].
  - enter_directive Hent. run H2. run H3. apply ifM_false; [exact H34|]. run H4. run H5. cbv zeta. rewrite Hex.
    change (str_eqb kw_close kw_open) with false. change (str_eqb kw_close kw_close) with true. cbv iota.
    eapply bind_ok; [|reflexivity]. unfold parse_close. apply annot_ok. run H6. reflexivity.
  - reflexivity.
  - unfold sem_of_directive. prj. unfold sem_acc, cut. prj. rewrite Hsl, (At_slice s5 _ _ s6 A5 A6).
    destruct a; reflexivity.
Qed.

Lemma price_cons date c p tg r s : At s (date ++ s_price ++ c ++ s_sp ++ p ++ s_sp ++ tg ++ r) ->
  date_ok date -> lex_commodity c -> lex_decimal p -> lex_commodity tg -> sepr r ->
  exists d s', parse_directive E s = Ok d s' /\ At s' r /\ d_range d = mkRange (off s) (off s') /\
               sem_of_directive t d = SemPrice date c p tg.
Proof using All.
  intros HA Hd Hc Hp Htg Hr. pose proof (enter_date date _ s Hd HA) as Hent.
  change s_price with (32 :: kw_price ++ [32]) in HA. unfold s_sp in HA. cbn [app] in HA. rewrite <- app_assoc in HA.
  destruct (dir_kw_cons date kw_price [32] (c ++ 32 :: p ++ 32 :: tg ++ r) s Hd) with (2 := HA) as (s2 & s3 & s4 & rg5 & s5 & H2 & H3 & H34 & H4 & Hex & H5 & A5 & Hsl & Hle).
  { unfold dir_kws. cbn [In]. auto. } { apply wsl_sp. }
  { apply tokstart_stops_ws. now apply commodity_start. } { left; discriminate. }
  destruct (comm_sep c _ s5 A5 Hc) as (s6 & H6 & A6). { apply sepr_32. }
  destruct (sp_cons _ s6 A6) as (s7 & H7 & A7). { now apply decimal_start. }
  destruct (dec_sep p _ s7 A7 Hp) as (s8 & H8 & A8). { apply sepr_32. }
  destruct (sp_cons _ s8 A8) as (s9 & H9 & A9). { now apply commodity_start. }
  destruct (comm_sep tg _ s9 A9 Htg Hr) as (s10 & H10 & A10).
  eexists _, s10. split; [|split; [exact A10|split]].
  - enter_directive Hent. run H2. run H3. apply ifM_false; [exact H34|]. run H4. run H5. cbv zeta. rewrite Hex.
    change (str_eqb kw_price kw_open) with false. change (str_eqb kw_price kw_close) with false.
    change (str_eqb kw_price kw_balance) with false. change (str_eqb kw_price kw_price) with true. cbv iota.
    eapply bind_ok; [|reflexivity]. unfold parse_price.
    eapply bind_ok. { apply annot_ok. run H6. run H7. run H8. run H9. reflexivity. }
    cbv beta. run H10. reflexivity.
  - reflexivity.
  - unfold sem_of_directive. prj. unfold cut. prj.
    rewrite Hsl, (At_slice s5 _ _ s6 A5 A6), (At_slice s7 _ _ s8 A7 A8), (At_slice s9 _ _ s10 A9 A10). reflexivity.
Qed.

Lemma assertion_cons date bs x r s :
  render_sem dec 0 (SemAssertion date bs) = Some x -> At s (x ++ r) ->
  date_ok date -> bs <> [] -> Forall LexBal bs -> blankstart r ->
  exists d s', parse_directive E s = Ok d s' /\ At s' r /\ d_range d = mkRange (off s) (off s') /\
               sem_of_directive t d = SemAssertion date bs.
Proof using All.
  intros Hx HA Hd Hne Hl Hr. cbn [render_sem] in Hx. inversion Hx as [Hx']. clear Hx. subst x.
  rewrite <- app_assoc in HA. pose proof (enter_date date _ s Hd HA) as Hent.
  change s_balance with (32 :: kw_balance) in HA. cbn [app] in HA.
  assert (Hcases : (exists b, bs = [b]) \/ (exists b1 b2 bs', bs = b1 :: b2 :: bs')).
  { destruct bs as [|b1 [|b2 bs']]; [congruence|left; eauto|right; eauto]. }
  destruct Hcases as [(b & ->)|(b1 & b2 & bs' & Hbs)].
  - (* one balance: on the same line *)
    inversion Hl as [|? ? Hb _]. subst.
    destruct (dir_kw_cons date kw_balance [32] (render_balance b ++ r) s Hd) as (s2 & s3 & s4 & rg5 & s5 & H2 & H3 & H34 & H4 & Hex & H5 & A5 & Hsl & Hle).
    { unfold dir_kws. cbn [In]. auto. } { exact HA. } { apply wsl_sp. }
    { apply tokstart_stops_ws. destruct Hb as (Ha & _). unfold render_balance. rewrite <- !app_assoc. eapply account_start; eauto. }
    { left; discriminate. }
    destruct (balance_cons b r s5 A5 Hb (blankstart_sepr r Hr)) as (b' & s6 & H6 & A6 & S6).
    eexists _, s6. split; [|split; [exact A6|split]].
    + enter_directive Hent. run H2. run H3. apply ifM_false; [exact H34|]. run H4. run H5. cbv zeta. rewrite Hex.
      change (str_eqb kw_balance kw_open) with false. change (str_eqb kw_balance kw_close) with false.
      change (str_eqb kw_balance kw_balance) with true. cbv iota.
      eapply bind_ok; [|reflexivity]. unfold parse_assertion. apply annot_ok.
      apply ifM_false.
      { rewrite (At_cur s5 _ A5). destruct Hb as (Ha & _).
        pose proof (account_start _ _ (s_sp ++ snd (fst b) ++ s_sp ++ snd b ++ r) Ha) as Hts.
        unfold render_balance. rewrite <- !app_assoc. unfold tokstart, is_whitespace_or_newline in Hts. lia. }
      run H6. reflexivity.
    + reflexivity.
    + unfold sem_of_directive. prj. unfold cut at 1. prj. rewrite Hsl. cbn [map]. f_equal.
      change (sem_of_balance t b' :: nil = [b]). now rewrite S6.
  - (* several balances: one per line *)
    assert (HA' : At s (date ++ 32 :: kw_balance ++ [] ++ 10 :: concat (map (fun b => render_balance b ++ s_nl) bs) ++ r)).
    { rewrite Hbs in HA |- *. exact HA. }
    destruct (dir_kw_cons date kw_balance [] (10 :: concat (map (fun b => render_balance b ++ s_nl) bs) ++ r) s Hd) with (2 := HA') as (s2 & s3 & s4 & rg5 & s5 & H2 & H3 & H34 & H4 & Hex & H5 & A5 & Hsl & Hle).
    { unfold dir_kws. cbn [In]. auto. } { constructor. }
    { apply stops_ws_not. rewrite (fr_ascii dec Hdec 10 _) by lia. cbn [In]. lia. }
    { right. apply fr_ascii; [assumption|lia]. }
    destruct (rest_nl_cons [] s5 _ A5) as (rg6 & s6 & H6 & A6). { constructor. }
    destruct (balances_loop_cons bs (loop_fuel E) s6 r A6 Hne Hl Hr) as (bs'' & s7 & H7 & A7 & S7).
    { exact (At_fuel E Hlen Hfuel Hdec Hloc s6 _ r A6). }
    eexists _, s7. split; [|split; [exact A7|split]].
    + enter_directive Hent. run H2. run H3. apply ifM_false; [exact H34|]. run H4. run H5. cbv zeta. rewrite Hex.
      change (str_eqb kw_balance kw_open) with false. change (str_eqb kw_balance kw_close) with false.
      change (str_eqb kw_balance kw_balance) with true. cbv iota.
      eapply bind_ok; [|reflexivity]. unfold parse_assertion. apply annot_ok.
      apply ifM_true. { rewrite (At_cur s5 _ A5), (fr_ascii dec Hdec 10 _) by lia. reflexivity. }
      run H6. run H7. reflexivity.
    + reflexivity.
    + unfold sem_of_directive. prj. unfold cut at 1. prj. rewrite Hsl. f_equal. exact S7.
Qed.

End WithEnv.
