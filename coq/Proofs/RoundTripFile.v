(* C08 round trip: parseFile's loop in both directions, and the theorem.
   [i_parse_file] a successfully parsed file has the structure FL on its gaps and meanings, and
                every directive of it satisfies [dirQ] (Proofs/RoundTripInv.v);
   [file_cons]  a text woven from gaps and rendered meanings with structure FL parses, to
                directives with these meanings lying exactly where they were rendered;
   [roundtrip]  hence parse (format t) has the meaning and the gaps of parse t.             *)
From Coq Require Import ZArith List Bool Lia ZifyBool.
From Knut Require Import Model.Bytes Model.Utf8 Model.Scanner Model.Parser Model.SynPrinter Spec.SyntaxSpec
  Proofs.ScannerProofs Proofs.ParserProofs Spec.FormatSpec Model.SynRender Proofs.FormatProofs
  Proofs.RoundTripBase Proofs.RoundTripLeaf Proofs.RoundTripInv Proofs.RoundTripCons Proofs.RoundTripTrx
  Proofs.RoundTripRuns.
Import ListNotations.
Open Scope bool_scope.
Open Scope Z_scope.

Definition first_end (t : str) (ds : list directive) : Z :=
  match ds with [] => zlen t | d :: _ => r_start (d_range d) end.
Definition gap_hd (t : str) (pos : Z) (ds : list directive) : str := slice t pos (first_end t ds).
Definition gap_tl (t : str) (ds : list directive) : list str :=
  match ds with [] => [] | d :: ds' => gaps_from t (r_end (d_range d)) ds' end.

Lemma gaps_from_split t pos ds : gaps_from t pos ds = gap_hd t pos ds :: gap_tl t ds.
Proof. destruct ds; reflexivity. Qed.

Section WithEnv.
Variable E : env.
Hypothesis Hlen : e_len E = Z.of_nat (length (e_text E)).
Hypothesis Hfuel : (length (e_text E) < e_fuel E)%nat.
Hypothesis Hdec : decoder_ok (e_decode E).
Hypothesis Hloc : decoder_local (e_decode E).

Notation t := (e_text E).
Notation dec := (e_decode E).
Notation letter := (e_letter E).
Notation digit := (e_digit E).
Notation fr := (fr dec).
Notation cls := (cls dec).
Notation At := (At E).
Notation VInv := (VInv E).
Notation wsl := (wsl dec).
Notation FL := (FL dec letter digit).
Notation LexDir := (LexDir dec letter digit).
Notation alnum := (alnum letter digit).
Notation dirQ := (dirQ E).

Definition tail_m (n : nat) (od : option directive) : M (list directive) :=
  ifM (cur_is eof) (ret (opt_cons od []))
    (do _ <- read_rest_of_whitespace_line E; do ds <- file_loop E n; ret (opt_cons od ds)).

Definition od_m : M (option directive) :=
  ifM (fun s => (cur s =? 42) || (cur s =? 35) || (cur s =? 47))
    (do _ <- read_comment E; ret None)
    (ifM (fun s => is_alphanumeric E (cur s) || (cur s =? 64))
       (do d <- parse_directive E; ret (Some d))
       (ret None)).

Lemma file_loop_S n s :
  file_loop E (S n) s = ifM (cur_is eof) (ret []) (do od <- od_m; tail_m n od) s.
Proof using. reflexivity. Qed.

Local Notation ipost := (@ipost E _).
Local Notation win_slice := (RoundTripBase.win_slice E Hlen Hfuel Hdec Hloc).
Local Notation win_off := (RoundTripBase.win_off E Hlen Hfuel Hdec Hloc).
Local Notation inv_facts := (ScannerProofs.inv_facts E Hlen Hfuel Hdec).

Definition headQ (s : state) (ds : list directive) (s' : state) : Prop :=
  cur s' = eof /\ off s <= first_end t ds /\ Forall dirQ ds /\
  FL MHead (gap_hd t (off s) ds) (gap_tl t ds) (map (sem_of_directive t) ds).

Definition tailQ (od : option directive) (s1 : state) (r : list directive) (s' : state) : Prop :=
  exists ds, r = opt_cons od ds /\ cur s' = eof /\ off s1 <= first_end t ds /\ Forall dirQ ds /\
    exists W g0, gap_hd t (off s1) ds = W ++ g0 /\ wsl W /\
                 FL MNL g0 (gap_tl t ds) (map (sem_of_directive t) ds) /\
                 (cur s1 <> eof -> W ++ g0 <> []).

Lemma i_tail n od s1 :
  (forall s, VInv s -> ipost (headQ s) (off s) (file_loop E n s)) ->
  VInv s1 -> ipost (tailQ od s1) (off s1) (tail_m n od s1).
Proof using All.
  intros IH HV1. pose proof (inv_facts s1 (proj1 HV1)) as (H0 & _ & Hle & _).
  unfold tail_m, ifM, cur_is. destruct (Z.eqb_spec (cur s1) eof) as [Hc|Hc].
  - apply ipost_ret; [assumption|lia|]. exists []. split; [reflexivity|]. split; [assumption|].
    pose proof (eof_at_end E Hlen Hfuel Hdec s1 HV1 Hc) as Hend. cbn [first_end]. split; [lia|].
    split; [constructor|]. exists [], []. unfold gap_hd. cbn [first_end gap_tl map]. rewrite <- Hend, slice_nil.
    split; [reflexivity|]. split; [constructor|]. split; [constructor|congruence].
  - istep i_rest as ? s2 HV2 L2 (W & HW & Hrl).
    destruct Hrl as [Hw|(Hw & Hc2)].
    + istep IH as ds s3 HV3 L3 (Heof & Hfe & HD & HF).
      apply ipost_ret; [assumption|lia|]. exists ds. split; [reflexivity|]. split; [assumption|].
      pose proof (win_off s1 _ s2 (proj1 HV1) (proj1 HV2) Hw) as Ho.
      rewrite zlen_app, zlen_cons, zlen_nil in Ho. pose proof (zlen_nonneg W).
      split; [lia|]. split; [exact HD|]. exists W, (10 :: gap_hd t (off s2) ds).
      split; [|split; [assumption|split; [now constructor|intros _ Hn; apply app_eq_nil in Hn; destruct Hn; discriminate]]].
      unfold gap_hd. rewrite (slice_app t (off s1) (off s2) (first_end t ds)) by lia.
      rewrite (win_slice s1 _ s2 (proj1 HV1) (proj1 HV2) Hw), <- app_assoc. reflexivity.
    + (* blanks up to the end of the text *)
      pose proof (eof_at_end E Hlen Hfuel Hdec s2 HV2 Hc2) as Hend.
      pose proof (win_off s1 _ s2 (proj1 HV1) (proj1 HV2) Hw) as Ho.
      unfold bind at 1. destruct n as [|n]; [exact I|]. rewrite file_loop_S. unfold ifM at 1, cur_is at 1.
      rewrite Hc2, Z.eqb_refl. unfold ret at 1. unfold ret at 1.
      apply ipost_ok; [assumption|lia|]. exists []. split; [reflexivity|]. split; [assumption|].
      cbn [first_end]. split; [lia|]. split; [constructor|]. exists W, [].
      unfold gap_hd. cbn [first_end gap_tl map]. rewrite <- Hend.
      rewrite (win_slice s1 _ s2 (proj1 HV1) (proj1 HV2) Hw), app_nil_r.
      split; [reflexivity|]. split; [assumption|]. split; [constructor|].
      intros Hne Hn. subst W. rewrite zlen_nil in Ho. rewrite (zlen_t E Hlen) in Hend.
      pose proof HV1 as ((_ & _ & [(Hce & _)|(Hlt & _)]) & _); [congruence|lia].
Qed.

Lemma cls_ws_notnl W : wsl W -> cls notnl W.
Proof using All.
  apply cls_impl. intros c Hc. unfold is_whitespace in Hc. unfold notnl, is_newline_or_eof, eof. lia.
Qed.

Lemma i_file_loop : forall n s, VInv s -> ipost (headQ s) (off s) (file_loop E n s).
Proof using All.
  induction n as [|n IH]; intros s HV; [exact I|].
  pose proof (inv_facts s (proj1 HV)) as (H0 & _ & Hle & _).
  rewrite file_loop_S. unfold ifM at 1, cur_is at 1. destruct (Z.eqb_spec (cur s) eof) as [Hc|Hc].
  { apply ipost_ret; [assumption|lia|]. unfold headQ. split; [assumption|].
    pose proof (eof_at_end E Hlen Hfuel Hdec s HV Hc) as Hend. cbn [first_end]. split; [lia|].
    split; [constructor|]. unfold gap_hd. cbn [first_end gap_tl map]. rewrite <- Hend, slice_nil. constructor. }
  eapply ipost_bind with (Q1 := fun od s1 =>
    match od with
    | Some d => d_range d = mkRange (off s) (off s1) /\ off s < off s1 /\ dirQ d
    | None => (exists m body, In m markers /\ cls notnl body /\ Win s (m ++ body) s1) \/ s1 = s
    end); [|lia|].
  { unfold od_m, ifM. destruct ((cur s =? 42) || (cur s =? 35) || (cur s =? 47)).
    - istep i_comment as ? s1 HV1 L1 (m & body & Hm & Hb & Hw & _).
      apply ipost_ret; [assumption|lia|]. left. eauto.
    - destruct (is_alphanumeric E (cur s) || (cur s =? 64)).
      + istep i_directive as d s1 HV1 L1 Hd. apply ipost_ret; [assumption|lia|]. exact Hd.
      + apply ipost_ret; [assumption|lia|]. now right. }
  intros od s1 HV1 L1 Hod.
  eapply ipost_weaken; [apply (i_tail n od s1 IH HV1)|lia|].
  intros r s' _ _ (ds & -> & Heof & Hfe & HD & W & g0 & Hg & HW & HF & Hne).
  destruct od as [d|]; cbn [opt_cons].
  - (* directive *)
    destruct Hod as (Hdr & Hlt & Hq). pose proof (proj1 Hq) as Hl.
    unfold headQ. split; [assumption|]. cbn [first_end map gap_tl]. rewrite Hdr. prj. split; [lia|].
    split; [constructor; assumption|]. unfold gap_hd. cbn [first_end]. rewrite Hdr. prj. rewrite slice_nil, gaps_from_split.
    rewrite Hg. now apply FL_dir.
  - destruct Hod as [(m & body & Hm & Hb & Hw)| ->].
    + (* comment line *)
      unfold headQ. split; [assumption|]. split; [lia|]. split; [exact HD|].
      unfold gap_hd in *. rewrite (slice_app t (off s) (off s1) (first_end t ds)) by lia.
      rewrite (win_slice s _ s1 (proj1 HV) (proj1 HV1) Hw), Hg.
      replace ((m ++ body) ++ W ++ g0) with (m ++ (body ++ W) ++ g0) by now rewrite !app_assoc.
      apply FL_comment; [assumption| |assumption]. apply cls_app; [assumption|now apply cls_ws_notnl].
    + (* neither: a blank line *)
      unfold headQ. split; [assumption|]. split; [lia|]. split; [exact HD|]. rewrite Hg. apply FL_blank; auto.
Qed.

Lemma i_parse_file f : parse_env E = ParseOk f ->
  Forall dirQ (f_directives f) /\
  FL MHead (gap_hd t 0 (f_directives f)) (gap_tl t (f_directives f)) (map (sem_of_directive t) (f_directives f)).
Proof using All.
  unfold parse_env. destruct (advance E (init_state E)) as [u s|e s|] eqn:Ha; try discriminate.
  destruct (inv_advance_init E Hlen Hfuel Hdec Hloc u s Ha) as (HV & Ho).
  unfold parse_file, annot, bind.
  pose proof (i_file_loop (loop_fuel E) s HV) as Hf.
  destruct (file_loop E (loop_fuel E) s) as [ds s'|e s'|]; cbn [RoundTripLeaf.ipost] in Hf; try discriminate.
  unfold ret_with. intros H. inversion H. subst f. prj.
  destruct Hf as (_ & _ & _ & _ & HD & HF). rewrite Ho in HF. auto.
Qed.

Lemma i_parse_env f : parse_env E = ParseOk f ->
  exists ds, f_directives f = ds /\ FL MHead (gap_hd t 0 ds) (gap_tl t ds) (map (sem_of_directive t) ds).
Proof using All. intros H. exists (f_directives f). split; [reflexivity|]. apply (i_parse_file f H). Qed.

Hypothesis Hcls : class_ok (e_letter E) (e_digit E).

Local Notation At_cur := (RoundTripBase.At_cur E Hlen Hfuel Hdec Hloc).
Local Notation At_off := (RoundTripBase.At_off E Hlen Hfuel Hdec Hloc).
Local Notation rest_nl_cons := (RoundTripLeaf.rest_nl_cons E Hlen Hfuel Hdec Hloc).
Local Notation rest_eof_cons := (RoundTripLeaf.rest_eof_cons E Hlen Hfuel Hdec Hloc).
Local Notation comment_cons := (RoundTripLeaf.comment_cons E Hlen Hfuel Hdec Hloc).
Local Notation directive_cons := (RoundTripTrx.directive_cons E Hlen Hfuel Hdec Hloc Hcls).
Local Notation directive_start := (RoundTripTrx.directive_start E Hlen Hfuel Hdec Hloc Hcls).
Notation blankstart := (blankstart E).

Lemma render_all_nil pad ps : render_all dec pad [] = Some ps -> ps = [].
Proof using All. cbn [render_all]. congruence. Qed.

Lemma render_all_cons pad d ds ps : render_all dec pad (d :: ds) = Some ps ->
  exists x ps0, ps = x :: ps0 /\ render_sem dec pad d = Some x /\ render_all dec pad ds = Some ps0.
Proof using All.
  cbn [render_all]. destruct (render_sem dec pad d) as [x|]; [|discriminate].
  destruct (render_all dec pad ds) as [ps0|]; [|discriminate]. intros H. inversion H. eauto.
Qed.

Lemma FL_MNL_next pad g gst ds ps : FL MNL g gst ds -> render_all dec pad ds = Some ps ->
  fr (weave (g :: gst) ps) = 10 \/ fr (weave (g :: gst) ps) = eof.
Proof using All.
  intros HF Hps. inversion HF; subst.
  - apply render_all_nil in Hps. subst ps. right. reflexivity.
  - left. rewrite weave_cons. cbn [app]. apply fr_ascii; [assumption|lia].
Qed.

Lemma blank_after pad W g gst ds ps : wsl W -> FL MNL g gst ds -> render_all dec pad ds = Some ps ->
  blankstart (W ++ weave (g :: gst) ps).
Proof using All.
  intros HW HF Hps. unfold RoundTripCons.blankstart.
  destruct (wsl_app_first dec Hdec W (weave (g :: gst) ps) HW) as [(_ & ->)|(_ & Hin)].
  - destruct (FL_MNL_next pad g gst ds ps HF Hps) as [-> | ->]; reflexivity.
  - unfold is_whitespace_or_newline, is_whitespace. cbn [In] in Hin. lia.
Qed.

Lemma file_loop_eof n s : At s [] -> file_loop E (S n) s = Ok [] s.
Proof using All.
  intros HA. rewrite file_loop_S. apply ifM_true; [|reflexivity]. unfold cur_is. now rewrite (At_cur s _ HA).
Qed.

Definition consP (md : mode) (g : str) (gst : list str) (ds : list sem_directive) : Prop :=
  match md with
  | MHead => forall pad ps n s, render_all dec pad ds = Some ps -> At s (weave (g :: gst) ps) ->
      (length (weave (g :: gst) ps) < n)%nat ->
      exists ds' s', file_loop E n s = Ok ds' s' /\ At s' [] /\ map (sem_of_directive t) ds' = ds /\
                     dranges (off s + zlen g) gst ps ds'
  | MNL => forall pad ps n s W od, render_all dec pad ds = Some ps -> wsl W -> At s (W ++ weave (g :: gst) ps) ->
      (length (W ++ weave (g :: gst) ps) <= n)%nat ->
      exists ds' s', tail_m n od s = Ok (opt_cons od ds') s' /\ At s' [] /\ map (sem_of_directive t) ds' = ds /\
                     dranges (off s + zlen W + zlen g) gst ps ds'
  end.

Lemma file_cons md g gst ds : FL md g gst ds -> consP md g gst ds.
Proof using All.
  induction 1 as [|d ds W g0 gst Hd HW HF IH|m body g0 gst ds Hm Hb HF IH|W g0 gst ds HW Hne HF IH| |g gst ds HF IH];
    cbn [consP] in *.
  - (* end of the text *)
    intros pad ps n s Hps HA Hn. apply render_all_nil in Hps. subst ps. cbn [weave app] in *.
    destruct n as [|n]; [lia|]. exists [], s. split; [now apply file_loop_eof|]. split; [assumption|].
    split; [reflexivity|]. cbn [dranges]. auto.
  - (* a directive *)
    intros pad ps n s Hps HA Hn. destruct (render_all_cons pad d ds ps Hps) as (x & ps0 & -> & Hx & Hps0).
    rewrite weave_cons in HA, Hn. cbn [app] in HA, Hn. rewrite weave_shift in HA, Hn.
    change (At s (x ++ W ++ weave (g0 :: gst) ps0)) in HA.
    change ((length (x ++ W ++ weave (g0 :: gst) ps0) < n)%nat) in Hn.
    destruct n as [|n]; [lia|].
    pose proof (blank_after pad W g0 gst ds ps0 HW HF Hps0) as Hbl.
    destruct (directive_cons pad d x _ s Hx HA Hd Hbl) as (d' & s1 & H1 & A1 & Hr1 & S1).
    destruct (directive_start pad d x (W ++ weave (g0 :: gst) ps0) Hx Hd) as (Hne & Hnm & Hal).
    pose proof (At_off s x _ s1 HA A1) as O1.
    assert (Hx1 : 1 <= zlen x).
    { destruct x as [|b x]; [|rewrite zlen_cons; pose proof (zlen_nonneg x); lia]. exfalso. cbn [app] in *.
      unfold RoundTripCons.blankstart, is_whitespace_or_newline, is_newline, is_whitespace in Hbl.
      destruct Hal as [Ha|H64]; [|lia].
      pose proof (alnum_not_sep letter digit Hcls _ Ha) as Hns. cbn [In] in Hns. lia. }
    destruct (IH pad ps0 n s1 W (Some d') Hps0 HW A1) as (ds' & s' & H2 & A' & S2 & D2).
    { assert (Hx2 : (1 <= length x)%nat) by (destruct x; [rewrite zlen_nil in Hx1; lia|cbn [length]; lia]).
      rewrite app_length in Hn. lia. }
    exists (d' :: ds'), s'. split; [|split; [assumption|split; [cbn [map]; now rewrite S1, S2|]]].
    + rewrite file_loop_S. apply ifM_false. { unfold cur_is. rewrite (At_cur s _ HA). now apply Z.eqb_neq. }
      eapply bind_ok; [|exact H2]. unfold od_m. apply ifM_false.
      { rewrite (At_cur s _ HA). cbn [In] in Hnm. lia. }
      apply ifM_true. { rewrite (At_cur s _ HA). unfold is_alphanumeric. unfold RoundTripLeaf.alnum in Hal. lia. }
      run H1. reflexivity.
    + cbn [dranges]. rewrite zlen_nil, Z.add_0_r. split; [rewrite Hr1; f_equal; lia|].
      rewrite zlen_app. replace (off s + zlen x + (zlen W + zlen g0)) with (off s1 + zlen W + zlen g0) by lia. exact D2.
  - (* a comment line *)
    intros pad ps n s Hps HA Hn.
    replace (m ++ body ++ g0) with ((m ++ body) ++ g0) in HA, Hn by now rewrite app_assoc.
    rewrite weave_shift in HA, Hn. rewrite <- app_assoc in HA.
    change (At s (m ++ body ++ weave (g0 :: gst) ps)) in HA.
    change ((length ((m ++ body) ++ weave (g0 :: gst) ps) < n)%nat) in Hn.
    destruct n as [|n]; [lia|].
    destruct (comment_cons m body s _ HA Hm Hb (FL_MNL_next pad g0 gst ds ps HF Hps)) as (rg & s1 & H1 & A1).
    assert (HA1 : At s1 ([] ++ weave (g0 :: gst) ps)) by exact A1.
    assert (HAm : At s ((m ++ body) ++ weave (g0 :: gst) ps)) by (rewrite <- app_assoc; exact HA).
    pose proof (At_off s _ _ s1 HAm A1) as O1.
    destruct (marker_first E Hlen Hfuel Hdec Hloc m (body ++ weave (g0 :: gst) ps) Hm) as (Hm1 & Hmf). cbn [In] in Hmf.
    destruct (IH pad ps n s1 [] None Hps (cls_nil) HA1) as (ds' & s' & H2 & A' & S2 & D2).
    { cbn [app]. rewrite !app_length in Hn. unfold zlen in Hm1. lia. }
    exists ds', s'. split; [|split; [assumption|split; [assumption|]]].
    + rewrite file_loop_S. apply ifM_false.
      { unfold cur_is. rewrite (At_cur s _ HA). unfold eof. lia. }
      eapply bind_ok; [|exact H2]. unfold od_m. apply ifM_true. { rewrite (At_cur s _ HA). lia. }
      run H1. reflexivity.
    + rewrite zlen_nil in D2.
      replace (off s + zlen (m ++ body ++ g0)) with (off s1 + 0 + zlen g0); [exact D2|rewrite O1, !zlen_app; lia].
  - (* a blank line *)
    intros pad ps n s Hps HA Hn. rewrite weave_shift in HA, Hn.
    change (At s (W ++ weave (g0 :: gst) ps)) in HA.
    change ((length (W ++ weave (g0 :: gst) ps) < n)%nat) in Hn.
    destruct n as [|n]; [lia|].
    assert (Hcur : In (fr (W ++ weave (g0 :: gst) ps)) [32; 9; 13; 10]).
    { destruct (wsl_app_first dec Hdec W (weave (g0 :: gst) ps) HW) as [(-> & _)|(_ & Hin)]; [|cbn [In] in *; lia].
      cbn [app] in *. inversion HF; subst; [congruence|]. rewrite weave_cons. cbn [app].
      rewrite (fr_ascii dec Hdec 10 _) by lia. cbn [In]. auto. }
    destruct (IH pad ps n s W None Hps HW HA) as (ds' & s' & H2 & A' & S2 & D2). { apply Nat.lt_succ_r. exact Hn. }
    exists ds', s'. split; [|split; [assumption|split; [assumption|]]].
    + rewrite file_loop_S. apply ifM_false.
      { unfold cur_is. rewrite (At_cur s _ HA). cbn [In] in Hcur. unfold eof. lia. }
      eapply bind_ok; [|exact H2]. unfold od_m. apply ifM_false.
      { rewrite (At_cur s _ HA). cbn [In] in Hcur. lia. }
      apply ifM_false; [|reflexivity].
      rewrite (At_cur s _ HA).
      assert (Hna : is_alphanumeric E (fr (W ++ weave (g0 :: gst) ps)) = false).
      { destruct (is_alphanumeric E (fr (W ++ weave (g0 :: gst) ps))) eqn:Ha; [|reflexivity].
        exfalso. apply (alnum_not_sep letter digit Hcls _ Ha). cbn [In] in *. lia. }
      rewrite Hna. cbn [In] in Hcur. lia.
    + rewrite zlen_app. replace (off s + (zlen W + zlen g0)) with (off s + zlen W + zlen g0) by lia. exact D2.
  - (* blanks, then the end of the text *)
    intros pad ps n s W od Hps HW HA Hn. apply render_all_nil in Hps. subst ps. cbn [weave app] in *.
    rewrite app_nil_r in HA, Hn.
    destruct (wsl_app_first dec Hdec W [] HW) as [(-> & _)|(HWne & Hin)].
    + exists [], s. split; [|split; [assumption|split; [reflexivity|cbn [dranges]; auto]]].
      unfold tail_m. apply ifM_true; [|reflexivity]. unfold cur_is. now rewrite (At_cur s _ HA).
    + rewrite app_nil_r in Hin. destruct (rest_eof_cons W s HA HW) as (rg & s1 & H1 & A1).
      destruct n as [|n]; [destruct W; [congruence|cbn [length] in Hn; lia]|].
      exists [], s1. split; [|split; [assumption|split; [reflexivity|cbn [dranges]; auto]]].
      unfold tail_m. apply ifM_false.
      { unfold cur_is. rewrite (At_cur s _ HA). cbn [In] in Hin. unfold eof. lia. }
      run H1. eapply bind_ok; [apply (file_loop_eof n s1 A1)|reflexivity].
  - (* blanks, newline *)
    intros pad ps n s W od Hps HW HA Hn.
    change (10 :: g) with ([10] ++ g) in HA, Hn. rewrite weave_shift in HA, Hn. cbn [app] in HA, Hn.
    change (At s (W ++ 10 :: weave (g :: gst) ps)) in HA.
    change ((length (W ++ 10%Z :: weave (g :: gst) ps) <= n)%nat) in Hn.
    destruct (rest_nl_cons W s _ HA HW) as (rg & s1 & H1 & A1).
    assert (HA2 : At s ((W ++ [10]) ++ weave (g :: gst) ps)) by (rewrite <- app_assoc; exact HA).
    pose proof (At_off s _ _ s1 HA2 A1) as O1. rewrite zlen_app, zlen_cons, zlen_nil in O1.
    destruct (IH pad ps n s1 Hps A1) as (ds' & s' & H2 & A' & S2 & D2).
    { rewrite app_length in Hn. cbn [length] in Hn. lia. }
    exists ds', s'. split; [|split; [assumption|split; [assumption|]]].
    + unfold tail_m. apply ifM_false.
      { unfold cur_is. rewrite (At_cur s _ HA).
        destruct (wsl_app_first dec Hdec W (10 :: weave (g :: gst) ps) HW) as [(_ & ->)|(_ & Hin)].
        - rewrite (fr_ascii dec Hdec 10 _) by lia. reflexivity.
        - cbn [In] in Hin. unfold eof. lia. }
      run H1. run H2. reflexivity.
    + rewrite zlen_cons. replace (off s + zlen W + (1 + zlen g)) with (off s1 + zlen g) by lia. exact D2.
Qed.

Lemma init_cons : runs dec t -> exists s0, advance E (init_state E) = Ok tt s0 /\ At s0 t.
Proof using Hlen Hfuel Hdec Hloc.
  intros Hr.
  assert (Hok : exists s0, advance E (init_state E) = Ok tt s0).
  { unfold advance, init_state. cbn [off clen cur rest]. cbn [Z.to_nat skipn]. rewrite Z.add_0_l.
    destruct Hr as [|c b r Hc Hr'].
    - assert (He : e_len E = 0) by (rewrite Hlen; reflexivity). rewrite He. cbn. eauto.
    - pose proof (chunk_len dec c b Hc) as Hb.
      assert (He : (0 =? e_len E) = false).
      { apply Z.eqb_neq. rewrite Hlen, app_length. unfold zlen in Hb. lia. }
      rewrite He. cbn [andb]. destruct Hc as (_ & Hx & Hv). rewrite (Hx r).
      destruct (Z.eqb_spec c rune_error) as [Hce|Hce]; [|eauto].
      destruct (Z.eqb_spec (zlen b) 0) as [Hw0|Hw0]; [lia|].
      destruct (Z.eqb_spec (zlen b) 1) as [Hw1|Hw1]; [tauto|eauto]. }
  destruct Hok as (s0 & H). exists s0. split; [assumption|]. now apply (At_init E Hlen Hfuel Hdec Hloc tt s0 H).
Qed.

Theorem parse_woven pad g gst ds ps :
  FL MHead g gst ds -> render_all dec pad ds = Some ps -> t = weave (g :: gst) ps ->
  exists f, parse_env E = ParseOk f /\ sem t f = ds /\ gaps t f = g :: gst.
Proof using All.
  intros HF Hps Ht.
  assert (Hruns : runs dec t) by (rewrite Ht; eapply FL_runs; eauto).
  destruct (init_cons Hruns) as (s0 & H0 & A0).
  pose proof (file_cons MHead g gst ds HF) as Hc. cbn [consP] in Hc.
  assert (Ho0 : off s0 = 0).
  { pose proof (RoundTripBase.At_len E Hlen Hfuel Hdec Hloc s0 t A0) as HL. rewrite (zlen_t E Hlen) in HL. lia. }
  assert (A0' : At s0 (weave (g :: gst) ps)) by (rewrite <- Ht; exact A0).
  destruct (Hc pad ps (loop_fuel E) s0 Hps A0') as (ds' & s' & H1 & A' & S1 & D1).
  { rewrite <- Ht. unfold loop_fuel. lia. }
  eexists. split; [|split].
  - unfold parse_env. rewrite H0. unfold parse_file, annot, bind. rewrite H1. unfold ret_with. reflexivity.
  - unfold sem. prj. exact S1.
  - unfold gaps. prj. change 0 with (zlen (@nil Z)). apply (gaps_of_dranges t ds' [] g gst ps).
    + exact Ht.
    + rewrite Ho0 in D1. rewrite zlen_nil. exact D1.
Qed.

End WithEnv.

Lemma parse_text_directives letter digit t f : parse_text letter digit t = ParseOk f ->
  Forall (dirQ (mk_env Utf8M.decode letter digit t)) (f_directives f).
Proof.
  intros Hp. set (E := mk_env Utf8M.decode letter digit t).
  assert (Hfuel : (length (e_text E) < e_fuel E)%nat) by (cbn [E mk_env e_text e_fuel]; lia).
  exact (proj1 (i_parse_file E eq_refl Hfuel utf8_decoder_ok utf8_decoder_local f Hp)).
Qed.

(* the gaps of a parsed text woven with the rendering of ANY lexically valid meanings (as many
   as the text has directives) parse back to exactly these meanings and gaps; the formatter
   renders the meanings of the text itself *)
Theorem parse_rendered letter digit t f sems out :
  class_ok letter digit -> parse_text letter digit t = ParseOk f ->
  length sems = length (sem t f) -> Forall (LexDir Utf8M.decode letter digit) sems ->
  render Utf8M.decode sems (gaps t f) = Some out ->
  exists f', parse_text letter digit out = ParseOk f' /\ sem out f' = sems /\ gaps out f' = gaps t f.
Proof.
  intros Hcls Hp Hlen Hlex Hr.
  set (E1 := mk_env Utf8M.decode letter digit t).
  assert (Hfuel1 : (length (e_text E1) < e_fuel E1)%nat) by (cbn [E1 mk_env e_text e_fuel]; lia).
  destruct (i_parse_env E1 eq_refl Hfuel1 utf8_decoder_ok utf8_decoder_local f Hp) as (ds & Hds & HF).
  unfold render in Hr.
  destruct (render_all Utf8M.decode (pad_of_sem Utf8M.decode 0 sems) sems) as [ps|] eqn:Hps; [|discriminate].
  assert (Hout : weave (gaps t f) ps = out) by congruence. clear Hr.
  unfold gaps in Hout. rewrite Hds, gaps_from_split in Hout.
  set (E2 := mk_env Utf8M.decode letter digit out).
  assert (Hfuel2 : (length (e_text E2) < e_fuel E2)%nat) by (cbn [E2 mk_env e_text e_fuel]; lia).
  destruct (parse_woven E2 eq_refl Hfuel2 utf8_decoder_ok utf8_decoder_local Hcls
              (pad_of_sem Utf8M.decode 0 sems) (gap_hd t 0 ds) (gap_tl t ds) sems ps)
    as (f' & Hp' & Hs' & Hg').
  - apply (FL_replace _ _ _ _ _ _ _ HF); [|exact Hlex]. unfold sem in Hlen. now rewrite Hds in Hlen.
  - exact Hps.
  - symmetry. exact Hout.
  - exists f'. split; [exact Hp'|]. split; [exact Hs'|]. change (gaps (e_text E2) f' = gaps t f).
    rewrite Hg'. unfold gaps. rewrite Hds. symmetry. apply gaps_from_split.
Qed.

Theorem roundtrip letter digit t f out :
  class_ok letter digit ->
  parse_text letter digit t = ParseOk f -> format_text letter digit t f = FOk out ->
  exists f', parse_text letter digit out = ParseOk f' /\ sem out f' = sem t f /\ gaps out f' = gaps t f.
Proof.
  intros Hcls Hp Hf.
  apply (parse_rendered letter digit t f (sem t f) out Hcls Hp eq_refl); [|exact (format_text_render _ _ _ _ _ Hf)].
  apply Forall_map. eapply Forall_impl; [|exact (parse_text_directives _ _ _ _ Hp)]. intros d Hd. exact (proj1 Hd).
Qed.
