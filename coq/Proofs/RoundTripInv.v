(* INVERSION of the parser: what a successful run of each parse function says about the text it
   consumed and the node it returned.  There is one lemma [i_X] per function parse_X; its
   post-condition collects what every user needs of that node:
   * where the node lies and which rune it starts with;
   * the lexical classes of its leaves -- [LexDir d] (C08 round trip): every string of the
     meaning d (Spec/FormatSpec.v) is in its class, lists that the grammar makes non-empty are
     non-empty, and a date does not start with '@' or 'i' (the decisions parseDirective took);
     hence [leaves_directive] (C07, Spec/LeafSpec.v);
   * the keyword windows and the separators between its leaves ([kw_body], [sep_body], C07).
     readWhitespace1 accepts an empty run of blanks in front of a newline, so that those blanks
     are not empty needs that a newline is neither a digit nor alphanumeric: these parts are
     stated under [class_ok].
   [dirQ] is the statement for a directive; Proofs/RoundTripFile.v has it for every directive of
   a file ([i_parse_file]).                                                                    *)
From Coq Require Import ZArith List Bool Lia ZifyBool.
From Knut Require Import Proofs.ListFacts Model.Bytes Model.Utf8 Model.Scanner Model.Parser Spec.SyntaxSpec
  Proofs.ScannerProofs Proofs.ParserProofs Spec.FormatSpec Spec.LeafSpec Spec.SepSpec
  Proofs.RoundTripBase Proofs.RoundTripLeaf Proofs.LexBytes.
Import ListNotations.
Open Scope bool_scope.
Open Scope Z_scope.

Definition sem_accrual_of (t : str) (a : accrual) : sem_accrual :=
  mkSemAccrual (cut t (ac_interval a)) (cut t (ac_start a)) (cut t (ac_end a)) (sem_acc t (ac_account a)).

Definition sem_of_balance (t : str) (b : balance) : sem_account * str * str :=
  (sem_acc t (bl_account b), cut t (bl_quantity b), cut t (bl_commodity b)).

Section LexDir.
Variable dec : str -> Z * Z.
Variables letter digit : Z -> bool.

Definition LexAcc (a : sem_account) : Prop := lex_account dec letter digit (fst a) (snd a).

Definition LexBooking (b : sem_booking) : Prop :=
  LexAcc (sb_credit b) /\ LexAcc (sb_debit b) /\ lex_decimal dec digit (sb_quantity b) /\
  lex_commodity dec letter digit (sb_commodity b).

Definition LexBal (b : sem_account * str * str) : Prop :=
  LexAcc (fst (fst b)) /\ lex_decimal dec digit (snd (fst b)) /\ lex_commodity dec letter digit (snd b).

Definition LexAccrual (a : sem_accrual) : Prop :=
  lex_interval (sa_interval a) /\ lex_date dec digit (sa_start a) /\ lex_date dec digit (sa_end a) /\
  LexAcc (sa_account a).

Definition date_ok (w : str) : Prop := lex_date dec digit w /\ fr dec w <> 64 /\ fr dec w <> 105.

Definition LexDir (d : sem_directive) : Prop :=
  match d with
  | SemTrx date desc bs perf accr =>
    date_ok date /\ lex_quoted dec desc /\ bs <> [] /\ Forall LexBooking bs /\
    match perf with Some ts => Forall (lex_commodity dec letter digit) ts | None => True end /\
    match accr with Some a => LexAccrual a | None => True end
  | SemOpen date a => date_ok date /\ LexAcc a
  | SemClose date a => date_ok date /\ LexAcc a
  | SemAssertion date bs => date_ok date /\ bs <> [] /\ Forall LexBal bs
  | SemPrice date c p tg =>
    date_ok date /\ lex_commodity dec letter digit c /\ lex_decimal dec digit p /\
    lex_commodity dec letter digit tg
  | SemInclude p => lex_quoted dec p
  | SemNone => False
  end.

End LexDir.

Section WithEnv.
Variable E : env.
Hypothesis Hlen : e_len E = Z.of_nat (length (e_text E)).
Hypothesis Hfuel : (length (e_text E) < e_fuel E)%nat.
Hypothesis Hdec : decoder_ok (e_decode E).
Hypothesis Hloc : decoder_local (e_decode E).

Notation t := (e_text E).
Notation dec := (e_decode E).
Notation letter := (e_letter E).
Notation digit := (e_digit E).
Notation VInv := (VInv E).
Notation ipost := (@ipost E _).
Notation leafQ := (leafQ E).
Notation accQ := (accQ E).
Notation quotedQ := (quotedQ E).
Notation tok_start := (tok_start E).
Notation alnum := (alnum letter digit).
Notation lex_commodity := (lex_commodity dec letter digit).
Notation lex_decimal := (lex_decimal dec digit).
Notation lex_date := (lex_date dec digit).
Notation lex_quoted := (lex_quoted dec).
Notation LexAcc := (LexAcc dec letter digit).
Notation LexBooking := (LexBooking dec letter digit).
Notation LexBal := (LexBal dec letter digit).
Notation LexAccrual := (LexAccrual dec letter digit).
Notation LexDir := (LexDir dec letter digit).
Notation date_ok := (date_ok dec digit).
Notation Cok := (class_ok letter digit).
Notation leaf_date := (leaf_date dec digit t).
Notation leaf_account := (leaf_account dec letter digit t).
Notation leaf_quoted := (leaf_quoted dec t).
Notation leaves_booking := (leaves_booking dec letter digit t).
Notation leaves_balance := (leaves_balance dec letter digit t).
Notation leaves_addons := (leaves_addons dec letter digit t).
Notation leaves_directive := (leaves_directive dec letter digit t).

Local Notation win_slice := (RoundTripBase.win_slice E Hlen Hfuel Hdec Hloc).
Local Notation win_off := (RoundTripBase.win_off E Hlen Hfuel Hdec Hloc).
Local Notation vinv_cur_fr := (RoundTripBase.vinv_cur_fr E Hlen Hfuel Hdec Hloc).
Local Notation inv_facts := (ScannerProofs.inv_facts E Hlen Hfuel Hdec).

Ltac semprj := unfold sem_of_booking, sem_of_balance, sem_accrual_of, sem_acc, cut; prj;
  cbn [sb_credit sb_debit sb_quantity sb_commodity sa_interval sa_start sa_end sa_account fst snd].

Definition lexc (rg : range) : Prop := lex_commodity (cut t rg).

Definition AdLex (ad : addons) : Prop :=
  Forall lexc (pf_targets (ad_perf ad)) /\
  (ad_accrual ad = zero_accrual \/ LexAccrual (sem_accrual_of t (ad_accrual ad))).

Lemma AdLex_zero : AdLex zero_addons.
Proof using. split; [constructor|now left]. Qed.

Lemma acc_leaf a : LexAcc (sem_acc t a) -> leaf_account a = true.
Proof using Hdec. intros H. unfold LeafSpec.leaf_account. now apply account_class. Qed.

Lemma booking_leaves b : LexBooking (sem_of_booking t b) -> leaves_booking b = true.
Proof using Hdec.
  intros (Hc & Hd & Hq & Hm). unfold sem_of_booking in Hc, Hd, Hq, Hm.
  cbn [sb_credit sb_debit sb_quantity sb_commodity] in Hc, Hd, Hq, Hm. unfold LeafSpec.leaves_booking.
  rewrite (acc_leaf _ Hc), (acc_leaf _ Hd). cbn [andb].
  unfold LeafSpec.leaf_decimal, LeafSpec.leaf_commodity.
  rewrite (decimal_class dec Hdec digit _ Hq), (commodity_class dec letter digit _ Hm). reflexivity.
Qed.

Lemma balance_leaves b : LexBal (sem_of_balance t b) -> leaves_balance b = true.
Proof using Hdec.
  intros (Ha & Hq & Hm). unfold sem_of_balance in Ha, Hq, Hm. cbn [fst snd] in Ha, Hq, Hm.
  unfold LeafSpec.leaves_balance.
  rewrite (acc_leaf _ Ha). cbn [andb].
  unfold LeafSpec.leaf_decimal, LeafSpec.leaf_commodity.
  rewrite (decimal_class dec Hdec digit _ Hq), (commodity_class dec letter digit _ Hm). reflexivity.
Qed.

Lemma addons_leaves ad : AdLex ad -> leaves_addons ad = true.
Proof using Hdec.
  intros (Hp & Ha). unfold LeafSpec.leaves_addons. apply andb_true_iff. split.
  - apply (Forall_forallb lexc); [|exact Hp]. intros r Hr. now apply commodity_class.
  - unfold LeafSpec.leaves_accrual. destruct Ha as [->|(Hi & Hs & He & Hacc)]; [reflexivity|].
    unfold sem_accrual_of in Hi, Hs, He, Hacc. cbn [sa_interval sa_start sa_end sa_account] in Hi, Hs, He, Hacc.
    apply orb_true_iff. right.
    unfold LeafSpec.leaf_interval, LeafSpec.leaf_date.
    rewrite (interval_class _ Hi), (date_class dec Hdec digit _ Hs), (date_class dec Hdec digit _ He).
    cbn [andb]. now apply acc_leaf.
Qed.

Lemma quoted_leaf s q s' : quotedQ s q s' ->
  qs_range q = mkRange (off s) (off s') /\ lex_quoted (cut t (qs_content q)) /\ leaf_quoted q = true.
Proof using All.
  intros (-> & Hle & _ & H1 & Hx & H3). prj. split; [reflexivity|]. split; [exact Hx|].
  unfold LeafSpec.leaf_quoted, range_eqb, cut. prj. rewrite H1, H3, !Z.eqb_refl, (quoted_class dec _ Hx).
  assert (H : (off s + 2 <=? off s') = true) by lia. rewrite H. reflexivity.
Qed.

Lemma zlen_t : zlen t = e_len E.
Proof using Hlen. unfold zlen. now rewrite Hlen. Qed.

Lemma eof_at_end s : VInv s -> cur s = eof -> off s = zlen t.
Proof using Hlen Hfuel Hdec.
  intros HV Hc. rewrite zlen_t. pose proof (inv_facts s (proj1 HV)) as (_ & _ & _ & He & _).
  exact (proj2 (He Hc)).
Qed.

Lemma blanks_win s x s' : VInv s -> VInv s' -> Win s x s' -> wsl dec x ->
  blanks_b (slice t (off s) (off s')) = true.
Proof using All.
  intros HV HV' Hw Hx. rewrite (win_slice s x s' (proj1 HV) (proj1 HV') Hw). now apply (wsl_blanks dec Hdec).
Qed.

Lemma blanks1_win s x s' : VInv s -> VInv s' -> Win s x s' -> wsl dec x -> x <> [] ->
  blanks1_b (slice t (off s) (off s')) = true.
Proof using All.
  intros HV HV' Hw Hx Hne. rewrite (win_slice s x s' (proj1 HV) (proj1 HV') Hw).
  apply blanks1_intro; [now apply (wsl_blanks dec Hdec)|exact Hne].
Qed.

Lemma ws1_blanks1 s s' : VInv s -> VInv s' -> ws1Q E s s' -> cur s' <> 10 -> cur s' <> eof ->
  blanks1_b (slice t (off s) (off s')) = true.
Proof using All.
  intros HV HV' (W & HW & Hw & Hn) H10 Heof. apply (blanks1_win s W s'); try assumption.
  intros Hnil. destruct (Hn Hnil); contradiction.
Qed.

Lemma rest_nl s s' : VInv s -> VInv s' -> rest_of_line E s s' -> cur s' <> eof ->
  restline_b (slice t (off s) (off s')) = true.
Proof using All.
  intros HV HV' (W & HW & [Hw|(_ & He)]) Hc; [|contradiction].
  rewrite (win_slice s _ s' (proj1 HV) (proj1 HV') Hw). apply restline_ok. now apply (wsl_blanks dec Hdec).
Qed.

Lemma rest_end eofok s s' : VInv s -> VInv s' -> rest_of_line E s s' -> (cur s' = eof -> eofok = true) ->
  restline_end_b eofok (slice t (off s) (off s')) = true.
Proof using All.
  intros HV HV' (W & HW & [Hw|(Hw & He)]) Hok; rewrite (win_slice s _ s' (proj1 HV) (proj1 HV') Hw).
  - apply restline_end_nl. now apply (wsl_blanks dec Hdec).
  - rewrite (Hok He). apply restline_end_eof. now apply (wsl_blanks dec Hdec).
Qed.

Lemma digit_not_nl c : Cok -> digit c = true -> c <> 10.
Proof using.
  intros Hcls Hd ->. destruct (co_sep _ _ Hcls 10) as (_ & H); [cbn [In]; tauto|]. congruence.
Qed.

Lemma alnum_not_nl c : Cok -> alnum c = true -> c <> 10.
Proof using. intros Hcls Ha ->. apply (alnum_not_sep letter digit Hcls 10 Ha). cbn [In]. tauto. Qed.

Lemma tok_not_nl s : Cok -> tok_start s -> cur s <> 10 /\ cur s <> eof.
Proof using.
  intros Hcls (He & [H36|Ha]); (split; [|exact He]); [rewrite H36; discriminate|now apply alnum_not_nl].
Qed.

Lemma decimal_not_nl c : Cok -> c = 45 \/ digit c = true -> c <> 10.
Proof using. intros Hcls [->|Hd]; [discriminate|now apply digit_not_nl]. Qed.

(* what needs [class_ok].  lia explores the propositional structure of every hypothesis; behind
   this definition it does not look into the conditional ones. *)
Definition under_ok (Q : Prop) : Prop := Cok -> Q.

(* a line of a transaction or of a balance assertion *)
Definition lineQ {A} (rg : A -> range) (P : A -> Prop) (sepb : A -> bool) (s : state) (x : A) (s' : state) : Prop :=
  rg x = mkRange (off s) (off s') /\ off s < off s' /\ tok_start s /\ P x /\ under_ok (sepb x = true).

Lemma i_booking s : VInv s ->
  ipost (lineQ bk_range (fun b => LexBooking (sem_of_booking t b)) (sep_booking t) s) (off s) (parse_booking E s).
Proof using All.
  intros HV. unfold parse_booking. apply ipost_annot.
  istep i_account as c s1 HV1 L1 ((Hc & Hclt & Hcl) & Htok).
  istep i_rw1 as ? s2 HV2 L2 (_ & _ & _ & x1 & Hx1 & Hn1 & Hw1 & _).
  istep i_account as d s3 HV3 L3 ((Hd & Hdlt & Hdl) & _).
  istep i_rw1 as ? s4 HV4 L4 (_ & _ & _ & x2 & Hx2 & Hn2 & Hw2 & _).
  istep i_decimal as q s5 HV5 L5 ((Hq & Hqlt & Hql) & _).
  istep i_rw1 as ? s6 HV6 L6 (_ & _ & _ & x3 & Hx3 & Hn3 & Hw3 & _).
  istep i_commodity as m s7 HV7 L7 ((Hm & Hmlt & Hml) & _).
  apply ipost_ret_with; [assumption|lia|]. unfold lineQ. prj.
  split; [reflexivity|]. split; [lia|]. split; [exact Htok|]. split.
  - unfold RoundTripInv.LexBooking, RoundTripInv.LexAcc. semprj. rewrite Hc, Hd, Hq, Hm. prj. auto.
  - intros _. unfold sep_booking. prj. rewrite Hc, Hd, Hq, Hm. prj.
    rewrite (blanks1_win s1 x1 s2), (blanks1_win s3 x2 s4), (blanks1_win s5 x3 s6) by assumption.
    rewrite !Z.eqb_refl. reflexivity.
Qed.

Lemma i_balance s : VInv s ->
  ipost (lineQ bl_range (fun b => LexBal (sem_of_balance t b)) (sep_balance t) s) (off s) (parse_balance E s).
Proof using All.
  intros HV. unfold parse_balance. apply ipost_annot.
  istep i_account as c s1 HV1 L1 ((Hc & Hclt & Hcl) & Htok).
  istep i_ws1 as ? s2 HV2 L2 Hq1.
  istep i_decimal as q s3 HV3 L3 ((Hq & Hqlt & Hql) & Hqe & Hqs).
  istep i_ws1 as ? s4 HV4 L4 Hq2.
  istep i_commodity as m s5 HV5 L5 ((Hm & Hmlt & Hml) & Hme & Hms).
  apply ipost_ret_with; [assumption|lia|]. unfold lineQ. prj.
  split; [reflexivity|]. split; [lia|]. split; [exact Htok|]. split.
  - unfold RoundTripInv.LexBal, RoundTripInv.LexAcc. semprj. rewrite Hc, Hq, Hm. prj. auto.
  - intros Hcls. unfold sep_balance. prj. rewrite Hc, Hq, Hm. prj.
    rewrite (ws1_blanks1 s1 s2), (ws1_blanks1 s3 s4);
      try assumption; [|now apply alnum_not_nl|now apply decimal_not_nl].
    rewrite !Z.eqb_refl. reflexivity.
Qed.

(* parseTransaction's and parseAssertion's loops over lines are the same loop *)
Fixpoint lines_loop {A} (m : M A) (n : nat) : M (list A) :=
  match n with
  | O => out_of_fuel
  | S n' =>
    do b <- m;
    do _ <- read_rest_of_whitespace_line E;
    ifM (fun s => is_whitespace_or_newline (cur s) || (cur s =? eof))
      (ret [b])
      (do bs <- lines_loop m n'; ret (b :: bs))
  end.

Lemma bookings_loop_lines n : bookings_loop E n = lines_loop (parse_booking E) n.
Proof using. induction n as [|n IH]; [reflexivity|]. cbn [bookings_loop lines_loop]. now rewrite IH. Qed.

Lemma balances_loop_lines n : balances_loop E n = lines_loop (parse_balance E) n.
Proof using. induction n as [|n IH]; [reflexivity|]. cbn [balances_loop lines_loop]. now rewrite IH. Qed.

Definition linesQ {A} (rg : A -> range) (P : A -> Prop) (sepb : A -> bool) (s : state) (xs : list A) (s' : state) : Prop :=
  exists x xs', xs = x :: xs' /\ r_start (rg x) = off s /\ tok_start s /\ off s < off s' /\ Forall P xs /\
    under_ok (sep_lines t (off s' =? zlen t) (map rg xs) (off s') = true /\ forallb sepb xs = true).

Lemma i_lines_loop {A} (m : M A) rg P sepb :
  (forall s, VInv s -> ipost (lineQ rg P sepb s) (off s) (m s)) ->
  forall n s, VInv s -> ipost (linesQ rg P sepb s) (off s) (lines_loop m n s).
Proof using All.
  intros Hm. induction n as [|n IH]; intros s HV; cbn [lines_loop]; [exact I|].
  istep Hm as b s1 HV1 L1 (Hb & Hlt & Htok & HP & Hsb).
  istep i_rest as ? s2 HV2 L2 Hrl.
  unfold ifM. destruct (is_whitespace_or_newline (cur s2) || (cur s2 =? eof)).
  - apply ipost_ret; [assumption|lia|]. exists b, []. rewrite Hb. prj.
    split; [reflexivity|]. split; [reflexivity|]. split; [exact Htok|]. split; [lia|].
    split; [repeat constructor; exact HP|].
    intros Hcls. cbn [map sep_lines forallb]. rewrite Hb, (Hsb Hcls). prj. split; [|reflexivity].
    apply rest_end; try assumption. intros He. rewrite (eof_at_end s2 HV2 He). apply Z.eqb_refl.
  - istep IH as bs s3 HV3 L3 (b2 & bs' & -> & Hst & Htok2 & Hlt2 & HPs & Hseps).
    apply ipost_ret; [assumption|lia|]. exists b, (b2 :: bs'). rewrite Hb. prj.
    split; [reflexivity|]. split; [reflexivity|]. split; [exact Htok|]. split; [lia|].
    split; [constructor; assumption|].
    intros Hcls. destruct (Hseps Hcls) as (Hsl & Hall). cbn [map sep_lines forallb] in *.
    rewrite Hb, (Hsb Hcls), Hst, Hall. prj.
    rewrite (rest_nl s1 s2 HV1 HV2 Hrl (proj1 Htok2)). split; [exact Hsl|reflexivity].
Qed.

Lemma i_perf_loop : forall n s, VInv s ->
  ipost (fun cs s' => Forall lexc cs /\ (cur s <> 44 -> cs = []) /\
           forall s0 W0, VInv s0 -> Win s0 W0 s -> blanks_b W0 = true ->
                         sep_targets t false (off s0) cs (off s') = true)
        (off s) (performance_loop E n s).
Proof using All.
  induction n as [|n IH]; intros s HV; cbn [performance_loop]; [exact I|].
  unfold ifM, cur_is. destruct (Z.eqb_spec (cur s) 44) as [H44|H44].
  - istep i_rc as ? s1 HV1 L1 (Ho1 & _ & Hw1). { lia. }
    istep i_rw as ? s2 HV2 L2 (_ & x2 & Hx2 & Hw2 & _).
    istep i_commodity as c s3 HV3 L3 ((Hc & Hclt & Hcl) & _).
    istep i_rw as ? s4 HV4 L4 (_ & x4 & Hx4 & Hw4 & _).
    istep IH as cs s5 HV5 L5 (Hlex & _ & Hcs).
    apply ipost_ret; [assumption|lia|]. split; [|split; [congruence|]].
    { constructor; [|assumption]. unfold lexc, cut. rewrite Hc. prj. exact Hcl. }
    intros s0 W0 HV0 Hw0 HW0. cbn [sep_targets]. rewrite Hc. prj.
    pose proof (win_trans _ _ _ _ _ Hw0 (win_trans _ _ _ _ _ Hw1 Hw2)) as Hw.
    pose proof (win_off s0 _ s2 (proj1 HV0) (proj1 HV2) Hw) as Ho.
    pose proof (zlen_nonneg (W0 ++ [44] ++ x2)).
    rewrite (win_slice s0 _ s2 (proj1 HV0) (proj1 HV2) Hw).
    change ([44] ++ x2) with (44 :: x2).
    rewrite (comma_ok W0 x2 HW0 (wsl_blanks dec Hdec x2 Hx2)).
    rewrite (Hcs s3 x4 HV3 Hw4 (wsl_blanks dec Hdec x4 Hx4)).
    destruct (Z.leb_spec (off s0) (off s2)); [reflexivity|lia].
  - apply ipost_ret; [assumption|lia|]. split; [constructor|]. split; [reflexivity|].
    intros s0 W0 HV0 Hw0 HW0.
    cbn [sep_targets]. pose proof (win_off s0 _ s (proj1 HV0) (proj1 HV) Hw0) as Ho.
    pose proof (zlen_nonneg W0).
    rewrite (win_slice s0 _ s (proj1 HV0) (proj1 HV) Hw0), HW0.
    destruct (Z.leb_spec (off s0) (off s)); [reflexivity|lia].
Qed.

(* ( blank* [ commodity ( blank* , blank* commodity )* ] blank* ) at [a, b) *)
Definition perfQ (a : Z) (p : performance) (b : Z) : Prop :=
  pf_range p = mkRange a b /\ a + 2 <= b /\ Forall lexc (pf_targets p) /\
  slice t a (a + 1) = [40] /\ slice t (b - 1) b = [41] /\
  sep_targets t true (a + 1) (pf_targets p) (b - 1) = true.

Lemma i_performance s : VInv s -> ipost (fun p s' => perfQ (off s) p (off s')) (off s) (parse_performance E s).
Proof using All.
  intros HV. unfold parse_performance. apply ipost_annot.
  istep i_rc as ? s1 HV1 L1 (Ho1 & _ & Hw1). { lia. }
  istep i_rw as ? s2 HV2 L2 (_ & x2 & Hx2 & Hw2 & _).
  eapply ipost_bind with (Q1 := fun first s4 => Forall lexc first /\
      exists s0 W0, VInv s0 /\ Win s0 W0 s4 /\ blanks_b W0 = true /\
      ((first = [] /\ s0 = s1 /\ cur s4 = 41) \/ (first = [mkRange (off s2) (off s0)] /\ off s2 <= off s0))); [|lia|].
  { unfold ifM. destruct (Z.eqb_spec (cur s2) 41) as [H41|H41]; cbn [negb].
    - apply ipost_ret; [assumption|lia|]. split; [constructor|]. exists s1, x2. split; [assumption|].
      split; [assumption|]. split; [now apply (wsl_blanks dec Hdec)|]. left. auto.
    - istep i_commodity as c s3 HV3 L3 ((Hc & Hclt & Hcl) & _).
      istep i_rw as ? s4 HV4 L4 (_ & x4 & Hx4 & Hw4 & _).
      apply ipost_ret; [assumption|lia|]. split.
      { constructor; [|constructor]. unfold lexc, cut. rewrite Hc. prj. exact Hcl. }
      exists s3, x4. split; [assumption|]. split; [assumption|].
      split; [now apply (wsl_blanks dec Hdec)|]. right. rewrite Hc. split; [reflexivity|lia]. }
  intros first s4 HV4 L4 (Hlf & s0 & W0 & HV0 & Hw0 & HW0 & Hfirst).
  istep i_perf_loop as more s5 HV5 L5 (Hlm & Hnil & Hmore).
  istep i_rc as ? s6 HV6 L6 (Ho6 & _ & Hw6). { lia. }
  apply ipost_ret_with; [assumption|lia|]. unfold perfQ. prj. split; [reflexivity|]. split; [lia|].
  split; [apply Forall_app; split; assumption|].
  replace (off s + 1) with (off s1) by lia. replace (off s6 - 1) with (off s5) by lia.
  split; [exact (win_slice s _ s1 (proj1 HV) (proj1 HV1) Hw1)|].
  split; [exact (win_slice s5 _ s6 (proj1 HV5) (proj1 HV6) Hw6)|].
  specialize (Hmore s0 W0 HV0 Hw0 HW0).
  destruct Hfirst as [(-> & -> & H41)|(-> & Hle)].
  - assert (Hm : more = []) by (apply Hnil; lia). subst more. cbn [app sep_targets] in *. exact Hmore.
  - cbn [app sep_targets]. prj. rewrite Hmore, (blanks_win s1 x2 s2 HV1 HV2 Hw2 Hx2).
    destruct (Z.leb_spec (off s1) (off s2)); [reflexivity|lia].
Qed.

(* blank+ interval blank+ date blank+ date blank+ account at [a, b) *)
Definition accrQ (a : Z) (c : accrual) (b : Z) : Prop :=
  ac_range c = mkRange a b /\ a < b /\ LexAccrual (sem_accrual_of t c) /\
  a <= r_start (ac_interval c) /\ blanks1_b (slice t a (r_start (ac_interval c))) = true /\
  under_ok (forall r, r_end r = b ->
            sep_accrual t (mkAccrual r (ac_interval c) (ac_start c) (ac_end c) (ac_account c)) = true).

Lemma i_accrual s : VInv s -> ipost (fun a s' => accrQ (off s) a (off s')) (off s) (parse_accrual E s).
Proof using All.
  intros HV. unfold parse_accrual. apply ipost_annot.
  istep i_ws1 as ? s1 HV1 L1 Hq0.
  istep i_interval as iv s2 HV2 L2 ((Hiv & Hivlt & Hivl) & Hi10 & Hie).
  istep i_ws1 as ? s3 HV3 L3 Hq1.
  istep i_date as st s4 HV4 L4 ((Hst & _ & Hstl) & Hse & Hsd).
  istep i_ws1 as ? s5 HV5 L5 Hq2.
  istep i_date as en s6 HV6 L6 ((Hen & _ & Henl) & Hee & Hed).
  istep i_ws1 as ? s7 HV7 L7 Hq3.
  istep i_account as acc s8 HV8 L8 ((Ha & _ & Hal) & Htok).
  apply ipost_ret_with; [assumption|lia|]. unfold accrQ. prj. split; [reflexivity|]. split; [lia|].
  rewrite Hiv, Hst, Hen. prj. split; [|split; [lia|split; [now apply ws1_blanks1|]]].
  - unfold RoundTripInv.LexAccrual, RoundTripInv.LexAcc. semprj. rewrite Ha. prj. auto.
  - intros Hcls r Hr. unfold sep_accrual. prj. rewrite Ha, Hr. prj.
    destruct (tok_not_nl s7 Hcls Htok).
    rewrite (ws1_blanks1 s2 s3), (ws1_blanks1 s4 s5), (ws1_blanks1 s6 s7);
      try assumption; try (now apply digit_not_nl).
    rewrite Z.eqb_refl. apply orb_true_r.
Qed.

(* the addons read so far fill [lo, hi) *)
Definition AdOk (eofok : bool) (lo hi : Z) (ad : addons) : Prop :=
  AdLex ad /\ kw_addons t ad = true /\
  under_ok (sep_perf t (ad_perf ad) = true /\ sep_accrual t (ad_accrual ad) = true /\
            tile_ad_b t eofok lo hi (ad_perf ad) (ad_accrual ad) = true).

Lemma adok_perf eofok lo a b hi ad p : AdOk false lo a ad -> range_empty (pf_range (ad_perf ad)) = true ->
  0 <= a -> slice t a (a + 12) = kw_performance -> perfQ (a + 12) p b ->
  restline_end_b eofok (slice t b hi) = true ->
  AdOk eofok lo hi (mkAddons (ad_range ad) (mkPerf (mkRange a b) (pf_targets p)) (ad_accrual ad)).
Proof using All.
  intros ((_ & Hla) & Hkw & Hsep) Hre H0 Hk (_ & Hb & Hlp & H40 & H41 & Hst) Hrl.
  destruct (perf_addon_ok t a (a + 12) b (pf_targets p) H0 eq_refl Hb Hk H40 H41 Hst) as (Hkp & Hsp).
  unfold kw_addons in Hkw. apply andb_true_iff in Hkw.
  split; [split; assumption|]. split; [unfold kw_addons; prj; rewrite Hkp; apply Hkw|].
  intros Hcls. destruct (Hsep Hcls) as (_ & Hsa & Ht). prj. split; [exact Hsp|]. split; [exact Hsa|].
  apply (tile_add_perf t eofok lo a b hi (ad_perf ad)); try assumption. clear - Hb. lia.
Qed.

Lemma adok_accrual eofok lo a b hi ad c : AdOk false lo a ad -> range_empty (ac_range (ad_accrual ad)) = true ->
  0 <= a -> slice t a (a + 7) = kw_accrue -> accrQ (a + 7) c b ->
  restline_end_b eofok (slice t b hi) = true ->
  AdOk eofok lo hi (mkAddons (ad_range ad) (ad_perf ad)
                      (mkAccrual (mkRange a b) (ac_interval c) (ac_start c) (ac_end c) (ac_account c))).
Proof using All.
  intros ((Hlp & _) & Hkw & Hsep) Hre H0 Hk (_ & Hb & Hlc & Hiv & Hbl & Hsc) Hrl.
  unfold kw_addons in Hkw. apply andb_true_iff in Hkw.
  split; [split; [exact Hlp|right; exact Hlc]|]. split.
  - unfold kw_addons. prj. rewrite (proj1 Hkw). apply (kw_accrual_intro t a (a + 7)); try assumption. clear - H0. lia.
  - intros Hcls. destruct (Hsep Hcls) as (Hsp & _ & Ht). prj. split; [exact Hsp|].
    split; [apply (Hsc Hcls); reflexivity|].
    apply (tile_add_accrual t eofok lo a b hi _ (ad_accrual ad)); try assumption. clear - Hb. lia.
Qed.

Lemma i_addons_loop sc : forall n s ad, VInv s -> AdOk false (sc_start sc) (off s) ad -> sc_start sc <= off s ->
  ipost (fun a s' => ad_range a = mkRange (sc_start sc) (off s') /\ off s < off s' /\ cur s' <> 64 /\
                     AdOk (cur s' =? eof) (sc_start sc) (off s') a)
        (off s) (addons_loop E sc n ad s).
Proof using All.
  induction n as [|n IH]; intros s ad HV Hok Hlo; cbn [addons_loop]; [exact I|].
  istep i_ra as r s1 HV1 L1 (Hr & kw & Hin & Hw). { now apply asciis_b_ok. }
  pose proof (win_off s kw s1 (proj1 HV) (proj1 HV1) Hw) as Ho.
  pose proof (win_slice s kw s1 (proj1 HV) (proj1 HV1) Hw) as Hsl.
  assert (Hex : extract E r = kw) by (rewrite Hr; unfold extract; prj; exact Hsl).
  pose proof (inv_facts s (proj1 HV)) as (H0 & _).
  set (lo := sc_start sc) in *.
  eapply ipost_bind with (Q1 := fun ad' s2 => off s < off s2 /\
      forall eofok hi, restline_end_b eofok (slice t (off s2) hi) = true -> AdOk eofok lo hi ad'); [|lia|].
  { cbv zeta. rewrite Hex, Hr. cbn [In] in Hin. destruct Hin as [<-|[<-|[]]].
    - change (str_eqb kw_performance kw_performance) with true. cbv iota.
      destruct (negb (range_empty (pf_range (ad_perf ad)))) eqn:Hre; [exact I|]. apply negb_false_iff in Hre.
      change (zlen kw_performance) with 12 in Ho.
      istep i_performance as p s2 HV2 L2 Hp.
      apply ipost_ret; [assumption|lia|]. pose proof Hp as (Hpr & Hb & _). split; [lia|]. intros eofok hi Hrl.
      rewrite Hpr, (extend_kw E Hlen Hfuel Hdec) by lia. rewrite Ho in Hsl, Hp. now apply adok_perf.
    - change (str_eqb kw_accrue kw_performance) with false. change (str_eqb kw_accrue kw_accrue) with true. cbv iota.
      destruct (negb (range_empty (ac_range (ad_accrual ad)))) eqn:Hre; [exact I|]. apply negb_false_iff in Hre.
      change (zlen kw_accrue) with 7 in Ho.
      istep i_accrual as c s2 HV2 L2 Hc.
      apply ipost_ret; [assumption|lia|]. pose proof Hc as (Hcr & Hb & _). split; [lia|]. intros eofok hi Hrl.
      rewrite Hcr, (extend_kw E Hlen Hfuel Hdec) by lia. rewrite Ho in Hsl, Hc. now apply adok_accrual. }
  intros ad' s2 HV2 L2 (Hlt2 & Hstep).
  eapply ipost_bind with (Q1 := fun _ s3 => rest_of_line E s2 s3);
    [apply ipost_replace_err; apply i_rest; assumption|lia|].
  intros _ s3 HV3 L3 Hrl. cbv beta in *.
  assert (Hok3 : AdOk (cur s3 =? eof) lo (off s3) ad').
  { apply Hstep, rest_end; try assumption. intros ->. reflexivity. }
  unfold ifM. destruct (Z.eqb_spec (cur s3) 64) as [H64|H64]; cbn [negb].
  - eapply ipost_weaken; [apply (IH s3 ad' HV3)|lia|].
    + replace (cur s3 =? eof) with false in Hok3; [exact Hok3|]. rewrite H64. reflexivity.
    + lia.
    + intros a s' _ L' (Ha1 & Ha2 & Ha3). split; [assumption|]. split; [lia|assumption].
  - apply ipost_ret_with; [assumption|lia|]. prj. split; [reflexivity|]. split; [lia|]. split; assumption.
Qed.

Lemma i_addons s : VInv s ->
  ipost (fun a s' => ad_range a = mkRange (off s) (off s') /\ off s < off s' /\ cur s' <> 64 /\
                     AdOk (cur s' =? eof) (off s) (off s') a)
        (off s) (parse_addons E s).
Proof using All.
  intros HV. unfold parse_addons. apply ipost_annot.
  apply (i_addons_loop (new_scope DAddons s) (loop_fuel E) s zero_addons HV); [|prj; lia].
  split; [apply AdLex_zero|]. split; [reflexivity|]. intros _. split; [reflexivity|]. split; [reflexivity|].
  exact (Z.eqb_refl (off s)).
Qed.

Lemma accq_lex s a s' : accQ s a s' -> LexAcc (sem_acc t a).
Proof using. intros (Ha & _ & Hal). unfold RoundTripInv.LexAcc. semprj. rewrite Ha. prj. exact Hal. Qed.

Lemma i_include s : VInv s ->
  ipost (fun i s' => exists q, i = mkInclude (mkRange (off s) (off s')) q /\ off s < off s' /\
           lex_quoted (cut t (qs_content q)) /\ leaf_quoted q = true /\
           kw_then_blanks kw_include (slice t (off s) (r_start (qs_range q))) = true /\
           r_end (qs_range q) = off s')
        (off s) (parse_include E s).
Proof using All.
  intros HV. unfold parse_include. apply ipost_annot.
  istep i_rs as ? s1 HV1 L1 Hw1. { now apply ascii_b_ok. }
  istep i_ws1 as ? s2 HV2 L2 (W & HW & Hw2 & Hn).
  istep i_quoted as q s3 HV3 L3 Hq.
  destruct (quoted_leaf s2 q s3 Hq) as (Hqr & Hql & Hqf). destruct Hq as (_ & Hle & H34 & _).
  apply ipost_ret_with; [assumption|lia|]. exists q. prj. rewrite Hqr. prj.
  split; [reflexivity|]. split; [lia|]. split; [exact Hql|]. split; [exact Hqf|]. split; [|reflexivity].
  pose proof (win_trans _ _ _ _ _ Hw1 Hw2) as Hw.
  rewrite (win_slice s _ s2 (proj1 HV) (proj1 HV2) Hw).
  apply kw_then_blanks_ok. apply blanks1_intro; [now apply (wsl_blanks dec Hdec)|].
  intros Hnil. specialize (Hn Hnil). unfold eof in Hn. lia.
Qed.

(* parseOpen and parseClose *)
Lemma i_account_payload {A} (mk : range -> account -> A) sc s : VInv s ->
  ipost (fun x s' => exists a, x = mk (mkRange (sc_start sc) (off s')) a /\ accQ s a s' /\ tok_start s)
        (off s) (annot sc (do a <- parse_account E; ret_with sc (fun r => mk r a)) s).
Proof using All.
  intros HV. apply ipost_annot. istep i_account as a s1 HV1 L1 (Ha & Htok).
  apply ipost_ret_with; [assumption|lia|]. exists a. auto.
Qed.

Lemma i_assertion sc date s : VInv s ->
  ipost (fun a s' => exists b bs, a = mkAssertion (mkRange (sc_start sc) (off s')) date (b :: bs) /\
           off s < off s' /\ Forall (fun b => LexBal (sem_of_balance t b)) (b :: bs) /\
           ((r_start (bl_range b) = off s /\ cur s <> 10 /\ cur s <> eof) \/
            (r_start (bl_range b) = off s + 1 /\ slice t (off s) (off s + 1) = [10])) /\
           under_ok (forallb (sep_balance t) (b :: bs) = true /\
                     (match b :: bs with [b] => r_end (bl_range b) =? off s' | _ => false end ||
                      sep_lines t (off s' =? zlen t) (map bl_range (b :: bs)) (off s')) = true))
        (off s) (parse_assertion E sc date s).
Proof using All.
  intros HV. unfold parse_assertion. apply ipost_annot.
  unfold ifM. destruct (is_newline (cur s)) eqn:Hnl.
  - istep i_rest as ? s1 HV1 L1 (W & HW & Hrl).
    rewrite balances_loop_lines.
    istep (i_lines_loop (parse_balance E) bl_range _ (sep_balance t) i_balance)
      as bs s2 HV2 L2 (b & bs' & -> & Hst & Htok & Hlt & HP & Hsep).
    apply ipost_ret_with; [assumption|lia|]. exists b, bs'. prj. split; [reflexivity|]. split; [lia|].
    split; [exact HP|]. split.
    + right. destruct Hrl as [Hw|(_ & Heof)]; [|destruct Htok; congruence].
      assert (HWn : W = []).
      { destruct (wsl_app_first dec Hdec W ([10] ++ rest s1) HW) as [(HWn & _)|(_ & Hin)]; [exact HWn|exfalso].
        unfold RoundTripBase.Win in Hw. rewrite <- app_assoc in Hw.
        rewrite (vinv_cur_fr s HV), Hw in Hnl. unfold is_newline in Hnl. cbn [In] in Hin. lia. }
      subst W. cbn [app] in Hw.
      pose proof (win_off s _ s1 (proj1 HV) (proj1 HV1) Hw) as Ho. rewrite zlen_cons, zlen_nil in Ho.
      split; [lia|]. replace (off s + 1) with (off s1) by lia.
      exact (win_slice s _ s1 (proj1 HV) (proj1 HV1) Hw).
    + intros Hcls. destruct (Hsep Hcls) as (Hsl & Hall). split; [exact Hall|]. rewrite Hsl. apply orb_true_r.
  - istep i_balance as b s1 HV1 L1 (Hb & Hlt & Htok & HP & Hsb).
    apply ipost_ret_with; [assumption|lia|]. exists b, []. prj. split; [reflexivity|]. split; [lia|].
    split; [constructor; [exact HP|constructor]|]. split.
    + left. rewrite Hb. split; [reflexivity|]. split; [unfold is_newline in Hnl; lia|exact (proj1 Htok)].
    + intros Hcls. cbn [forallb]. rewrite (Hsb Hcls), Hb. prj. rewrite Z.eqb_refl. split; reflexivity.
Qed.

Lemma i_price sc date s : VInv s ->
  ipost (fun p s' => exists c pr tg, p = mkPrice (mkRange (sc_start sc) (off s')) date c tg pr /\ off s < off s' /\
           lex_commodity (cut t c) /\ lex_decimal (cut t pr) /\ lex_commodity (cut t tg) /\
           r_start c = off s /\ tok_start s /\ r_end tg = off s' /\
           under_ok (blanks1_b (slice t (r_end c) (r_start pr)) = true /\
                     blanks1_b (slice t (r_end pr) (r_start tg)) = true))
        (off s) (parse_price E sc date s).
Proof using All.
  intros HV. unfold parse_price.
  eapply ipost_bind with (Q1 := fun cp s4 =>
      lex_commodity (cut t (fst cp)) /\ lex_decimal (cut t (snd cp)) /\ r_start (fst cp) = off s /\ tok_start s /\
      off s < off s4 /\ under_ok (blanks1_b (slice t (r_end (fst cp)) (r_start (snd cp))) = true) /\
      exists s3, VInv s3 /\ r_end (snd cp) = off s3 /\ ws1Q E s3 s4); [|lia|].
  { apply ipost_annot.
    istep i_commodity as c s1 HV1 L1 ((Hc & Hclt & Hcl) & Hce & Hca).
    istep i_ws1 as ? s2 HV2 L2 Hq1.
    istep i_decimal as p s3 HV3 L3 ((Hp & _ & Hpl) & Hpe & Hps).
    istep i_ws1 as ? s4 HV4 L4 Hq2.
    apply ipost_ret; [assumption|lia|]. prj. unfold cut. rewrite Hc, Hp. prj.
    split; [assumption|]. split; [assumption|]. split; [reflexivity|]. split; [split; [assumption|now right]|].
    split; [lia|]. split; [|exists s3; auto].
    intros Hcls. apply ws1_blanks1; try assumption. now apply decimal_not_nl. }
  intros cp s4 HV4 L4 (Hc & Hp & Hcs & Htok & Hlt & Hb1 & s3 & HV3 & He3 & Hq2).
  istep i_commodity as tg s5 HV5 L5 ((Htg & _ & Htl) & Hte & Hta).
  apply ipost_ret_with; [assumption|lia|]. exists (fst cp), (snd cp), tg. rewrite Htg. prj.
  split; [reflexivity|]. split; [lia|]. split; [assumption|]. split; [assumption|]. split; [exact Htl|].
  split; [exact Hcs|]. split; [exact Htok|]. split; [reflexivity|].
  intros Hcls. split; [exact (Hb1 Hcls)|]. rewrite He3. apply ws1_blanks1; try assumption. now apply alnum_not_nl.
Qed.

Lemma i_transaction sc date ad s : VInv s ->
  ipost (fun x s' => exists q b1 bs, x = mkTrx (mkRange (sc_start sc) (off s')) date q (b1 :: bs) ad /\
           off s < off s' /\ r_start (qs_range q) = off s /\ cur s = 34 /\
           lex_quoted (cut t (qs_content q)) /\ leaf_quoted q = true /\
           Forall (fun b => LexBooking (sem_of_booking t b)) (b1 :: bs) /\
           under_ok (restline_b (slice t (r_end (qs_range q)) (r_start (bk_range b1))) = true /\
                     sep_lines t (off s' =? zlen t) (map bk_range (b1 :: bs)) (off s') = true /\
                     forallb (sep_booking t) (b1 :: bs) = true))
        (off s) (parse_transaction E sc date ad s).
Proof using All.
  intros HV. unfold parse_transaction. apply ipost_annot.
  istep i_quoted as q s1 HV1 L1 Hq.
  destruct (quoted_leaf s q s1 Hq) as (Hqr & Hql & Hqf). destruct Hq as (_ & Hle & H34 & _).
  istep i_rest as ? s2 HV2 L2 Hrl.
  rewrite bookings_loop_lines.
  istep (i_lines_loop (parse_booking E) bk_range _ (sep_booking t) i_booking)
    as bs s3 HV3 L3 (b1 & bs' & -> & Hst & Htok & Hlt & HP & Hsep).
  apply ipost_ret_with; [assumption|lia|]. exists q, b1, bs'. prj. rewrite Hqr. prj.
  split; [reflexivity|]. split; [lia|]. split; [reflexivity|]. split; [exact H34|]. split; [exact Hql|].
  split; [exact Hqf|]. split; [exact HP|].
  intros Hcls. destruct (Hsep Hcls) as (Hsl & Hall). rewrite Hst.
  split; [exact (rest_nl s1 s2 HV1 HV2 Hrl (proj1 Htok))|]. split; assumption.
Qed.

Definition dirQ (d : directive) : Prop :=
  LexDir (sem_of_directive t d) /\ leaves_directive d = true /\
  (Cok -> kw_body t (d_body d) = true /\ sep_body t (d_range d) (d_body d) = true).

(* what parseDirective knows after its addons *)
Definition AdQ (s : state) (ad : addons) (s1 : state) : Prop :=
  cur s1 <> 64 /\
  ((ad = zero_addons /\ s1 = s) \/
   (cur s = 64 /\ ad_range ad = mkRange (off s) (off s1) /\ off s < off s1 /\
    AdOk (cur s1 =? eof) (off s) (off s1) ad)).

Lemma adq_lex s ad s1 : AdQ s ad s1 -> AdLex ad /\ kw_addons t ad = true.
Proof using.
  intros (_ & [(-> & _)|(_ & _ & _ & Hl & Hk & _)]); [split; [apply AdLex_zero|reflexivity]|auto].
Qed.

Lemma first_byte s hi c : VInv s -> cur s = c -> 0 <= c < 128 -> off s < hi ->
  exists r, slice t (off s) hi = c :: r.
Proof using All.
  intros HV Hc Hr Hlt.
  assert (Hne : cur s <> eof) by (unfold eof; lia).
  destruct (RoundTripBase.vinv_chunk E Hlen Hfuel Hdec Hloc s HV Hne) as (b & Hch & Hrb & _).
  rewrite Hc in Hch. rewrite (chunk_ascii_inv dec Hdec c b Hch Hr) in Hrb.
  pose proof HV as ((_ & Hrest & _) & _).
  replace hi with (off s + (hi - off s)) by lia.
  rewrite (slice_rest t (off s) (hi - off s) (rest s) Hrest), Hrb.
  destruct (Z.to_nat (hi - off s)) as [|k] eqn:Hk; [lia|]. cbn [app firstn]. eauto.
Qed.

(* addon lines in front of a directive: kept by a transaction, dropped by the other kinds *)
Lemma adq_sep s ad s1 : VInv s -> Cok -> AdQ s ad s1 -> cur s1 <> eof ->
  sep_addons t ad = true /\ sep_dropped t (off s) (off s1) = true /\
  (if is_zero_addons ad then off s1 =? off s
   else (r_start (ad_range ad) =? off s) && (off s1 =? r_end (ad_range ad))) = true.
Proof using All.
  intros HV Hcls (_ & [(-> & ->)|(H64 & Hr & Hlt & _ & _ & Hsep)]) Hne.
  - split; [reflexivity|]. change (is_zero_addons zero_addons) with true. cbv iota.
    unfold sep_dropped. rewrite slice_nil, !Z.eqb_refl. split; [|reflexivity].
    destruct (Z.leb_spec (off s) (off s)); [reflexivity|lia].
  - pose proof (inv_facts s (proj1 HV)) as (H0 & _).
    destruct (first_byte s (off s1) 64 HV H64 ltac:(lia) Hlt) as (r & Hfb).
    assert (Hle : (off s <=? off s1) = true /\ (off s <? off s1) = true) by lia.
    assert (Hz : is_zero_addons ad = false).
    { unfold is_zero_addons, is_zero_range. rewrite Hr. prj. destruct (Z.eqb_spec (off s1) 0); [lia|]. now rewrite andb_false_r. }
    destruct (Hsep Hcls) as (Hsp & Hsa & Ht).
    replace (cur s1 =? eof) with false in Ht by (symmetry; now apply Z.eqb_neq).
    rewrite Hz. unfold sep_addons, sep_dropped. rewrite Hz, Hr. prj.
    rewrite Ht, Hsp, Hsa, (proj1 Hle), (proj2 Hle), !Z.eqb_refl.
    split; [reflexivity|]. split; [|reflexivity]. cbn [andb].
    destruct (tile_last_nl t _ _ _ _ Ht Hlt) as (x & Hx1 & Hx2 & Hrl).
    pose proof (slice_app t (off s) x (off s1) (conj H0 Hx1) (Z.lt_le_incl _ _ Hx2)) as Hsp2.
    unfold dropped_b. rewrite Hfb, <- Hfb, Hsp2.
    rewrite (last_app_ne _ _ 0 (restline_nonnil _ Hrl)), (restline_last _ 0 Hrl). reflexivity.
Qed.

Lemma date_facts s1 date s2 : VInv s1 -> leafQ lex_date s1 date s2 -> cur s1 <> 64 -> cur s1 <> 105 ->
  date_ok (cut t date) /\ leaf_date date = true.
Proof using All.
  intros HV1 (Hdate & Hdlt & Hdl) H64 H105. unfold LeafSpec.leaf_date, cut. rewrite Hdate. prj.
  split; [|now apply date_class]. split; [exact Hdl|].
  pose proof (lex_date_first dec digit Hdec _ (skipn (Z.to_nat (off s2 - off s1)) (rest s1)) Hdl) as (Hf & _).
  assert (Hr : rest s1 = slice t (off s1) (off s2) ++ skipn (Z.to_nat (off s2 - off s1)) (rest s1)).
  { destruct HV1 as ((_ & Hr1 & _) & _). unfold slice. rewrite <- Hr1. symmetry. apply firstn_skipn. }
  rewrite (vinv_cur_fr s1 HV1), Hr, Hf in H64, H105. auto.
Qed.

(* blank+ keyword blank+ between the date and the payload; a multi-line `balance` may end its
   line after the keyword *)
Lemma glue_ok nl kw k kw' s2 s3 s4 s5 hi : kw = k :: kw' ->
  (0 <=? k) && (k <? 128) && negb (is_ws_byte k) && negb (k =? 10) = true ->
  VInv s2 -> VInv s3 -> VInv s4 -> VInv s5 -> ws1Q E s2 s3 -> Win s3 kw s4 -> ws1Q E s4 s5 ->
  (hi = off s5 /\ cur s5 <> 10 /\ cur s5 <> eof) \/
  (nl = true /\ hi = off s5 + 1 /\ slice t (off s5) (off s5 + 1) = [10]) ->
  kw_glue kw nl (slice t (off s2) hi) = true.
Proof using All.
  intros -> Hk HV2 HV3 HV4 HV5 (W1 & HW1 & Hw1 & Hn1) Hwk (W2 & HW2 & Hw2 & Hn2) Hhi.
  assert (Hkb : is_ws_byte k = false) by (destruct (is_ws_byte k); [rewrite !andb_false_r in Hk; discriminate|reflexivity]).
  pose proof (win_trans _ _ _ _ _ Hw1 (win_trans _ _ _ _ _ Hwk Hw2)) as Hw.
  pose proof (win_slice s2 _ s5 (proj1 HV2) (proj1 HV5) Hw) as Hsl.
  assert (HB1 : blanks1_b W1 = true).
  { apply blanks1_intro; [now apply (wsl_blanks dec Hdec)|]. intros Hn. specialize (Hn1 Hn).
    pose proof (cur_win_ascii E Hlen Hfuel Hdec Hloc s3 k kw' s4 HV3 Hwk ltac:(lia)) as Hc. unfold eof in Hn1. lia. }
  pose proof (wsl_blanks dec Hdec W2 HW2) as HB2.
  destruct Hhi as [(-> & H10 & Heof)|(-> & -> & Hnl)].
  - rewrite Hsl. apply kw_glue_ok; [exact HB1|exact Hkb|]. left. apply blanks1_intro; [exact HB2|].
    intros Hn. destruct (Hn2 Hn); contradiction.
  - pose proof (inv_facts s2 (proj1 HV2)) as (H0 & _).
    pose proof (win_off s2 _ s5 (proj1 HV2) (proj1 HV5) Hw) as Ho.
    pose proof (zlen_nonneg (W1 ++ (k :: kw') ++ W2)).
    rewrite (slice_app t (off s2) (off s5) (off s5 + 1)), Hsl, Hnl, <- !app_assoc by lia.
    apply kw_glue_ok; [exact HB1|exact Hkb|]. right. split; [reflexivity|]. exists W2. split; [exact HB2|reflexivity].
Qed.

Lemma i_directive s : VInv s ->
  ipost (fun d s' => d_range d = mkRange (off s) (off s') /\ off s < off s' /\ dirQ d) (off s) (parse_directive E s).
Proof using All.
  intros HV. unfold parse_directive. apply ipost_annot.
  eapply ipost_bind with (Q1 := AdQ s); [|lia|].
  { unfold ifM, cur_is. destruct (Z.eqb_spec (cur s) 64) as [H64|H64].
    - eapply ipost_weaken; [apply i_addons; assumption|lia|].
      intros a s' _ _ (Har & Hlt & Hc & Hok). split; [exact Hc|]. right. auto.
    - apply ipost_ret; [assumption|lia|]. split; [exact H64|]. left. auto. }
  intros ad s1 HV1 L1 Had. destruct (adq_lex s ad s1 Had) as (Hlex & Hkwa).
  unfold ifM at 1. unfold cur_is at 1. destruct (Z.eqb_spec (cur s1) 105) as [H105|H105].
  - istep i_include as i s2 HV2 L2 (q & -> & Hlt & Hil & Hif & Hik & Hie).
    apply ipost_ret_with; [assumption|lia|]. prj. split; [reflexivity|]. split; [lia|].
    split; [exact Hil|]. split; [exact Hif|]. intros Hcls. prj. cbn [kw_body sep_body]. prj.
    destruct (adq_sep s ad s1 HV Hcls Had ltac:(unfold eof; lia)) as (_ & Hdr & _).
    rewrite Hik, Hie, Hdr, Z.eqb_refl. split; reflexivity.
  - istep i_date as date s2 HV2 L2 (Hdq & Hde & _).
    destruct (date_facts s1 date s2 HV1 Hdq (proj1 Had) H105) as (Hdok & Hdl). destruct Hdq as (Hdate & _ & _).
    assert (HS : under_ok (sep_addons t ad = true /\ sep_dropped t (off s) (off s1) = true /\
                 (if is_zero_addons ad then off s1 =? off s
                  else (r_start (ad_range ad) =? off s) && (off s1 =? r_end (ad_range ad))) = true))
      by (intros Hcls; now apply adq_sep).
    clear Had.
    istep i_ws1 as ? s3 HV3 L3 Hq1.
    unfold ifM at 1. unfold cur_is at 1. destruct (Z.eqb_spec (cur s3) 34) as [H34|H34].
    + istep i_transaction as x s4 HV4 L4 (q & b1 & bs & -> & Hxlt & Hxs & _ & Hxq & Hxf & HxP & Hxsep).
      apply ipost_ret_with; [assumption|lia|]. prj. split; [reflexivity|]. split; [lia|]. split; [|split].
      * unfold sem_of_directive. prj. cbn [RoundTripInv.LexDir].
        split; [assumption|]. split; [assumption|]. split; [discriminate|]. split; [apply Forall_map; exact HxP|].
        destruct Hlex as (Hp & Ha). split.
        -- destruct (range_empty (pf_range (ad_perf ad))); [exact I|]. apply Forall_map. exact Hp.
        -- destruct Ha as [Hz|Ha]; [rewrite Hz; change (range_empty (ac_range zero_accrual)) with true; exact I|].
           destruct (range_empty (ac_range (ad_accrual ad))); [exact I|exact Ha].
      * unfold LeafSpec.leaves_directive. prj. cbn [LeafSpec.leaves_body]. prj. cbn [LeafSpec.nonnil].
        rewrite Hdl, Hxf, (Forall_forallb _ _ _ booking_leaves HxP). now apply addons_leaves.
      * intros Hcls. prj. cbn [kw_body sep_body]. prj. rewrite Hxs, Hdate. prj. split.
        -- rewrite Hkwa, andb_true_r.
           apply ws1_blanks1; try assumption; rewrite H34; [discriminate|unfold eof; discriminate].
        -- destruct (HS Hcls) as (Hsad & _ & Hadj). destruct (Hxsep Hcls) as (Hx1 & Hx2 & Hx3).
           rewrite Hsad, Hx1, Hx2, Hx3. cbn [andb]. rewrite !andb_true_r.
           destruct (is_zero_addons ad); [exact Hadj|].
           apply andb_true_iff in Hadj. destruct Hadj as (A1 & A2). rewrite A1. exact A2.
    + istep i_ra as kw s4 HV4 L4 (Hkw & k & Hin & Hwk). { now apply asciis_b_ok. }
      istep i_ws1 as ? s5 HV5 L5 Hq2.
      assert (Hex : extract E kw = k).
      { rewrite Hkw. unfold extract. prj. apply (win_slice s3 k s4 (proj1 HV3) (proj1 HV4) Hwk). }
      cbv zeta. rewrite Hex. clear Hex Hkw. cbn [In] in Hin. destruct Hin as [<-|[<-|[<-|[<-|[]]]]].
      * change (str_eqb kw_open kw_open) with true. cbv iota.
        istep (i_account_payload (fun r x => mkOpen r date x) (update_desc (new_scope DDir s) DOpen))
          as ? s6 HV6 L6 (acc & -> & Ha & Htok).
        pose proof (accq_lex _ _ _ Ha) as Hal. destruct Ha as (Ha & Halt & _).
        apply ipost_ret_with; [assumption|lia|]. prj. split; [reflexivity|]. split; [lia|]. split; [|split].
        -- unfold sem_of_directive. prj. cbn [RoundTripInv.LexDir]. auto.
        -- unfold LeafSpec.leaves_directive. prj. cbn [LeafSpec.leaves_body]. prj. rewrite Hdl. now apply acc_leaf.
        -- intros Hcls. destruct (HS Hcls) as (_ & Hdr & _). destruct (tok_not_nl s5 Hcls Htok) as (H10 & Heof).
           prj. cbn [kw_body sep_body]. prj. rewrite Ha, Hdate. prj. rewrite Hdr, Z.eqb_refl. split; [|reflexivity].
           apply (glue_ok false kw_open 111 _ s2 s3 s4 s5 _ eq_refl eq_refl HV2 HV3 HV4 HV5 Hq1 Hwk Hq2). left. auto.
      * change (str_eqb kw_close kw_open) with false. change (str_eqb kw_close kw_close) with true. cbv iota.
        istep (i_account_payload (fun r x => mkClose r date x) (update_desc (new_scope DDir s) DClose))
          as ? s6 HV6 L6 (acc & -> & Ha & Htok).
        pose proof (accq_lex _ _ _ Ha) as Hal. destruct Ha as (Ha & Halt & _).
        apply ipost_ret_with; [assumption|lia|]. prj. split; [reflexivity|]. split; [lia|]. split; [|split].
        -- unfold sem_of_directive. prj. cbn [RoundTripInv.LexDir]. auto.
        -- unfold LeafSpec.leaves_directive. prj. cbn [LeafSpec.leaves_body]. prj. rewrite Hdl. now apply acc_leaf.
        -- intros Hcls. destruct (HS Hcls) as (_ & Hdr & _). destruct (tok_not_nl s5 Hcls Htok) as (H10 & Heof).
           prj. cbn [kw_body sep_body]. prj. rewrite Ha, Hdate. prj. rewrite Hdr, Z.eqb_refl. split; [|reflexivity].
           apply (glue_ok false kw_close 99 _ s2 s3 s4 s5 _ eq_refl eq_refl HV2 HV3 HV4 HV5 Hq1 Hwk Hq2). left. auto.
      * change (str_eqb kw_balance kw_open) with false. change (str_eqb kw_balance kw_close) with false.
        change (str_eqb kw_balance kw_balance) with true. cbv iota.
        istep i_assertion as x s6 HV6 L6 (b & bs & -> & Hxlt & HxP & Hpos & Hxsep).
        apply ipost_ret_with; [assumption|lia|]. prj. split; [reflexivity|]. split; [lia|]. split; [|split].
        -- unfold sem_of_directive. prj. cbn [RoundTripInv.LexDir].
           split; [exact Hdok|]. split; [discriminate|]. apply Forall_map. exact HxP.
        -- unfold LeafSpec.leaves_directive. prj. cbn [LeafSpec.leaves_body]. prj. cbn [LeafSpec.nonnil]. rewrite Hdl.
           exact (Forall_forallb _ _ _ balance_leaves HxP).
        -- intros Hcls. destruct (HS Hcls) as (_ & Hdr & _). destruct (Hxsep Hcls) as (Hx1 & Hx2).
           prj. cbn [kw_body sep_body]. prj. rewrite Hdate. prj. rewrite Hdr, Hx1, Hx2. split; [|reflexivity].
           apply (glue_ok true kw_balance 98 _ s2 s3 s4 s5 _ eq_refl eq_refl HV2 HV3 HV4 HV5 Hq1 Hwk Hq2).
           destruct Hpos as [Hpos|Hpos]; [left|right]; auto.
      * change (str_eqb kw_price kw_open) with false. change (str_eqb kw_price kw_close) with false.
        change (str_eqb kw_price kw_balance) with false. change (str_eqb kw_price kw_price) with true. cbv iota.
        istep i_price as x s6 HV6 L6 (c & pr & tg & -> & Hxlt & Hc & Hp & Htg & Hcs & Htok & Hte & Hxsep).
        apply ipost_ret_with; [assumption|lia|]. prj. split; [reflexivity|]. split; [lia|]. split; [|split].
        -- unfold sem_of_directive. prj. cbn [RoundTripInv.LexDir]. auto.
        -- unfold LeafSpec.leaves_directive. prj. cbn [LeafSpec.leaves_body]. prj. rewrite Hdl.
           unfold LeafSpec.leaf_commodity, LeafSpec.leaf_decimal.
           rewrite (commodity_class dec letter digit _ Hc), (decimal_class dec Hdec digit _ Hp),
             (commodity_class dec letter digit _ Htg). reflexivity.
        -- intros Hcls. destruct (HS Hcls) as (_ & Hdr & _). destruct (Hxsep Hcls) as (Hx1 & Hx2).
           destruct (tok_not_nl s5 Hcls Htok) as (H10 & Heof).
           prj. cbn [kw_body sep_body]. prj. rewrite Hcs, Hte, Hdate. prj. rewrite Hdr, Hx1, Hx2, Z.eqb_refl.
           split; [|reflexivity].
           apply (glue_ok false kw_price 112 _ s2 s3 s4 s5 _ eq_refl eq_refl HV2 HV3 HV4 HV5 Hq1 Hwk Hq2). left. auto.
Qed.

Lemma range_empty_zero : range_empty zero_range = true.
Proof using. reflexivity. Qed.

End WithEnv.
