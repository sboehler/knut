(* C08 round trip: the lexical classes of the leaves (commodity, decimal, account,
   date, quoted string, interval), blanks, comments -- as predicates on byte strings -- and for
   each of them the two context lemmas:

   [i_X]     (inversion)    a successful run of parse_X from a valid state consumed a string of
                            the class (so every leaf of a parsed tree is in its class), and
                            which rune it was entered on;
   [X_cons]  (construction) in front of (w ++ r), w in the class and r not extending it,
                            parse_X succeeds, consumes exactly w and yields the range of w.

   The classes record the decisions the parser took on the way (no leading '-' without sign,
   ':' and '.' end an alphanumeric / digit run, ...), so that no assumption on the letter /
   digit classification is needed for them.  What the formatter inserts after a token (blank,
   newline, ',' or ')') must not extend it: that is [class_ok].                              *)
From Coq Require Import ZArith List Bool Lia ZifyBool.
From Knut Require Import Model.Bytes Model.Utf8 Model.Scanner Model.Parser
  Proofs.ScannerProofs Proofs.ParserProofs Proofs.RoundTripBase.
Import ListNotations.
Open Scope bool_scope.
Open Scope Z_scope.

(* the code points the formatter puts, or the grammar guarantees, behind a token *)
Definition seps : list Z := [9; 10; 13; 32; 41; 44].

(* hypotheses on the classification of letters and digits: separators and the comment
   markers # * / are neither, and 'i' (of `include`) is alphanumeric *)
Record class_ok (letter digit : Z -> bool) : Prop := mkClassOk {
  co_sep : forall c, In c [9; 10; 13; 32; 35; 41; 42; 44; 47] -> letter c = false /\ digit c = false;
  co_i : letter 105 || digit 105 = true
}.

Section Lex.
Variable dec : str -> Z * Z.
Variables letter digit : Z -> bool.
Hypothesis Hdec : decoder_ok dec.

Notation chunk := (chunk dec).
Notation cls := (cls dec).
Notation fr := (fr dec).

Definition alnum (c : Z) : bool := letter c || digit c.

Definition lex_commodity (w : str) : Prop := cls alnum w /\ w <> [].

Definition lex_decimal (w : str) : Prop :=
  exists sg ip fp, w = sg ++ ip ++ fp /\
    (sg = [45] \/ (sg = [] /\ fr ip <> 45)) /\
    cls digit ip /\ ip <> [] /\
    (fp = [] \/ (digit 46 = false /\ exists f, fp = 46 :: f /\ cls digit f /\ f <> [])).

Definition seg_ok (x : str) : Prop := cls alnum x /\ x <> [].

Definition lex_account (w : str) (macro : bool) : Prop :=
  if macro then exists l, w = 36 :: l /\ cls letter l /\ l <> []
  else fr w <> 36 /\
       exists seg segs, w = seg ++ concat (map (cons 58) segs) /\ seg_ok seg /\ Forall seg_ok segs /\
                        (segs <> [] -> alnum 58 = false).

Inductive digs : nat -> str -> Prop :=
| digs_O : digs O []
| digs_S k c b x : chunk c b -> digit c = true -> digs k x -> digs (S k) (b ++ x).

Definition lex_date (w : str) : Prop :=
  exists y m d, w = y ++ 45 :: m ++ 45 :: d /\ digs 4 y /\ digs 2 m /\ digs 2 d.

Definition notquote (r : Z) : bool := negb (r =? 34).
Definition lex_quoted (c : str) : Prop := cls notquote c.

Definition lex_interval (w : str) : Prop := In w [kw_daily; kw_weekly; kw_monthly; kw_quarterly].

Definition wsl (w : str) : Prop := cls is_whitespace w.

(* r starts with a separator or is empty *)
Definition sepr (r : str) : Prop := fr r = eof \/ In (fr r) seps.

Lemma fr_cls_app p x r : cls p x -> x <> [] -> fr (x ++ r) = fr x.
Proof using.
  intros Hx Hne. destruct Hx as [|c b x Hc Hp Hx]; [congruence|].
  rewrite <- app_assoc, (fr_chunk dec c b _ Hc). symmetry. apply (fr_chunk dec c b x Hc).
Qed.

Lemma digs_runs k x : digs k x -> runs dec x.
Proof using. induction 1; [constructor|econstructor; eauto]. Qed.

Lemma digs_first k x r : digs (S k) x -> fr (x ++ r) = fr x /\ digit (fr x) = true /\ fr x <> eof.
Proof using Hdec.
  intros H. inversion H as [|k' c b x' Hc Hd Hx]. subst.
  rewrite <- app_assoc, !(fr_chunk dec c b _ Hc). split; [reflexivity|]. split; [assumption|].
  eapply chunk_not_eof; eauto.
Qed.

Lemma lex_date_first w r : lex_date w -> fr (w ++ r) = fr w /\ digit (fr w) = true /\ fr w <> eof.
Proof using Hdec.
  intros (y & m & d & -> & Hy & _). rewrite <- app_assoc.
  destruct (digs_first 3 y (45 :: m ++ 45 :: d) Hy) as (H1 & H2 & H3).
  destruct (digs_first 3 y ((45 :: m ++ 45 :: d) ++ r) Hy) as (H4 & _).
  rewrite H1, H4. auto.
Qed.

Lemma sepr_nil : sepr [].
Proof using. left. reflexivity. Qed.

Lemma sepr_cons b r : In b seps -> sepr (b :: r).
Proof using Hdec.
  intros Hb. right. rewrite (fr_ascii dec Hdec b r); [exact Hb|].
  unfold seps in Hb. cbn [In] in Hb. lia.
Qed.

Lemma wsl_first W r : wsl W -> W <> [] -> In (fr (W ++ r)) [32; 9; 13].
Proof using Hdec.
  intros HW Hne. destruct (cls_first dec Hdec _ W r HW Hne) as (_ & H).
  unfold is_whitespace in H. cbn [In]. lia.
Qed.

Lemma wsl_app_first W r : wsl W -> (W = [] /\ fr (W ++ r) = fr r) \/ (W <> [] /\ In (fr (W ++ r)) [32; 9; 13]).
Proof using Hdec.
  intros HW. destruct W as [|b W']; [now left|right]. split; [discriminate|]. apply wsl_first; [exact HW|discriminate].
Qed.

Lemma sepr_wsl W r : wsl W -> sepr r -> sepr (W ++ r).
Proof using Hdec.
  intros HW Hr. destruct (wsl_app_first W r HW) as [(-> & _)|(_ & H)]; [exact Hr|].
  right. unfold seps. cbn [In] in *. lia.
Qed.

Section ClassOk.
Hypothesis Hcls : class_ok letter digit.

Lemma sep_class c : In c seps -> letter c = false /\ digit c = false.
Proof using Hcls. intros H. apply (co_sep _ _ Hcls). unfold seps in H. cbn [In] in *. lia. Qed.

Lemma sepr_stops_alnum r : sepr r -> stops dec alnum r.
Proof using Hcls.
  unfold stops, alnum. intros [->|H]; [now rewrite andb_false_r|].
  destruct (sep_class _ H) as (-> & ->). reflexivity.
Qed.

Lemma sepr_stops_digit r : sepr r -> stops dec digit r.
Proof using Hcls.
  unfold stops. intros [->|H]; [now rewrite andb_false_r|].
  destruct (sep_class _ H) as (_ & ->). reflexivity.
Qed.

Lemma sepr_stops_letter r : sepr r -> stops dec letter r.
Proof using Hcls.
  unfold stops. intros [->|H]; [now rewrite andb_false_r|].
  destruct (sep_class _ H) as (-> & _). reflexivity.
Qed.

Lemma sepr_not r c : sepr r -> ~ In c seps -> c <> eof -> fr r <> c.
Proof using. intros [->|H] Hn Hc; congruence. Qed.

Lemma alnum_not_sep c : alnum c = true -> ~ In c [9; 10; 13; 32; 35; 41; 42; 44; 47].
Proof using Hcls.
  intros Ha Hin. destruct (co_sep _ _ Hcls c Hin) as (H1 & H2). unfold alnum in Ha. rewrite H1, H2 in Ha. discriminate.
Qed.

End ClassOk.

End Lex.

Lemma bind_ok {A B} (m : M A) (f : A -> M B) s a s1 b s2 :
  m s = Ok a s1 -> f a s1 = Ok b s2 -> bind m f s = Ok b s2.
Proof. intros H1 H2. unfold bind. now rewrite H1. Qed.

Lemma annot_ok {A} sc (m : M A) s a s' : m s = Ok a s' -> annot sc m s = Ok a s'.
Proof. intros H. unfold annot. now rewrite H. Qed.

Lemma ifM_true {A} (c : state -> bool) (a b : M A) s r : c s = true -> a s = r -> ifM c a b s = r.
Proof. intros H1 H2. unfold ifM. now rewrite H1. Qed.

Lemma ifM_false {A} (c : state -> bool) (a b : M A) s r : c s = false -> b s = r -> ifM c a b s = r.
Proof. intros H1 H2. unfold ifM. now rewrite H1. Qed.

Ltac run H := eapply bind_ok; [exact H|cbv beta].

Section Post.
Variable E : env.
Notation VInv := (VInv E).

Definition ipost {A} (Q : A -> state -> Prop) (o : Z) (r : res A) : Prop :=
  match r with
  | Ok a s' => VInv s' /\ o <= off s' /\ Q a s'
  | _ => True
  end.

Lemma ipost_bind {A B} (m : M A) (f : A -> M B) s o (Q1 : A -> state -> Prop) (Q : B -> state -> Prop) :
  ipost Q1 (off s) (m s) -> o <= off s ->
  (forall a s1, VInv s1 -> off s <= off s1 -> Q1 a s1 -> ipost Q o (f a s1)) ->
  ipost Q o (bind m f s).
Proof using.
  intros Hm Ho Hf. unfold bind. destruct (m s) as [a s1|e s1|]; cbn [ipost] in *; auto.
  destruct Hm as (HV & Hle & Hq). specialize (Hf a s1 HV Hle Hq).
  destruct (f a s1) as [b s2|e s2|]; cbn [ipost] in *; auto.
Qed.

Lemma ipost_annot {A} sc (m : M A) s o (Q : A -> state -> Prop) :
  ipost Q o (m s) -> ipost Q o (annot sc m s).
Proof using. intros Hm. unfold annot. destruct (m s); cbn [ipost] in *; auto. Qed.

Lemma ipost_ret {A} (a : A) s o (Q : A -> state -> Prop) :
  VInv s -> o <= off s -> Q a s -> ipost Q o (ret a s).
Proof using. intros. unfold ret. cbn [ipost]. auto. Qed.

Lemma ipost_ok {A} (a : A) s o (Q : A -> state -> Prop) :
  VInv s -> o <= off s -> Q a s -> ipost Q o (Ok a s).
Proof using. intros. cbn [ipost]. auto. Qed.

Lemma ipost_ret_with {A} sc (f : range -> A) s o (Q : A -> state -> Prop) :
  VInv s -> o <= off s -> Q (f (mkRange (sc_start sc) (off s))) s -> ipost Q o (ret_with sc f s).
Proof using. intros. unfold ret_with, scope_range. cbn [ipost]. auto. Qed.

Lemma ipost_weaken {A} (Q Q' : A -> state -> Prop) o o' r :
  ipost Q o r -> o' <= o -> (forall a s', VInv s' -> o <= off s' -> Q a s' -> Q' a s') -> ipost Q' o' r.
Proof using.
  intros H Ho HQ. destruct r as [a s'|e s'|]; cbn [ipost] in *; auto.
  destruct H as (HV & Hle & Hq). split; [assumption|]. split; [lia|auto].
Qed.

Lemma ipost_replace_err {A} (m : M A) s o (Q : A -> state -> Prop) :
  ipost Q o (m s) -> ipost Q o (replace_err m s).
Proof using. intros H. unfold replace_err. destruct (m s); cbn [ipost] in *; auto. Qed.

End Post.

(* one step of a monadic parser function: the post-condition L of its first action, then the
   rest from the state s1 that action left *)
Tactic Notation "istep" uconstr(L) "as" simple_intropattern(xpat) ident(s1) ident(HV) ident(Hle) simple_intropattern(HQ) :=
  eapply ipost_bind; [ eapply L; eauto | lia | intros xpat s1 HV Hle; cbv beta; intros HQ ].

Section WithEnv.
Variable E : env.
Hypothesis Hlen : e_len E = Z.of_nat (length (e_text E)).
Hypothesis Hfuel : (length (e_text E) < e_fuel E)%nat.
Hypothesis Hdec : decoder_ok (e_decode E).
Hypothesis Hloc : decoder_local (e_decode E).

Notation t := (e_text E).
Notation len := (e_len E).
Notation dec := (e_decode E).
Notation letter := (e_letter E).
Notation digit := (e_digit E).
Notation chunk := (chunk dec).
Notation runs := (runs dec).
Notation cls := (cls dec).
Notation fr := (fr dec).
Notation At := (At E).
Notation VInv := (VInv E).
Notation Win := (Win).
Notation ipost := (@ipost E _).
Notation stops := (stops dec).
Notation sepr := (sepr dec).
Notation alnum := (alnum letter digit).
Notation lex_commodity := (lex_commodity dec letter digit).
Notation lex_decimal := (lex_decimal dec digit).
Notation lex_account := (lex_account dec letter digit).
Notation lex_date := (lex_date dec digit).
Notation lex_quoted := (lex_quoted dec).
Notation digs := (digs dec digit).
Notation wsl := (wsl dec).
Notation seg_ok := (seg_ok dec letter digit).

Local Notation At_cur := (RoundTripBase.At_cur E Hlen Hfuel Hdec Hloc).
Local Notation At_off := (RoundTripBase.At_off E Hlen Hfuel Hdec Hloc).
Local Notation At_slice := (RoundTripBase.At_slice E Hlen Hfuel Hdec Hloc).
Local Notation win_slice := (RoundTripBase.win_slice E Hlen Hfuel Hdec Hloc).
Local Notation win_off := (RoundTripBase.win_off E Hlen Hfuel Hdec Hloc).
Local Notation vinv_cur_fr := (RoundTripBase.vinv_cur_fr E Hlen Hfuel Hdec Hloc).
Local Notation rw_cons := (RoundTripBase.read_while_cons E Hlen Hfuel Hdec Hloc).
Local Notation rw1_cons := (RoundTripBase.read_while1_cons E Hlen Hfuel Hdec Hloc).
Local Notation rc_cons := (RoundTripBase.read_character_cons E Hlen Hfuel Hdec Hloc).
Local Notation rcw_cons := (RoundTripBase.read_character_with_cons E Hlen Hfuel Hdec Hloc).
Local Notation rs_cons := (RoundTripBase.read_string_cons E Hlen Hfuel Hdec Hloc).
Local Notation ra_cons := (RoundTripBase.read_alternative_cons E Hlen Hfuel Hdec Hloc).

Lemma ipost_elim {A} (Q : A -> state -> Prop) o m a s' :
  ipost Q o m -> m = Ok a s' -> VInv s' /\ o <= off s' /\ Q a s'.
Proof using All. intros H ->. exact H. Qed.

Lemma i_rw p s : VInv s ->
  ipost (fun rg s' => rg = mkRange (off s) (off s') /\
           exists x, cls p x /\ Win s x s' /\ p (cur s') && negb (cur s' =? eof) = false)
        (off s) (read_while E p s).
Proof using All.
  intros HV. destruct (read_while E p s) as [rg s'|e s'|] eqn:H; cbn [ipost]; auto.
  destruct (inv_read_while E Hlen Hfuel Hdec Hloc p s rg s' HV H) as (HV' & Hrg & Hle & x & Hx & Hw & _ & Hst).
  split; [assumption|]. split; [assumption|]. split; [assumption|]. eauto.
Qed.

Lemma i_rw1 p s : VInv s ->
  ipost (fun rg s' => rg = mkRange (off s) (off s') /\ off s < off s' /\ (cur s <> eof /\ p (cur s) = true) /\
           exists x, cls p x /\ x <> [] /\ Win s x s' /\ p (cur s') && negb (cur s' =? eof) = false)
        (off s) (read_while1 E p s).
Proof using All.
  intros HV. destruct (read_while1 E p s) as [rg s'|e s'|] eqn:H; cbn [ipost]; auto.
  destruct (inv_read_while1 E Hlen Hfuel Hdec Hloc p s rg s' HV H) as (HV' & Hrg & Hlt & x & Hx & Hne & Hw & Hst).
  split; [assumption|]. split; [lia|]. split; [assumption|]. split; [assumption|]. split; [|exists x; auto].
  unfold read_while1 in H. destruct (Z.eqb_spec (cur s) eof); [discriminate|].
  destruct (p (cur s)); [auto|discriminate].
Qed.

Lemma i_rcw p s : VInv s ->
  ipost (fun rg s' => off s < off s' /\ (cur s <> eof /\ p (cur s) = true) /\ exists b, chunk (cur s) b /\ Win s b s')
        (off s) (read_character_with E p s).
Proof using All.
  intros HV. destruct (read_character_with E p s) as [rg s'|e s'|] eqn:H; cbn [ipost]; auto.
  destruct (inv_read_character_with E Hlen Hfuel Hdec Hloc p s rg s' HV H) as (HV' & Hrg & Hlt & Hp & b & Hb & Hw).
  split; [assumption|]. split; [lia|]. split; [assumption|]. split; [|eauto].
  split; [eapply chunk_not_eof; eauto|assumption].
Qed.

Lemma i_rc c s : VInv s -> 0 <= c < 128 ->
  ipost (fun rg s' => off s' = off s + 1 /\ cur s = c /\ Win s [c] s') (off s) (read_character E c s).
Proof using All.
  intros HV Hc. destruct (read_character E c s) as [rg s'|e s'|] eqn:H; cbn [ipost]; auto.
  destruct (inv_read_character E Hlen Hfuel Hdec Hloc c s rg s' HV Hc H) as (HV' & Hrg & Ho & Hcur & Hw).
  split; [assumption|]. split; [lia|]. auto.
Qed.

Lemma i_rs str s : VInv s -> Forall ascii str ->
  ipost (fun rg s' => Win s str s') (off s) (read_string E str s).
Proof using All.
  intros HV Hs. destruct (read_string E str s) as [rg s'|e s'|] eqn:H; cbn [ipost]; auto.
  destruct (inv_read_string E Hlen Hfuel Hdec Hloc str s rg s' Hs HV H) as (HV' & Hrg & Hw).
  pose proof (win_off s str s' (proj1 HV) (proj1 HV') Hw). pose proof (zlen_nonneg str).
  split; [assumption|]. split; [lia|assumption].
Qed.

Lemma i_ra ss s : VInv s -> Forall (Forall ascii) ss ->
  ipost (fun rg s' => rg = mkRange (off s) (off s') /\ exists kw, In kw ss /\ Win s kw s')
        (off s) (read_alternative E ss s).
Proof using All.
  intros HV Hs. destruct (read_alternative E ss s) as [rg s'|e s'|] eqn:H; cbn [ipost]; auto.
  destruct (inv_read_alternative E Hlen Hfuel Hdec Hloc ss s rg s' Hs HV H) as (HV' & Hrg & kw & Hin & Hw).
  pose proof (win_off s kw s' (proj1 HV) (proj1 HV') Hw). pose proof (zlen_nonneg kw).
  split; [assumption|]. split; [lia|]. split; [assumption|]. eauto.
Qed.

(* a leaf: its range is [entry, exit) and the bytes are in the class P *)
Definition leafQ (P : str -> Prop) (s : state) (rg : range) (s' : state) : Prop :=
  rg = mkRange (off s) (off s') /\ off s < off s' /\ P (slice t (off s) (off s')).

Lemma cur_win_ascii s k x s' : VInv s -> Win s (k :: x) s' -> 0 <= k < 128 -> cur s = k.
Proof using All.
  intros HV Hw Hk. rewrite (vinv_cur_fr s HV). unfold RoundTripBase.Win in Hw. rewrite Hw. cbn [app].
  now apply fr_ascii.
Qed.

Lemma cur_win_nil s s' : VInv s -> VInv s' -> Win s [] s' -> cur s' = cur s.
Proof using All.
  intros HV HV' Hw. rewrite (vinv_cur_fr s HV), (vinv_cur_fr s' HV'). unfold RoundTripBase.Win in Hw.
  cbn [app] in Hw. now rewrite Hw.
Qed.

(* readWhitespace1: blanks, and if there are none the next rune is a newline or the end *)
Definition ws1Q (s s' : state) : Prop :=
  exists W, wsl W /\ Win s W s' /\ (W = [] -> cur s' = 10 \/ cur s' = eof).

Lemma i_ws1 s : VInv s -> ipost (fun _ s' => ws1Q s s') (off s) (read_whitespace1 E s).
Proof using All.
  intros HV. unfold read_whitespace1.
  destruct (negb (is_whitespace_or_newline (cur s)) && negb (cur s =? eof)) eqn:Hg; [exact I|].
  eapply ipost_weaken; [apply i_rw; assumption|lia|].
  intros rg s' HV' _ (_ & x & Hx & Hw & Hst). exists x. split; [exact Hx|].
  split; [exact Hw|]. intros ->. pose proof (cur_win_nil s s' HV HV' Hw) as Hc. rewrite Hc in *.
  unfold is_whitespace_or_newline, is_newline, is_whitespace, eof in *. lia.
Qed.

Lemma ws1_cons W s r : At s (W ++ r) -> wsl W -> stops is_whitespace r ->
  (W <> [] \/ fr r = 10 \/ fr r = eof) ->
  exists s', read_whitespace1 E s = Ok (mkRange (off s) (off s')) s' /\ At s' r.
Proof using All.
  intros HA HW Hst Hc. unfold read_whitespace1.
  assert (Hg : negb (is_whitespace_or_newline (cur s)) && negb (cur s =? eof) = false).
  { rewrite (At_cur s _ HA). unfold is_whitespace_or_newline, is_whitespace, is_newline.
    destruct (wsl_app_first dec Hdec W r HW) as [(Hn & ->)|(_ & Hin)]; [|cbn [In] in Hin; lia].
    destruct Hc as [Hc|Hc]; [contradiction|lia]. }
  rewrite Hg. now apply (rw_cons is_whitespace W).
Qed.

Lemma stops_ws_not r : ~ In (fr r) [32; 9; 13] -> stops is_whitespace r.
Proof using.
  intros H. unfold stops, is_whitespace. cbn [In] in H.
  destruct (Z.eqb_spec (fr r) 32) as [e|_]; [exfalso; apply H; rewrite e; auto|].
  destruct (Z.eqb_spec (fr r) 9) as [e|_]; [exfalso; apply H; rewrite e; auto|].
  destruct (Z.eqb_spec (fr r) 13) as [e|_]; [exfalso; apply H; rewrite e; auto|]. reflexivity.
Qed.

Lemma wsl_sp : wsl [32].
Proof using All. apply cls_ascii; [assumption|]. repeat constructor; lia. Qed.

Lemma wsl_spaces n : wsl (repeat 32 n).
Proof using All.
  apply cls_ascii; [assumption|]. induction n; cbn [repeat]; constructor; auto. split; [lia|reflexivity].
Qed.

(* what readRestOfWhitespaceLine consumes *)
Definition rest_of_line (s s' : state) : Prop :=
  exists W, wsl W /\ ((Win s (W ++ [10]) s') \/ (Win s W s' /\ cur s' = eof)).

Lemma i_rest s : VInv s -> ipost (fun _ s' => rest_of_line s s') (off s) (read_rest_of_whitespace_line E s).
Proof using All.
  intros HV. unfold read_rest_of_whitespace_line. apply ipost_annot.
  istep i_rw as ? s1 HV1 L1 (_ & W & HW & Hw & _).
  unfold ifM, cur_is. destruct (Z.eqb_spec (cur s1) eof) as [Hc|Hc].
  - apply ipost_ret_with; [assumption|lia|]. exists W. split; [assumption|]. right. auto.
  - istep i_rc as ? s2 HV2 L2 (_ & _ & Hw2). { lia. }
    apply ipost_ret_with; [assumption|lia|]. exists W. split; [assumption|]. left.
    eapply win_trans; eauto.
Qed.

Lemma rest_nl_cons W s r : At s (W ++ 10 :: r) -> wsl W ->
  exists rg s', read_rest_of_whitespace_line E s = Ok rg s' /\ At s' r.
Proof using All.
  intros HA HW. unfold read_rest_of_whitespace_line. cbv zeta.
  destruct (rw_cons is_whitespace W s (10 :: r) HA HW) as (s1 & H1 & A1).
  { apply stops_ws_not. rewrite (fr_ascii dec Hdec 10 r) by lia. cbn [In]. lia. }
  destruct (rc_cons 10 s1 r A1) as (s2 & H2 & A2). { lia. }
  eexists _, s2. split; [|exact A2]. apply annot_ok. run H1.
  apply ifM_false. { unfold cur_is. rewrite (At_cur s1 _ A1), (fr_ascii dec Hdec 10 r) by lia. reflexivity. }
  run H2. reflexivity.
Qed.

Lemma rest_eof_cons W s : At s W -> wsl W ->
  exists rg s', read_rest_of_whitespace_line E s = Ok rg s' /\ At s' [].
Proof using All.
  intros HA HW. unfold read_rest_of_whitespace_line. cbv zeta.
  rewrite <- (app_nil_r W) in HA.
  destruct (rw_cons is_whitespace W s [] HA HW) as (s1 & H1 & A1).
  { unfold RoundTripBase.stops. cbn [RoundTripBase.fr]. now rewrite andb_false_r. }
  eexists _, s1. split; [|exact A1]. apply annot_ok. run H1.
  apply ifM_true. { unfold cur_is. now rewrite (At_cur s1 _ A1). }
  reflexivity.
Qed.

Definition notnl (r : Z) : bool := negb (is_newline_or_eof r).

Definition markers : list str := [kw_star; kw_slashes; kw_hash].

Lemma markers_ascii : Forall (Forall ascii) markers.
Proof using. now apply asciis_b_ok. Qed.

Lemma marker_first m r : In m markers -> 1 <= zlen m /\ In (fr (m ++ r)) [42; 47; 35].
Proof using All.
  unfold markers. cbn [In]. intros [<-|[<-|[<-|[]]]]; (split; [vm_compute; discriminate|]);
    unfold kw_star, kw_slashes, kw_hash; cbn [app]; rewrite (fr_ascii dec Hdec) by lia; auto.
Qed.

Lemma i_comment s : VInv s ->
  ipost (fun _ s' => exists m body, In m markers /\ cls notnl body /\ Win s (m ++ body) s' /\
                     (cur s' = 10 \/ cur s' = eof))
        (off s) (read_comment E s).
Proof using All.
  intros HV. unfold read_comment. apply ipost_annot.
  istep i_ra as rg s1 HV1 L1 (_ & m & Hm & Hw1). { apply markers_ascii. }
  istep i_rw as ? s2 HV2 L2 (_ & body & Hb & Hw2 & Hst).
  apply ipost_ret_with; [assumption|lia|]. exists m, body. split; [assumption|]. split; [assumption|].
  split; [eapply win_trans; eauto|]. unfold is_newline_or_eof in Hst. lia.
Qed.

Lemma comment_cons m body s r : At s (m ++ body ++ r) -> In m markers -> cls notnl body ->
  (fr r = 10 \/ fr r = eof) ->
  exists rg s', read_comment E s = Ok rg s' /\ At s' r.
Proof using All.
  intros HA Hm Hb Hr. unfold read_comment. cbv zeta.
  destruct (ra_cons markers m s (body ++ r) eq_refl Hm HA) as (s1 & H1 & A1).
  destruct (rw_cons notnl body s1 r A1 Hb) as (s2 & H2 & A2).
  { unfold RoundTripBase.stops, notnl, is_newline_or_eof. lia. }
  eexists _, s2. split; [|exact A2]. apply annot_ok. run H1. run H2. reflexivity.
Qed.

Lemma i_commodity s : VInv s ->
  ipost (fun rg s' => leafQ lex_commodity s rg s' /\ cur s <> eof /\ alnum (cur s) = true)
        (off s) (parse_commodity E s).
Proof using All.
  intros HV. unfold parse_commodity. apply ipost_annot.
  istep i_rw1 as rg s1 HV1 L1 (_ & Hlt & Hst & x & Hx & Hne & Hw & _).
  apply ipost_ret_with; [assumption|lia|]. prj. split; [|exact Hst]. split; [reflexivity|]. split; [assumption|].
  rewrite (win_slice s x s1 (proj1 HV) (proj1 HV1) Hw). split; assumption.
Qed.

Lemma commodity_cons w s r : At s (w ++ r) -> lex_commodity w -> stops alnum r ->
  exists s', parse_commodity E s = Ok (mkRange (off s) (off s')) s' /\ At s' r.
Proof using All.
  intros HA (Hw & Hne) Hst. unfold parse_commodity. cbv zeta.
  destruct (rw1_cons alnum w s r HA Hw Hne Hst) as (s1 & H1 & A1).
  exists s1. split; [|exact A1]. apply annot_ok. run H1. reflexivity.
Qed.

Lemma i_decimal s : VInv s ->
  ipost (fun rg s' => leafQ lex_decimal s rg s' /\ cur s <> eof /\ (cur s = 45 \/ digit (cur s) = true))
        (off s) (parse_decimal E s).
Proof using All.
  intros HV. unfold parse_decimal. apply ipost_annot.
  eapply ipost_bind with (Q1 := fun _ s1 => exists sg, Win s sg s1 /\
      ((sg = [45] /\ cur s = 45) \/ (sg = [] /\ cur s <> 45 /\ s1 = s))); [|lia|].
  { unfold ifM, cur_is. destruct (Z.eqb_spec (cur s) 45) as [H45|H45].
    - istep i_rc as ? s1 HV1 L1 (_ & _ & Hw). { lia. }
      apply ipost_ret; [assumption|lia|]. exists [45]. auto.
    - apply ipost_ret; [assumption|lia|]. exists []. split; [apply win_nil|auto]. }
  intros _ s1 HV1 L1 (sg & Hwsg & Hsg).
  istep i_rw1 as rg s2 HV2 L2 (_ & Hlt & Hd1 & ip & Hip & Hipne & Hwip & Hst).
  assert (Hstart : cur s <> eof /\ (cur s = 45 \/ digit (cur s) = true)).
  { destruct Hsg as [(_ & H45)|(_ & _ & Hs)]; [split; [unfold eof; lia|now left]|].
    rewrite Hs in Hd1. destruct Hd1. auto. }
  assert (Hsg' : sg = [45] \/ (sg = [] /\ fr ip <> 45)).
  { destruct Hsg as [(? & _)|(-> & Hc & _)]; [now left|right]. split; [reflexivity|].
    rewrite (vinv_cur_fr s HV) in Hc. unfold RoundTripBase.Win in Hwsg, Hwip. cbn [app] in Hwsg.
    rewrite Hwsg, Hwip, (fr_cls_app dec _ ip _ Hip Hipne) in Hc. exact Hc. }
  clear Hsg Hd1.
  unfold ifM. destruct (Z.eqb_spec (cur s2) 46) as [H46|H46]; cbn [negb].
  - istep i_rc as ? s3 HV3 L3 (_ & _ & Hw3). { lia. }
    istep i_rw1 as rg4 s4 HV4 L4 (_ & Hlt4 & _ & f & Hf & Hfne & Hwf & _).
    apply ipost_ret_with; [assumption|lia|]. prj. split; [|exact Hstart]. split; [reflexivity|]. split; [lia|].
    pose proof (win_trans _ _ _ _ _ Hwsg (win_trans _ _ _ _ _ Hwip (win_trans _ _ _ _ _ Hw3 Hwf))) as Hw.
    rewrite (win_slice s _ s4 (proj1 HV) (proj1 HV4) Hw).
    exists sg, ip, (46 :: f). split; [reflexivity|]. split; [assumption|]. split; [assumption|].
    split; [assumption|]. right. split; [|exists f; auto].
    rewrite H46 in Hst. unfold eof in Hst. lia.
  - apply ipost_ret_with; [assumption|lia|]. prj. split; [|exact Hstart]. split; [reflexivity|]. split; [lia|].
    pose proof (win_trans _ _ _ _ _ Hwsg Hwip) as Hw.
    rewrite (win_slice s _ s2 (proj1 HV) (proj1 HV2) Hw).
    exists sg, ip, []. rewrite app_nil_r. split; [reflexivity|]. auto.
Qed.

Lemma decimal_cons w s r : At s (w ++ r) -> lex_decimal w -> stops digit r -> fr r <> 46 ->
  exists s', parse_decimal E s = Ok (mkRange (off s) (off s')) s' /\ At s' r.
Proof using All.
  intros HA (sg & ip & fp & -> & Hsg & Hip & Hipne & Hfp) Hst H46.
  rewrite <- !app_assoc in HA.
  assert (H1 : exists s1, ifM (cur_is 45) (do _ <- read_character E 45; ret tt) (ret tt) s = Ok tt s1 /\
                          At s1 (ip ++ fp ++ r) /\ off s <= off s1).
  { destruct Hsg as [->|(-> & Hn)].
    - cbn [app] in HA. destruct (rc_cons 45 s _ HA) as (s1 & H1 & A1). { lia. }
      exists s1. split; [|split; [exact A1|]].
      + apply ifM_true. { unfold cur_is. rewrite (At_cur s _ HA), (fr_ascii dec Hdec 45 _) by lia. reflexivity. }
        run H1. reflexivity.
      + change (45 :: ip ++ fp ++ r) with ([45] ++ ip ++ fp ++ r) in HA.
        rewrite (At_off s [45] _ s1 HA A1). rewrite zlen_cons, zlen_nil. lia.
    - cbn [app] in HA. exists s. split; [|split; [exact HA|lia]].
      apply ifM_false; [|reflexivity]. unfold cur_is.
      rewrite (At_cur s _ HA), (fr_cls_app dec _ ip _ Hip Hipne). now apply Z.eqb_neq. }
  destruct H1 as (s1 & H1 & A1 & L1).
  assert (Hst2 : stops digit (fp ++ r)).
  { destruct Hfp as [->|(Hd & f & -> & _)]; [exact Hst|].
    unfold RoundTripBase.stops. cbn [app]. rewrite (fr_ascii dec Hdec 46 _) by lia. now rewrite Hd. }
  destruct (rw1_cons digit ip s1 _ A1 Hip Hipne Hst2) as (s2 & H2 & A2).
  assert (H3 : exists s', ifM (fun s1 => negb (cur s1 =? 46))
                 (ret_with (new_scope DDec s) (fun r => r))
                 (do _ <- read_character E 46; do _ <- read_while1 E digit; ret_with (new_scope DDec s) (fun r => r)) s2
               = Ok (mkRange (off s) (off s')) s' /\ At s' r).
  { destruct Hfp as [->|(Hd & f & -> & Hf & Hfne)].
    - exists s2. split; [|exact A2]. apply ifM_true; [|reflexivity].
      cbn [app] in A2. rewrite (At_cur s2 _ A2). apply negb_true_iff. now apply Z.eqb_neq.
    - cbn [app] in A2. destruct (rc_cons 46 s2 _ A2) as (s3 & H3 & A3). { lia. }
      destruct (rw1_cons digit f s3 r A3 Hf Hfne Hst) as (s4 & H4 & A4).
      exists s4. split; [|exact A4]. apply ifM_false.
      { rewrite (At_cur s2 _ A2), (fr_ascii dec Hdec 46 _) by lia. reflexivity. }
      run H3. run H4. reflexivity. }
  destruct H3 as (s' & H3 & A').
  exists s'. split; [|exact A']. unfold parse_decimal. cbv zeta. apply annot_ok.
  run H1. run H2. exact H3.
Qed.

Lemma i_account_loop sc : forall n s, VInv s ->
  ipost (fun a s' => a = mkAccount (mkRange (sc_start sc) (off s')) false /\
           exists segs, Win s (concat (map (cons 58) segs)) s' /\ Forall seg_ok segs /\
                        (segs <> [] -> cur s = 58))
        (off s) (account_loop E sc n s).
Proof using All.
  induction n as [|n IH]; intros s HV; cbn [account_loop]; [exact I|].
  unfold ifM. destruct (Z.eqb_spec (cur s) 58) as [H58|H58]; cbn [negb].
  - istep i_rc as ? s1 HV1 L1 (_ & _ & Hw1). { lia. }
    istep i_rw1 as rg s2 HV2 L2 (_ & Hlt & _ & x & Hx & Hne & Hw2 & _).
    eapply ipost_weaken; [apply (IH s2 HV2)|lia|].
    intros acc s' _ _ (Ha & segs & Hw & Hsegs & _). split; [assumption|].
    exists (x :: segs). split; [|split; [constructor; [split|]; assumption|auto]].
    cbn [map concat]. change (58 :: x) with ([58] ++ x). rewrite <- app_assoc.
    eapply win_trans; [exact Hw1|]. eapply win_trans; eauto.
  - apply ipost_ret_with; [assumption|lia|]. split; [reflexivity|].
    exists []. split; [apply win_nil|]. split; [constructor|congruence].
Qed.

Definition accQ (s : state) (a : account) (s' : state) : Prop :=
  acc_range a = mkRange (off s) (off s') /\ off s < off s' /\
  lex_account (slice t (off s) (off s')) (acc_macro a).

(* an account starts with `$` or an alphanumeric rune *)
Definition tok_start (s : state) : Prop := cur s <> eof /\ (cur s = 36 \/ alnum (cur s) = true).

Lemma i_account s : VInv s -> ipost (fun a s' => accQ s a s' /\ tok_start s) (off s) (parse_account E s).
Proof using All.
  intros HV. unfold parse_account. apply ipost_annot.
  unfold ifM, cur_is. destruct (Z.eqb_spec (cur s) 36) as [H36|H36].
  - istep i_rc as ? s1 HV1 L1 (_ & _ & Hw1). { lia. }
    istep i_rw1 as rg s2 HV2 L2 (_ & Hlt & _ & l & Hl & Hne & Hw2 & _).
    apply ipost_ret_with; [assumption|lia|]. split; [|split; [unfold eof; lia|now left]].
    unfold accQ. prj. split; [reflexivity|]. split; [lia|].
    pose proof (win_trans _ _ _ _ _ Hw1 Hw2) as Hw.
    rewrite (win_slice s _ s2 (proj1 HV) (proj1 HV2) Hw). exists l. auto.
  - istep i_rw1 as rg s1 HV1 L1 (_ & Hlt & (He & Ha) & seg & Hseg & Hne & Hw1 & Hst).
    eapply ipost_weaken; [apply (i_account_loop _ (loop_fuel E) s1 HV1)|lia|].
    intros acc s' HV' L' (-> & segs & Hw2 & Hsegs & H58). split; [|split; [exact He|now right]].
    unfold accQ. prj. split; [reflexivity|]. split; [lia|].
    pose proof (win_trans _ _ _ _ _ Hw1 Hw2) as Hw.
    rewrite (win_slice s _ s' (proj1 HV) (proj1 HV') Hw). split.
    + rewrite (vinv_cur_fr s HV) in H36. unfold RoundTripBase.Win in Hw. rewrite Hw in H36.
      rewrite <- app_assoc, (fr_cls_app dec _ seg _ Hseg Hne) in H36.
      rewrite (fr_cls_app dec _ seg _ Hseg Hne). exact H36.
    + exists seg, segs. split; [reflexivity|]. split; [split; assumption|]. split; [assumption|].
      intros Hn. specialize (H58 Hn). rewrite H58 in Hst.
      unfold eof, is_alphanumeric in Hst. unfold RoundTripLeaf.alnum. lia.
Qed.

(* ':' ends a segment when it is not alphanumeric *)
Lemma stops_segs segs r : stops alnum r -> (segs <> [] -> alnum 58 = false) ->
  stops alnum (concat (map (cons 58) segs) ++ r).
Proof using All.
  intros Hst H58. destruct segs as [|y segs]; [exact Hst|]. cbn [map concat app].
  unfold RoundTripBase.stops. rewrite (fr_ascii dec Hdec 58 _) by lia.
  rewrite H58 by discriminate. reflexivity.
Qed.

Lemma account_loop_cons sc : forall segs n s r, Forall seg_ok segs -> (segs <> [] -> alnum 58 = false) ->
  At s (concat (map (cons 58) segs) ++ r) -> stops alnum r -> fr r <> 58 ->
  (length (concat (map (cons 58%Z) segs)) < n)%nat ->
  exists s', account_loop E sc n s = Ok (mkAccount (mkRange (sc_start sc) (off s')) false) s' /\ At s' r.
Proof using All.
  induction segs as [|x segs IH]; intros n s r Hs H58 HA Hst Hr Hn.
  - destruct n as [|n]; [cbn [length] in Hn; lia|]. cbn [map concat app account_loop] in *.
    exists s. split; [|exact HA]. apply ifM_true; [|reflexivity].
    rewrite (At_cur s _ HA). apply negb_true_iff. now apply Z.eqb_neq.
  - destruct n as [|n]; [lia|]. cbn [account_loop]. cbn [map concat] in HA, Hn.
    inversion Hs as [|? ? (Hx & Hxne) Hs']. subst.
    rewrite <- app_assoc in HA. cbn [app] in HA.
    destruct (rc_cons 58 s _ HA) as (s1 & H1 & A1). { lia. }
    destruct (rw1_cons alnum x s1 _ A1 Hx Hxne (stops_segs segs r Hst (fun _ => H58 ltac:(discriminate)))) as (s2 & H2 & A2).
    destruct (IH n s2 r Hs') as (s' & H3 & A'); try assumption.
    { intros Hne. apply H58. discriminate. }
    { rewrite app_length in Hn. cbn [length] in Hn. lia. }
    exists s'. split; [|exact A']. apply ifM_false.
    { rewrite (At_cur s _ HA), (fr_ascii dec Hdec 58 _) by lia. reflexivity. }
    run H1. run H2. exact H3.
Qed.

Lemma account_cons w macro s r : At s (w ++ r) -> lex_account w macro ->
  stops alnum r -> stops letter r -> fr r <> 58 ->
  exists s', parse_account E s = Ok (mkAccount (mkRange (off s) (off s')) macro) s' /\ At s' r.
Proof using All.
  intros HA Hlex Hsa Hsl H58. unfold parse_account. cbv zeta. destruct macro; cbn [RoundTripLeaf.lex_account] in Hlex.
  - destruct Hlex as (l & -> & Hl & Hne). cbn [app] in HA.
    destruct (rc_cons 36 s _ HA) as (s1 & H1 & A1). { lia. }
    destruct (rw1_cons letter l s1 r A1 Hl Hne Hsl) as (s2 & H2 & A2).
    exists s2. split; [|exact A2]. apply annot_ok. apply ifM_true.
    { unfold cur_is. rewrite (At_cur s _ HA), (fr_ascii dec Hdec 36 _) by lia. reflexivity. }
    run H1. run H2. reflexivity.
  - destruct Hlex as (H36 & seg & segs & -> & (Hseg & Hsegne) & Hsegs & Hc58).
    rewrite <- app_assoc in HA.
    destruct (rw1_cons alnum seg s _ HA Hseg Hsegne (stops_segs segs r Hsa Hc58)) as (s1 & H1 & A1).
    destruct (account_loop_cons (new_scope DAcc s) segs (loop_fuel E) s1 r Hsegs Hc58 A1 Hsa H58) as (s' & H2 & A').
    { exact (At_fuel E Hlen Hfuel Hdec Hloc s1 _ r A1). }
    exists s'. split; [|exact A']. apply annot_ok. apply ifM_false.
    { unfold cur_is. rewrite (At_cur s _ HA). apply Z.eqb_neq.
      rewrite (fr_cls_app dec _ seg _ Hseg Hsegne).
      rewrite (fr_cls_app dec _ seg _ Hseg Hsegne) in H36. exact H36. }
    run H1. exact H2.
Qed.

Lemma i_digs k : forall s, VInv s ->
  ipost (fun _ s' => exists x, digs k x /\ Win s x s' /\
                     ((0 < k)%nat -> off s < off s' /\ cur s <> eof /\ digit (cur s) = true))
        (off s) (repeat_m k (read_character_with E digit) s).
Proof using All.
  induction k as [|k IH]; intros s HV; cbn [repeat_m].
  - apply ipost_ret; [assumption|lia|]. exists []. split; [constructor|]. split; [apply win_nil|lia].
  - istep i_rcw as ? s1 HV1 L1 (Hlt & (He & Hp) & b & Hb & Hw1).
    eapply ipost_weaken; [apply (IH s1 HV1)|lia|].
    intros _ s' _ L' (x & Hx & Hw & _). exists (b ++ x). split; [econstructor; eauto|].
    split; [eapply win_trans; eauto|]. intros _. split; [lia|]. split; assumption.
Qed.

Lemma digs_cons k : forall x s r, digs k x -> At s (x ++ r) ->
  exists s', repeat_m k (read_character_with E digit) s = Ok tt s' /\ At s' r.
Proof using All.
  induction k as [|k IH]; intros x s r Hx HA; inversion Hx as [|k' c b x' Hc Hd Hx']; subst; cbn [repeat_m].
  - exists s. split; [reflexivity|exact HA].
  - rewrite <- app_assoc in HA.
    destruct (rcw_cons digit s c b _ HA Hc Hd) as (s1 & H1 & A1).
    destruct (IH x' s1 r Hx' A1) as (s' & H2 & A'). exists s'. split; [|exact A']. run H1. exact H2.
Qed.

Lemma i_dash2 s : VInv s ->
  ipost (fun _ s' => exists x, digs 2 x /\ Win s (45 :: x) s')
        (off s) ((do _ <- read_character E 45; repeat_m 2 (read_character_with E digit)) s).
Proof using All.
  intros HV.
  istep i_rc as ? s2 HV2 L2 (_ & _ & Hw2). { lia. }
  eapply ipost_weaken; [apply (i_digs 2 s2 HV2)|lia|].
  intros _ s' _ _ (x & Hx & Hw & _). exists x. split; [assumption|].
  change (45 :: x) with ([45] ++ x). eapply win_trans; eauto.
Qed.

Lemma dash2_cons x s r : digs 2 x -> At s (45 :: x ++ r) ->
  exists s', (do _ <- read_character E 45; repeat_m 2 (read_character_with E digit)) s = Ok tt s' /\ At s' r.
Proof using All.
  intros Hx HA.
  destruct (rc_cons 45 s _ HA) as (s2 & H2 & A2). { lia. }
  destruct (digs_cons 2 x s2 _ Hx A2) as (s3 & H3 & A3).
  exists s3. split; [|exact A3]. run H2. exact H3.
Qed.

Lemma i_date s : VInv s ->
  ipost (fun rg s' => leafQ lex_date s rg s' /\ cur s <> eof /\ digit (cur s) = true) (off s) (parse_date E s).
Proof using All.
  intros HV. unfold parse_date. apply ipost_annot.
  istep (i_digs 4) as ? s1 HV1 L1 (y & Hy & Hwy & Hlt).
  destruct (Hlt ltac:(lia)) as (Hlt1 & Hstart).
  change (repeat_m 2 (do _ <- read_character E 45; repeat_m 2 (read_character_with E digit)))
    with (do _ <- (do _ <- read_character E 45; repeat_m 2 (read_character_with E digit));
          do _ <- (do _ <- read_character E 45; repeat_m 2 (read_character_with E digit)); ret tt).
  eapply ipost_bind with (Q1 := fun _ s5 => exists m d, digs 2 m /\ digs 2 d /\ Win s1 (45 :: m ++ 45 :: d) s5); [|lia|].
  { istep i_dash2 as ? s3 HV3 L3 (m & Hm & Hwm).
    istep i_dash2 as ? s5 HV5 L5 (d & Hd & Hwd).
    apply ipost_ret; [assumption|lia|]. exists m, d. split; [assumption|]. split; [assumption|].
    change (45 :: m ++ 45 :: d) with ((45 :: m) ++ 45 :: d). eapply win_trans; eauto. }
  intros _ s5 HV5 L5 (m & d & Hm & Hd & Hw15).
  apply ipost_ret_with; [assumption|lia|]. prj. split; [|exact Hstart]. split; [reflexivity|]. split; [lia|].
  pose proof (win_trans _ _ _ _ _ Hwy Hw15) as Hw.
  rewrite (win_slice s _ s5 (proj1 HV) (proj1 HV5) Hw). exists y, m, d. split; [reflexivity|auto].
Qed.

Lemma date_cons w s r : At s (w ++ r) -> lex_date w ->
  exists s', parse_date E s = Ok (mkRange (off s) (off s')) s' /\ At s' r.
Proof using All.
  intros HA (y & m & d & -> & Hy & Hm & Hd).
  rewrite <- app_assoc in HA. cbn [app] in HA. rewrite <- app_assoc in HA. cbn [app] in HA.
  destruct (digs_cons 4 y s _ Hy HA) as (s1 & H1 & A1).
  destruct (dash2_cons m s1 _ Hm A1) as (s3 & H3 & A3).
  destruct (dash2_cons d s3 _ Hd A3) as (s5 & H5 & A5).
  exists s5. split; [|exact A5]. unfold parse_date. cbv zeta. apply annot_ok.
  run H1.
  change (repeat_m 2 (do _ <- read_character E 45; repeat_m 2 (read_character_with E digit)))
    with (do _ <- (do _ <- read_character E 45; repeat_m 2 (read_character_with E digit));
          do _ <- (do _ <- read_character E 45; repeat_m 2 (read_character_with E digit)); ret tt).
  eapply bind_ok; [|reflexivity]. run H3. run H5. reflexivity.
Qed.

(* the two quote bytes and the content between them *)
Definition quotedQ (s : state) (q : quoted) (s' : state) : Prop :=
  q = mkQuoted (mkRange (off s) (off s')) (mkRange (off s + 1) (off s' - 1)) /\ off s + 2 <= off s' /\
  cur s = 34 /\ slice t (off s) (off s + 1) = [34] /\ lex_quoted (slice t (off s + 1) (off s' - 1)) /\
  slice t (off s' - 1) (off s') = [34].

Lemma i_quoted s : VInv s -> ipost (quotedQ s) (off s) (parse_quoted_string E s).
Proof using All.
  intros HV. unfold parse_quoted_string. apply ipost_annot.
  istep i_rc as ? s1 HV1 L1 (Ho1 & H34 & Hw1). { lia. }
  istep i_rw as c s2 HV2 L2 (Hc & x & Hx & Hw & _).
  istep i_rc as ? s3 HV3 L3 (Ho3 & _ & Hw3). { lia. }
  apply ipost_ret_with; [assumption|lia|]. unfold quotedQ. prj.
  replace (off s + 1) with (off s1) by lia. replace (off s3 - 1) with (off s2) by lia.
  rewrite Hc, (win_slice s _ s1 (proj1 HV) (proj1 HV1) Hw1), (win_slice s1 x s2 (proj1 HV1) (proj1 HV2) Hw),
    (win_slice s2 _ s3 (proj1 HV2) (proj1 HV3) Hw3).
  split; [reflexivity|]. split; [lia|]. auto.
Qed.

Lemma quoted_cons c s r : At s (34 :: c ++ 34 :: r) -> lex_quoted c ->
  exists q s', parse_quoted_string E s = Ok q s' /\ At s' r /\
    qs_range q = mkRange (off s) (off s') /\
    slice t (r_start (qs_content q)) (r_end (qs_content q)) = c.
Proof using All.
  intros HA Hc.
  destruct (rc_cons 34 s _ HA) as (s1 & H1 & A1). { lia. }
  destruct (rw_cons (notquote) c s1 _ A1 Hc) as (s2 & H2 & A2).
  { unfold RoundTripBase.stops, notquote. rewrite (fr_ascii dec Hdec 34 _) by lia. reflexivity. }
  destruct (rc_cons 34 s2 _ A2) as (s3 & H3 & A3). { lia. }
  eexists _, s3. split; [|split; [exact A3|]].
  - unfold parse_quoted_string. cbv zeta. apply annot_ok. run H1. run H2. run H3. reflexivity.
  - prj. split; [reflexivity|]. apply (At_slice s1 c _ s2 A1 A2).
Qed.

Lemma intervals_ascii : Forall (Forall ascii) [kw_daily; kw_weekly; kw_monthly; kw_quarterly].
Proof using. now apply asciis_b_ok. Qed.

Lemma interval_first kw : lex_interval kw -> exists k kw', kw = k :: kw' /\ 0 <= k < 128 /\ k <> 10.
Proof using.
  clear Hlen Hfuel Hdec Hloc. unfold RoundTripLeaf.lex_interval. cbn [In].
  intros [<-|[<-|[<-|[<-|[]]]]]; eexists _, _; (split; [reflexivity|lia]).
Qed.

Lemma i_interval s : VInv s ->
  ipost (fun rg s' => leafQ lex_interval s rg s' /\ cur s <> 10 /\ cur s <> eof) (off s) (parse_interval E s).
Proof using All.
  intros HV. unfold parse_interval. apply ipost_annot.
  istep i_ra as rg s1 HV1 L1 (_ & kw & Hin & Hw). { apply intervals_ascii. }
  pose proof (win_off s kw s1 (proj1 HV) (proj1 HV1) Hw) as Ho.
  pose proof (win_slice s kw s1 (proj1 HV) (proj1 HV1) Hw) as Hsl.
  destruct (interval_first kw Hin) as (k & kw' & -> & Hk & Hk10).
  rewrite zlen_cons in Ho. pose proof (zlen_nonneg kw').
  apply ipost_ret_with; [assumption|lia|]. prj. split.
  - split; [reflexivity|]. split; [lia|]. rewrite Hsl. exact Hin.
  - rewrite (cur_win_ascii s k kw' s1 HV Hw Hk). unfold eof. lia.
Qed.

Lemma interval_cons w s r : At s (w ++ r) -> lex_interval w ->
  exists s', parse_interval E s = Ok (mkRange (off s) (off s')) s' /\ At s' r.
Proof using All.
  intros HA Hin.
  destruct (ra_cons [kw_daily; kw_weekly; kw_monthly; kw_quarterly] w s r eq_refl Hin HA) as (s1 & H1 & A1).
  exists s1. split; [|exact A1].
  unfold parse_interval. cbv zeta. apply annot_ok. run H1. reflexivity.
Qed.

End WithEnv.
