(* C08 round trip: the file level without a scanner.
   [FL]: the structure of (gaps, meanings) of a parsed file as parseFile's loop sees it --
   comment lines, blank lines, directives followed by the blank rest of their line -- with every
   directive's meaning in LexDir.  A rendered FL text is valid UTF-8 ([FL_runs]).
   [dranges]/[gaps_of_dranges]: directive ranges laid out like the woven text give back the
   gaps.                                                                                       *)
From Coq Require Import ZArith List Bool Lia ZifyBool.
From Knut Require Import Model.Bytes Model.Utf8 Model.Scanner Model.Parser Model.SynPrinter Spec.SyntaxSpec
  Proofs.ScannerProofs Proofs.ParserProofs Spec.FormatSpec Model.SynRender
  Proofs.RoundTripBase Proofs.RoundTripLeaf Proofs.RoundTripInv.
Import ListNotations.
Open Scope bool_scope.
Open Scope Z_scope.

Inductive mode := MHead | MNL.

Lemma some_inj0 {A} (a b : A) : Some a = Some b -> a = b.
Proof. congruence. Qed.

Lemma weave_cons g gs ps :
  weave (g :: gs) ps = g ++ match ps with [] => [] | p :: ps' => p ++ weave gs ps' end.
Proof. reflexivity. Qed.

Lemma weave_shift W g gs ps : weave ((W ++ g) :: gs) ps = W ++ weave (g :: gs) ps.
Proof. rewrite !weave_cons. now rewrite app_assoc. Qed.

Section FL.
Variable dec : str -> Z * Z.
Variables letter digit : Z -> bool.
Hypothesis Hdec : decoder_ok dec.

Notation cls := (cls dec).
Notation runs := (runs dec).
Notation wsl := (wsl dec).
Notation LexDir := (LexDir dec letter digit).

(* FL MHead g gst ds: at the head of parseFile's loop, g the rest of the current gap, gst the
   later gaps, ds the meanings of the directives still to come;
   FL MNL g gst ds: after the blanks that follow a comment / nothing / a directive *)
Inductive FL : mode -> str -> list str -> list sem_directive -> Prop :=
| FL_eof : FL MHead [] [] []
| FL_dir d ds W g0 gst : LexDir d -> wsl W -> FL MNL g0 gst ds -> FL MHead [] ((W ++ g0) :: gst) (d :: ds)
| FL_comment m body g0 gst ds : In m markers -> cls notnl body -> FL MNL g0 gst ds ->
    FL MHead (m ++ body ++ g0) gst ds
| FL_blank W g0 gst ds : wsl W -> W ++ g0 <> [] -> FL MNL g0 gst ds -> FL MHead (W ++ g0) gst ds
| FL_nl_eof : FL MNL [] [] []
| FL_nl g gst ds : FL MHead g gst ds -> FL MNL (10 :: g) gst ds.

(* FL depends on the meanings only through their number and their lexical validity *)
Lemma FL_replace md g gst ds : FL md g gst ds ->
  forall ds', length ds' = length ds -> Forall LexDir ds' -> FL md g gst ds'.
Proof using.
  induction 1 as [|d ds W g0 gst Hd HW HF IH|m body g0 gst ds Hm Hb HF IH|W g0 gst ds HW Hne HF IH| |g gst ds HF IH];
    intros ds' Hl Hx.
  - destruct ds'; [constructor|discriminate].
  - destruct ds' as [|d' ds']; [discriminate|]. inversion Hx; subst. cbn [length] in Hl.
    apply FL_dir; [assumption|assumption|]. apply IH; [congruence|assumption].
  - apply FL_comment; auto.
  - apply FL_blank; auto.
  - destruct ds'; [constructor|discriminate].
  - apply FL_nl; auto.
Qed.

Lemma runs_ascii x : Forall ascii x -> runs x.
Proof using Hdec. intros H. rewrite <- (app_nil_r x). apply runs_ascii_app; [assumption|assumption|constructor]. Qed.

Lemma runs_spaces n : runs (spaces n).
Proof using Hdec.
  apply runs_ascii. unfold spaces. induction (Z.to_nat n); cbn [repeat]; constructor; auto. unfold ascii. lia.
Qed.

Lemma commodity_runs w : lex_commodity dec letter digit w -> runs w.
Proof using. intros (H & _). eapply cls_runs; eauto. Qed.

Lemma decimal_runs w : lex_decimal dec digit w -> runs w.
Proof using Hdec.
  intros (sg & ip & fp & -> & Hsg & Hip & _ & Hfp).
  apply runs_app; [|apply runs_app].
  - destruct Hsg as [->|(-> & _)]; [apply runs_ascii; now apply ascii_b_ok|constructor].
  - eapply cls_runs; eauto.
  - destruct Hfp as [->|(_ & f & -> & Hf & _)]; [constructor|].
    apply runs_cons_ascii; [assumption|lia|eapply cls_runs; eauto].
Qed.

Lemma account_runs w m : lex_account dec letter digit w m -> runs w.
Proof using Hdec.
  destruct m; cbn [lex_account].
  - intros (l & -> & Hl & _). apply runs_cons_ascii; [assumption|lia|eapply cls_runs; eauto].
  - intros (_ & seg & segs & -> & (Hs & _) & Hsegs & _). apply runs_app; [eapply cls_runs; eauto|].
    induction Hsegs as [|x segs (Hx & _) _ IH]; cbn [map concat]; [constructor|].
    cbn [app]. apply runs_cons_ascii; [assumption|lia|]. apply runs_app; [eapply cls_runs; eauto|exact IH].
Qed.

Lemma date_runs w : lex_date dec digit w -> runs w.
Proof using Hdec.
  intros (y & m & d & -> & Hy & Hm & Hd).
  apply runs_app; [eapply digs_runs; eauto|]. apply runs_cons_ascii; [assumption|lia|].
  apply runs_app; [eapply digs_runs; eauto|]. apply runs_cons_ascii; [assumption|lia|]. eapply digs_runs; eauto.
Qed.

Lemma interval_runs w : lex_interval w -> runs w.
Proof using Hdec.
  intros H. apply runs_ascii. exact (proj1 (Forall_forall _ _) intervals_ascii w H).
Qed.

Ltac rr := repeat first
  [ apply runs_app | apply runs_spaces | apply runs_nil
  | (apply runs_cons_ascii; [assumption|lia|]) ].

Lemma posting_runs pad b : LexBooking dec letter digit b -> runs (render_posting dec pad b).
Proof using Hdec.
  intros (Hc & Hd & Hq & Hm). unfold render_posting, pad_right, pad_left, s_sp.
  rr; eauto using account_runs, decimal_runs, commodity_runs.
Qed.

Lemma balance_runs b : LexBal dec letter digit b -> runs (render_balance b).
Proof using Hdec.
  intros (Ha & Hq & Hm). unfold render_balance, s_sp. rr; eauto using account_runs, decimal_runs, commodity_runs.
Qed.

Lemma concat_runs {A} (f : A -> str) l : Forall (fun a => runs (f a)) l -> runs (concat (map f l)).
Proof using. induction 1; cbn [map concat]; [constructor|apply runs_app; assumption]. Qed.

Lemma join_runs ts : Forall (lex_commodity dec letter digit) ts -> runs (join s_comma ts).
Proof using Hdec.
  induction 1 as [|c cs Hc Hcs IH]; [constructor|].
  destruct cs as [|c2 cs]; [cbn [join]; now apply commodity_runs|].
  change (join s_comma (c :: c2 :: cs)) with (c ++ s_comma ++ join s_comma (c2 :: cs)).
  unfold s_comma. rr; [now apply commodity_runs|exact IH].
Qed.

Lemma directive_runs pad d x : LexDir d -> render_sem dec pad d = Some x -> runs x.
Proof using Hdec.
  intros Hl Hx.
  destruct d as [date desc bs perf accr|date a|date a|date bs|date c p tg|p|]; cbn [render_sem] in Hx;
    try (apply some_inj0 in Hx; subst x).
  - destruct Hl as ((Hd & _) & Hq & _ & Hbs & Hp & Ha).
    apply runs_app; [|apply runs_app].
    + destruct accr as [a|]; [|constructor]. destruct Ha as (Hiv & Hst & Hen & Hacc).
      unfold s_accrue, s_sp, s_nl. rr; eauto using interval_runs, date_runs, account_runs.
    + destruct perf as [ts|]; [|constructor]. unfold s_perf_open, s_perf_close, s_nl. rr. now apply join_runs.
    + unfold s_sp, s_quote, s_nl. rr; [now apply date_runs|eapply cls_runs; eauto|].
      apply concat_runs. eapply Forall_impl; [|exact Hbs]. intros b Hb. cbv beta. apply runs_app; [now apply posting_runs|unfold s_nl; rr].
  - destruct Hl as ((Hd & _) & Ha). unfold s_open. rr; eauto using date_runs, account_runs.
  - destruct Hl as ((Hd & _) & Ha). unfold s_close. rr; eauto using date_runs, account_runs.
  - destruct Hl as ((Hd & _) & _ & Hbs). unfold s_balance. rr; [now apply date_runs|].
    assert (Hall : Forall (fun b => runs (render_balance b ++ s_nl)) bs).
    { eapply Forall_impl; [|exact Hbs]. intros b Hb. cbv beta. apply runs_app; [now apply balance_runs|unfold s_nl; rr]. }
    destruct bs as [|b [|b2 bs]].
    + unfold s_nl. rr.
    + unfold s_sp. cbn [app]. apply runs_cons_ascii; [assumption|lia|]. inversion Hbs; subst. now apply balance_runs.
    + unfold s_nl at 1. cbn [app]. apply runs_cons_ascii; [assumption|lia|]. now apply concat_runs.
  - destruct Hl as ((Hd & _) & Hc & Hp & Htg). unfold s_price, s_sp. rr; eauto using date_runs, decimal_runs, commodity_runs.
  - unfold s_include, s_quote. rr. eapply cls_runs; eauto.
  - destruct Hl.
Qed.

Lemma markers_runs m : In m markers -> runs m.
Proof using Hdec.
  intros H. apply runs_ascii. exact (proj1 (Forall_forall _ _) markers_ascii m H).
Qed.

Lemma FL_runs pad : forall md g gst ds, FL md g gst ds ->
  forall ps, render_all dec pad ds = Some ps -> runs (weave (g :: gst) ps).
Proof using Hdec.
  induction 1 as [|d ds W g0 gst Hd HW HF IH|m body g0 gst ds Hm Hb HF IH|W g0 gst ds HW Hne HF IH| |g gst ds HF IH];
    intros ps Hps.
  - cbn [render_all] in Hps. injection Hps as <-. cbn [weave app]. constructor.
  - cbn [render_all] in Hps. destruct (render_sem dec pad d) as [x|] eqn:Hx; [|discriminate].
    destruct (render_all dec pad ds) as [ps0|] eqn:Hps0; [|discriminate]. injection Hps as <-.
    rewrite weave_cons. cbn [app]. rewrite weave_shift. apply runs_app; [eapply directive_runs; eauto|].
    apply runs_app; [eapply cls_runs; eauto|]. now apply IH.
  - replace (m ++ body ++ g0) with ((m ++ body) ++ g0) by now rewrite app_assoc.
    rewrite weave_shift, <- app_assoc. apply runs_app; [now apply markers_runs|].
    apply runs_app; [eapply cls_runs; eauto|]. now apply IH.
  - rewrite weave_shift. apply runs_app; [eapply cls_runs; eauto|]. now apply IH.
  - cbn [render_all] in Hps. injection Hps as <-. cbn [weave app]. constructor.
  - change (10 :: g) with ([10] ++ g). rewrite weave_shift. cbn [app]. apply runs_cons_ascii; [assumption|lia|]. now apply IH.
Qed.

End FL.

(* the directives ds lie in the text like the rendered ps between the gaps; p1 is the
   position behind the first gap, gst the later gaps *)
Fixpoint dranges (p1 : Z) (gst ps : list str) (ds : list directive) {struct ds} : Prop :=
  match ds with
  | [] => ps = [] /\ gst = []
  | d :: ds' =>
    match ps, gst with
    | p :: ps', g :: gst' => d_range d = mkRange p1 (p1 + zlen p) /\ dranges (p1 + zlen p + zlen g) gst' ps' ds'
    | _, _ => False
    end
  end.

Lemma slice_mid (pre x y : str) : slice (pre ++ x ++ y) (zlen pre) (zlen pre + zlen x) = x.
Proof.
  unfold slice. rewrite skipn_zlen_app. replace (zlen pre + zlen x - zlen pre) with (zlen x) by lia.
  apply firstn_zlen_app.
Qed.

Lemma gaps_of_dranges T : forall ds pre g gst ps,
  T = pre ++ weave (g :: gst) ps -> dranges (zlen pre + zlen g) gst ps ds ->
  gaps_from T (zlen pre) ds = g :: gst.
Proof.
  induction ds as [|d ds IH]; intros pre g gst ps HT Hd; cbn [gaps_from]; cbn [dranges] in Hd.
  - destruct Hd as (Hp & Hg). subst ps gst. cbn [weave] in HT. rewrite app_nil_r in HT. subst T. f_equal.
    rewrite zlen_app. rewrite <- (app_nil_r g) at 1. apply slice_mid.
  - destruct ps as [|p ps]; [contradiction|]. destruct gst as [|g2 gst]; [contradiction|].
    destruct Hd as (Hr & Hd). rewrite Hr. cbn [r_start r_end]. rewrite weave_cons in HT. f_equal.
    + subst T. apply slice_mid.
    + replace (zlen pre + zlen g + zlen p) with (zlen (pre ++ g ++ p)) by (rewrite !zlen_app; lia).
      apply (IH (pre ++ g ++ p) g2 gst ps).
      * subst T. now rewrite <- !app_assoc.
      * rewrite !zlen_app. replace (zlen pre + (zlen g + zlen p) + zlen g2) with (zlen pre + zlen g + zlen p + zlen g2) by lia. exact Hd.
Qed.
