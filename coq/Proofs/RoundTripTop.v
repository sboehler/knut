(* C08 round trip: the classifications, and idempotence.
   * [class_ok] holds of Go's unicode.IsLetter / unicode.IsDigit (Model/UnicodeTables.v), so
     the round trip and idempotence hold of the real parser without any hypothesis;
   * without [class_ok] the round trip is false: a classification that calls the blank a
     letter refutes it ([roundtrip_unrestricted_refuted]);
   * idempotence = the round trip composed with FormatProofs.idem_of_roundtrip.             *)
From Coq Require Import String ZArith List Bool Lia.
From Knut Require Import Model.Bytes Model.Utf8 Model.UnicodeTables Model.Scanner Model.Parser Model.SynPrinter
  Spec.SyntaxSpec Proofs.ScannerProofs Proofs.ParserProofs Spec.FormatSpec Model.SynRender Proofs.FormatProofs
  Proofs.RoundTripLeaf Proofs.RoundTripFile.
Import ListNotations.
Open Scope Z_scope.

Lemma unicode_class_ok : class_ok is_letter is_digit.
Proof.
  constructor.
  - intros c Hc. cbn [In] in Hc.
    repeat (destruct Hc as [<-|Hc]; [split; vm_compute; reflexivity|]). destruct Hc.
  - vm_compute. reflexivity.
Qed.

(* the ASCII classification satisfies it, too *)
Definition ascii_letter (c : Z) : bool := ((65 <=? c) && (c <=? 90)) || ((97 <=? c) && (c <=? 122)).
Definition ascii_digit (c : Z) : bool := (48 <=? c) && (c <=? 57).

Lemma ascii_class_ok : class_ok ascii_letter ascii_digit.
Proof.
  constructor.
  - intros c Hc. cbn [In] in Hc.
    repeat (destruct Hc as [<-|Hc]; [split; vm_compute; reflexivity|]). destruct Hc.
  - vm_compute. reflexivity.
Qed.

Theorem idem letter digit t f out :
  class_ok letter digit ->
  parse_text letter digit t = ParseOk f -> format_text letter digit t f = FOk out ->
  exists f', parse_text letter digit out = ParseOk f' /\ format_text letter digit out f' = FOk out.
Proof.
  intros Hc Hp Hf. destruct (roundtrip letter digit t f out Hc Hp Hf) as (f' & Hp' & Hs & Hg).
  exists f'. split; [exact Hp'|]. exact (idem_of_roundtrip letter digit t f out f' Hf Hp' Hs Hg).
Qed.

Definition blank_letter (c : Z) : bool := (c =? 32) || ascii_letter c.

Definition refuting_text : str := Eval vm_compute in
  runes_of_string ("2020-01-01 price X" ++ String (Ascii.ascii_of_nat 9) ("1" ++ String (Ascii.ascii_of_nat 9) "Y"))%string.

Definition refuting_file : file := Eval vm_compute in
  match parse_text blank_letter ascii_digit refuting_text with ParseOk x => x | _ => mkFile zero_range [] end.
Definition refuting_out : str := Eval vm_compute in
  match format_text blank_letter ascii_digit refuting_text refuting_file with FOk o => o | _ => [] end.

Theorem roundtrip_unrestricted_refuted :
  exists letter digit t f out,
    parse_text letter digit t = ParseOk f /\ format_text letter digit t f = FOk out /\
    ~ exists f', parse_text letter digit out = ParseOk f' /\ sem out f' = sem t f /\ gaps out f' = gaps t f.
Proof.
  exists blank_letter, ascii_digit, refuting_text, refuting_file, refuting_out.
  split; [vm_compute; reflexivity|]. split; [vm_compute; reflexivity|].
  intros (f' & Hp' & _). vm_compute in Hp'. discriminate.
Qed.
