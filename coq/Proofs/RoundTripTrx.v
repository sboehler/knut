(* C08 round trip: CONSTRUCTION for transactions: the @accrue and @performance lines
   (in the formatter's order), the description line, the posting lines; and [directive_cons]:
   the context lemma for every directive kind.                                              *)
From Coq Require Import ZArith List Bool Lia ZifyBool.
From Knut Require Import Model.Bytes Model.Utf8 Model.Scanner Model.Parser Model.SynPrinter Spec.SyntaxSpec
  Proofs.ScannerProofs Proofs.ParserProofs Spec.FormatSpec Model.SynRender
  Proofs.RoundTripBase Proofs.RoundTripLeaf Proofs.RoundTripInv Proofs.RoundTripCons.
Import ListNotations.
Open Scope bool_scope.
Open Scope Z_scope.

Lemma bind_eq {A B} (m : M A) (f : A -> M B) s a s1 : m s = Ok a s1 -> bind m f s = f a s1.
Proof. intros H. unfold bind. now rewrite H. Qed.

Lemma some_inj {A} (a b : A) : Some a = Some b -> a = b.
Proof. congruence. Qed.

Lemma replace_err_ok {A} (m : M A) s a s' : m s = Ok a s' -> replace_err m s = Ok a s'.
Proof. intros H. unfold replace_err. now rewrite H. Qed.

Lemma join_cons sep c cs : join sep (c :: cs) = c ++ concat (map (fun x => sep ++ x) cs).
Proof.
  revert c. induction cs as [|c2 cs IH]; intros c.
  - cbn [join map concat]. now rewrite app_nil_r.
  - change (join sep (c :: c2 :: cs)) with (c ++ sep ++ join sep (c2 :: cs)).
    rewrite IH. cbn [map concat]. now rewrite <- app_assoc.
Qed.

Section WithEnv.
Variable E : env.
Hypothesis Hlen : e_len E = Z.of_nat (length (e_text E)).
Hypothesis Hfuel : (length (e_text E) < e_fuel E)%nat.
Hypothesis Hdec : decoder_ok (e_decode E).
Hypothesis Hloc : decoder_local (e_decode E).
Hypothesis Hcls : class_ok (e_letter E) (e_digit E).

Notation t := (e_text E).
Notation dec := (e_decode E).
Notation letter := (e_letter E).
Notation digit := (e_digit E).
Notation fr := (fr dec).
Notation cls := (cls dec).
Notation At := (At E).
Notation stops := (stops dec).
Notation sepr := (sepr dec).
Notation wsl := (wsl dec).
Notation alnum := (alnum letter digit).
Notation lex_commodity := (lex_commodity dec letter digit).
Notation lex_decimal := (lex_decimal dec digit).
Notation lex_date := (lex_date dec digit).
Notation lex_quoted := (lex_quoted dec).
Notation LexAcc := (LexAcc dec letter digit).
Notation LexBooking := (LexBooking dec letter digit).
Notation LexAccrual := (LexAccrual dec letter digit).
Notation LexDir := (LexDir dec letter digit).
Notation date_ok := (date_ok dec digit).
Notation blankstart := (blankstart E).
Notation tokstart := (tokstart E).

Local Notation At_cur := (RoundTripBase.At_cur E Hlen Hfuel Hdec Hloc).
Local Notation At_off := (RoundTripBase.At_off E Hlen Hfuel Hdec Hloc).
Local Notation At_slice := (RoundTripBase.At_slice E Hlen Hfuel Hdec Hloc).
Local Notation rw_cons := (RoundTripBase.read_while_cons E Hlen Hfuel Hdec Hloc).
Local Notation rc_cons := (RoundTripBase.read_character_cons E Hlen Hfuel Hdec Hloc).
Local Notation ra_cons := (RoundTripBase.read_alternative_cons E Hlen Hfuel Hdec Hloc).
Local Notation rest_nl_cons := (RoundTripLeaf.rest_nl_cons E Hlen Hfuel Hdec Hloc).
Local Notation date_cons := (RoundTripLeaf.date_cons E Hlen Hfuel Hdec Hloc).
Local Notation quoted_cons := (RoundTripLeaf.quoted_cons E Hlen Hfuel Hdec Hloc).
Local Notation interval_cons := (RoundTripLeaf.interval_cons E Hlen Hfuel Hdec Hloc).
Local Notation posting_cons := (RoundTripCons.posting_cons E Hlen Hfuel Hdec Hloc Hcls).
Local Notation lines_loop_cons := (RoundTripCons.lines_loop_cons E Hlen Hfuel Hdec Hloc Hcls).
Local Notation sp_cons := (RoundTripCons.sp_cons E Hlen Hfuel Hdec Hloc Hcls).
Local Notation acc_sep := (RoundTripCons.acc_sep E Hlen Hfuel Hdec Hloc Hcls).
Local Notation comm_sep := (RoundTripCons.comm_sep E Hlen Hfuel Hdec Hloc Hcls).
Local Notation sepr_10 := (RoundTripCons.sepr_10 E Hlen Hfuel Hdec Hloc Hcls).
Local Notation tokstart_ascii := (RoundTripCons.tokstart_ascii E Hlen Hfuel Hdec Hloc Hcls).
Local Notation tokstart_stops_ws := (RoundTripCons.tokstart_stops_ws E Hlen Hfuel Hdec Hloc Hcls).
Local Notation account_start := (RoundTripCons.account_start E Hlen Hfuel Hdec Hloc Hcls).
Local Notation commodity_start := (RoundTripCons.commodity_start E Hlen Hfuel Hdec Hloc Hcls).
Local Notation date_start_facts := (RoundTripCons.date_start_facts E Hlen Hfuel Hdec Hloc Hcls).
Local Notation tokstart_alnum := (RoundTripCons.tokstart_alnum E Hlen Hfuel Hdec Hloc Hcls).
Local Notation blankstart_sepr := (RoundTripCons.blankstart_sepr E Hlen Hfuel Hdec Hloc Hcls).

Ltac runeq H := etransitivity; [apply (bind_eq _ _ _ _ _ H)|cbv beta].

Lemma bookings_loop_cons pad bs n s r :
  At s (concat (map (fun b => render_posting dec pad b ++ s_nl) bs) ++ r) -> bs <> [] -> Forall LexBooking bs ->
  blankstart r -> (length (concat (map (fun b => render_posting dec pad b ++ s_nl) bs)) < n)%nat ->
  exists bs' s', bookings_loop E n s = Ok bs' s' /\ At s' r /\ map (sem_of_booking t) bs' = bs.
Proof using All.
  rewrite bookings_loop_lines.
  apply (lines_loop_cons (parse_booking E) (render_posting dec pad) (sem_of_booking t) LexBooking).
  - intros b r0 s0. apply posting_cons.
  - intros b r0 (Ha & _). unfold render_posting, pad_right. rewrite <- !app_assoc. eapply account_start; eauto.
Qed.

Lemma sepr_44 r : sepr (44 :: r).
Proof using All. apply sepr_cons; [assumption|unfold seps; cbn [In]; lia]. Qed.

Lemma sepr_41 r : sepr (41 :: r).
Proof using All. apply sepr_cons; [assumption|unfold seps; cbn [In]; lia]. Qed.

Lemma stops_ws_ascii b r : 0 <= b < 128 -> ~ In b [32; 9; 13] -> stops is_whitespace (b :: r).
Proof using All. intros Hb Hn. apply stops_ws_not. now rewrite (fr_ascii dec Hdec b r Hb). Qed.

Lemma At_unique s s' r : At s r -> At s' r -> s = s'.
Proof using All.
  intros H1 H2. pose proof (RoundTripBase.At_len E Hlen Hfuel Hdec Hloc s r H1) as L1.
  pose proof (RoundTripBase.At_len E Hlen Hfuel Hdec Hloc s' r H2) as L2.
  pose proof (At_cur s r H1) as C1. pose proof (At_cur s' r H2) as C2.
  destruct H1 as ((_ & _ & D1) & R1 & _). destruct H2 as ((_ & _ & D2) & R2 & _).
  destruct s as [o c w rs], s' as [o' c' w' rs']. cbn [off cur clen rest] in *. subst rs rs'.
  assert (o = o') by lia. subst o'. assert (c = c') by congruence. subst c'.
  assert (Hw : w = w').
  { destruct D1 as [(_ & W1 & O1)|(O1 & E1)]; destruct D2 as [(_ & W2 & O2)|(O2 & E2)]; try lia.
    rewrite <- E1 in E2. now inversion E2. }
  subst w'. now rewrite C1.
Qed.

Lemma rw_ws_nil s r : At s r -> stops is_whitespace r ->
  read_while E is_whitespace s = Ok (mkRange (off s) (off s)) s.
Proof using All.
  intros HA Hst. destruct (rw_cons is_whitespace [] s r HA (cls_nil) Hst) as (s' & H & A').
  rewrite <- (At_unique s s' r HA A') in H. exact H.
Qed.

(* one commodity of the list, no blanks around it; a comma or the closing parenthesis follows *)
Lemma target_cons c cs r s : lex_commodity c -> At s (c ++ concat (map (fun x => s_comma ++ x) cs) ++ 41 :: r) ->
  exists s', read_while E is_whitespace s = Ok (mkRange (off s) (off s)) s /\
             parse_commodity E s = Ok (mkRange (off s) (off s')) s' /\
             read_while E is_whitespace s' = Ok (mkRange (off s') (off s')) s' /\
             At s' (concat (map (fun x => s_comma ++ x) cs) ++ 41 :: r) /\ cut t (mkRange (off s) (off s')) = c.
Proof using All.
  intros Hc HA.
  assert (Hnext : exists b r', concat (map (fun x => s_comma ++ x) cs) ++ 41 :: r = b :: r' /\ (b = 41 \/ b = 44)).
  { destruct cs as [|c2 cs]; cbn [map concat app]; [eauto|]. unfold s_comma. cbn [app]. eauto. }
  destruct Hnext as (b & r' & Hn & Hb). rewrite Hn in *.
  destruct (comm_sep c _ s HA Hc) as (s' & H3 & A3). { destruct Hb as [->| ->]; [apply sepr_41|apply sepr_44]. }
  exists s'. split; [exact (rw_ws_nil s _ HA (tokstart_stops_ws _ (commodity_start c _ Hc)))|]. split; [exact H3|].
  split; [|split; [exact A3|unfold cut; prj; exact (At_slice s c _ s' HA A3)]].
  apply (rw_ws_nil s' _ A3). apply stops_ws_ascii; [lia|cbn [In]; lia].
Qed.

(* the rest of the list: ,c,c...  up to the closing parenthesis *)
Lemma perf_loop_cons : forall cs n s r, Forall lex_commodity cs ->
  At s (concat (map (fun x => s_comma ++ x) cs) ++ 41 :: r) ->
  (length (concat (map (fun x => s_comma ++ x) cs)) < n)%nat ->
  exists rs s', performance_loop E n s = Ok rs s' /\ At s' (41 :: r) /\ map (cut t) rs = cs.
Proof using All.
  induction cs as [|c cs IH]; intros n s r Hl HA Hn.
  - destruct n as [|n]; [cbn [length] in Hn; lia|]. cbn [map concat app performance_loop] in *.
    exists [], s. split; [|split; [exact HA|reflexivity]].
    apply ifM_false; [|reflexivity]. unfold cur_is. rewrite (At_cur s _ HA), (fr_ascii dec Hdec 41 r) by lia. reflexivity.
  - destruct n as [|n]; [lia|]. cbn [performance_loop]. cbn [map concat] in HA, Hn.
    inversion Hl as [|? ? Hc Hl']. subst. unfold s_comma in HA at 1. rewrite <- !app_assoc in HA. cbn [app] in HA.
    destruct (rc_cons 44 s _ HA) as (s1 & H1 & A1). { lia. }
    destruct (target_cons c cs r s1 Hc A1) as (s3 & H2 & H3 & H4 & A3 & S3).
    destruct (IH n s3 r Hl' A3) as (rs & s5 & H5 & A5 & S5).
    { rewrite !app_length in Hn. change (length s_comma) with 1%nat in Hn. lia. }
    exists (mkRange (off s1) (off s3) :: rs), s5. split; [|split; [exact A5|]].
    + apply ifM_true. { unfold cur_is. rewrite (At_cur s _ HA), (fr_ascii dec Hdec 44 _) by lia. reflexivity. }
      run H1. run H2. run H3. run H4. run H5. reflexivity.
    + cbn [map]. now rewrite S5, S3.
Qed.

Lemma performance_cons ts r s :
  At s (40 :: join s_comma ts ++ 41 :: r) -> Forall lex_commodity ts ->
  exists p s', parse_performance E s = Ok p s' /\ At s' r /\ pf_range p = mkRange (off s) (off s') /\
               map (cut t) (pf_targets p) = ts.
Proof using All.
  intros HA Hl.
  destruct (rc_cons 40 s _ HA) as (s1 & H1 & A1). { lia. }
  destruct ts as [|c cs].
  - cbn [join app] in A1.
    pose proof (rw_ws_nil s1 _ A1 (stops_ws_ascii 41 r ltac:(lia) ltac:(cbn [In]; lia))) as H2.
    destruct (perf_loop_cons [] (loop_fuel E) s1 r Hl A1) as (rs & s4 & H4 & A4 & S4).
    { cbn [map concat length]. unfold loop_fuel. lia. }
    destruct (rc_cons 41 s4 r A4) as (s5 & H5 & A5). { lia. }
    eexists _, s5. split; [|split; [exact A5|split]].
    + unfold parse_performance. cbv zeta. apply annot_ok. run H1. run H2.
      eapply bind_ok. { apply ifM_false; [|reflexivity]. rewrite (At_cur s1 _ A1), (fr_ascii dec Hdec 41 r) by lia. reflexivity. }
      cbv beta. run H4. run H5. reflexivity.
    + reflexivity.
    + prj. cbn [app]. exact S4.
  - rewrite join_cons, <- app_assoc in A1. inversion Hl as [|? ? Hc Hl']. subst.
    destruct (target_cons c cs r s1 Hc A1) as (s3 & H2 & H3 & H3' & A3 & S3).
    destruct (perf_loop_cons cs (loop_fuel E) s3 r Hl' A3) as (rs & s4 & H4 & A4 & S4).
    { exact (At_fuel E Hlen Hfuel Hdec Hloc s3 _ _ A3). }
    destruct (rc_cons 41 s4 r A4) as (s5 & H5 & A5). { lia. }
    eexists _, s5. split; [|split; [exact A5|split]].
    + unfold parse_performance. cbv zeta. apply annot_ok. run H1. run H2.
      eapply bind_ok.
      { apply ifM_true.
        - rewrite (At_cur s1 _ A1). destruct Hc as (Hc1 & Hc2).
          destruct (cls_first dec Hdec _ c (concat (map (fun x => s_comma ++ x) cs) ++ 41 :: r) Hc1 Hc2) as (_ & Ha).
          pose proof (alnum_not_sep letter digit Hcls _ Ha) as Hn. cbn [In] in Hn.
          apply negb_true_iff, Z.eqb_neq. lia.
        - run H3. run H3'. reflexivity. }
      cbv beta. run H4. run H5. reflexivity.
    + reflexivity.
    + prj. cbn [app map]. now rewrite S4, S3.
Qed.

Definition accr_text (a : sem_accrual) : str :=
  sa_interval a ++ s_sp ++ sa_start a ++ s_sp ++ sa_end a ++ s_sp ++ fst (sa_account a).

Lemma interval_start w r : lex_interval w -> tokstart (w ++ r).
Proof using All.
  unfold lex_interval. cbn [In]. intros [<-|[<-|[<-|[<-|[]]]]]; apply tokstart_ascii; try lia; cbn [In]; lia.
Qed.

Lemma date_tokstart w r : lex_date w -> tokstart (w ++ r).
Proof using All.
  intros Hl. destruct (lex_date_first dec digit Hdec w r Hl) as (Hf & Hd & Hne).
  unfold RoundTripCons.tokstart. rewrite Hf. apply tokstart_alnum; [|assumption]. unfold RoundTripLeaf.alnum. rewrite Hd. apply orb_true_r.
Qed.

Lemma accrual_cons a r s : At s (32 :: accr_text a ++ r) -> LexAccrual a -> sepr r ->
  exists acr s', parse_accrual E s = Ok acr s' /\ At s' r /\ ac_range acr = mkRange (off s) (off s') /\
                 sem_accrual_of t acr = a.
Proof using All.
  intros HA (Hiv & Hst & Hen & Hacc) Hr.
  unfold accr_text, s_sp in HA. rewrite <- !app_assoc in HA. cbn [app] in HA.
  destruct (sp_cons _ s HA) as (s1 & H1 & A1). { now apply interval_start. }
  destruct (interval_cons _ s1 _ A1 Hiv) as (s2 & H2 & A2).
  destruct (sp_cons _ s2 A2) as (s3 & H3 & A3). { now apply date_tokstart. }
  destruct (date_cons _ s3 _ A3 Hst) as (s4 & H4 & A4).
  destruct (sp_cons _ s4 A4) as (s5 & H5 & A5). { now apply date_tokstart. }
  destruct (date_cons _ s5 _ A5 Hen) as (s6 & H6 & A6).
  destruct (sp_cons _ s6 A6) as (s7 & H7 & A7). { eapply account_start; eauto. }
  destruct (acc_sep _ r s7 A7 Hacc Hr) as (s8 & H8 & A8).
  eexists _, s8. split; [|split; [exact A8|split]].
  - unfold parse_accrual. cbv zeta. apply annot_ok.
    run H1. run H2. run H3. run H4. run H5. run H6. run H7. run H8. reflexivity.
  - reflexivity.
  - unfold sem_accrual_of, sem_acc, cut. prj.
    rewrite (At_slice s1 _ _ s2 A1 A2), (At_slice s3 _ _ s4 A3 A4), (At_slice s5 _ _ s6 A5 A6), (At_slice s7 _ _ s8 A7 A8).
    destruct a as [iv st en [a1 a2]]. reflexivity.
Qed.

Definition addon_kws : list (list Z) := [kw_performance; kw_accrue].

Definition perf_line (ts : list str) : str := s_perf_open ++ join s_comma ts ++ s_perf_close ++ s_nl.
Definition accr_line (a : sem_accrual) : str := s_accrue ++ accr_text a ++ s_nl.

Definition sem_perf (p : performance) : option (list str) :=
  if range_empty (pf_range p) then None else Some (map (cut t) (pf_targets p)).
Definition sem_accr (a : accrual) : option sem_accrual :=
  if range_empty (ac_range a) then None else Some (sem_accrual_of t a).

Lemma extend_nonempty a b c : a < b -> b <= c -> range_empty (extend (mkRange b c) (mkRange a b)) = false.
Proof using All.
  intros Hab Hbc. rewrite (extend_kw E Hlen Hfuel Hdec a b c) by lia. unfold range_empty. prj. lia.
Qed.

(* one iteration of the loop of parseAddons on an @accrue line *)
Lemma addons_step_accr sc ad a r s : At s (accr_line a ++ r) -> LexAccrual a ->
  range_empty (ac_range (ad_accrual ad)) = true ->
  exists acr s1, At s1 r /\ sem_accr acr = Some a /\ off s < off s1 /\
    forall n, addons_loop E sc (S n) ad s =
      ifM (fun s => negb (cur s =? 64))
          (ret_with sc (fun rg => mkAddons rg (ad_perf ad) acr))
          (addons_loop E sc n (mkAddons (ad_range ad) (ad_perf ad) acr)) s1.
Proof using All.
  intros HA Hl Hemp. unfold accr_line in HA. change s_accrue with (kw_accrue ++ [32]) in HA.
  unfold s_nl in HA. rewrite <- !app_assoc in HA. cbn [app] in HA.
  destruct (ra_cons addon_kws kw_accrue s (32 :: accr_text a ++ 10 :: r) eq_refl) as (s1 & H1 & A1).
  { right. now left. } { exact HA. }
  assert (HA1 : At s1 (32 :: accr_text a ++ 10 :: r)) by exact A1.
  destruct (accrual_cons a _ s1 HA1 Hl) as (acr & s2 & H2 & A2 & Hrg & Hsem). { apply sepr_10. }
  destruct (rest_nl_cons [] s2 r A2) as (rg & s3 & H3 & A3). { constructor. }
  pose proof (At_off s _ _ s1 HA A1) as O1.
  change (32 :: accr_text a ++ 10 :: r) with ((32 :: accr_text a) ++ 10 :: r) in A1.
  pose proof (At_off s1 _ _ s2 A1 A2) as O2. change (10 :: r) with ([10] ++ r) in A2.
  pose proof (At_off s2 _ _ s3 A2 A3) as O3.
  assert (Z1 : zlen kw_accrue = 7) by reflexivity. pose proof (zlen_nonneg (32 :: accr_text a)) as Z2.
  eexists _, s3. split; [exact A3|]. split; [|split; [rewrite zlen_cons, zlen_nil in O3; lia|]].
  2:{ intros n. cbn [addons_loop]. runeq H1.
      etransitivity; [eapply bind_eq|cbv beta].
      { cbv zeta. unfold extract. prj. rewrite (At_slice s _ _ s1 HA HA1).
        change (str_eqb kw_accrue kw_performance) with false. change (str_eqb kw_accrue kw_accrue) with true. cbv iota.
        rewrite Hemp. cbn [negb]. run H2. reflexivity. }
      etransitivity; [eapply bind_eq; apply replace_err_ok; exact H3|cbv beta]. prj. reflexivity. }
  unfold sem_accr. prj. rewrite Hrg, extend_nonempty by lia. f_equal.
  rewrite <- Hsem. unfold sem_accrual_of. prj. reflexivity.
Qed.

Lemma addons_step_perf sc ad ts r s : At s (perf_line ts ++ r) -> Forall lex_commodity ts ->
  range_empty (pf_range (ad_perf ad)) = true ->
  exists p s1, At s1 r /\ sem_perf p = Some ts /\ off s < off s1 /\
    forall n, addons_loop E sc (S n) ad s =
      ifM (fun s => negb (cur s =? 64))
          (ret_with sc (fun rg => mkAddons rg p (ad_accrual ad)))
          (addons_loop E sc n (mkAddons (ad_range ad) p (ad_accrual ad))) s1.
Proof using All.
  intros HA Hl Hemp. unfold perf_line in HA. change s_perf_open with (kw_performance ++ [40]) in HA.
  unfold s_nl, s_perf_close in HA. rewrite <- !app_assoc in HA. cbn [app] in HA.
  destruct (ra_cons addon_kws kw_performance s (40 :: join s_comma ts ++ 41 :: 10 :: r) eq_refl) as (s1 & H1 & A1).
  { now left. } { exact HA. }
  destruct (performance_cons ts _ s1 A1 Hl) as (p & s2 & H2 & A2 & Hrg & Hsem).
  destruct (rest_nl_cons [] s2 r A2) as (rg & s3 & H3 & A3). { constructor. }
  pose proof (At_off s _ _ s1 HA A1) as O1.
  assert (A1'' : At s1 ((40 :: join s_comma ts ++ [41]) ++ 10 :: r)).
  { cbn [app]. rewrite <- app_assoc. exact A1. }
  pose proof (At_off s1 _ _ s2 A1'' A2) as O2. change (10 :: r) with ([10] ++ r) in A2.
  pose proof (At_off s2 _ _ s3 A2 A3) as O3.
  assert (Z1 : zlen kw_performance = 12) by reflexivity. pose proof (zlen_nonneg (40 :: join s_comma ts ++ [41])) as Z2.
  eexists _, s3. split; [exact A3|]. split; [|split; [rewrite zlen_cons, zlen_nil in O3; lia|]].
  2:{ intros n. cbn [addons_loop]. runeq H1.
      etransitivity; [eapply bind_eq|cbv beta].
      { cbv zeta. unfold extract. prj. rewrite (At_slice s _ _ s1 HA A1).
        change (str_eqb kw_performance kw_performance) with true. cbv iota.
        rewrite Hemp. cbn [negb]. run H2. reflexivity. }
      etransitivity; [eapply bind_eq; apply replace_err_ok; exact H3|cbv beta]. prj. reflexivity. }
  unfold sem_perf. prj. rewrite Hrg, extend_nonempty by lia. f_equal. exact Hsem.
Qed.

Definition addon_text (perf : option (list str)) (accr : option sem_accrual) : str :=
  match accr with Some a => accr_line a | None => [] end ++
  match perf with Some ts => perf_line ts | None => [] end.

Lemma fuel_two s a b r : At s (a :: b :: r) -> exists n, loop_fuel E = S (S n).
Proof using All.
  intros HA. pose proof (fuel_rest E Hlen Hfuel Hdec Hloc s (At_inv E _ _ HA)) as Hf.
  destruct HA as (_ & Hr & _). rewrite Hr in Hf. cbn [length] in Hf. unfold loop_fuel.
  destruct (e_fuel E) as [|[|n]]; try lia. eauto.
Qed.

Lemma addons_cons perf accr r s : At s (addon_text perf accr ++ r) ->
  (perf <> None \/ accr <> None) ->
  match perf with Some ts => Forall lex_commodity ts | None => True end ->
  match accr with Some a => LexAccrual a | None => True end ->
  fr r <> 64 ->
  exists ad s', parse_addons E s = Ok ad s' /\ At s' r /\ off s < off s' /\
                sem_perf (ad_perf ad) = perf /\ sem_accr (ad_accrual ad) = accr.
Proof using All.
  intros HA Hsome Hp Ha H64. unfold parse_addons. cbv zeta.
  set (sc := new_scope DAddons s).
  assert (Hf : exists n, loop_fuel E = S (S n)).
  { destruct accr as [a|]; [|destruct perf as [ts|]; [|tauto]].
    - unfold addon_text, accr_line in HA. change s_accrue with (64 :: 97 :: (skipn 2 kw_accrue ++ [32])) in HA.
      rewrite <- !app_assoc in HA. cbn [app] in HA. eapply fuel_two; eauto.
    - unfold addon_text, perf_line in HA. change s_perf_open with (64 :: 112 :: (skipn 2 kw_performance ++ [40])) in HA.
      cbn [app] in HA. rewrite <- !app_assoc in HA. cbn [app] in HA. eapply fuel_two; eauto. }
  destruct Hf as (n & Hf). rewrite Hf.
  assert (Hnot64 : forall s1, At s1 r -> negb (cur s1 =? 64) = true).
  { intros s1 A1. rewrite (At_cur s1 _ A1). apply negb_true_iff. now apply Z.eqb_neq. }
  destruct accr as [a|]; [destruct perf as [ts|]|destruct perf as [ts|]; [|tauto]]; unfold addon_text in HA.
  - (* both *)
    rewrite <- app_assoc in HA.
    destruct (addons_step_accr sc zero_addons a _ s HA Ha eq_refl) as (acr & s1 & A1 & S1 & L1 & Heq1).
    destruct (addons_step_perf sc (mkAddons (ad_range zero_addons) (ad_perf zero_addons) acr) ts r s1 A1 Hp eq_refl)
      as (p & s2 & A2 & S2 & L2 & Heq2).
    eexists _, s2. split; [|split; [exact A2|split; [lia|]]].
    + apply annot_ok. rewrite Heq1. apply ifM_false.
      { rewrite (At_cur s1 _ A1). unfold perf_line, s_perf_open. cbn [app]. rewrite (fr_ascii dec Hdec 64 _) by lia. reflexivity. }
      rewrite Heq2. apply ifM_true; [now apply Hnot64|]. reflexivity.
    + prj. auto.
  - (* accrual only *)
    rewrite app_nil_r in HA.
    destruct (addons_step_accr sc zero_addons a _ s HA Ha eq_refl) as (acr & s1 & A1 & S1 & L1 & Heq1).
    eexists _, s1. split; [|split; [exact A1|split; [lia|]]].
    + apply annot_ok. rewrite Heq1. apply ifM_true; [now apply Hnot64|]. reflexivity.
    + prj. split; [reflexivity|exact S1].
  - (* performance only *)
    cbn [app] in HA.
    destruct (addons_step_perf sc zero_addons ts r s HA Hp eq_refl) as (p & s1 & A1 & S1 & L1 & Heq1).
    eexists _, s1. split; [|split; [exact A1|split; [lia|]]].
    + apply annot_ok. rewrite Heq1. apply ifM_true; [now apply Hnot64|]. reflexivity.
    + prj. split; [exact S1|reflexivity].
Qed.

Definition trx_body (pad : Z) (date desc : str) (bs : list sem_booking) : str :=
  date ++ s_sp ++ s_quote ++ desc ++ s_quote ++ s_nl ++
  concat (map (fun b => render_posting dec pad b ++ s_nl) bs).

Lemma trx_body_cons pad date desc bs r s :
  At s (trx_body pad date desc bs ++ r) -> date_ok date -> lex_quoted desc -> bs <> [] -> Forall LexBooking bs ->
  blankstart r ->
  exists s2 s3 q bs' s4,
    parse_date E s = Ok (mkRange (off s) (off s2)) s2 /\
    read_whitespace1 E s2 = Ok (mkRange (off s2) (off s3)) s3 /\
    cur_is 34 s3 = true /\
    (forall sc ad, parse_transaction E sc (mkRange (off s) (off s2)) ad s3 =
                   Ok (mkTrx (mkRange (sc_start sc) (off s4)) (mkRange (off s) (off s2)) q bs' ad) s4) /\
    At s4 r /\ off s < off s4 /\
    slice t (off s) (off s2) = date /\ cut t (qs_content q) = desc /\ map (sem_of_booking t) bs' = bs.
Proof using All.
  intros HA Hd Hq Hne Hl Hr. unfold trx_body, s_sp, s_quote, s_nl in HA. rewrite <- !app_assoc in HA. cbn [app] in HA.
  destruct (date_cons date s _ HA (proj1 Hd)) as (s2 & H2 & A2).
  destruct (sp_cons _ s2 A2) as (s3 & H3 & A3). { apply tokstart_ascii; [lia|cbn [In]; lia]. }
  destruct (quoted_cons desc s3 _ A3 Hq) as (q & s4 & H4 & A4 & Hqr & Hqc).
  destruct (rest_nl_cons [] s4 _ A4) as (rg & s5 & H5 & A5). { constructor. }
  destruct (bookings_loop_cons pad bs (loop_fuel E) s5 r A5 Hne Hl Hr) as (bs' & s6 & H6 & A6 & S6).
  { exact (At_fuel E Hlen Hfuel Hdec Hloc s5 _ r A5). }
  exists s2, s3, q, bs', s6. split; [exact H2|]. split; [exact H3|].
  split; [unfold cur_is; rewrite (At_cur s3 _ A3), (fr_ascii dec Hdec 34 _) by lia; reflexivity|].
  split; [|split; [exact A6|split; [|split; [apply (At_slice s date _ s2 HA A2)|split; [exact Hqc|exact S6]]]]].
  - intros sc ad. unfold parse_transaction. apply annot_ok. run H4. run H5. run H6. reflexivity.
  - pose proof (At_off s _ _ s2 HA A2) as O2. destruct (lex_date_first dec digit Hdec date [] (proj1 Hd)) as (_ & _ & Hne').
    assert (1 <= zlen date).
    { destruct date; [cbn [RoundTripBase.fr] in Hne'; congruence|]. rewrite zlen_cons. pose proof (zlen_nonneg date). lia. }
    pose proof (RoundTripBase.At_len E Hlen Hfuel Hdec Hloc s2 _ A2) as L2.
    pose proof (RoundTripBase.At_len E Hlen Hfuel Hdec Hloc s6 _ A6) as L6.
    repeat (rewrite ?zlen_cons, ?zlen_app in L2).
    pose proof (zlen_nonneg desc). pose proof (zlen_nonneg (concat (map (fun b => render_posting dec pad b ++ [10]) bs))).
    lia.
Qed.

Lemma trx_cons pad date desc bs perf accr x r s :
  render_sem dec pad (SemTrx date desc bs perf accr) = Some x -> At s (x ++ r) ->
  LexDir (SemTrx date desc bs perf accr) -> blankstart r ->
  exists d s', parse_directive E s = Ok d s' /\ At s' r /\ d_range d = mkRange (off s) (off s') /\
               sem_of_directive t d = SemTrx date desc bs perf accr.
Proof using All.
  intros Hx HA (Hd & Hq & Hne & Hl & Hp & Ha) Hr. cbn [render_sem] in Hx. injection Hx as Hx'. subst x.
  assert (HA' : At s (addon_text perf accr ++ trx_body pad date desc bs ++ r)).
  { match type of HA with At s ?y => replace (addon_text perf accr ++ trx_body pad date desc bs ++ r) with y; [exact HA|] end.
    unfold addon_text, accr_line, perf_line, trx_body, accr_text.
    unfold s_accrue, s_sp, s_nl, s_perf_open, s_perf_close, s_quote.
    destruct accr, perf; repeat (cbn [app]; rewrite <- !app_assoc); reflexivity. }
  clear HA. destruct (date_start_facts date (skipn (length date) (trx_body pad date desc bs ++ r)) Hd) as (H64 & H105 & _).
  assert (Hbody : trx_body pad date desc bs ++ r = date ++ skipn (length date) (trx_body pad date desc bs ++ r)).
  { unfold trx_body. rewrite <- app_assoc. rewrite skipn_app, skipn_all, Nat.sub_diag. reflexivity. }
  rewrite <- Hbody in H64, H105.
  assert (Hcases : (perf = None /\ accr = None) \/ (perf <> None \/ accr <> None)).
  { destruct perf, accr; auto; right; (left; discriminate) || (right; discriminate). }
  destruct Hcases as [(-> & ->)|Hsome].
  - (* no addons *)
    cbn [addon_text app] in HA'.
    destruct (trx_body_cons pad date desc bs r s HA' Hd Hq Hne Hl Hr)
      as (s2 & s3 & q & bs' & s4 & H2 & H3 & H34 & H4 & A4 & Hlt & Hsl & Hqc & Hbs).
    eexists _, s4. split; [|split; [exact A4|split]].
    + unfold parse_directive. cbv zeta. apply annot_ok.
      eapply bind_ok. { apply ifM_false; [|reflexivity]. unfold cur_is. rewrite (At_cur s _ HA'). now apply Z.eqb_neq. }
      cbv beta. apply ifM_false. { unfold cur_is. rewrite (At_cur s _ HA'). now apply Z.eqb_neq. }
      run H2. run H3. apply ifM_true; [exact H34|]. run (H4 (new_scope DDir s) zero_addons). reflexivity.
    + reflexivity.
    + unfold sem_of_directive. prj. unfold cut at 1. prj. rewrite Hsl, Hqc, Hbs. reflexivity.
  - destruct (addons_cons perf accr _ s HA' Hsome Hp Ha H64) as (ad & s1 & H1 & A1 & L1 & Sp & Sa).
    destruct (trx_body_cons pad date desc bs r s1 A1 Hd Hq Hne Hl Hr)
      as (s2 & s3 & q & bs' & s4 & H2 & H3 & H34 & H4 & A4 & Hlt & Hsl & Hqc & Hbs).
    eexists _, s4. split; [|split; [exact A4|split]].
    + unfold parse_directive. cbv zeta. apply annot_ok.
      eapply bind_ok.
      { apply ifM_true; [|exact H1]. unfold cur_is. rewrite (At_cur s _ HA').
        destruct accr; [|destruct perf; [|tauto]]; unfold addon_text, accr_line, perf_line, s_accrue, s_perf_open;
          cbn [app]; rewrite (fr_ascii dec Hdec 64 _) by lia; reflexivity. }
      cbv beta. apply ifM_false. { unfold cur_is. rewrite (At_cur s1 _ A1). now apply Z.eqb_neq. }
      run H2. run H3. apply ifM_true; [exact H34|]. run (H4 (new_scope DDir s) ad). reflexivity.
    + reflexivity.
    + unfold sem_of_directive. prj. unfold cut at 1. prj. rewrite Hsl, Hqc, Hbs.
      unfold sem_perf in Sp. unfold sem_accr, sem_accrual_of in Sa. rewrite Sp, Sa. reflexivity.
Qed.

Theorem directive_cons pad sd x r s :
  render_sem dec pad sd = Some x -> At s (x ++ r) -> LexDir sd -> blankstart r ->
  exists d s', parse_directive E s = Ok d s' /\ At s' r /\ d_range d = mkRange (off s) (off s') /\
               sem_of_directive t d = sd.
Proof using All.
  intros Hx HA Hl Hr. pose proof (blankstart_sepr r Hr) as Hsep.
  destruct sd as [date desc bs perf accr|date a|date a|date bs|date c p tg|p|].
  - eapply trx_cons; eauto.
  - assert (Hxe : x = date ++ s_open ++ fst a) by (cbn [render_sem] in Hx; congruence). subst x.
    destruct Hl as (Hd & Ha). rewrite <- !app_assoc in HA.
    exact (RoundTripCons.open_cons E Hlen Hfuel Hdec Hloc Hcls date a r s HA Hd Ha Hsep).
  - assert (Hxe : x = date ++ s_close ++ fst a) by (cbn [render_sem] in Hx; congruence). subst x.
    destruct Hl as (Hd & Ha). rewrite <- !app_assoc in HA.
    exact (RoundTripCons.close_cons E Hlen Hfuel Hdec Hloc Hcls date a r s HA Hd Ha Hsep).
  - destruct Hl as (Hd & Hne & Hbs).
    exact (RoundTripCons.assertion_cons E Hlen Hfuel Hdec Hloc Hcls date bs x r s Hx HA Hd Hne Hbs Hr).
  - assert (Hxe : x = date ++ s_price ++ c ++ s_sp ++ p ++ s_sp ++ tg) by (cbn [render_sem] in Hx; congruence). subst x.
    destruct Hl as (Hd & Hc & Hp & Htg). rewrite <- !app_assoc in HA.
    exact (RoundTripCons.price_cons E Hlen Hfuel Hdec Hloc Hcls date c p tg r s HA Hd Hc Hp Htg Hsep).
  - assert (Hxe : x = s_include ++ p ++ s_quote) by (cbn [render_sem] in Hx; congruence). subst x.
    rewrite <- !app_assoc in HA.
    exact (RoundTripCons.include_cons E Hlen Hfuel Hdec Hloc Hcls p r s HA Hl).
  - destruct Hl.
Qed.

(* the first rune of a rendered directive: '@', a digit that is neither '@' nor a comment
   marker, or 'i': parseFile enters parseDirective *)
Lemma directive_start pad sd x r : render_sem dec pad sd = Some x -> LexDir sd ->
  fr (x ++ r) <> eof /\ ~ In (fr (x ++ r)) [42; 35; 47] /\ (alnum (fr (x ++ r)) = true \/ fr (x ++ r) = 64).
Proof using All.
  intros Hx Hl.
  assert (Hdate : forall date y, date_ok date -> fr ((date ++ y) ++ r) <> eof /\ ~ In (fr ((date ++ y) ++ r)) [42; 35; 47] /\
                                 (alnum (fr ((date ++ y) ++ r)) = true \/ fr ((date ++ y) ++ r) = 64)).
  { intros date y Hd. rewrite <- app_assoc. destruct (date_start_facts date (y ++ r) Hd) as (_ & _ & Ha).
    destruct (lex_date_first dec digit Hdec date (y ++ r) (proj1 Hd)) as (Hf & _ & Hne). rewrite Hf in *.
    split; [assumption|]. split; [|now left].
    pose proof (alnum_not_sep letter digit Hcls _ Ha) as Hn. cbn [In] in *. lia. }
  assert (H64 : forall y, fr (64 :: y) <> eof /\ ~ In (fr (64 :: y)) [42; 35; 47] /\
                          (alnum (fr (64 :: y)) = true \/ fr (64 :: y) = 64)).
  { intros y. rewrite (fr_ascii dec Hdec 64 _) by lia. unfold eof. cbn [In]. split; [lia|]. split; [lia|now right]. }
  destruct sd as [date desc bs perf accr|date a|date a|date bs|date c p tg|p|]; cbn [render_sem] in Hx;
    try (apply some_inj in Hx; subst x).
  - destruct Hl as (Hd & _). destruct accr; [|destruct perf].
    + unfold s_accrue. cbn [app]. apply H64.
    + unfold s_perf_open. cbn [app]. apply H64.
    + cbn [app]. now apply Hdate.
  - apply Hdate; apply Hl.
  - apply Hdate; apply Hl.
  - apply Hdate; apply Hl.
  - apply Hdate; apply Hl.
  - unfold s_include. cbn [app]. rewrite (fr_ascii dec Hdec 105 _) by lia. unfold eof. cbn [In]. split; [lia|]. split; [lia|].
    left. exact (co_i _ _ Hcls).
  - destruct Hl.
Qed.

End WithEnv.
