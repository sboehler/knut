(* The text side of Model/RxSyntax.v.  Every function that reads the expression answers with a remainder
   that is strictly shorter than what it was given, or with an error of regexp/syntax; the one fuelled loop
   (over a bracket expression) gives up only when its fuel does not exceed the length of the text. *)
From Coq Require Import ZArith List Bool Lia.
From Knut Require Import Model.Str Model.Utf8 Model.RxClass Model.RxSyntax.
Import ListNotations.
Open Scope Z_scope.

(* [answers low P r]: r is a result that satisfies P, or an error other than ErrInternal (the branch the Go code
   cannot take); the fuel runs out only if [low]. *)
Definition answers {A} (low : Prop) (P : A -> Prop) (r : res A) : Prop :=
  match r with Ok a => P a | Err e => e <> ErrInternal | OutOfFuel => low end.

(* a reader of the text leaves a remainder shorter than [n]; one without fuel does so for every [low] *)
Definition reads {A} (n : nat) (low : Prop) (r : res (A * str)) : Prop :=
  answers low (fun ar => (length (snd ar) < n)%nat) r.

Lemma reads_weaken {A n m} {low low' : Prop} {r : res (A * str)} :
  reads n low r -> (n <= m)%nat -> (low -> low') -> reads m low' r.
Proof. destruct r as [[a rest]| |]; cbn [reads answers snd]; [lia|auto|auto]. Qed.

Lemma reads_bind {A B n m low} {r : res (A * str)} {k : A -> str -> res (B * str)} :
  reads n low r -> (forall a rest, (length rest < n)%nat -> reads m low (k a rest)) ->
  reads m low (match r with Ok (a, rest) => k a rest | Err e => Err e | OutOfFuel => OutOfFuel end).
Proof. destruct r as [[a rest]| |]; cbn [reads answers snd]; auto. Qed.

Lemma reads_ok {A} n low (a : A) rest : (length rest < n)%nat -> reads n low (Ok (a, rest)).
Proof. intros H. exact H. Qed.

(* every branch of decode on a non-empty text answers with a width from 1 to 4 *)
Lemma decode_width_pos s : s <> [] -> 1 <= snd (decode s).
Proof.
  intros Hs. destruct s as [|s0 t]; [congruence|]. unfold decode.
  repeat match goal with
         | |- context [if ?c then _ else _] => destruct c
         | |- context [match ?l with [] => _ | _ :: _ => _ end] => destruct l
         end; cbn [snd]; lia.
Qed.

(* nextRune: on the empty text it answers with the empty text *)
Lemma next_rune_reads low s : reads (Nat.max 1 (length s)) low (next_rune s).
Proof.
  unfold next_rune. pose proof (decode_width_pos s) as Hw. destruct (decode s) as [c w]. cbn [snd] in Hw.
  destruct ((c =? rune_error) && (w =? 1))%bool; cbn [reads answers snd]; [discriminate|].
  rewrite skipn_length. destruct s as [|b t]; cbn [length]; [lia|]. specialize (Hw ltac:(discriminate)). lia.
Qed.

Lemma next_rune_le low s : reads (S (length s)) low (next_rune s).
Proof. apply (reads_weaken (next_rune_reads low s)); [lia|auto]. Qed.

Lemma hex_loop_reads t : forall r n,
  match hex_loop t r n with
  | Ok (Some (_, rest)) => (length rest < length t)%nat
  | Ok None => True
  | Err e => e <> ErrInternal
  | OutOfFuel => False
  end.
Proof.
  induction t as [|b t' IH]; intros r n; cbn [hex_loop]; [exact I|].
  destruct (128 <=? b).
  { pose proof (next_rune_reads False (b :: t')) as Hn. destruct (next_rune (b :: t')) as [[? ?]| |]; [exact I|exact Hn|exact I]. }
  destruct (b =? 125). { destruct (n =? 0); cbn [length]; [exact I|lia]. }
  destruct (unhex b <? 0); [exact I|]. destruct (max_rune <? r * 16 + unhex b); [exact I|].
  specialize (IH (r * 16 + unhex b) (n + 1)). destruct (hex_loop t' _ _) as [[[? ?]|]| |]; cbn [length]; auto.
Qed.

(* parseEscape *)
Lemma parse_escape_reads low s : reads (length s) low (parse_escape s).
Proof.
  unfold parse_escape. destruct s as [|b0 t0]; [discriminate|]. change (tl (b0 :: t0)) with t0.
  destruct t0 as [|b1 t1] eqn:Et0; [discriminate|]. rewrite <- Et0.
  pose proof (next_rune_reads low t0) as Hn. destruct (next_rune t0) as [[c t]| |]; [|exact Hn|exact Hn].
  assert (Ht : (length t < length t0)%nat) by (rewrite Et0 in *; cbn [reads answers snd length] in *; lia).
  change (length (b0 :: t0)) with (S (length t0)).
  destruct ((49 <=? c) && (c <=? 55))%bool.
  { destruct t as [|d1 t2]; [discriminate|]. destruct (is_octal d1); [|discriminate].
    destruct t2 as [|d2 t3]; [|destruct (is_octal d2)]; apply reads_ok; cbn [length] in *; lia. }
  destruct (c =? 48).
  { destruct t as [|d1 t2]; [|destruct (is_octal d1); [destruct t2 as [|d2 t3]; [|destruct (is_octal d2)]|]];
      apply reads_ok; cbn [length] in *; lia. }
  destruct (c =? 120).
  { destruct t as [|d t'] eqn:Et; [discriminate|]. rewrite <- Et in *.
    refine (reads_bind (next_rune_le low t) _).
    intros c1 t1' H1. destruct (c1 =? 123).
    - pose proof (hex_loop_reads t1' 0 0) as Hh.
      destruct (hex_loop t1' 0 0) as [[[x rr]|]| |]; cbn [reads answers snd]; [lia|discriminate|exact Hh|destruct Hh].
    - refine (reads_bind (next_rune_le low t1') _).
      intros c2 t2 H2. destruct ((unhex c1 <? 0) || (unhex c2 <? 0))%bool; [discriminate|apply reads_ok; lia]. }
  assert (Hc : forall x : Z, reads (S (length t0)) low (Ok (x, t))) by (intros x; apply reads_ok; lia).
  destruct (c =? 97); [apply Hc|]. destruct (c =? 102); [apply Hc|]. destruct (c =? 110); [apply Hc|].
  destruct (c =? 114); [apply Hc|]. destruct (c =? 116); [apply Hc|]. destruct (c =? 118); [apply Hc|].
  destruct ((c <? 128) && negb (isalnum c))%bool; [apply Hc|discriminate].
Qed.

(* parseUnicodeClass: s begins with \p or \P *)
Lemma lex_unicode_class_reads low fold r s : (2 <= length s)%nat -> reads (length s) low (lex_unicode_class fold r s).
Proof.
  intros Hs. unfold lex_unicode_class. cbv zeta.
  refine (reads_bind (next_rune_le low (skipn 2 s)) _).
  intros c0 t1 H1. rewrite skipn_length in H1.
  refine (reads_bind (n := length s) _ _).
  { destruct (c0 =? 123); [|apply reads_ok; lia].
    destruct (index_byte 125 s) as [e|]; [|destruct (check_utf8 0 s); discriminate].
    destruct (check_utf8 0 _); [|discriminate]. apply reads_ok. rewrite skipn_length. lia. }
  intros name rest Hr.
  match goal with |- reads _ _ (let '(_, _) := ?x in _) => destruct x as [ng nm] end.
  destruct (unicode_table nm) as [[tab ftab]|]; [exact Hr|discriminate].
Qed.

(* parseClassChar *)
Lemma class_char_reads low s : reads (length s) low (class_char s).
Proof.
  unfold class_char. destruct s as [|b t] eqn:Es; [discriminate|]. rewrite <- Es.
  destruct (b =? 92); [apply parse_escape_reads|].
  apply (reads_weaken (next_rune_reads low s)); [subst s; cbn [length]; lia|auto].
Qed.

(* the loop of parseClass: every turn reads something, at least the closing bracket *)
Lemma class_loop_reads fuel : forall fold t first class,
  reads (length t) (fuel <= length t)%nat (class_loop fuel fold t first class).
Proof.
  induction fuel as [|fuel IH]; intros fold t first class; cbn [class_loop]; [cbn [reads answers snd]; lia|].
  assert (Hnext : forall cl t1, (length t1 < length t)%nat ->
                    reads (length t) (S fuel <= length t)%nat (class_loop fuel fold t1 false cl)).
  { intros cl t1 Hlt. apply (reads_weaken (IH fold t1 false cl)); lia. }
  set (range := match class_char t with Ok (lo, t1) => _ | Err e => Err e | OutOfFuel => OutOfFuel end).
  assert (Hrange : reads (length t) (S fuel <= length t)%nat range).
  { subst range. refine (reads_bind (class_char_reads _ t) _). intros lo t1 Hlt.
    destruct t1 as [|d [|c1 t2]]; try (apply Hnext; exact Hlt).
    destruct (negb (d =? 45) || (c1 =? 93))%bool; [apply Hnext; exact Hlt|].
    refine (reads_bind (class_char_reads _ (c1 :: t2)) _). intros hi t3 Hlt3.
    destruct (hi <? lo); [discriminate|]. apply Hnext. cbn [length] in *. lia. }
  set (escapes := match t with b :: c0 :: t2 => _ | _ => range end).
  assert (Hesc : reads (length t) (S fuel <= length t)%nat escapes).
  { subst escapes. destruct t as [|b [|c0 t2]]; try exact Hrange.
    destruct (negb (b =? 92)); [exact Hrange|].
    destruct ((c0 =? 112) || (c0 =? 80))%bool.
    - refine (reads_bind (lex_unicode_class_reads _ fold class (b :: c0 :: t2) _) Hnext). cbn [length]. lia.
    - destruct (perl_group c0); [|exact Hrange]. apply Hnext. cbn [length]. lia. }
  set (named := match t with b :: c0 :: ((_ :: _) as t2) => _ | _ => escapes end).
  assert (Hnamed : reads (length t) (S fuel <= length t)%nat named).
  { subst named. destruct t as [|b [|c0 [|b2 t3]]]; try exact Hesc.
    destruct ((b =? 91) && (c0 =? 58))%bool; [|exact Hesc].
    destruct (index_pair 58 93 (b2 :: t3)) as [i|]; [|exact Hesc].
    destruct (posix_group (firstn i (b2 :: t3))); [|discriminate].
    apply Hnext. rewrite skipn_length. cbn [length]. lia. }
  destruct t as [|b t']; [exact Hrange|].
  destruct ((b =? 93) && negb first)%bool; [apply reads_ok; cbn [length]; lia|].
  destruct (b =? 93); [exact Hrange|exact Hnamed].
Qed.

(* parseClass *)
Lemma lex_class_reads fuel fold b t : reads (S (length t)) (fuel <= length t)%nat (lex_class fuel fold (b :: t)).
Proof.
  unfold lex_class. cbn [tl].
  destruct (match t with c0 :: t' => if c0 =? 94 then (true, t') else (false, t) | [] => (false, t) end) as [ng t0] eqn:E.
  assert (Hle : (length t0 <= length t)%nat).
  { destruct t as [|c0 t']; [injection E as _ <-; lia|]. destruct (c0 =? 94); injection E as _ <-; cbn [length]; lia. }
  pose proof (class_loop_reads fuel fold t0 true []) as Hl.
  destruct (class_loop fuel fold t0 true []) as [[class rest0]| |]; cbn [reads answers snd] in *; [lia|exact Hl|lia].
Qed.

(* parsePerlFlags *)
Lemma flags_loop_reads low t : forall f neg saw, reads (length t) low (flags_loop t f neg saw).
Proof.
  induction t as [|b t' IH]; intros f neg saw; cbn [flags_loop]; [discriminate|].
  assert (Hnext : forall f neg saw, reads (length (b :: t')) low (flags_loop t' f neg saw)).
  { intros f' neg' saw'. apply (reads_weaken (IH f' neg' saw')); [cbn [length]; lia|auto]. }
  destruct (128 <=? b).
  { pose proof (next_rune_reads low (b :: t')) as Hn.
    destruct (next_rune (b :: t')) as [[? ?]| |]; [discriminate|exact Hn|discriminate]. }
  destruct (b =? 105); [apply Hnext|]. destruct (b =? 109); [apply Hnext|].
  destruct (b =? 115); [apply Hnext|]. destruct (b =? 85); [apply Hnext|].
  destruct (b =? 45). { destruct neg; [discriminate|apply Hnext]. }
  destruct ((b =? 58) || (b =? 41))%bool; [|discriminate].
  destruct (neg && negb saw)%bool; [discriminate|]. apply reads_ok. cbn [length]. lia.
Qed.

Lemma lex_perl_flags_reads low f s : (2 <= length s)%nat -> reads (length s) low (lex_perl_flags f s).
Proof.
  intros Hs. cbv beta delta [lex_perl_flags].
  match goal with |- reads _ _ (let named := ?g in _) => assert (Hnamed : forall start, reads (length s) low (g start)) end.
  { intros start. cbv beta zeta. destruct (index_byte 62 s) as [e|]; [|destruct (check_utf8 0 s); discriminate].
    destruct (negb _); [discriminate|]. destruct (valid_capture_name _); [|discriminate].
    apply reads_ok. rewrite skipn_length. lia. }
  assert (Hplain : reads (length s) low (flags_loop (skipn 2 s) f false false)).
  { apply (reads_weaken (flags_loop_reads low _ _ _ _)); [rewrite skipn_length; lia|auto]. }
  cbv zeta. destruct s as [|b [|c [|c2 [|c3 rest0]]]]; try exact Hplain.
  destruct ((c2 =? 80) && (c3 =? 60))%bool.
  - destruct rest0; [exact Hplain|apply Hnamed].
  - destruct (c2 =? 60); [apply Hnamed|exact Hplain].
Qed.

(* parseRepeat *)
Lemma span_digits_le s : forall d r, span_digits s = (d, r) -> (length r <= length s)%nat.
Proof.
  induction s as [|c t IH]; intros d r; cbn [span_digits]; [intros H; injection H as _ <-; lia|].
  destruct (is_dec_digit c); [|intros H; injection H as _ <-; lia].
  destruct (span_digits t) as [d0 r0]. intros H. injection H as _ <-. specialize (IH d0 r0 eq_refl). cbn [length]. lia.
Qed.

Lemma parse_int_le s n r : parse_int s = Some (n, r) -> (length r <= length s)%nat.
Proof.
  unfold parse_int. destruct s as [|c t]; [discriminate|]. destruct (negb (is_dec_digit c)); [discriminate|].
  destruct ((c =? 48) && _)%bool; [discriminate|].
  destruct (span_digits (c :: t)) as [ds rest] eqn:E. intros H. injection H as _ <-. exact (span_digits_le _ _ _ E).
Qed.

Lemma parse_repeat_le s mn mx r : parse_repeat s = Some (mn, mx, r) -> (length r <= length s)%nat.
Proof.
  unfold parse_repeat. destruct (parse_int s) as [[n s1]|] eqn:E1; [|discriminate]. apply parse_int_le in E1.
  destruct s1 as [|c s2]; [discriminate|]. destruct (c =? 44).
  - destruct s2 as [|d s3]; [discriminate|]. destruct (d =? 125).
    + intros H. injection H as _ _ <-. cbn [length] in *. lia.
    + destruct (parse_int (d :: s3)) as [[m s4]|] eqn:E2; [|discriminate]. apply parse_int_le in E2.
      destruct s4 as [|e s5]; [discriminate|]. destruct (e =? 125); [|discriminate].
      intros H. injection H as _ _ <-. cbn [length] in *. lia.
  - destruct (c =? 125); [|discriminate]. intros H. injection H as _ _ <-. cbn [length] in *. lia.
Qed.

(* one turn of the parse loop reads at least the byte b *)
Theorem lex_reads fuel f b t' : reads (S (length t')) (fuel <= length t')%nat (lex fuel f b t').
Proof.
  unfold lex. cbv zeta.
  assert (Hhere : forall tok : token, reads (S (length t')) (fuel <= length t')%nat (Ok (tok, t'))) by (intros tok; apply reads_ok; lia).
  destruct (b =? 40).
  { destruct t' as [|c t'']; [apply Hhere|]. destruct (c =? 63); [|apply Hhere].
    apply lex_perl_flags_reads. cbn [length]. lia. }
  destruct (b =? 124); [apply Hhere|]. destruct (b =? 41); [apply Hhere|]. destruct (b =? 94); [apply Hhere|].
  destruct (b =? 36); [apply Hhere|]. destruct (b =? 46); [apply Hhere|].
  destruct (b =? 91).
  { refine (reads_bind (lex_class_reads fuel _ b t') _). intros c rest Hr. exact Hr. }
  destruct ((b =? 42) || (b =? 43) || (b =? 63))%bool.
  { destruct t' as [|c a]; [|destruct (c =? 63)]; cbv beta iota zeta; apply reads_ok; cbn [length]; lia. }
  destruct (b =? 123).
  { destruct (parse_repeat t') as [[[mn mx] after]|] eqn:Hr; [|apply Hhere].
    apply parse_repeat_le in Hr. match goal with |- reads _ _ (if ?c then _ else _) => destruct c end; [discriminate|].
    destruct after as [|c a]; [|destruct (c =? 63)]; cbv beta iota zeta; apply reads_ok; cbn [length] in *; lia. }
  destruct (b =? 92).
  { assert (Hplain : reads (S (length t')) (fuel <= length t')%nat
                       (match parse_escape (b :: t') with Ok (c, rest) => Ok (TEscLit c, rest) | Err e => Err e | OutOfFuel => OutOfFuel end)).
    { refine (reads_bind (parse_escape_reads _ (b :: t')) _). intros c rest Hr. exact Hr. }
    destruct t' as [|c t'']; [exact Hplain|].
    assert (Hthere : forall tok : token, reads (S (length (c :: t''))) (fuel <= length (c :: t''))%nat (Ok (tok, t'')))
      by (intros tok; apply reads_ok; cbn [length]; lia).
    destruct (c =? 65); [apply Hthere|]. destruct (c =? 98); [apply Hthere|]. destruct (c =? 66); [apply Hthere|].
    destruct (c =? 67); [discriminate|].
    destruct (c =? 81).
    { (* \Q *) destruct (index_pair 92 69 t'') as [i|].
      - destruct (runes_of 0 (firstn i t'')) as [rs bad]. apply reads_ok. cbn [length]. rewrite skipn_length. lia.
      - destruct (runes_of 0 t'') as [rs bad]. apply reads_ok. cbn [length]. lia. }
    destruct (c =? 122); [apply Hthere|].
    destruct ((c =? 112) || (c =? 80))%bool.
    { refine (reads_bind (lex_unicode_class_reads _ _ _ (b :: c :: t'') _) _); [cbn [length]; lia|].
      intros r rest Hr. exact Hr. }
    destruct (perl_group c); [apply Hthere|exact Hplain]. }
  refine (reads_bind (next_rune_reads _ (b :: t')) _). intros c rest Hr. exact Hr.
Qed.

Corollary lex_le fuel f b t' tok rest : lex fuel f b t' = Ok (tok, rest) -> (length rest <= length t')%nat.
Proof. intros H. pose proof (lex_reads fuel f b t') as Hr. rewrite H in Hr. cbn [reads answers snd] in Hr. lia. Qed.
