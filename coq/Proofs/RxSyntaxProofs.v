(* The parser side of Model/RxSyntax.v: neither the parse loop nor factor runs out of fuel, and the branch
   that stands for "cannot happen in the Go code" (ErrInternal) is not reached: rx_parse is total. *)
From Coq Require Import ZArith List Bool Lia.
From Knut Require Import Model.Str Model.Utf8 Model.RxTables Model.RxClass Model.RxSyntax Proofs.RxLexProofs.
Import ListNotations.
Open Scope Z_scope.

Section NodeInd.
Variable P : node -> Prop.
Hypothesis H : forall i o f subs r c a b k m, Forall P subs -> P (Node i o f subs r c a b k m).
Fixpoint node_ind2 (n : node) : P n :=
  match n with
  | Node i o f subs r c a b k m =>
    H i o f subs r c a b k m
      ((fix go (l : list node) : Forall P l :=
          match l with [] => Forall_nil _ | x :: t => Forall_cons _ (node_ind2 x) (go t) end) subs)
  end.
End NodeInd.

(* here nothing may run out of fuel *)
Definition clean {A} (r : res A) : Prop := answers False (fun _ => True) r.

Lemma answers_weaken {A} (P Q : A -> Prop) r : answers False P r -> (forall a, P a -> Q a) -> answers False Q r.
Proof. destruct r; cbn [answers]; auto. Qed.

Lemma clean_bind (r : res pst) f : clean r -> (forall p, clean (f p)) -> clean (bind r f).
Proof. intros Hr Hf. destruct r; cbn [bind]; [apply Hf|exact Hr|exact Hr]. Qed.

Lemma check_size_clean re p : clean (check_size re p).
Proof.
  unfold check_size. destruct (p_size p).
  - destruct (calc_size true re p0). destruct (max_size <? z); [discriminate|exact I].
  - match goal with |- clean (if ?c then _ else _) => destruct c end; [exact I|].
    match goal with |- clean (match ?c with _ => _ end) => destruct c end; [|discriminate].
    match goal with |- clean (let '(_, _) := ?c in _) => destruct c end.
    destruct (max_size <? z); [discriminate|exact I].
Qed.

Lemma check_height_clean re p : clean (check_height re p).
Proof.
  unfold check_height. destruct (num_regexp p <? max_height); [exact I|].
  destruct (p_height p).
  - destruct (calc_height true re p0). destruct (max_height <? z); [discriminate|exact I].
  - match goal with |- clean (match ?c with _ => _ end) => destruct c end; [|discriminate].
    match goal with |- clean (let '(_, _) := ?c in _) => destruct c end.
    destruct (max_height <? z); [discriminate|exact I].
Qed.

Lemma check_limits_clean re p : clean (check_limits re p).
Proof.
  unfold check_limits. destruct (max_runes <? p_numrunes p); [discriminate|].
  pose proof (check_size_clean re p) as Hs. destruct (check_size re p); auto. apply check_height_clean.
Qed.

Lemma push_clean re p : clean (push re p).
Proof.
  unfold push. cbv zeta.
  assert (Hlit : forall c fl q, clean (let '(pushed, p') := maybe_concat (Some c) fl q in
                                      if pushed then Ok p' else push_raw (set_flags (set_cls (set_runes (set_op re OpLiteral) [c]) []) fl) p')).
  { intros c fl q. destruct (maybe_concat (Some c) fl q) as [[|] p']; [exact I|apply check_limits_clean]. }
  destruct (n_op re); try apply check_limits_clean.
  destruct (n_cls re) as [|[a b] [|[a' b'] [|? ?]]]; try apply check_limits_clean.
  - destruct (a =? b); [apply Hlit|]. destruct (_ && _)%bool; [apply Hlit|apply check_limits_clean].
  - destruct (_ && _)%bool; [apply Hlit|apply check_limits_clean].
Qed.

Lemma literal_clean r p : clean (literal r p).
Proof. unfold literal. destruct (new_regexp p OpLiteral). apply push_clean. Qed.

Lemma push_op_clean o p : clean (push_op o p).
Proof. unfold push_op. destruct (new_regexp p o). apply push_clean. Qed.

Lemma repeat_clean o mn mx lz lr p : clean (repeat o mn mx lz lr p).
Proof.
  unfold repeat. destruct lr; [discriminate|]. destruct (p_stack p) as [|sub rest]; [discriminate|].
  destruct (is_pseudo (n_op sub)); [discriminate|]. destruct (new_regexp p o) as [re q]. destruct re.
  match goal with |- clean (match ?c with _ => _ end) => pose proof (check_limits_clean _ _ : clean c) as Hc; destruct c end; auto.
  destruct (_ && _)%bool; [discriminate|exact I].
Qed.

Lemma wsum_eq l : (fix go (l : list node) : nat := match l with [] => O | s :: t => (weight s + go t)%nat end) l = weights l.
Proof. induction l as [|x t IH]; cbn [weights fold_right]; [reflexivity|]. rewrite IH. reflexivity. Qed.

Lemma weight_unfold i o f subs r c a b k m :
  weight (Node i o f subs r c a b k m) =
  match o with
  | OpLiteral => length r
  | OpEmptyMatch => O
  | OpConcat | OpAlternate => weights subs
  | OpCapture | OpStar | OpPlus | OpQuest | OpRepeat => S (weights subs)
  | _ => 1%nat
  end.
Proof. cbn [weight]. rewrite wsum_eq. reflexivity. Qed.

Lemma weights_cons x l : weights (x :: l) = (weight x + weights l)%nat.
Proof. reflexivity. Qed.
Lemma weights_app a b : weights (a ++ b) = (weights a + weights b)%nat.
Proof. induction a as [|x t IH]; cbn [app]; [reflexivity|]. rewrite !weights_cons, IH. lia. Qed.
Lemma weights_rev l : weights (rev l) = weights l.
Proof. induction l as [|x t IH]; [reflexivity|]. cbn [rev]. rewrite weights_app, IH, !weights_cons. cbn [weights fold_right]. lia. Qed.

Lemma weight_add_eq n : forall acc, weight_add n acc = (weight n + acc)%nat.
Proof.
  induction n as [i o f subs r c a b k m IH] using node_ind2. intros acc.
  assert (Hgo : forall acc, (fix go (l : list node) (acc : nat) : nat :=
                               match l with [] => acc | s :: t => go t (weight_add s acc) end) subs acc = (weights subs + acc)%nat).
  { induction IH as [|x t Hx Ht IHt]; intros acc0; [reflexivity|]. rewrite IHt, Hx, weights_cons. lia. }
  rewrite weight_unfold. cbn [weight_add]. rewrite Hgo. destruct o; lia.
Qed.

Lemma weights_add_eq l : weights_add l = weights l.
Proof.
  unfold weights_add.
  assert (H : forall acc, fold_left (fun a n => weight_add n a) l acc = (weights l + acc)%nat).
  { induction l as [|x t IH]; intros acc; cbn [fold_left]; [reflexivity|]. rewrite IH, weight_add_eq, weights_cons. lia. }
  rewrite H. lia.
Qed.

Lemma op_eqb_eq a b : op_eqb a b = true -> a = b.
Proof. unfold op_eqb. intros H. apply Z.eqb_eq in H. destruct a, b; cbn in H; try reflexivity; discriminate. Qed.

Lemma weight_blank i o : (weight (blank i o) <= 1)%nat.
Proof. unfold blank. rewrite weight_unfold. destruct o; cbn; lia. Qed.
Lemma weight_blank_empty i : weight (blank i OpEmptyMatch) = O.
Proof. reflexivity. Qed.
Lemma weight_new_empty p : weight (fst (new_regexp p OpEmptyMatch)) = O.
Proof. unfold new_regexp. destruct (p_free p); reflexivity. Qed.

Lemma weight_set_subs_alt re l : n_op re = OpAlternate -> weight (set_subs re l) = weights l.
Proof. destruct re. cbn [n_op set_subs]. intros ->. apply weight_unfold. Qed.
Lemma weight_set_subs_concat re l : n_op re = OpConcat -> weight (set_subs re l) = weights l.
Proof. destruct re. cbn [n_op set_subs]. intros ->. apply weight_unfold. Qed.
Lemma new_regexp_op p o : n_op (fst (new_regexp p o)) = o.
Proof. unfold new_regexp. destruct (p_free p); reflexivity. Qed.

(* removeLeadingString *)
(* what goes is what was asked for, as far as the leading string reaches *)
Lemma rls_weight x : forall n,
  (weight (fst (remove_leading_string x n)) + Nat.min n (length (fst (leading_string x))) <= weight x)%nat.
Proof.
  induction x as [i o f subs r c a b k m IH] using node_ind2. intros n.
  unfold leading_string. cbn [remove_leading_string n_op n_subs].
  destruct o; try (cbn; lia).
  - (* literal *) cbn [fst is_lit n_op n_runes op_eqb op_num Z.eqb Pos.eqb]. rewrite !weight_unfold.
    pose proof (skipn_length n r) as Hs. destruct (skipn n r) eqn:E; cbn [length] in *; lia.
  - (* concat *) destruct subs as [|s0 rest]; [cbn; lia|].
    inversion IH as [|? ? Hs0 _]; subst. specialize (Hs0 n).
    assert (Hlead : (length (fst (if is_lit s0 then (n_runes s0, fold_bit s0) else ([], false)))
                     <= length (fst (leading_string s0)))%nat).
    { destruct (is_lit s0) eqn:El; [|cbn [fst length]; lia]. unfold leading_string.
      destruct s0 as [i0 o0 f0 subs0 r0 c0 a0 b0 k0 m0]. unfold is_lit in *. cbn [n_op] in *.
      apply op_eqb_eq in El. subst o0. cbn [n_op op_eqb op_num Z.eqb Pos.eqb fst]. lia. }
    destruct (remove_leading_string s0 n) as [s0' freed]. cbn [fst] in Hs0.
    rewrite (weight_unfold _ OpConcat), weights_cons.
    destruct (op_eqb (n_op s0') OpEmptyMatch).
    + destruct rest as [|y [|z rest']]; cbn [fst]; rewrite ?weight_unfold, ?weights_cons; cbn [weights fold_right]; lia.
    + cbn [fst]. rewrite weight_unfold, weights_cons. lia.
Qed.

(* removeLeadingRegexp *)
Lemma rlr_weight x r p :
  (weight (fst (remove_leading_regexp x r p)) + match leading_regexp x with Some g => weight g | None => O end <= weight x)%nat.
Proof.
  unfold remove_leading_regexp, leading_regexp. destruct x as [i o f subs rs c a b k m]. cbn [n_op n_subs].
  destruct o; try (rewrite weight_new_empty; cbn [weight]; lia).
  destruct subs as [|s0 rest]; [rewrite weight_new_empty; lia|].
  pose proof (weight_unfold i OpConcat f (s0 :: rest) rs c a b k m) as Hw. rewrite weights_cons in Hw.
  assert (Hg : (match (if op_eqb (n_op s0) OpEmptyMatch then None else Some s0) with Some g => weight g | None => O end
                <= weight s0)%nat) by (destruct (op_eqb (n_op s0) OpEmptyMatch); lia).
  destruct rest as [|y [|z rest]]; cbn [fst set_subs set_op]; rewrite ?weight_unfold, ?weights_cons in *; cbn [weights fold_right] in *; lia.
Qed.

Definition good (r : res (list node * pst)) (w : nat) : Prop := answers False (fun lp => (weights (fst lp) <= w)%nat) r.
Definition good1 (r : res (node * pst)) (w : nat) : Prop := answers False (fun xp => (weight (fst xp) <= w)%nat) r.

Definition F_ok (F : list node -> pst -> res (list node * pst)) (b : nat) : Prop :=
  forall l p, (weights l < b)%nat -> good (F l p) (weights l).

Lemma good_weaken r w w' : good r w -> (w <= w')%nat -> good r w'.
Proof. intros H Hle. apply (answers_weaken _ _ r H). intros lp Hlp. lia. Qed.

Lemma weight_op_subs s o : (o = OpAlternate \/ o = OpConcat) -> op_eqb (n_op s) o = true -> weight s = weights (n_subs s).
Proof. intros Ho E. apply op_eqb_eq in E. destruct s as [i o' f subs r c a b k m]. cbn [n_op n_subs] in *. subst o'. rewrite weight_unfold. destruct Ho; subst o; reflexivity. Qed.

Lemma flatten_weights o subs : (o = OpAlternate \/ o = OpConcat) -> forall acc p,
  weights (fst (fold_left (fun st s => if op_eqb (n_op s) o then (fst st ++ n_subs s, reuse (snd st) s) else (fst st ++ [s], snd st))
                          subs (acc, p))) = (weights acc + weights subs)%nat.
Proof.
  intros Ho. induction subs as [|s t IH]; intros acc p; cbn [fold_left]; [cbn [fst]; change (weights []) with O; lia|].
  destruct (op_eqb (n_op s) o) eqn:E; cbn [fst snd]; rewrite IH, weights_app, !weights_cons; change (weights []) with O.
  - rewrite (weight_op_subs s o Ho E). lia.
  - lia.
Qed.

Lemma collapse_f_good F b subs p : F_ok F b -> (weights subs < b)%nat ->
  good1 (collapse_f F subs OpAlternate p) (weights subs).
Proof.
  intros HF Hb. unfold collapse_f.
  (* the case of several (or no) alternatives, before subs is taken apart *)
  match goal with |- good1 (match subs with [] => ?body | _ :: _ => _ end) _ => assert (Hgen : good1 body (weights subs)) end.
  { pose proof (new_regexp_op p OpAlternate) as Hop. destruct (new_regexp p OpAlternate) as [re p0]. cbn [fst] in Hop.
    pose proof (flatten_weights OpAlternate subs (or_introl eq_refl) [] p0) as Hfl.
    destruct (fold_left _ subs ([], p0)) as [l p1]. cbn [fst] in Hfl. change (weights []) with O in Hfl.
    pose proof (HF l p1 ltac:(lia)) as Hw. destruct (F l p1) as [[l' p']| |]; [|exact Hw|destruct Hw].
    cbn [good answers fst] in Hw.
    assert (Hset : good1 (Ok (set_subs re l', p')) (weights subs)).
    { cbn [good1 answers fst]. rewrite (weight_set_subs_alt _ _ Hop). lia. }
    destruct l' as [|x [|y t]]; try exact Hset.
    cbn [good1 answers fst weights fold_right] in *. lia. }
  destruct subs as [|x [|y t]]; try exact Hgen.
  cbn [good1 answers fst weights fold_right]. lia.
Qed.

(* the loops over a run stop at the first error *)
Lemma fold_err {A B} (step : res A -> B -> res A) e : (forall x, step (Err e) x = Err e) -> forall l, fold_left step l (Err e) = Err e.
Proof. intros Hs. induction l as [|x t IH]; cbn [fold_left]; [reflexivity|]. rewrite Hs. exact IH. Qed.

(* the loop of a run of round 1 *)
Lemma fold_step1 n run : forall acc p,
  let step := (fun (st : res (list node * pst)) (x : node) =>
      match st with
      | Ok (acc, p) =>
        let '(x', freed) := remove_leading_string x n in
        match check_limits x' (reuse_ids p freed) with
        | Ok p' => Ok (acc ++ [x'], p')
        | Err e => Err e
        | OutOfFuel => OutOfFuel
        end
      | r => r
      end) in
  answers False (fun lp => fst lp = acc ++ map (fun x => fst (remove_leading_string x n)) run) (fold_left step run (Ok (acc, p))).
Proof.
  induction run as [|x t IH]; intros acc p step; cbn [fold_left].
  - cbn [answers fst map]. now rewrite app_nil_r.
  - cbn [step]. destruct (remove_leading_string x n) as [x' freed] eqn:Ex.
    pose proof (check_limits_clean x' (reuse_ids p freed)) as Hcl.
    destruct (check_limits x' (reuse_ids p freed)) as [p1| |]; [|rewrite fold_err by reflexivity; exact Hcl|destruct Hcl].
    apply (answers_weaken _ _ _ (IH (acc ++ [x']) p1)). intros lp ->. cbn [map]. rewrite Ex. cbn [fst].
    now rewrite <- app_assoc.
Qed.

Lemma weights_map_rls n l : (weights (map (fun x => fst (remove_leading_string x n)) l) <= weights l)%nat.
Proof. induction l as [|x t IH]; cbn [map]; [lia|]. rewrite !weights_cons. pose proof (rls_weight x n). lia. Qed.

(* [run] is the run as factor1 holds it, last alternative first *)
Lemma flush1_good F b run str sf out p :
  F_ok F b -> (weights run <= b)%nat ->
  (run <> [] -> exists x0 rest suffix, rev run = x0 :: rest /\ fst (leading_string x0) = str ++ suffix) ->
  ((2 <= length run)%nat -> str <> []) ->
  good (flush1 F (rev run) str sf out p) (weights run + weights out).
Proof.
  intros HF Hb Hinv Hstr. unfold flush1. rewrite <- (weights_rev run) in Hb |- *. rewrite <- (rev_length run) in Hstr.
  assert (Hne : rev run <> [] -> run <> []) by (destruct run; [intros H; exact H|discriminate]).
  destruct (rev run) as [|x0 [|x1 rest]].
  - cbn [good answers fst]. change (weights []) with O. lia.
  - cbn [good answers fst]. rewrite !weights_cons. change (weights []) with O. lia.
  - destruct (Hinv (Hne ltac:(discriminate))) as (y0 & rest0 & suffix & Erun & Elead). injection Erun as <- <-.
    specialize (Hstr ltac:(cbn [length]; lia)).
    pose proof (new_regexp_op p OpLiteral) as Hop0. destruct (new_regexp p OpLiteral) as [prefix p0]. cbn [fst] in Hop0. cbv zeta.
    pose proof (fold_step1 (length str) (x0 :: x1 :: rest) [] p0) as Hl. cbv zeta in Hl.
    match goal with |- good (match ?f with _ => _ end) _ => destruct f as [[run' p1]| |] end; [|exact Hl|destruct Hl].
    + cbn [answers fst app] in Hl.
      assert (Hw : (weights run' + length str <= weights (x0 :: x1 :: rest))%nat).
      { rewrite Hl. cbn [map]. rewrite !weights_cons. pose proof (weights_map_rls (length str) rest) as Hr.
        pose proof (rls_weight x1 (length str)).
        assert (Hx0 : (length str <= length (fst (leading_string x0)))%nat) by (rewrite Elead, app_length; lia).
        pose proof (rls_weight x0 (length str)). lia. }
      assert (Hpos : (1 <= length str)%nat) by (destruct str; [congruence|cbn [length]; lia]).
      pose proof (collapse_f_good F b run' p1 HF ltac:(lia)) as Hcw.
      destruct (collapse_f F run' OpAlternate p1) as [[suffix0 p2]| |]; [|exact Hcw|destruct Hcw].
      * pose proof (new_regexp_op p2 OpConcat) as Hop. destruct (new_regexp p2 OpConcat) as [re p3]. cbn [fst] in Hop.
        cbn [good good1 answers fst] in *.
        rewrite weights_cons, (weight_set_subs_concat _ _ Hop), !weights_cons. cbn [weights fold_right].
        (* the prefix is a literal: its weight is the length of str *)
        assert (Hpre' : weight (set_runes (set_flags prefix (if sf then fFoldCase else 0)) str) = length str).
        { destruct prefix as [pi po pf ps pr pc pa pb pk pm]. cbn [n_op] in Hop0. subst po.
          cbn [set_flags set_runes]. apply weight_unfold. }
        rewrite Hpre'. rewrite !weights_cons in Hw. lia.
Qed.

Lemma common_prefix_split a : forall b, exists s1 s2, a = common_prefix a b ++ s1 /\ b = common_prefix a b ++ s2.
Proof.
  induction a as [|x a' IH]; intros b; cbn [common_prefix]; [exists [], b; auto|].
  destruct b as [|y b']; [exists (x :: a'), []; auto|].
  destruct (x =? y) eqn:E; [|exists (x :: a'), (y :: b'); auto].
  apply Z.eqb_eq in E. subst y. destruct (IH b') as (s1 & s2 & H1 & H2). exists s1, s2. cbn [app]. split; congruence.
Qed.

Lemma good_bind_list (r : res (list node * pst)) w (k : list node * pst -> res (list node * pst)) w' :
  good r w -> (forall l p, (weights l <= w)%nat -> good (k (l, p)) w') ->
  good (match r with Ok (l, p) => k (l, p) | Err e => Err e | OutOfFuel => OutOfFuel end) w'.
Proof.
  intros H Hk. destruct r as [[l p]| |]; [apply Hk|..]; exact H.
Qed.

Lemma factor1_good F b : F_ok F b -> forall l run str sf out p,
  (weights l + weights run <= b)%nat ->
  (run <> [] -> exists x0 rest suffix, rev run = x0 :: rest /\ fst (leading_string x0) = str ++ suffix) ->
  ((2 <= length run)%nat -> str <> []) ->
  good (factor1 F l run str sf out p) (weights l + weights run + weights out).
Proof.
  intros HF.
  induction l as [|x t IH]; intros run str sf out p Hb Hinv Hstr; cbn [factor1].
  - pose proof (flush1_good F b run str sf out p HF ltac:(lia) Hinv Hstr) as Hfl.
    destruct (flush1 F (rev run) str sf out p) as [[out' p']| |]; [|exact Hfl|destruct Hfl].
    cbn [good answers fst] in *. rewrite weights_rev. change (weights []) with O. lia.
  - destruct (leading_string x) as [istr ifold] eqn:El.
    set (same := if Bool.eqb ifold sf then common_prefix str istr else []).
    assert (Hsame : exists s1 s2, str = same ++ s1 /\ (same <> [] -> istr = same ++ s2)).
    { subst same. destruct (Bool.eqb ifold sf).
      - destruct (common_prefix_split str istr) as (s1 & s2 & H1 & H2). exists s1, s2. split; [exact H1|intros _; exact H2].
      - exists str, []. split; [reflexivity|congruence]. }
    destruct Hsame as (s1 & s2 & Hs1 & Hs2).
    destruct same as [|c same'] eqn:Esame.
    + (* the run ends before x *)
      pose proof (flush1_good F b run str sf out p HF ltac:(rewrite weights_cons in Hb; lia) Hinv Hstr) as Hfl.
      apply (good_weaken _ (weights t + weights [x] + (weights run + weights out))%nat);
        [|rewrite !weights_cons; change (weights []) with O; lia].
      refine (good_bind_list _ _ (fun lp => factor1 F t [x] istr ifold (fst lp) (snd lp)) _ Hfl _).
      intros out' p' Hout'. cbn [fst snd].
      apply (good_weaken _ (weights t + weights [x] + weights out')%nat); [|lia].
      apply IH.
      * rewrite !weights_cons in *. change (weights []) with O. lia.
      * intros _. exists x, [], []. split; [reflexivity|]. rewrite El. cbn [fst]. now rewrite app_nil_r.
      * cbn [length]. lia.
    + (* x joins the run *)
      apply (good_weaken _ (weights t + weights (x :: run) + weights out)%nat); [|rewrite !weights_cons; lia].
      apply IH.
      * rewrite !weights_cons in *. lia.
      * intros _. destruct run as [|y run'].
        -- exists x, [], s2. split; [reflexivity|]. rewrite El. cbn [fst]. apply Hs2. discriminate.
        -- destruct (Hinv ltac:(discriminate)) as (x0 & rest & suffix & Hr & Hl).
           exists x0, (rest ++ [x]), (s1 ++ suffix). split.
           ++ change (rev (x :: y :: run')) with (rev (y :: run') ++ [x]). rewrite Hr. reflexivity.
           ++ rewrite Hl, Hs1, <- app_assoc. reflexivity.
      * intros _. discriminate.
Qed.

(* round 2 *)
Lemma fold_step2 run : forall acc p d,
  let step := (fun (st : res (list node * pst * bool)) (x : node) =>
        match st with
        | Ok (acc, p, do_reuse) =>
          let '(x', p) := remove_leading_regexp x do_reuse p in
          match check_limits x' p with
          | Ok p' => Ok (acc ++ [x'], p', true)
          | Err e => Err e
          | OutOfFuel => OutOfFuel
          end
        | r => r
        end) in
  answers False (fun lpd => exists run', fst (fst lpd) = acc ++ run' /\ (weights run' <= weights run)%nat /\
             (forall x0 rest g, run = x0 :: rest -> leading_regexp x0 = Some g -> (weights run' + weight g <= weights run)%nat))
          (fold_left step run (Ok (acc, p, d))).
Proof.
  induction run as [|x t IH]; intros acc p d step; cbn [fold_left].
  - cbn [answers fst]. exists []. rewrite app_nil_r. split; [reflexivity|]. split; [lia|]. intros; discriminate.
  - cbn [step]. destruct (remove_leading_regexp x d p) as [x' p0] eqn:Ex.
    pose proof (check_limits_clean x' p0) as Hcl.
    destruct (check_limits x' p0) as [p1| |]; [|rewrite fold_err by reflexivity; exact Hcl|destruct Hcl].
    apply (answers_weaken _ _ _ (IH (acc ++ [x']) p1 true)). intros lpd (run'' & Hl & Hw & _).
    exists (x' :: run''). split; [rewrite Hl, <- app_assoc; reflexivity|].
    assert (Hx : x' = fst (remove_leading_regexp x d p)) by (rewrite Ex; reflexivity).
    rewrite !weights_cons. split.
    + pose proof (rlr_weight x d p). rewrite <- Hx in *. lia.
    + intros x0 rest g Er Hg. injection Er as <- <-. pose proof (rlr_weight x d p) as Hr. rewrite Hg, <- Hx in Hr. lia.
Qed.

Lemma is_char_class_weight x : is_char_class x = true -> weight x = 1%nat.
Proof.
  destruct x as [i o f subs r c a b k m]. unfold is_char_class. cbn [n_op n_runes]. rewrite weight_unfold.
  destruct o; try discriminate; try reflexivity. unfold zlen. intros H. apply Z.eqb_eq in H. lia.
Qed.

Lemma round2_ok_weight f : round2_ok f = true -> (1 <= weight f)%nat.
Proof.
  unfold round2_ok. destruct (is_char_class f) eqn:E; [rewrite (is_char_class_weight _ E); lia|]. cbn [orb].
  destruct f as [i o ff subs r c a b k m]. cbn [n_op]. destruct o; try discriminate. rewrite weight_unfold. lia.
Qed.

Lemma flush2_good F b run first out p : F_ok F b -> (weights run <= b)%nat ->
  match rev run with [] => first = None | x0 :: _ => first = leading_regexp x0 end ->
  ((2 <= length run)%nat -> exists f, first = Some f /\ round2_ok f = true) ->
  good (flush2 F (rev run) out p) (weights run + weights out).
Proof.
  intros HF Hb Hinv H2. unfold flush2. rewrite <- (weights_rev run) in Hb |- *. rewrite <- (rev_length run) in H2.
  destruct (rev run) as [|x0 [|x1 rest]].
  - cbn [good answers fst]. change (weights []) with O. lia.
  - cbn [good answers fst]. rewrite !weights_cons. lia.
  - destruct (H2 ltac:(cbn [length]; lia)) as (f & -> & Hok). symmetry in Hinv. rewrite Hinv. cbv zeta.
    pose proof (fold_step2 (x0 :: x1 :: rest) [] p false) as Hl. cbv zeta in Hl.
    match goal with |- good (match ?ff with _ => _ end) _ => destruct ff as [[[run' p1] d1]| |] end; [|exact Hl|destruct Hl].
    cbn [answers fst app] in Hl. destruct Hl as (run'' & Er & _ & Hex). subst run''.
    specialize (Hex _ _ _ eq_refl Hinv). pose proof (round2_ok_weight f Hok) as Hf.
    pose proof (collapse_f_good F b run' p1 HF ltac:(lia)) as Hcw.
    destruct (collapse_f F run' OpAlternate p1) as [[suffix0 p2]| |]; [|exact Hcw|destruct Hcw].
    pose proof (new_regexp_op p2 OpConcat) as Hop. destruct (new_regexp p2 OpConcat) as [re p3]. cbn [fst] in Hop.
    cbn [good good1 answers fst] in *.
    rewrite weights_cons, (weight_set_subs_concat _ _ Hop), !weights_cons. change (weights []) with O.
    rewrite ?weights_cons in Hex. lia.
Qed.

Lemma factor2_good F b : F_ok F b -> forall l run first out p,
  (weights l + weights run <= b)%nat ->
  match rev run with [] => first = None | x0 :: _ => first = leading_regexp x0 end ->
  ((2 <= length run)%nat -> exists f, first = Some f /\ round2_ok f = true) ->
  good (factor2 F l run first out p) (weights l + weights run + weights out).
Proof.
  intros HF.
  induction l as [|x t IH]; intros run first out p Hb Hinv H2; cbn [factor2].
  - pose proof (flush2_good F b run first out p HF ltac:(lia) Hinv H2) as Hfl.
    destruct (flush2 F (rev run) out p) as [[out' p']| |]; [|exact Hfl|destruct Hfl].
    cbn [good answers fst] in *. rewrite weights_rev. change (weights []) with O. lia.
  - match goal with |- good (if ?c then _ else _) _ => destruct c eqn:Econt end.
    + (* x joins the run *)
      apply (good_weaken _ (weights t + weights (x :: run) + weights out)%nat); [|rewrite !weights_cons; lia].
      destruct first as [f|]; [|discriminate]. destruct (leading_regexp x) as [g|] eqn:Eg; [|discriminate].
      apply andb_prop in Econt. destruct Econt as [_ Hok].
      apply IH.
      * rewrite !weights_cons in *. lia.
      * cbn [rev]. destruct (rev run) as [|x0 rest]; [discriminate|]. exact Hinv.
      * intros _. exists f. split; [reflexivity|exact Hok].
    + (* the run ends before x *)
      pose proof (flush2_good F b run first out p HF ltac:(rewrite weights_cons in Hb; lia) Hinv H2) as Hfl.
      apply (good_weaken _ (weights t + weights [x] + (weights run + weights out))%nat);
        [|rewrite !weights_cons; change (weights []) with O; lia].
      refine (good_bind_list _ _ (fun lp => factor2 F t [x] (leading_regexp x) (fst lp) (snd lp)) _ Hfl _).
      intros out' p' Hout'. cbn [fst snd].
      apply (good_weaken _ (weights t + weights [x] + weights out')%nat); [|lia].
      apply IH.
      * rewrite !weights_cons in *. change (weights []) with O. lia.
      * reflexivity.
      * cbn [length]. lia.
Qed.

(* round 3 *)
Definition small (x : node) : Prop := (weight x <= 1)%nat.

Lemma small_leaf i o f subs r c a b k m :
  match o with OpCharClass | OpAnyChar | OpAnyCharNotNL => True | _ => False end -> small (Node i o f subs r c a b k m).
Proof. unfold small. rewrite weight_unfold. destruct o; intros H; try destruct H; lia. Qed.

Lemma merge_small dst src : small dst -> small (merge_char_class dst src).
Proof.
  intros Hd. unfold merge_char_class. destruct dst as [i o f subs r c a b k m]. cbn [n_op].
  destruct o; try exact Hd.
  - destruct (_ && _)%bool; [exact Hd|]. cbn [set_op set_cls set_runes]. apply small_leaf. exact I.
  - destruct (is_lit src); cbn [set_cls]; apply small_leaf; exact I.
  - destruct (match_rune src 10); [|exact Hd]. cbn [set_op]. apply small_leaf. exact I.
Qed.

Lemma clean_alt_small x : small x -> small (clean_alt x).
Proof.
  intros Hx. unfold clean_alt. destruct x as [i o f subs r c a b k m]. cbn [n_op n_cls].
  destruct o; try exact Hx.
  repeat match goal with
         | |- small (match ?e with _ => _ end) => destruct e
         | |- small (if ?e then _ else _) => destruct e
         end; cbn [set_op set_cls]; apply small_leaf; exact I.
Qed.

Lemma swap_first_forall (P : node -> Prop) l k : Forall P l -> Forall P (swap_first l k).
Proof.
  intros Hl. unfold swap_first. destruct l as [|a t]; [destruct k; exact Hl|]. destruct k as [|k']; [exact Hl|].
  destruct (nth_error t k') as [bb|] eqn:En; [|exact Hl].
  inversion Hl as [|? ? Ha Ht]; subst.
  constructor; [exact (proj1 (Forall_forall P t) Ht bb (nth_error_In _ _ En))|].
  apply Forall_app. split; [apply Forall_forall; intros y Hy; apply (proj1 (Forall_forall P t) Ht y); rewrite <- (firstn_skipn k' t); apply in_or_app; left; exact Hy|].
  constructor; [exact Ha|]. apply Forall_forall. intros y Hy. apply (proj1 (Forall_forall P t) Ht y).
  rewrite <- (firstn_skipn (S k') t). apply in_or_app. right. exact Hy.
Qed.

Lemma merge_run_small run p : Forall small run -> small (fst (merge_run run p)).
Proof.
  intros Hr. unfold merge_run. destruct run as [|first rest]; [cbn [fst]; unfold small; pose proof (weight_blank 1 OpNoMatch); lia|].
  pose proof (swap_first_forall small (first :: rest) (max_index (tl (first :: rest)) 1 first 0) Hr) as Hs.
  destruct (swap_first (first :: rest) _) as [|a t]; [cbn [fst]; inversion Hr; assumption|].
  inversion Hs as [|? ? Ha _]; subst.
  assert (Hf : forall t a q, small a -> small (fst (fold_left (fun st x => (merge_char_class (fst st) x, reuse (snd st) x)) t (a, q)))).
  { clear. induction t as [|y t IH]; intros a q Ha; cbn [fold_left fst snd]; [exact Ha|]. apply IH. apply merge_small. exact Ha. }
  specialize (Hf t a p Ha). destruct (fold_left _ t (a, p)) as [a' p']. cbn [fst] in *. apply clean_alt_small. exact Hf.
Qed.

Lemma factor3_le : forall l run out p, Forall (fun x => weight x = 1%nat) run ->
  (weights (fst (factor3 l run out p)) <= weights l + weights run + weights out)%nat.
Proof.
  assert (Hflush : forall run out p, Forall (fun x => weight x = 1%nat) run ->
    (weights (fst (match run with
                   | [] => (out, p)
                   | [x] => (x :: out, p)
                   | _ => let '(m, p') := merge_run (rev run) p in (m :: out, p')
                   end)) <= weights run + weights out)%nat).
  { intros run out p Hr. destruct run as [|x [|y t]]; cbn [fst]; rewrite ?weights_cons; change (weights []) with O; try lia.
    assert (Hs : Forall small (rev (x :: y :: t))) by (apply Forall_rev; revert Hr; apply Forall_impl; unfold small; lia).
    pose proof (merge_run_small _ p Hs) as Hm. destruct (merge_run (rev (x :: y :: t)) p) as [m p']. cbn [fst] in *.
    rewrite weights_cons. unfold small in Hm.
    inversion Hr as [|? ? Hx _]; subst. lia. }
  induction l as [|x t IH]; intros run out p Hr; cbn [factor3].
  - specialize (Hflush run out p Hr).
    destruct (match run with [] => (out, p) | [x] => (x :: out, p) | _ => _ end) as [out' p']. cbn [fst] in *.
    rewrite weights_rev. change (weights []) with O. lia.
  - destruct (is_char_class x) eqn:Ex.
    + specialize (IH (x :: run) out p (Forall_cons _ (is_char_class_weight x Ex) Hr)). rewrite !weights_cons in *. lia.
    + specialize (Hflush run out p Hr).
      destruct (match run with [] => (out, p) | [x] => (x :: out, p) | _ => _ end) as [out' p']. cbn [fst] in *.
      specialize (IH [] (x :: out') p' (Forall_nil _)). rewrite !weights_cons in *. change (weights []) with O in *. lia.
Qed.

(* round 4 *)
Lemma factor4_le l : (weights (factor4 l) <= weights l)%nat.
Proof.
  induction l as [|x t IH]; [cbn; lia|]. cbn [factor4]. destruct t as [|y t']; [lia|].
  destruct (_ && _)%bool; rewrite ?weights_cons in *; lia.
Qed.

Lemma factor_body_good F sub p : F_ok F (weights sub) -> good (factor_body F sub p) (weights sub).
Proof.
  intros HF. unfold factor_body.
  match goal with |- good (match sub with [] => _ | _ :: l => match l with [] => _ | _ :: _ => ?body end end) _ =>
    assert (Hmain : good body (weights sub)) end.
  { pose proof (factor1_good F (weights sub) HF sub [] [] false [] p) as H1.
    change (weights []) with O in H1. specialize (H1 ltac:(lia) ltac:(congruence) ltac:(cbn [length]; lia)).
    destruct (factor1 F sub [] [] false [] p) as [[sub1 p1]| |]; [|exact H1|destruct H1]. cbn [good answers fst] in H1.
    assert (HF1 : F_ok F (weights sub1 + 0)).
    { intros l q Hl. apply HF. lia. }
    pose proof (factor2_good F (weights sub1 + 0) HF1 sub1 [] None [] p1) as H2.
    change (weights []) with O in H2. specialize (H2 ltac:(lia) eq_refl ltac:(cbn [length]; lia)).
    destruct (factor2 F sub1 [] None [] p1) as [[sub2 p2]| |]; [|exact H2|destruct H2]. cbn [good answers fst] in H2.
    pose proof (factor3_le sub2 [] [] p2 (Forall_nil _)) as H3. change (weights []) with O in H3.
    destruct (factor3 sub2 [] [] p2) as [sub3 p3]. cbn [fst] in H3.
    cbn [good answers fst]. pose proof (factor4_le sub3). lia. }
  destruct sub as [|x [|y t]]; try exact Hmain.
  cbn [good answers fst]. lia.
Qed.

Theorem factor_ok fuel : F_ok (factor fuel) fuel.
Proof.
  induction fuel as [|f IH]; intros l p Hl; [lia|]. cbn [factor].
  apply (factor_body_good (factor f) l p). intros l0 q Hl0. apply IH. lia.
Qed.

Lemma collapse_f_clean F subs o p : F_ok F (S (weights subs)) -> clean (collapse_f F subs o p).
Proof.
  (* only an alternation is factored; every other operator gives Ok *)
  intros HF. destruct o;
    try (unfold collapse_f; destruct subs as [|x [|y t]]; try exact I;
         destruct (new_regexp p _) as [re p0]; destruct (fold_left _ _ _) as [l p1]; exact I).
  exact (answers_weaken _ _ _ (collapse_f_good F _ subs p HF ltac:(lia)) (fun _ _ => I)).
Qed.

Lemma collapse_clean subs o p : clean (collapse subs o p).
Proof.
  unfold collapse. apply collapse_f_clean. rewrite weights_add_eq.
  intros l q Hl. exact (factor_ok (S (weights subs)) l q Hl).
Qed.

Lemma concat_clean p : clean (concat p).
Proof.
  unfold concat. destruct (split_pseudo _ []) as [subs rest]. destruct subs as [|x t].
  - destruct (new_regexp _ OpEmptyMatch). apply push_clean.
  - pose proof (collapse_clean (x :: t) OpConcat (with_stack (snd (maybe_concat None 0 p)) rest)) as Hc.
    destruct (collapse (x :: t) OpConcat _) as [[re q]| |]; [apply push_clean|exact Hc|destruct Hc].
Qed.

Lemma alternate_clean p : clean (alternate p).
Proof.
  unfold alternate. destruct (split_pseudo _ []) as [subs rest]. destruct (rev subs) as [|last before].
  - destruct (new_regexp _ OpNoMatch). apply push_clean.
  - pose proof (collapse_clean (rev (clean_alt last :: before)) OpAlternate (with_stack p rest)) as Hc.
    destruct (collapse _ OpAlternate _) as [[re q]| |]; [apply push_clean|exact Hc|destruct Hc].
Qed.

Lemma parse_vertical_bar_clean p : clean (parse_vertical_bar p).
Proof.
  unfold parse_vertical_bar. apply clean_bind; [apply concat_clean|]. intros q.
  destruct (swap_vertical_bar q) as [[|] q']; [exact I|apply push_op_clean].
Qed.

Lemma close_group_clean p : clean (close_group p).
Proof.
  unfold close_group. apply clean_bind; [apply concat_clean|]. intros q.
  destruct (swap_vertical_bar q) as [sw q']. apply alternate_clean.
Qed.

Lemma parse_right_paren_clean p : clean (parse_right_paren p).
Proof.
  unfold parse_right_paren. apply clean_bind; [apply close_group_clean|]. intros q.
  destruct (p_stack q) as [|re1 [|re2 rest]]; try discriminate.
  destruct (negb _); [discriminate|]. destruct (n_cap re2 =? 0); apply push_clean.
Qed.

Lemma act_clean tok lr p : clean (act tok lr p).
Proof.
  destruct tok; cbn [act].
  - apply literal_clean.
  - destruct (new_regexp p OpCharClass). apply literal_clean.
  - unfold left_paren. destruct (new_regexp _ OpLeftParen) as [re q]. destruct re. apply push_clean.
  - unfold left_paren. destruct (new_regexp _ OpLeftParen) as [re q]. destruct re. apply push_clean.
  - apply clean_bind; [destruct group; [apply push_op_clean|exact I]|]. intros q. exact I.
  - apply parse_vertical_bar_clean.
  - apply parse_right_paren_clean.
  - apply push_op_clean.
  - destruct (has (p_flags p) fOneLine); [destruct (new_regexp p OpEndText); apply push_clean|apply push_op_clean].
  - apply push_op_clean.
  - unfold push_class. destruct (new_regexp p OpCharClass). apply push_clean.
  - apply repeat_clean.
  - apply push_op_clean.
  - apply clean_bind; [|intros q; destruct bad; [discriminate|exact I]].
    assert (H : forall r0, clean r0 -> clean (fold_left (fun r c => bind r (literal c)) runes r0)).
    { induction runes as [|c t IH]; intros r0 Hr; cbn [fold_left]; [exact Hr|]. apply IH. apply clean_bind; [exact Hr|]. intros q. apply literal_clean. }
    apply H. exact I.
Qed.

Lemma parse_loop_clean fuel : forall t lr p, (length t < fuel)%nat -> clean (parse_loop fuel t lr p).
Proof.
  induction fuel as [|f IH]; intros t lr p Hf; [lia|]. cbn [parse_loop].
  destruct t as [|b t']; [exact I|].
  pose proof (lex_reads f (p_flags p) b t') as Hl. cbn [length] in Hf.
  destruct (lex f (p_flags p) b t') as [[tok rest]| |]; cbn [reads answers snd] in Hl.
  - pose proof (act_clean tok lr p) as Ha. destruct (act tok lr p) as [p'| |]; try exact Ha. apply IH. lia.
  - exact Hl.
  - lia.
Qed.

(* syntax.Parse never runs out of fuel and never takes the branch the Go code cannot take *)
Theorem rx_parse_clean s : clean (rx_parse s).
Proof.
  unfold rx_parse.
  assert (Hb : clean (bind (parse_loop (S (length s)) s false p_init) close_group)).
  { apply clean_bind; [apply parse_loop_clean; lia|intros q; apply close_group_clean]. }
  destruct (bind _ close_group) as [p| |].
  - destruct (p_stack p) as [|re [|? ?]]; try discriminate. exact I.
  - exact Hb.
  - destruct Hb.
Qed.

Theorem rx_parse_fuel_enough s : rx_parse s <> OutOfFuel.
Proof. intros H. pose proof (rx_parse_clean s) as Hc. rewrite H in Hc. exact Hc. Qed.

Theorem rx_parse_total s :
  (exists re, rx_parse s = Ok re) \/ (exists e, rx_parse s = Err e /\ e <> ErrInternal).
Proof.
  pose proof (rx_parse_clean s) as Hc. destruct (rx_parse s) as [re|e|]; [left|right|destruct Hc]; eauto.
Qed.

(* rx_valid is false only because of an error of regexp/syntax *)
Theorem rx_valid_spec s :
  (rx_valid s = true /\ exists re, rx_parse s = Ok re) \/
  (rx_valid s = false /\ exists e, rx_parse s = Err e /\ e <> ErrInternal).
Proof.
  unfold rx_valid. destruct (rx_parse_total s) as [[re H]|[e [H He]]]; rewrite H.
  - left. split; [reflexivity|]. exists re. reflexivity.
  - right. split; [reflexivity|]. exists e. split; [reflexivity|exact He].
Qed.

(* the orbits of SimpleFold close within the four steps fold_orbit walks *)
Lemma fold_orbit_closes :
  forallb (fun rf => let c := fst rf in
                     let o := fold_orbit c in
                     simple_fold (last o c) =? c) simple_fold_pairs = true.
Proof. vm_compute. reflexivity. Qed.

