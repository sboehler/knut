(* The sorted association lists of Model/Price.v (sm_get / sm_put): get-after-put, key sets,
   sortedness is preserved by sm_put, and two sorted maps with the same bindings are equal
   (extensionality).  The facts about string comparison they need come from Proofs/StrProofs.v,
   which this file re-exports. *)
From Coq Require Import ZArith List Bool Lia Sorting.Sorted.
From Knut Require Import Proofs.ListFacts Model.Str Model.Price.
From Knut Require Export Proofs.StrProofs.
Import ListNotations.
Open Scope Z_scope.

Lemma str_cmp_lt_neq a b : str_cmp a b = Lt -> a <> b.
Proof. intros H E. subst. rewrite str_cmp_refl in H. discriminate. Qed.

Lemma str_eq_dec (a b : str) : {a = b} + {a <> b}.
Proof.
  destruct (str_eqb a b) eqn:E.
  - left. apply str_eqb_eq. exact E.
  - right. apply str_eqb_neq. exact E.
Qed.

Section SMapLemmas.
  Context {V : Type}.
  Implicit Types (m : smap V) (k : str) (v : V).

  Definition keys m : list str := map fst m.

  Lemma sm_get_put_same m k v : sm_get (sm_put m k v) k = Some v.
  Proof.
    induction m as [|[k' v'] m IH]; cbn [sm_put sm_get].
    - rewrite str_eqb_refl. reflexivity.
    - destruct (str_cmp k k') eqn:E; cbn [sm_get].
      + rewrite str_eqb_refl. reflexivity.
      + rewrite str_eqb_refl. reflexivity.
      + unfold str_eqb. rewrite E. exact IH.
  Qed.

  Lemma sm_get_put_other m k v k' : k' <> k -> sm_get (sm_put m k v) k' = sm_get m k'.
  Proof.
    intros Hne. apply str_eqb_neq in Hne.
    induction m as [|[k0 v0] m IH]; cbn [sm_put sm_get].
    - rewrite Hne. reflexivity.
    - destruct (str_cmp k k0) eqn:E; cbn [sm_get].
      + apply str_cmp_eq in E. subst k0. rewrite Hne. reflexivity.
      + rewrite Hne. reflexivity.
      + destruct (str_eqb k' k0); [reflexivity | exact IH].
  Qed.

  Lemma sm_get_put m k v k' :
    sm_get (sm_put m k v) k' = if str_eqb k' k then Some v else sm_get m k'.
  Proof.
    destruct (str_eqb k' k) eqn:E.
    - apply str_eqb_eq in E. subst. apply sm_get_put_same.
    - apply str_eqb_neq in E. apply sm_get_put_other. exact E.
  Qed.

  Lemma sm_has_put m k v k' : sm_has (sm_put m k v) k' = str_eqb k' k || sm_has m k'.
  Proof.
    unfold sm_has. rewrite sm_get_put. destruct (str_eqb k' k); reflexivity.
  Qed.

  Lemma sm_put_in m k v x : In x (sm_put m k v) -> x = (k, v) \/ In x m.
  Proof.
    induction m as [|[k0 v0] m IH]; cbn [sm_put]; [intros [H|[]]; auto|].
    destruct (str_cmp k k0); cbn [In]; intros [H|H]; auto. destruct (IH H); auto.
  Qed.

  Lemma sm_get_in m k v : sm_get m k = Some v -> In (k, v) m.
  Proof.
    induction m as [|[k' v'] m IH]; cbn [sm_get]; [discriminate|].
    destruct (str_eqb k k') eqn:E.
    - apply str_eqb_eq in E. subst. intros H. injection H as ->. left. reflexivity.
    - intros H. right. auto.
  Qed.

  Lemma sm_get_in_keys m k v : sm_get m k = Some v -> In k (keys m).
  Proof. intros H. apply sm_get_in in H. apply (in_map fst) in H. exact H. Qed.

  Lemma sm_get_none m k : sm_get m k = None <-> ~ In k (keys m).
  Proof.
    induction m as [|[k' v'] m IH]; cbn [sm_get keys map fst].
    - split; auto.
    - destruct (str_eqb k k') eqn:E.
      + apply str_eqb_eq in E. subst. split; [discriminate|]. intros H. exfalso. apply H. left. reflexivity.
      + apply str_eqb_neq in E. rewrite IH. unfold keys. split.
        * intros H [H1|H1]; [congruence | contradiction].
        * intros H H1. apply H. right. exact H1.
  Qed.

  Lemma sm_has_true m k : sm_has m k = true <-> In k (keys m).
  Proof.
    unfold sm_has. destruct (sm_get m k) eqn:E.
    - split; [intros _ | reflexivity]. eapply sm_get_in_keys. exact E.
    - split; [discriminate|]. intros H. apply sm_get_none in E. contradiction.
  Qed.

  Lemma sm_has_false m k : sm_has m k = false <-> ~ In k (keys m).
  Proof.
    rewrite <- sm_has_true. destruct (sm_has m k); split; congruence.
  Qed.

  Lemma keys_put m k v k' : In k' (keys (sm_put m k v)) <-> k' = k \/ In k' (keys m).
  Proof.
    rewrite <- !sm_has_true, sm_has_put, orb_true_iff, str_eqb_eq. reflexivity.
  Qed.

  (* the first binding of a key in an association list is the one sm_get returns *)
  Lemma sm_get_split m k v :
    sm_get m k = Some v -> exists m1 m2, m = m1 ++ (k, v) :: m2 /\ ~ In k (keys m1).
  Proof.
    induction m as [|[k' v'] m IH]; cbn [sm_get]; [discriminate|].
    destruct (str_eqb k k') eqn:E.
    - apply str_eqb_eq in E. subst. intros H. injection H as ->.
      exists [], m. split; [reflexivity | intros []].
    - intros H. destruct (IH H) as (m1 & m2 & -> & Hn).
      exists ((k', v') :: m1), m2. split; [reflexivity|].
      cbn [keys map fst]. intros [H1|H1]; [|contradiction].
      apply str_eqb_neq in E. congruence.
  Qed.

  Inductive sorted : smap V -> Prop :=
  | sorted_nil : sorted []
  | sorted_cons k v m :
      sorted m -> (forall k', In k' (keys m) -> str_cmp k k' = Lt) -> sorted ((k, v) :: m).

  Lemma sorted_put m k v : sorted m -> sorted (sm_put m k v).
  Proof.
    induction 1 as [|k0 v0 m Hs IH Hlt]; cbn [sm_put].
    - constructor; [constructor | intros k' []].
    - destruct (str_cmp k k0) eqn:E.
      + apply str_cmp_eq in E. subst. constructor; assumption.
      + constructor.
        * constructor; assumption.
        * cbn [keys map fst]. intros k' [<-|H]; [exact E|].
          eapply str_cmp_lt_trans; [exact E | auto].
      + constructor; [exact IH|].
        intros k' H. apply keys_put in H. destruct H as [->|H]; [|auto].
        apply str_cmp_gt_lt. exact E.
  Qed.

  (* the same as a StronglySorted list of bindings *)
  Lemma sorted_strongly m :
    sorted m <-> StronglySorted (fun x y : str * V => str_cmp (fst x) (fst y) = Lt) m.
  Proof.
    induction m as [|[k v] m IH]; [split; constructor|]. split; intros H.
    - inversion H as [|? ? ? Hs Hlt]; subst. constructor; [apply IH; exact Hs|].
      apply Forall_forall. intros x Hx. apply Hlt. apply in_map. exact Hx.
    - inversion H as [|? ? Hs Hall]; subst. constructor; [apply IH; exact Hs|].
      rewrite Forall_forall in Hall. intros k' Hin. apply in_map_iff in Hin.
      destruct Hin as [x [<- Hx]]. exact (Hall x Hx).
  Qed.

  Lemma sorted_nodup m : sorted m -> NoDup (keys m).
  Proof.
    induction 1 as [|k v m Hs IH Hlt]; cbn [keys map fst]; constructor; [|exact IH].
    intros Hin. specialize (Hlt k Hin). rewrite str_cmp_refl in Hlt. discriminate.
  Qed.
End SMapLemmas.

Section SMapMore.
  Context {V : Type}.

  (* in a sorted map every listed binding is the one sm_get returns *)
  Lemma sorted_in_get (m : smap V) k v : sorted m -> In (k, v) m -> sm_get m k = Some v.
  Proof.
    induction 1 as [|k0 v0 m Hs IH Hlt]; intros Hin; [destruct Hin|].
    cbn [sm_get]. destruct Hin as [E|Hin].
    - injection E as -> ->. rewrite str_eqb_refl. reflexivity.
    - assert (str_eqb k k0 = false) as ->.
      { apply str_eqb_neq. intros ->. apply (in_map fst) in Hin.
        specialize (Hlt _ Hin). rewrite str_cmp_refl in Hlt. discriminate. }
      auto.
  Qed.

  (* extensionality: sorted maps with the same bindings are equal *)
  Lemma sorted_ext (m1 m2 : smap V) :
    sorted m1 -> sorted m2 -> (forall k, sm_get m1 k = sm_get m2 k) -> m1 = m2.
  Proof.
    intros S1 S2 Hext.
    apply (StronglySorted_ext (fun x y : str * V => str_cmp (fst x) (fst y) = Lt)).
    - intros a H. rewrite str_cmp_refl in H. discriminate.
    - intros a b c. apply str_cmp_lt_trans.
    - apply sorted_strongly. exact S1.
    - apply sorted_strongly. exact S2.
    - intros [k v]. split; intros H; apply sm_get_in; [rewrite <- Hext|rewrite Hext];
        apply sorted_in_get; assumption.
  Qed.

  Lemma keys_length (m : smap V) : length (keys m) = length m.
  Proof. apply map_length. Qed.
End SMapMore.
