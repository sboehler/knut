(* Proofs about Model/Scanner.v (DESIGN.md Appendix B.3).

   The rune decoder is a parameter with the five facts of [decoder_ok] (discharged for
   Model/Utf8.v in [utf8_decoder_ok]); letter/digit classifications are arbitrary.

   Invariant [Inv]: 0 <= off, rest = text[off:], and either the scanner is at EOF
   (cur = EOF, clen = 0, off = |text|) or off < |text| and (cur, clen) = decode rest.
   Go's third kind of state -- (RuneError, width 0) at the end of the text, produced by
   Backtrack(len) or by a failed Advance at EOF -- is deliberately NOT in Inv: the lemmas below
   show that from a state in Inv every successful primitive ends in a state in Inv (after a
   failure the parser never continues, except ReadAlternative, which backtracks to the state
   it started from, [backtrack_id]).  Hence that state is unreachable from parser.New+Advance.

   Every primitive gets one lemma of the shape
     Inv s -> post Q (off s) (prim s)
   where [post Q o r] says: Ok a s' -> Inv s' /\ o <= off s' /\ Q a s';
   Err e s' -> o <= off s' <= |text| and all error ranges within [0,|text|]; never OutOfFuel. *)
From Coq Require Import ZArith List Bool Lia ZifyBool.
From Knut Require Import Model.Bytes Model.Utf8 Model.Scanner.
Import ListNotations.
Open Scope bool_scope.
Open Scope Z_scope.

Lemma skipn_add {A} (b a : nat) (l : list A) : skipn a (skipn b l) = skipn (b + a) l.
Proof.
  revert l; induction b as [|b IH]; intros l; simpl; [reflexivity|].
  destruct l; [destruct a; reflexivity | apply IH].
Qed.

Lemma firstn_add {A} (m n : nat) (l : list A) :
  firstn (m + n) l = firstn m l ++ firstn n (skipn m l).
Proof.
  revert l; induction m as [|m IH]; intros l; simpl; [reflexivity|].
  destruct l; simpl; [now rewrite firstn_nil | now rewrite IH].
Qed.

Lemma slice_nil t a : slice t a a = [].
Proof. unfold slice. now rewrite Z.sub_diag. Qed.

Lemma slice_app t a b c : 0 <= a <= b -> b <= c -> slice t a c = slice t a b ++ slice t b c.
Proof.
  intros Hab Hbc. unfold slice.
  replace (Z.to_nat (c - a)) with (Z.to_nat (b - a) + Z.to_nat (c - b))%nat by lia.
  rewrite firstn_add, skipn_add.
  now replace (Z.to_nat a + Z.to_nat (b - a))%nat with (Z.to_nat b) by lia.
Qed.

Lemma slice_rest t o w r :
  r = skipn (Z.to_nat o) t -> slice t o (o + w) = firstn (Z.to_nat w) r.
Proof. intros ->. unfold slice. now replace (o + w - o) with w by lia. Qed.

Lemma slice_full t : slice t 0 (zlen t) = t.
Proof.
  unfold slice, zlen. simpl. rewrite Z.sub_0_r, Nat2Z.id. apply firstn_all.
Qed.

Lemma str_eqb_eq a b : str_eqb a b = true <-> a = b.
Proof.
  revert b; induction a as [|x a IH]; intros [|y b]; simpl; split; intros H; try congruence; try reflexivity.
  - apply andb_true_iff in H. destruct H as [H1 H2]. apply Z.eqb_eq in H1. apply IH in H2. congruence.
  - inversion H; subst. rewrite Z.eqb_refl. simpl. now apply IH.
Qed.

Lemma str_eqb_refl a : str_eqb a a = true.
Proof. now apply str_eqb_eq. Qed.

Definition high (x : Z) : Prop := ~ (0 <= x < 128).

Record decoder_ok (dec : str -> Z * Z) : Prop := mkDecOk {
  dec_nil : dec [] = (rune_error, 0);
  dec_width : forall l r w, l <> [] -> dec l = (r, w) -> 1 <= w <= Z.of_nat (length l);
  dec_nonneg : forall l r w, dec l = (r, w) -> 0 <= r;
  dec_ascii : forall b l, 0 <= b < 128 -> dec (b :: l) = (b, 1);
  dec_high : forall b l r w, high b -> dec (b :: l) = (r, w) ->
             128 <= r /\ Forall high (firstn (Z.to_nat w) (b :: l))
}.

Lemma second_lo_bound s0 :
  128 <= second_lo s0 /\ (s0 = 224 -> second_lo s0 = 160) /\ (s0 = 240 -> second_lo s0 = 144).
Proof. unfold second_lo. destruct (Z.eqb_spec s0 224); [|destruct (Z.eqb_spec s0 240)]; lia. Qed.

(* what utf8.DecodeRuneInString returns on a non-empty string: an ASCII byte; RuneError of
   width 1; or a rune >= 0x80 made of a first byte and w-1 further bytes, all >= 0x80 *)
Lemma decode_cons s0 l r w : decode (s0 :: l) = (r, w) ->
  (0 <= s0 < 128 /\ r = s0 /\ w = 1) \/
  (~ 0 <= s0 < 128 /\ r = rune_error /\ w = 1) \/
  (128 <= s0 /\ 128 <= r /\ exists bs l', l = bs ++ l' /\ Forall (fun b => 128 <= b) bs /\
                                         w = 1 + Z.of_nat (length bs)).
Proof.
  unfold decode, cont. pose proof (second_lo_bound s0) as Hlo. revert Hlo.
  generalize (second_lo s0) (second_hi s0). intros lo hi Hlo. unfold in_rng.
  destruct (Z.leb_spec 0 s0); destruct (Z.leb_spec s0 127); cbn [andb];
    try (intros [= <- <-]; left; lia).
  all: destruct (Z.ltb_spec s0 194); destruct (Z.ltb_spec 244 s0); cbn [orb];
    try (intros [= <- <-]; right; left; unfold rune_error; lia); try (exfalso; lia).
  assert (Hbad : (rune_error, 1) = (r, w) -> ~ 0 <= s0 < 128 /\ r = rune_error /\ w = 1)
    by (intros [= <- <-]; lia).
  destruct (Z.ltb_spec s0 224); [|destruct (Z.ltb_spec s0 240)].
  all: repeat match goal with
       | |- match ?x with [] => _ | _ :: _ => _ end = _ -> _ => destruct x as [|? ?]; [tauto|]
       | |- (if ?c then _ else _) = _ -> _ => destruct c eqn:Hc; [|tauto]
       end.
  all: intros [= <- <-]; right; right; (split; [lia|]); (split; [lia|]).
  - exists [z], l. repeat constructor; lia.
  - exists [z; z0], l. repeat constructor; lia.
  - exists [z; z0; z1], l. repeat constructor; lia.
Qed.

Lemma utf8_decoder_ok : decoder_ok Utf8M.decode.
Proof.
  constructor.
  - reflexivity.
  - intros [|s0 l] r w Hl H; [congruence|]. cbn [length].
    destruct (decode_cons _ _ _ _ H) as [?|[?|(_ & _ & bs & l' & -> & _ & ->)]]; [lia|lia|].
    rewrite app_length. lia.
  - intros [|s0 l] r w H; [inversion H; unfold rune_error; lia|].
    destruct (decode_cons _ _ _ _ H) as [?|[?|?]]; unfold rune_error in *; lia.
  - intros b l Hb. unfold decode, in_rng.
    destruct (0 <=? b) eqn:H1; destruct (b <=? 127) eqn:H2; try lia. reflexivity.
  - intros b l r w Hb H. unfold high in *.
    destruct (decode_cons _ _ _ _ H) as [?|[(_ & -> & ->)|(H0 & Hr & bs & l' & -> & Hbs & ->)]]; [lia| |].
    + split; [unfold rune_error; lia|]. repeat constructor. assumption.
    + split; [assumption|].
      replace (Z.to_nat (1 + Z.of_nat (length bs))) with (S (length bs)) by lia.
      cbn [firstn]. rewrite firstn_app, firstn_all, Nat.sub_diag, app_nil_r.
      constructor; [lia|]. eapply Forall_impl; [|exact Hbs]. intros a. cbv beta. lia.
Qed.

Lemma dec_cases dec l r w : decoder_ok dec -> l <> [] -> dec l = (r, w) ->
  (exists b l', l = b :: l' /\ 0 <= b < 128 /\ r = b /\ w = 1) \/
  (128 <= r /\ Forall high (firstn (Z.to_nat w) l)).
Proof.
  intros Hdec Hl H. destruct l as [|b l']; [congruence|].
  destruct (Z_le_dec 0 b) as [H0|H0]; [destruct (Z_lt_dec b 128) as [H1|H1]|].
  - left. exists b, l'. rewrite (dec_ascii _ Hdec b l') in H by lia. inversion H. repeat split; lia.
  - right. apply (dec_high _ Hdec b l' r w); [unfold high; lia | assumption].
  - right. apply (dec_high _ Hdec b l' r w); [unfold high; lia | assumption].
Qed.

Section WithEnv.
Variable E : env.
Hypothesis Hlen : e_len E = Z.of_nat (length (e_text E)).
Hypothesis Hfuel : (length (e_text E) < e_fuel E)%nat.
Hypothesis Hdec : decoder_ok (e_decode E).

Notation t := (e_text E).
Notation len := (e_len E).
Notation dec := (e_decode E).

Definition Inv (s : state) : Prop :=
  0 <= off s /\ rest s = skipn (Z.to_nat (off s)) t /\
  ((cur s = eof /\ clen s = 0 /\ off s = len) \/
   (off s < len /\ (cur s, clen s) = dec (rest s))).

Definition err_ok (x : err) : Prop := 0 <= er_start x <= er_end x /\ er_end x <= len.
Definition errs_ok (e : list err) : Prop := Forall err_ok e.

Definition post {A} (Q : A -> state -> Prop) (o : Z) (r : res A) : Prop :=
  match r with
  | Ok a s' => Inv s' /\ o <= off s' /\ Q a s'
  | Err e s' => o <= off s' <= len /\ errs_ok e
  | OutOfFuel => False
  end.

Lemma post_weaken {A} (Q Q' : A -> state -> Prop) o o' r :
  post Q o r -> o' <= o ->
  (forall a s', Inv s' -> o <= off s' -> Q a s' -> Q' a s') ->
  post Q' o' r.
Proof using All.
  intros H Ho HQ. destruct r as [a s'|e s'|]; simpl in *; [|destruct H; split; [lia|assumption]|assumption].
  destruct H as (Hi & Hle & Hq). split; [assumption|split; [lia|now apply HQ]].
Qed.

Lemma post_ok {A} (Q : A -> state -> Prop) o a s' :
  Inv s' -> o <= off s' -> Q a s' -> post Q o (Ok a s').
Proof using All. intros. simpl. auto. Qed.

Lemma post_err {A} (Q : A -> state -> Prop) o e s' :
  o <= off s' <= len -> errs_ok e -> post Q o (Err e s').
Proof using All. intros. simpl. auto. Qed.

Lemma errs_ok_cons k a b e : 0 <= a <= b -> b <= len -> errs_ok e -> errs_ok (mkErr k a b :: e).
Proof using All. intros. constructor; [unfold err_ok; simpl; lia|assumption]. Qed.

Lemma errs_ok_one k a b : 0 <= a <= b -> b <= len -> errs_ok [mkErr k a b].
Proof using All. intros. apply errs_ok_cons; try assumption. constructor. Qed.

Lemma rest_length s : Inv s -> Z.of_nat (length (rest s)) = len - off s.
Proof using All.
  intros (H0 & Hr & Hd). rewrite Hr, skipn_length.
  assert (off s <= len) by (destruct Hd as [(_ & _ & ?)|(? & _)]; lia). lia.
Qed.

Lemma inv_facts s : Inv s ->
  0 <= off s /\ 0 <= clen s /\ off s + clen s <= len /\
  (cur s = eof -> clen s = 0 /\ off s = len) /\
  (cur s <> eof -> 1 <= clen s /\ 0 <= cur s /\ off s < len /\ (cur s, clen s) = dec (rest s)).
Proof using All.
  intros HI. pose proof (rest_length s HI) as HL. destruct HI as (H0 & Hr & [(Hc & Hw & Ho)|(Ho & Hd)]).
  - repeat split; try lia; intros; try lia; congruence.
  - assert (Hne : rest s <> []) by (intros Hn; rewrite Hn in HL; simpl in HL; lia).
    symmetry in Hd. pose proof (dec_width _ Hdec _ _ _ Hne Hd) as Hw.
    pose proof (dec_nonneg _ Hdec _ _ _ Hd) as Hn.
    repeat split; try lia; intros; try (unfold eof in *; lia). now symmetry.
Qed.

Lemma inv_eof_len s : Inv s -> cur s = eof -> off s = len.
Proof using All. intros HI Hc. apply inv_facts in HI. tauto. Qed.

Lemma cur_ascii s c : Inv s -> cur s = c -> 0 <= c < 128 ->
  clen s = 1 /\ slice t (off s) (off s + 1) = [c].
Proof using All.
  intros HI Hc Hr. pose proof (rest_length s HI) as HL.
  pose proof (inv_facts s HI) as (H0 & _ & _ & _ & Hn).
  destruct Hn as (Hw & _ & Ho & Hd); [unfold eof; lia|].
  assert (Hne : rest s <> []) by (intros Hn; rewrite Hn in HL; simpl in HL; lia).
  symmetry in Hd. destruct (dec_cases _ _ _ _ Hdec Hne Hd) as [(b & l' & Hl & Hb & Hrb & Hw1)|(Hhi & _)]; [|lia].
  split; [assumption|]. destruct HI as (_ & Hrest & _).
  rewrite (slice_rest t (off s) 1 (rest s) Hrest), Hl. simpl. congruence.
Qed.

Lemma inv_eof_state o r : o = len -> r = skipn (Z.to_nat o) t -> Inv (mkState o eof 0 r).
Proof using All. intros Ho Hr. unfold Inv; simpl. split; [lia|]. split; [assumption|]. left. auto. Qed.

Lemma inv_dec_state o c w r :
  0 <= o < len -> r = skipn (Z.to_nat o) t -> dec r = (c, w) -> Inv (mkState o c w r).
Proof using All.
  intros Ho Hr Hd. unfold Inv; simpl. split; [lia|]. split; [assumption|]. right.
  split; [lia|now symmetry].
Qed.

Lemma advance_decode o o0 : 0 <= o0 <= o -> o < len ->
  post (fun _ s' => off s' = o) o0
    (let r := skipn (Z.to_nat o) t in
     let (c, w) := dec r in
     let s' := mkState o c w r in
     if c =? rune_error then
       if w =? 0 then Err [mkErr KEof o o] s'
       else if w =? 1 then Err [mkErr KUtf8 o o] s'
       else Ok tt s'
     else Ok tt s').
Proof using All.
  intros Ho Hlt. cbv zeta. set (r := skipn (Z.to_nat o) t).
  assert (HL : Z.of_nat (length r) = len - o) by (unfold r; rewrite skipn_length; lia).
  assert (Hrne : r <> []) by (intros Hn; rewrite Hn in HL; simpl in HL; lia).
  destruct (dec r) as [c w] eqn:Hdr.
  pose proof (dec_width _ Hdec _ _ _ Hrne Hdr) as Hww.
  assert (Hok : post (fun (_ : unit) s' => off s' = o) o0 (Ok tt (mkState o c w r))).
  { apply post_ok; simpl; [|lia|reflexivity]. apply inv_dec_state; [lia|reflexivity|assumption]. }
  destruct (c =? rune_error); [|exact Hok].
  destruct (w =? 0) eqn:Hw0; [apply Z.eqb_eq in Hw0; lia|].
  destruct (w =? 1); [|exact Hok].
  apply post_err; simpl; [lia|]. apply errs_ok_one; lia.
Qed.

Lemma advance_spec s : Inv s ->
  post (fun _ s' => off s' = off s + clen s /\ cur s <> eof /\ off s < off s') (off s) (advance E s).
Proof using All.
  intros HI. pose proof (inv_facts s HI) as (H0 & Hw0 & Hle & Heof & Hne).
  pose proof HI as (_ & Hrest & _).
  unfold advance.
  assert (Hr' : skipn (Z.to_nat (clen s)) (rest s) = skipn (Z.to_nat (off s + clen s)) t).
  { rewrite Hrest, skipn_add. f_equal. lia. }
  destruct (Z.eq_dec (cur s) eof) as [Hc|Hc].
  - (* at EOF: Advance fails with "unexpected end of file" *)
    destruct (Heof Hc) as (Hw & Ho).
    rewrite Hc, Z.eqb_refl, andb_false_r.
    rewrite Hr', Hw, Z.add_0_r, Ho, Hlen, Nat2Z.id, skipn_all, (dec_nil _ Hdec).
    simpl. rewrite <- Hlen. split; [lia|]. apply errs_ok_one; lia.
  - destruct (Hne Hc) as (Hw & Hcn & Ho & Hd).
    destruct (Z.eqb_spec (off s + clen s) len) as [He|He].
    + (* reaches the end of the text: EOF *)
      assert (Hb : negb (cur s =? eof) = true) by (apply negb_true_iff, Z.eqb_neq; assumption).
      rewrite Hb. cbn [andb]. apply post_ok; simpl; [|lia|repeat split; try assumption; lia].
      apply inv_eof_state; assumption.
    + cbn [andb]. rewrite Hr'.
      eapply post_weaken; [apply (advance_decode (off s + clen s) (off s)); lia|lia|].
      intros _ s' _ _ ->. repeat split; (assumption || lia).
Qed.

(* the first Advance of syntax.ParseFile, from scanner.New's state *)
Lemma advance_init :
  post (fun _ s' => off s' = 0) 0 (advance E (init_state E)).
Proof using All.
  unfold advance, init_state. cbn [off clen cur rest]. simpl skipn. rewrite Z.add_0_l.
  destruct (Z.eqb_spec 0 len) as [He|He].
  - cbn [andb negb Z.eqb eof]. apply post_ok; simpl; try lia. apply inv_eof_state; [lia|reflexivity].
  - cbn [andb]. pose proof (Zle_0_nat (length t)). apply (advance_decode 0 0); lia.
Qed.

Lemma backtrack_id s : Inv s -> cur s <> eof -> backtrack E (off s) = s.
Proof using All.
  intros HI Hc. pose proof (inv_facts s HI) as (_ & _ & _ & _ & Hne).
  destruct (Hne Hc) as (_ & _ & _ & Hd). destruct HI as (_ & Hrest & _).
  unfold backtrack. rewrite <- Hrest, <- Hd. destruct s; reflexivity.
Qed.

(* the scanner's loops step with Advance and wrap its error in one of their own *)
Lemma advance_then {A} (Q : A -> state -> Prop) k start o (f : state -> res A) s :
  Inv s -> 0 <= start <= off s -> o <= off s ->
  (forall s1, Inv s1 -> off s1 = off s + clen s -> off s < off s1 -> post Q o (f s1)) ->
  post Q o match advance E s with
           | Ok _ s1 => f s1
           | Err e s1 => Err (mkErr k start (off s1) :: e) s1
           | OutOfFuel => OutOfFuel
           end.
Proof using All.
  intros HI Hst Ho Hf. pose proof (advance_spec s HI) as Ha.
  destruct (advance E s) as [[] s1|e s1|]; cbn [post] in Ha; [| |contradiction].
  - destruct Ha as (HI1 & _ & Ho1 & _ & Hlt). now apply Hf.
  - destruct Ha as (Hle & He). apply post_err; [lia|]. apply errs_ok_cons; [lia|lia|assumption].
Qed.

(* bytes of runes accepted by p have property P *)
Definition rune_bytes (p : Z -> bool) (P : Z -> Prop) : Prop :=
  forall l r w, l <> [] -> dec l = (r, w) -> p r = true -> Forall P (firstn (Z.to_nat w) l).

Lemma rune_bytes_true p : rune_bytes p (fun _ => True).
Proof using All. intros l r w _ _ _. apply Forall_forall. auto. Qed.

Lemma advance_bytes s p P : Inv s -> rune_bytes p P -> cur s <> eof -> p (cur s) = true ->
  Forall P (slice t (off s) (off s + clen s)).
Proof using All.
  intros HI HP Hc Hp. pose proof (rest_length s HI) as HL.
  pose proof (inv_facts s HI) as (_ & _ & _ & _ & Hne).
  destruct (Hne Hc) as (Hw & _ & Ho & Hd). destruct HI as (_ & Hrest & _).
  rewrite (slice_rest t (off s) (clen s) (rest s) Hrest).
  apply (HP (rest s) (cur s) (clen s)); [|now symmetry|assumption].
  intros Hn. rewrite Hn in HL. simpl in HL. lia.
Qed.

Lemma read_while_loop_spec p P start : rune_bytes p P ->
  forall n s, Inv s -> 0 <= start <= off s -> len - off s < Z.of_nat n ->
  Forall P (slice t start (off s)) ->
  post (fun r s' => r = mkRange start (off s') /\ Forall P (slice t start (off s')) /\
                    (p (cur s') = false \/ cur s' = eof) /\
                    (p (cur s) = true -> cur s <> eof -> off s < off s'))
       (off s) (read_while_loop E p start n s).
Proof using All.
  intros HP. induction n as [|n IH]; intros s HI Hst Hn Hacc.
  - pose proof (inv_facts s HI). lia.
  - cbn [read_while_loop]. destruct (p (cur s)) eqn:Hp; cbn [andb].
    2:{ apply post_ok; [assumption|lia|]. repeat split; [assumption|now left|discriminate]. }
    destruct (Z.eqb_spec (cur s) eof) as [Hc|Hc]; cbn [negb].
    { apply post_ok; [assumption|lia|]. repeat split; [assumption|now right|contradiction]. }
    apply advance_then; [assumption|lia|lia|]. intros s1 HI1 Ho1 Hlt.
    eapply post_weaken; [apply (IH s1 HI1); try lia| lia |].
    + rewrite (slice_app t start (off s) (off s1)) by lia.
      apply Forall_app. split; [assumption|]. rewrite Ho1. exact (advance_bytes s p P HI HP Hc Hp).
    + intros r s' _ Hle' (Hr & Hall & Hstop & _). repeat split; try assumption. lia.
Qed.

Lemma read_while_spec p P s : rune_bytes p P -> Inv s ->
  post (fun r s' => r = mkRange (off s) (off s') /\ Forall P (slice t (off s) (off s')) /\
                    (p (cur s') = false \/ cur s' = eof) /\
                    (p (cur s) = true -> cur s <> eof -> off s < off s'))
       (off s) (read_while E p s).
Proof using All.
  intros HP HI. pose proof (inv_facts s HI). unfold read_while.
  apply read_while_loop_spec; try assumption; try lia.
  rewrite slice_nil. constructor.
Qed.

Lemma read_while1_spec p P s : rune_bytes p P -> Inv s ->
  post (fun r s' => r = mkRange (off s) (off s') /\ Forall P (slice t (off s) (off s')) /\
                    off s < off s')
       (off s) (read_while1 E p s).
Proof using All.
  intros HP HI. pose proof (inv_facts s HI) as (H0 & Hcl0 & Hle & _ & _). unfold read_while1.
  destruct (Z.eqb_spec (cur s) eof) as [Hc|Hc].
  { apply post_err; [lia|]. apply errs_ok_one; lia. }
  destruct (p (cur s)) eqn:Hp; cbn [negb].
  2:{ apply post_err; [lia|]. apply errs_ok_one; lia. }
  eapply post_weaken; [apply (read_while_spec p P s HP HI)|lia|].
  intros r s' _ _ (Hr & Hall & _ & Hlt). auto.
Qed.

Lemma read_character_with_spec p s : Inv s ->
  post (fun r s' => r = mkRange (off s) (off s') /\ off s' = off s + clen s /\ off s < off s' /\
                    p (cur s) = true /\ cur s <> eof)
       (off s) (read_character_with E p s).
Proof using All.
  intros HI. pose proof (inv_facts s HI) as (H0 & Hcl0 & Hle & _ & _). unfold read_character_with.
  destruct (Z.eqb_spec (cur s) eof) as [Hc|Hc].
  { apply post_err; [lia|]. apply errs_ok_one; lia. }
  destruct (p (cur s)) eqn:Hp; cbn [negb].
  2:{ apply post_err; [lia|]. apply errs_ok_one; lia. }
  apply advance_then; [assumption|lia|lia|]. intros s1 HI1 Ho1 Hlt.
  apply post_ok; [assumption|lia|]. repeat split; assumption.
Qed.

(* an ASCII character is exactly one byte *)
Lemma read_character_spec c s : Inv s -> 0 <= c < 128 ->
  post (fun r s' => r = mkRange (off s) (off s') /\ off s' = off s + 1 /\
                    slice t (off s) (off s') = [c])
       (off s) (read_character E c s).
Proof using All.
  intros HI Hc. unfold read_character.
  eapply post_weaken; [apply (read_character_with_spec _ s HI)|lia|].
  intros r s' _ _ (Hr & Ho & _ & Hp & _). apply Z.eqb_eq in Hp.
  destruct (cur_ascii s c HI Hp Hc) as (Hw & Hs).
  rewrite Hw in Ho. rewrite Ho in *. repeat split; try assumption; reflexivity.
Qed.

Definition ascii (c : Z) : Prop := 0 <= c < 128.

Lemma read_string_loop_spec str : Forall ascii str ->
  forall start s, Inv s -> 0 <= start <= off s ->
  post (fun r s' => r = mkRange start (off s') /\ off s' = off s + Z.of_nat (length str) /\
                    slice t (off s) (off s') = str)
       (off s) (read_string_loop E str start s).
Proof using All.
  induction 1 as [|c str Hc Hstr IH]; intros start s HI Hst.
  - cbn [read_string_loop length]. apply post_ok; [assumption|lia|].
    rewrite Z.add_0_r, slice_nil. repeat split; lia.
  - pose proof (inv_facts s HI) as (H0 & Hcl0 & Hle & _ & _).
    cbn [read_string_loop]. destruct (Z.eqb_spec c (cur s)) as [He|He]; cbn [negb].
    2:{ apply post_err; [lia|]. apply errs_ok_one; lia. }
    destruct (cur_ascii s c HI (eq_sym He) Hc) as (Hw & Hs).
    apply advance_then; [assumption|lia|lia|]. intros s1 HI1 Ho1 Hlt.
    eapply post_weaken; [apply (IH start s1 HI1); lia|lia|].
    intros r s' _ Hle' (Hr & Ho & Hsl). rewrite Hw in Ho1.
    split; [assumption|]. split; [rewrite Ho, Ho1; cbn [length]; lia|].
    rewrite (slice_app t (off s) (off s1) (off s')) by lia.
    rewrite Hsl, Ho1, Hs. reflexivity.
Qed.

Lemma read_string_spec str s : Forall ascii str -> Inv s ->
  post (fun r s' => r = mkRange (off s) (off s') /\ off s' = off s + Z.of_nat (length str) /\
                    slice t (off s) (off s') = str)
       (off s) (read_string E str s).
Proof using All.
  intros Hs HI. pose proof (inv_facts s HI). unfold read_string.
  apply read_string_loop_spec; try assumption; lia.
Qed.

Lemma read_alternative_loop_spec ss s : Forall (Forall ascii) ss -> Inv s -> cur s <> eof ->
  post (fun r s' => r = mkRange (off s) (off s') /\ In (slice t (off s) (off s')) ss /\
                    off s' = off s + Z.of_nat (length (slice t (off s) (off s'))))
       (off s) (read_alternative_loop E ss (off s) s).
Proof using All.
  intros Hss HI Hc. pose proof (inv_facts s HI) as (H0 & Hcl0 & Hle & _ & _).
  induction Hss as [|str ss Hstr Hss IH].
  - cbn [read_alternative_loop]. apply post_err; [lia|]. apply errs_ok_one; lia.
  - cbn [read_alternative_loop].
    pose proof (read_string_spec str s Hstr HI) as Hr.
    destruct (read_string E str s) as [r s1|e s1|]; cbn [post] in Hr; [| |contradiction].
    + destruct Hr as (HI1 & Hle1 & Hrr & Ho & Hsl).
      apply post_ok; [assumption|lia|]. split; [assumption|]. split; [left; now symmetry|].
      rewrite Hsl. assumption.
    + rewrite (backtrack_id s HI Hc).
      eapply post_weaken; [apply IH|lia|].
      intros r s' _ _ (Hr' & Hin & Ho). split; [assumption|]. split; [now right|assumption].
Qed.

Lemma read_alternative_spec ss s : Forall (Forall ascii) ss -> Inv s ->
  post (fun r s' => r = mkRange (off s) (off s') /\ In (slice t (off s) (off s')) ss /\
                    off s' = off s + Z.of_nat (length (slice t (off s) (off s'))))
       (off s) (read_alternative E ss s).
Proof using All.
  intros Hss HI. pose proof (inv_facts s HI) as (H0 & Hcl0 & Hle & _ & _). unfold read_alternative.
  destruct (Z.eqb_spec (cur s) eof) as [Hc|Hc].
  - apply post_err; [lia|]. apply errs_ok_one; lia.
  - now apply read_alternative_loop_spec.
Qed.

(* not used by the parser; total and in bounds like the others *)

Lemma read_n_loop_spec n : forall start s, Inv s -> 0 <= start <= off s ->
  post (fun r s' => r = mkRange start (off s')) (off s) (read_n_loop E n start s).
Proof using All.
  induction n as [|n IH]; intros start s HI Hst;
    pose proof (inv_facts s HI) as (H0 & Hcl0 & Hle & _ & _).
  - cbn [read_n_loop]. apply post_ok; [assumption|lia|reflexivity].
  - cbn [read_n_loop]. destruct (Z.eqb_spec (cur s) eof) as [Hc|Hc].
    { apply post_err; [lia|]. apply errs_ok_cons; [lia|lia|]. apply errs_ok_one; lia. }
    apply advance_then; [assumption|lia|lia|]. intros s1 HI1 Ho1 Hlt.
    eapply post_weaken; [apply (IH start s1 HI1); lia|lia|]. intros r s' _ _ Hr. exact Hr.
Qed.

Lemma read_until_loop_spec p start : forall n s, Inv s -> 0 <= start <= off s ->
  len - off s + 1 < Z.of_nat n ->
  post (fun r s' => r = mkRange start (off s')) (off s) (read_until_loop E p start n s).
Proof using All.
  induction n as [|n IH]; intros s HI Hst Hn;
    pose proof (inv_facts s HI) as (H0 & Hcl0 & Hle & _ & _); [lia|].
  cbn [read_until_loop]. destruct (p (cur s)); cbn [negb].
  { apply post_ok; [assumption|lia|reflexivity]. }
  apply advance_then; [assumption|lia|lia|]. intros s1 HI1 Ho1 Hlt.
  pose proof (inv_facts s1 HI1) as (_ & _ & Hle2 & _ & _).
  destruct (cur s1 =? eof).
  - apply post_err; [lia|]. apply errs_ok_one; lia.
  - eapply post_weaken; [apply (IH s1 HI1); lia|lia|]. intros r s' _ _ Hr. exact Hr.
Qed.

End WithEnv.
