(* C07, separators: in a successfully parsed tree the text between the leaves of every node is
   what the grammar says ([wf_separators_b], Spec/SepSpec.v): blanks between the leaves of a
   booking, a balance line, a price, an @accrue line; blanks and commas in the argument list of
   @performance; the rest of a line after the description, after every booking / balance line
   and after every addon; a node starts with its first leaf and ends with its last (inversion
   of the parser: Proofs/RoundTripInv.v).  readWhitespace1 accepts an empty run of blanks in
   front of a newline, so that the blanks of a balance line, a price and an @accrue line are not
   empty needs that the newline is neither a digit nor alphanumeric ([class_ok]).           *)
From Coq Require Import String ZArith List Bool.
From Knut Require Import Proofs.ListFacts Model.Bytes Model.Utf8 Model.Scanner Model.Parser Spec.SyntaxSpec Spec.FormatSpec
  Spec.LeafSpec Spec.SepSpec Proofs.RoundTripLeaf Proofs.RoundTripInv Proofs.RoundTripFile Proofs.KeywordProofs.
Import ListNotations.
Open Scope bool_scope.
Open Scope Z_scope.

Lemma blanks_app W1 W2 : blanks_b W1 = true -> blanks_b W2 = true -> blanks_b (W1 ++ W2) = true.
Proof. unfold blanks_b. intros H1 H2. rewrite forallb_app. now rewrite H1, H2. Qed.

Lemma last_app_nl (w : str) W d : last (w ++ W ++ [10]) d = 10.
Proof. rewrite app_assoc. apply last_last. Qed.

Theorem parse_text_separators letter digit t f : class_ok letter digit ->
  parse_text letter digit t = ParseOk f -> wf_separators_b t f = true.
Proof.
  intros Hcls Hp.
  apply (Forall_forallb _ _ _ (fun d H => proj2 (proj2 (proj2 H) Hcls)) (parse_text_directives _ _ _ _ Hp)).
Qed.

(* without [class_ok] the blanks readWhitespace1 leaves out may be missing altogether: a
   classification that calls the newline a letter lets the target commodity of a price start
   with the newline that follows the number *)
Definition nls_text : str := Eval vm_compute in
  runes_of_string "2020-01-01 price A 1
B"%string.

Theorem separators_unrestricted_refuted :
  exists letter digit t f, parse_text letter digit t = ParseOk f /\ wf_separators_b t f = false.
Proof.
  exists nl_letter, nl_digit, nls_text. eexists. split; [vm_compute; reflexivity|]. vm_compute. reflexivity.
Qed.
