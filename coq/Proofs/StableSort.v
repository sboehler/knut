(* The stable insertion sort of Model/Str.v ([sort_by]) for a comparator that is a strict weak
   order: the result is ordered, a permutation, and keeps every class of equivalent elements
   in its original order; it is the only such list.  Consequences: the result depends only on
   the subsequences of equivalent elements (hence not on the order in which inequivalent
   elements arrive), sorting an ordered list changes nothing, and sorting commutes with
   selecting a part of the list. *)
From Coq Require Import ZArith List Bool Lia Permutation Sorting.Sorted.
From Knut Require Import Model.Str Proofs.StrProofs Proofs.ListFacts.
Import ListNotations.

Lemma sort_by_snoc {A} (lt : A -> A -> bool) l x : sort_by lt (l ++ [x]) = insert_sorted lt x (sort_by lt l).
Proof. unfold sort_by. rewrite rev_app_distr. reflexivity. Qed.

Lemma sort_by_nil {A} (lt : A -> A -> bool) : sort_by lt [] = [].
Proof. reflexivity. Qed.

(* a comparator may be replaced by one that agrees with it on the elements of the list *)
Lemma insert_sorted_ext_in {A} (lt lt' : A -> A -> bool) x l :
  (forall y, In y l -> lt x y = lt' x y) -> insert_sorted lt x l = insert_sorted lt' x l.
Proof.
  induction l as [|y l IH]; intros H; cbn; [reflexivity|].
  rewrite <- (H y (or_introl eq_refl)). destruct (lt x y); [reflexivity|].
  f_equal. apply IH. intros z Hz. apply H. right. exact Hz.
Qed.

Lemma sort_by_ext_in {A} (lt lt' : A -> A -> bool) l :
  (forall x y, In x l -> In y l -> lt x y = lt' x y) -> sort_by lt l = sort_by lt' l.
Proof.
  induction l as [|x l IH] using rev_ind; intros H; [reflexivity|].
  rewrite !sort_by_snoc. rewrite IH.
  - apply insert_sorted_ext_in. intros y Hy. apply H.
    + apply in_or_app. right. left. reflexivity.
    + apply in_or_app. left. eapply Permutation_in; [apply sort_by_perm|exact Hy].
  - intros a b Ha Hb. apply H; apply in_or_app; left; assumption.
Qed.

(* equal lists of pairwise equal elements *)
Lemma perm_all_equal {A} (m1 m2 : list A) :
  Permutation m1 m2 -> (forall x y, In x m1 -> In y m1 -> x = y) -> m1 = m2.
Proof.
  intros P. induction P as [|x l l' P IH|x y l|l l' l'' P1 IH1 P2 IH2]; intros H.
  - reflexivity.
  - f_equal. apply IH. intros a b Ha Hb. apply H; right; assumption.
  - rewrite (H x y); [reflexivity|right; left; reflexivity|left; reflexivity].
  - rewrite IH1 by exact H. apply IH2. intros a b Ha Hb.
    apply H; eapply Permutation_in; try (apply Permutation_sym; exact P1); assumption.
Qed.

Section StableSort.
  Context {A : Type} (lt : A -> A -> bool).
  Hypothesis lt_irrefl : forall a, lt a a = false.
  Hypothesis lt_trans : forall a b c, lt a b = true -> lt b c = true -> lt a c = true.
  Hypothesis lt_cotrans : forall a b c, lt a b = true -> lt a c = true \/ lt c b = true.

  (* neither is before the other *)
  Definition eqv (a b : A) : bool := negb (lt a b) && negb (lt b a).

  (* no element is before an earlier one *)
  Definition sorted (l : list A) : Prop := StronglySorted (fun x y => lt y x = false) l.

  Lemma lt_asym a b : lt a b = true -> lt b a = false.
  Proof.
    intros H. destruct (lt b a) eqn:E; [|reflexivity].
    pose proof (lt_trans _ _ _ H E) as H1. pose proof (lt_irrefl a) as H2. congruence.
  Qed.

  Lemma eqv_refl a : eqv a a = true.
  Proof. unfold eqv. rewrite lt_irrefl. reflexivity. Qed.

  Lemma eqv_sym a b : eqv a b = eqv b a.
  Proof. unfold eqv. apply andb_comm. Qed.

  Lemma eqv_spec a b : eqv a b = true <-> lt a b = false /\ lt b a = false.
  Proof. unfold eqv. rewrite andb_true_iff, !negb_true_iff. reflexivity. Qed.

  (* a < y and not z < y: a < z *)
  Lemma lt_ge a y z : lt a y = true -> lt z y = false -> lt a z = true.
  Proof. intros H1 H2. destruct (lt_cotrans _ _ z H1) as [H|H]; [exact H|congruence]. Qed.

  Lemma eqv_lt_l a b c : eqv a b = true -> lt a c = lt b c.
  Proof.
    intros H. apply eqv_spec in H. destruct H as [H1 H2].
    destruct (lt a c) eqn:E1; destruct (lt b c) eqn:E2; try reflexivity.
    - destruct (lt_cotrans _ _ b E1) as [H|H]; congruence.
    - destruct (lt_cotrans _ _ a E2) as [H|H]; congruence.
  Qed.

  Lemma eqv_lt_r a b c : eqv a b = true -> lt c a = lt c b.
  Proof.
    intros H. apply eqv_spec in H. destruct H as [H1 H2].
    destruct (lt c a) eqn:E1; destruct (lt c b) eqn:E2; try reflexivity.
    - destruct (lt_cotrans _ _ b E1) as [H|H]; congruence.
    - destruct (lt_cotrans _ _ a E2) as [H|H]; congruence.
  Qed.

  Lemma eqv_trans a b c : eqv a b = true -> eqv b c = true -> eqv a c = true.
  Proof.
    intros H1 H2. unfold eqv. rewrite (eqv_lt_l _ _ c H1), (eqv_lt_r _ _ c H1).
    exact H2.
  Qed.

  Lemma insert_sorted_sorted x l : sorted l -> sorted (insert_sorted lt x l).
  Proof.
    unfold sorted. induction l as [|y l IH]; intros Hs; cbn.
    - constructor; constructor.
    - inversion Hs as [|? ? Hs' Hall]; subst. destruct (lt x y) eqn:E.
      + constructor; [exact Hs|]. constructor; [apply lt_asym; exact E|].
        rewrite Forall_forall in *. intros z Hz. specialize (Hall z Hz).
        destruct (lt z x) eqn:E2; [|reflexivity].
        rewrite (lt_trans _ _ _ E2 E) in Hall. discriminate.
      + constructor; [apply IH; exact Hs'|].
        eapply Permutation_Forall; [apply Permutation_sym; apply insert_sorted_perm|].
        constructor; assumption.
  Qed.

  Lemma sort_by_sorted l : sorted (sort_by lt l).
  Proof.
    induction l as [|x l IH] using rev_ind; [constructor|].
    rewrite sort_by_snoc. apply insert_sorted_sorted. exact IH.
  Qed.

  Lemma filter_eqv_above a x l :
    Forall (fun z => lt x z = true) l -> eqv a x = true -> filter (eqv a) l = [].
  Proof.
    intros Hall He. induction Hall as [|z l Hz Hall IH]; cbn; [reflexivity|].
    replace (eqv a z) with false; [exact IH|]. symmetry.
    destruct (eqv a z) eqn:E; [|reflexivity].
    rewrite eqv_sym in He. pose proof (eqv_trans _ _ _ He E) as H. apply eqv_spec in H.
    destruct H; congruence.
  Qed.

  Lemma sorted_above x y l : sorted (y :: l) -> lt x y = true -> Forall (fun z => lt x z = true) (y :: l).
  Proof.
    intros Hs E. inversion Hs as [|? ? Hs' Hall]; subst. constructor; [exact E|].
    rewrite Forall_forall in *. intros z Hz. apply (lt_ge _ y); [exact E|apply Hall; exact Hz].
  Qed.

  Lemma insert_sorted_filter a x l :
    sorted l ->
    filter (eqv a) (insert_sorted lt x l) = filter (eqv a) l ++ (if eqv a x then [x] else []).
  Proof.
    induction l as [|y l IH]; intros Hs.
    - cbn. destruct (eqv a x); reflexivity.
    - cbn [insert_sorted]. destruct (lt x y) eqn:E.
      + change (filter (eqv a) (x :: y :: l))
          with (if eqv a x then x :: filter (eqv a) (y :: l) else filter (eqv a) (y :: l)).
        destruct (eqv a x) eqn:Ex.
        * rewrite (filter_eqv_above a x (y :: l)); [reflexivity| |exact Ex].
          apply sorted_above; assumption.
        * rewrite app_nil_r. reflexivity.
      + inversion Hs as [|? ? Hs' Hall]; subst. cbn [filter]. rewrite (IH Hs').
        destruct (eqv a y); reflexivity.
  Qed.

  (* the elements equivalent to [a] come out in the order in which they went in *)
  Lemma sort_by_stable a l : filter (eqv a) (sort_by lt l) = filter (eqv a) l.
  Proof.
    induction l as [|x l IH] using rev_ind; [reflexivity|].
    rewrite sort_by_snoc, insert_sorted_filter by apply sort_by_sorted.
    rewrite IH, filter_app. reflexivity.
  Qed.

  Lemma sorted_head_filter x l : sorted (x :: l) -> forall y, lt y x = true -> filter (eqv y) (x :: l) = [].
  Proof.
    intros Hs y E. apply (filter_eqv_above y y); [|apply eqv_refl].
    apply sorted_above; assumption.
  Qed.

  Lemma sorted_unique l1 : forall l2,
    sorted l1 -> sorted l2 -> (forall a, filter (eqv a) l1 = filter (eqv a) l2) -> l1 = l2.
  Proof.
    induction l1 as [|x t1 IH]; intros [|y t2] S1 S2 H.
    - reflexivity.
    - specialize (H y). cbn in H. rewrite eqv_refl in H. discriminate.
    - specialize (H x). cbn in H. rewrite eqv_refl in H. discriminate.
    - destruct (eqv x y) eqn:Exy.
      + assert (x = y).
        { pose proof (H x) as Hx. cbn in Hx. rewrite eqv_refl, Exy in Hx. congruence. }
        subst y. f_equal. apply IH.
        * inversion S1; assumption.
        * inversion S2; assumption.
        * intros a. specialize (H a). cbn in H. destruct (eqv a x); congruence.
      + exfalso. unfold eqv in Exy. apply andb_false_iff in Exy.
        rewrite !negb_false_iff in Exy. destruct Exy as [E|E].
        * pose proof (H x) as Hx. rewrite (sorted_head_filter y t2 S2 x E) in Hx.
          cbn in Hx. rewrite eqv_refl in Hx. discriminate.
        * pose proof (H y) as Hy. rewrite (sorted_head_filter x t1 S1 y E) in Hy.
          cbn in Hy. rewrite eqv_refl in Hy. discriminate.
  Qed.

  (* the contract of a stable sort has one solution *)
  Theorem sort_by_unique l l' :
    sorted l' -> (forall a, filter (eqv a) l' = filter (eqv a) l) -> l' = sort_by lt l.
  Proof.
    intros Hs H. apply sorted_unique; [exact Hs|apply sort_by_sorted|].
    intros a. rewrite sort_by_stable. apply H.
  Qed.

  (* the result depends on the classes of equivalent elements, each in its order, only *)
  Theorem sort_by_classes l1 l2 :
    (forall a, filter (eqv a) l1 = filter (eqv a) l2) -> sort_by lt l1 = sort_by lt l2.
  Proof.
    intros H. apply sort_by_unique; [apply sort_by_sorted|].
    intros a. rewrite sort_by_stable. apply H.
  Qed.

  Theorem sort_by_sorted_id l : sorted l -> sort_by lt l = l.
  Proof. intros Hs. symmetry. apply sort_by_unique; [exact Hs|reflexivity]. Qed.

  Theorem sort_by_idem l : sort_by lt (sort_by lt l) = sort_by lt l.
  Proof. apply sort_by_sorted_id, sort_by_sorted. Qed.

  Lemma classes_of_perm l1 l2 :
    Permutation l1 l2 ->
    (forall x y, In x l1 -> In y l1 -> eqv x y = true -> x = y) ->
    forall a, filter (eqv a) l1 = filter (eqv a) l2.
  Proof.
    intros P Hinj a. apply perm_all_equal; [apply Permutation_filter; exact P|].
    intros x y Hx Hy. apply filter_In in Hx, Hy. destruct Hx as [Hx Ex], Hy as [Hy Ey].
    apply Hinj; try assumption. rewrite eqv_sym in Ex. exact (eqv_trans _ _ _ Ex Ey).
  Qed.

  (* when equivalent elements are equal the result is a function of the multiset *)
  Theorem sort_by_perm_inj l1 l2 :
    Permutation l1 l2 ->
    (forall x y, In x l1 -> In y l1 -> eqv x y = true -> x = y) ->
    sort_by lt l1 = sort_by lt l2.
  Proof. intros P Hinj. apply sort_by_classes. apply classes_of_perm; assumption. Qed.

  Section Select.
    Context {B : Type} (ltB : B -> B -> bool) (g : A -> option B).
    Hypothesis g_lt : forall a a' b b', g a = Some b -> g a' = Some b' -> ltB b b' = lt a a'.

    Definition select (l : list A) : list B :=
      flat_map (fun a => match g a with Some b => [b] | None => [] end) l.

    Lemma select_app l1 l2 : select (l1 ++ l2) = select l1 ++ select l2.
    Proof. apply flat_map_app. Qed.

    Lemma insert_above x l : Forall (fun z => ltB x z = true) l -> insert_sorted ltB x l = x :: l.
    Proof. intros H. destruct H as [|z l Hz _]; cbn; [reflexivity|]. rewrite Hz. reflexivity. Qed.

    Lemma select_above a b l :
      g a = Some b -> Forall (fun z => lt a z = true) l -> Forall (fun z => ltB b z = true) (select l).
    Proof.
      intros Ga H. induction H as [|z l Hz _ IH]; cbn; [constructor|].
      destruct (g z) as [bz|] eqn:Gz; cbn; [|exact IH].
      constructor; [|exact IH]. rewrite (g_lt _ _ _ _ Ga Gz). exact Hz.
    Qed.

    Lemma select_insert a l :
      sorted l ->
      select (insert_sorted lt a l) =
      match g a with Some b => insert_sorted ltB b (select l) | None => select l end.
    Proof.
      induction l as [|y l IH]; intros Hs.
      - cbn. destruct (g a); reflexivity.
      - cbn [insert_sorted]. destruct (lt a y) eqn:E.
        + change (select (a :: y :: l)) with ((match g a with Some b => [b] | None => [] end) ++ select (y :: l)).
          destruct (g a) as [b|] eqn:Ga; [|reflexivity]. cbn [app].
          rewrite insert_above; [reflexivity|].
          apply (select_above a); [exact Ga|]. apply sorted_above; assumption.
        + inversion Hs as [|? ? Hs' Hall]; subst.
          change (select (y :: insert_sorted lt a l)) with
            ((match g y with Some b => [b] | None => [] end) ++ select (insert_sorted lt a l)).
          rewrite (IH Hs').
          change (select (y :: l)) with ((match g y with Some b => [b] | None => [] end) ++ select l).
          destruct (g a) as [b|] eqn:Ga; [|reflexivity].
          destruct (g y) as [by_|] eqn:Gy; [|reflexivity]. cbn [app insert_sorted].
          rewrite (g_lt _ _ _ _ Ga Gy), E. reflexivity.
    Qed.

    (* sorting the whole and selecting = selecting and sorting the part *)
    Theorem select_sort_by l : select (sort_by lt l) = sort_by ltB (select l).
    Proof.
      induction l as [|x l IH] using rev_ind; [reflexivity|].
      rewrite sort_by_snoc, select_insert by apply sort_by_sorted.
      rewrite select_app. cbn [select flat_map]. rewrite app_nil_r.
      destruct (g x) as [b|]; [|rewrite app_nil_r; exact IH].
      rewrite sort_by_snoc, IH. reflexivity.
    Qed.
  End Select.
End StableSort.

(* a comparator that compares keys with a strict total order on the keys *)
Section ByKey.
  Context {A K : Type} (klt : K -> K -> bool) (key : A -> K).
  Hypothesis klt_irrefl : forall a, klt a a = false.
  Hypothesis klt_trans : forall a b c, klt a b = true -> klt b c = true -> klt a c = true.
  Hypothesis klt_total : forall a b, klt a b = false -> klt b a = false -> a = b.

  Definition by_key (x y : A) : bool := klt (key x) (key y).

  Lemma klt_cotrans a b c : klt a b = true -> klt a c = true \/ klt c b = true.
  Proof.
    intros H. destruct (klt a c) eqn:E1; [left; reflexivity|]. right.
    destruct (klt c a) eqn:E2.
    - apply (klt_trans _ _ _ E2 H).
    - rewrite <- (klt_total _ _ E1 E2). exact H.
  Qed.

  Lemma by_key_irrefl x : by_key x x = false.
  Proof. apply klt_irrefl. Qed.
  Lemma by_key_trans x y z : by_key x y = true -> by_key y z = true -> by_key x z = true.
  Proof. apply klt_trans. Qed.
  Lemma by_key_cotrans x y z : by_key x y = true -> by_key x z = true \/ by_key z y = true.
  Proof. apply klt_cotrans. Qed.

  Lemma eqv_by_key x y : eqv by_key x y = true <-> key x = key y.
  Proof.
    unfold eqv, by_key. rewrite andb_true_iff, !negb_true_iff. split.
    - intros [H1 H2]. apply klt_total; assumption.
    - intros ->. rewrite klt_irrefl. split; reflexivity.
  Qed.
End ByKey.

(* a comparator with a tie-break: first [lt1], and between elements that [lt1] does not order,
   [lt2] (Go: `if o := cmp1(a, b); o != Equal { return o }; return cmp2(a, b)`) *)
Section Lex.
  Context {A : Type} (lt1 lt2 : A -> A -> bool).
  Hypothesis lt1_irrefl : forall a, lt1 a a = false.
  Hypothesis lt1_trans : forall a b c, lt1 a b = true -> lt1 b c = true -> lt1 a c = true.
  Hypothesis lt1_cotrans : forall a b c, lt1 a b = true -> lt1 a c = true \/ lt1 c b = true.
  Hypothesis lt2_irrefl : forall a, lt2 a a = false.
  Hypothesis lt2_trans : forall a b c, lt2 a b = true -> lt2 b c = true -> lt2 a c = true.
  Hypothesis lt2_cotrans : forall a b c, lt2 a b = true -> lt2 a c = true \/ lt2 c b = true.

  Definition lex (a b : A) : bool := lt1 a b || (negb (lt1 b a) && lt2 a b).

  Lemma lex_spec a b :
    lex a b = true <-> lt1 a b = true \/ (lt1 a b = false /\ lt1 b a = false /\ lt2 a b = true).
  Proof.
    unfold lex. destruct (lt1 a b) eqn:E1; cbn; [split; auto|].
    rewrite andb_true_iff, negb_true_iff. split.
    - intros [H1 H2]. right. auto.
    - intros [H|[_ [H1 H2]]]; [discriminate|auto].
  Qed.

  Lemma lex_irrefl a : lex a a = false.
  Proof. unfold lex. rewrite lt1_irrefl, lt2_irrefl. reflexivity. Qed.

  Lemma lex_trans a b c : lex a b = true -> lex b c = true -> lex a c = true.
  Proof.
    rewrite !lex_spec. intros [H1|[H1 [H1' H1'']]] [H2|[H2 [H2' H2'']]].
    - left. eapply lt1_trans; eassumption.
    - left. destruct (lt1_cotrans _ _ c H1) as [H|H]; [exact H|congruence].
    - left. destruct (lt1_cotrans _ _ a H2) as [H|H]; [congruence|exact H].
    - destruct (lt1 a c) eqn:E; [left; reflexivity|]. right. split; [reflexivity|]. split.
      + destruct (lt1 c a) eqn:E'; [|reflexivity].
        destruct (lt1_cotrans _ _ b E') as [H|H]; congruence.
      + eapply lt2_trans; eassumption.
  Qed.

  Lemma lex_cotrans a b c : lex a b = true -> lex a c = true \/ lex c b = true.
  Proof.
    rewrite !lex_spec. intros [H|[H1 [H2 H3]]].
    - destruct (lt1_cotrans _ _ c H) as [H'|H']; [left|right]; left; exact H'.
    - destruct (lt1 a c) eqn:Eac; [left; left; reflexivity|].
      destruct (lt1 c b) eqn:Ecb; [right; left; reflexivity|].
      destruct (lt1 c a) eqn:Eca.
      { destruct (lt1_cotrans _ _ b Eca) as [H|H]; congruence. }
      destruct (lt1 b c) eqn:Ebc.
      { destruct (lt1_cotrans _ _ a Ebc) as [H|H]; congruence. }
      destruct (lt2_cotrans _ _ c H3) as [H|H]; [left|right]; right; auto.
  Qed.

  Lemma eqv_lex a b : eqv lex a b = true -> eqv lt1 a b = true /\ eqv lt2 a b = true.
  Proof.
    unfold eqv, lex. rewrite !andb_true_iff, !negb_true_iff, !orb_false_iff.
    intros [[H1 H2] [H3 H4]]. rewrite H1, H3 in *. cbn in *. auto.
  Qed.

  Lemma strongly_sorted_snoc (R : A -> A -> Prop) l x :
    StronglySorted R (l ++ [x]) -> StronglySorted R l /\ Forall (fun y => R y x) l.
  Proof.
    induction l as [|y l IH]; cbn; intros H; [split; constructor|].
    inversion H as [|? ? Hs Hall]; subst. destruct (IH Hs) as [IH1 IH2].
    rewrite Forall_forall in Hall. split.
    - constructor; [exact IH1|]. rewrite Forall_forall. intros z Hz. apply Hall. apply in_or_app. left. exact Hz.
    - constructor; [|exact IH2]. apply Hall. apply in_or_app. right. left. reflexivity.
  Qed.

  (* a stable sort by [lt1] of a list that is in [lt2] order = the sort with the tie-break *)
  Theorem sort_by_tiebreak l :
    StronglySorted (fun a b => lt2 a b = true) l -> sort_by lt1 l = sort_by lex l.
  Proof.
    induction l as [|x l IH] using rev_ind; intros Hs; [reflexivity|].
    apply strongly_sorted_snoc in Hs. destruct Hs as [Hs Hall].
    rewrite !sort_by_snoc, (IH Hs). apply insert_sorted_ext_in.
    intros y Hy. assert (Hy' : In y l) by (eapply Permutation_in; [apply sort_by_perm|exact Hy]).
    rewrite Forall_forall in Hall. specialize (Hall y Hy').
    unfold lex. replace (lt2 x y) with false; [rewrite andb_false_r, orb_false_r; reflexivity|].
    symmetry. destruct (lt2 x y) eqn:E; [|reflexivity].
    pose proof (lt2_trans _ _ _ Hall E) as H. rewrite lt2_irrefl in H. discriminate.
  Qed.
End Lex.

Open Scope Z_scope.
