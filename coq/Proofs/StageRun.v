(* Successful runs of the Valuate stage (Model/Pipeline.v) as derivations, beside the runs of any
   stage in JournalFacts.v: the Posting callback over the postings of a day (val_run), and the daily
   revaluations entry by entry of the position map (adj_run).  A fact about Valuate is then proved
   by induction on the run and not by taking the monadic fold apart again. *)
From Coq Require Import ZArith List Bool.
From Knut Require Import Model.Str Model.Dec Model.Account Model.Ledger Model.Price Model.Journal Model.Check Model.Pipeline.
From Knut Require Export Proofs.JournalFacts.
Import ListNotations.

(* val_posting does not look at the transaction it is called for: a successful run of the Posting
   callback over transactions is a run over their postings, one after the other *)
Inductive val_run (v : commodity) : val_state -> list posting -> val_state -> list posting -> Prop :=
| val_run_nil s : val_run v s [] s []
| val_run_cons s t p ps s1 p1 s' ps1 :
    val_posting v s t p = ROk (s1, p1) -> val_run v s1 ps s' ps1 -> val_run v s (p :: ps) s' (p1 :: ps1).

Lemma val_run_app v s l1 s1 o1 l2 s' o2 :
  val_run v s l1 s1 o1 -> val_run v s1 l2 s' o2 -> val_run v s (l1 ++ l2) s' (o1 ++ o2).
Proof. intros H1 H2. induction H1; cbn [app]; [exact H2|]. econstructor; eauto. Qed.

Lemma fold_postings_val_run v t ps : forall s s' ps',
  fold_postings (val_posting v) t s ps = ROk (s', ps') -> val_run v s ps s' ps'.
Proof.
  induction ps as [|p ps IH]; intros s s' ps' H.
  - injection H as <- <-. constructor.
  - apply fold_postings_cons_ok in H. destruct H as (s1 & p1 & ps1 & E1 & E2 & ->).
    econstructor; [exact E1|exact (IH _ _ _ E2)].
Qed.

Lemma fold_txns_val_run v ts : forall s s' ts',
  fold_txns (valuate_proc v) s ts = ROk (s', ts') -> val_run v s (concat (map t_postings ts)) s' (concat (map t_postings ts')).
Proof.
  induction ts as [|t ts IH]; intros s s' ts' H.
  - injection H as <- <-. constructor.
  - destruct (fold_txns_cons (valuate_proc v) (val_posting v) _ _ _ _ _ eq_refl eq_refl H) as (s1 & ps1 & ts1 & E1 & E2 & ->).
    cbn [map concat t_postings].
    exact (val_run_app _ _ _ _ _ _ _ _ (fold_postings_val_run _ _ _ _ _ _ E1) (IH _ _ _ E2)).
Qed.

(* an invariant I of the position map and a property P of postings that every booking keeps *)
Lemma val_run_inv v (I : positions -> Prop) (P : posting -> Prop) :
  (forall s t p s' p', val_posting v s t p = ROk (s', p') -> P p -> I (v_qty s) -> I (v_qty s') /\ P p') ->
  forall s ps s' ps', val_run v s ps s' ps' -> Forall P ps -> I (v_qty s) -> I (v_qty s') /\ Forall P ps'.
Proof.
  intros Hb s ps s' ps' H. induction H as [|s t p ps s1 p1 s' ps1 E1 _ IH]; intros HP HI; [split; [exact HI|constructor]|].
  inversion HP as [|? ? Hp Hrest]; subst. destruct (Hb _ _ _ _ _ E1 Hp HI) as [A1 A2].
  destruct (IH Hrest A1) as [B1 B2]. split; [exact B1|constructor; assumption].
Qed.

(* a successful val_adjustments: an entry is passed over (valuation commodity, not an asset or
   liability, zero quantity), or has both prices and they are equal, or has both prices and the
   gain is booked *)
Inductive adj_run (v : commodity) (date : Z) (prev cur : option nprices) : positions -> list txn -> Prop :=
| adj_nil : adj_run v date prev cur [] []
| adj_pass k a c q rest ts :
    str_eqb c v || negb (is_AL a) || is_zero q = true ->
    adj_run v date prev cur rest ts -> adj_run v date prev cur ((k, (a, c, q)) :: rest) ts
| adj_still k a c q pp cp rest ts :
    str_eqb c v = false -> is_AL a = true -> is_zero q = false ->
    np_price_opt prev c = Some pp -> np_price_opt cur c = Some cp -> is_zero (sub cp pp) = true ->
    adj_run v date prev cur rest ts -> adj_run v date prev cur ((k, (a, c, q)) :: rest) ts
| adj_book k a c q pp cp rest ts :
    str_eqb c v = false -> is_AL a = true -> is_zero q = false ->
    np_price_opt prev c = Some pp -> np_price_opt cur c = Some cp -> is_zero (sub cp pp) = false ->
    adj_run v date prev cur rest ts ->
    adj_run v date prev cur ((k, (a, c, q)) :: rest)
            (mkTxn date (s_adjust c a) (pair_build (valuation_account_for a) a c dec_nil (multiply (sub cp pp) q)) (Some [c]) :: ts).

Lemma val_adjustments_run v date prev cur pos : forall ts,
  val_adjustments v date prev cur pos = ROk ts -> adj_run v date prev cur pos ts.
Proof.
  induction pos as [|[k [[a c] q]] rest IH]; intros ts H; cbn [val_adjustments] in H.
  - injection H as <-. constructor.
  - destruct (str_eqb c v || negb (is_AL a) || is_zero q) eqn:E0; [apply adj_pass; [exact E0|exact (IH _ H)]|].
    apply orb_false_iff in E0. destruct E0 as [E0 Ez]. apply orb_false_iff in E0. destruct E0 as [Ev EAL].
    apply negb_false_iff in EAL.
    destruct (np_price_opt prev c) as [pp|] eqn:Epp; [|discriminate].
    destruct (np_price_opt cur c) as [cp|] eqn:Ecp; [|discriminate].
    destruct (is_zero (sub cp pp)) eqn:Ed; [eapply adj_still; eauto|].
    apply rbind_ok in H. destruct H as (ts' & E & H). injection H as <-. eapply adj_book; eauto.
Qed.
