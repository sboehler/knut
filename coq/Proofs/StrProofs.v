(* Facts about byte-string comparison and the stable insertion sort of Model/Str.v. *)
From Coq Require Import ZArith List Bool Lia Permutation.
From Knut Require Import Model.Str.
Import ListNotations.
Open Scope Z_scope.

Lemma str_cmp_eq a b : str_cmp a b = Eq <-> a = b.
Proof.
  revert b. induction a as [|x a IH]; intros [|y b]; cbn; try (split; [discriminate|discriminate]); try tauto.
  destruct (x ?= y) eqn:E.
  - apply Z.compare_eq in E. subst. rewrite IH. split; [intros ->; reflexivity|intros H; inversion H; reflexivity].
  - split; [discriminate|]. intros H; inversion H; subst. rewrite Z.compare_refl in E. discriminate.
  - split; [discriminate|]. intros H; inversion H; subst. rewrite Z.compare_refl in E. discriminate.
Qed.

Lemma str_cmp_refl a : str_cmp a a = Eq.
Proof. apply str_cmp_eq. reflexivity. Qed.

Lemma str_eqb_eq a b : str_eqb a b = true <-> a = b.
Proof.
  unfold str_eqb. rewrite <- str_cmp_eq. destruct (str_cmp a b); split; congruence.
Qed.

Lemma str_eqb_refl a : str_eqb a a = true.
Proof. apply str_eqb_eq. reflexivity. Qed.

Lemma str_cmp_antisym a b : str_cmp b a = CompOpp (str_cmp a b).
Proof.
  revert b. induction a as [|x a IH]; intros [|y b]; cbn; try reflexivity.
  rewrite (Z.compare_antisym x y). destruct (x ?= y); cbn; [apply IH|reflexivity|reflexivity].
Qed.

Lemma str_cmp_lt_trans a b c : str_cmp a b = Lt -> str_cmp b c = Lt -> str_cmp a c = Lt.
Proof.
  revert b c. induction a as [|x a IH]; intros [|y b] [|z c]; cbn; try congruence.
  destruct (x ?= y) eqn:E1; destruct (y ?= z) eqn:E2; try congruence.
  - apply Z.compare_eq in E1, E2. subst. rewrite Z.compare_refl. apply IH.
  - apply Z.compare_eq in E1. subst. rewrite E2. reflexivity.
  - apply Z.compare_eq in E2. subst. rewrite E1. reflexivity.
  - intros _ _. rewrite Z.compare_lt_iff in *. replace (x ?= z) with Lt; [reflexivity|]. symmetry. apply Z.compare_lt_iff. lia.
Qed.

Section SortPerm.
  Context {A : Type} (lt : A -> A -> bool).

  Lemma insert_sorted_perm x l : Permutation (insert_sorted lt x l) (x :: l).
  Proof.
    induction l as [|y l IH]; cbn; [reflexivity|].
    destruct (lt x y); [reflexivity|].
    rewrite IH. apply perm_swap.
  Qed.

  Lemma sort_by_perm l : Permutation (sort_by lt l) l.
  Proof.
    unfold sort_by. rewrite (Permutation_rev l) at 2.
    induction (rev l) as [|x r IH]; cbn; [reflexivity|].
    rewrite insert_sorted_perm. constructor. exact IH.
  Qed.
End SortPerm.

Lemma str_cmp_lt_irrefl a : str_cmp a a <> Lt.
Proof. rewrite str_cmp_refl. discriminate. Qed.

Lemma str_cmp_gt_lt a b : str_cmp a b = Gt -> str_cmp b a = Lt.
Proof. intros H. rewrite (str_cmp_antisym a b), H. reflexivity. Qed.

Lemma str_eqb_neq a b : str_eqb a b = false <-> a <> b.
Proof.
  split.
  - intros H E. apply str_eqb_eq in E. congruence.
  - intros H. destruct (str_eqb a b) eqn:E; [|reflexivity]. apply str_eqb_eq in E. contradiction.
Qed.

Lemma str_eqb_sym a b : str_eqb a b = str_eqb b a.
Proof.
  destruct (str_eqb a b) eqn:E.
  - apply str_eqb_eq in E. subst. symmetry. apply str_eqb_refl.
  - symmetry. apply str_eqb_neq. apply str_eqb_neq in E. congruence.
Qed.

(* Go's string order is a strict total order *)
Lemma str_ltb_irrefl a : str_ltb a a = false.
Proof. unfold str_ltb. rewrite str_cmp_refl. reflexivity. Qed.

Lemma str_ltb_trans a b c : str_ltb a b = true -> str_ltb b c = true -> str_ltb a c = true.
Proof.
  unfold str_ltb. intros H1 H2.
  destruct (str_cmp a b) eqn:E1; try discriminate. destruct (str_cmp b c) eqn:E2; try discriminate.
  rewrite (str_cmp_lt_trans _ _ _ E1 E2). reflexivity.
Qed.

Lemma str_ltb_total a b : str_ltb a b = false -> str_ltb b a = false -> a = b.
Proof.
  unfold str_ltb. intros H1 H2. rewrite (str_cmp_antisym a b) in H2.
  destruct (str_cmp a b) eqn:E; cbn in *; try discriminate.
  apply str_cmp_eq. exact E.
Qed.
