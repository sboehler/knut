(* Layout of the text renderer (Model/Table.v): every cell is rendered to exactly the width of
   its column, the widths dominate every cell's minimal length, hence every line is
   prefix ++ cells joined by 3-rune separators ++ suffix with the separator characters at the
   same rune positions; the rendering satisfies Spec.TableSpec.rect_b. *)
From Coq Require Import ZArith List Bool Lia Arith.
From Knut Require Import Model.Str Model.Dec Model.Table Spec.TableSpec.
Import ListNotations.
Open Scope bool_scope.
Open Scope Z_scope.

Lemma rune_count_starts s : rune_count s = Z.of_nat (length (rune_starts s)).
Proof. reflexivity. Qed.

Lemma rune_starts_app a b : rune_starts (a ++ b) = rune_starts a ++ rune_starts b.
Proof. unfold rune_starts. apply filter_app. Qed.

Lemma rune_count_app a b : rune_count (a ++ b) = rune_count a + rune_count b.
Proof. rewrite !rune_count_starts, rune_starts_app, app_length. lia. Qed.

Lemma rune_count_nonneg s : 0 <= rune_count s.
Proof. rewrite rune_count_starts. lia. Qed.

Lemma rune_starts_repeat c n : is_cont c = false -> rune_starts (repeat c n) = repeat c n.
Proof.
  intros H. induction n as [|n IH]; [reflexivity|].
  cbn [repeat]. unfold rune_starts in *. cbn [filter]. rewrite H. cbn [negb]. rewrite IH. reflexivity.
Qed.

Lemma rune_count_repeat_z_any c n : is_cont c = false -> rune_count (repeat_z c n) = Z.max 0 n.
Proof.
  intros H. rewrite rune_count_starts. unfold repeat_z. rewrite rune_starts_repeat by exact H.
  rewrite repeat_length. lia.
Qed.

Lemma rune_count_repeat_z c n : is_cont c = false -> 0 <= n -> rune_count (repeat_z c n) = n.
Proof. intros H Hn. rewrite rune_count_repeat_z_any by exact H. lia. Qed.

Lemma rune_count_spaces n : 0 <= n -> rune_count (spaces n) = n.
Proof. intros H. unfold spaces. apply rune_count_repeat_z; [reflexivity|exact H]. Qed.

Lemma rune_count_nil : rune_count [] = 0.
Proof. reflexivity. Qed.

Lemma pad_left_width l s : rune_count s <= l -> rune_count (pad_left l s) = l.
Proof.
  intros H. unfold pad_left. rewrite rune_count_app, rune_count_spaces by lia. lia.
Qed.

(* renderCell writes exactly l runes whenever l is at least the cell's minimal length *)
Theorem render_cell_width cfg c l :
  cell_indent_ok c -> min_length_cell cfg c <= l -> rune_count (render_cell cfg c l) = l.
Proof.
  intros Hi Hl. destruct c as [| |s al ind|n]; cbn [render_cell min_length_cell cell_indent_ok] in *.
  - apply rune_count_repeat_z; [reflexivity|exact Hl].
  - apply rune_count_spaces. exact Hl.
  - pose proof (rune_count_nonneg s) as Hs.
    rewrite !rune_count_app.
    destruct al.
    + rewrite !rune_count_spaces by lia. lia.
    + rewrite !rune_count_spaces by lia. lia.
    + assert (0 <= (l - rune_count s) / 2 <= l - rune_count s).
      { split; [apply Z.div_pos; lia|]. apply Z.div_le_upper_bound; lia. }
      rewrite !rune_count_spaces by lia. lia.
  - destruct (is_zero n).
    + apply pad_left_width. rewrite rune_count_nil. pose proof (rune_count_nonneg (num_str cfg n)). lia.
    + apply pad_left_width. exact Hl.
Qed.

Definition le_all (a b : list Z) : Prop := Forall2 Z.le a b.

Lemma le_all_refl a : le_all a a.
Proof. induction a; constructor; [lia|assumption]. Qed.

Lemma le_all_trans a b c : le_all a b -> le_all b c -> le_all a c.
Proof.
  intros H. revert c. induction H as [|x y a b Hxy Hab IH]; intros c Hc.
  - inversion Hc. constructor.
  - inversion Hc as [|y' z b' c' Hyz Hbc]; subst. constructor; [lia|apply IH; assumption].
Qed.

Lemma le_all_length a b : le_all a b -> length a = length b.
Proof. intros H. induction H; cbn; congruence. Qed.

Lemma zip_max_length ws ls : length (zip_max ws ls) = length ws.
Proof.
  revert ls. induction ws as [|w ws IH]; intros ls; destruct ls; cbn [zip_max length]; try reflexivity.
  rewrite IH. reflexivity.
Qed.

Lemma zip_max_ge_l ws ls : le_all ws (zip_max ws ls).
Proof.
  revert ls. induction ws as [|w ws IH]; intros ls; destruct ls; cbn [zip_max].
  - constructor.
  - constructor.
  - apply le_all_refl.
  - constructor; [lia|apply IH].
Qed.

Lemma zip_max_ge_r ws ls : length ws = length ls -> le_all ls (zip_max ws ls).
Proof.
  revert ls. induction ws as [|w ws IH]; intros ls Hl; destruct ls; cbn [zip_max length] in *; try discriminate.
  - constructor.
  - constructor; [lia|apply IH; lia].
Qed.

Lemma fold_widths_spec {A : Type} (f : A -> Z) (rows : list (list A)) (ws0 : list Z) :
  Forall (fun r => length r = length ws0) rows ->
  let ws := fold_left (fun ws row => zip_max ws (map f row)) rows ws0 in
  length ws = length ws0 /\ le_all ws0 ws /\ Forall (fun r => le_all (map f r) ws) rows.
Proof.
  revert ws0. induction rows as [|r rows IH]; intros ws0 Hrows; cbn [fold_left].
  - split; [reflexivity|]. split; [apply le_all_refl|constructor].
  - inversion Hrows as [|r' rows' Hr Hrest]; subst.
    specialize (IH (zip_max ws0 (map f r))).
    rewrite zip_max_length in IH. specialize (IH Hrest). cbv zeta in IH.
    destruct IH as [Hlen [Hle Hall]].
    split; [exact Hlen|]. split.
    + eapply le_all_trans; [apply zip_max_ge_l|exact Hle].
    + constructor; [|exact Hall].
      eapply le_all_trans; [|exact Hle]. apply zip_max_ge_r. rewrite map_length. lia.
Qed.

Lemma widen_ge ws i g : le_all ws (widen ws i g).
Proof.
  revert i. induction ws as [|w ws IH]; intros i; cbn [widen]; constructor; [|apply IH].
  destruct (w <? group_get g i) eqn:E; lia.
Qed.

(* the widths TextRenderer arrives at (the column-wise maximum of the cells' minimal lengths f,
   widened within column groups): one per column, none shorter than a cell of its column *)
Lemma widened_widths_ge {A : Type} (f : A -> Z) (rows : list (list A)) (cols : list Z) (n : nat) :
  Forall (fun r => length r = n) rows ->
  let ws := fold_left (fun ws row => zip_max ws (map f row)) rows (repeat 0 n) in
  let fw := widen ws 0 (group_widths cols ws []) in
  length fw = n /\ Forall (fun r => Forall2 (fun c w => f c <= w) r fw) rows.
Proof.
  intros Hfull ws fw.
  pose proof (fold_widths_spec f rows (repeat 0 n)) as H.
  rewrite repeat_length in H. destruct (H Hfull) as [Hlen [_ Hall]]. fold ws in Hlen, Hall.
  pose proof (widen_ge ws 0 (group_widths cols ws [])) as Hw. fold fw in Hw.
  split.
  - rewrite <- (le_all_length _ _ Hw). exact Hlen.
  - eapply Forall_impl; [|exact Hall]. intros r Hr.
    pose proof (le_all_trans _ _ _ Hr Hw) as Hle.
    clear - Hle. remember (map f r) as ms eqn:Em.
    revert r Em. induction Hle as [|m w ms ws' Hmw Hrest IH]; intros r Em.
    + destruct r; [constructor|discriminate].
    + destruct r as [|c r]; [discriminate|]. cbn [map] in Em. injection Em as -> ->.
      constructor; [exact Hmw|apply IH; reflexivity].
Qed.

Definition rows_full (t : table) : Prop := Forall (fun r => length r = t_width t) (t_rows t).

Theorem col_widths_ge cfg t :
  rows_full t ->
  length (final_widths cfg t) = t_width t /\
  Forall (fun r => Forall2 (fun c w => min_length_cell cfg c <= w) r (final_widths cfg t)) (t_rows t).
Proof. exact (widened_widths_ge (min_length_cell cfg) (t_rows t) (t_columns t) (t_width t)). Qed.

(* lists of rune-first-bytes aligned on the widths ws: a separator character, w + 2 further
   runes (pad, cell, pad), ..., a last separator character *)
Inductive aligned : list nat -> str -> Prop :=
| aligned_end s : is_sepchar s = true -> aligned [] [s]
| aligned_col w ws s b l : is_sepchar s = true -> length b = (w + 2)%nat -> aligned ws l ->
                           aligned (w :: ws) (s :: b ++ l).

(* the rune positions of the separator characters *)
Fixpoint sep_pos (ws : list nat) (p : nat) : list nat :=
  match ws with
  | [] => [p]
  | w :: ws' => p :: sep_pos ws' (p + w + 3)
  end.

Lemma aligned_seps ws l : aligned ws l ->
  forall pre, Forall (fun p => is_sepchar (nth p (pre ++ l) 0) = true) (sep_pos ws (length pre)) /\
              length (pre ++ l) = S (last (sep_pos ws (length pre)) 0%nat).
Proof.
  intros H. induction H as [s Hs|w ws s b l Hs Hb Hal IH]; intros pre.
  - cbn [sep_pos last]. split.
    + constructor; [|constructor]. rewrite nth_middle. exact Hs.
    + rewrite app_length. cbn [length]. lia.
  - cbn [sep_pos]. specialize (IH (pre ++ s :: b)).
    replace (length (pre ++ s :: b)) with (length pre + w + 3)%nat in IH
      by (rewrite app_length; cbn [length]; lia).
    replace ((pre ++ s :: b) ++ l) with (pre ++ s :: b ++ l) in IH
      by (rewrite <- app_assoc; reflexivity).
    destruct IH as [IH1 IH2]. split.
    + constructor; [|exact IH1]. rewrite nth_middle. exact Hs.
    + rewrite IH2. destruct ws; reflexivity.
Qed.

Lemma sep_pos_lb ws p : Forall (fun q => (p <= q)%nat) (sep_pos ws p).
Proof.
  revert p. induction ws as [|w ws IH]; intros p; cbn [sep_pos].
  - constructor; [lia|constructor].
  - constructor; [lia|]. eapply Forall_impl; [|apply IH]. cbn. intros; lia.
Qed.

Lemma sep_pos_nodup ws p : NoDup (sep_pos ws p).
Proof.
  revert p. induction ws as [|w ws IH]; intros p; cbn [sep_pos].
  - constructor; [intros []|constructor].
  - constructor; [|apply IH].
    intros Hin. pose proof (sep_pos_lb ws (p + w + 3)) as Hlb.
    rewrite Forall_forall in Hlb. specialize (Hlb p Hin). lia.
Qed.

Lemma sep_pos_length ws p : length (sep_pos ws p) = S (length ws).
Proof. revert p. induction ws as [|w ws IH]; intros p; cbn [sep_pos length]; [reflexivity|rewrite IH; reflexivity]. Qed.

Lemma sep_pos_head ws p : In p (sep_pos ws p).
Proof. destruct ws; cbn [sep_pos]; left; reflexivity. Qed.

Lemma sep_pos_last_in ws p : In (last (sep_pos ws p) 0%nat) (sep_pos ws p).
Proof.
  revert p. induction ws as [|w ws IH]; intros p.
  - left. reflexivity.
  - cbn [sep_pos]. right.
    replace (last (p :: sep_pos ws (p + w + 3)) 0%nat) with (last (sep_pos ws (p + w + 3)) 0%nat)
      by (destruct ws; reflexivity).
    apply IH.
Qed.

Lemma sep_pos_le_last ws p : Forall (fun q => (q <= last (sep_pos ws p) 0)%nat) (sep_pos ws p).
Proof.
  revert p. induction ws as [|w ws IH]; intros p.
  - cbn. constructor; [lia|constructor].
  - cbn [sep_pos].
    replace (last (p :: sep_pos ws (p + w + 3)) 0%nat) with (last (sep_pos ws (p + w + 3)) 0%nat)
      by (destruct ws; reflexivity).
    constructor; [|apply IH].
    pose proof (sep_pos_lb ws (p + w + 3)) as Hlb. rewrite Forall_forall in Hlb.
    specialize (Hlb _ (sep_pos_last_in ws (p + w + 3))). lia.
Qed.

Lemma create_sep_shape c1 c2 :
  exists a m b, create_sep c1 c2 = [a; m; b] /\ is_sepchar m = true /\
                (a = 32 \/ a = 45) /\ (b = 32 \/ b = 45).
Proof.
  unfold create_sep. destruct (is_sep c1), (is_sep c2); do 3 eexists; (split; [reflexivity|]);
    repeat split; auto.
Qed.

Definition widths_nat (ws : list Z) : list nat := map Z.to_nat ws.

Lemma render_cells_cons2 cfg c c2 rest w ws :
  render_cells cfg (c :: c2 :: rest) (w :: ws) =
  render_cell cfg c w ++ create_sep c c2 ++ render_cells cfg (c2 :: rest) ws.
Proof. reflexivity. Qed.

(* cells rendered to their widths, joined by the 3-rune separators, between a 2-rune prefix
   [s; x] and a 2-rune suffix [y; s'] *)
Lemma render_cells_aligned cfg cs ws :
  Forall2 (fun c w => rune_count (render_cell cfg c w) = w) cs ws -> cs <> [] ->
  forall s x y s', is_sepchar s = true -> is_sepchar s' = true ->
  aligned (widths_nat ws) (s :: x :: rune_starts (render_cells cfg cs ws) ++ [y; s']).
Proof.
  intros H. induction H as [|c w cs ws Hcw Hrest IH]; intros Hne s x y s' Hs Hs'; [congruence|].
  destruct cs as [|c2 cs'].
  - inversion Hrest; subst. cbn [render_cells widths_nat map].
    replace (s :: x :: rune_starts (render_cell cfg c w) ++ [y; s'])
      with (s :: (x :: rune_starts (render_cell cfg c w) ++ [y]) ++ [s'])
      by (cbn [app]; rewrite <- app_assoc; reflexivity).
    constructor; [exact Hs| |constructor; exact Hs'].
    cbn [length]. rewrite app_length. cbn [length].
    rewrite rune_count_starts in Hcw. lia.
  - rewrite render_cells_cons2. cbn [widths_nat map].
    destruct (create_sep_shape c c2) as [a [m [b [Esep [Hm [Ha Hb]]]]]]. rewrite Esep.
    rewrite !rune_starts_app.
    assert (Eabm : rune_starts [a; m; b] = [a; m; b]).
    { unfold rune_starts, is_sepchar in *. cbn [filter].
      assert (is_cont a = false) by (destruct Ha; subst; reflexivity).
      assert (is_cont b = false) by (destruct Hb; subst; reflexivity).
      assert (is_cont m = false).
      { apply orb_true_iff in Hm. destruct Hm as [E|E]; apply Z.eqb_eq in E; subst; reflexivity. }
      rewrite H, H0, H1. reflexivity. }
    rewrite Eabm.
    replace (s :: x :: (rune_starts (render_cell cfg c w) ++ [a; m; b] ++ rune_starts (render_cells cfg (c2 :: cs') ws)) ++ [y; s'])
      with (s :: (x :: rune_starts (render_cell cfg c w) ++ [a]) ++
              (m :: b :: rune_starts (render_cells cfg (c2 :: cs') ws) ++ [y; s'])).
    2:{ cbn [app]. rewrite <- !app_assoc. cbn [app]. reflexivity. }
    constructor; [exact Hs| |].
    + cbn [length]. rewrite app_length. cbn [length]. rewrite rune_count_starts in Hcw. lia.
    + apply (IH ltac:(discriminate) m b y s' Hm Hs').
Qed.

(* the line of a row: render_row without its final newline *)
Definition row_line (cfg : text_cfg) (ws : list Z) (row : list cell) : str :=
  match row with
  | [] => []
  | c0 :: _ =>
    (if is_sep c0 then [43;45] else [124;32]) ++ render_cells cfg row ws ++
    (if is_sep (last row CEmpty) then [45;43] else [32;124])
  end.

Lemma render_row_line cfg ws row : row <> [] -> render_row cfg ws row = row_line cfg ws row ++ [10].
Proof.
  intros H. destruct row as [|c0 row]; [congruence|].
  unfold render_row, row_line. rewrite <- !app_assoc.
  destruct (is_sep (last (c0 :: row) CEmpty)); reflexivity.
Qed.

(* structure of a line: prefix, cells of exactly the column widths joined by 3-rune separators,
   suffix -- the separator characters stand at the positions sep_pos (widths) 0 *)
Theorem row_line_aligned cfg ws row :
  row <> [] ->
  Forall2 (fun c w => rune_count (render_cell cfg c w) = w) row ws ->
  aligned (widths_nat ws) (rune_starts (row_line cfg ws row)).
Proof.
  intros Hne H. destruct row as [|c0 row]; [congruence|].
  unfold row_line. rewrite !rune_starts_app.
  destruct (is_sep c0); destruct (is_sep (last (c0 :: row) CEmpty));
    change (rune_starts [43;45]) with [43;45]; change (rune_starts [124;32]) with [124;32];
    change (rune_starts [45;43]) with [45;43]; change (rune_starts [32;124]) with [32;124];
    cbn [app]; apply (render_cells_aligned cfg (c0 :: row) ws H); try discriminate; reflexivity.
Qed.

Lemma lines_app_nl l t : ~ In 10 l -> lines (l ++ 10 :: t) = (l :: fst (lines t), snd (lines t)).
Proof.
  induction l as [|c l IH]; intros Hn.
  - cbn [app lines]. destruct (lines t) as [ls r]. reflexivity.
  - cbn [app lines]. rewrite IH by (intros Hin; apply Hn; right; exact Hin).
    replace (c =? 10) with false by (symmetry; apply Z.eqb_neq; intros ->; apply Hn; left; reflexivity).
    reflexivity.
Qed.

Lemma lines_concat (ls : list str) :
  Forall (fun l => ~ In 10 l) ls ->
  lines (concat (map (fun l => l ++ [10]) ls) ++ [10]) = (ls ++ [[]], []).
Proof.
  induction ls as [|l ls IH]; intros H.
  - reflexivity.
  - inversion H as [|l' ls' Hl Hls]; subst. cbn [map concat]. rewrite <- !app_assoc. cbn [app].
    rewrite lines_app_nl by exact Hl. rewrite IH by exact Hls. reflexivity.
Qed.

Lemma table_lines_concat (ls : list str) :
  Forall (fun l => ~ In 10 l) ls ->
  table_lines (concat (map (fun l => l ++ [10]) ls) ++ [10]) = Some ls.
Proof.
  intros H. unfold table_lines. rewrite lines_concat by exact H.
  cbn [is_nil andb]. rewrite last_last, removelast_last.
  destruct (ls ++ [[]]) eqn:E; [destruct ls; discriminate|]. reflexivity.
Qed.

Lemma repeat_z_not_in c n x : x <> c -> ~ In x (repeat_z c n).
Proof. intros H Hin. unfold repeat_z in Hin. apply repeat_spec in Hin. congruence. Qed.

(* lines without line breaks, all aligned on the same widths: the rendering is rectangular *)
Lemma rect_of_aligned (ws : list nat) (body : list str) :
  Forall (fun l => ~ In 10 l) body ->
  Forall (fun l => aligned ws (rune_starts l)) body ->
  rect_b (length ws) (concat (map (fun l => l ++ [10]) body) ++ [10]) = true.
Proof.
  intros Hnl Hal. unfold rect_b. rewrite (table_lines_concat body Hnl).
  destruct body as [|l0 body']; [reflexivity|].
  assert (Hline : forall l, In l (l0 :: body') ->
            Forall (fun p => is_sepchar (nth p (rune_starts l) 0) = true) (sep_pos ws 0) /\
            length (rune_starts l) = S (last (sep_pos ws 0) 0%nat)).
  { intros l Hl. rewrite Forall_forall in Hal. specialize (Hal l Hl).
    pose proof (aligned_seps ws (rune_starts l) Hal []) as H. cbn [app length] in H. exact H. }
  set (L := length (rune_starts l0)).
  assert (HL : L = S (last (sep_pos ws 0) 0%nat)) by (apply (Hline l0); left; reflexivity).
  assert (Hincl : incl (sep_pos ws 0) (sep_columns (l0 :: body'))).
  { intros p Hp. unfold sep_columns. cbn [map]. apply filter_In. split.
    - apply in_seq. pose proof (sep_pos_le_last ws 0) as Hle. rewrite Forall_forall in Hle.
      specialize (Hle p Hp). fold L. lia.
    - apply forallb_forall. intros r Hr.
      change (rune_starts l0 :: map rune_starts body') with (map rune_starts (l0 :: body')) in Hr.
      apply in_map_iff in Hr. destruct Hr as [l [<- Hl]].
      destruct (Hline l Hl) as [Hs _].
      rewrite Forall_forall in Hs. apply Hs. exact Hp. }
  apply andb_true_iff; split; [apply andb_true_iff; split; [apply andb_true_iff; split|]|].
  - apply forallb_forall. intros l Hl. apply Nat.eqb_eq. fold L. rewrite HL. apply (Hline l Hl).
  - apply Nat.leb_le. rewrite <- (sep_pos_length ws 0).
    apply NoDup_incl_length; [apply sep_pos_nodup|exact Hincl].
  - apply existsb_exists. exists 0%nat. split; [|reflexivity]. apply Hincl. apply sep_pos_head.
  - apply existsb_exists. exists (L - 1)%nat. split; [|apply Nat.eqb_refl].
    apply Hincl. rewrite HL. replace (S (last (sep_pos ws 0) 0) - 1)%nat with (last (sep_pos ws 0) 0%nat) by lia.
    apply sep_pos_last_in.
Qed.

Section NoNewline.
  (* the numerals contain no line break (digits, '-', '.', ','): supplied by DecStringProofs and
     GroupingProofs where this section is instantiated *)
  Variable cfg : text_cfg.
  Hypothesis num_no_nl : forall n, ~ In 10 (num_str cfg n).

  Lemma render_cell_no_nl c l : cell_no_nl c -> ~ In 10 (render_cell cfg c l).
  Proof.
    intros Hc. destruct c as [| |s al ind|n]; cbn [render_cell cell_no_nl] in *.
    - apply repeat_z_not_in. discriminate.
    - apply repeat_z_not_in. discriminate.
    - intros Hin. repeat (apply in_app_or in Hin; destruct Hin as [Hin|Hin]);
        try (revert Hin; apply repeat_z_not_in; discriminate). exact (Hc Hin).
    - unfold pad_left. destruct (is_zero n); intros Hin; apply in_app_or in Hin; destruct Hin as [Hin|Hin];
        try (revert Hin; apply repeat_z_not_in; discriminate); try exact Hin.
      exact (num_no_nl n Hin).
  Qed.

  Lemma render_cells_no_nl cs ws : Forall cell_no_nl cs -> ~ In 10 (render_cells cfg cs ws).
  Proof.
    revert ws. induction cs as [|c cs IH]; intros ws H; [intros []|].
    inversion H as [|c' cs' Hc Hcs]; subst.
    destruct cs as [|c2 cs'].
    - destruct ws; cbn [render_cells]; [intros []|apply render_cell_no_nl; exact Hc].
    - destruct ws as [|w ws]; cbn [render_cells]; [intros []|].
      intros Hin. apply in_app_or in Hin. destruct Hin as [Hin|Hin]; [exact (render_cell_no_nl c w Hc Hin)|].
      apply in_app_or in Hin. destruct Hin as [Hin|Hin]; [|exact (IH ws Hcs Hin)].
      destruct (create_sep_shape c c2) as [a [m [b [Esep [Hm [Ha Hb]]]]]]. rewrite Esep in Hin.
      unfold is_sepchar in Hm. apply orb_true_iff in Hm.
      cbn [In] in Hin. destruct Hin as [E|[E|[E|[]]]]; subst.
      + destruct Ha; discriminate.
      + destruct Hm as [E|E]; discriminate.
      + destruct Hb; discriminate.
  Qed.

  Lemma row_line_no_nl ws row : Forall cell_no_nl row -> ~ In 10 (row_line cfg ws row).
  Proof.
    intros H. destruct row as [|c0 row]; [intros []|]. unfold row_line.
    intros Hin. apply in_app_or in Hin. destruct Hin as [Hin|Hin].
    - destruct (is_sep c0); cbn [In] in Hin; destruct Hin as [E|[E|[]]]; discriminate.
    - apply in_app_or in Hin. destruct Hin as [Hin|Hin]; [exact (render_cells_no_nl _ ws H Hin)|].
      destruct (is_sep (last (c0 :: row) CEmpty)); cbn [In] in Hin; destruct Hin as [E|[E|[]]]; discriminate.
  Qed.

  Theorem render_text_lines t :
    table_wf t ->
    render_text cfg t = concat (map (fun l => l ++ [10]) (map (row_line cfg (final_widths cfg t)) (t_rows t))) ++ [10] /\
    table_lines (render_text cfg t) = Some (map (row_line cfg (final_widths cfg t)) (t_rows t)).
  Proof.
    intros [Hw Hrows].
    assert (E : render_text cfg t =
                concat (map (fun l => l ++ [10]) (map (row_line cfg (final_widths cfg t)) (t_rows t))) ++ [10]).
    { unfold render_text. f_equal. f_equal. rewrite map_map. apply map_ext_in.
      intros r Hr. apply render_row_line. rewrite Forall_forall in Hrows.
      destruct (Hrows r Hr) as [Hl _]. intros ->. cbn in Hl. lia. }
    split; [exact E|]. rewrite E. apply table_lines_concat.
    apply Forall_forall. intros l Hl. apply in_map_iff in Hl. destruct Hl as [r [<- Hr]].
    apply row_line_no_nl. rewrite Forall_forall in Hrows. apply (Hrows r Hr).
  Qed.

  (* every line of the rendering is aligned on the final widths *)
  Theorem lines_aligned t :
    table_wf t ->
    Forall (fun l => aligned (widths_nat (final_widths cfg t)) (rune_starts l))
           (map (row_line cfg (final_widths cfg t)) (t_rows t)).
  Proof.
    intros [Hw Hrows].
    assert (Hfull : rows_full t).
    { unfold rows_full. eapply Forall_impl; [|exact Hrows]. cbn. intros r [H _]. exact H. }
    destruct (col_widths_ge cfg t Hfull) as [Hlen Hge].
    apply Forall_forall. intros l Hl. apply in_map_iff in Hl. destruct Hl as [r [<- Hr]].
    rewrite Forall_forall in Hrows, Hge. destruct (Hrows r Hr) as [Hrl [Hind _]].
    apply row_line_aligned; [intros ->; cbn in Hrl; lia|].
    specialize (Hge r Hr). clear - Hge Hind.
    induction Hge as [|c w r ws Hcw Hrest IH]; [constructor|].
    inversion Hind as [|c' r' Hc Hr']; subst.
    constructor; [apply render_cell_width; assumption|apply IH; assumption].
  Qed.

  Theorem render_text_rect t : table_wf t -> rect_b (t_width t) (render_text cfg t) = true.
  Proof.
    intros Hwf. rewrite (proj1 (render_text_lines t Hwf)).
    pose proof (lines_aligned t Hwf) as Hal.
    destruct Hwf as [Hw Hrows].
    assert (Hfull : rows_full t).
    { eapply Forall_impl; [|exact Hrows]. intros r [H _]. exact H. }
    destruct (col_widths_ge cfg t Hfull) as [Hlen _].
    replace (t_width t) with (length (widths_nat (final_widths cfg t)))
      by (unfold widths_nat; rewrite map_length; exact Hlen).
    apply rect_of_aligned; [|exact Hal].
    apply Forall_forall. intros l Hl. apply in_map_iff in Hl. destruct Hl as [r [<- Hr]].
    apply row_line_no_nl. rewrite Forall_forall in Hrows. apply (Hrows r Hr).
  Qed.
End NoNewline.
