(* C16: what Valuate adds to a day, with the facts the verdict's reader of "Adjust value of C in
   account A" needs.  Valuate's position map is keyed by pos_key (account name, NUL, commodity)
   and kept strictly ascending (sm_put); when every posting of the journal has a syntactic account
   and a commodity without space (Spec/BeancountAdjLex.v), then
     - every position (k, (a, c, q)) has k = pos_key a c, account_ok a, no space in c   [pos_inv];
     - the adjustments of one day have pairwise different descriptions                   [val_adjustments_nodup]
       (s_adjust is injective on such (c, a): s_adjust_inj; the keys are pairwise different);
     - every posting handed to beancount.Transcode has a syntactic account and a commodity without
       space [day_good], hence every value adjustment among them is one for such (c, a) [adjustment_strong].
   The stage is followed day by day with the invariant on the state, as in Proofs/BeancountLexDays.v. *)
From Coq Require Import ZArith List Bool Lia Permutation Sorted.
From Knut Require Import Proofs.ListFacts Model.Str Model.Dec Model.Date Model.Account Model.Ledger Model.Price
     Model.Journal Model.Check Model.Pipeline Model.Cli Model.Beancount Model.CliTranscode
     Spec.WellformedSpec Spec.LedgerSpec Spec.LedgerSyntax Spec.BeancountLex Spec.BeancountAdjLex
     Proofs.StrProofs Proofs.CheckLemmas Proofs.StageRun Proofs.BeancountProofs Proofs.BeancountRead Proofs.BeancountLexDays.
Import ListNotations.
Open Scope bool_scope.
Open Scope Z_scope.

Definition posting_good (p : posting) : Prop := account_ok (p_acc p) = true /\ no_byte 32 (p_com p) = true.
Definition txn_good (t : txn) : Prop := Forall posting_good (t_postings t).
Definition day_good (d : day) : Prop := Forall txn_good (d_txns d).

Lemma posting_sim_good p p' : posting_sim p p' -> posting_good p -> posting_good p'.
Proof. intros (Ha & _ & Hc & _) (G1 & G2). unfold posting_good. rewrite Ha, Hc. split; assumption. Qed.

Lemma txn_sim_good t t' : txn_sim t t' -> txn_good t -> txn_good t'.
Proof.
  intros (_ & _ & _ & Hp) Hg. unfold txn_good in *.
  eapply Forall2_Forall_r; [|exact Hp|exact Hg]. intros x y Hxy Hx. eapply posting_sim_good; eauto.
Qed.

Lemma pair_build_shape cr db c q x : exists p1 p2, pair_build cr db c q x = [p1; p2] /\
  p_com p1 = c /\ p_com p2 = c /\ ((p_acc p1 = cr /\ p_acc p2 = db) \/ (p_acc p1 = db /\ p_acc p2 = cr)).
Proof.
  unfold pair_build. destruct (is_neg q || is_zero q && is_neg x); eexists; eexists; (split; [reflexivity|]);
    cbn [p_com p_acc]; repeat split; auto.
Qed.

Lemma pair_build_good cr db c q x : account_ok cr = true -> account_ok db = true -> no_byte 32 c = true ->
  Forall posting_good (pair_build cr db c q x).
Proof.
  intros Hcr Hdb Hc. destruct (pair_build_shape cr db c q x) as (p1 & p2 & -> & C1 & C2 & HA).
  assert (G1 : posting_good p1) by (unfold posting_good; rewrite C1; destruct HA as [(-> & _)|(-> & _)]; split; assumption).
  assert (G2 : posting_good p2) by (unfold posting_good; rewrite C2; destruct HA as [(_ & ->)|(_ & ->)]; split; assumption).
  apply Forall_cons; [exact G1|]. apply Forall_cons; [exact G2|apply Forall_nil].
Qed.

Lemma s_adjust_inj c a c' a' :
  no_byte 32 c = true -> no_byte 32 c' = true -> account_ok a = true -> account_ok a' = true ->
  s_adjust c a = s_adjust c' a' -> c = c' /\ a = a'.
Proof.
  intros Hc Hc' Ha Ha' H. apply no_byte_iff in Hc. apply no_byte_iff in Hc'. unfold s_adjust in H.
  apply app_inv_head in H.
  change ([32;105;110;32;97;99;99;111;117;110;116;32] ++ acc_name a)
    with (32 :: ([105;110;32;97;99;99;111;117;110;116;32] ++ acc_name a)) in H.
  change ([32;105;110;32;97;99;99;111;117;110;116;32] ++ acc_name a')
    with (32 :: ([105;110;32;97;99;99;111;117;110;116;32] ++ acc_name a')) in H.
  apply split_at_sep in H; [|assumption|assumption]. destruct H as [E1 E2]. split; [exact E1|].
  apply app_inv_head in E2. apply acc_name_inj; assumption.
Qed.

Definition pos_inv (m : positions) : Prop :=
  keys_sorted m /\
  forall k a c q, In (k, (a, c, q)) m -> k = pos_key a c /\ account_ok a = true /\ no_byte 32 c = true.

Lemma pos_inv_nil : pos_inv [].
Proof. split; [constructor|intros k a c q []]. Qed.

Lemma pos_inv_tail x m : pos_inv (x :: m) -> pos_inv m.
Proof.
  intros [Hs Hm]. split.
  - unfold keys_sorted in *. inversion Hs; assumption.
  - intros k a c q Hin. apply (Hm k a c q). right. exact Hin.
Qed.

Lemma pos_add_inv m a c q : pos_inv m -> account_ok a = true -> no_byte 32 c = true -> pos_inv (pos_add m a c q).
Proof.
  intros [Hs Hm] Ha Hc. unfold pos_add. split; [apply sm_put_sorted; exact Hs|].
  intros k a' c' q' Hin. apply CheckLemmas.sm_put_in in Hin. destruct Hin as [E|Hin]; [|eapply Hm; eauto].
  inversion E; subst. repeat split; assumption.
Qed.

(* a value adjustment for a position (a, c) with a syntactic account and a commodity without space *)
Definition adjustment_lex (dt : Z) (t : txn) : Prop :=
  exists c a gain, is_AL a = true /\ account_ok a = true /\ no_byte 32 c = true /\
    t_date t = dt /\ t_desc t = s_adjust c a /\
    Forall2 posting_sim (pair_build (valuation_account_for a) a c dec_nil gain) (t_postings t).

Lemma adjustment_lex_weak dt t : adjustment_lex dt t -> adjustment dt t.
Proof. intros (c & a & g & H1 & _ & _ & H2 & H3 & H4). exists c, a, g. repeat split; assumption. Qed.

Lemma adjustment_lex_sim dt t t' : txn_sim t t' -> adjustment_lex dt t -> adjustment_lex dt t'.
Proof.
  intros (H1 & H2 & _ & H4) (c & a & gain & Ha & Hok & Hc & Hd & Hs & Hp). exists c, a, gain.
  repeat split; try congruence. eapply Forall2_trans; [exact posting_sim_trans|exact Hp|exact H4].
Qed.

(* a value adjustment whose postings are good is one for a good position *)
Lemma adjustment_strong dt t : adjustment dt t -> txn_good t -> adjustment_lex dt t.
Proof.
  intros (c & a & gain & Ha & Hd & Hs & Hp) Hg. exists c, a, gain.
  assert (Hac : account_ok a = true /\ no_byte 32 c = true).
  { destruct (pair_build_shape (valuation_account_for a) a c dec_nil gain) as (p1 & p2 & E & C1 & C2 & HA).
    rewrite E in Hp. unfold txn_good in Hg.
    inversion Hp as [|x1 y1 l1 l1' S1 Hp1 E1 E2]. inversion Hp1 as [|x2 y2 l2 l2' S2 Hp2 E3 E4].
    rewrite <- E2, <- E4 in Hg. apply Forall_cons_iff in Hg. destruct Hg as [G1 Hg1].
    apply Forall_cons_iff in Hg1. destruct Hg1 as [G2 _].
    destruct S1 as (A1 & _ & K1 & _). destruct S2 as (A2 & _ & K2 & _).
    destruct G1 as [G1a G1c]. destruct G2 as [G2a G2c].
    rewrite K1, C1 in G1c. rewrite A1 in G1a. rewrite A2 in G2a.
    destruct HA as [(_ & HA)|(HA & _)]; [rewrite HA in G2a|rewrite HA in G1a]; split; assumption. }
  destruct Hac as [Hok Hc]. repeat split; assumption.
Qed.

Lemma val_adjustments_strong v date prev cur pos ts :
  val_adjustments v date prev cur pos = ROk ts -> pos_inv pos -> Forall (adjustment_lex date) ts.
Proof.
  intros H [_ Hm].
  eapply Forall_impl; [|exact (val_adjustments_in (fun a c => account_ok a = true /\ no_byte 32 c = true) v date prev cur pos
                                 (fun k a c q Hin => proj2 (Hm k a c q Hin)) ts H)].
  intros t (a & c & g & [Hok Hc] & HAL & ->).
  exists c, a, g. cbn [t_date t_desc t_postings]. repeat split; try assumption.
  apply Forall2_refl. exact posting_sim_refl.
Qed.

Lemma val_adjustments_nodup v date prev cur pos ts :
  val_adjustments v date prev cur pos = ROk ts -> pos_inv pos -> NoDup (map t_desc ts).
Proof.
  intros H. apply val_adjustments_run in H.
  induction H as [|k a c q rest ts _ _ IH|k a c q pp cp rest ts _ _ _ _ _ _ _ IH|k a c q pp cp rest ts _ _ _ _ _ _ Hrun IH];
    intros Hinv; [constructor|exact (IH (pos_inv_tail _ _ Hinv))..|].
  cbn [map t_desc]. constructor; [|exact (IH (pos_inv_tail _ _ Hinv))].
  intros Hin. apply in_map_iff in Hin. destruct Hin as (t' & Hd' & Ht').
  pose proof (adj_run_in (fun a' c' => exists k' q', In (k', (a', c', q')) rest) _ _ _ _ _ _
                (fun k' a' c' q' Hin' => ex_intro _ k' (ex_intro _ q' Hin')) Hrun) as Hfrom. rewrite Forall_forall in Hfrom.
  destruct (Hfrom t' Ht') as (a' & c' & g' & (k' & q' & Hin') & _ & ->). cbn [t_desc] in Hd'.
  destruct Hinv as [Hs Hm].
  destruct (Hm k a c q (or_introl eq_refl)) as (Hk & Hok & Hc).
  destruct (Hm k' a' c' q' (or_intror Hin')) as (Hk' & Hok' & Hc').
  destruct (s_adjust_inj c' a' c a Hc' Hc Hok' Hok Hd') as [-> ->].
  unfold keys_sorted in Hs. inversion Hs as [|? ? _ Hall]; subst. rewrite Forall_forall in Hall.
  specialize (Hall _ Hin'). unfold key_lt in Hall. cbn [fst] in Hall.
  exact (str_cmp_lt_irrefl _ Hall).
Qed.

Lemma val_posting_inv v s t p s' p' : val_posting v s t p = ROk (s', p') ->
  posting_good p -> pos_inv (v_qty s) -> pos_inv (v_qty s') /\ posting_good p'.
Proof.
  intros H Hp Hs. split; [|eapply posting_sim_good; [eapply val_posting_sim; exact H|exact Hp]].
  unfold val_posting in H.
  destruct (is_zero (p_qty p)); [inversion H; subst; exact Hs|].
  assert (Hs1 : pos_inv (v_qty (if is_AL (p_acc p)
                                then mkVal (v_prev s) (v_cur s) (pos_add (v_qty s) (p_acc p) (p_com p) (p_qty p)) else s))).
  { destruct (is_AL (p_acc p)); [|exact Hs]. cbn [v_qty]. destruct Hp as [Ha Hc]. apply pos_add_inv; assumption. }
  destruct (str_eqb v (p_com p)); [inversion H; subst; exact Hs1|].
  destruct (v_cur s); try discriminate.
  destruct (np_valuate n (p_com p) (p_qty p)); try discriminate.
  inversion H; subst; exact Hs1.
Qed.

Lemma val_fold_txns_inv v ts s s' ts' :
  fold_txns (valuate_proc v) s ts = ROk (s', ts') -> pos_inv (v_qty s) -> Forall txn_good ts ->
  pos_inv (v_qty s') /\ Forall txn_good ts'.
Proof.
  intros H Hs Hts. unfold txn_good in *. rewrite <- Forall_map, <- Forall_concat in *.
  exact (val_run_inv v pos_inv posting_good (val_posting_inv v) _ _ _ _ (fold_txns_val_run _ _ _ _ _ H) Hts Hs).
Qed.

Lemma val_fold_txns_sim v ts s s' ts' :
  fold_txns (valuate_proc v) s ts = ROk (s', ts') -> Forall2 txn_sim ts ts'.
Proof.
  apply (fold_txns_sim (valuate_proc v)). cbn [valuate_proc pr_posting].
  intros f s0 t x s1 x' Hf H. injection Hf as <-. eapply val_posting_sim; eauto.
Qed.

(* what Valuate does to a day: the date is kept; the transactions are those of the input day followed
   by the day's adjustments [ts], rewritten posting by posting (values filled in) *)
Definition val_day_rel (d d' : day) : Prop :=
  d_date d' = d_date d /\
  exists ts, Forall2 txn_sim (d_txns d ++ ts) (d_txns d') /\
             Forall (adjustment_lex (d_date d)) ts /\ NoDup (map t_desc ts).

Lemma adjustment_lex_good dt t : adjustment_lex dt t -> txn_good t.
Proof.
  intros (c & a & gain & _ & Hok & Hc & _ & _ & Hp). unfold txn_good.
  eapply Forall2_Forall_r; [|exact Hp|apply pair_build_good; [apply account_ok_valuation; exact Hok|exact Hok|exact Hc]].
  intros x y Hxy Hx. eapply posting_sim_good; eauto.
Qed.

Lemma val_process_day_strong v s d s' d' : process_day (valuate_proc v) s d = ROk (s', d') ->
  pos_inv (v_qty s) -> day_good d -> pos_inv (v_qty s') /\ val_day_rel d d' /\ day_good d'.
Proof.
  intros H Hs Hd. unfold process_day in H.
  cbn [valuate_proc pr_day_start pr_price pr_open pr_close pr_day_end] in H. unfold val_day_start in H.
  destruct (val_adjustments v (d_date d) (v_prev s) (d_normalized d) (v_qty s)) as [adj| |] eqn:E0; try discriminate.
  cbn [rbind fst snd set_txns d_date d_prices d_opens d_txns d_asserts d_closes d_normalized] in H.
  pose proof (val_adjustments_strong _ _ _ _ _ _ E0 Hs) as Hadj.
  pose proof (val_adjustments_nodup _ _ _ _ _ _ E0 Hs) as Hnd.
  destruct (fold_txns (valuate_proc v) (mkVal (v_prev s) (d_normalized d) (v_qty s)) (d_txns d ++ adj))
    as [[s4 ts']| |] eqn:E4; try discriminate.
  cbn [rbind fst snd] in H. rewrite val_fold_asserts in H. cbn [rbind] in H.
  unfold val_day_end in H. inversion H; subst. cbn [v_qty].
  assert (Hin : Forall txn_good (d_txns d ++ adj)).
  { apply Forall_app. split; [exact Hd|]. eapply Forall_impl; [|exact Hadj]. intros t Ht. eapply adjustment_lex_good; eauto. }
  destruct (val_fold_txns_inv _ _ _ _ _ E4 Hs Hin) as [Hs4 Hts].
  split; [exact Hs4|]. split; [|exact Hts].
  unfold val_day_rel. cbn [d_date d_txns]. split; [reflexivity|]. exists adj.
  split; [eapply val_fold_txns_sim; exact E4|]. split; assumption.
Qed.

Lemma val_process_days_strong v ds : forall s s' ds', process_days (valuate_proc v) s ds = ROk (s', ds') ->
  pos_inv (v_qty s) -> Forall day_good ds -> Forall2 val_day_rel ds ds' /\ Forall day_good ds'.
Proof.
  intros s s' ds' H. apply process_days_run in H.
  induction H as [|s d ds s1 d1 s' ds1 E1 _ IH]; intros Hs Hds; [split; constructor|].
  inversion Hds as [|? ? Hd Hrest]; subst. destruct (val_process_day_strong _ _ _ _ _ E1 Hs Hd) as (Hs1 & Hrel & Hd1).
  destruct (IH Hs1 Hrest) as [R1 R2]. split; constructor; assumption.
Qed.

Lemma in_all_txns_intro t d days : In d days -> In t (d_txns d) -> In t (all_txns days).
Proof. intros Hd Ht. unfold all_txns. apply in_concat. exists (d_txns d). split; [apply in_map; exact Hd|exact Ht]. Qed.

Lemma in_directive_txns t ds : In t (directive_txns ds) -> In (DTxn t) ds.
Proof.
  unfold directive_txns. intros H. apply in_flat_map in H. destruct H as (d & Hd & Ht).
  destruct d as [? ? ? ?|? ?|? ?|? ?|t0]; cbn [In] in Ht; try contradiction. destruct Ht as [<-|[]]. exact Hd.
Qed.

Lemma journal_adj_lex_txn dl t : journal_adj_lex_b dl = true -> In (DTxn t) dl -> txn_good t.
Proof.
  unfold journal_adj_lex_b. rewrite forallb_forall. intros H Hin. unfold txn_good. apply Forall_forall. intros p Hp.
  assert (Hf : In (t_date t, p) (flat_postings dl)).
  { unfold flat_postings. apply in_concat. exists (map (fun p => (t_date t, p)) (t_postings t)). split.
    - apply in_map_iff. exists (DTxn t). split; [reflexivity|exact Hin].
    - apply in_map. exact Hp. }
  specialize (H _ Hf). cbn [snd] in H. unfold posting_adj_lex_b in H. apply andb_true_iff in H. exact H.
Qed.

Lemma journal_adj_lex_syntactic dl : journal_adj_lex_b dl = true -> postings_syntactic dl.
Proof.
  unfold journal_adj_lex_b, postings_syntactic. rewrite forallb_forall. intros H d p Hin.
  specialize (H _ Hin). cbn [snd] in H. unfold posting_adj_lex_b in H. apply andb_true_iff in H. tauto.
Qed.

Lemma builder_of_good dl : journal_adj_lex_b dl = true -> Forall day_good (b_days (builder_of dl)).
Proof.
  intros H. apply Forall_forall. intros d Hd. unfold day_good. apply Forall_forall. intros t Ht.
  apply (journal_adj_lex_txn dl t H). apply in_directive_txns.
  apply (Permutation_in _ (builder_of_txns dl)). eapply in_all_txns_intro; eauto.
Qed.

Lemma day_step_no_extra_good d d' : day_step no_extra d d' -> day_good d -> day_good d'.
Proof.
  intros (_ & _ & _ & extra & mid & He & Hs & Hp) Hd. unfold day_good in *.
  eapply Permutation_Forall; [exact Hp|].
  eapply Forall2_Forall_r; [|exact Hs|].
  - intros x y Hxy Hx. eapply txn_sim_good; eauto.
  - apply Forall_app. split; [exact Hd|]. eapply Forall_impl; [|exact He]. intros t [].
Qed.

Lemma days_step_no_extra_good l l' : Forall2 (day_step no_extra) l l' -> Forall day_good l -> Forall day_good l'.
Proof.
  induction 1 as [|d d' l l' Hdd _ IH]; intros Hl; [constructor|].
  inversion Hl; subst. constructor; [eapply day_step_no_extra_good; eauto|auto].
Qed.

Theorem transcode_days_val l v sds dl days :
  parse_directives sds = MOk dl -> journal_adj_lex_b dl = true -> transcode_days l v sds = COk days ->
  exists d3, Forall2 (day_step no_extra) (b_days (builder_of dl)) d3 /\
             Forall2 val_day_rel d3 days /\ Forall day_good days.
Proof.
  intros Hp Hj H. apply transcode_days_inv in H.
  destruct H as (ds & d1 & d2 & d3 & s1 & s2 & s3 & s4 & E0 & E1 & E2 & E3 & E4).
  rewrite Hp in E0. injection E0 as <-.
  pose proof (sort_stage_step _ _ _ _ E1) as F1. pose proof (prices_stage_step _ _ _ _ _ E2) as F2.
  pose proof (check_stage_step _ _ _ _ _ E3) as F3.
  assert (F : Forall2 (day_step no_extra) (b_days (builder_of dl)) d3).
  { eapply days_step_trans; [exact F1|]. eapply days_step_trans; [exact F2|exact F3]. }
  exists d3. split; [exact F|].
  assert (G3 : Forall day_good d3) by (eapply days_step_no_extra_good; [exact F|apply builder_of_good; exact Hj]).
  exact (val_process_days_strong v d3 _ _ _ E4 pos_inv_nil G3).
Qed.

Lemma transcode_txn_good l v sds dl days t :
  parse_directives sds = MOk dl -> journal_adj_lex_b dl = true -> transcode_days l v sds = COk days ->
  In t (all_txns days) -> txn_good t.
Proof.
  intros Hp Hj H Ht. destruct (transcode_days_val l v sds dl days Hp Hj H) as (_ & _ & _ & G).
  apply in_all_txns in Ht. destruct Ht as (d & Hd & Ht). rewrite Forall_forall in G.
  specialize (G d Hd). unfold day_good in G. rewrite Forall_forall in G. exact (G t Ht).
Qed.
