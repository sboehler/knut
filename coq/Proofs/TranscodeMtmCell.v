(* C16, mark-to-market clause: one cell (account a, commodity c) of the days that
   `knut transcode -v V` hands to beancount.Transcode (Model/CliTranscode.v transcode_days:
   load, Sort, ComputePrices, Check, Valuate).

   - the Sort stage: every day keeps everything but the order of its transactions
   - the cell against the journal: value posted = quantity * latest price, from the
     directives (Spec/ValuationSpec.v qty_upto, price_on), up to 10^-8 per booking of the
     cell and per day of the journal; the valuation commodity itself: exactly its quantity *)
From Coq Require Import ZArith QArith Qabs List Bool Lia Permutation Sorting.Sorted.
From Knut Require Import Proofs.ListFacts Model.Str Model.Dec Model.Date Model.Account Model.Ledger Model.Price
     Model.Journal Model.Check Model.Pipeline Model.Table Model.Report Model.Cli Model.Beancount Model.CliTranscode
     Spec.DateSpec Spec.WellformedSpec Spec.LedgerSpec Spec.LedgerSyntax Spec.MarkToMarketSpec
     Spec.PriceSpec Spec.PriceDaySpec Spec.ValuationSpec Spec.MarkToMarketReportSpec
     Proofs.StrProofs Proofs.DecProofs Proofs.DecValue Proofs.CheckLemmas Proofs.CheckProofs Proofs.PairProofs
     Proofs.DateProofs Proofs.BuilderProofs Proofs.StableSort Proofs.BeancountProofs
     Proofs.LedgerProofs Proofs.CloseProofs Proofs.PriceDayProofs Proofs.ValuationProofs
     Proofs.MarkToMarket Proofs.MarkToMarketReport Proofs.MarkToMarketWindow Proofs.MarkToMarketJournal
     Proofs.MarkToMarketFinal Proofs.MarkToMarketRow.
Import ListNotations.
Open Scope Q_scope.

Definition sort_day (d : day) : day := set_txns d (sort_by txn_ltb (d_txns d)).

Lemma sort_stage_spec : forall ds s s' ds',
  process_days sort_proc s ds = ROk (s', ds') -> ds' = map sort_day ds.
Proof.
  intros ds s s' ds' H. rewrite process_days_fold_map in H. apply Forall2_eq_map.
  refine (fold_map_rel _ _ ds _ s s' ds' H). intros s0 d s1 d1 _ E.
  destruct (process_day_ok _ _ _ _ _ E) as (? & d0 & ? & ? & ? & ts & ? & ? & E1 & _ & _ & E4 & _ & _ & E7).
  injection E1 as _ <-. injection E7 as _ <-.
  rewrite (fold_txns_id sort_proc (fun f s t x s' x' Hf => ltac:(discriminate Hf)) _ _ _ _ E4), day_rebuild. reflexivity.
Qed.

Lemma sort_days_prices ds : map d_prices (map sort_day ds) = map d_prices ds.
Proof. rewrite map_map. apply map_ext. intros d. reflexivity. Qed.

Lemma perm_concat_map {A B} (f g : A -> list B) l :
  (forall x, In x l -> Permutation (f x) (g x)) -> Permutation (concat (map f l)) (concat (map g l)).
Proof.
  induction l as [|x l IH]; intros H; cbn [map concat]; [constructor|].
  apply Permutation_app; [apply H; left; reflexivity|apply IH; intros y Hy; apply H; right; exact Hy].
Qed.

Lemma perm_concat {A} (l1 l2 : list (list A)) : Permutation l1 l2 -> Permutation (concat l1) (concat l2).
Proof.
  induction 1 as [|x l l' P IH|x y l|l l' l'' P1 IH1 P2 IH2]; cbn [concat].
  - constructor.
  - apply Permutation_app_head. exact IH.
  - rewrite !app_assoc. apply Permutation_app_tail. apply Permutation_app_comm.
  - eapply Permutation_trans; eassumption.
Qed.

Lemma sort_day_postings d : Permutation (vday (sort_day d)) (vday d).
Proof.
  unfold MarkToMarketSpec.day_postings, sort_day. cbn [set_txns d_txns].
  apply perm_concat. apply Permutation_map. apply sort_by_perm.
Qed.

Lemma sort_days_postings ds : Permutation (vposts (map sort_day ds)) (vposts ds).
Proof.
  unfold MarkToMarketSpec.days_postings. rewrite map_map.
  apply perm_concat_map. intros d _. apply sort_day_postings.
Qed.

(* sums over postings do not depend on their order *)
Lemma vsum_perm (f : posting -> Q) l1 l2 : Permutation l1 l2 -> vsum f l1 == vsum f l2.
Proof.
  induction 1 as [|x l l' P IH|x y l|l l' l'' P1 IH1 P2 IH2]; cbn [MarkToMarketSpec.qsum].
  - reflexivity.
  - rewrite IH. reflexivity.
  - ring.
  - rewrite IH1. exact IH2.
Qed.

Lemma cell_qty_perm a c l1 l2 : Permutation l1 l2 -> cell_qty a c l1 == cell_qty a c l2.
Proof. apply vsum_perm. Qed.
Lemma cell_value_perm a c l1 l2 : Permutation l1 l2 -> cell_value a c l1 == cell_value a c l2.
Proof. apply vsum_perm. Qed.
Lemma cell_count_perm a c l1 l2 : Permutation l1 l2 -> cell_count a c l1 = cell_count a c l2.
Proof.
  intros P. rewrite !cell_count_filter. f_equal. apply Permutation_length. apply Permutation_filter. exact P.
Qed.

Lemma cell_count_zero_rev a c l : Forall (fun p => cellb a c p = false) l -> cell_count a c l = 0%Z.
Proof. induction 1 as [|p l Hp _ IH]; cbn [cell_count]; [reflexivity|]. rewrite Hp, IH. reflexivity. Qed.

Definition a_partition : partition := mkPartition (mkPeriod 0 0) Daily [].

Lemma built_false dl : built_days false dl a_partition = b_days (builder_of dl).
Proof. reflexivity. Qed.

Definition dates_upto (dl : list directive) (T : Z) : Prop := forall d, In d dl -> (ddate d <= T)%Z.

Lemma days_upto_all dl T : dates_upto dl T -> days_upto T (b_days (builder_of dl)) = b_days (builder_of dl).
Proof.
  intros HT. unfold days_upto. apply filter_all. intros x Hx.
  destruct (builder_canonical dl) as (_ & _ & Hd & _). cbn zeta in Hd.
  assert (Hin : In (d_date x) (map d_date (b_days (builder_of dl)))) by (apply in_map; exact Hx).
  apply Hd in Hin. apply in_map_iff in Hin. destruct Hin as (d & Ed & Hd'). specialize (HT d Hd'). lia.
Qed.

Lemma sorted_in_ok sds dl :
  parse_directives sds = MOk dl -> postings_syntactic dl ->
  Forall posting_in_ok (vposts (map sort_day (b_days (builder_of dl)))).
Proof.
  intros Hl Hsyn. eapply Permutation_Forall; [symmetry; apply sort_days_postings|].
  rewrite <- built_false. exact (built_days_in_ok' false sds dl a_partition Hl Hsyn).
Qed.

(* the run of transcode_days with the Sort and Check stages resolved: ComputePrices, which keeps the
   postings, then Valuate, over the builder's days with each day's transactions sorted *)
Lemma transcode_days_run l v sds dl days :
  parse_directives sds = MOk dl -> postings_syntactic dl -> transcode_days l v sds = COk days ->
  exists s1 ds1 s2,
    process_days (compute_prices_proc v) (mkCp [] None) (map sort_day (b_days (builder_of dl))) = ROk (s1, ds1) /\
    process_days (valuate_proc v) val_init ds1 = ROk (s2, days) /\
    vposts ds1 = vposts (map sort_day (b_days (builder_of dl))) /\ Forall posting_in_ok (vposts ds1).
Proof.
  intros Hl Hsyn H. destruct (transcode_days_inv _ _ _ _ H) as (dl' & d1 & d2 & d3 & s1 & s2 & s3 & s4 & E0 & E1 & E2 & E3 & E4).
  assert (dl' = dl) by congruence. subst dl'.
  apply sort_stage_spec in E1. subst d1. apply check_stage_id in E3. subst d3.
  pose proof (cp_days_postings _ _ _ _ _ E2) as EPs.
  exists s2, d2, s4. split; [exact E2|]. split; [exact E4|]. split; [exact EPs|].
  rewrite EPs. exact (sorted_in_ok sds dl Hl Hsyn).
Qed.

(* quantities: what the sorted days carry on the cell is what the journal booked up to T *)
Lemma sorted_days_qty dl T a c : dates_upto dl T ->
  cell_qty a c (vposts (map sort_day (b_days (builder_of dl)))) == dvalue (qty_upto (flat_postings dl) a c T).
Proof.
  intros HT. rewrite (cell_qty_perm a c _ _ (sort_days_postings _)).
  rewrite <- (qty_on_days_journal false dl a_partition a c T). unfold qty_on_days.
  rewrite built_false, (days_upto_all dl T HT). reflexivity.
Qed.

Lemma sorted_days_count dl a c :
  cell_count a c (vposts (map sort_day (b_days (builder_of dl))))
  = Z.of_nat (length (filter (fun dp : Z * posting => cellb a c (snd dp)) (flat_postings dl))).
Proof.
  rewrite (cell_count_perm a c _ _ (sort_days_postings _)).
  rewrite cell_count_filter, <- snd_dposts, filter_map_length. f_equal.
  apply Permutation_length. apply Permutation_filter. rewrite <- built_false. apply built_days_perm.
Qed.

Lemma sorted_days_price dl T V c : dates_upto dl T -> c <> V -> b_days (builder_of dl) <> [] ->
  let SD := map sort_day (b_days (builder_of dl)) in
  price_value (PriceDaySpec.price_on V SD (pred (length SD))) c = price_q (ValuationSpec.price_on dl V c T).
Proof.
  intros HT Hcv Hne SD. rewrite <- (price_on_days_journal false dl a_partition V c T Hcv).
  unfold price_on_days. rewrite built_false, (days_upto_all dl T HT).
  unfold SD. rewrite map_length. destruct (b_days (builder_of dl)) as [|x B] eqn:EB; [contradiction|].
  cbn [length pred prices_after]. unfold PriceDaySpec.price_on, history_upto.
  rewrite firstn_map, sort_days_prices. reflexivity.
Qed.

Lemma built_length dl : length (b_days (builder_of dl)) = length (WellformedSpec.dates dl).
Proof.
  destruct (builder_canonical dl) as (_ & Hd & _). cbn zeta in Hd. rewrite <- Hd, map_length. reflexivity.
Qed.

Definition cell_bookings (dl : list directive) (a : account) (c : commodity) : Z :=
  Z.of_nat (length (filter (fun dp : Z * posting => cellb a c (snd dp)) (flat_postings dl))).

(* a commodity other than V: the value the ledger carries on (a, c) is quantity * latest price up
   to one 10^-8 per booking of the cell and per day of the journal *)
Theorem transcode_cell l v sds dl days a c T :
  parse_directives sds = MOk dl -> postings_syntactic dl -> dates_upto dl T ->
  transcode_days l v sds = COk days ->
  account_ok a = true -> is_AL a = true -> c <> v ->
  Qabs (cell_value a c (vposts days) - mv_cell dl v a c T)
    <= inject_Z (cell_bookings dl a c + Z.of_nat (length (WellformedSpec.dates dl))) * eps8.
Proof.
  intros Hl Hsyn HT H Ha HAL Hcv.
  destruct (transcode_days_run _ _ _ _ _ Hl Hsyn H) as (s1 & ds1 & s2 & E1 & E2 & EPs & Hin1).
  pose proof Hin1 as Hin. rewrite EPs in Hin.
  assert (Hnn : (0 <= cell_bookings dl a c + Z.of_nat (length (WellformedSpec.dates dl)))%Z) by (unfold cell_bookings; lia).
  assert (Hcase : b_days (builder_of dl) = [] \/ b_days (builder_of dl) <> []).
  { destruct (b_days (builder_of dl)); [left; reflexivity|right; discriminate]. }
  destruct Hcase as [EB|HneB].
  - unfold mv_cell. rewrite <- (sorted_days_qty dl T a c HT).
    rewrite EB in E1 |- *. cbn [map process_days] in E1. injection E1 as _ <-.
    cbn [process_days] in E2. injection E2 as _ <-. cbn [map].
    setoid_replace (cell_value a c (vposts []) - cell_qty a c (vposts []) * price_q (ValuationSpec.price_on dl v c T)) with 0
      by (unfold cell_value, cell_qty, MarkToMarketSpec.days_postings; cbn; ring).
    cbn [Qabs Z.abs]. apply Qmult_le_0_compat; [|exact eps8_nonneg].
    change 0 with (inject_Z 0). rewrite <- Zle_Qle. exact Hnn.
  - set (SD := map sort_day (b_days (builder_of dl))) in *.
    assert (HneSD : SD <> []).
    { unfold SD. destruct (b_days (builder_of dl)); [contradiction|cbn [map]; discriminate]. }
    pose proof (mark_to_market_pipeline v a c SD s1 ds1 s2 days Ha HAL Hcv HneSD Hin E1 E2) as M.
    pose proof (sorted_days_price dl T v c HT Hcv HneB) as EP. cbn zeta in EP. fold SD in EP.
    rewrite EP in M. unfold SD in M at 1. rewrite (sorted_days_qty dl T a c HT) in M.
    eapply Qle_trans; [exact M|]. apply Qmult_le_compat_r; [|exact eps8_nonneg]. rewrite <- Zle_Qle.
    pose proof (days_count v a c Ha HAL ds1 val_init s2 days Hin1 entries_ok_nil E2) as C.
    rewrite EPs in C. unfold SD in C at 1. rewrite sorted_days_count in C.
    rewrite (process_days_length _ _ _ _ _ E1) in C. unfold SD in C. rewrite map_length, built_length in C.
    unfold cell_bookings. exact C.
Qed.

(* the valuation commodity itself is carried at its quantity: no Multiply, no revaluation *)
Theorem transcode_cell_V l v sds dl days a T :
  parse_directives sds = MOk dl -> postings_syntactic dl -> dates_upto dl T ->
  transcode_days l v sds = COk days ->
  cell_value a v (vposts days) == mv_cell dl v a v T.
Proof.
  intros Hl Hsyn HT H.
  destruct (transcode_days_run _ _ _ _ _ Hl Hsyn H) as (s1 & ds1 & s2 & E1 & E2 & EPs & Hin1).
  rewrite (val_days_V v a ds1 _ _ _ E2 Hin1), EPs, (sorted_days_qty dl T a v HT).
  unfold mv_cell, ValuationSpec.price_on. rewrite str_eqb_refl. cbn [price_q].
  assert (E1' : dvalue one == 1) by reflexivity. rewrite E1'. ring.
Qed.

(* a commodity the account never books: the ledger has no posting on (a, c) at all *)
Theorem transcode_cell_unbooked l v sds dl days a c :
  parse_directives sds = MOk dl -> postings_syntactic dl ->
  transcode_days l v sds = COk days ->
  account_ok a = true -> is_AL a = true ->
  cell_bookings dl a c = 0%Z ->
  Forall (fun p => cellb a c p = false) (vposts days).
Proof.
  intros Hl Hsyn H Ha HAL Hc.
  destruct (transcode_days_run _ _ _ _ _ Hl Hsyn H) as (s1 & ds1 & s2 & E1 & E2 & EPs & Hin1).
  assert (Hq : Forall (quiet a c (fun _ => False)) (vposts ds1)).
  { assert (Hz : Forall (fun p => cellb a c p = false) (vposts ds1))
      by (apply cell_count_zero; rewrite EPs, sorted_days_count; exact Hc).
    rewrite Forall_forall in *. intros p Hp. split; [exact (proj1 (Hin1 p Hp))|]. rewrite (Hz p Hp). discriminate. }
  pose proof (proj2 (val_days_quiet v a c Ha HAL (fun _ => False) (fun _ F => match F with end) ds1 val_init s2 days E2 Hq
                       (good_nil a c _))) as Hout.
  eapply Forall_impl; [|exact Hout]. intros p [_ Hp]. destruct (cellb a c p); [destruct (Hp eq_refl)|reflexivity].
Qed.
