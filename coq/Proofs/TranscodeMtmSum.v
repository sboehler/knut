(* C16, mark-to-market clause: from one cell (Proofs/TranscodeMtmCell.v) to the account.

   - an account's postings split by commodity (values, counts)
   - ValuationSpec.held_commodities: exactly the commodities booked on the account
   - the step count: sum of the per-cell allowances <= ValuationSpec.step_bound dl a W T for a window [W, T] holding the journal
   - within_bound (decimals) from the rational inequality
   - the account total of the days handed to Transcode against ValuationSpec.market_value
   - the same on the emitted ledger: Spec.BeancountMtmSpec.mtm_check finds nothing *)
From Coq Require Import ZArith QArith Qabs List Bool Lia Permutation Sorting.Sorted.
From Knut Require Import Proofs.ListFacts Model.Str Model.Dec Model.Date Model.Account Model.Ledger Model.Price
     Model.Journal Model.Check Model.Pipeline Model.Table Model.Report Model.Cli Model.Beancount Model.CliTranscode
     Spec.DateSpec Spec.WellformedSpec Spec.LedgerSpec Spec.LedgerSyntax Spec.MarkToMarketSpec
     Spec.PriceSpec Spec.PriceDaySpec Spec.ValuationSpec Spec.MarkToMarketReportSpec
     Spec.BeancountSpec Spec.BeancountErase Spec.BeancountMtmSpec Spec.TranscodeMtmSpec
     Proofs.DecProofs Proofs.DecValue Proofs.CheckLemmas Proofs.CheckProofs Proofs.PairProofs
     Proofs.DateProofs Proofs.BuilderProofs Proofs.StableSort Proofs.BeancountProofs
     Proofs.LedgerProofs Proofs.CloseProofs Proofs.PriceDayProofs Proofs.ValuationProofs
     Proofs.MarkToMarket Proofs.MarkToMarketReport Proofs.MarkToMarketWindow Proofs.MarkToMarketJournal
     Proofs.MarkToMarketFinal Proofs.MarkToMarketRow Proofs.MarkToMarketSteps Proofs.MarkToMarketDefined
     Proofs.TranscodeMtmCell.
Import ListNotations.
Open Scope Q_scope.

Definition acct_sum (w : posting -> Q) (a : account) (l : list posting) : Q :=
  vsum (fun p => if acc_eqb (p_acc p) a then w p else 0) l.
Definition cell_sum (w : posting -> Q) (a : account) (c : commodity) (l : list posting) : Q :=
  vsum (fun p => if cellb a c p then w p else 0) l.

Lemma lsum_add {A} (f g : A -> Q) l : lsum (fun x => f x + g x) l == lsum f l + lsum g l.
Proof. unfold LedgerProofs.qsum. induction l as [|x l IH]; cbn [fold_right]; [ring|]. rewrite IH. ring. Qed.

Lemma lsum_indicator (x : commodity) (r : Q) : forall coms, NoDup coms -> In x coms ->
  lsum (fun c => if str_eqb x c then r else 0) coms == r.
Proof. intros coms. apply lsum_pick; [intros y _; apply str_eqb_eq|apply str_eqb_refl]. Qed.

Lemma split_by_com (w : posting -> Q) a coms : NoDup coms -> forall l,
  Forall (fun p => acc_eqb (p_acc p) a = true -> In (p_com p) coms) l ->
  acct_sum w a l == lsum (fun c => cell_sum w a c l) coms.
Proof.
  intros Hnd. induction l as [|p l IH]; intros Hin.
  - unfold acct_sum, cell_sum. cbn [MarkToMarketSpec.qsum]. symmetry. apply LedgerProofs.qsum_zero. intros; reflexivity.
  - inversion Hin as [|? ? Hp Hrest]; subst. unfold acct_sum, cell_sum in *. cbn [MarkToMarketSpec.qsum].
    rewrite (lsum_add (fun c => if cellb a c p then w p else 0)), <- (IH Hrest).
    apply Qplus_comp; [|reflexivity]. unfold cellb. destruct (acc_eqb (p_acc p) a) eqn:E; cbn [andb].
    + symmetry. apply lsum_indicator; [exact Hnd|apply Hp; reflexivity].
    + symmetry. apply LedgerProofs.qsum_zero. intros; reflexivity.
Qed.

Lemma insert_com_mem c x : forall l, In x (insert_com c l) <-> x = c \/ In x l.
Proof.
  induction l as [|y l IH]; cbn [insert_com].
  - split; [intros [H|[]]; left; symmetry; exact H|intros [->|[]]; left; reflexivity].
  - destruct (str_cmp c y) eqn:E.
    + apply str_cmp_eq in E. subst y. split; [intros H; right; exact H|intros [->|H]; [left; reflexivity|exact H]].
    + split; [intros [H|H]; [left; symmetry; exact H|right; exact H]|intros [->|H]; [left; reflexivity|right; exact H]].
    + cbn [In]. rewrite IH. tauto.
Qed.

Lemma held_in posts a x :
  In x (held_commodities posts a) <-> exists d p, In (d, p) posts /\ acc_eqb (p_acc p) a = true /\ p_com p = x.
Proof.
  unfold held_commodities.
  assert (G : forall acc, In x (fold_left (fun l (dp : Z * posting) => let '(_, p) := dp in
                                 if acc_eqb (p_acc p) a then insert_com (p_com p) l else l) posts acc)
              <-> In x acc \/ exists d p, In (d, p) posts /\ acc_eqb (p_acc p) a = true /\ p_com p = x).
  { induction posts as [|[d p] posts IH]; intros acc; cbn [fold_left].
    - split; [intros H; left; exact H|intros [H|(d & p & [] & _)]; exact H].
    - rewrite IH. destruct (acc_eqb (p_acc p) a) eqn:E; [rewrite insert_com_mem|]; split.
      + intros [[->|H]|(d' & p' & Hin & R)]; [right; exists d, p; repeat split; [left; reflexivity|exact E]|left; exact H|].
        right. exists d', p'. split; [right; exact Hin|exact R].
      + intros [H|(d' & p' & [Heq|Hin] & Ha & Hc)]; [left; right; exact H| |].
        * injection Heq as <- <-. left. left. symmetry. exact Hc.
        * right. exists d', p'. repeat split; assumption.
      + intros [H|(d' & p' & Hin & R)]; [left; exact H|]. right. exists d', p'. split; [right; exact Hin|exact R].
      + intros [H|(d' & p' & [Heq|Hin] & Ha & Hc)]; [left; exact H| |].
        * injection Heq as <- <-. congruence.
        * right. exists d', p'. repeat split; assumption. }
  rewrite G. split; [intros [[]|H]; exact H|intros H; right; exact H].
Qed.

Lemma not_held_unbooked dl a c : ~ In c (held_commodities (flat_postings dl) a) -> cell_bookings dl a c = 0%Z.
Proof.
  intros Hn. unfold cell_bookings. rewrite filter_none; [reflexivity|].
  intros [d p] Hin. cbn [snd]. destruct (cellb a c p) eqn:E; [|reflexivity]. exfalso. apply Hn.
  unfold cellb in E. apply andb_true_iff in E. destruct E as [E1 E2]. apply str_eqb_eq in E2.
  apply held_in. exists d, p. repeat split; assumption.
Qed.

Open Scope Z_scope.

(* the allowance the per-cell theorems grant, summed over a list of commodities *)
Fixpoint com_steps (dl : list directive) (v : commodity) (a : account) (coms : list commodity) : Z :=
  match coms with
  | [] => 0
  | c :: rest => (if str_eqb c v then 0 else cell_bookings dl a c + Z.of_nat (length (WellformedSpec.dates dl)))
                 + com_steps dl v a rest
  end.

Lemma directive_date_ddate d : directive_date d = ddate d.
Proof. destruct d; reflexivity. Qed.

Lemma flat_postings_date dl d p : In (d, p) (flat_postings dl) -> exists t, In (DTxn t) dl /\ d = t_date t.
Proof.
  unfold flat_postings. intros H. apply in_concat in H. destruct H as (l & Hl & Hin).
  apply in_map_iff in Hl. destruct Hl as (x & <- & Hx). destruct x; try destruct Hin.
  apply in_map_iff in Hin. destruct Hin as (q & E & _). injection E as <- _. exists t. split; [exact Hx|reflexivity].
Qed.

(* over a window that holds the whole journal it is the count of the windowed report *)
Lemma com_steps_tight dl v a W E coms :
  (forall d, In d dl -> W <= ddate d <= E) -> com_steps dl v a coms = row_steps_tight dl v a W E coms.
Proof.
  intros Hw. induction coms as [|c coms IH]; cbn [com_steps row_steps_tight]; [reflexivity|]. rewrite IH. f_equal.
  destruct (str_eqb c v); [reflexivity|]. unfold cell_steps_tight, bookings_in, days_in, cell_bookings. f_equal.
  - do 2 f_equal. apply filter_ext_in. intros [d p] Hin. destruct (flat_postings_date _ _ _ Hin) as (t & Ht & ->).
    specialize (Hw _ Ht). cbn [ddate fst] in *. unfold in_window. symmetry. replace (W <=? t_date t) with true by lia.
    replace (t_date t <=? E) with true by lia. reflexivity.
  - rewrite filter_all; [reflexivity|]. intros x Hx. apply dates_in, in_map_iff in Hx. destruct Hx as (d & <- & Hd).
    specialize (Hw _ Hd). unfold in_window. lia.
Qed.

Theorem com_steps_bound dl v a W E :
  (forall d, In d dl -> W <= ddate d <= E) ->
  com_steps dl v a (held_commodities (flat_postings dl) a) <= step_bound dl a W E.
Proof. intros Hw. rewrite (com_steps_tight dl v a W E _ Hw). apply row_steps_step_bound. Qed.

Open Scope Q_scope.

Lemma within_bound_intro o e n :
  Qabs (dvalue o - dvalue e) <= inject_Z n * eps8 -> within_bound o e n = true.
Proof. apply within_bound_value. Qed.

Lemma posted_total_fold a : forall ps s,
  dvalue (fold_left (fun s p => if acc_eqb (p_acc p) a then add s (p_val p) else s) ps s)
  == dvalue s + acct_sum (fun p => dvalue (p_val p)) a ps.
Proof.
  unfold acct_sum. induction ps as [|p ps IH]; intros s; cbn [fold_left MarkToMarketSpec.qsum]; [ring|].
  rewrite IH. destruct (acc_eqb (p_acc p) a); [rewrite dvalue_add|]; ring.
Qed.

Lemma posted_total_value a ps : dvalue (posted_total a ps) == acct_sum (fun p => dvalue (p_val p)) a ps.
Proof. unfold posted_total. rewrite posted_total_fold, dvalue_nil. ring. Qed.

Lemma last_date_ge : forall dl m d, In d dl -> (directive_date d <= fold_left (fun m d => Z.max m (directive_date d)) dl m)%Z.
Proof.
  assert (Hm : forall dl m, (m <= fold_left (fun m d => Z.max m (directive_date d)) dl m)%Z).
  { induction dl as [|x dl IH]; intros m; cbn [fold_left]; [lia|]. specialize (IH (Z.max m (directive_date x))). lia. }
  induction dl as [|x dl IH]; intros m d Hin; [destruct Hin|]. cbn [fold_left]. destruct Hin as [->|Hin].
  - specialize (Hm dl (Z.max m (directive_date d))). lia.
  - apply IH. exact Hin.
Qed.

Lemma last_date_upto dl : dates_upto dl (last_date dl).
Proof. intros d Hd. rewrite <- directive_date_ddate. apply last_date_ge. exact Hd. Qed.

Lemma first_date_le : forall dl m d, In d dl -> (fold_left (fun m d => Z.min m (directive_date d)) dl m <= directive_date d)%Z.
Proof.
  assert (Hm : forall dl m, (fold_left (fun m d => Z.min m (directive_date d)) dl m <= m)%Z).
  { induction dl as [|x dl IH]; intros m; cbn [fold_left]; [lia|]. specialize (IH (Z.min m (directive_date x))). lia. }
  induction dl as [|x dl IH]; intros m d Hin; [destruct Hin|]. cbn [fold_left]. destruct Hin as [->|Hin].
  - specialize (Hm dl (Z.min m (directive_date d))). lia.
  - apply IH. exact Hin.
Qed.

Lemma journal_window dl : forall d, In d dl -> (first_date dl <= ddate d <= last_date dl)%Z.
Proof.
  intros d Hd. split; [rewrite <- directive_date_ddate; apply first_date_le; exact Hd|apply last_date_upto; exact Hd].
Qed.

(* the Q-inequality: for any date T on or after the last directive *)
Theorem transcode_account_total_Q l v sds dl days a T e :
  parse_directives sds = MOk dl -> postings_syntactic dl -> dates_upto dl T ->
  transcode_days l v sds = COk days ->
  account_ok a = true -> is_AL a = true ->
  market_value dl v a T = Some e ->
  Qabs (acct_sum (fun p => dvalue (p_val p)) a (vposts days) - dvalue e)
    <= inject_Z (com_steps dl v a (held_commodities (flat_postings dl) a)) * eps8.
Proof.
  intros Hl Hsyn HT H Ha HAL He.
  set (coms := held_commodities (flat_postings dl) a).
  assert (Hcov : Forall (fun p => acc_eqb (p_acc p) a = true -> In (p_com p) coms) (vposts days)).
  { apply Forall_forall. intros p Hp Hpa.
    destruct (in_dec (list_eq_dec Z.eq_dec) (p_com p) coms) as [Hin|Hn]; [exact Hin|exfalso].
    pose proof (transcode_cell_unbooked l v sds dl days a (p_com p) Hl Hsyn H Ha HAL (not_held_unbooked dl a _ Hn)) as F.
    rewrite Forall_forall in F. specialize (F p Hp). unfold cellb in F. rewrite Hpa, str_eqb_refl in F. discriminate. }
  rewrite (split_by_com _ a coms (held_commodities_nodup _ _) _ Hcov), (market_value_sum dl v a T e He). fold coms.
  apply (row_bound _ v _ _ (fun c => cell_bookings dl a c + Z.of_nat (length (WellformedSpec.dates dl)))%Z
           (com_steps dl v a) eq_refl (fun _ _ => eq_refl)).
  - intros c _ Hcv. exact (transcode_cell l v sds dl days a c T Hl Hsyn HT H Ha HAL Hcv).
  - intros _. exact (transcode_cell_V l v sds dl days a T Hl Hsyn HT H).
Qed.

Lemma txns_postings_all days : MarkToMarket.txns_postings (all_txns days) = vposts days.
Proof.
  unfold MarkToMarket.txns_postings, all_txns, MarkToMarketSpec.days_postings, MarkToMarketSpec.day_postings.
  induction days as [|d days IH]; cbn [map concat]; [reflexivity|]. rewrite map_app, concat_app, IH. reflexivity.
Qed.

Lemma ledger_total_fold v a : forall es s,
  dvalue (fold_left (fun acc e =>
            match e with
            | ETxn _ _ ps => fold_left (fun s x => if str_eqb (account_of x) (acc_name a) then add s (amount_of x) else s) ps acc
            | _ => acc
            end) (erase_entries v es) s)
  == dvalue s + acct_sum (fun p => dvalue (p_val p)) a (MarkToMarket.txns_postings (entry_txns es)).
Proof.
  induction es as [|e es IH]; intros s; cbn [erase_entries map fold_left].
  - unfold acct_sum, entry_txns. cbn. ring.
  - fold (erase_entries v es). rewrite IH. destruct e as [d b|d b|t]; cbn [erase_entry].
    + reflexivity.
    + reflexivity.
    + change (entry_txns (BTxn t :: es)) with (t :: entry_txns es).
      unfold MarkToMarket.txns_postings. cbn [map concat]. unfold acct_sum. rewrite MarkToMarket.qsum_app.
      fold (acct_sum (fun p => dvalue (p_val p)) a (t_postings t)).
      assert (E : forall ps s0,
        dvalue (fold_left (fun s x => if str_eqb (account_of x) (acc_name a) then add s (amount_of x) else s) (map (erase_posting v) ps) s0)
        == dvalue s0 + acct_sum (fun p => dvalue (p_val p)) a ps).
      { unfold acct_sum. induction ps as [|p ps IHp]; intros s0; cbn [map fold_left MarkToMarketSpec.qsum]; [ring|].
        rewrite IHp. unfold erase_posting, account_of, amount_of, acc_eqb. cbn [fst snd].
        destruct (str_eqb (acc_name (p_acc p)) (acc_name a)); [rewrite dvalue_add|]; ring. }
      rewrite E. unfold acct_sum. ring.
Qed.

Lemma ledger_total_days v a days :
  dvalue (ledger_total (erase_entries v (transcode_entries days [])) (acc_name a))
  == acct_sum (fun p => dvalue (p_val p)) a (vposts days).
Proof.
  unfold ledger_total. rewrite ledger_total_fold, dvalue_nil, Qplus_0_l.
  rewrite <- txns_postings_all. unfold acct_sum. apply vsum_perm.
  unfold MarkToMarket.txns_postings. apply perm_concat. apply Permutation_map. apply transcode_entries_perm.
Qed.

(* the clause of the executable verdict holds of the ledger the model emits *)
Theorem transcode_mtm_check l v sds dl days :
  parse_directives sds = MOk dl -> postings_syntactic dl ->
  transcode_days l v sds = COk days ->
  mtm_check dl v (erase_entries v (transcode_entries days [])) = [].
Proof.
  intros Hl Hsyn H. unfold mtm_check. apply flat_map_nil. intros a Ha.
  destruct (al_accounts_in dl a Ha) as (HAL & d & p & Hin & <-).
  pose proof (Hsyn d p Hin) as Hok.
  destruct (market_value dl v (p_acc p) (last_date dl)) as [e|] eqn:He; [|reflexivity].
  rewrite within_bound_intro; [reflexivity|]. rewrite ledger_total_days.
  eapply Qle_trans; [exact (transcode_account_total_Q l v sds dl days _ _ e Hl Hsyn (last_date_upto dl) H Hok HAL He)|].
  apply Qmult_le_compat_r; [|exact eps8_nonneg]. rewrite <- Zle_Qle.
  pose proof (com_steps_bound dl v (p_acc p) (first_date dl) (last_date dl) (journal_window dl)). lia.
Qed.
