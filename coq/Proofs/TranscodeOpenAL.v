(* C16, open before use for the asset/liability account of a value adjustment: the coupling of
   Check's and Valuate's quantities.

   Valuate books an adjustment only for a position (a, c) whose quantity is not zero at the start
   of the day; Check refuses to close an account that has a position with a non-zero quantity and
   refuses a posting to an account that is not open; both stages add the same quantities to the
   same positions.  Hence the account of every adjustment is in the checker's open set on that day.

   - Check alone: a position that is not zero belongs to an open account; the quantity of a
     position after a stage = before + the bookings (closing deletes zero entries only)
   - Check and Valuate over the same days: every posting on an asset/liability account,
     adjustments included, goes to an account of the checker's open set
   - carried to the emitted ledger and the reader's state *)
From Coq Require Import ZArith QArith Qabs List Bool Lia Permutation Sorting.Sorted.
From Knut Require Import Proofs.SMapProofs Model.Str Model.Dec Model.Date Model.Account Model.Ledger Model.Price
     Model.Journal Model.Check Model.Pipeline Model.Cli Model.Beancount Model.CliTranscode
     Spec.WellformedSpec Spec.LedgerSpec Spec.LedgerSyntax Spec.MarkToMarketSpec Spec.BeancountSpec Spec.BeancountErase
     Proofs.StrProofs Proofs.DecProofs Proofs.DecValue Proofs.CheckLemmas Proofs.CheckProofs Proofs.PairProofs
     Proofs.BeancountProofs Proofs.LedgerProofs Proofs.ValuationProofs
     Proofs.MarkToMarket Proofs.MarkToMarketReport Proofs.TranscodeMtmCell Proofs.TranscodeAdjust.
Import ListNotations.
Open Scope Q_scope.

Definition ck_good (s : check_state) : Prop :=
  entries_ok (ck_qty s) /\
  forall a c, account_ok a = true -> is_AL a = true -> ~ posq a c (ck_qty s) == 0 -> is_open s a = true.

Lemma is_open_name s a b : acc_eqb b a = true -> is_open s a = is_open s b.
Proof.
  intros H. apply acc_eqb_name in H. unfold is_open. f_equal.
  unfold acc_eqb. rewrite H. reflexivity.
Qed.

Lemma ck_good_init : ck_good check_init.
Proof.
  split; [exact entries_ok_nil|]. intros a c _ _ H. exfalso. apply H. cbn [check_init ck_qty]. apply posq_nil.
Qed.

Lemma ck_posting_good s t p s' p' :
  ck_posting_cb s t p = ROk (s', p') -> account_ok (p_acc p) = true -> ck_good s ->
  ck_good s' /\ ck_open s' = ck_open s /\
  (forall a c, account_ok a = true -> is_AL a = true ->
     posq a c (ck_qty s') == posq a c (ck_qty s) + (if cellb a c p then dvalue (p_qty p) else 0)).
Proof.
  intros H Hok [He Ho]. unfold ck_posting_cb in H.
  destruct (is_open s (p_acc p)) eqn:Eo; cbn [negb] in H; [|discriminate].
  destruct (is_AL (p_acc p)) eqn:EAL.
  - injection H as <- _. cbn [ck_open ck_qty].
    assert (Hd : forall a c, account_ok a = true -> is_AL a = true ->
               posq a c (pos_add (ck_qty s) (p_acc p) (p_com p) (p_qty p))
               == posq a c (ck_qty s) + (if cellb a c p then dvalue (p_qty p) else 0)).
    { intros a c Ha _. exact (posq_add a c Ha (ck_qty s) (p_acc p) (p_com p) (p_qty p) Hok). }
    split; [|split; [reflexivity|exact Hd]]. split.
    + exact (entries_ok_add _ _ _ _ He Hok EAL).
    + intros a c Ha HAL Hnz. unfold is_open. cbn [ck_open]. fold (is_open s a).
      destruct (cellb a c p) eqn:Ec.
      * unfold cellb in Ec. apply andb_true_iff in Ec. destruct Ec as [Ec _].
        rewrite (is_open_name s a (p_acc p) Ec). exact Eo.
      * apply (Ho a c Ha HAL). intros Hz. apply Hnz. rewrite (Hd a c Ha HAL), Ec, Hz. ring.
  - injection H as <- _. split; [split; assumption|]. split; [reflexivity|].
    intros a c Ha HAL. rewrite (cell_not_AL a c Ha HAL p Hok EAL). ring.
Qed.

Lemma ck_postings_good t ps : forall s s' ps',
  fold_postings ck_posting_cb t s ps = ROk (s', ps') -> Forall acc_ok_p ps -> ck_good s ->
  ck_good s' /\ ck_open s' = ck_open s /\
  (forall a c, account_ok a = true -> is_AL a = true -> posq a c (ck_qty s') == posq a c (ck_qty s) + cell_qty a c ps).
Proof.
  induction ps as [|p ps IH]; intros s s' ps' H Hok Hg.
  - injection H as <- _. split; [exact Hg|]. split; [reflexivity|]. intros a c _ _. cbn. ring.
  - inversion Hok as [|? ? Hp Hrest]; subst.
    apply fold_postings_cons_ok in H. destruct H as (s1 & p1 & ps2 & E1 & E2 & _). destruct (ck_posting_good _ _ _ _ _ E1 Hp Hg) as (G1 & O1 & D1).
    destruct (IH _ _ _ E2 Hrest G1) as (G2 & O2 & D2).
    split; [exact G2|]. split; [congruence|]. intros a c Ha HAL.
    rewrite (D2 a c Ha HAL), (D1 a c Ha HAL), cell_qty_cons. ring.
Qed.

Lemma ck_txns_good l ts : forall s s' ts',
  fold_txns (check_proc l) s ts = ROk (s', ts') -> Forall acc_ok_p (MarkToMarket.txns_postings ts) -> ck_good s ->
  ck_good s' /\ ck_open s' = ck_open s /\
  (forall a c, account_ok a = true -> is_AL a = true ->
     posq a c (ck_qty s') == posq a c (ck_qty s) + cell_qty a c (MarkToMarket.txns_postings ts)).
Proof.
  induction ts as [|t ts IH]; intros s s' ts' H Hok Hg.
  - injection H as <- _. split; [exact Hg|]. split; [reflexivity|]. intros a c _ _. cbn. ring.
  - unfold MarkToMarket.txns_postings in Hok. cbn [map concat] in Hok.
    apply Forall_app in Hok. destruct Hok as [Ht Hrest].
    destruct (fold_txns_cons (check_proc l) ck_posting_cb _ _ _ _ _ eq_refl eq_refl H) as (s1 & ps1 & ts2 & E1 & E2 & _).
    destruct (ck_postings_good _ _ _ _ _ E1 Ht Hg) as (G1 & O1 & D1).
    destruct (IH _ _ _ E2 Hrest G1) as (G2 & O2 & D2).
    split; [exact G2|]. split; [congruence|]. intros a c Ha HAL.
    unfold MarkToMarket.txns_postings in *. cbn [map concat]. rewrite (D2 a c Ha HAL), (D1 a c Ha HAL), cell_qty_app. ring.
Qed.

Lemma ck_opens_good l : forall s s', fold_res ck_open_cb s l = ROk s' -> ck_good s -> ck_good s' /\ ck_qty s' = ck_qty s.
Proof.
  induction l as [|a l IH]; intros s s' H Hg; cbn [fold_res] in H.
  - injection H as <-. split; [exact Hg|reflexivity].
  - apply fold_res_cons_ok in H. destruct H as (s1 & E & H).
    unfold ck_open_cb in E. destruct (is_open s a); [discriminate|]. injection E as <-.
    assert (G1 : ck_good (mkCheck (a :: ck_open s) (ck_qty s))).
    { destruct Hg as [He Ho]. split; [exact He|]. intros x c Hx HAL Hnz. cbn [ck_qty] in Hnz.
      rewrite is_open_cons. destruct s as [o m]. cbn [ck_open ck_qty] in *. rewrite (Ho x c Hx HAL Hnz). apply orb_true_r. }
    destruct (IH _ _ H G1) as [G2 Q2]. split; [exact G2|exact Q2].
Qed.

(* closing: the positions of the account are zero and are deleted; nothing else changes *)
Lemma ck_close_good s a' s' :
  ck_close_cb s a' = ROk s' -> ck_good s ->
  ck_good s' /\ (forall a c, account_ok a = true -> is_AL a = true -> posq a c (ck_qty s') == posq a c (ck_qty s)).
Proof.
  intros H [[Hs He] Ho]. unfold ck_close_cb in H.
  destruct (close_positions (ck_qty s) a') as [m'|] eqn:C; [|discriminate].
  destruct (negb (is_open s a')); [discriminate|]. injection H as <-. cbn [ck_qty ck_open].
  apply close_positions_some in C. destruct C as [-> Hz].
  set (f := fun x : str * (account * commodity * dec) => negb (acc_eqb a' (entry_acc x))).
  set (m := ck_qty s) in *.
  pose proof (keys_sorted_filter f m Hs) as Hs'.
  assert (He' : forall x, In x (filter f m) -> CheckProofs.entry_ok x).
  { intros x Hx. apply filter_In in Hx. apply He. tauto. }
  assert (Hv : forall a c, account_ok a = true ->
             posq a c (filter f m) == posq a c m /\ (acc_eqb a' a = true -> posq a c (filter f m) == 0)).
  { intros a c Ha. unfold posq, getd, pos_get.
    destruct (sm_get m (pos_key a c)) as [[[a2 c2] q]|] eqn:G.
    - pose proof (sm_get_in _ _ _ G) as Gin.
      pose proof (He _ Gin) as (K & Oa & _). cbn [fst snd] in K, Oa.
      apply pos_key_inj in K; [|assumption|assumption]. destruct K as [<- <-].
      destruct (acc_eqb a' a) eqn:Ea.
      + assert (Zq : is_zero q = true) by (apply (Hz _ Gin); unfold entry_acc; cbn [fst snd]; exact Ea).
        assert (N : sm_get (filter f m) (pos_key a c) = None).
        { destruct (sm_get (filter f m) (pos_key a c)) as [x|] eqn:G'; [|reflexivity]. exfalso.
          apply sm_get_in in G'. apply filter_In in G'. destruct G' as [G1 G2].
          rewrite (sm_get_in_sorted _ _ _ Hs G1) in G. injection G as ->.
          unfold f, entry_acc in G2. cbn [fst snd] in G2. rewrite Ea in G2. discriminate. }
        rewrite N. apply is_zero_value in Zq. rewrite Zq, dvalue_nil. split; [reflexivity|intros _; reflexivity].
      + assert (Gf : In (pos_key a c, (a, c, q)) (filter f m)).
        { apply filter_In. split; [exact Gin|]. unfold f, entry_acc. cbn [fst snd]. rewrite Ea. reflexivity. }
        rewrite (sm_get_in_sorted _ _ _ Hs' Gf). split; [reflexivity|discriminate].
    - assert (N : sm_get (filter f m) (pos_key a c) = None).
      { destruct (sm_get (filter f m) (pos_key a c)) as [x|] eqn:G'; [|reflexivity]. exfalso.
        apply sm_get_in in G'. apply filter_In in G'. destruct G' as [G1 _].
        rewrite (sm_get_in_sorted _ _ _ Hs G1) in G. discriminate. }
      rewrite N. split; [reflexivity|intros _; apply dvalue_nil]. }
  split; [|intros a c Ha _; exact (proj1 (Hv a c Ha))].
  split; [split; assumption|]. intros a c Ha HAL Hnz.
  destruct (Hv a c Ha) as [V1 V2]. unfold is_open. cbn [ck_open]. rewrite existsb_filter_acc.
  destruct (acc_eqb a' a) eqn:Ea; [exfalso; apply Hnz; apply V2; reflexivity|]. cbn [negb andb].
  apply (Ho a c Ha HAL). rewrite <- V1. exact Hnz.
Qed.

Lemma ck_closes_good l : forall s s', fold_res ck_close_cb s l = ROk s' -> ck_good s ->
  ck_good s' /\ (forall a c, account_ok a = true -> is_AL a = true -> posq a c (ck_qty s') == posq a c (ck_qty s)).
Proof.
  induction l as [|a l IH]; intros s s' H Hg; cbn [fold_res] in H.
  - injection H as <-. split; [exact Hg|]. intros; reflexivity.
  - apply fold_res_cons_ok in H. destruct H as (s1 & E & H).
    destruct (ck_close_good _ _ _ E Hg) as [G1 D1]. destruct (IH _ _ H G1) as [G2 D2].
    split; [exact G2|]. intros x c Hx HAL. rewrite (D2 x c Hx HAL). exact (D1 x c Hx HAL).
Qed.

Lemma check_day_good l s d s' d' :
  process_day (check_proc l) s d = ROk (s', d') -> Forall acc_ok_p (vday d) -> ck_good s ->
  ck_good s' /\
  (forall a c, account_ok a = true -> is_AL a = true -> posq a c (ck_qty s') == posq a c (ck_qty s) + cell_qty a c (vday d)).
Proof.
  intros H Hok Hg.
  destruct (process_day_ok _ _ _ _ _ H) as (s1 & d1 & s2 & s3 & s4 & ts' & s5 & s6 & E1 & E2 & E3 & E4 & E5 & E6 & E7).
  cbn [check_proc pr_day_start pr_price pr_open pr_close pr_day_end cb_day cb_each] in E1, E2, E3, E6, E7.
  injection E1 as <- <-. injection E2 as <-. injection E7 as <- _.
  destruct (ck_opens_good _ _ _ E3 Hg) as [G3 Q3].
  destruct (ck_txns_good _ _ _ _ _ E4 Hok G3) as (G4 & _ & D4).
  apply ck_asserts_open in E5. subst s5.
  destruct (ck_closes_good _ _ _ E6 G4) as [G6 D6].
  split; [exact G6|]. intros a c Ha HAL. rewrite (D6 a c Ha HAL), (D4 a c Ha HAL), Q3. reflexivity.
Qed.

Definition txn_AL_open (o : list account) (t : txn) : Prop :=
  Forall (fun p => is_AL (p_acc p) = true -> is_open_in o (p_acc p) = true) (t_postings t).

Fixpoint days_AL_checked (o : list account) (days : list day) : Prop :=
  match days with
  | [] => True
  | d :: rest => Forall (txn_AL_open (opens_after o d)) (d_txns d) /\
                 days_AL_checked (closes_after (opens_after o d) d) rest
  end.

Lemma opens_after_mono o d a : is_open_in o a = true -> is_open_in (opens_after o d) a = true.
Proof.
  unfold opens_after. generalize (d_opens d). intros l. revert o. induction l as [|x l IH]; intros o H; cbn [fold_left]; [exact H|].
  apply IH. unfold is_open_in in *. cbn [existsb]. rewrite H. apply orb_true_r.
Qed.

Lemma txn_AL_open_sim o t t' : txn_sim t t' -> txn_AL_open o t -> txn_AL_open o t'.
Proof.
  intros (_ & _ & _ & H) Ht. unfold txn_AL_open in *.
  eapply Forall2_Forall_r; [|exact H|exact Ht]. intros x y (Hxy & _) Hx. cbn beta in *. rewrite Hxy. exact Hx.
Qed.

Lemma txn_open_AL o t : txn_open o t -> txn_AL_open o t.
Proof. unfold txn_open, txn_AL_open. apply Forall_impl. intros p H _. exact H. Qed.

(* the adjustments of a day go to accounts the checker holds open *)
Lemma adjustments_AL_open v date prev cur sC pos ts :
  val_adjustments v date prev cur pos = ROk ts ->
  entries_ok pos -> ck_good sC ->
  (forall a c, account_ok a = true -> is_AL a = true -> c <> v -> posq a c (ck_qty sC) == posq a c pos) ->
  Forall (txn_AL_open (ck_open sC)) ts.
Proof.
  intros H [Hs He] [_ Ho] Hq. pose proof (val_adjustments_only_AL _ _ _ _ _ _ H) as F.
  eapply Forall_impl; [|exact F]. intros t (k & a & c & q & gain & Hin & HAL & Hcv & Hz & Hps).
  pose proof (He _ Hin) as (K & Ha & _). cbn [fst snd] in K, Ha. subst k.
  assert (Hc : c <> v) by (intros ->; rewrite str_eqb_refl in Hcv; discriminate).
  assert (Hopen : is_open sC a = true).
  { apply (Ho a c Ha HAL). rewrite (Hq a c Ha HAL Hc). unfold posq. rewrite (getd_in pos a c q Hs Hin).
    intros Hv. apply is_zero_value in Hv. congruence. }
  unfold txn_AL_open. rewrite Hps. unfold pair_build.
  destruct (is_neg dec_nil || is_zero dec_nil && is_neg gain); cbv beta iota zeta;
    repeat constructor; cbn [p_acc]; intros E; try exact Hopen;
    exfalso; clear - E; unfold valuation_account_for, is_AL, acc_type in E; cbn in E; discriminate.
Qed.

Lemma joint_days l v : forall ds sC sC' dsC sV sV' out,
  process_days (check_proc l) sC ds = ROk (sC', dsC) ->
  process_days (valuate_proc v) sV ds = ROk (sV', out) ->
  Forall posting_in_ok (vposts ds) ->
  ck_good sC -> entries_ok (v_qty sV) ->
  (forall a c, account_ok a = true -> is_AL a = true -> c <> v -> posq a c (ck_qty sC) == posq a c (v_qty sV)) ->
  days_AL_checked (ck_open sC) out.
Proof.
  induction ds as [|d ds IH]; intros sC sC' dsC sV sV' out HC HV Hin Hg Hs Hq;
    apply process_days_run in HC; apply process_days_run in HV.
  - inversion HV; subst. exact I.
  - inversion HC as [|? ? ? sC1 dC1 ? rC EC1 EC2]; subst. inversion HV as [|? ? ? sV1 d1 ? rV EV1 EV2]; subst.
    apply process_days_run in EC2. apply process_days_run in EV2.
    unfold MarkToMarketSpec.days_postings in Hin. cbn [map concat] in Hin. apply Forall_app in Hin. destruct Hin as [Hd Hr].
    destruct (check_day_checked _ _ _ _ _ EC1) as [C1 C2].
    destruct (check_day_good _ _ _ _ _ EC1 (in_ok_acc_ok _ Hd) Hg) as [G1 D1].
    pose proof (process_days_one _ _ _ _ _ EV1) as EV1'.
    assert (Hd' : Forall posting_in_ok (vposts [d])).
    { unfold MarkToMarketSpec.days_postings. cbn [map concat]. rewrite app_nil_r. exact Hd. }
    pose proof (day_entries_ok v _ _ _ _ EV1 Hd Hs) as Hs1.
    pose proof (valuate_stage_step _ _ _ _ _ EV1') as St. inversion St as [|? ? ? ? (_ & So & Sc & _) _]; subst.
    assert (Ho : opens_after (ck_open sC) d1 = opens_after (ck_open sC) d) by (unfold opens_after; rewrite So; reflexivity).
    assert (Hcl : closes_after (opens_after (ck_open sC) d1) d1 = closes_after (opens_after (ck_open sC) d) d)
      by (rewrite Ho; unfold closes_after; rewrite Sc; reflexivity).
    cbn [days_AL_checked]. rewrite Hcl, Ho. split.
    + destruct (valuate_day_inv _ _ _ _ _ EV1) as (ts & s2 & txns' & Eadj & Efold & _ & Etx & _).
      rewrite Etx. pose proof (val_fold_txns_sim _ _ _ _ _ Efold) as Sim.
      refine (Forall2_Forall_r txn_sim (txn_AL_open (opens_after (ck_open sC) d)) _ _ _ _ Sim _).
      * intros x y Hxy Hx. eapply txn_AL_open_sim; eauto.
      * apply Forall_app. split.
        -- eapply Forall_impl; [|exact C1]. intros t. apply txn_open_AL.
        -- pose proof (adjustments_AL_open _ _ _ _ sC _ _ Eadj Hs Hg Hq) as A.
           eapply Forall_impl; [|exact A]. intros t. unfold txn_AL_open. apply Forall_impl.
           intros p Hp HAL. apply opens_after_mono. exact (Hp HAL).
    + rewrite <- C2. apply (IH _ _ _ _ _ _ EC2 EV2 Hr G1 Hs1).
      intros a c Ha HAL Hcv. rewrite (D1 a c Ha HAL), (Hq a c Ha HAL Hcv).
      destruct (mtm_delta v a c [d] sV sV1 [d1] Ha HAL Hcv Hd' (proj1 (entries_ok_good a c _) Hs) EV1') as (_ & _ & B3 & _).
      rewrite B3. unfold MarkToMarketSpec.days_postings. cbn [map concat]. rewrite app_nil_r. reflexivity.
Qed.

Lemma transcode_days_AL_checked l v sds dl days :
  parse_directives sds = MOk dl -> postings_syntactic dl ->
  transcode_days l v sds = COk days -> days_AL_checked [] days.
Proof.
  intros Hl Hsyn H.
  destruct (transcode_days_inv _ _ _ _ H) as (dl' & d1 & d2 & d3 & s1 & s2 & s3 & s4 & E0 & E1 & E2 & E3 & E4).
  assert (dl' = dl) by congruence. subst dl'.
  apply sort_stage_spec in E1. subst d1. pose proof (check_stage_id _ _ _ _ _ E3) as Eid. subst d3.
  pose proof (sorted_in_ok sds dl Hl Hsyn) as Hin. rewrite <- (cp_days_postings _ _ _ _ _ E2) in Hin.
  apply (joint_days l v d2 check_init s3 d2 (mkVal None None []) s4 days E3 E4 Hin ck_good_init entries_ok_nil).
  intros a c _ _ _. cbn [check_init ck_qty v_qty]. reflexivity.
Qed.

Definition entry_AL_ok (x : bstate * bentry) : Prop :=
  match snd x with
  | BTxn t => Forall (fun p => is_AL (p_acc p) = true ->
                               mem (acc_name (p_acc p)) (map fst (st_open (fst x))) = true) (t_postings t)
  | _ => True
  end.

Definition not_btxn (e : bentry) : Prop := match e with BTxn _ => False | _ => True end.

Lemma scan_not_txn v es : Forall not_btxn es -> forall st, Forall entry_AL_ok (bscan v st es).
Proof.
  induction 1 as [|e es He _ IH]; intros st; cbn [bscan]; constructor; [|apply IH].
  unfold entry_AL_ok. cbn [snd]. destruct e; [exact I|exact I|contradiction].
Qed.

Lemma scan_txns_AL v o ts : forall st, covers o (st_open st) ->
  Forall (txn_AL_open o) ts ->
  Forall entry_AL_ok (bscan v st (map BTxn ts)).
Proof.
  induction ts as [|t ts IH]; intros st Hc Hts; cbn [map bscan]; [constructor|].
  inversion Hts as [|? ? Ht Hrest]; subst. constructor.
  - unfold entry_AL_ok. cbn [snd fst]. unfold txn_AL_open in Ht. eapply Forall_impl; [|exact Ht].
    intros p Hp HAL. apply Hc. exact (Hp HAL).
  - apply IH; [|exact Hrest]. cbn [erase_entry next_state]. exact Hc.
Qed.

Lemma scan_entries_AL v days : forall seen o st,
  days_AL_checked o days -> covers o (st_open st) ->
  Forall entry_AL_ok (bscan v st (transcode_entries days seen)).
Proof.
  induction days as [|d days IH]; intros seen o st Hd Hc; cbn [transcode_entries]; [constructor|].
  cbn [days_AL_checked] in Hd. destruct Hd as [Hd1 Hd2].
  unfold transcode_day.
  pose proof (val_opens_txns_opens (sort_by txn_ltb (d_txns d)) seen) as Hvo.
  destruct (val_opens_txns (sort_by txn_ltb (d_txns d)) seen) as [vo seen'].
  cbn [fst] in Hvo.
  set (E1 := map (BOpen (d_date d)) (d_opens d)).
  set (E3 := map BTxn (sort_by txn_ltb (d_txns d))).
  set (E4 := map (BClose (d_date d)) (d_closes d)).
  destruct (scan_opens no_extra v (d_date d) (d_opens d) o st Hc) as [_ A2]. fold E1 in A2.
  destruct (scan_more_opens no_extra v vo Hvo _ _ A2) as [_ B2].
  assert (Hts : Forall (txn_AL_open (opens_after o d)) (sort_by txn_ltb (d_txns d))).
  { eapply Permutation_Forall; [symmetry; apply sort_by_perm|exact Hd1]. }
  pose proof (scan_txns_AL v _ _ _ B2 Hts) as C1. fold E3 in C1.
  assert (C2 : st_open (bfold v (bfold v (bfold v st E1) vo) E3) = st_open (bfold v (bfold v st E1) vo)).
  { unfold E3. generalize (bfold v (bfold v st E1) vo). generalize (sort_by txn_ltb (d_txns d)).
    induction l as [|t ts IHt]; intros st0; [reflexivity|]. cbn [map]. unfold bfold in *. cbn [erase_entries map fold_left].
    rewrite IHt. reflexivity. }
  assert (C3 : covers (opens_after o d) (st_open (bfold v (bfold v (bfold v st E1) vo) E3))) by (rewrite C2; exact B2).
  destruct (scan_closes no_extra v (d_date d) (d_closes d) _ _ C3) as [_ D2]. fold E4 in D2.
  rewrite <- !app_assoc. rewrite !bscan_app.
  repeat (apply Forall_app; split).
  - apply scan_not_txn. unfold E1. apply Forall_forall. intros e He. apply in_map_iff in He. destruct He as (x & <- & _). exact I.
  - apply scan_not_txn. eapply Forall_impl; [|exact Hvo]. intros e He. destruct e; [exact I|contradiction|contradiction].
  - exact C1.
  - apply scan_not_txn. unfold E4. apply Forall_forall. intros e He. apply in_map_iff in He. destruct He as (x & <- & _). exact I.
  - eapply IH; [exact Hd2|exact D2].
Qed.

(* every posting on an asset/liability account -- of a user transaction or of a value adjustment --
   goes to an account with an open directive in force at that point of the ledger *)
Theorem transcode_AL_open_before_use l v sds dl days pre t post :
  parse_directives sds = MOk dl -> postings_syntactic dl ->
  transcode_days l v sds = COk days ->
  transcode_entries days [] = pre ++ BTxn t :: post ->
  Forall (fun p => is_AL (p_acc p) = true ->
                   mem (acc_name (p_acc p)) (map fst (st_open (state_after (erase_entries v pre)))) = true)
         (t_postings t).
Proof.
  intros Hl Hsyn H Hsplit. pose proof (transcode_days_AL_checked _ _ _ _ _ Hl Hsyn H) as Hc.
  assert (Hcov : covers [] (st_open bst_init)) by (intros a Ha; discriminate).
  pose proof (scan_entries_AL v days [] [] bst_init Hc Hcov) as Hs.
  rewrite Hsplit in Hs. rewrite Forall_forall in Hs.
  exact (Hs _ (bscan_split v pre (BTxn t) post bst_init)).
Qed.
