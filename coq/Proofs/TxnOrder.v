(* C09 (c): transaction.Compare is a total preorder, so journal.Print's sort is
   idempotent.  [good_cmp c]: c a a = Eq, c b a = CompOpp (c a b), Lt is transitive, and elements
   that compare Eq compare alike with everything.  Closed under lexicographic products
   ([cmp_then]), projections and the list order of postings_cmp; holds of Z.compare, str_cmp,
   account.Compare and Decimal.Cmp (the comparison of the VALUES, [dec_cmp_value]).  Hence
   [txn_ltb] satisfies the hypotheses of Proofs/StableSort.v and
   [sort_days (sort_days days) = sort_days days]. *)
From Coq Require Import ZArith QArith List Bool Lia.
From Knut Require Import Model.Str Model.Dec Model.Date Model.Account Model.Ledger Model.Journal Model.Pipeline
     Model.JPrinter.
From Knut Require Import Proofs.DecProofs Proofs.DecEqProofs Proofs.DecValue Proofs.CheckLemmas Proofs.StableSort.
Import ListNotations.
Open Scope bool_scope.
Open Scope Z_scope.

Record good_cmp {A} (c : A -> A -> comparison) : Prop := mkGood {
  gc_refl : forall a, c a a = Eq;
  gc_anti : forall a b, c b a = CompOpp (c a b);
  gc_trans : forall a b x, c a b = Lt -> c b x = Lt -> c a x = Lt;
  gc_eq_l : forall a b x, c a b = Eq -> c a x = c b x }.

Lemma gc_eq_r {A} (c : A -> A -> comparison) : good_cmp c -> forall a b x, c a b = Eq -> c x a = c x b.
Proof. intros G a b x H. rewrite (gc_anti c G a x), (gc_anti c G b x), (gc_eq_l c G a b x H). reflexivity. Qed.

Definition ltb_of {A} (c : A -> A -> comparison) (a b : A) : bool := match c a b with Lt => true | _ => false end.

Section LtOfGood.
  Context {A : Type} (c : A -> A -> comparison) (G : good_cmp c).

  Lemma ltb_of_irrefl a : ltb_of c a a = false.
  Proof. unfold ltb_of. now rewrite (gc_refl c G). Qed.

  Lemma ltb_of_trans a b x : ltb_of c a b = true -> ltb_of c b x = true -> ltb_of c a x = true.
  Proof.
    unfold ltb_of. destruct (c a b) eqn:E1; try discriminate. destruct (c b x) eqn:E2; try discriminate.
    intros _ _. now rewrite (gc_trans c G a b x E1 E2).
  Qed.

  Lemma ltb_of_cotrans a b x : ltb_of c a b = true -> ltb_of c a x = true \/ ltb_of c x b = true.
  Proof.
    unfold ltb_of. destruct (c a b) eqn:E1; try discriminate. intros _.
    destruct (c a x) eqn:E2; [right|left; reflexivity|right].
    - rewrite <- (gc_eq_l c G a x b E2), E1. reflexivity.
    - assert (E3 : c x a = Lt) by (rewrite (gc_anti c G a x), E2; reflexivity).
      now rewrite (gc_trans c G x a b E3 E1).
  Qed.
End LtOfGood.

Lemma good_then {A} (c1 c2 : A -> A -> comparison) :
  good_cmp c1 -> good_cmp c2 -> good_cmp (fun a b => cmp_then (c1 a b) (c2 a b)).
Proof.
  intros G1 G2. constructor.
  - intros a. now rewrite (gc_refl c1 G1), (gc_refl c2 G2).
  - intros a b. rewrite (gc_anti c1 G1 a b), (gc_anti c2 G2 a b). destruct (c1 a b), (c2 a b); reflexivity.
  - intros a b x H1 H2. unfold cmp_then in *.
    destruct (c1 a b) eqn:E1; try discriminate; destruct (c1 b x) eqn:E2; try discriminate.
    + rewrite (gc_eq_l c1 G1 a b x E1), E2. exact (gc_trans c2 G2 a b x H1 H2).
    + rewrite (gc_eq_l c1 G1 a b x E1), E2. reflexivity.
    + rewrite <- (gc_eq_r c1 G1 b x a E2), E1. reflexivity.
    + now rewrite (gc_trans c1 G1 a b x E1 E2).
  - intros a b x H. unfold cmp_then in *. destruct (c1 a b) eqn:E1; try discriminate.
    rewrite (gc_eq_l c1 G1 a b x E1), (gc_eq_l c2 G2 a b x H). reflexivity.
Qed.

Lemma good_proj {A B} (f : A -> B) (c : B -> B -> comparison) : good_cmp c -> good_cmp (fun a b => c (f a) (f b)).
Proof.
  intros G. constructor; intros.
  - apply (gc_refl c G).
  - apply (gc_anti c G).
  - eapply (gc_trans c G); eassumption.
  - now apply (gc_eq_l c G).
Qed.

Lemma good_ext {A} (c c' : A -> A -> comparison) : (forall a b, c a b = c' a b) -> good_cmp c -> good_cmp c'.
Proof.
  intros E G. constructor; intros; rewrite <- ?E in *.
  - apply (gc_refl c G).
  - apply (gc_anti c G).
  - eapply (gc_trans c G); eassumption.
  - now apply (gc_eq_l c G).
Qed.

Lemma good_Z : good_cmp Z.compare.
Proof.
  constructor.
  - apply Z.compare_refl.
  - intros a b. apply Z.compare_antisym.
  - intros a b x. rewrite !Z.compare_lt_iff. lia.
  - intros a b x H. apply Z.compare_eq in H. now subst.
Qed.

Lemma good_str : good_cmp str_cmp.
Proof.
  constructor.
  - apply str_cmp_refl.
  - intros a b. apply str_cmp_antisym.
  - apply str_cmp_lt_trans.
  - intros a b x H. apply str_cmp_eq in H. now subst.
Qed.

Lemma acc_cmp_lex a b :
  acc_cmp a b = cmp_then (acc_rank a ?= acc_rank b) (str_cmp (acc_name a) (acc_name b)).
Proof.
  unfold acc_cmp, acc_ltb, str_ltb.
  rewrite (str_cmp_antisym (acc_name a) (acc_name b)).
  destruct (Z.compare_spec (acc_rank a) (acc_rank b)) as [E|E|E]; cbn [cmp_then].
  - rewrite E, Z.ltb_irrefl. destruct (str_cmp (acc_name a) (acc_name b)); reflexivity.
  - replace (acc_rank a <? acc_rank b) with true by lia. reflexivity.
  - replace (acc_rank a <? acc_rank b) with false by lia. replace (acc_rank b <? acc_rank a) with true by lia. reflexivity.
Qed.

Lemma good_acc : good_cmp acc_cmp.
Proof.
  apply (good_ext (fun a b => cmp_then (acc_rank a ?= acc_rank b) (str_cmp (acc_name a) (acc_name b)))).
  - intros a b. symmetry. apply acc_cmp_lex.
  - apply good_then; [apply (good_proj acc_rank), good_Z|apply (good_proj acc_name), good_str].
Qed.

(* Decimal.Cmp compares the values *)
Lemma dec_cmp_value a b : dec_cmp a b = (dvalue a ?= dvalue b)%Q.
Proof.
  unfold dec_cmp, cmp. rewrite rescale_pair_normal. cbn [coef].
  set (m := Z.min (ex a) (ex b)).
  pose proof (scale_to_value a m ltac:(unfold m; lia)) as Ha.
  pose proof (scale_to_value b m ltac:(unfold m; lia)) as Hb.
  pose proof (Qpower_ten_pos m) as Hp.
  rewrite <- Ha, <- Hb.
  destruct (Z.compare_spec (scale_to a m) (scale_to b m)) as [E|E|E]; symmetry.
  - apply Qeq_alt. rewrite E. reflexivity.
  - apply Qlt_alt. apply Qmult_lt_r; [exact Hp|]. rewrite <- Zlt_Qlt. exact E.
  - apply Qgt_alt. apply Qmult_lt_r; [exact Hp|]. rewrite <- Zlt_Qlt. exact E.
Qed.

Lemma good_dec : good_cmp dec_cmp.
Proof.
  apply (good_ext (fun a b => (dvalue a ?= dvalue b)%Q)); [intros a b; symmetry; apply dec_cmp_value|].
  constructor.
  - intros a. apply Qeq_alt. reflexivity.
  - intros a b. symmetry. apply Qcompare_antisym.
  - intros a b x H1 H2. apply Qlt_alt in H1, H2. apply Qlt_alt. eapply Qlt_trans; eassumption.
  - intros a b x H. apply Qeq_alt in H. rewrite H. reflexivity.
Qed.

(* value-equal decimals compare alike *)
Lemma dec_cmp_eqv_l a a' b : dec_equal a a' = true -> dec_cmp a b = dec_cmp a' b.
Proof. intros H. apply dec_equal_value in H. rewrite !dec_cmp_value, H. reflexivity. Qed.

Lemma dec_cmp_eqv_r a b b' : dec_equal b b' = true -> dec_cmp a b = dec_cmp a b'.
Proof. intros H. apply dec_equal_value in H. rewrite !dec_cmp_value, H. reflexivity. Qed.

Lemma good_posting : good_cmp posting_cmp.
Proof.
  unfold posting_cmp.
  apply good_then; [apply (good_proj p_acc), good_acc|].
  apply good_then; [apply (good_proj p_other), good_acc|].
  apply good_then; [apply (good_proj p_qty), good_dec|].
  apply good_then; [apply (good_proj p_val), good_dec|].
  apply (good_proj p_com), good_str.
Qed.

Lemma good_postings : good_cmp postings_cmp.
Proof.
  pose proof good_posting as G. constructor.
  - induction a as [|p a IH]; cbn [postings_cmp]; [reflexivity|]. now rewrite (gc_refl _ G), IH.
  - induction a as [|p a IH]; intros [|q b]; cbn [postings_cmp]; try reflexivity.
    rewrite (gc_anti _ G p q), IH. destruct (posting_cmp p q), (postings_cmp a b); reflexivity.
  - induction a as [|p a IH]; intros [|q b] [|r x]; cbn [postings_cmp]; intros H1 H2; try reflexivity; try discriminate.
    unfold cmp_then in *.
    destruct (posting_cmp p q) eqn:E1; try discriminate; destruct (posting_cmp q r) eqn:E2; try discriminate.
    + rewrite (gc_eq_l _ G p q r E1), E2. exact (IH b x H1 H2).
    + rewrite (gc_eq_l _ G p q r E1), E2. reflexivity.
    + rewrite <- (gc_eq_r _ G q r p E2), E1. reflexivity.
    + now rewrite (gc_trans _ G p q r E1 E2).
  - induction a as [|p a IH]; intros [|q b] x H; cbn [postings_cmp] in H; try discriminate; [reflexivity|].
    unfold cmp_then in H. destruct (posting_cmp p q) eqn:E1; try discriminate.
    destruct x as [|r x]; cbn [postings_cmp]; [reflexivity|].
    rewrite (gc_eq_l _ G p q r E1), (IH b x H). reflexivity.
Qed.

Lemma good_txn : good_cmp txn_cmp.
Proof.
  unfold txn_cmp.
  apply good_then; [apply (good_proj t_date), good_Z|].
  apply good_then; [apply (good_proj t_desc), good_str|apply (good_proj t_postings), good_postings].
Qed.

Lemma txn_ltb_of : forall t u, txn_ltb t u = ltb_of txn_cmp t u.
Proof. reflexivity. Qed.

Lemma txn_ltb_irrefl a : txn_ltb a a = false.
Proof. apply (ltb_of_irrefl txn_cmp good_txn). Qed.
Lemma txn_ltb_trans a b c : txn_ltb a b = true -> txn_ltb b c = true -> txn_ltb a c = true.
Proof. apply (ltb_of_trans txn_cmp good_txn). Qed.
Lemma txn_ltb_cotrans a b c : txn_ltb a b = true -> txn_ltb a c = true \/ txn_ltb c b = true.
Proof. apply (ltb_of_cotrans txn_cmp good_txn). Qed.

Theorem sort_txns_idem l : sort_by txn_ltb (sort_by txn_ltb l) = sort_by txn_ltb l.
Proof. apply (sort_by_idem txn_ltb txn_ltb_irrefl txn_ltb_trans txn_ltb_cotrans). Qed.

Theorem sort_days_idem days : sort_days (sort_days days) = sort_days days.
Proof.
  unfold sort_days. rewrite map_map. apply map_ext. intros d.
  unfold set_txns. cbn [d_date d_prices d_opens d_txns d_asserts d_closes d_normalized].
  now rewrite sort_txns_idem.
Qed.
