(* C03: facts about the Valuate processor (Model/Pipeline.v). *)
From Coq Require Import ZArith QArith List Bool Lia.
From Knut Require Import Model.Str Model.Dec Model.Date Model.Account Model.Ledger Model.Price
     Model.Journal Model.Check Model.Pipeline
     Proofs.DecProofs Proofs.DecValue Proofs.StrProofs Proofs.PairProofs.
Import ListNotations.
Open Scope Q_scope.

(* days i = 1..n with price p_i and net quantity q_i booked that day; Q_i = q_1 + ... + q_i.
   booking values p_i*q_i plus revaluations (p_i - p_{i-1})*Q_{i-1} telescope to p_n*Q_n. *)
Fixpoint abel_sum (l : list (Q * Q)) (p_prev Q_prev : Q) : Q :=
  match l with
  | [] => 0
  | (p, q) :: rest => p * q + (p - p_prev) * Q_prev + abel_sum rest p (Q_prev + q)
  end.

Fixpoint last_price (l : list (Q * Q)) (p_prev : Q) : Q :=
  match l with [] => p_prev | (p, _) :: rest => last_price rest p end.

Fixpoint total_qty (l : list (Q * Q)) (Q_prev : Q) : Q :=
  match l with [] => Q_prev | (_, q) :: rest => total_qty rest (Q_prev + q) end.

Lemma abel l : forall p0 Q0,
  abel_sum l p0 Q0 == last_price l p0 * total_qty l Q0 - p0 * Q0.
Proof.
  induction l as [|[p q] l IH]; intros p0 Q0; cbn [abel_sum last_price total_qty]; [ring|].
  rewrite IH. ring.
Qed.


Lemma multiply_value_exact a b : (- 8 <= ex a + ex b)%Z -> dvalue (multiply a b) == dvalue a * dvalue b.
Proof.
  intros H. unfold multiply, truncate. cbn [mul ex].
  match goal with |- context [if ?c then _ else _] => destruct c eqn:E end; [|apply dvalue_mul].
  apply andb_true_iff in E. destruct E as [_ E]. apply Z.ltb_lt in E. lia.
Qed.


(* income, expense and equity bookings (and all others) carry the value at the price of their
   booking day: value = truncate8 (quantity * price of that day); bookings in V carry their
   quantity; nothing is ever revalued afterwards by this callback *)
Lemma val_posting_value v s t p s' p' :
  val_posting v s t p = ROk (s', p') ->
  p_acc p' = p_acc p /\ p_other p' = p_other p /\ p_com p' = p_com p /\ p_qty p' = p_qty p /\
  (is_zero (p_qty p) = true -> p_val p' = p_val p) /\
  (is_zero (p_qty p) = false -> str_eqb v (p_com p) = true -> p_val p' = p_qty p) /\
  (is_zero (p_qty p) = false -> str_eqb v (p_com p) = false ->
     exists np pr, v_cur s = Some np /\ np_price np (p_com p) = Some pr /\ p_val p' = multiply (p_qty p) pr).
Proof.
  unfold val_posting. intros H.
  destruct (is_zero (p_qty p)) eqn:Ez.
  - inversion H; subst. repeat split; try reflexivity; intros; discriminate.
  - destruct (str_eqb v (p_com p)) eqn:Ev.
    + inversion H; subst. cbn. repeat split; try reflexivity; intros; discriminate.
    + destruct (v_cur s) as [np|]; try discriminate. unfold np_valuate in H.
      destruct (sm_get np (p_com p)) as [pr|] eqn:Ep; try discriminate.
      inversion H; subst. cbn. repeat split; try reflexivity; try (intros; discriminate).
      intros _ _. exists np, pr. repeat split; try reflexivity. exact Ep.
Qed.

(* the revaluation transactions of a day: for each held position whose price changed, the gain
   truncate8 ((cur - prev) * quantity) is booked between the account and the income account
   that mirrors its path; the quantity of the booking is zero *)
Lemma val_adjustments_shape v date prev cur pos ts :
  val_adjustments v date prev cur pos = ROk ts ->
  Forall (fun t => t_date t = date /\
                   exists k0 a c q pp cp, In (k0, (a, c, q)) pos /\
                     np_price_opt prev c = Some pp /\ np_price_opt cur c = Some cp /\
                     t_postings t = pair_build (valuation_account_for a) a c dec_nil (multiply (sub cp pp) q)) ts.
Proof.
  revert ts. induction pos as [|[k [[a c] q]] rest IH]; intros ts H; cbn [val_adjustments] in H.
  - inversion H. constructor.
  - assert (Hrest : forall ts', val_adjustments v date prev cur rest = ROk ts' ->
        Forall (fun t => t_date t = date /\
                   exists k0 a0 c0 q0 pp cp, In (k0, (a0, c0, q0)) ((k, (a, c, q)) :: rest) /\
                     np_price_opt prev c0 = Some pp /\ np_price_opt cur c0 = Some cp /\
                     t_postings t = pair_build (valuation_account_for a0) a0 c0 dec_nil (multiply (sub cp pp) q0)) ts').
    { intros ts' H'. eapply Forall_impl; [|apply IH; exact H'].
      intros t (Hd & k0 & a0 & c0 & q0 & pp & cp & Hin & Hx). split; [exact Hd|].
      exists k0, a0, c0, q0, pp, cp. split; [right; exact Hin|exact Hx]. }
    destruct (str_eqb c v || negb (is_AL a) || is_zero q); [apply Hrest; exact H|].
    destruct (np_price_opt prev c) as [pp|] eqn:Epp; try discriminate.
    destruct (np_price_opt cur c) as [cp|] eqn:Ecp; try discriminate.
    destruct (is_zero (sub cp pp)); [apply Hrest; exact H|].
    destruct (val_adjustments v date prev cur rest) as [ts'| |] eqn:E; try discriminate. cbn [rbind] in H.
    inversion H. constructor; [|apply Hrest; reflexivity].
    cbn [t_date t_postings]. split; [reflexivity|].
    exists k, a, c, q, pp, cp. split; [left; reflexivity|]. split; [exact Epp|split; [exact Ecp|reflexivity]].
Qed.
