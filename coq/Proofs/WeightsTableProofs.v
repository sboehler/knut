(* Layout of the text renderer over tables with percent cells (Model/WeightsTable.v): a table
   whose cells all fill their column (Spec.WeightsTableSpec.wtable_fits_b) is rendered
   rectangular; the weights report builds well-formed tables whose date columns are at least
   ten runes wide.  The line-level lemmas (aligned, sep_pos, table_lines_concat,
   rect_of_aligned, widened_widths_ge) are those of Proofs/TableProofs.v. *)
From Coq Require Import ZArith List Bool Lia Arith.
From Knut Require Import Model.Str Model.Dec Model.Date Model.Table Model.Report Model.F64 Model.Weights Model.WeightsTable
     Spec.TableSpec Spec.WeightsTableSpec Spec.BeancountLex
     Proofs.DecStringProofs Proofs.TableProofs Proofs.NumberProofs Proofs.BeancountRead.
Import ListNotations.
Open Scope bool_scope.
Open Scope Z_scope.

Lemma f64_switch_nan n : f64_is_nan n = true -> f64_ltz n = false /\ f64_gtz n = false /\ f64_eqz n = false.
Proof. destruct n; cbn; intros H; try discriminate H; repeat split. Qed.

Lemma f64_switch_number n : f64_is_nan n = false -> f64_ltz n || f64_gtz n || f64_eqz n = true.
Proof.
  destruct n as [|s|s m e]; cbn; intros H; try discriminate H.
  - destruct s; reflexivity.
  - destruct s; cbn; destruct (0 <? m) eqn:E1; destruct (m <=? 0) eqn:E2; try reflexivity; lia.
Qed.

(* the cell of a number: the switch takes one of its three cases, which write the same *)
Lemma wrender_pct_number round n l : f64_is_nan n = false -> wrender_cell round (WPct n) l = pct_text round n l.
Proof.
  intros H. pose proof (f64_switch_number n H) as Hs. cbn [wrender_cell].
  destruct (f64_ltz n); [reflexivity|]. destruct (f64_gtz n); [reflexivity|].
  destruct (f64_eqz n); [reflexivity|]. discriminate Hs.
Qed.

(* the cell of a NaN: nothing *)
Lemma wrender_pct_nan round n l : f64_is_nan n = true -> wrender_cell round (WPct n) l = [].
Proof.
  intros H. destruct (f64_switch_nan n H) as (H1 & H2 & H3). cbn [wrender_cell]. rewrite H1, H2, H3. reflexivity.
Qed.

Theorem wrender_cell_width round c l :
  pcell_indent_ok c -> wmin_length round c <= l -> pcell_fits_b round c l = true ->
  rune_count (wrender_cell round c l) = l.
Proof.
  intros Hi Hl Hf. destruct c as [b|n].
  - cbn [wrender_cell]. apply render_cell_width; assumption.
  - cbn [pcell_fits_b] in Hf. destruct (f64_is_nan n) eqn:En.
    + rewrite wrender_pct_nan by exact En. apply Z.eqb_eq in Hf. subst l. reflexivity.
    + rewrite wrender_pct_number by exact En.
      apply andb_prop in Hf. destruct Hf as [Hr Hp]. apply Z.leb_le in Hp.
      unfold pct_text. destruct (pct_badprec round); [discriminate Hr|]. cbn [app].
      unfold pct_len in Hp. rewrite rune_count_app, pad_left_width by lia.
      change (rune_count [37]) with 1. lia.
Qed.

(* a percent cell that does not fit is rendered to another number of runes *)
Theorem wrender_cell_misfit round n l :
  pcell_fits_b round (WPct n) l = false -> rune_count (wrender_cell round (WPct n) l) <> l.
Proof.
  intros Hf. cbn [pcell_fits_b] in Hf. destruct (f64_is_nan n) eqn:En.
  - rewrite wrender_pct_nan by exact En. apply Z.eqb_neq in Hf. cbn. lia.
  - rewrite wrender_pct_number by exact En. unfold pct_text, pct_len in *.
    rewrite !rune_count_app. change (rune_count [37]) with 1.
    pose proof (rune_count_nonneg (pct_num round n)) as Hn.
    unfold pad_left. rewrite rune_count_app. unfold spaces. rewrite rune_count_repeat_z_any by reflexivity.
    destruct (pct_badprec round) eqn:Er.
    + change (rune_count s_badprec) with 11. lia.
    + change (rune_count []) with 0.
      apply andb_false_iff in Hf. destruct Hf as [Hf|Hf]; [discriminate Hf|]. apply Z.leb_gt in Hf. lia.
Qed.

Definition wrows_full (t : wtable) : Prop := Forall (fun r => length r = wt_width t) (wt_rows t).

Lemma wtable_wf_full t : wtable_wf t -> wrows_full t.
Proof. intros [_ Hrows]. eapply Forall_impl; [|exact Hrows]. intros r [H _]. exact H. Qed.

Theorem w_col_widths_ge round t :
  wrows_full t ->
  length (w_final_widths round t) = wt_width t /\
  Forall (fun r => Forall2 (fun c w => wmin_length round c <= w) r (w_final_widths round t)) (wt_rows t).
Proof. exact (widened_widths_ge (wmin_length round) (wt_rows t) (wt_columns t) (wt_width t)). Qed.

Lemma wcreate_sep_shape c1 c2 :
  exists a m b, wcreate_sep c1 c2 = [a; m; b] /\ is_sepchar m = true /\
                (a = 32 \/ a = 45) /\ (b = 32 \/ b = 45).
Proof.
  unfold wcreate_sep. destruct (wis_sep c1), (wis_sep c2); do 3 eexists; (split; [reflexivity|]);
    repeat split; auto.
Qed.

Lemma wrender_cells_cons2 round c c2 rest w ws :
  wrender_cells round (c :: c2 :: rest) (w :: ws) =
  wrender_cell round c w ++ wcreate_sep c c2 ++ wrender_cells round (c2 :: rest) ws.
Proof. reflexivity. Qed.

Lemma wrender_cells_aligned round cs ws :
  Forall2 (fun c w => rune_count (wrender_cell round c w) = w) cs ws -> cs <> [] ->
  forall s x y s', is_sepchar s = true -> is_sepchar s' = true ->
  aligned (widths_nat ws) (s :: x :: rune_starts (wrender_cells round cs ws) ++ [y; s']).
Proof.
  intros H. induction H as [|c w cs ws Hcw Hrest IH]; intros Hne s x y s' Hs Hs'; [congruence|].
  destruct cs as [|c2 cs'].
  - inversion Hrest; subst. cbn [wrender_cells widths_nat map].
    replace (s :: x :: rune_starts (wrender_cell round c w) ++ [y; s'])
      with (s :: (x :: rune_starts (wrender_cell round c w) ++ [y]) ++ [s'])
      by (cbn [app]; rewrite <- app_assoc; reflexivity).
    constructor; [exact Hs| |constructor; exact Hs'].
    cbn [length]. rewrite app_length. cbn [length].
    rewrite rune_count_starts in Hcw. lia.
  - rewrite wrender_cells_cons2. cbn [widths_nat map].
    destruct (wcreate_sep_shape c c2) as [a [m [b [Esep [Hm [Ha Hb]]]]]]. rewrite Esep.
    rewrite !rune_starts_app.
    assert (Eabm : rune_starts [a; m; b] = [a; m; b])
      by (rewrite <- Esep; unfold wcreate_sep; destruct (wis_sep c), (wis_sep c2); reflexivity).
    rewrite Eabm.
    replace (s :: x :: (rune_starts (wrender_cell round c w) ++ [a; m; b] ++ rune_starts (wrender_cells round (c2 :: cs') ws)) ++ [y; s'])
      with (s :: (x :: rune_starts (wrender_cell round c w) ++ [a]) ++
              (m :: b :: rune_starts (wrender_cells round (c2 :: cs') ws) ++ [y; s'])).
    2:{ cbn [app]. rewrite <- !app_assoc. cbn [app]. reflexivity. }
    constructor; [exact Hs| |].
    + cbn [length]. rewrite app_length. cbn [length]. rewrite rune_count_starts in Hcw. lia.
    + apply (IH ltac:(discriminate) m b y s' Hm Hs').
Qed.

(* the line of a row: wrender_row without its final newline *)
Definition wrow_line (round : Z) (ws : list Z) (row : list pcell) : str :=
  match row with
  | [] => []
  | c0 :: _ =>
    (if wis_sep c0 then [43;45] else [124;32]) ++ wrender_cells round row ws ++
    (if wis_sep (last row (WBase CEmpty)) then [45;43] else [32;124])
  end.

Lemma wrender_row_line round ws row : row <> [] -> wrender_row round ws row = wrow_line round ws row ++ [10].
Proof.
  intros H. destruct row as [|c0 row]; [congruence|].
  unfold wrender_row, wrow_line. rewrite <- !app_assoc.
  destruct (wis_sep (last (c0 :: row) (WBase CEmpty))); reflexivity.
Qed.

Theorem wrow_line_aligned round ws row :
  row <> [] ->
  Forall2 (fun c w => rune_count (wrender_cell round c w) = w) row ws ->
  aligned (widths_nat ws) (rune_starts (wrow_line round ws row)).
Proof.
  intros Hne H. destruct row as [|c0 row]; [congruence|].
  unfold wrow_line. rewrite !rune_starts_app.
  destruct (wis_sep c0); destruct (wis_sep (last (c0 :: row) (WBase CEmpty)));
    change (rune_starts [43;45]) with [43;45]; change (rune_starts [124;32]) with [124;32];
    change (rune_starts [45;43]) with [45;43]; change (rune_starts [32;124]) with [32;124];
    cbn [app]; apply (wrender_cells_aligned round (c0 :: row) ws H); try discriminate; reflexivity.
Qed.

(* a closed string is checked not to hold a byte by evaluation *)
Lemma not_in_forallb c s : forallb (fun x => negb (x =? c)) s = true -> ~ In c s.
Proof.
  intros H Hin. rewrite forallb_forall in H. specialize (H c Hin).
  rewrite Z.eqb_refl in H. discriminate H.
Qed.

Lemma fmt_f_no_nl p x : ~ In 10 (fmt_f p x).
Proof.
  destruct x as [|s|s m e]; cbn [fmt_f];
    [apply not_in_forallb; reflexivity|destruct s; apply not_in_forallb; reflexivity|].
  apply not_in_app; [destruct s; apply not_in_forallb; reflexivity|apply to_string_gen_no_nl].
Qed.

Lemma pct_text_no_nl round n l : ~ In 10 (pct_text round n l).
Proof.
  unfold pct_text, pad_left. apply not_in_app; [|apply not_in_app; [apply not_in_app|]].
  - destruct (pct_badprec round); apply not_in_forallb; reflexivity.
  - apply repeat_z_not_in. discriminate.
  - apply fmt_f_no_nl.
  - apply not_in_forallb. reflexivity.
Qed.

Lemma wrender_cell_no_nl round c l : pcell_no_nl c -> ~ In 10 (wrender_cell round c l).
Proof.
  intros Hc. destruct c as [b|n].
  - cbn [wrender_cell]. apply render_cell_no_nl; [apply num_str_no_nl|exact Hc].
  - cbn [wrender_cell].
    destruct (f64_ltz n); [apply pct_text_no_nl|]. destruct (f64_gtz n); [apply pct_text_no_nl|].
    destruct (f64_eqz n); [apply pct_text_no_nl|]. intros [].
Qed.

Lemma wcreate_sep_no_nl c c2 : ~ In 10 (wcreate_sep c c2).
Proof. unfold wcreate_sep. destruct (wis_sep c), (wis_sep c2); apply not_in_forallb; reflexivity. Qed.

Lemma wrender_cells_no_nl round cs ws : Forall pcell_no_nl cs -> ~ In 10 (wrender_cells round cs ws).
Proof.
  revert ws. induction cs as [|c cs IH]; intros ws H; [intros []|].
  inversion H as [|c' cs' Hc Hcs]; subst.
  destruct cs as [|c2 cs'].
  - destruct ws; cbn [wrender_cells]; [intros []|apply wrender_cell_no_nl; exact Hc].
  - destruct ws as [|w ws]; cbn [wrender_cells]; [intros []|].
    apply not_in_app; [apply wrender_cell_no_nl; exact Hc|].
    apply not_in_app; [apply wcreate_sep_no_nl|apply IH; exact Hcs].
Qed.

Lemma wrow_line_no_nl round ws row : Forall pcell_no_nl row -> ~ In 10 (wrow_line round ws row).
Proof.
  intros H. destruct row as [|c0 row]; [intros []|]. unfold wrow_line.
  apply not_in_app; [destruct (wis_sep c0); apply not_in_forallb; reflexivity|].
  apply not_in_app; [apply wrender_cells_no_nl; exact H|].
  destruct (wis_sep (last (c0 :: row) (WBase CEmpty))); apply not_in_forallb; reflexivity.
Qed.

Lemma forall2b_Forall2 {A B : Type} (f : A -> B -> bool) la lb :
  forall2b f la lb = true -> Forall2 (fun a b => f a b = true) la lb.
Proof.
  revert lb. induction la as [|a la IH]; intros [|b lb] H; cbn [forall2b] in H; try discriminate H.
  - constructor.
  - apply andb_prop in H. destruct H as [H1 H2]. constructor; [exact H1|apply IH; exact H2].
Qed.

Theorem wrender_text_lines round t :
  wtable_wf t ->
  wrender_text round t =
    concat (map (fun l => l ++ [10]) (map (wrow_line round (w_final_widths round t)) (wt_rows t))) ++ [10].
Proof.
  intros [Hw Hrows]. unfold wrender_text. f_equal. f_equal. rewrite map_map. apply map_ext_in.
  intros r Hr. apply wrender_row_line. rewrite Forall_forall in Hrows.
  destruct (Hrows r Hr) as [Hl _]. intros ->. cbn in Hl. lia.
Qed.

(* every line of a table whose cells fit is aligned on the final widths *)
Theorem wlines_aligned round t :
  wtable_wf t -> wtable_fits_b round t = true ->
  Forall (fun l => aligned (widths_nat (w_final_widths round t)) (rune_starts l))
         (map (wrow_line round (w_final_widths round t)) (wt_rows t)).
Proof.
  intros Hwf Hfit. pose proof (wtable_wf_full t Hwf) as Hfull. destruct Hwf as [Hw Hrows].
  destruct (w_col_widths_ge round t Hfull) as [Hlen Hge].
  unfold wtable_fits_b in Hfit. cbv zeta in Hfit. rewrite forallb_forall in Hfit.
  apply Forall_forall. intros l Hl. apply in_map_iff in Hl. destruct Hl as [r [<- Hr]].
  rewrite Forall_forall in Hrows, Hge. destruct (Hrows r Hr) as [Hrl [Hind _]].
  apply wrow_line_aligned; [intros ->; cbn in Hrl; lia|].
  specialize (Hge r Hr). pose proof (forall2b_Forall2 _ _ _ (Hfit r Hr)) as Hf. clear - Hge Hind Hf.
  induction Hge as [|c w r ws Hcw Hrest IH]; [constructor|].
  inversion Hind as [|c' r' Hc Hr']; subst.
  inversion Hf as [|c'' w'' r'' ws'' Hcf Hrf]; subst.
  constructor; [apply wrender_cell_width; assumption|apply IH; assumption].
Qed.

Theorem wrender_text_rect round t :
  wtable_wf t -> wtable_fits_b round t = true -> rect_b (wt_width t) (wrender_text round t) = true.
Proof.
  intros Hwf Hfit. rewrite (wrender_text_lines round t Hwf).
  pose proof (wlines_aligned round t Hwf Hfit) as Hal.
  pose proof (wtable_wf_full t Hwf) as Hfull. destruct Hwf as [Hw Hrows].
  destruct (w_col_widths_ge round t Hfull) as [Hlen _].
  replace (wt_width t) with (length (widths_nat (w_final_widths round t)))
    by (unfold widths_nat; rewrite map_length; exact Hlen).
  apply rect_of_aligned; [|exact Hal].
  apply Forall_forall. intros l Hl. apply in_map_iff in Hl. destruct Hl as [r [<- Hr]].
  apply wrow_line_no_nl. rewrite Forall_forall in Hrows. apply (Hrows r Hr).
Qed.

(* on a table of Model/Table.v the renderer of this file is TextRenderer of Model/Table.v *)
Lemma w_col_widths_base round t : w_col_widths round (wtable_of_table t) = col_widths (wcfg round) t.
Proof.
  unfold w_col_widths, col_widths, wtable_of_table, wt_width, t_width. cbn [wt_rows wt_columns].
  generalize (repeat 0 (length (t_columns t))). induction (t_rows t) as [|r rows IH]; intros ws0; [reflexivity|].
  cbn [map fold_left]. rewrite map_map. apply IH.
Qed.

Lemma wrender_cells_base round row ws : wrender_cells round (map WBase row) ws = render_cells (wcfg round) row ws.
Proof.
  revert ws. induction row as [|c row IH]; intros ws; [reflexivity|].
  destruct row as [|c2 row']; destruct ws as [|w ws']; try reflexivity.
  change (map WBase (c :: c2 :: row')) with (WBase c :: WBase c2 :: map WBase row').
  rewrite wrender_cells_cons2, render_cells_cons2.
  change (WBase c2 :: map WBase row') with (map WBase (c2 :: row')). rewrite IH. reflexivity.
Qed.

Lemma last_map_base row : wis_sep (last (map WBase row) (WBase CEmpty)) = is_sep (last row CEmpty).
Proof.
  induction row as [|c row IH]; [reflexivity|]. destruct row as [|c2 row']; [reflexivity|].
  change (map WBase (c :: c2 :: row')) with (WBase c :: map WBase (c2 :: row')).
  change (last (c :: c2 :: row') CEmpty) with (last (c2 :: row') CEmpty).
  rewrite <- IH. reflexivity.
Qed.

Theorem wrender_text_base round t : wrender_text round (wtable_of_table t) = render_text (wcfg round) t.
Proof.
  unfold wrender_text, render_text, w_final_widths, final_widths. rewrite w_col_widths_base.
  cbn [wtable_of_table wt_rows wt_columns]. f_equal. f_equal. rewrite map_map. apply map_ext.
  intros row. destruct row as [|c0 row]; [reflexivity|].
  unfold wrender_row, render_row. change (map WBase (c0 :: row)) with (WBase c0 :: map WBase row).
  change (WBase c0 :: map WBase row) with (map WBase (c0 :: row)).
  rewrite wrender_cells_base, last_map_base. reflexivity.
Qed.

Lemma columns_of_weights n : length (columns_of [1; Z.of_nat n] 0) = S n.
Proof.
  cbn [columns_of]. rewrite !app_length, !repeat_length, Nat2Z.id. cbn. lia.
Qed.

Lemma weights_wtable_width dates rows : wt_width (weights_wtable dates rows) = S (length dates).
Proof. unfold weights_wtable, wt_width. cbn [wt_columns]. apply columns_of_weights. Qed.

Lemma rune_count_ascii s : Forall (fun c => c = 45 \/ 48 <= c <= 57) s -> rune_count s = Z.of_nat (length s).
Proof.
  intros H. unfold rune_count. f_equal. induction H as [|c s Hc Hs IH]; [reflexivity|].
  cbn [filter length].
  replace ((128 <=? c) && (c <? 192)) with false
    by (symmetry; apply andb_false_iff; left; apply Z.leb_gt; lia).
  cbn [negb length]. rewrite IH. reflexivity.
Qed.

Lemma format_date_runes d : date_lex_b d = true -> rune_count (format_date d) = 10.
Proof.
  intros Hd. rewrite (rune_count_ascii _ (format_date_chars d Hd)).
  unfold format_date. destruct (civil d) as [[y m] dd]. reflexivity.
Qed.

Lemma sep_row_props n :
  length (wsep_row n) = n /\ Forall pcell_indent_ok (wsep_row n) /\ Forall pcell_no_nl (wsep_row n).
Proof.
  unfold wsep_row. split; [apply repeat_length|].
  split; apply Forall_forall; intros c Hc; apply repeat_spec in Hc; subst c; exact I.
Qed.

Lemma header_props dates :
  Forall (fun d => date_lex_b d = true) dates ->
  length (weights_header dates) = S (length dates) /\
  Forall pcell_indent_ok (weights_header dates) /\ Forall pcell_no_nl (weights_header dates).
Proof.
  intros Hd. unfold weights_header. split; [cbn [length]; rewrite map_length; reflexivity|].
  split.
  - constructor; [cbn; lia|]. apply Forall_forall. intros c Hc. apply in_map_iff in Hc.
    destruct Hc as [d [<- _]]. cbn. lia.
  - constructor.
    + apply not_in_forallb. reflexivity.
    + apply Forall_forall. intros c Hc. apply in_map_iff in Hc. destruct Hc as [d [<- Hin]].
      cbn [pcell_no_nl cell_no_nl]. rewrite Forall_forall in Hd. apply format_date_no; [apply Hd; exact Hin|lia].
Qed.

Lemma body_row_props n r :
  frow_ok n r ->
  length (weights_row r) = S n /\ Forall pcell_indent_ok (weights_row r) /\ Forall pcell_no_nl (weights_row r).
Proof.
  destruct r as [[ind s] cells]. intros (Hl & Hi & Hs). unfold weights_row.
  split; [cbn [length]; rewrite map_length, Hl; reflexivity|].
  split.
  - constructor; [exact Hi|]. apply Forall_forall. intros c Hc. apply in_map_iff in Hc.
    destruct Hc as [[x|] [<- _]]; exact I.
  - constructor; [exact Hs|]. apply Forall_forall. intros c Hc. apply in_map_iff in Hc.
    destruct Hc as [[x|] [<- _]]; exact I.
Qed.

Theorem weights_wtable_wf dates rows :
  Forall (fun d => date_lex_b d = true) dates ->
  Forall (frow_ok (length dates)) rows ->
  wtable_wf (weights_wtable dates rows).
Proof.
  intros Hd Hr. split; [rewrite weights_wtable_width; lia|].
  rewrite weights_wtable_width. unfold weights_wtable. cbn [wt_rows]. rewrite columns_of_weights.
  destruct (sep_row_props (S (length dates))) as (S1 & S2 & S3).
  destruct (header_props dates Hd) as (H1 & H2 & H3).
  repeat (apply Forall_cons; [repeat split; assumption|]). cbn [app].
  apply Forall_app. split.
  - apply Forall_forall. intros row Hrow. apply in_map_iff in Hrow. destruct Hrow as [r [<- Hin]].
    rewrite Forall_forall in Hr. destruct (body_row_props _ r (Hr r Hin)) as (B1 & B2 & B3).
    repeat split; assumption.
  - constructor; [repeat split; assumption|constructor].
Qed.

(* a percent cell that fits into ten runes fits into every wider column *)
Lemma pcell_fits_mono round n w w' : pcell_fits_b round (WPct n) w = true -> 0 < w <= w' -> pcell_fits_b round (WPct n) w' = true.
Proof.
  cbn [pcell_fits_b]. destruct (f64_is_nan n).
  - intros H Hw. apply Z.eqb_eq in H. lia.
  - intros H Hw. apply andb_prop in H. destruct H as [H1 H2]. apply Z.leb_le in H2.
    rewrite H1. cbn [andb]. apply Z.leb_le. lia.
Qed.

Lemma forall2b_all_base round row ws :
  length row = length ws -> Forall (fun c => exists b, c = WBase b) row -> forall2b (pcell_fits_b round) row ws = true.
Proof.
  revert ws. induction row as [|c row IH]; intros [|w ws] Hl Hb; cbn [length] in Hl; try discriminate Hl; [reflexivity|].
  inversion Hb as [|c' r' [b ->] Hr]; subst. cbn [forall2b pcell_fits_b andb]. apply IH; [lia|exact Hr].
Qed.

Lemma sep_row_base n : Forall (fun c => exists b, c = WBase b) (wsep_row n).
Proof. apply Forall_forall. intros c Hc. apply repeat_spec in Hc. subst c. eexists. reflexivity. Qed.

Lemma header_base dates : Forall (fun c => exists b, c = WBase b) (weights_header dates).
Proof.
  unfold weights_header. constructor; [eexists; reflexivity|].
  apply Forall_forall. intros c Hc. apply in_map_iff in Hc. destruct Hc as [d [<- _]]. eexists. reflexivity.
Qed.

Lemma wmin_length_center round s ind : wmin_length round (WBase (CText s ACenter ind)) = rune_count s.
Proof. reflexivity. Qed.

(* widths that bound the cells' lengths from above are at least the lengths' lower bound *)
Lemma Forall2_le_lower {A} (f : A -> Z) k l ws :
  Forall (fun a => k <= f a) l -> Forall2 (fun a w => f a <= w) l ws -> Forall (fun w => k <= w) ws.
Proof.
  intros Hl H. induction H as [|a w l ws Haw _ IH]; [constructor|].
  inversion Hl; subst. constructor; [lia|apply IH; assumption].
Qed.

(* the date columns of a weights table are at least ten runes wide: the header *)
Lemma weights_date_widths round dates rows :
  Forall (fun d => date_lex_b d = true) dates ->
  Forall (frow_ok (length dates)) rows ->
  exists w0 wds, w_final_widths round (weights_wtable dates rows) = w0 :: wds /\
                 length wds = length dates /\ Forall (fun w => 10 <= w) wds.
Proof.
  intros Hd Hr. pose proof (wtable_wf_full _ (weights_wtable_wf dates rows Hd Hr)) as Hfull.
  destruct (w_col_widths_ge round _ Hfull) as [Hlen Hge].
  rewrite weights_wtable_width in Hlen.
  rewrite Forall_forall in Hge.
  assert (Hin : In (weights_header dates) (wt_rows (weights_wtable dates rows))).
  { unfold weights_wtable. cbn [wt_rows app]. right. left. reflexivity. }
  specialize (Hge _ Hin).
  destruct (w_final_widths round (weights_wtable dates rows)) as [|w0 wds]; [discriminate Hlen|].
  exists w0, wds. split; [reflexivity|]. cbn [length] in Hlen. split; [lia|].
  unfold weights_header in Hge. inversion Hge as [|c w r ws _ Hrest]; subst.
  eapply Forall2_le_lower; [|exact Hrest]. apply Forall_map.
  eapply Forall_impl; [|exact Hd]. intros d Hdd. cbn beta.
  rewrite wmin_length_center, format_date_runes by exact Hdd. lia.
Qed.

Theorem weights_wtable_fits round dates rows :
  Forall (fun d => date_lex_b d = true) dates ->
  Forall (frow_ok (length dates)) rows ->
  Forall (frow_fits round 10) rows ->
  wtable_fits_b round (weights_wtable dates rows) = true.
Proof.
  intros Hd Hr Hf.
  destruct (weights_date_widths round dates rows Hd Hr) as (w0 & wds & Ews & Hlw & Hw10).
  unfold wtable_fits_b. cbv zeta. rewrite Ews. apply forallb_forall. intros row Hrow.
  unfold weights_wtable in Hrow. cbn [wt_rows app] in Hrow. rewrite columns_of_weights in Hrow.
  assert (Hsep : forall2b (pcell_fits_b round) (wsep_row (S (length dates))) (w0 :: wds) = true).
  { apply forall2b_all_base; [unfold wsep_row; rewrite repeat_length; cbn [length]; lia|apply sep_row_base]. }
  destruct Hrow as [<-|[<-|[<-|Hrow]]]; try exact Hsep.
  - apply forall2b_all_base; [|apply header_base].
    unfold weights_header. cbn [length]. rewrite map_length. lia.
  - apply in_app_or in Hrow. destruct Hrow as [Hrow|[<-|[]]]; [|exact Hsep].
    apply in_map_iff in Hrow. destruct Hrow as [r [<- Hin]].
    rewrite Forall_forall in Hr, Hf. specialize (Hr r Hin). specialize (Hf r Hin).
    destruct r as [[ind s] cells]. destruct Hr as (Hl & _ & _). cbn [frow_fits] in Hf.
    unfold weights_row. cbn [forall2b pcell_fits_b andb].
    rewrite <- Hlw in Hl. clear - Hl Hf Hw10. revert wds Hl Hw10.
    induction cells as [|c cells IH]; intros [|w wds] Hl Hw10; cbn [length] in Hl; try discriminate Hl; [reflexivity|].
    inversion Hf as [|c' cs' Hc Hcs]; subst. inversion Hw10 as [|w' ws' Hw Hws]; subst.
    cbn [map forall2b]. apply andb_true_iff. split; [|apply IH; [exact Hcs|lia|exact Hws]].
    destruct c as [n|]; [|reflexivity]. apply (pcell_fits_mono round n 10 w Hc). lia.
Qed.

(* the weights report is rectangular whenever every weight is printed in at most ten runes *)
Theorem weights_text_rect round dates rows :
  Forall (fun d => date_lex_b d = true) dates ->
  Forall (frow_ok (length dates)) rows ->
  Forall (frow_fits round 10) rows ->
  rect_b (S (length dates)) (weights_text round dates rows) = true.
Proof.
  intros Hd Hr Hf. unfold weights_text. rewrite <- (weights_wtable_width dates rows).
  apply wrender_text_rect; [apply weights_wtable_wf; assumption|apply weights_wtable_fits; assumption].
Qed.
