(* C02  Balance report equals an independent ledger computation.
   Specification: Spec/LedgerSpec.v (closed form over the flat list of dated postings after accrual
   expansion: user_entries, closing_entries, mapped_entries, period_amount, ledger_row, ledger_csv).

   Proved at full strength, for every journal, window, interval, --last (any integer), filter,
   mapping (any level and suffix), remap, with and without --close:

   C02_cells  every cell of the report trees of the model equals (as a rational value) the
       closed-form sum

         rcell row (Some col, Some c) r ==
         dvalue (period_amount (mapped_entries cfg (user_entries (span part) (periods part) (flat_postings dl) ++
                   (if bc_close cfg then closing_entries (flat_postings dl) (closable_keys (span part) (flat_postings dl))
                                                         (p_start (span part)) (periods part) else [])))
                 (acc_eqb row) c col)

   C02_rows   the report has a node (every node is rendered as a row) for exactly the accounts
       ledger_row lists: In row (rows r) <-> ledger_row cfg dl row -- the mapped account of an
       entry of that same list (a booking inside the window passing the filters, or a half of a
       closing entry with a non-zero amount), or a parent of one.

   With --close both say that the stateful CloseAccounts processor (Model/Pipeline.v close_proc,
   closing_txns; Go: lib/journal/process.go CloseAccounts) equals Spec.LedgerSpec.closing_entries:
   at the start of every shown period, for every account that is neither A/L nor Equity:Equity,
   what it accumulated inside the window since the previous period start (since the window start
   for the first period) is moved to Equity:Equity under that period's column, and the
   accumulator starts again.  Proofs/CloseProofs.v (cells: close_day is the invariant -- after a
   day, for every weight g, the g-weighted sum of c_qty = the g-weighted sum of the closable
   postings since the last closing day; close_stage_run, regroup, RS_find, report_cells) and
   Proofs/LayoutProofs.v (rows: the state at every closing day is the sum of the postings whose
   next period start it is; state_nonzero, spec_close_keys, close_keys_equiv, report_rows).
   Hypothesis with --close only: [postings_syntactic dl] (Spec/LedgerSyntax.v): every posting account
   is one the parser can produce (first segment an account type, no colon and no NUL byte inside a
   segment).  The model keys CloseAccounts' map by the string name ++ NUL ++ commodity where knut
   uses (account, commodity) pointers; the two agree exactly under this condition, and
   C02_cells_unsyntactic_refuted shows that the model (not knut) merges two keys without it.
   The cumulative / --diff presentation of a row is C02_row_cumulative.

   Table level (the TABLE that `balance` prints, i.e. the row list of Model/Report.v render_report
   before text / CSV rendering; vocabulary Spec/BalanceTableSpec.v; proofs
   Proofs/ReportTableProofs.v (layout), BalanceTableTree.v, BalanceTableCells.v, BalanceTableTotals.v):

   C02_table_layout  for every report, render configuration (valued or not) and date list the rows
       of the table are: separator, header, separator; per top-level A/L account the blocks of its
       subtree in depth-first order of the sorted tree and an empty line; the Total (A+L) lines, a
       separator; the same for the E/I/E tree; the Delta lines; a separator.
   C02_table_rows    for an unvalued balance report the account blocks are one per account row,
       pairwise distinct, exactly for the accounts ledger_row lists (in the order the sort
       produces), each block being acct_lines: name = last segment, indent = 2 per level.
   C02_table_cells   the block of account row has one line per commodity c with a non-zero cell
       (ascending), and the cell in column j is a decimal whose value is that of
       cell_amounts: sign * (the ledger's period amount of column j, accumulated over the columns
       0..j unless --diff), exact, before any rounding (C17).  Hypothesis: postings_syntactic dl.
   C02_table_cells_render  the same at the level of the renderer alone, for every report and every
       render configuration, valued or not: with --show-commodities the cell is the amount stored
       under that commodity, without it the sum over the commodities (collapse_key).

   C02_table_totals  the numbers of the commodity lines of Total (A+L), Total (E+I+E) and Delta are
       cell_amounts over all A/L accounts, over all other accounts (negated), over all accounts.

   Which commodity lines (Proofs/BalanceTableDates.v, BalanceTableLines.v):
   C02_close_stage_dates  CloseAccounts only appends, on a closing day, transactions of that date.
   C02_report_keys   every amount of the report is stored under (end date of a shown period,
       commodity): a cell under the zero date, another date or the nil commodity is zero.
   C02_commodity_line_iff  the block of an account lists commodity c iff the ledger has a non-zero
       PERIOD amount for (account, c) in some column of the table -- both directions.
   C02_total_lines   Total (A+L) / Total (E+I+E) list exactly the commodities with a non-zero period
       amount over all A/L / all other accounts in some column, ascending; Delta lists the union of
       the two lists; the lines are block_ok with the numbers of C02_table_totals.

   The CSV (Proofs/DecStringValue.v, BalanceCsv.v, BalanceCsvOrder.v), with and without -a:
   C02_number_text   Decimal.String is a function of the value of the decimal.
   C02_table_row_order  the account rows are LedgerSpec.all_rows of the A/L entries, then of the others.
   C02_csv_records   the records of the CSV renderer on the table are the rows of ledger_csv.
   C02_csv_is_ledger_csv  balance_csv cfg ds = COk text -> text = the rows of ledger_csv, fields
       joined by commas, one record per line.

   Not proved: encoding/csv quoting (not modelled: no field of a balance report needs it), and the
   text rendering of the same table (C17).  ledger_csv is compared with the binary's CSV and the
   model's CSV on every run. *)
From Coq Require Import ZArith List Bool Permutation.
From Coq Require Import QArith.
From Knut Require Import Model.Str Model.Dec Model.Date Model.Account Model.Ledger Model.Journal Model.Pipeline Model.Table Model.Report Model.Cli Spec.LedgerSpec
     Spec.LedgerSyntax Spec.BalanceTableSpec Proofs.DecValue Proofs.JournalFacts Proofs.ReportSum Proofs.Conservation Proofs.LedgerProofs Proofs.CloseProofs Proofs.LayoutProofs
     Proofs.BalanceTableLayout Proofs.BalanceTableTree Proofs.BalanceTableCells Proofs.BalanceTableTotals
     Proofs.BalanceTableDates Proofs.BalanceTableLines Proofs.DecStringValue Proofs.BalanceCsv Proofs.BalanceCsvOrder.
Import ListNotations.
Open Scope Z_scope.

(* a mapping rule leaves accounts it does not match alone *)
Theorem C02_mapping_local : forall r a,
  rule_match r (acc_name a) = None -> shorten [r] a = ShAcc a.
Proof. intros r a H. unfold shorten. cbn [mapping_level]. rewrite H. reflexivity. Qed.
Print Assumptions C02_mapping_local.

(* the shortened account consists of the first `level` and the last `suffix` segments *)
Theorem C02_shorten_shape : forall m a level suffix,
  mapping_level m (acc_name a) = Some (level, suffix) ->
  0 < level -> 0 <= suffix -> suffix < acc_level a -> level <= acc_level a - suffix ->
  shorten m a = ShAcc (firstn (Z.to_nat level) a ++ skipn (Z.to_nat (acc_level a - suffix)) a).
Proof.
  intros m a level suffix Hm Hl Hs Hs2 Hl2. unfold shorten. destruct m as [|r m']; [discriminate|].
  rewrite Hm.
  replace (level =? 0) with false by (symmetry; apply Z.eqb_neq; auto with zarith).
  replace (acc_level a <=? suffix) with false by (symmetry; apply Z.leb_gt; auto with zarith).
  replace (acc_level a - suffix <? level) with false by (symmetry; apply Z.ltb_ge; auto with zarith).
  replace ((level <? 0) || (suffix <? 0)) with false.
  2: { symmetry. apply orb_false_iff. split; apply Z.ltb_ge; auto with zarith. }
  f_equal. f_equal. rewrite firstn_firstn. f_equal.
  apply Nat.min_l. apply Z2Nat.inj_le; auto with zarith.
Qed.
Print Assumptions C02_shorten_shape.

(* Every cell of the report (value stored in the tree node `row` under column `col` and
   commodity `c`) equals the closed-form ledger sum over the flat list of postings: bookings
   dated inside the window, passing the filters, mapped onto `row`, attributed to the period
   end `col`. *)
Theorem C02_cells_noclose : forall cfg ds r part,
  bc_valuation cfg = None -> bc_close cfg = false ->
  balance_report cfg ds = COk (r, part) ->
  exists dl,
    parse_directives ds = MOk dl /\
    new_partition (clip (mkPeriod (bc_from cfg) (bc_to cfg)) (journal_period dl)) (bc_interval cfg) (bc_last cfg) = POk part /\
    forall row c col,
      (rcell row (Some col, Some c) r ==
       dvalue (period_amount (mapped_entries cfg (user_entries (span part) (periods part) (flat_postings dl))) (acc_eqb row) c col))%Q.
Proof. exact report_cells_noclose. Qed.
Print Assumptions C02_cells_noclose.

(* The same with and without --close: with --close the entries include, at every period start,
   the amounts carried from the closed accounts to Equity:Equity (closing_entries). *)
Theorem C02_cells : forall cfg ds r part,
  bc_valuation cfg = None ->
  balance_report cfg ds = COk (r, part) ->
  exists dl,
    parse_directives ds = MOk dl /\
    new_partition (clip (mkPeriod (bc_from cfg) (bc_to cfg)) (journal_period dl)) (bc_interval cfg) (bc_last cfg) = POk part /\
    ((bc_close cfg = true -> postings_syntactic dl) ->
     forall row c col,
       (rcell row (Some col, Some c) r ==
        dvalue (period_amount (mapped_entries cfg (user_entries (span part) (periods part) (flat_postings dl) ++
                  (if bc_close cfg
                   then closing_entries (flat_postings dl) (closable_keys (span part) (flat_postings dl)) (p_start (span part)) (periods part)
                   else [])))
                (acc_eqb row) c col))%Q).
Proof. exact report_cells. Qed.
Print Assumptions C02_cells.

(* Which rows exist: the report has a node (rows r: the paths of all nodes of the two trees but the
   roots; the renderer emits every node) exactly for the accounts the independent computation lists. *)
Theorem C02_rows : forall cfg ds r part,
  bc_valuation cfg = None ->
  balance_report cfg ds = COk (r, part) ->
  exists dl,
    parse_directives ds = MOk dl /\
    ((bc_close cfg = true -> postings_syntactic dl) ->
     forall row, In row (rows r) <-> ledger_row cfg dl row).
Proof. exact report_rows. Qed.
Print Assumptions C02_rows.

(* the hypothesis follows from what Spec/WellformedSpec.v calls a syntactic journal (C04), and has
   an executable form *)
Theorem C02_syntactic_sufficient : forall dl, WellformedSpec.syntactic dl -> postings_syntactic dl.
Proof. exact syntactic_postings. Qed.
Print Assumptions C02_syntactic_sufficient.

Theorem C02_syntactic_decidable : forall dl, postings_syntactic_b dl = true <-> postings_syntactic dl.
Proof.
  intros dl. unfold postings_syntactic_b, postings_syntactic. rewrite forallb_forall. split.
    - intros H d p Hin. exact (H (d, p) Hin).
    - intros H [d p] Hin. exact (H d p Hin).
Qed.
Print Assumptions C02_syntactic_decidable.

(* Why C02_cells carries the hypothesis postings_syntactic: an account segment with a NUL byte
   (which the parser never produces) makes two (account, commodity) pairs share one position key
   of the MODEL's close stage (pos_key = name ++ NUL ++ commodity), which then carries their sum
   under one of them; the statement without the hypothesis is false of the model.  knut itself
   keys by (account, commodity) pointers and is not affected. *)
Theorem C02_cells_unsyntactic_refuted :
  exists cfg ds r part dl row c col,
    bc_valuation cfg = None /\ balance_report cfg ds = COk (r, part) /\ parse_directives ds = MOk dl /\
    ~ (rcell row (Some col, Some c) r ==
       dvalue (period_amount (mapped_entries cfg (user_entries (span part) (periods part) (flat_postings dl) ++
                 (if bc_close cfg
                  then closing_entries (flat_postings dl) (closable_keys (span part) (flat_postings dl)) (p_start (span part)) (periods part)
                  else [])))
               (acc_eqb row) c col))%Q.
Proof. exact cells_unsyntactic_refuted. Qed.
Print Assumptions C02_cells_unsyntactic_refuted.

(* the builder loses and duplicates nothing: the dated postings of its days are a permutation
   of the journal's postings, each in the day of its date *)
Theorem C02_builder_complete : forall dl,
  Permutation.Permutation (days_postings (Journal.b_days (Journal.builder_of dl))) (flat_postings dl)
  /\ days_dated (Journal.b_days (Journal.builder_of dl)).
Proof. intros dl. split; [apply builder_of_perm|apply builder_of_dated]. Qed.
Print Assumptions C02_builder_complete.

(* a row shows, per column, the running total of the period amounts (or the period amount
   itself with --diff), negated for equity/income/expense rows *)
Theorem C02_row_cumulative : forall diff neg_ vals c dates,
  Forall2 cell_is (Report.row_numbers diff neg_ vals c dates Ledger.dec_nil) (row_values diff neg_ vals c dates 0%Q).
Proof. intros. apply row_numbers_values. reflexivity. Qed.
Print Assumptions C02_row_cumulative.

(* The rows of the table that Renderer.Render builds, for every report, every render
   configuration and every list of dates: Spec.BalanceTableSpec.report_table_rows. *)
Theorem C02_table_layout : forall rc r dates,
  t_rows (render_report rc r dates) =
  (let w := tw rc dates in
   let al := sorted_al rc r in
   let eie := sorted_eie rc r in
   let total_al := node_totals (total_key rc) al [] in
   let total_eie := node_totals (total_key rc) eie [] in
   [repeat CSep w; header_cells rc dates; repeat CSep w] ++
   section_rows rc dates false (n_children al) ++
   line_rows rc dates 0 s_TotalAL false total_al ++ [repeat CSep w] ++
   section_rows rc dates true (n_children eie) ++
   line_rows rc dates 0 s_TotalEIE true total_eie ++ [repeat CSep w] ++
   line_rows rc dates 0 s_Delta false (ra_plus total_al total_eie) ++ [repeat CSep w]).
Proof. exact render_report_layout. Qed.
Print Assumptions C02_table_layout.

(* a section is, per top-level account, the blocks of its subtree (depth first) and an empty line;
   account_blocks lists the blocks of both sections in table order *)
Theorem C02_table_sections : forall rc r dates,
  section_rows rc dates false (n_children (sorted_al rc r)) =
    concat (map (fun top => concat (map snd (node_blocks rc dates 0 false top)) ++ [repeat CEmpty (tw rc dates)])
                (n_children (sorted_al rc r))) /\
  section_rows rc dates true (n_children (sorted_eie rc r)) =
    concat (map (fun top => concat (map snd (node_blocks rc dates 0 true top)) ++ [repeat CEmpty (tw rc dates)])
                (n_children (sorted_eie rc r))) /\
  account_blocks rc r dates =
    flat_map (node_blocks rc dates 0 false) (n_children (sorted_al rc r)) ++
    flat_map (node_blocks rc dates 0 true) (n_children (sorted_eie rc r)).
Proof. intros. repeat split. Qed.
Print Assumptions C02_table_sections.

(* Which account rows the table has: the table is laid out as above; its account blocks are, in
   table order, one block acct_lines per element of account_rows (the nodes of the two sorted
   trees: path and stored amounts); the paths are pairwise distinct and are exactly the accounts
   that the independent computation lists. *)
Theorem C02_table_rows : forall cfg ds r part,
  bc_valuation cfg = None ->
  balance_report cfg ds = COk (r, part) ->
  let rc := balance_render_cfg cfg in
  let dates := end_dates part in
  t_rows (render_report rc r dates) = report_table_rows rc r dates /\
  account_blocks rc r dates = map (fun pa => (fst pa, acct_lines rc dates (fst pa) (snd pa))) (account_rows rc r) /\
  NoDup (map fst (account_rows rc r)) /\
  exists dl,
    parse_directives ds = MOk dl /\
    ((bc_close cfg = true -> postings_syntactic dl) ->
     forall row, In row (map fst (account_rows rc r)) <-> ledger_row cfg dl row).
Proof.
  intros cfg ds r part. intros Hv H rc dates. pose proof (balance_report_ok _ _ _ _ H) as Hok.
    split; [apply render_report_layout|]. split; [apply account_blocks_rows; exact Hok|].
    split.
    - eapply Permutation_NoDup; [symmetry; apply account_rows_paths|]. apply rows_nodup. exact Hok.
    - destruct (report_rows cfg ds r part Hv H) as (dl & Hp & Hrows). exists dl. split; [exact Hp|].
      intros Hsyn row. rewrite <- (Hrows Hsyn row). split; apply Permutation_in; [|symmetry]; apply account_rows_paths.
Qed.
Print Assumptions C02_table_rows.

(* the order of the account rows is that of the sorted trees, a permutation of the node paths *)
Theorem C02_table_rows_order : forall rc r,
  map fst (account_rows rc r) =
    map (fun l : str * account * ramounts => snd (fst l)) (flat_map tree_lines (n_children (sorted_al rc r))) ++
    map (fun l : str * account * ramounts => snd (fst l)) (flat_map tree_lines (n_children (sorted_eie rc r))) /\
  Permutation.Permutation (map fst (account_rows rc r)) (rows r).
Proof.
  intros rc r. split; [|apply account_rows_paths].
  unfold account_rows. rewrite map_map, map_app. reflexivity.
Qed.
Print Assumptions C02_table_rows_order.

(* The cells: the block of account `row` is block_ok -- a single name line when no commodity has a
   non-zero cell; else one line per such commodity, ascending, carrying the name (last segment,
   indented 2 per level) on the first line, the commodity, and per column a decimal whose value
   is the value of cell_amounts: the ledger's period amount, accumulated over the columns unless
   --diff, negated for equity / income / expense rows.  Exact decimals, no rounding. *)
Theorem C02_table_cells : forall cfg ds r part,
  bc_valuation cfg = None ->
  balance_report cfg ds = COk (r, part) ->
  exists dl,
    parse_directives ds = MOk dl /\
    (postings_syntactic dl ->
     let rc := balance_render_cfg cfg in
     let dates := end_dates part in
     let es := ledger_entries cfg dl part in
     forall row a, In (row, a) (account_rows rc r) ->
       exists coms,
         coms_sorted coms /\
         (forall c, In c coms <-> exists od, ~ (rcell row (od, Some c) r == 0)%Q) /\
         (forall c col, ~ (dvalue (period_amount es (acc_eqb row) c col) == 0)%Q -> In c coms) /\
         block_ok (tw rc dates) (last row []) (name_indent row) coms
                  (fun c => cell_amounts (bc_diff cfg) (negb (is_AL row)) es (acc_eqb row) c dates dec_nil)
                  (acct_lines rc dates row a)).
Proof.
  intros cfg ds r part. intros Hv H. destruct (balance_report_parsed _ _ _ _ H) as (dl & Hp). exists dl. split; [exact Hp|].
    intros Hsyn rc dates es row a Hin. pose proof (balance_run _ _ _ _ _ Hv H Hp Hsyn) as R.
    destruct (account_block _ _ _ _ R row a Hin) as (coms & Hs & Hm & Hb). exists coms.
    split; [exact Hs|]. split; [exact Hm|]. split; [|exact Hb].
    intros c col Hnz. apply Hm. exists (Some col). rewrite (run_cells R). exact Hnz.
Qed.
Print Assumptions C02_table_cells.

(* The total lines: the numbers of the line of commodity c of Total (A+L) / Total (E+I+E) / Delta
   (line_rows = render_rows puts row_numbers of the totals after the name and commodity cells)
   have the values of the ledger's period amounts over all A/L accounts / all other accounts,
   negated / all accounts, accumulated unless --diff. *)
Theorem C02_table_totals : forall cfg ds r part dl,
  bc_valuation cfg = None ->
  balance_report cfg ds = COk (r, part) ->
  parse_directives ds = MOk dl ->
  postings_syntactic dl ->
  forall c,
  let rc := balance_render_cfg cfg in
  let es := ledger_entries cfg dl part in
  let dates := end_dates part in
  let total_al := node_totals (total_key rc) (sorted_al rc r) [] in
  let total_eie := node_totals (total_key rc) (sorted_eie rc r) [] in
  Forall2 num_is (row_numbers (bc_diff cfg) false total_al (Some c) dates dec_nil)
                 (cell_amounts (bc_diff cfg) false es is_AL c dates dec_nil) /\
  Forall2 num_is (row_numbers (bc_diff cfg) true total_eie (Some c) dates dec_nil)
                 (cell_amounts (bc_diff cfg) true es (fun a => negb (is_AL a)) c dates dec_nil) /\
  Forall2 num_is (row_numbers (bc_diff cfg) false (ra_plus total_al total_eie) (Some c) dates dec_nil)
                 (cell_amounts (bc_diff cfg) false es (fun _ => true) c dates dec_nil).
Proof.
  intros cfg ds r part dl. intros Hv Hrun Hp Hsyn c. pose proof (balance_run _ _ _ _ _ Hv Hrun Hp Hsyn) as R. cbv zeta.
    split; [|split]; (apply row_numbers_amounts; [|reflexivity]); intros col.
    - exact (totals_value _ _ _ _ R true c col).
    - exact (totals_value _ _ _ _ R false c col).
    - exact (delta_value _ _ _ _ R c col).
Qed.
Print Assumptions C02_table_totals.

(* num_is is equality of values; cell_amounts is LedgerSpec.cells before printing *)
Theorem C02_num_is_value : forall n d, num_is (CNum n) d <-> (dvalue n == dvalue d)%Q.
Proof. exact num_is_value. Qed.
Print Assumptions C02_num_is_value.

Theorem C02_cell_amounts_printed : forall diff negate es sel c cols total,
  cells diff negate es sel c cols total = map to_string (cell_amounts diff negate es sel c cols total).
Proof. exact cells_printed. Qed.
Print Assumptions C02_cell_amounts_printed.

(* The renderer alone, for every node amounts `a`, every render configuration (valued or not,
   with or without --show-commodities for the account): the numeric cells of the line of
   commodity oc show, per column, the value of what the node stores under keys that collapse to
   (column, oc) -- the amount of that commodity when commodities are shown, the sum over all
   commodities (oc = None) when they are not -- accumulated over the columns unless --diff. *)
Theorem C02_table_cells_render : forall rc p a neg_ oc dates,
  Forall2 cell_is
    (row_numbers (rc_diff rc) neg_ (shown_vals rc p a) oc dates dec_nil)
    (row_values (rc_diff rc) neg_ (shown_vals rc p a) oc dates 0%Q) /\
  forall d, (dvalue (ra_get0 (shown_vals rc p a) (Some d, oc)) == ReportSum.esum (collapse_key (show_of rc p)) (Some d, oc) a)%Q.
Proof.
  intros rc p a neg_ oc dates. split; [apply row_numbers_values; reflexivity|]. intros d. unfold shown_vals.
    rewrite ra_get0_esum by (apply sum_into_unique; constructor).
    rewrite esum_sum_into. cbn [esum]. rewrite Qplus_0_l.
    rewrite (esum_ext (fun k0 => idk (collapse_key (show_of rc p) k0)) (collapse_key (show_of rc p))); [reflexivity|].
    intros x. reflexivity.
Qed.
Print Assumptions C02_table_cells_render.

(* The close-stage date lemma: CloseAccounts (Model/Pipeline.v close_proc, for ANY state and any
   days) returns every day as it is or, on a closing day, with closing transactions of that date
   appended: a dated posting that leaves the stage entered it or is dated on a closing day. *)
Theorem C02_close_stage_dates : forall cds ds s s' ds',
  process_days (close_proc cds) s ds = ROk (s', ds') ->
  forall dp, In dp (days_postings ds') -> In dp (days_postings ds) \/ In (fst dp) cds.
Proof. exact close_days_dates. Qed.
Print Assumptions C02_close_stage_dates.

(* The keys of the report: every amount is stored under (end date of a shown period, commodity).
   A cell under the zero date (Partition.Align of a date after the last period), under a date
   that is not a column of the table, or under the nil commodity is zero in every row.  With
   --close this rests on C02_close_stage_dates: the closing days are the period starts, and a
   period start is aligned to the end of its own period (an empty window closes nothing). *)
Theorem C02_report_keys : forall cfg ds r part,
  bc_valuation cfg = None ->
  balance_report cfg ds = COk (r, part) ->
  forall row od oc,
    ~ (exists col c, od = Some col /\ oc = Some c /\ In col (end_dates part)) ->
    (rcell row (od, oc) r == 0)%Q.
Proof.
  intros cfg ds r part. intros Hv H row od oc Hn. destruct (report_dates cfg ds r part Hv H) as [_ Hk].
    refine (proj1 (Hk (od, oc) _) row). intros Hc. apply Hn.
    destruct (col_key_inv _ _ Hc) as (col & c & E & Hin). inversion E; subst. exists col, c. auto.
Qed.
Print Assumptions C02_report_keys.

(* (2) The criterion for a commodity line, both directions.  The renderer (Report.v render_node:
   ra_sum_into drops the zero amounts, ra_commodities lists the commodities of the keys that are
   left) lists commodity c in the block of an account iff the account has a non-zero amount under
   SOME stored key (date, c) -- not: a non-zero cell, nor a non-zero cumulated number.  By
   C02_report_keys the stored dates are the columns, so: iff the ledger has a non-zero PERIOD
   amount for (account, c) in some column of the table.  (A commodity whose period amounts are
   +5 and -5 in two columns is listed although its last cumulative cell is 0; a commodity booked
   +5 and -5 inside one period is not listed.)  The block is then block_ok as in C02_table_cells. *)
Theorem C02_commodity_line_iff : forall cfg ds r part,
  bc_valuation cfg = None ->
  balance_report cfg ds = COk (r, part) ->
  exists dl,
    parse_directives ds = MOk dl /\
    (postings_syntactic dl ->
     let rc := balance_render_cfg cfg in
     let dates := end_dates part in
     let es := ledger_entries cfg dl part in
     forall row a, In (row, a) (account_rows rc r) ->
       exists coms,
         coms_sorted coms /\
         (forall c, In c coms <-> exists col, In col dates /\ ~ (dvalue (period_amount es (acc_eqb row) c col) == 0)%Q) /\
         block_ok (tw rc dates) (last row []) (name_indent row) coms
                  (fun c => cell_amounts (bc_diff cfg) (negb (is_AL row)) es (acc_eqb row) c dates dec_nil)
                  (acct_lines rc dates row a)).
Proof.
  intros cfg ds r part. intros Hv H. destruct (balance_report_parsed _ _ _ _ H) as (dl & Hp). exists dl. split; [exact Hp|].
    intros Hsyn. cbv zeta. exact (account_lines _ _ _ _ (balance_run _ _ _ _ _ Hv H Hp Hsyn)).
Qed.
Print Assumptions C02_commodity_line_iff.

(* (1) The commodity lines of the three total rows.  Total (A+L) lists, ascending, exactly the
   commodities with a non-zero period amount over all A/L accounts in some column; Total (E+I+E)
   the same over all other accounts; Delta lists the UNION of the two lists (Amounts.Plus drops
   nothing), also where its numbers are zero (C01).  Each row is block_ok: a single name line when
   the list is empty, else one line per commodity with the numbers of C02_table_totals. *)
Theorem C02_total_lines : forall cfg ds r part dl,
  bc_valuation cfg = None ->
  balance_report cfg ds = COk (r, part) ->
  parse_directives ds = MOk dl ->
  postings_syntactic dl ->
  let rc := balance_render_cfg cfg in
  let es := ledger_entries cfg dl part in
  let dates := end_dates part in
  let total_al := node_totals (total_key rc) (sorted_al rc r) [] in
  let total_eie := node_totals (total_key rc) (sorted_eie rc r) [] in
  exists coms_al coms_eie coms_delta,
    (coms_sorted coms_al /\
     (forall c, In c coms_al <-> exists col, In col dates /\ ~ (dvalue (period_amount es is_AL c col) == 0)%Q) /\
     block_ok (tw rc dates) s_TotalAL 0 coms_al
              (fun c => cell_amounts (bc_diff cfg) false es is_AL c dates dec_nil)
              (line_rows rc dates 0 s_TotalAL false total_al)) /\
    (coms_sorted coms_eie /\
     (forall c, In c coms_eie <-> exists col, In col dates /\ ~ (dvalue (period_amount es (fun a => negb (is_AL a)) c col) == 0)%Q) /\
     block_ok (tw rc dates) s_TotalEIE 0 coms_eie
              (fun c => cell_amounts (bc_diff cfg) true es (fun a => negb (is_AL a)) c dates dec_nil)
              (line_rows rc dates 0 s_TotalEIE true total_eie)) /\
    (coms_sorted coms_delta /\
     (forall c, In c coms_delta <-> In c coms_al \/ In c coms_eie) /\
     block_ok (tw rc dates) s_Delta 0 coms_delta
              (fun c => cell_amounts (bc_diff cfg) false es (fun _ => true) c dates dec_nil)
              (line_rows rc dates 0 s_Delta false (ra_plus total_al total_eie))).
Proof.
  intros cfg ds r part dl. intros Hv H Hp Hsyn. pose proof (balance_run _ _ _ _ _ Hv H Hp Hsyn) as R. cbv zeta.
    destruct (totals_block _ _ _ _ R true s_TotalAL false) as (coms_al & Eal & Hal).
    destruct (totals_block _ _ _ _ R false s_TotalEIE true) as (coms_eie & Eeie & Heie).
    destruct (delta_block _ _ _ _ R coms_al coms_eie Eal Eeie) as (coms_delta & Hdelta).
    exists coms_al, coms_eie, coms_delta. split; [exact Hal|]. split; [exact Heie|exact Hdelta].
Qed.
Print Assumptions C02_total_lines.

(* Decimal.String is a function of the VALUE: whatever coefficient / exponent the report tree
   arrived at by adding in its own order, the printed number is that of the ledger amount. *)
Theorem C02_number_text : forall a b, (dvalue a == dvalue b)%Q -> to_string a = to_string b.
Proof. exact to_string_value. Qed.
Print Assumptions C02_number_text.

(* The sort order: the account rows of the table (depth first over the sorted trees: top level by
   account type, below by segment) are LedgerSpec.all_rows of the A/L entries followed by all_rows
   of the other entries (insertion by row_ltb) -- with --sort-alphabetically, and without it as
   well: an unvalued report has no weights (node_weight false is zero everywhere), the stable sort
   by weight moves nothing, and the children are kept in segment order. *)
Theorem C02_table_row_order : forall cfg ds r part dl,
  bc_valuation cfg = None ->
  balance_report cfg ds = COk (r, part) ->
  parse_directives ds = MOk dl ->
  postings_syntactic dl ->
  let es := ledger_entries cfg dl part in
  map fst (account_rows (balance_render_cfg cfg) r) =
  all_rows (filter is_AL_entry es) ++ all_rows (filter (fun e => negb (is_AL_entry e)) es).
Proof.
  intros cfg ds r part dl Hv Hrun Hp Hsyn es. unfold account_rows. rewrite map_map, map_app.
  change (fun x : str * account * ramounts => fst (snd (fst x), snd x)) with l_path.
  rewrite (tree_rows_order cfg ds r part dl Hv Hrun Hp Hsyn true), (tree_rows_order cfg ds r part dl Hv Hrun Hp Hsyn false).
  reflexivity.
Qed.
Print Assumptions C02_table_row_order.

(* The records of the CSV renderer on the table of the balance command are the rows of ledger_csv:
   same records in the same order, every field the same bytes (header, account names, commodities,
   numbers; blank and separator rows are skipped as in C17_csv_rows). *)
Theorem C02_csv_records : forall cfg ds r part dl,
  bc_valuation cfg = None ->
  balance_report cfg ds = COk (r, part) ->
  parse_directives ds = MOk dl ->
  postings_syntactic dl ->
  exists rows, ledger_csv cfg dl = Some rows /\
    render_csv_rows (render_report (balance_render_cfg cfg) r (end_dates part)) = rows.
Proof. exact csv_rows_are_ledger_rows. Qed.
Print Assumptions C02_csv_records.

(* The printed text.  balance_csv = balance_report ; render_report ; render_csv (Model/Cli.v);
   the text is the ledger's rows, fields joined by commas, one record per line.  (encoding/csv
   quoting is outside the model, see Table.v: no field of a balance report needs it.)
   Hypotheses: no valuation (ledger_csv is the unvalued report; it is None otherwise) and
   postings_syntactic (accounts as the parser produces them, see C02_cells).  Every window,
   interval, --last, --diff, --close, filter, mapping, remap, with and without -a. *)
Theorem C02_csv_is_ledger_csv : forall cfg ds text,
  bc_valuation cfg = None ->
  balance_csv cfg ds = COk text ->
  exists dl,
    parse_directives ds = MOk dl /\
    (postings_syntactic dl ->
     exists rows, ledger_csv cfg dl = Some rows /\ text = concat (map (fun rec => join [44] rec ++ [10]) rows)).
Proof.
  intros cfg ds text. intros Hv H. unfold balance_csv in H. apply cbind_ok in H. destruct H as (t & Ht & H). inversion H; subst text. clear H.
    unfold balance_table in Ht. apply cbind_ok in Ht. destruct Ht as ([r part] & Hrun & Ht). cbn [fst snd] in Ht. inversion Ht; subst t. clear Ht.
    destruct (balance_report_parsed _ _ _ _ Hrun) as (dl & Hp). exists dl. split; [exact Hp|]. intros Hsyn.
    destruct (csv_rows_are_ledger_rows cfg ds r part dl Hv Hrun Hp Hsyn) as (rows & Hl & Hr).
    exists rows. split; [exact Hl|]. unfold render_csv. rewrite <- Hr. reflexivity.
Qed.
Print Assumptions C02_csv_is_ledger_csv.

(* non-vacuity: a journal over four months with --close.  Income of January (-1000) is carried to
   Equity:Equity at the start of February, income and expenses of February (-1000 + 200) at the
   start of March, the expenses of March (+300) at the start of April; the closed accounts are
   credited back the same amounts in the same column (Income:S shows +1000 in March, Expenses:R
   300 - 200).  Both sides of C02_cells are evaluated.  The row Equity:Equity (and its parent
   Equity) exists only because of the closing entries. *)
Example C02_close_example :
  let acc s := acc_of_name s in
  let A := [65;115;115;101;116;115;58;66] (* Assets:B *) in
  let I := [73;110;99;111;109;101;58;83] (* Income:S *) in
  let E := [69;120;112;101;110;115;101;115;58;82] (* Expenses:R *) in
  let EQ := [s_Equity; s_Equity] in
  let chf := [67;72;70] in
  let d0 := Date.of_civil 2020 1 5 in
  let ds := [ SOpen d0 (acc A); SOpen d0 (acc I); SOpen d0 (acc E);
              STxn (mkStxn (d0 + 1) [] [mkBooking (acc I) (acc A) (mkDec 1000 0) chf] None None);
              STxn (mkStxn (d0 + 35) [] [mkBooking (acc A) (acc E) (mkDec 200 0) chf] None None);
              STxn (mkStxn (d0 + 40) [] [mkBooking (acc I) (acc A) (mkDec 1000 0) chf] None None);
              STxn (mkStxn (d0 + 70) [] [mkBooking (acc A) (acc E) (mkDec 300 0) chf] None None);
              STxn (mkStxn (d0 + 89) [] [mkBooking (acc A) (acc E) (mkDec 50 0) chf] None None) ] in
  let cfg := mkBalanceCfg 0 (d0 + 90) Monthly 0 false true None true [] [] [] [] [] true in
  match balance_report cfg ds, parse_directives ds with
  | COk (r, part), MOk dl =>
    let es := mapped_entries cfg (user_entries (span part) (periods part) (flat_postings dl) ++
                closing_entries (flat_postings dl) (closable_keys (span part) (flat_postings dl)) (p_start (span part)) (periods part)) in
    let feb := Date.of_civil 2020 2 29 in let mar := Date.of_civil 2020 3 31 in let apr := d0 + 89 in
    postings_syntactic_b dl = true /\
    length (periods part) = 4%nat /\
    (rcell EQ (Some feb, Some chf) r == -1000 # 1)%Q /\ (dvalue (period_amount es (acc_eqb EQ) chf feb) == -1000 # 1)%Q /\
    (rcell EQ (Some mar, Some chf) r == -800 # 1)%Q /\ (dvalue (period_amount es (acc_eqb EQ) chf mar) == -800 # 1)%Q /\
    (rcell EQ (Some apr, Some chf) r == 300 # 1)%Q /\ (dvalue (period_amount es (acc_eqb EQ) chf apr) == 300 # 1)%Q /\
    (rcell (acc I) (Some mar, Some chf) r == 1000 # 1)%Q /\ (rcell (acc E) (Some mar, Some chf) r == 100 # 1)%Q /\
    existsb (acc_eqb EQ) (rows r) = true /\ existsb (acc_eqb [s_Equity]) (rows r) = true /\ length (rows r) = 8%nat
  | _, _ => False
  end.
Proof. vm_compute. repeat split. Qed.

(* the same journal at table level: eight account blocks in table order; the block of
   Equity:Equity (E/I/E: negated, cumulative) and the ledger's amounts for it *)
Example C02_table_example :
  let acc s := acc_of_name s in
  let A := [65;115;115;101;116;115;58;66] (* Assets:B *) in
  let I := [73;110;99;111;109;101;58;83] (* Income:S *) in
  let E := [69;120;112;101;110;115;101;115;58;82] (* Expenses:R *) in
  let EQ := [s_Equity; s_Equity] in
  let chf := [67;72;70] in
  let d0 := Date.of_civil 2020 1 5 in
  let ds := [ SOpen d0 (acc A); SOpen d0 (acc I); SOpen d0 (acc E);
              STxn (mkStxn (d0 + 1) [] [mkBooking (acc I) (acc A) (mkDec 1000 0) chf] None None);
              STxn (mkStxn (d0 + 35) [] [mkBooking (acc A) (acc E) (mkDec 200 0) chf] None None);
              STxn (mkStxn (d0 + 40) [] [mkBooking (acc I) (acc A) (mkDec 1000 0) chf] None None);
              STxn (mkStxn (d0 + 70) [] [mkBooking (acc A) (acc E) (mkDec 300 0) chf] None None);
              STxn (mkStxn (d0 + 89) [] [mkBooking (acc A) (acc E) (mkDec 50 0) chf] None None) ] in
  let cfg := mkBalanceCfg 0 (d0 + 90) Monthly 0 false true None true [] [] [] [] [] true in
  match balance_report cfg ds, parse_directives ds with
  | COk (r, part), MOk dl =>
    let rc := balance_render_cfg cfg in
    let dates := end_dates part in
    postings_syntactic_b dl = true /\
    map fst (account_blocks rc r dates) =
      [[s_Assets]; acc A; [s_Equity]; EQ; [s_Income]; acc I; [s_Expenses]; acc E] /\
    length (t_rows (render_report rc r dates)) = 21%nat /\
    map (fun pa => acct_lines rc dates (fst pa) (snd pa)) (filter (fun pa => acc_eqb (fst pa) EQ) (account_rows rc r)) =
      [[[CText s_Equity ALeft 2; CText chf ALeft 0; CNum (mkDec 0 0); CNum (mkDec 1000 0); CNum (mkDec 1800 0); CNum (mkDec 1500 0)]]] /\
    cell_amounts false true (ledger_entries cfg dl part) (acc_eqb EQ) chf dates dec_nil =
      [mkDec 0 0; mkDec 1000 0; mkDec 1800 0; mkDec 1500 0]
  | _, _ => False
  end.
Proof. vm_compute. repeat split. Qed.

(* the same journal: the commodity lines of the total rows, and the CSV text against ledger_csv *)
Example C02_csv_example :
  let acc s := acc_of_name s in
  let A := [65;115;115;101;116;115;58;66] (* Assets:B *) in
  let I := [73;110;99;111;109;101;58;83] (* Income:S *) in
  let E := [69;120;112;101;110;115;101;115;58;82] (* Expenses:R *) in
  let chf := [67;72;70] in
  let d0 := Date.of_civil 2020 1 5 in
  let ds := [ SOpen d0 (acc A); SOpen d0 (acc I); SOpen d0 (acc E);
              STxn (mkStxn (d0 + 1) [] [mkBooking (acc I) (acc A) (mkDec 1000 0) chf] None None);
              STxn (mkStxn (d0 + 35) [] [mkBooking (acc A) (acc E) (mkDec 200 0) chf] None None);
              STxn (mkStxn (d0 + 40) [] [mkBooking (acc I) (acc A) (mkDec 1000 0) chf] None None);
              STxn (mkStxn (d0 + 70) [] [mkBooking (acc A) (acc E) (mkDec 300 0) chf] None None);
              STxn (mkStxn (d0 + 89) [] [mkBooking (acc A) (acc E) (mkDec 50 0) chf] None None) ] in
  let cfg := mkBalanceCfg 0 (d0 + 90) Monthly 0 false true None true [] [] [] [] [] true in
  match balance_report cfg ds, balance_csv cfg ds, parse_directives ds with
  | COk (r, part), COk text, MOk dl =>
    let rc := balance_render_cfg cfg in
    postings_syntactic_b dl = true /\
    ra_commodities (node_totals (total_key rc) (sorted_al rc r) []) = [Some chf] /\
    shown_commodities (filter is_AL_entry (ledger_entries cfg dl part)) (fun _ => true) (end_dates part) = [chf] /\
    match ledger_csv cfg dl with
    | Some rows => length rows = 12%nat /\ text = concat (map (fun rec => join [44] rec ++ [10]) rows)
    | None => False
    end /\
    (* without -a: the same text *)
    balance_csv (mkBalanceCfg 0 (d0 + 90) Monthly 0 false true None false [] [] [] [] [] true) ds = COk text
  | _, _, _ => False
  end.
Proof. vm_compute. repeat split. Qed.
