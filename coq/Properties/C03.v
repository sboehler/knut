(* C03  Valued balances are mark-to-market at the latest known price.
   Specification vocabulary: Spec/MarkToMarketSpec.v (cell_value, cell_qty, cell_count, price_value,
   last_normalized: one cell (account, commodity) of the valued days, in rationals),
   Spec/PriceDaySpec.v (price_on: the prices in force on day k = normalisation of all declarations
   up to and including day k, C12), Spec/ValuationSpec.v (the closed form the runtime check
   evaluates on the binary's output: price_on, qty_upto, market_value, mtm_expected, within_bound,
   missing_price_b).  Model: Model/Pipeline.v valuate_proc, compute_prices_proc.

   Proved here (Proofs/ValuationProofs.v, Proofs/MarkToMarket.v):
   * the arithmetic core (Abel summation), the exact behaviour of one valuation step (booking-day
     value, oddness), the error of one Multiply as a rational: |multiply a b - a*b| <= 10^-8, = 0
     when the product has at most 8 decimals;
   * END TO END over days, C03_mark_to_market_stage / C03_mark_to_market: for the Valuate stage
     run from its initial state over any list of days (and for ComputePrices followed by
     Valuate), every asset/liability account a and commodity c <> V:
         | posted value of (a,c)  -  quantity(a,c,T) * price(c,T) |  <=  n_steps * 10^-8
     posted value = sum of the values the stage put on the cell's postings (bookings at their
     booking day + the daily "Adjust value" revaluations), quantity = exact sum of the booked
     quantities, price = the normalised price of the last day (= price_on of the declarations up
     to the last day; a day without declarations carries the previous prices forward:
     C03_prices_carried_forward), n_steps = number of the cell's postings after the stage = the
     number of Multiply calls that contributed (one per booking, one per revaluation); it is at
     most (bookings of the cell + number of days): C03_mark_to_market_input_bound.
     C03_mark_to_market_exact: no error at all when quantities have at most kq and prices at most
     kp decimals, kq + kp <= 8.  C03_held_has_price: a non-zero final quantity has a price (the
     0 that price_value returns for a missing price is never used).
     Induction over days with the invariant  V_d - Q_d * p_d = sum of one error per step, in
     delta form (C03_delta: from any reachable state), which also gives the window
     (C03_windowed_partial): value posted after the first k days = Q_T p_T - Q_k p_k +- n * 10^-8;
   * the shape of the revaluation transactions (gain between the account and the Income account
     mirroring its path, only for open asset/liability positions in a commodity other than V:
     C03_gain_mirror, C03_only_AL_revalued), accounts that are neither asset/liability nor Income
     get no revaluation posting at all (C03_other_accounts_not_revalued), and a missing price
     makes the stage fail (C03_missing_price_fails).
   Input side conditions of the end-to-end theorems (posting_in_ok): posting accounts are
   syntactically valid (account_ok: what the parser accepts) and a booking of quantity zero enters
   the stage with value zero (the builder creates every posting with the zero Value: proved,
   C03_built_days_in_ok; C03_mark_to_market_balance_prefix is the statement for the days that
   leave the valuate stage of the balance command's pipeline, with the validity of the posting
   accounts as the only side condition).

   ON THE RENDERED REPORT (Proofs/MarkToMarketReport.v, MarkToMarketWindow.v,
   MarkToMarketJournal.v, MarkToMarketFinal.v, MarkToMarketRow.v; vocabulary
   Spec/MarkToMarketReportSpec.v).  DESIGN.md section 7 states the window on the report,

     Theorem C03_windowed : is_AL a -> run_balance cfg J = Ok r ->
       | value_cell r a col - (sum_c Q_T(a,c) * p_T(c) - sum_c Q_s(a,c) * p_s(c)) | <= n_steps * 10^-8

   with T the last journal day <= col, s the last journal day before the window.  Proved, for
   Cli.balance_report on the syntax-level directives of the loaded files, every valuation commodity,
   window, interval, --last, with and without --close:
   * C03_report_cells (the valued analogue of C02_cells): the tree cell (a, col, c) of an
     asset/liability account = the sum of the values Valuate posted on (a, c) inside the window and
     attributed to col.  Filter drops whole days; CloseAccounts adds transactions between accounts
     that are neither assets nor liabilities only; Query/Report add exactly.
   * C03_windowed_cell (one commodity c <> V), C03_windowed_valuation_commodity (c = V: exact),
     C03_windowed (any list of commodities: the row), C03_windowed_expected (the row against
     Spec.ValuationSpec.mtm_expected, the decimal the runtime check computes),
     C03_mark_to_market_report (nothing booked before the window: value = Q_T p_T).
     Quantities and prices are those of Spec/ValuationSpec.v on the directives (qty_upto: bookings
     dated <= T; price_on: the declarations dated <= T in date order, journal order within a day,
     inserted and normalised: C12); the builder's days carry exactly these
     (C03_days_quantity_is_journal_quantity, C03_days_price_is_journal_price: the stable sort by
     date of the specification = the order of the days).  n_steps is a closed form of the input:
     bookings of the cell in the window + journal days in the window (+ period starts with
     --close) per commodity other than V (cell_steps, row_steps): an upper bound of the
     contributing Multiply calls.
   Side conditions of these theorems: postings_syntactic dl (what the parser guarantees for
   account names, as in C02/C04/C05: C03_syntactic_sufficient; account_ok on posting accounts is
   discharged from it, the value-zero condition by the builder); account_ok a; the account is
   shown as itself (shows_account: no mapping rule or remap moves it or another account onto it;
   other accounts may be shortened, swapped or hidden; true without --mapping and --remap,
   C03_shows_account_plain) and passes the --account/--commodity filters; the window is not empty and col is a period end.

   THE VERDICT OF THE RUNTIME CHECK HOLDS OF THE MODEL (last part of this file; Proofs/MarkToMarketSteps.v):
   the check accepts a valued cell when ValuationSpec.within_bound observed expected n with
   (expected, n) the column's entry of ValuationSpec.mtm_row, n = step_bound dl a W E = bookings of
   the account in the window + (dates of the journal in the window) * (held commodities) + 1.
   C03_model_meets_spec: for every configuration with a valuation commodity and every journal on
   which the balance command succeeds, every asset/liability account shown as itself and every
   column, mtm_row exists, has one entry per column, and the model's row lies within that
   allowance of the expected value (as rationals, and as the boolean within_bound:
   C03_within_bound_value).  The count behind it (C03_windowed_tight, row_steps_tight): Valuate
   skips a revaluation whose price difference is zero (C03_no_revaluation_without_price_change) and
   ComputePrices carries the prices over a day without declarations, so a cell gains at most one
   posting per booking and one per day that declares a price; the days --close touches at the
   period starts carry nothing and never count (row_steps above charges them and every journal
   day: 7 against the allowance 5 in the example below; the tight count is 4).
   C03_step_bound_suffices: the tight count over the held commodities <= step_bound.

   ROWS AGGREGATED BY --mapping / SWAPPED BY --remap (Proofs/MarkToMarketMapped.v, vocabulary
   Spec/MarkToMarketMappedSpec.v): C03_windowed_mapped: a row b of asset/liability type, whatever
   the mapping rules and --remap do, shows the sum over the accounts that land on it (lands_on:
   remap, then the first matching rule; row_sources: the accounts with bookings in the journal that
   land on b and pass --account, each once; C03_sources_of: the executable list sources_of is one)
   of their mark-to-market changes, up to the sum of their step counts.  No shows_account condition;
   an account shown as itself is the case srcs = [a].

   THE EXPECTATION IS DEFINED (Proofs/MarkToMarketDefined.v): C03_held_price_every_day: if the balance
   command succeeds then on EVERY date T every commodity other than V of which an asset/liability
   account holds a non-zero quantity has a price in V from the declarations dated <= T (the run over
   the days dated <= T is a prefix of the successful run; C03_held_has_price on that prefix; the
   option-level link between the days' prices and ValuationSpec.price_on).  C03_expected_defined:
   hence market_value, mtm_expected (every window start, every date) and every entry of mtm_row are
   Some, for every asset/liability account with a valid name, whatever the mapping, the filters and
   the window; C03_expected_defined_journal_accounts: for the accounts the runtime check visits
   (al_accounts) the parser's guarantee is the only side condition.  The corner the definition of
   market_value respects: C03_held_commodity_has_price_refuted -- a commodity booked only with
   quantity zero is held, never priced, and the command succeeds; market_value skips it.

   THE VERDICT ON AGGREGATED ROWS (Spec/ValuationMappedSpec.v, Proofs/MarkToMarketMappedVerdict.v):
   C03_model_meets_spec_mapped: for every row b of asset/liability type, mtm_row_mapped (the sum over
   sources_of of mtm_expected, within the sum of step_bound) exists, every entry carries an
   expectation, and the model's row lies within the allowance.  Behind it C03_windowed_mapped_held
   (each aggregated account charged for its own commodities only) and C03_unbooked_cell (the
   instance "quantity zero, error zero" of the cell invariant: a cell without a booking of a
   non-zero quantity receives no value).

   REPORTS RESTRICTED BY --account / --commodity (Spec/ValuationWhereSpec.v, Proofs/MarkToMarketWhere.v; last
   part of this file): the filters are the Where predicate of the report's query -- they select what
   the report adds up, not what ComputePrices and Valuate see; prices of commodities that are not
   shown are still needed and used.  held_where = the held commodities c with cfg_where cfg a c;
   market_value_where / mtm_expected_where / step_bound_where / mtm_row_where / mtm_row_where_mapped:
   the sums above over held_where, for the accounts that pass --account (sources_of).
   C03_windowed_mapped_where and C03_model_meets_spec_where_mapped: the window and the verdict of the
   runtime check for EVERY configuration -- no hypothesis on mapping, remap or filters;
   C03_model_meets_spec_where for an account shown as itself; C03_filtered_out_row_zero;
   C03_where_unfiltered, C03_where_mapped_unfiltered: without filters the specification is the one
   above.

   NOT PROVED (decided on every run by evaluating mtm_row_where_mapped / within_bound on the binary's output
   and by the byte-exact correspondence of the model):
   * the printed row: that the renderer's collapsed line of a valued row is the sum over the
     commodity keys of the node and the cumulative presentation over the columns (C02_row_cumulative
     gives the latter per key); value_cell here is the sum of the tree's cells. *)
From Coq Require Import ZArith QArith Qabs List Bool.
From Knut Require Import Model.Str Model.Dec Model.Account Model.Ledger Model.Price Model.Journal Model.Check Model.Pipeline
     Spec.WellformedSpec Spec.MarkToMarketSpec Spec.PriceDaySpec
     Proofs.DecProofs Proofs.DecValue Proofs.PairProofs Proofs.ValuationProofs Proofs.MarkToMarket.
From Knut Require Model.Cli Proofs.LedgerProofs Proofs.PriceDayProofs Proofs.CloseProofs.
Import ListNotations.

(* booking values plus revaluations telescope to (last price) * (total quantity) *)
Theorem C03_abel : forall l p0 Q0,
  (abel_sum l p0 Q0 == last_price l p0 * total_qty l Q0 - p0 * Q0)%Q.
Proof. exact abel. Qed.
Print Assumptions C03_abel.

(* one multiplication step: exact when the product has at most 8 decimals, otherwise cut toward
   zero by less than 10^-8 (at the scale of the product's own exponent) *)
Theorem C03_truncation_step : forall d p,
  (0 <= p)%Z -> (ex d < - p)%Z ->
  let t := truncate d p in
  ex t = (- p)%Z /\
  (Z.abs (coef t) * pow10 (- p - ex d) <= Z.abs (coef d) < (Z.abs (coef t) + 1) * pow10 (- p - ex d))%Z /\
  ((0 <= coef d)%Z -> (0 <= coef t)%Z) /\ ((coef d <= 0)%Z -> (coef t <= 0)%Z).
Proof. exact truncate_error. Qed.
Print Assumptions C03_truncation_step.

Theorem C03_step_exact : forall a b, (- 8 <= ex a + ex b)%Z -> (dvalue (multiply a b) == dvalue a * dvalue b)%Q.
Proof. exact multiply_value_exact. Qed.
Print Assumptions C03_step_exact.

(* valuation is an odd function of the quantity: the two halves of a booking stay negatives *)
Theorem C03_step_odd : forall a b, multiply (neg a) b = neg (multiply a b).
Proof. exact multiply_neg_l. Qed.
Print Assumptions C03_step_odd.

(* every booking (income, expense and equity ones too) is valued at the price of its booking day *)
Theorem C03_flow_at_booking_day : forall v s t p s' p',
  val_posting v s t p = ROk (s', p') ->
  p_acc p' = p_acc p /\ p_other p' = p_other p /\ p_com p' = p_com p /\ p_qty p' = p_qty p /\
  (is_zero (p_qty p) = true -> p_val p' = p_val p) /\
  (is_zero (p_qty p) = false -> str_eqb v (p_com p) = true -> p_val p' = p_qty p) /\
  (is_zero (p_qty p) = false -> str_eqb v (p_com p) = false ->
     exists np pr, v_cur s = Some np /\ np_price np (p_com p) = Some pr /\ p_val p' = multiply (p_qty p) pr).
Proof. exact val_posting_value. Qed.
Print Assumptions C03_flow_at_booking_day.

(* a needed price that does not exist on the booking day is an error, not a number *)
Theorem C03_missing_price_fails : forall v s t p,
  is_zero (p_qty p) = false -> str_eqb v (p_com p) = false ->
  (match v_cur s with Some np => np_price np (p_com p) | None => None end) = None ->
  exists c, val_posting v s t p = RErr k_no_price c.
Proof.
  intros v s t p Hz Hv Hp. unfold val_posting. rewrite Hz, Hv.
  destruct (v_cur s) as [np|]; [|eauto]. unfold np_valuate, np_price in *. rewrite Hp. eauto.
Qed.
Print Assumptions C03_missing_price_fails.

(* the revaluation gain is booked between the account and the income account mirroring its path *)
Theorem C03_gain_mirror : forall v date prev cur pos ts,
  val_adjustments v date prev cur pos = ROk ts ->
  Forall (fun t => t_date t = date /\
                   exists k0 a c q pp cp, In (k0, (a, c, q)) pos /\
                     np_price_opt prev c = Some pp /\ np_price_opt cur c = Some cp /\
                     t_postings t = pair_build (valuation_account_for a) a c dec_nil (multiply (sub cp pp) q)) ts.
Proof. exact val_adjustments_shape. Qed.
Print Assumptions C03_gain_mirror.

Open Scope Q_scope.

(* one Multiply, as rationals: cut toward zero by at most 10^-8 *)
Theorem C03_multiply_error : forall a b, Qabs (dvalue (multiply a b) - dvalue a * dvalue b) <= 1 # 100000000.
Proof. exact merr_bound. Qed.
Print Assumptions C03_multiply_error.

(* the Valuate stage from its initial state over any list of days: posted value of an
   asset/liability cell = quantity * price of the last day, up to 10^-8 per contributing step *)
Theorem C03_mark_to_market_stage : forall v a c ds s' ds',
  account_ok a = true -> is_AL a = true -> c <> v ->
  Forall posting_in_ok (days_postings ds) ->
  process_days (valuate_proc v) val_init ds = ROk (s', ds') ->
  Qabs (cell_value a c (days_postings ds')
        - cell_qty a c (days_postings ds) * price_value (last_normalized None ds) c)
    <= inject_Z (cell_count a c (days_postings ds')) * (1 # 100000000).
Proof. exact mark_to_market_stage. Qed.
Print Assumptions C03_mark_to_market_stage.

(* ComputePrices then Valuate: the price is price_on of the declarations up to the last day *)
Theorem C03_mark_to_market : forall v a c ds0 s1 ds1 s2 ds2,
  account_ok a = true -> is_AL a = true -> c <> v -> ds0 <> [] ->
  Forall posting_in_ok (days_postings ds0) ->
  process_days (compute_prices_proc v) (mkCp [] None) ds0 = ROk (s1, ds1) ->
  process_days (valuate_proc v) val_init ds1 = ROk (s2, ds2) ->
  Qabs (cell_value a c (days_postings ds2)
        - cell_qty a c (days_postings ds0) * price_value (price_on v ds0 (pred (length ds0))) c)
    <= inject_Z (cell_count a c (days_postings ds2)) * (1 # 100000000).
Proof. exact mark_to_market_pipeline. Qed.
Print Assumptions C03_mark_to_market.

(* the prefix of the balance command (Model/Cli.v balance_report: load, touch for --close, check,
   prices, valuate): the value-zero side condition is discharged by the builder; what remains is
   the syntactic validity of the posting accounts *)
Theorem C03_mark_to_market_balance_prefix : forall l dl dates touch repaired v a c s0 days0 s1 ds1 s2 ds2,
  parse_directives l = MOk dl ->
  let days := b_days (if touch : bool then builder_touch (builder_of dl) dates else builder_of dl) in
  Forall (fun p => account_ok (p_acc p) = true) (days_postings days) ->
  account_ok a = true -> is_AL a = true -> c <> v -> days <> [] ->
  process_days (Cli.check_proc_current repaired) check_init days = ROk (s0, days0) ->
  process_days (compute_prices_proc v) (mkCp [] None) days0 = ROk (s1, ds1) ->
  process_days (valuate_proc v) (mkVal None None []) ds1 = ROk (s2, ds2) ->
  Qabs (cell_value a c (days_postings ds2)
        - cell_qty a c (days_postings days) * price_value (price_on v days (pred (length days))) c)
    <= inject_Z (cell_count a c (days_postings ds2)) * (1 # 100000000).
Proof.
  intros l dl dates touch repaired v a c s0 days0 s1 ds1 s2 ds2 Hl days Hacc Ha HAL Hcv Hne H0 H1 H2.
  pose proof (LedgerProofs.check_current_stage_id _ _ _ _ _ H0) as E. subst days0.
  apply (mark_to_market_pipeline v a c days s1 ds1 s2 ds2 Ha HAL Hcv Hne); [|exact H1|exact H2].
  exact (built_days_in_ok l dl dates touch Hl Hacc).
Qed.
Print Assumptions C03_mark_to_market_balance_prefix.

(* every journal the model builds satisfies the value-zero side condition *)
Theorem C03_built_days_in_ok : forall l dl dates touch,
  parse_directives l = MOk dl ->
  let days := b_days (if touch : bool then builder_touch (builder_of dl) dates else builder_of dl) in
  Forall (fun p => account_ok (p_acc p) = true) (days_postings days) ->
  Forall posting_in_ok (days_postings days).
Proof. exact built_days_in_ok. Qed.
Print Assumptions C03_built_days_in_ok.

(* the same with a step count read off the input: at most one revaluation per day for a cell *)
Theorem C03_mark_to_market_input_bound : forall v a c ds s' ds',
  account_ok a = true -> is_AL a = true -> c <> v ->
  Forall posting_in_ok (days_postings ds) ->
  process_days (valuate_proc v) val_init ds = ROk (s', ds') ->
  Qabs (cell_value a c (days_postings ds')
        - cell_qty a c (days_postings ds) * price_value (last_normalized None ds) c)
    <= inject_Z (cell_count a c (days_postings ds) + Z.of_nat (length ds)) * (1 # 100000000).
Proof.
  intros v a c ds s' ds' Ha HAL Hcv Hin H.
  eapply Qle_trans; [exact (mark_to_market_stage v a c ds s' ds' Ha HAL Hcv Hin H)|].
  apply Qmult_le_compat_r; [|exact eps8_nonneg]. rewrite <- Zle_Qle.
  apply (days_count v a c Ha HAL ds val_init s' ds' Hin); [|exact H].
  split; [constructor|intros x []].
Qed.
Print Assumptions C03_mark_to_market_input_bound.

(* no truncation at all when no product has more than 8 decimals *)
Theorem C03_mark_to_market_exact : forall v a c kq kp ds s' ds',
  account_ok a = true -> is_AL a = true -> c <> v ->
  (0 <= kq)%Z -> (kq + kp <= 8)%Z ->
  Forall posting_in_ok (days_postings ds) ->
  Forall (fun p => cellb a c p = true -> (- kq <= ex (p_qty p))%Z) (days_postings ds) ->
  Forall (fun d => forall pr, np_price_opt (d_normalized d) c = Some pr -> (- kp <= ex pr)%Z) ds ->
  process_days (valuate_proc v) val_init ds = ROk (s', ds') ->
  cell_value a c (days_postings ds') == cell_qty a c (days_postings ds) * price_value (last_normalized None ds) c.
Proof. exact mark_to_market_exact. Qed.
Print Assumptions C03_mark_to_market_exact.

(* a position that is not zero at the end has a price on the last day *)
Theorem C03_held_has_price : forall v a c ds s' ds',
  account_ok a = true -> is_AL a = true -> c <> v ->
  Forall posting_in_ok (days_postings ds) ->
  process_days (valuate_proc v) val_init ds = ROk (s', ds') ->
  ~ cell_qty a c (days_postings ds) == 0 ->
  exists pr, np_price_opt (last_normalized None ds) c = Some pr.
Proof. exact held_has_price. Qed.
Print Assumptions C03_held_has_price.

(* the invariant of the induction over days, from any state with a well-formed position map
   (sorted keys, entries keyed by their own account and commodity, asset/liability accounts only:
   every state the stage reaches, C03_positions_stay_wellformed) *)
Theorem C03_delta : forall v a c ds s s' ds',
  account_ok a = true -> is_AL a = true -> c <> v ->
  Forall posting_in_ok (days_postings ds) ->
  entries_ok (v_qty s) ->
  process_days (valuate_proc v) s ds = ROk (s', ds') ->
  v_prev s' = last_normalized (v_prev s) ds /\ entries_ok (v_qty s') /\
  posq a c (v_qty s') == posq a c (v_qty s) + cell_qty a c (days_postings ds) /\
  Qabs (cell_value a c (days_postings ds')
        - (posq a c (v_qty s') * price_value (v_prev s') c - posq a c (v_qty s) * price_value (v_prev s) c))
    <= inject_Z (cell_count a c (days_postings ds')) * (1 # 100000000).
Proof.
  intros v a c ds s s' ds' Ha HAL Hcv Hin Hs H.
  destruct (mtm_delta v a c ds s s' ds' Ha HAL Hcv Hin (proj1 (entries_ok_good a c _) Hs) H) as (B1 & B2 & B3 & B4).
  split; [exact B1|]. split; [exact (proj2 (entries_ok_good a c _) B2)|]. split; [exact B3|exact B4].
Qed.
Print Assumptions C03_delta.

Theorem C03_positions_stay_wellformed : forall v ds s s' ds',
  Forall posting_in_ok (days_postings ds) -> entries_ok (v_qty s) ->
  process_days (valuate_proc v) s ds = ROk (s', ds') -> entries_ok (v_qty s').
Proof. exact days_entries_ok. Qed.
Print Assumptions C03_positions_stay_wellformed.

(* the window on the days leaving the stage: the value posted on the days after the first |ds1| is
   the change of the market value between the end of ds1 and the end of the run.  (The statement
   on the report's cells is C03_windowed / C03_windowed_cell below.) *)
Theorem C03_windowed_partial : forall v a c ds1 ds2 s' out,
  account_ok a = true -> is_AL a = true -> c <> v ->
  Forall posting_in_ok (days_postings (ds1 ++ ds2)) ->
  process_days (valuate_proc v) val_init (ds1 ++ ds2) = ROk (s', out) ->
  Qabs (cell_value a c (days_postings (skipn (length ds1) out))
        - (cell_qty a c (days_postings (ds1 ++ ds2)) * price_value (last_normalized None (ds1 ++ ds2)) c
           - cell_qty a c (days_postings ds1) * price_value (last_normalized None ds1) c))
    <= inject_Z (cell_count a c (days_postings (skipn (length ds1) out))) * (1 # 100000000).
Proof. exact mark_to_market_window. Qed.
Print Assumptions C03_windowed_partial.

(* prices are carried forward: a day without declarations has the prices of the day before *)
Theorem C03_prices_carried_forward : forall v ds s' ds' k d d1 d2,
  process_days (compute_prices_proc v) (mkCp [] None) ds = ROk (s', ds') ->
  nth_error ds (S k) = Some d -> d_prices d = [] ->
  nth_error ds' k = Some d1 -> nth_error ds' (S k) = Some d2 ->
  d_normalized d2 = d_normalized d1.
Proof.
  intros v ds s' ds' k d d1 d2 H Hd Hp H1 H2. destruct (PriceDayProofs.compute_prices_days v _ _ _ H) as [_ Hn].
  rewrite (Hn _ _ H1), (Hn _ _ H2). apply (prices_carried_forward v ds k d Hd Hp).
Qed.
Print Assumptions C03_prices_carried_forward.

(* only open asset/liability positions in a commodity other than V are revalued *)
Theorem C03_only_AL_revalued : forall v date prev cur pos ts,
  val_adjustments v date prev cur pos = ROk ts ->
  Forall (fun t => exists k a c q gain, In (k, (a, c, q)) pos /\
                   is_AL a = true /\ str_eqb c v = false /\ is_zero q = false /\
                   t_postings t = pair_build (valuation_account_for a) a c dec_nil gain) ts.
Proof. exact val_adjustments_only_AL. Qed.
Print Assumptions C03_only_AL_revalued.

(* an account that is neither asset/liability nor Income (expenses, equity) never receives a
   revaluation posting: the stage leaves the number of postings of each of its cells unchanged,
   and each keeps the value of its booking day (C03_flow_at_booking_day) *)
Theorem C03_other_accounts_not_revalued : forall v b cb,
  account_ok b = true -> is_AL b = false -> acc_type b <> Some Income ->
  forall ds s s' ds',
  Forall posting_in_ok (days_postings ds) -> entries_ok (v_qty s) ->
  process_days (valuate_proc v) s ds = ROk (s', ds') ->
  cell_count b cb (days_postings ds') = cell_count b cb (days_postings ds).
Proof. exact other_accounts_not_revalued. Qed.
Print Assumptions C03_other_accounts_not_revalued.

(* the hypotheses are satisfiable, and the bound is not vacuous: two price changes (days 2 and 4)
   while the position of 1.5 A (+ 0.3 A on day 3 at the carried-forward price) is open.
   Posted 5.99999998 = 1.85185183 + 1.14814818 + 0.60000000 + 2.39999997 (2 bookings, 2
   revaluations); exact 1.8 * 3.33333333 = 5.999999994; difference 1.4e-8 <= 4e-8. *)
Example C03_example_two_price_changes :
  account_ok ex_a = true /\ is_AL ex_a = true /\ ex_c <> ex_v /\
  Forall posting_in_ok (days_postings ex_days) /\
  exists s1 ds1 s2 ds2,
    process_days (compute_prices_proc ex_v) (mkCp [] None) ex_days = ROk (s1, ds1) /\
    process_days (valuate_proc ex_v) val_init ds1 = ROk (s2, ds2) /\
    cell_count ex_a ex_c (days_postings ds2) = 4%Z /\
    Qred (cell_value ex_a ex_c (days_postings ds2)) = 299999999 # 50000000 /\
    Qred (cell_qty ex_a ex_c (days_postings ex_days)) = 9 # 5 /\
    Qred (price_value (price_on ex_v ex_days 3) ex_c) = 333333333 # 100000000.
Proof.
  split; [reflexivity|]. split; [reflexivity|]. split; [discriminate|]. split; [exact ex_days_in_ok|].
  do 4 eexists. split; [vm_compute; reflexivity|]. split; [vm_compute; reflexivity|].
  repeat split; vm_compute; reflexivity.
Qed.

(* Vocabulary: Spec/MarkToMarketReportSpec.v (cum_cell, row_value: the report side; mv_cell, mv_row,
   cell_steps, row_steps: the journal side, on the directives as loaded) and Spec/ValuationSpec.v
   (price_on, qty_upto, market_value, mtm_expected: what the runtime check evaluates). *)
From Knut Require Import Model.Date Model.Report Model.Cli Spec.LedgerSpec Spec.LedgerSyntax Spec.MarkToMarketReportSpec
     Proofs.LedgerProofs Proofs.MarkToMarketReport Proofs.MarkToMarketWindow Proofs.MarkToMarketJournal
     Proofs.MarkToMarketFinal Proofs.MarkToMarketRow.
From Knut Require Spec.ValuationSpec.

(* the valued analogue of C02_cells: the cell of an asset/liability account a (tree node a, column
   col, commodity c) of a valued balance report holds the sum of the values the Valuate stage put
   on the postings of (a, c) dated inside the window and attributed to that column -- with and
   without --close (the closing transactions book between accounts that are neither assets nor
   liabilities), for every window, interval, --last *)
Theorem C03_report_cells : forall cfg ds r part V,
  bc_valuation cfg = Some V ->
  balance_report cfg ds = COk (r, part) ->
  exists dl dsP dsV,
    parse_directives ds = MOk dl /\
    new_partition (clip (mkPeriod (bc_from cfg) (bc_to cfg)) (journal_period dl)) (bc_interval cfg) (bc_last cfg) = POk part /\
    valued_run cfg V dl part dsP dsV /\
    (postings_syntactic dl ->
     forall a c col, account_ok a = true -> is_AL a = true -> shows_account cfg a -> cfg_where cfg a c = true ->
       rcell a (Some col, Some c) r ==
       LedgerProofs.qsum (fun dp => if in_span (span part) (fst dp) && in_col (periods part) col (fst dp) then cval a c dp else 0)
                         (LedgerProofs.days_postings dsV)).
Proof. exact valued_report_cells. Qed.
Print Assumptions C03_report_cells.

(* THE WINDOW, per commodity (DESIGN.md section 7 C03_windowed, one summand of the sum over c):
   for a journal as loaded (ds: the syntax-level directives of all files), any configuration with a
   valuation commodity V, and the report r the balance command builds:
     | cells of (a, c) cumulated up to the period end col  -  (Q_col p_col - Q_s p_s) |  <=  n * 10^-8
   Q_T = exact sum of the bookings of (a, c) dated <= T (ValuationSpec.qty_upto), p_T = price of c
   in V from the declarations dated <= T, inserted in date order and normalised
   (ValuationSpec.price_on: C12), s = the day before the window, n = bookings of (a, c) in the
   window + days of the journal in the window (+ the period starts with --close): an upper bound
   of the Multiply calls that contribute.
   Side conditions: the parser's guarantee on account names (postings_syntactic, implied by
   WellformedSpec.syntactic: C03_syntactic_sufficient); the account is shown as itself
   (shows_account: holds without --mapping/--remap, C03_shows_account_plain) and passes the
   --account/--commodity filters; the window is not empty; col is one of the report's columns. *)
Theorem C03_windowed_cell : forall cfg ds r part V,
  bc_valuation cfg = Some V ->
  balance_report cfg ds = COk (r, part) ->
  exists dl,
    parse_directives ds = MOk dl /\
    new_partition (clip (mkPeriod (bc_from cfg) (bc_to cfg)) (journal_period dl)) (bc_interval cfg) (bc_last cfg) = POk part /\
    (postings_syntactic dl ->
     forall a c col, account_ok a = true -> is_AL a = true -> shows_account cfg a -> cfg_where cfg a c = true -> c <> V ->
       (p_start (span part) <= p_end (span part))%Z -> In col (end_dates part) ->
       Qabs (cum_cell a c part col r
             - (mv_cell dl V a c col - mv_cell dl V a c (p_start (span part) - 1)))
         <= inject_Z (cell_steps cfg dl part a c col) * (1 # 100000000)).
Proof. exact windowed_report. Qed.
Print Assumptions C03_windowed_cell.

(* the valuation commodity itself is carried at its quantity: no Multiply, no error *)
Theorem C03_windowed_valuation_commodity : forall cfg ds r part V,
  bc_valuation cfg = Some V ->
  balance_report cfg ds = COk (r, part) ->
  exists dl,
    parse_directives ds = MOk dl /\
    new_partition (clip (mkPeriod (bc_from cfg) (bc_to cfg)) (journal_period dl)) (bc_interval cfg) (bc_last cfg) = POk part /\
    (postings_syntactic dl ->
     forall a col, account_ok a = true -> is_AL a = true -> shows_account cfg a -> cfg_where cfg a V = true ->
       (p_start (span part) <= p_end (span part))%Z -> In col (end_dates part) ->
       cum_cell a V part col r == mv_cell dl V a V col - mv_cell dl V a V (p_start (span part) - 1)).
Proof. exact windowed_report_V. Qed.
Print Assumptions C03_windowed_valuation_commodity.

(* THE WINDOW, the whole row (DESIGN.md C03_windowed): a valued row adds up the commodities of the
   account; over any list of commodities (that pass the filters)
     | sum_c cells(a, c, <= col)  -  (sum_c Q_col p_col - sum_c Q_s p_s) |  <=  n_steps * 10^-8 *)
Theorem C03_windowed : forall cfg ds r part V,
  bc_valuation cfg = Some V ->
  balance_report cfg ds = COk (r, part) ->
  exists dl,
    parse_directives ds = MOk dl /\
    new_partition (clip (mkPeriod (bc_from cfg) (bc_to cfg)) (journal_period dl)) (bc_interval cfg) (bc_last cfg) = POk part /\
    (postings_syntactic dl ->
     forall a col coms, account_ok a = true -> is_AL a = true -> shows_account cfg a ->
       (forall c, In c coms -> cfg_where cfg a c = true) ->
       (p_start (span part) <= p_end (span part))%Z -> In col (end_dates part) ->
       Qabs (row_value a part col r coms
             - (mv_row dl V a col coms - mv_row dl V a (p_start (span part) - 1) coms))
         <= inject_Z (row_steps cfg dl part V a col coms) * (1 # 100000000)).
Proof. exact windowed_row. Qed.
Print Assumptions C03_windowed.

(* ... against the number the runtime check computes (Spec.ValuationSpec.mtm_expected, exact
   decimals): over the commodities the account holds *)
Theorem C03_windowed_expected : forall cfg ds r part V,
  bc_valuation cfg = Some V ->
  balance_report cfg ds = COk (r, part) ->
  exists dl,
    parse_directives ds = MOk dl /\
    new_partition (clip (mkPeriod (bc_from cfg) (bc_to cfg)) (journal_period dl)) (bc_interval cfg) (bc_last cfg) = POk part /\
    (postings_syntactic dl ->
     forall a col e, account_ok a = true -> is_AL a = true -> shows_account cfg a ->
       (forall c, cfg_where cfg a c = true) ->
       (p_start (span part) <= p_end (span part))%Z -> In col (end_dates part) ->
       ValuationSpec.mtm_expected dl V a (p_start (span part)) col = Some e ->
       let coms := ValuationSpec.held_commodities (flat_postings dl) a in
       Qabs (row_value a part col r coms - dvalue e)
         <= inject_Z (row_steps cfg dl part V a col coms) * (1 # 100000000)).
Proof.
  intros cfg ds r part V Hv H. destruct (windowed_row cfg ds r part V Hv H) as (dl & Ep & Epart & Hw).
  exists dl. split; [exact Ep|]. split; [exact Epart|].
  intros Hsyn a col e Ha HAL Hsh Hwh Hspan Hcol He coms.
  rewrite (mtm_expected_sum _ _ _ _ _ _ He).
  exact (Hw Hsyn a col coms Ha HAL Hsh (fun c _ => Hwh c) Hspan Hcol).
Qed.
Print Assumptions C03_windowed_expected.

Theorem C03_market_value_sum : forall dl V a T x,
  ValuationSpec.market_value dl V a T = Some x ->
  dvalue x == mv_row dl V a T (ValuationSpec.held_commodities (flat_postings dl) a).
Proof. exact market_value_sum. Qed.
Print Assumptions C03_market_value_sum.

(* the corollary of DESIGN.md for windows that cover the bookings of the position (the default
   window starts at the first transaction): the value shown is quantity * latest price *)
Theorem C03_mark_to_market_report : forall cfg ds r part V,
  bc_valuation cfg = Some V ->
  balance_report cfg ds = COk (r, part) ->
  exists dl,
    parse_directives ds = MOk dl /\
    new_partition (clip (mkPeriod (bc_from cfg) (bc_to cfg)) (journal_period dl)) (bc_interval cfg) (bc_last cfg) = POk part /\
    (postings_syntactic dl ->
     forall a c col, account_ok a = true -> is_AL a = true -> shows_account cfg a -> cfg_where cfg a c = true -> c <> V ->
       (p_start (span part) <= p_end (span part))%Z -> In col (end_dates part) ->
       no_booking_before dl a c (p_start (span part)) ->
       Qabs (cum_cell a c part col r - mv_cell dl V a c col)
         <= inject_Z (cell_steps cfg dl part a c col) * (1 # 100000000)).
Proof.
  intros cfg ds r part V Hv H. destruct (windowed_report cfg ds r part V Hv H) as (dl & Ep & Epart & Hw).
  exists dl. split; [exact Ep|]. split; [exact Epart|].
  intros Hsyn a c col Ha HAL Hsh Hwh Hcv Hspan Hcol Hnb.
  eapply Qle_trans; [|exact (Hw Hsyn a c col Ha HAL Hsh Hwh Hcv Hspan Hcol)].
  apply Qle_lteq. right. apply Qabs_wd. rewrite (mv_before_zero dl V a c _ Hnb). ring.
Qed.
Print Assumptions C03_mark_to_market_report.

(* the links between the two vocabularies: quantities and prices read off the builder's days
   (C03_mark_to_market, C03_windowed_partial above) are those of the directives *)
Theorem C03_days_quantity_is_journal_quantity : forall close dl part a c T,
  qty_on_days a c (built_days close dl part) T == dvalue (ValuationSpec.qty_upto (flat_postings dl) a c T).
Proof. exact qty_on_days_journal. Qed.
Print Assumptions C03_days_quantity_is_journal_quantity.

Theorem C03_days_price_is_journal_price : forall close dl part V c T, c <> V ->
  price_on_days V c (built_days close dl part) T = price_q (ValuationSpec.price_on dl V c T).
Proof. exact price_on_days_journal. Qed.
Print Assumptions C03_days_price_is_journal_price.

(* the side conditions *)
Theorem C03_shows_account_plain : forall cfg a, bc_mapping cfg = [] -> bc_remap cfg = [] -> shows_account cfg a.
Proof. intros cfg a Hm Hr b _. rewrite Hm, Hr. reflexivity. Qed.
Print Assumptions C03_shows_account_plain.

Theorem C03_syntactic_sufficient : forall ds dl,
  (forall dl', parse_directives ds = MOk dl' -> syntactic dl') -> parse_directives ds = MOk dl -> postings_syntactic dl.
Proof. intros ds dl H E. apply CloseProofs.syntactic_postings. apply H. exact E. Qed.
Print Assumptions C03_syntactic_sufficient.

(* Both sides evaluated on a valued, windowed report with --close (Proofs/MarkToMarketFinal.v
   exr_journal): Assets:B buys 1.5 A on 2021-03-01 and 0.3 A on 03-03; A costs 1.23456789 C on
   03-01, 2.00000001 C on 03-02, 3.33333333 C on 03-04; daily columns over 03-02 .. 03-04, so the
   first purchase lies before the window.  Column 03-02: 1.14814818 = 1.5 * (2.00000001 -
   1.23456789) exactly.  Column 03-04: the report shows 4.14814815, the closed form gives
   1.8 * 3.33333333 - 1.5 * 1.23456789 = 4.148148159; difference 9e-9 <= 7e-8. *)
Example C03_example_windowed_report :
  match balance_report (exr_cfg true) exr_journal, parse_directives exr_journal with
  | COk (r, part), MOk dl =>
    let W := p_start (span part) in
    let col1 := (exr_d0 + 1)%Z in let col3 := (exr_d0 + 3)%Z in
    postings_syntactic_b dl = true /\ account_ok exr_a = true /\ is_AL exr_a = true /\
    cfg_where (exr_cfg true) exr_a exr_c = true /\ exr_c <> exr_V /\
    end_dates part = [col1; (exr_d0 + 2)%Z; col3] /\ W = col1 /\
    Qred (cum_cell exr_a exr_c part col1 r) = 57407409 # 50000000 /\
    Qred (mv_cell dl exr_V exr_a exr_c col1 - mv_cell dl exr_V exr_a exr_c (W - 1)) = 57407409 # 50000000 /\
    Qred (cum_cell exr_a exr_c part col3 r) = 82962963 # 20000000 /\
    Qred (mv_cell dl exr_V exr_a exr_c col3 - mv_cell dl exr_V exr_a exr_c (W - 1)) = 4148148159 # 1000000000 /\
    cell_steps (exr_cfg true) dl part exr_a exr_c col3 = 7%Z /\
    ValuationSpec.mtm_expected dl exr_V exr_a W col3 = Some (mkDec 4148148159 (-9))
  | _, _ => False
  end.
Proof. vm_compute. repeat split; discriminate. Qed.

(* Vocabulary: Spec/ValuationSpec.v mtm_row, mtm_expected, step_bound, within_bound (what
   Extract/drv/drv_c03.ml evaluates on the binary's output); Proofs/MarkToMarketSteps.v
   cell_steps_tight, row_steps_tight (bookings of the cell in the window + dates of the journal in
   the window, per commodity other than V; nothing for --close). *)
From Knut Require Import Proofs.MarkToMarketSteps.

(* no price moved between two days: Valuate books no revaluation at all *)
Theorem C03_no_revaluation_without_price_change : forall v date p pos ts,
  val_adjustments v date p p pos = ROk ts -> ts = [].
Proof. exact adj_same. Qed.
Print Assumptions C03_no_revaluation_without_price_change.

(* THE WINDOW, the whole row, with the count that ignores days without a price declaration and the
   days --close adds *)
Theorem C03_windowed_tight : forall cfg ds r part V,
  bc_valuation cfg = Some V ->
  balance_report cfg ds = COk (r, part) ->
  exists dl,
    parse_directives ds = MOk dl /\
    new_partition (clip (mkPeriod (bc_from cfg) (bc_to cfg)) (journal_period dl)) (bc_interval cfg) (bc_last cfg) = POk part /\
    (postings_syntactic dl ->
     forall a col coms, account_ok a = true -> is_AL a = true -> shows_account cfg a ->
       (forall c, In c coms -> cfg_where cfg a c = true) ->
       (p_start (span part) <= p_end (span part))%Z -> In col (end_dates part) ->
       Qabs (row_value a part col r coms
             - (mv_row dl V a col coms - mv_row dl V a (p_start (span part) - 1) coms))
         <= inject_Z (row_steps_tight dl V a (p_start (span part)) col coms) * (1 # 100000000)).
Proof. exact windowed_row_tight. Qed.
Print Assumptions C03_windowed_tight.

(* that count, over the commodities the account holds, is within the allowance of the check *)
Theorem C03_step_bound_suffices : forall dl V a W E,
  (row_steps_tight dl V a W E (ValuationSpec.held_commodities (flat_postings dl) a) <= ValuationSpec.step_bound dl a W E)%Z.
Proof. exact row_steps_step_bound. Qed.
Print Assumptions C03_step_bound_suffices.

(* the boolean the check evaluates is the inequality between the rational values *)
Theorem C03_within_bound_value : forall o e n,
  ValuationSpec.within_bound o e n = true <-> Qabs (dvalue o - dvalue e) <= inject_Z n * (1 # 100000000).
Proof. exact within_bound_value. Qed.
Print Assumptions C03_within_bound_value.

(* THE MODEL MEETS THE CHECK'S VERDICT: per column j of the report, with (Some e, n) the j-th entry
   of mtm_row (expected value and allowance as the check computes them from the directives), the
   row of the model's report is within n * 10^-8 of e; hence within_bound accepts every decimal
   that carries the row's value.  Side conditions as in C03_windowed_expected. *)
Theorem C03_model_meets_spec : forall cfg ds r part V,
  bc_valuation cfg = Some V ->
  balance_report cfg ds = COk (r, part) ->
  exists dl,
    parse_directives ds = MOk dl /\
    (postings_syntactic dl ->
     forall a, account_ok a = true -> is_AL a = true -> shows_account cfg a ->
       (forall c, cfg_where cfg a c = true) ->
       (p_start (span part) <= p_end (span part))%Z ->
       exists exps,
         ValuationSpec.mtm_row cfg dl a = Some exps /\ length exps = length (end_dates part) /\
         forall j col e n, nth_error (end_dates part) j = Some col -> nth_error exps j = Some (Some e, n) ->
           let coms := ValuationSpec.held_commodities (flat_postings dl) a in
           Qabs (row_value a part col r coms - dvalue e) <= inject_Z n * (1 # 100000000) /\
           forall o, dvalue o == row_value a part col r coms -> ValuationSpec.within_bound o e n = true).
Proof. exact model_meets_spec. Qed.
Print Assumptions C03_model_meets_spec.

(* The hypotheses are satisfiable and the step counts differ as described: the valued, windowed
   report with --close of C03_example_windowed_report.  mtm_row gives the allowances 2, 4, 5 for the
   three columns; the tight count of the model is 1, 3, 4; row_steps of C03_windowed charges 4, 6, 7
   (a revaluation on every journal day and on the three period starts), which did not imply the
   check's allowance.  The rows the model shows lie within the allowance. *)
Example C03_example_model_meets_spec :
  match balance_report (exr_cfg true) exr_journal, parse_directives exr_journal with
  | COk (r, part), MOk dl =>
    let coms := ValuationSpec.held_commodities (flat_postings dl) exr_a in
    let W := p_start (span part) in
    postings_syntactic_b dl = true /\ account_ok exr_a = true /\ is_AL exr_a = true /\
    ValuationSpec.mtm_row (exr_cfg true) dl exr_a
      = Some [(Some (mkDec 1148148180 (-9)), 2%Z); (Some (mkDec 1748148183 (-9)), 4%Z); (Some (mkDec 4148148159 (-9)), 5%Z)] /\
    map (fun col => row_steps_tight dl exr_V exr_a W col coms) (end_dates part) = [1; 3; 4]%Z /\
    map (fun col => row_steps (exr_cfg true) dl part exr_V exr_a col coms) (end_dates part) = [4; 6; 7]%Z /\
    map (fun col => Qred (row_value exr_a part col r coms)) (end_dates part)
      = [57407409 # 50000000; 87407409 # 50000000; 82962963 # 20000000] /\
    ValuationSpec.within_bound (mkDec 414814815 (-8)) (mkDec 4148148159 (-9)) 5 = true
  | _, _ => False
  end.
Proof. vm_compute. repeat split; discriminate. Qed.

From Knut Require Import Spec.MarkToMarketMappedSpec Proofs.MarkToMarketMapped.
Open Scope Q_scope.

(* THE WINDOW for any row of asset/liability type: with srcs the accounts of the journal that remap
   and the mapping rules send onto b (and that pass --account), over any list of commodities that
   pass --commodity:
     | row b  -  sum_{a in srcs} (sum_c Q_col(a,c) p_col(c) - sum_c Q_s(a,c) p_s(c)) |  <=  sum_{a in srcs} n_steps(a) * 10^-8
   n_steps(a) the tight count of C03_windowed_tight.  Side conditions: the parser's guarantee on
   account names, b syntactically valid, the window is not empty, col is a period end. *)
Theorem C03_windowed_mapped : forall cfg ds r part V,
  bc_valuation cfg = Some V ->
  balance_report cfg ds = COk (r, part) ->
  exists dl,
    parse_directives ds = MOk dl /\
    new_partition (clip (mkPeriod (bc_from cfg) (bc_to cfg)) (journal_period dl)) (bc_interval cfg) (bc_last cfg) = POk part /\
    (postings_syntactic dl ->
     forall b srcs col coms, account_ok b = true -> is_AL b = true -> row_sources cfg dl b srcs ->
       (forall c, In c coms -> com_pass cfg c = true) ->
       (p_start (span part) <= p_end (span part))%Z -> In col (end_dates part) ->
       Qabs (row_value b part col r coms
             - (mv_row_sum dl V srcs col coms - mv_row_sum dl V srcs (p_start (span part) - 1) coms))
         <= inject_Z (steps_sum dl V srcs (p_start (span part)) col coms) * (1 # 100000000)).
Proof. exact windowed_row_mapped. Qed.
Print Assumptions C03_windowed_mapped.

(* the aggregated accounts exist as an executable list *)
Theorem C03_sources_of : forall cfg dl b, postings_syntactic dl -> row_sources cfg dl b (sources_of cfg dl b).
Proof. exact sources_of_spec. Qed.
Print Assumptions C03_sources_of.

(* remap and the mapping rules keep an account in its class: what lands on an asset/liability row is
   an asset or a liability (so CloseAccounts and the Income mirrors never reach such a row) *)
Theorem C03_lands_class : forall cfg b a,
  account_ok a = true -> account_ok b = true -> lands_on cfg b a = true -> is_AL a = is_AL b.
Proof. exact lands_class. Qed.
Print Assumptions C03_lands_class.

(* Both sides on a report with --mapping 2 and --close (Proofs/MarkToMarketMapped.v exm_journal):
   Assets:B:X buys 1.5 A before the window, Assets:B:Y 0.3 A inside; both are shown on the row
   Assets:B, which carries the numbers of C03_example_windowed_report; the accounts themselves have
   no row. *)
Example C03_example_mapped_row :
  match balance_report exm_cfg exm_journal, parse_directives exm_journal with
  | COk (r, part), MOk dl =>
    let W := p_start (span part) in
    let srcs := sources_of exm_cfg dl exm_b in
    postings_syntactic_b dl = true /\ account_ok exm_b = true /\ is_AL exm_b = true /\
    srcs = [exm_x; exm_y] /\ com_pass exm_cfg exr_c = true /\
    map (fun col => Qred (row_value exm_b part col r [exr_c])) (end_dates part)
      = [57407409 # 50000000; 87407409 # 50000000; 82962963 # 20000000] /\
    map (fun col => Qred (mv_row_sum dl exr_V srcs col [exr_c] - mv_row_sum dl exr_V srcs (W - 1) [exr_c])) (end_dates part)
      = [57407409 # 50000000; 1748148183 # 1000000000; 4148148159 # 1000000000] /\
    map (fun col => steps_sum dl exr_V srcs W col [exr_c]) (end_dates part) = [2; 5; 7]%Z /\
    map (fun col => Qred (row_value exm_x part col r [exr_c])) (end_dates part) = [0; 0; 0]
  | _, _ => False
  end.
Proof. vm_compute. repeat split; discriminate. Qed.

From Knut Require Import Proofs.MarkToMarketDefined.

(* THE CONTRAPOSITIVE OF C03_missing_price_fails ON THE REPORT: if the balance command succeeds, then
   on EVERY date T (not only the last day, C03_held_has_price) every commodity other than V of which
   an asset/liability account holds a non-zero quantity (exact sum of the bookings dated <= T) has a
   price in V from the declarations dated <= T.  The run over the days dated <= T is a prefix of the
   successful run; a position that is open at the start of a day is revalued, which fails without
   the day's price, and a booking of a non-zero quantity fails without the price of its day. *)
Theorem C03_held_price_every_day : forall cfg ds r part V,
  bc_valuation cfg = Some V ->
  balance_report cfg ds = COk (r, part) ->
  exists dl,
    parse_directives ds = MOk dl /\
    (postings_syntactic dl ->
     forall a c T, account_ok a = true -> is_AL a = true -> c <> V ->
       is_zero (ValuationSpec.qty_upto (flat_postings dl) a c T) = false ->
       exists pr, ValuationSpec.price_on dl V c T = Some pr).
Proof. exact held_price_report. Qed.
Print Assumptions C03_held_price_every_day.

(* A SUCCESSFUL RUN HAS EVERY PRICE THE CHECK'S EXPECTATION NEEDS: for every configuration with a
   valuation commodity and every journal on which the balance command succeeds, every asset/liability
   account with a valid name -- shown as itself or not, passing the filters or not, whatever the
   window -- has a market value on every date, hence mtm_expected is Some for every window start and
   column date, and every entry of mtm_row carries an expectation.  Together with
   C03_model_meets_spec: the clause "nth_error exps j = Some (Some e, n)" there holds for every j. *)
Theorem C03_expected_defined : forall cfg ds r part V,
  bc_valuation cfg = Some V ->
  balance_report cfg ds = COk (r, part) ->
  exists dl,
    parse_directives ds = MOk dl /\
    (postings_syntactic dl ->
     forall a, account_ok a = true -> is_AL a = true ->
       (forall T, exists x, ValuationSpec.market_value dl V a T = Some x) /\
       (forall W E, exists e, ValuationSpec.mtm_expected dl V a W E = Some e) /\
       exists exps,
         ValuationSpec.mtm_row cfg dl a = Some exps /\ length exps = length (end_dates part) /\
         forall j eo n, nth_error exps j = Some (eo, n) -> exists e, eo = Some e).
Proof. exact expected_defined. Qed.
Print Assumptions C03_expected_defined.

(* for the accounts the runtime check visits (ValuationSpec.al_accounts: the asset/liability accounts
   of the journal's bookings) the parser's guarantee is the only side condition *)
Theorem C03_expected_defined_journal_accounts : forall cfg ds r part V,
  bc_valuation cfg = Some V ->
  balance_report cfg ds = COk (r, part) ->
  exists dl,
    parse_directives ds = MOk dl /\
    (postings_syntactic dl ->
     forall a, In a (ValuationSpec.al_accounts dl) ->
       exists exps,
         ValuationSpec.mtm_row cfg dl a = Some exps /\ length exps = length (end_dates part) /\
         forall j eo n, nth_error exps j = Some (eo, n) -> exists e, eo = Some e).
Proof.
  intros cfg ds r part V Hv H. destruct (expected_defined cfg ds r part V Hv H) as (dl & Ep & Hd).
  exists dl. split; [exact Ep|].
  intros Hsyn a Hin. destruct (al_accounts_in dl a Hin) as (HAL & d & p & Hp & <-).
  exact (proj2 (proj2 (Hd Hsyn (p_acc p) (Hsyn d p Hp) HAL))).
Qed.
Print Assumptions C03_expected_defined_journal_accounts.

(* The corner that the definition of market_value has to respect (and does: it skips a commodity whose
   quantity is zero): "every commodity among held_commodities has a price whenever the run succeeds"
   is FALSE.  A booking of quantity zero asks Valuate for no price; the commodity is still among the
   held commodities of the account.  Witness: the journal of C03_example_windowed_report with an
   additional booking of 0 Z on 03-03, Z never priced.  The command succeeds, Z is held by Assets:B,
   price_on is None on the last column date, and mtm_row is nevertheless defined in every column. *)
Theorem C03_held_commodity_has_price_refuted :
  exists cfg ds r part V dl a c T,
    bc_valuation cfg = Some V /\ balance_report cfg ds = COk (r, part) /\ parse_directives ds = MOk dl /\
    postings_syntactic_b dl = true /\ account_ok a = true /\ is_AL a = true /\
    In c (ValuationSpec.held_commodities (flat_postings dl) a) /\ In T (end_dates part) /\
    ValuationSpec.price_on dl V c T = None /\
    ValuationSpec.mtm_row cfg dl a
      = Some [(Some (mkDec 1148148180 (-9)), 3%Z); (Some (mkDec 1748148183 (-9)), 7%Z); (Some (mkDec 4148148159 (-9)), 9%Z)].
Proof.
  destruct (balance_report (exr_cfg true) exd_journal) as [[r part]| |] eqn:Er; [|vm_compute in Er; discriminate..].
  destruct (parse_directives exd_journal) as [dl| |] eqn:Ep; [|vm_compute in Ep; discriminate..].
  exists (exr_cfg true), exd_journal, r, part, exr_V, dl, exr_a, exd_z, (exr_d0 + 3)%Z.
  split; [reflexivity|]. split; [exact Er|]. split; [exact Ep|].
  vm_compute in Er. injection Er as <- <-. vm_compute in Ep. injection Ep as <-.
  vm_compute. repeat split; try discriminate; auto.
Qed.
Print Assumptions C03_held_commodity_has_price_refuted.

(* Vocabulary: Spec/ValuationMappedSpec.v (what Extract/drv/drv_c03.ml evaluates on a row of the
   binary's report that --mapping / --remap aggregate or move): target_of (the row an account is
   shown on), mtm_row_mapped cfg dl b = (sources_of cfg dl b, per column (expected_sum, bound_sum)):
   the sum over the accounts that land on b of ValuationSpec.mtm_expected and of
   ValuationSpec.step_bound.  Proofs/MarkToMarketMappedVerdict.v. *)
From Knut Require Import Spec.ValuationMappedSpec Proofs.MarkToMarketMappedVerdict.

(* a cell without a booking of a non-zero quantity: from a state in which its position is zero, the
   Valuate stage keeps the position at zero and the values it posts on the cell add up to zero (a
   zero position is never revalued; a zero quantity is valued at zero) -- the instance "quantity is
   zero, no error" of the invariant behind C03_delta *)
Theorem C03_unbooked_cell : forall v a c ds s s' ds',
  account_ok a = true -> is_AL a = true -> c <> v ->
  Forall posting_in_ok (MarkToMarketSpec.days_postings ds) ->
  Forall (fun p => cellb a c p = true -> is_zero (p_qty p) = true) (MarkToMarketSpec.days_postings ds) ->
  good a c PZ (v_qty s) -> posq a c (v_qty s) == 0 ->
  process_days (valuate_proc v) s ds = ROk (s', ds') ->
  good a c PZ (v_qty s') /\ posq a c (v_qty s') == 0 /\ cell_value a c (MarkToMarketSpec.days_postings ds') == 0.
Proof.
  intros v a c ds s s' ds' Ha HAL _ Hin Hz Hg _ H.
  destruct (val_days_quiet v a c Ha HAL empty_booking (fun p Hp => proj1 Hp) ds s s' ds' H (unbooked_quiet a c _ Hin Hz) Hg)
    as [G Hout].
  split; [exact G|]. split; [exact (unheld_posq a c Ha _ G)|].
  rewrite cell_value_dposts. apply LedgerProofs.qsum_zero. intros dp. apply quiet_cval. exact Hout.
Qed.
Print Assumptions C03_unbooked_cell.

(* C03_windowed_mapped with every aggregated account charged for its own commodities only: coms is
   any duplicate-free list of commodities that pass --commodity and contains what the aggregated
   accounts hold (the commodity keys of the row); an account contributes nothing under a commodity
   it has no booking in (C03_unbooked_cell), so its market value and its steps are those over its
   own held commodities *)
Theorem C03_windowed_mapped_held : forall cfg ds r part V,
  bc_valuation cfg = Some V ->
  balance_report cfg ds = COk (r, part) ->
  exists dl,
    parse_directives ds = MOk dl /\
    new_partition (clip (mkPeriod (bc_from cfg) (bc_to cfg)) (journal_period dl)) (bc_interval cfg) (bc_last cfg) = POk part /\
    (postings_syntactic dl ->
     forall b srcs col coms, account_ok b = true -> is_AL b = true -> row_sources cfg dl b srcs ->
       NoDup coms -> (forall c, In c coms -> com_pass cfg c = true) ->
       (forall a, In a srcs -> incl (ValuationSpec.held_commodities (flat_postings dl) a) coms) ->
       (p_start (span part) <= p_end (span part))%Z -> In col (end_dates part) ->
       Qabs (row_value b part col r coms
             - (mv_held_sum dl V srcs col - mv_held_sum dl V srcs (p_start (span part) - 1)))
         <= inject_Z (steps_held_sum dl V srcs (p_start (span part)) col) * (1 # 100000000)).
Proof. exact windowed_row_mapped_held. Qed.
Print Assumptions C03_windowed_mapped_held.

(* THE MODEL MEETS THE CHECK'S VERDICT ON EVERY ROW OF ASSET/LIABILITY TYPE, whatever --mapping and
   --remap do (no shows_account condition; an account shown as itself is the case srcs = [b], where
   mtm_row_mapped is mtm_row up to adding zero): the entry of mtm_row_mapped exists, lists the
   accounts the row adds up (row_sources), has one entry per column, EVERY entry carries an
   expectation (C03_expected_defined), and the model's row lies within the summed allowance of the
   summed expectation -- as rationals and as the boolean within_bound the check evaluates. *)
Theorem C03_model_meets_spec_mapped : forall cfg ds r part V,
  bc_valuation cfg = Some V ->
  balance_report cfg ds = COk (r, part) ->
  exists dl,
    parse_directives ds = MOk dl /\
    (postings_syntactic dl ->
     forall b, account_ok b = true -> is_AL b = true ->
       (p_start (span part) <= p_end (span part))%Z ->
       exists srcs exps,
         mtm_row_mapped cfg dl b = Some (srcs, exps) /\ row_sources cfg dl b srcs /\
         length exps = length (end_dates part) /\
         forall j col eo n, nth_error (end_dates part) j = Some col -> nth_error exps j = Some (eo, n) ->
           exists e, eo = Some e /\
           forall coms, NoDup coms -> (forall c, In c coms -> com_pass cfg c = true) ->
             (forall a, In a srcs -> incl (ValuationSpec.held_commodities (flat_postings dl) a) coms) ->
             Qabs (row_value b part col r coms - dvalue e) <= inject_Z n * (1 # 100000000) /\
             forall o, dvalue o == row_value b part col r coms -> ValuationSpec.within_bound o e n = true).
Proof. exact model_meets_spec_mapped. Qed.
Print Assumptions C03_model_meets_spec_mapped.

(* The report of C03_example_mapped_row (--mapping 2, --close): both accounts are shown on Assets:B
   (target_of); mtm_row_mapped of that row lists them and gives the expectations of
   C03_example_model_meets_spec with the allowances 4, 7, 9 (= 2 + 2, 4 + 3, 5 + 4: the two
   accounts' step_bound); the row the model shows lies within them; the accounts themselves are not
   rows: nothing lands on Assets:B:X. *)
Example C03_example_mapped_verdict :
  match balance_report exm_cfg exm_journal, parse_directives exm_journal with
  | COk (r, part), MOk dl =>
    postings_syntactic_b dl = true /\ account_ok exm_b = true /\ is_AL exm_b = true /\
    target_of exm_cfg exm_x = Some exm_b /\ target_of exm_cfg exm_y = Some exm_b /\
    mtm_row_mapped exm_cfg dl exm_b
      = Some ([exm_x; exm_y],
              [(Some (mkDec 1148148180 (-9)), 4%Z); (Some (mkDec 1748148183 (-9)), 7%Z); (Some (mkDec 4148148159 (-9)), 9%Z)]) /\
    map (fun col => Qred (row_value exm_b part col r [exr_c])) (end_dates part)
      = [57407409 # 50000000; 87407409 # 50000000; 82962963 # 20000000] /\
    ValuationSpec.within_bound (mkDec 414814815 (-8)) (mkDec 4148148159 (-9)) 9 = true /\
    fst (match mtm_row_mapped exm_cfg dl exm_x with Some x => x | None => ([exm_x], []) end) = []
  | _, _ => False
  end.
Proof. vm_compute. repeat split; discriminate. Qed.

(* Vocabulary: Spec/ValuationWhereSpec.v (what Extract/drv/drv_c03.ml evaluates on EVERY valued
   report): held_where cfg posts a = the commodities c account a holds with cfg_where cfg a c = true
   (a passes --account and c passes --commodity); market_value_where, mtm_expected_where: the sums of
   ValuationSpec over held_where instead of all held commodities -- prices (price_on) and quantities
   (qty_upto) are those of the whole journal: the filters are the Where predicate of the report's
   query, they do not reach ComputePrices or Valuate, the price of a shown commodity may go through
   commodities that are not shown; step_bound_where: one step per booking of the account in a shown
   commodity in the window, one per (date of the journal in the window, shown commodity), + 1;
   mtm_row_where (an account shown as itself), mtm_row_where_mapped (the sum over
   MarkToMarketMappedSpec.sources_of: the accounts that land on the row and pass --account).
   Proofs/MarkToMarketWhere.v.

   The theorems above carry the hypothesis "passes the filters" in the form (forall c, cfg_where cfg
   a c = true) (C03_windowed_expected, C03_model_meets_spec) or ask the list of commodities of the
   row to contain every commodity the aggregated accounts hold AND to pass --commodity
   (C03_windowed_mapped_held, C03_model_meets_spec_mapped), which a report with --commodity cannot
   satisfy when an account holds a commodity that is filtered out.  The theorems below have no
   hypothesis on the filters. *)
From Knut Require Import Spec.ValuationWhereSpec Proofs.MarkToMarketWhere.
Open Scope Q_scope.

(* the allowance: the tight count of C03_windowed_tight over the shown commodities *)
Theorem C03_step_bound_where_suffices : forall cfg dl V a W E,
  (row_steps_tight dl V a W E (held_where cfg (flat_postings dl) a) <= step_bound_where cfg dl a W E)%Z.
Proof. exact row_steps_step_bound_where. Qed.
Print Assumptions C03_step_bound_where_suffices.

(* the decimal the check computes is the rational sum over the shown commodities *)
Theorem C03_expected_where_sum : forall cfg dl V a W E e,
  mtm_expected_where cfg dl V a W E = Some e ->
  dvalue e == mv_row dl V a E (held_where cfg (flat_postings dl) a) - mv_row dl V a (W - 1) (held_where cfg (flat_postings dl) a).
Proof. exact mtm_expected_where_sum. Qed.
Print Assumptions C03_expected_where_sum.

(* THE MODEL MEETS THE CHECK'S VERDICT, FILTERS INCLUDED, for an account shown as itself: for every
   configuration with a valuation commodity and every journal on which the balance command succeeds,
   every asset/liability account shown as itself and every column, mtm_row_where exists, has one
   entry per column, EVERY entry carries an expectation, and the model's row -- the sum of the
   node's cells over the commodities the report shows of the account -- is within the allowance.
   (An account that does not pass --account has held_where = []: expectation 0, row 0.) *)
Theorem C03_model_meets_spec_where : forall cfg ds r part V,
  bc_valuation cfg = Some V ->
  balance_report cfg ds = COk (r, part) ->
  exists dl,
    parse_directives ds = MOk dl /\
    (postings_syntactic dl ->
     forall a, account_ok a = true -> is_AL a = true -> shows_account cfg a ->
       (p_start (span part) <= p_end (span part))%Z ->
       exists exps,
         mtm_row_where cfg dl a = Some exps /\ length exps = length (end_dates part) /\
         forall j col eo n, nth_error (end_dates part) j = Some col -> nth_error exps j = Some (eo, n) ->
           exists e, eo = Some e /\
           let coms := held_where cfg (flat_postings dl) a in
           Qabs (row_value a part col r coms - dvalue e) <= inject_Z n * (1 # 100000000) /\
           forall o, dvalue o == row_value a part col r coms -> ValuationSpec.within_bound o e n = true).
Proof. exact model_meets_spec_where. Qed.
Print Assumptions C03_model_meets_spec_where.

(* THE WINDOW for any row of asset/liability type of any valued report: whatever --mapping, --remap,
   --account, --commodity are, over any duplicate-free list coms of commodities that pass
   --commodity and contains what the aggregated accounts hold of those (the commodity keys of the
   row), the row is the sum over the accounts that land on it and pass --account (row_sources) of
   the mark-to-market change of what the report shows of them, up to the sum of their tight step
   counts. *)
Theorem C03_windowed_mapped_where : forall cfg ds r part V,
  bc_valuation cfg = Some V ->
  balance_report cfg ds = COk (r, part) ->
  exists dl,
    parse_directives ds = MOk dl /\
    new_partition (clip (mkPeriod (bc_from cfg) (bc_to cfg)) (journal_period dl)) (bc_interval cfg) (bc_last cfg) = POk part /\
    (postings_syntactic dl ->
     forall b srcs col coms, account_ok b = true -> is_AL b = true -> row_sources cfg dl b srcs ->
       NoDup coms -> (forall c, In c coms -> com_pass cfg c = true) ->
       (forall a, In a srcs -> incl (held_where cfg (flat_postings dl) a) coms) ->
       (p_start (span part) <= p_end (span part))%Z -> In col (end_dates part) ->
       Qabs (row_value b part col r coms
             - (mv_where_sum cfg dl V srcs col - mv_where_sum cfg dl V srcs (p_start (span part) - 1)))
         <= inject_Z (steps_where_sum cfg dl V srcs (p_start (span part)) col) * (1 # 100000000)).
Proof. exact windowed_row_mapped_where. Qed.
Print Assumptions C03_windowed_mapped_where.

(* THE MODEL MEETS THE CHECK'S VERDICT ON EVERY ROW OF ASSET/LIABILITY TYPE OF EVERY VALUED REPORT
   (no condition on the mapping, the remap or the filters): mtm_row_where_mapped exists, lists the
   accounts the row adds up, has one entry per column, every entry carries an expectation, and the
   model's row lies within the summed allowance of the summed expectation -- as rationals and as the
   boolean within_bound the check evaluates. *)
Theorem C03_model_meets_spec_where_mapped : forall cfg ds r part V,
  bc_valuation cfg = Some V ->
  balance_report cfg ds = COk (r, part) ->
  exists dl,
    parse_directives ds = MOk dl /\
    (postings_syntactic dl ->
     forall b, account_ok b = true -> is_AL b = true ->
       (p_start (span part) <= p_end (span part))%Z ->
       exists srcs exps,
         mtm_row_where_mapped cfg dl b = Some (srcs, exps) /\ row_sources cfg dl b srcs /\
         length exps = length (end_dates part) /\
         forall j col eo n, nth_error (end_dates part) j = Some col -> nth_error exps j = Some (eo, n) ->
           exists e, eo = Some e /\
           forall coms, NoDup coms -> (forall c, In c coms -> com_pass cfg c = true) ->
             (forall a, In a srcs -> incl (held_where cfg (flat_postings dl) a) coms) ->
             Qabs (row_value b part col r coms - dvalue e) <= inject_Z n * (1 # 100000000) /\
             forall o, dvalue o == row_value b part col r coms -> ValuationSpec.within_bound o e n = true).
Proof. exact model_meets_spec_where_mapped. Qed.
Print Assumptions C03_model_meets_spec_where_mapped.

(* a row on which no account that passes --account lands -- in particular an account shown as itself
   that does not pass -- is zero in every column, exactly, over the commodities that pass *)
Theorem C03_filtered_out_row_zero : forall cfg ds r part V,
  bc_valuation cfg = Some V ->
  balance_report cfg ds = COk (r, part) ->
  exists dl,
    parse_directives ds = MOk dl /\
    (postings_syntactic dl ->
     forall b col coms, account_ok b = true -> is_AL b = true -> sources_of cfg dl b = [] ->
       NoDup coms -> (forall c, In c coms -> com_pass cfg c = true) ->
       (p_start (span part) <= p_end (span part))%Z -> In col (end_dates part) ->
       row_value b part col r coms == 0).
Proof. exact filtered_out_row_zero. Qed.
Print Assumptions C03_filtered_out_row_zero.

(* the specification of filtered reports extends that of the unfiltered report: where every commodity of the account
   passes -- in particular without --account and --commodity -- it is mtm_row / mtm_row_mapped *)
Theorem C03_where_unfiltered : forall cfg dl a, (forall c, cfg_where cfg a c = true) ->
  mtm_row_where cfg dl a = ValuationSpec.mtm_row cfg dl a.
Proof. exact mtm_row_where_unfiltered. Qed.
Print Assumptions C03_where_unfiltered.

Theorem C03_where_mapped_unfiltered : forall cfg dl b, bc_accounts cfg = [] -> bc_commodities cfg = [] ->
  mtm_row_where_mapped cfg dl b = mtm_row_mapped cfg dl b.
Proof. exact mtm_row_where_mapped_unfiltered. Qed.
Print Assumptions C03_where_mapped_unfiltered.

(* A report with --commodity ^A$ (Proofs/MarkToMarketWhere.v exw_journal): Assets:B holds A and D; A
   is quoted in D only, D in the valuation commodity C, so the price of A in C goes through D, which
   the report does not show.  Daily columns over 03-02 .. 03-04, --close, the purchases of 03-01 lie
   before the window.  The report shows 1.125, 2.25, 4.5 (1.8 * 5 - 1.5 * 3 in the last column: the A
   of the account at 2 D * 2.5 C), nothing under D; mtm_row_where expects exactly that, within 2, 4, 5
   steps; the unfiltered expectation mtm_row (2.125, 3.25, 5.5: with the 2 D of the account) does not
   describe this report. *)
Example C03_example_filtered_report :
  match balance_report exw_cfg exw_journal, parse_directives exw_journal with
  | COk (r, part), MOk dl =>
    postings_syntactic_b dl = true /\ account_ok exr_a = true /\ is_AL exr_a = true /\
    ValuationSpec.held_commodities (flat_postings dl) exr_a = [exr_c; exw_d] /\
    held_where exw_cfg (flat_postings dl) exr_a = [exr_c] /\
    mtm_row_where exw_cfg dl exr_a
      = Some [(Some (mkDec 1125 (-3)), 2%Z); (Some (mkDec 2250 (-3)), 4%Z); (Some (mkDec 450 (-2)), 5%Z)] /\
    ValuationSpec.mtm_row exw_cfg dl exr_a
      = Some [(Some (mkDec 2125 (-3)), 3%Z); (Some (mkDec 3250 (-3)), 6%Z); (Some (mkDec 550 (-2)), 8%Z)] /\
    map (fun col => Qred (row_value exr_a part col r [exr_c])) (end_dates part) = [9 # 8; 9 # 4; 9 # 2] /\
    map (fun col => Qred (row_value exr_a part col r [exw_d])) (end_dates part) = [0; 0; 0] /\
    mtm_row_where_mapped exw_cfg dl exr_a
      = Some ([exr_a], [(Some (mkDec 1125 (-3)), 2%Z); (Some (mkDec 2250 (-3)), 4%Z); (Some (mkDec 450 (-2)), 5%Z)]) /\
    ValuationSpec.within_bound (mkDec 45 (-1)) (mkDec 450 (-2)) 5 = true
  | _, _ => False
  end.
Proof. vm_compute. repeat split; discriminate. Qed.
