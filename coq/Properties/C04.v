(* C04  check accepts exactly the well-formed journals.
   Theorem statements; the proof under a statement is [exact <lemma>], a few lines from the lemmas
   of Proofs/, or a witness by evaluation; each is followed by Print Assumptions.
   Vocabulary: Spec/WellformedSpec.v (canonical, events, open_after, quantity, ok_event,
   wellformed, wellformed_b, violation, offender, syntactic).
   Model: Model/Journal.v (builder_of, process_days), Model/Check.v (check_proc_fixed = the
   checker with the two defects of Checker.balance repaired; check_proc false = the pinned
   code), Model/Cli.v (check_cmd, check_cmd_fixed); Proofs/CheckMain.v (check_model = the
   check stage on directives).

   [syntactic ds]: every account of the journal is what the parser and the registry produce
   (first segment a type name, segments non-empty, no colon or NUL byte inside a segment).  It
   makes "the same account" (knut: the same name) and "the same list of segments" coincide. *)
From Coq Require Import ZArith List Bool Sorting.Sorted Permutation.
From Knut Require Import Model.Str Model.Dec Model.Account Model.Ledger Model.Journal Model.Check Model.Cli
     Spec.WellformedSpec Proofs.CheckProofs Proofs.BuilderProofs Proofs.CheckMain Proofs.CheckPerm.
Import ListNotations.
Open Scope Z_scope.

(* The builder groups and orders as the property says: days strictly ascending by date, one
   day per date that occurs, and each day's five lists are the input's directives of that date
   and kind in input order ([day_matches]). *)
Theorem C04_builder_canonical : forall ds,
  let days := b_days (builder_of ds) in
  StronglySorted Z.lt (map d_date days) /\
  map d_date days = dates ds /\
  (forall dt, In dt (map d_date days) <-> In dt (map ddate ds)) /\
  (forall x, In x days -> day_matches ds x).
Proof. exact builder_canonical. Qed.
Print Assumptions C04_builder_canonical.

(* [dates] is the strictly ascending list of the dates that occur (and the only such list) *)
Theorem C04_dates_spec : forall ds,
  StronglySorted Z.lt (dates ds) /\ (forall x, In x (dates ds) <-> In x (map ddate ds)) /\
  (forall l, StronglySorted Z.lt l -> (forall x, In x l <-> In x (map ddate ds)) -> l = dates ds).
Proof. exact dates_spec. Qed.
Print Assumptions C04_dates_spec.

(* the check stage of the model runs the checker over exactly the specification's events *)
Theorem C04_model_events : forall ds,
  check_model ds = verdict_of (run_events check_init (events ds)).
Proof. exact check_model_events. Qed.
Print Assumptions C04_model_events.

(* MAIN: the repaired checker accepts exactly the well-formed journals *)
Theorem C04_iff : forall ds, syntactic ds -> (check_model ds = VOk <-> wellformed ds).
Proof. exact check_iff. Qed.
Print Assumptions C04_iff.

(* [syntactic] cannot be dropped: the structured representation contains accounts the parser
   never produces (a colon inside a segment), on which "same name" and "same segments" differ *)
Theorem C04_syntactic_needed : exists ds, ~ syntactic ds /\ check_model ds = VOk /\ ~ wellformed ds.
Proof.
  exists w_colon.
  split; [intros S; apply syntactic_b_spec in S; vm_compute in S; discriminate S|].
  split; [vm_compute; reflexivity|].
  intros W; apply wellformed_b_spec in W; vm_compute in W; discriminate W.
Qed.
Print Assumptions C04_syntactic_needed.

(* the same for the command, from the parsed (syntax-level) directives *)
Theorem C04_cmd_iff : forall sds,
  (forall ds, parse_directives sds = MOk ds -> syntactic ds) ->
  (check_cmd_fixed sds = COk tt <-> exists ds, parse_directives sds = MOk ds /\ wellformed ds).
Proof. exact check_cmd_iff. Qed.
Print Assumptions C04_cmd_iff.

Theorem C04_no_panic : forall ds, syntactic ds -> check_model ds <> VPanic.
Proof. intros ds Hs E. pose proof (check_model_spec ds Hs) as R. rewrite E in R. exact R. Qed.
Print Assumptions C04_no_panic.

(* A rejection names the offending directive: the error's account is the account of the first
   event of the canonical sequence that is not ok, all events before it are ok, the error's
   kind is a true reason for that event, and the event belongs to a directive of the journal. *)
Theorem C04_names_offender : forall ds k name,
  syntactic ds -> check_model ds = VErr k name ->
  exists pre e post r,
    events ds = pre ++ e :: post /\
    wellformed_events pre /\
    ~ ok_event pre e /\
    name = acc_name (ev_acc e) /\ k = kind_of r /\ violation pre e r /\
    exists d, In d ds /\ In e (events_of d).
Proof.
  intros ds k name Hs E. pose proof (check_model_spec ds Hs) as R. rewrite E in R.
  destruct R as (p & e & q & r & H1 & H2 & H3 & H4 & H5 & H6). exists p, e, q, r.
  repeat (split; [assumption|]). apply events_in. rewrite H1. apply in_elt.
Qed.
Print Assumptions C04_names_offender.

(* ... and it is the offender the executable specification computes *)
Theorem C04_error_is_offender : forall ds k name,
  syntactic ds -> check_model ds = VErr k name ->
  exists pre e, offender ds = Some (pre, e) /\ name = acc_name (ev_acc e) /\
                exists r, k = kind_of r /\ violation pre e r.
Proof.
  intros ds k name Hs H. destruct (C04_names_offender ds k name Hs H) as [pre [e [post [r [H1 [H2 [H3 [H4 [H5 [H6 _]]]]]]]]]].
  exists pre, e. split; [|split; [exact H4|exists r; tauto]].
  unfold offender. rewrite (first_bad_spec (events ds) [] pre e post H1); [reflexivity| |exact H3].
  apply all_ok_before_nil. exact H2.
Qed.
Print Assumptions C04_error_is_offender.

(* the executable specification used by the correspondence check *)
Theorem C04_wellformed_b_spec : forall ds, wellformed_b ds = true <-> wellformed ds.
Proof. exact wellformed_b_spec. Qed.
Print Assumptions C04_wellformed_b_spec.

(* Input order (overlaps with C05).  Well-formedness, hence acceptance, does not depend on the
   order of the directive list at all: not on how dates and kinds are interleaved (the canonical
   sequence is the same then, [C04_same_blocks_same_sequence]) and not on the order of same-day
   directives of one kind (opens and closes of a day are ok iff the accounts are distinct and
   each is ok on its own; postings only add, with a commutative and associative addition, and
   assertions come after all transactions of the day and change nothing).  What does depend on
   the order is *which* directive is reported first when several are wrong. *)
Theorem C04_order_irrelevant : forall ds1 ds2,
  Permutation ds1 ds2 -> (wellformed ds1 <-> wellformed ds2).
Proof. exact wellformed_perm. Qed.
Print Assumptions C04_order_irrelevant.

Theorem C04_check_order_irrelevant : forall ds1 ds2,
  Permutation ds1 ds2 -> syntactic ds1 -> (check_model ds1 = VOk <-> check_model ds2 = VOk).
Proof. exact check_perm. Qed.
Print Assumptions C04_check_order_irrelevant.

Theorem C04_same_blocks_same_sequence : forall ds1 ds2,
  (forall dt k, sel ds1 dt k = sel ds2 dt k) -> canonical ds1 = canonical ds2.
Proof. exact canonical_by_sel. Qed.
Print Assumptions C04_same_blocks_same_sequence.

(* The pinned code violates the property (finding C04-zero-assertion): a well-formed journal
   with a zero assertion on an untouched position is rejected by [check_cmd false]. *)
Theorem C04_zero_refuted :
  exists sds ds, parse_directives sds = MOk ds /\ syntactic ds /\ wellformed ds /\
                 check_cmd false sds <> COk tt /\ check_cmd_fixed sds = COk tt.
Proof. exact zero_refuted. Qed.
Print Assumptions C04_zero_refuted.

(* The pinned code violates the property (finding C04-nonAL-assertion): an assertion on an
   income account is rejected although the property imposes no condition on it ... *)
Theorem C04_nonAL_refuted :
  exists sds ds, parse_directives sds = MOk ds /\ syntactic ds /\ wellformed ds /\
                 check_cmd false sds <> COk tt /\ check_cmd_fixed sds = COk tt.
Proof. exact nonal_refuted. Qed.
Print Assumptions C04_nonAL_refuted.

(* ... also when only the first defect is repaired *)
Theorem C04_nonAL_refuted_lenient :
  exists sds ds, parse_directives sds = MOk ds /\ syntactic ds /\ wellformed ds /\
                 check_cmd false sds <> COk tt /\ check_cmd true sds <> COk tt /\ check_cmd_fixed sds = COk tt.
Proof.
  exists w_nonal2. eexists. split; [vm_compute; reflexivity|].
  split; [apply syntactic_b_spec; vm_compute; reflexivity|].
  split; [apply wellformed_b_spec; vm_compute; reflexivity|].
  split; [vm_compute; discriminate|]. split; [vm_compute; discriminate|vm_compute; reflexivity].
Qed.
Print Assumptions C04_nonAL_refuted_lenient.

(* same-day open/use/assert (two lines)/close, reopen after close, zero assertion after reopen;
   given in scrambled input order *)
Example C04_example_wellformed : syntactic w_good /\ wellformed w_good /\ check_model w_good = VOk.
Proof.
  split; [apply syntactic_b_spec; vm_compute; reflexivity|].
  split; [apply wellformed_b_spec; vm_compute; reflexivity|vm_compute; reflexivity].
Qed.

(* close with a non-zero position: rejected, and the offender is the close *)
Example C04_example_illformed :
  syntactic w_bad /\ ~ wellformed w_bad /\ check_model w_bad = VErr k_nonzero (acc_name w_assets_b) /\
  exists pre, offender w_bad = Some (pre, EClose w_assets_b).
Proof.
  split; [apply syntactic_b_spec; vm_compute; reflexivity|].
  split; [intros W; apply wellformed_b_spec in W; vm_compute in W; discriminate W|].
  split; [vm_compute; reflexivity|]. eexists. vm_compute. reflexivity.
Qed.
