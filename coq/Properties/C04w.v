(* C04w  `knut check --write`: what the command prints.
   Theorem statements; the proof under a statement is [exact <lemma>], a few lines from the lemmas of Proofs/, or a
   witness by evaluation; each is followed by Print Assumptions.

   Model: Model/CheckWrite.v -- [check_write_proc] is the checker of Model/Check.v ([check_proc_fixed], what the code
   does now) with the DayEnd callback of Checker.Write, which appends one assertion per day holding EVERY position of
   the quantity map (zero quantities included), sorted by assertion.CompareBalance; [check_write_assertions] =
   checker.Assertions() after the run; [write_file] = journal.Print of a fresh builder holding these assertions;
   [check_write_cmd] = stdout of `knut check --write FILE`, or the error.
   Specification: Spec/CheckWriteSpec.v over the canonical event sequence of Spec/WellformedSpec.v:
   [events_upto ds dt] (the events up to and including the day dt), [live pre a c] (a is an asset or liability account
   booked in c after its last close), [write_spec ds W].
   What the code does (the alternative in the task's wording): it asserts ALL live positions at the end of EVERY day
   of the journal -- also of a day that has prices only, also positions that did not change that day, also positions
   whose quantity is zero -- and nothing for an account that was closed (its positions are deleted) or for accounts
   other than assets and liabilities.
   Proofs: Proofs/CheckLemmas.v, CheckProofs.v, CheckMain.v (the checker against the specification), CheckWriteBase.v,
   CheckWriteComplete.v, CheckWriteAccepted.v, CheckWriteSorted.v, CheckWriteExec.v, CheckWriteText.v,
   CheckWriteWitness.v (this command), OrderCmd.v and DeterminismProofs.v (order of the directives, arrival of files). *)
From Coq Require Import ZArith List Bool Sorting.Sorted Permutation.
From Knut Require Import Model.Str Model.Dec Model.Account Model.Ledger Model.Journal Model.Check Model.Cli
     Model.Source Model.CheckWrite Proofs.CheckLemmas Proofs.CheckProofs Proofs.DeterminismProofs Spec.WellformedSpec Spec.CheckWriteSpec
     Proofs.CheckMain Proofs.OrderCmd Proofs.CheckWriteBase Proofs.CheckWriteComplete Proofs.CheckWriteAccepted
     Proofs.CheckWriteSorted Proofs.CheckWriteExec Proofs.CheckWriteText Proofs.CheckWriteWitness.
Import ListNotations.
Open Scope Z_scope.

(* The processor with the DayEnd callback is the plain day-by-day recursion: run the checker of `knut check` over a
   day, then record [day_end_assertions] of the quantity map reached (nothing when the map is empty). *)
Theorem C04_write_day_by_day : forall sds,
  check_write_assertions sds = cbind (load sds) (fun b => of_presult (written_of (b_days b))).
Proof. exact check_write_assertions_eq. Qed.
Print Assumptions C04_write_day_by_day.

(* `check --write` succeeds exactly when `check` does; it fails with the same error *)
Theorem C04_write_verdict : forall sds,
  match check_cmd_fixed sds with
  | COk _ => exists W, check_write_assertions sds = COk W /\ check_write_cmd sds = COk (write_file W)
  | CErr k d => check_write_assertions sds = CErr k d /\ check_write_cmd sds = CErr k d
  | CPanic m => check_write_assertions sds = CPanic m /\ check_write_cmd sds = CPanic m
  end.
Proof. exact check_write_verdict. Qed.
Print Assumptions C04_write_verdict.

(* A rejected journal prints nothing: the command's result is the checker's error and no text (the assertions are
   written only after the checker has run over all days; the model's result type has no output beside an error). *)
Theorem C04_write_fails_silently : forall sds,
  check_cmd_fixed sds <> COk tt ->
  (forall t, check_write_cmd sds <> COk t) /\
  (forall k d, check_cmd_fixed sds = CErr k d -> check_write_cmd sds = CErr k d).
Proof.
  intros sds H. pose proof (check_write_verdict sds) as V.
  destruct (check_cmd_fixed sds) as [[]|k d|m].
  - contradiction H. reflexivity.
  - destruct V as [_ V]. split; [intros t; rewrite V; discriminate|]. intros k' d' E. inversion E. subst. exact V.
  - destruct V as [_ V]. split; [intros t; rewrite V; discriminate|]. intros k' d' E. discriminate.
Qed.
Print Assumptions C04_write_fails_silently.

(* For every journal the checker accepts, `check --write` prints the text of a list of assertions W, and the journal
   extended by these assertions is accepted too.  ([sd_syntactic]: account names as the parser produces them, as in
   C04_cmd_iff / C05.  Where the new directives are put is irrelevant: C05_verdict_perm.) *)
Theorem C04_write_accepted : forall sds,
  sd_syntactic sds -> check_cmd_fixed sds = COk tt ->
  exists W, check_write_assertions sds = COk W /\ check_write_cmd sds = COk (write_file W) /\
            check_cmd_fixed (sds ++ map assertion_sdirective W) = COk tt.
Proof.
  intros sds Hs Hok. destruct (check_write_succeeds sds Hok) as [W [HW Hcmd]].
  exists W. split; [exact HW|]. split; [exact Hcmd|].
  destruct (check_write_assertions_written sds W HW) as [ds [P Hw]].
  destruct (accepted_model sds ds Hs P Hok) as (Hsyn & _ & Hm).
  destruct (written_accepted ds W Hsyn Hm Hw) as [Hsyn2 Hacc].
  apply (accepted_cmd sds ds W P Hsyn2 Hacc).
Qed.
Print Assumptions C04_write_accepted.

(* The text.  For a journal as the parser delivers it ([input_lex]: C09's hypothesis -- printable dates, lexable account
   and commodity names) that the checker accepts: the printed text is read back by the model's parser
   (C09_reparse_printed applied to the days of [write_file]) as balance assertions only; they are the collected
   assertions with re-read quantities ([rq_w]: every quantity q replaced by of_string (to_string q), equal in value,
   C09_reread); and the journal extended by what was read is accepted. *)
Theorem C04_write_text_accepted : forall sds,
  PrintLexInput.input_lex sds -> check_cmd_fixed sds = COk tt ->
  exists W text ss W', check_write_assertions sds = COk W /\ check_write_cmd sds = COk text /\
    ToModel.ToModelM.reparse text = MOk ss /\ assertions_only ss = Some W' /\
    Permutation ss (map assertion_sdirective (map rq_w W)) /\
    check_cmd_fixed (sds ++ ss) = COk tt.
Proof. exact check_write_text_accepted. Qed.
Print Assumptions C04_write_text_accepted.

(* the same on model directives, with the specification's word for "accepted" *)
Theorem C04_write_accepted_wellformed : forall ds W,
  syntactic ds -> check_model ds = VOk -> written ds = ROk W ->
  syntactic (ds ++ written_directives W) /\ check_model (ds ++ written_directives W) = VOk.
Proof. exact written_accepted. Qed.
Print Assumptions C04_write_accepted_wellformed.

(* What is asserted.  [write_spec ds W] (Spec/CheckWriteSpec.v), field by field:
   - the dates of W are strictly ascending (one assertion per day at most), each is a date of the journal, no
     assertion is empty;
   - the lines of an assertion are strictly ordered by (account type, account name, commodity): no position twice;
   - sound: every line (a, q, c) of the assertion of day dt is a live position at the end of that day and q is, in
     value, the running quantity [quantity (events_upto ds dt) a c];
   - complete: every position that is live at the end of a day of the journal has a line in an assertion of that day.
   So the printed assertions cover exactly the live asset/liability positions of every day -- all of them, not only
   the ones that changed. *)
Theorem C04_write_complete : forall ds W, syntactic ds -> written ds = ROk W -> write_spec ds W.
Proof.
  intros ds W Hs H. destruct (write_complete_partial ds W Hs H) as (H1 & H2 & H3 & H4).
  constructor; try assumption; [|intros dt a c q Ha; apply (H3 dt a c q Ha)].
  intros dt bs Hin. destruct (written_entries ds W Hs H dt bs Hin) as (_ & s & [_ _ _ Is Ie] & _ & ->).
  apply day_end_balances_sorted, positions_distinct; assumption.
Qed.
Print Assumptions C04_write_complete.

(* the executable form the correspondence check evaluates on the assertions read back from the binary's output *)
Theorem C04_write_spec_b_spec : forall ds W, write_spec_b ds W = true <-> write_spec ds W.
Proof. exact write_spec_b_spec. Qed.
Print Assumptions C04_write_spec_b_spec.

(* a live position of a well-formed history belongs to an open account (why the new assertions find their accounts
   open), and was booked (why nothing is asserted before the first booking) *)
Theorem C04_write_live_open : forall pre a c,
  wellformed_events pre -> live pre a c = true -> open_after pre a = true /\ exists q, In (EPost a c q) pre.
Proof. intros pre a c W L. split; [exact (CheckProofs.live_open pre a c W L)|exact (CheckProofs.live_posted pre a c L)]. Qed.
Print Assumptions C04_write_live_open.

(* Permuting the journal's directives changes neither the collected assertions nor the printed bytes (or both runs
   fail) -- the C05/C06 statement for this command; with C05_layout / C06_arrival: nor does the distribution over
   files or their arrival order. *)
Theorem C04_write_order_irrelevant : forall sds1 sds2,
  Permutation sds1 sds2 -> sd_syntactic sds1 ->
  ceq eq (check_write_assertions sds1) (check_write_assertions sds2) /\
  ceq eq (check_write_cmd sds1) (check_write_cmd sds2).
Proof.
  intros sds1 sds2 P H. split; [exact (check_write_assertions_perm sds1 sds2 P H)|exact (check_write_cmd_perm sds1 sds2 P H)].
Qed.
Print Assumptions C04_write_order_irrelevant.

(* Map iteration order (C06_map_order for this command): Checker.dayEnd ranges over ch.quantities, a Go map, and sorts
   the balances with assertion.CompareBalance.  For every quantity map a run of the checker can reach (sorted keys,
   well-formed entries: Proofs/CheckProofs.v [Inv]) and every enumeration l of it, the sorted slice is the same. *)
Theorem C04_write_map_order : forall m l,
  CheckLemmas.keys_sorted m -> (forall x, In x m -> CheckProofs.entry_ok x) -> Permutation l m ->
  Str.sort_by bal_ltb (map entry_balance l) = day_end_balances m.
Proof. exact day_end_map_order. Qed.
Print Assumptions C04_write_map_order.

(* File arrival order (C06): the command is a function of the loaded journal, so C06_arrival / C06_arrival_files /
   C06_arrival_classes apply to it as to every command of C06_commands: tagged directive lists that build the same
   journal give the same result. *)
Theorem C04_write_factor : forall sds, check_write_cmd sds = cbind (load sds) check_write_of.
Proof.
  intros sds. unfold check_write_cmd, check_write_assertions, check_write_of.
  destruct (load sds) as [b|k d|m]; cbn [cbind]; try reflexivity.
  destruct (run_stage check_write_proc wstate_init (b_days b)) as [r|k d|m]; reflexivity.
Qed.
Print Assumptions C04_write_factor.

Theorem C04_write_arrival : forall fs1 fs2 : list (list (Source.src * directive)),
  Permutation fs1 fs2 ->
  (forall f g x y, In f fs1 -> In g fs1 -> In x f -> In y g -> Source.s_path (fst x) = Source.s_path (fst y) -> f = g) ->
  Source.run_sorted check_write_of (concat fs1) = Source.run_sorted check_write_of (concat fs2).
Proof.
  intros fs1 fs2 P H. unfold Source.run_sorted. rewrite (DeterminismProofs.arrival_files fs1 fs2 P H). reflexivity.
Qed.
Print Assumptions C04_write_arrival.

(* Assets:A receives 5.00 CHF and 2 USD; a day with a price only; 5.00 CHF move to Assets:B and back; Assets:B is
   closed.  Four days with positions: two lines, the same two lines on the price-only day, three lines (Assets:A 0 CHF
   stays), two lines (the closed account's position is gone).  The hypotheses of the theorems hold, the text is the
   expected one, the model's parser reads it back as assertions, and the extended journal is accepted. *)
Example C04_write_example :
  sd_syntactic x_sds /\ check_cmd_fixed x_sds = COk tt /\
  check_write_cmd x_sds = COk x_text /\
  (exists W ds, check_write_assertions x_sds = COk W /\ parse_directives x_sds = MOk ds /\
                length W = 4%nat /\ write_spec_b ds W = true /\
                check_cmd_fixed (x_sds ++ map assertion_sdirective W) = COk tt) /\
  (exists ss W', ToModel.ToModelM.reparse x_text = MOk ss /\ assertions_only ss = Some W' /\
                 check_cmd_fixed (x_sds ++ ss) = COk tt).
Proof.
  split; [apply sd_syntactic_b_spec; vm_compute; reflexivity|].
  split; [vm_compute; reflexivity|]. split; [vm_compute; reflexivity|]. split.
  - eexists. eexists. split; [vm_compute; reflexivity|]. split; [vm_compute; reflexivity|].
    split; [vm_compute; reflexivity|]. split; vm_compute; reflexivity.
  - eexists. eexists. split; [vm_compute; reflexivity|]. split; vm_compute; reflexivity.
Qed.

(* ... and it satisfies the hypothesis of C04_write_text_accepted *)
Example C04_write_example_input_lex : PrintLexInput.input_lex x_sds.
Proof. exact x_sds_input_lex. Qed.

(* the same directives in another order: the same bytes *)
Example C04_write_example_permuted :
  Permutation x_sds x_sds_permuted /\ x_sds <> x_sds_permuted /\ check_write_cmd x_sds_permuted = COk x_text.
Proof. split; [apply Permutation_rev|]. split; [intros E; vm_compute in E; discriminate E|vm_compute; reflexivity]. Qed.

(* closing Assets:B while it holds 5.00 CHF: rejected, nothing printed *)
Example C04_write_example_rejected :
  check_cmd_fixed x_bad = CErr k_nonzero (acc_name w_assets_b) /\
  check_write_cmd x_bad = CErr k_nonzero (acc_name w_assets_b).
Proof. split; vm_compute; reflexivity. Qed.
