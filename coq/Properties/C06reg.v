(* C06 for `knut register` (cmd/commands/register.go, lib/reports/register/register.go; model:
   Model/Register.v).  Theorem statements; the proof under a statement is [exact <lemma>], a few
   lines from the lemmas of Proofs/, or a witness by evaluation.  The lemmas: Proofs/RegisterOrder.v
   (the order of the directives), RegisterTotal.v (panics), RegisterMapOrder.v with TxnOrder.v (the
   comparison of keys), RegisterBalance.v (register against balance), RegisterWitness.v and
   OrderWitness.v (concrete runs); the vocabulary of Proofs/OrderCmd.v.

   The model follows the current code (/repo 4dc8b78): journal.FromPath (load_safe), the flag checks of
   cobra and of execute, Multiperiod.Partition, then Sort, ComputePrices, Check, Valuate, Filter and
   Query.Into(register.Report), Renderer.Render, table.TextRenderer (Color = false).  It is tied to the
   binary byte for byte by the op C06.reg on every run of ./check C06.

   Vocabulary: [ceq eq x y] -- both commands fail, or both succeed with equal results;
   [sd_syntactic], [no_conflicting_prices] -- as in Properties/C05.v (parser-shaped account names; two
   price declarations of one day for the same unordered pair are the same declaration). *)
From Coq Require Import ZArith QArith List Bool Permutation.
From Knut Require Import Model.Str Model.Dec Model.Date Model.Account Model.Ledger Model.Price Model.Journal
     Model.Check Model.Pipeline Model.Table Model.Report Model.Cli Model.Loader Model.CliSafe Model.Register
     Proofs.StrProofs Proofs.OrderProofs Proofs.OrderCmd Proofs.OrderWitness Proofs.TxnOrder
     Proofs.LedgerProofs Proofs.RegisterOrder Proofs.RegisterTotal Proofs.RegisterMapOrder Proofs.RegisterBalance
     Proofs.RegisterWitness.
Import ListNotations.
Open Scope Z_scope.

(* Full statement (what one would like):

     forall cfg tc ds m, register_text cfg tc ds <> CPanic m

   i.e. for every configuration and every list of directives the command returns the bytes of a
   table (COk) or an error (CErr: flag = a -m rule with a negative number; valuation = an invalid -v
   commodity; the errors of ParseDirective incl. the repaired accrual expansion; zerotime = no start
   date; price0 / noprice; the checker's errors), never a panic value.  The faithful model REFUTES
   it (C06_register_total_refuted): a -m rule of level 0 makes account.Shorten return nil for the
   Dest account, Report.Insert stores the key with Other = nil and Renderer.Render dereferences it
   (account.Compare, Account.Name) -- findings/C06-register-hidden-dest-panic.md.  Proved instead:
   that is the only panic.  Without a level-0 rule the command never panics, *)
Theorem C06_register_total_partial : forall cfg tc ds,
  mapping_shows (rg_mapping cfg) = true ->
  (forall m, register_table cfg ds <> CPanic m) /\ (forall m, register_text cfg tc ds <> CPanic m).
Proof. exact register_total. Qed.
Print Assumptions C06_register_total_partial.

(* whatever the rules, everything up to the report (flags, loading, the five processors, Query.Into)
   never panics, *)
Theorem C06_register_report_total : forall cfg ds m, register_report cfg ds <> CPanic m.
Proof. intros cfg ds. apply register_with_np. intros Emf b. apply register_report_of_np. exact Emf. Qed.
Print Assumptions C06_register_report_total.

(* and a panic of the command is the nil Dest account of a level-0 rule *)
Theorem C06_register_panic_class : forall cfg tc ds m,
  register_text cfg tc ds = CPanic m -> m = k_nil_account /\ mapping_shows (rg_mapping cfg) = false.
Proof. exact register_panic_is_nil_account. Qed.
Print Assumptions C06_register_panic_class.

Theorem C06_register_total_refuted : exists cfg tc ds m,
  mapping_flag_ok (rg_mapping cfg) = true /\ register_text cfg tc ds = CPanic m.
Proof.
  exists rw_cfg_hidden, rw_tc, w_journal, k_nil_account.
  destruct rw_hidden_panics as (H1 & H2 & _). split; assumption.
Qed.
Print Assumptions C06_register_total_refuted.

(* For every register configuration (window, interval, --last, valuation, -c -d -a -s, mappings,
   remap, --source/--dest/--commodity, either checker) and every text configuration (--digits, -k):
   a journal and any permutation of it print the same bytes (and build the same table), or both
   commands fail. *)
Theorem C06_register_order_irrelevant : forall cfg tc sds1 sds2,
  Permutation sds1 sds2 -> sd_syntactic sds1 -> no_conflicting_prices sds1 ->
  ceq eq (register_table cfg sds1) (register_table cfg sds2) /\
  ceq eq (register_text cfg tc sds1) (register_text cfg tc sds2).
Proof.
  intros cfg tc sds1 sds2 P Hs Hn. split; apply register_with_perm; try assumption; intros b1 b2 HB Hpc;
    apply (register_text_of_perm cfg tc b1 b2 HB Hpc).
Qed.
Print Assumptions C06_register_order_irrelevant.

(* the step behind it: Report.Insert commutes, so the report -- one association list -- is the same *)
Theorem C06_register_insert_commutes : forall r k1 v1 k2 v2,
  reg_add (reg_add r k1 v1) k2 v2 = reg_add (reg_add r k2 v2) k1 v1.
Proof. exact reg_add_comm. Qed.
Print Assumptions C06_register_insert_commutes.

(* the command is its flag validation, the loader, and a function of the journal: with
   Properties/C06.v C06_arrival / C06_command_is_source_order (Build() returns the same journal for
   every arrival order of the files) its output does not depend on the arrival order either *)
Theorem C06_register_factor : forall cfg tc ds,
  register_text cfg tc ds = cbind (register_flags cfg) (fun _ => cbind (load_safe ds) (register_text_of cfg tc)).
Proof. reflexivity. Qed.
Print Assumptions C06_register_factor.

(* renderNode ranges over a Go map and sorts the keys.  With the comparison of the repaired code
   the rows of a node are the same for every enumeration [l'] of its map [l], provided no two
   entries compare Equal -- and keys that compare Equal agree in Dest, in the commodity if shown,
   in the source if shown and in the description (C06_register_cmp_separates), which is all a key
   of one date consists of. *)
Theorem C06_register_map_order : forall rc t l l',
  Permutation l l' ->
  (forall x y, In x l -> In y l -> rkey_cmp rc (fst x) (fst y) = Eq -> x = y) ->
  reg_render_node rc t l = reg_render_node rc t l'.
Proof.
  intros rc t l l' P H. unfold reg_render_node, reg_render_node_with.
  rewrite (reg_index_order_free (rkey_cmp rc) l l' (good_rkey rc) P H). reflexivity.
Qed.
Print Assumptions C06_register_map_order.

Theorem C06_register_cmp_separates : forall rc k1 k2,
  rkey_cmp rc k1 k2 = Eq ->
  okey_name_eq (rk_other k1) (rk_other k2) /\
  (rr_commodities rc = true -> ostr (rk_com k1) = ostr (rk_com k2)) /\
  (rr_source rc = true -> okey_name_eq (rk_account k1) (rk_account k2)) /\
  rk_desc k1 = rk_desc k2.
Proof.
  intros rc k1 k2 H. unfold rkey_cmp in H.
  apply cmp_then_eq in H. destruct H as [E1 H]. apply cmp_then_eq in H. destruct H as [E2 H].
  apply cmp_then_eq in H. destruct H as [E3 H].
  split; [apply oacc_cmp_eq; exact E1|].
  split; [intros Ec; rewrite Ec in E2; apply str_cmp_eq; exact E2|].
  split; [intros Es; rewrite Es in E3; apply oacc_cmp_eq; exact E3|apply str_cmp_eq; exact H].
Qed.
Print Assumptions C06_register_cmp_separates.

(* the comparison is a total preorder (what sort.Slice needs) *)
Theorem C06_register_cmp_good : forall rc, good_cmp (rkey_cmp rc).
Proof. exact good_rkey. Qed.
Print Assumptions C06_register_cmp_good.

(* before 4dc8b78 (Dest and commodity only): two keys of one date, two enumerations, two tables
   (findings/C06-register-row-order.md); the repaired comparison gives one *)
Theorem C06_register_map_order_pinned_refuted : exists rc t l l',
  Permutation l l' /\ NoDup (map fst l) /\
  reg_render_node_pinned rc t l <> reg_render_node_pinned rc t l' /\
  reg_render_node rc t l = reg_render_node rc t l'.
Proof.
  exists rw_rc, (table_new (reg_groups rw_rc)), rw_entries, (rev rw_entries).
  exact rw_pinned_depends_on_enumeration.
Qed.
Print Assumptions C06_register_map_order_pinned_refuted.

(* What a register row is, in terms of the balance report.  Query.Into hands every posting p to the
   collection; `balance` files it under p's own account, `register` under p's OTHER account, and
   shows the negated amount.  Every booking is a pair (p, p') with p booked on the account p' names
   as the other side, equal commodity, opposite amounts.  Hence:

   for configurations that agree ([cfgs_agree]: same --from/--to/interval/--last, valuation,
   mapping, remap; register's --dest and --commodity = balance's --account and --commodity; no
   --source; commodities shown, i.e. -c or no valuation; balance with --close=false), if both
   commands succeed, then for every account [row], commodity [c] and period end [col]

     the amounts shown in the register rows of date [col], Dest [row] (by name), commodity [c]
     -- over all sources and descriptions -- sum to the amount the balance report stores for
     account [row] and commodity [c] under [col]: the cell of `balance --diff` (Properties/C02.v
     C02_row_cumulative: without --diff the balance prints running totals of these amounts).

   [col <> 0]: the register files a date that falls after the last period under the zero time (day
   0, 0001-01-01), the balance under "no date"; Filter removes such days, and no period ends on
   0001-01-01 unless the journal starts before year 1.  The statement holds with
   --dest/--commodity filters as stated, and fails with --source (that filter looks at
   the posting's own account, for which the balance has no counterpart). *)
Theorem C06_register_matches_balance : forall rc bc ds rr rb part,
  cfgs_agree rc bc -> sd_syntactic ds -> no_conflicting_prices ds ->
  register_report rc ds = COk rr -> balance_report bc ds = COk (rb, part) ->
  forall row c col, col <> 0 ->
    (reg_rows_total rr col row c == rcell row (Some col, Some c) rb)%Q.
Proof. exact register_matches_balance. Qed.
Print Assumptions C06_register_matches_balance.

(* the register side as a sum over the dated postings that reach the collection *)
Theorem C06_register_rows_sum : forall q col row c ds r' ds',
  Journal.process_days (reg_query_proc q) new_reg_report ds = Journal.ROk (r', ds') ->
  (reg_rows_total r' col row c == qsum (rq_contrib q col row c) (days_postings ds))%Q.
Proof.
  intros q col row c ds r' ds' H.
  destruct (reg_query_days_sum q col row c ds new_reg_report r' ds' reg_sorted_new H) as [_ E].
  rewrite E. assert (Z0 : (reg_rows_total new_reg_report col row c == 0)%Q) by reflexivity.
  rewrite Z0. ring.
Qed.
Print Assumptions C06_register_rows_sum.

(* the hypotheses are satisfiable: the journal of Properties/C05.v (two commodities, a price change,
   same-day transactions with the same Dest), valued with -a -d --months, and unvalued with -c *)
Example C06_register_example :
  Permutation w_journal w_permuted /\ sd_syntactic w_journal /\ no_conflicting_prices w_journal /\
  mapping_shows (rg_mapping rw_cfg) = true /\
  register_text rw_cfg rw_tc w_journal = register_text rw_cfg rw_tc w_permuted /\
  register_text rw_cfg_plain rw_tc w_journal = register_text rw_cfg_plain rw_tc w_permuted /\
  (exists out, register_text rw_cfg rw_tc w_journal = COk out /\ (1000 <? Z.of_nat (length out)) = true) /\
  (exists t, register_table rw_cfg w_journal = COk t /\ length (t_rows t) = 15%nat).
Proof. exact (conj w_perm (conj w_syntactic (conj w_prices (conj eq_refl rw_bytes_equal)))). Qed.

Example C06_register_example_hidden :
  register_text rw_cfg_hidden rw_tc w_journal = CPanic k_nil_account /\
  mapping_flag_ok rw_hide = true /\ mapping_shows rw_hide = false.
Proof. exact rw_hidden_panics. Qed.

(* register -v CHF -c -a -d --months against balance -v CHF --months --diff --close=false on the same
   journal: the January rows with Dest Assets:B in USD sum to the balance's January cell (not 0) *)
Example C06_register_matches_balance_example :
  cfgs_agree rw_cfg_c rw_bcfg /\
  exists rr rb part,
    register_report rw_cfg_c w_journal = COk rr /\ balance_report rw_bcfg w_journal = COk (rb, part) /\
    In rw_col (end_dates part) /\ rw_col <> 0 /\
    (reg_rows_total rr rw_col w_A w_usd == rcell w_A (Some rw_col, Some w_usd) rb)%Q /\
    ~ (reg_rows_total rr rw_col w_A w_usd == 0)%Q /\
    (reg_rows_total rr rw_col w_I w_chf == rcell w_I (Some rw_col, Some w_chf) rb)%Q.
Proof. exact (conj rw_agree rw_matches). Qed.
