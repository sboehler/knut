(* C07  The parser is total and its tree is a lossless cover of the text.
   Theorem statements; the proof under a statement is [exact <lemma>], a few lines from the
   lemmas of Proofs/, or a witness by evaluation; each is followed by Print Assumptions.
   Model: Model/Utf8.v (utf8.DecodeRuneInString), Model/Scanner.v, Model/Parser.v;
   [parse_text letter digit t] is syntax.ParseFile on the bytes t (parser.New; Advance;
   ParseFile) for a classification of letters and digits.
   Vocabulary: Spec/SyntaxSpec.v (wf_tree_b, cover_b, interleave, err_in_bounds_b) and
   Spec/LeafSpec.v (wf_leaves_b: the lexical class of every leaf; wf_keywords_b: the keyword
   that justifies the kind of every node) -- the executable
   statements that every check run evaluates on the Go parser's own output.
   All theorems hold for EVERY byte list t (incl. invalid UTF-8, CR/LF mixes, any length)
   and for EVERY classification letter/digit : Z -> bool (in particular for
   UnicodeTables.is_letter / is_digit, the tables of the Go toolchain).                      *)
From Coq Require Import String ZArith List Bool.
From Knut Require Import Model.Bytes Model.Utf8 Model.UnicodeTables Model.Scanner Model.Parser
  Spec.SyntaxSpec Spec.FormatSpec Spec.LeafSpec Spec.SepSpec Proofs.ScannerProofs Proofs.ParserProofs Proofs.RoundTripLeaf
  Proofs.RoundTripTop Proofs.LeafProofs Proofs.KeywordProofs Proofs.SepProofs Proofs.DeterminedProofs
  Spec.LocationSpec Proofs.LocationProofs Proofs.LocationParserProofs.
Import ListNotations.
Open Scope Z_scope.

(* the loop bounds of the model (fuel S |t| for each of the seven loops of scanner and parser)
   are never reached: the parser terminates on every byte string *)
Theorem C07_fuel : forall letter digit t, parse_text letter digit t <> ParseFuel.
Proof. exact parse_text_fuel. Qed.
Print Assumptions C07_fuel.

(* every error of a returned chain (the scanner's error, every Scope.Annotate around it, the
   empty directives.Error{} of parseAddons) has 0 <= start <= end <= |t|: Location and Context
   index inside the text *)
Theorem C07_err_in_bounds : forall letter digit t e,
  parse_text letter digit t = ParseErr e -> err_in_bounds_b t e = true.
Proof. exact parse_text_err_in_bounds. Qed.
Print Assumptions C07_err_in_bounds.

(* a returned tree is well-formed: the file range is [0,|t|]; every range has
   0 <= start <= end <= |t|; children lie inside their parent, in source order, disjoint;
   top-level directives are non-empty, strictly increasing and disjoint; the payload of a
   directive has the directive's range (include: ends with it); a quoted string's content is
   the string without its quotes; absent addons are zero values; there is no nil payload.
   The lexical classes of the leaves are C07_leaves. *)
Theorem C07_wf : forall letter digit t f,
  parse_text letter digit t = ParseOk f -> wf_tree_b t f = true.
Proof. exact parse_text_wf. Qed.
Print Assumptions C07_wf.

(* the text outside the directives consists only of whitespace-only lines and comment lines
   starting in column 0 with `*`, `#` or `//` (the first line of a gap after a directive is
   whitespace-only: the rest of the directive's last line); every gap that is followed by a
   directive ends with a newline, a gap between two directives is not empty; and gaps and
   directive slices interleave to exactly the input *)
Theorem C07_cover : forall letter digit t f,
  parse_text letter digit t = ParseOk f -> cover_b t f = true /\ interleave t f = t.
Proof. exact parse_text_cover. Qed.
Print Assumptions C07_cover.

(* every leaf's slice is in its lexical class (Spec/LeafSpec.v): the slice decodes into runes
   (no range cuts an encoding or covers an invalid byte) and, over those runes,
     date = dddd-dd-dd;  decimal = -?d+(.d+)?;  commodity = a+;
     account = a+(:a+)* not starting with `$` when Macro is false, `$`l+ when Macro is true;
     interval = daily|weekly|monthly|quarterly;
     quoted string = quote, runes other than the quote, quote, and Content = what is between;
   a transaction has a booking, an assertion a balance, there is no nil payload; the targets
   of @performance are commodities and @accrue is the zero value or interval, two dates and
   an account.  d, l, a are the digit, letter, letter-or-digit predicates of the parser: the
   statement holds for every classification (no class_ok hypothesis is needed) *)
Theorem C07_leaves : forall letter digit t f,
  parse_text letter digit t = ParseOk f -> wf_leaves_b letter digit t f = true.
Proof. exact parse_text_leaves. Qed.
Print Assumptions C07_leaves.

(* in particular for the tables of the Go toolchain *)
Theorem C07_leaves_unicode : forall t f,
  parse_text is_letter is_digit t = ParseOk f -> wf_leaves_b is_letter is_digit t f = true.
Proof. exact (parse_text_leaves is_letter is_digit). Qed.
Print Assumptions C07_leaves_unicode.

(* the kind of every node is justified by the text (Spec/LeafSpec.v, bytes): between the date
   and the payload stand blanks (32, 9, 13), the keyword of the payload's kind -- open, close,
   price, balance -- and blanks (after `balance` the line may end instead: the multi-line
   form); a transaction's description follows its date after blanks only; an include is
   `include`, blanks, the path; a present @performance is `@performance(` ... `)`, a present
   @accrue is `@accrue`, blanks, the interval.  That the blanks after open/close/price are not
   empty needs that the newline is not alphanumeric: the hypothesis class_ok (blank, tab, CR,
   newline, `)` `,` `#` `*` `/` are neither letters nor digits, `i` is one), which holds of
   the Unicode tables (C08_class_ok_unicode) *)
Theorem C07_keywords : forall letter digit t f, class_ok letter digit ->
  parse_text letter digit t = ParseOk f -> wf_keywords_b t f = true.
Proof. exact parse_text_keywords. Qed.
Print Assumptions C07_keywords.

Theorem C07_keywords_unicode : forall t f,
  parse_text is_letter is_digit t = ParseOk f -> wf_keywords_b t f = true.
Proof. exact (fun t f => parse_text_keywords is_letter is_digit t f unicode_class_ok). Qed.
Print Assumptions C07_keywords_unicode.

(* for an arbitrary classification the statement is false: if the newline is a letter, the
   account of `open` may start with it *)
Theorem C07_keywords_unrestricted_refuted :
  exists letter digit t f, parse_text letter digit t = ParseOk f /\ wf_keywords_b t f = false.
Proof. exact keywords_unrestricted_refuted. Qed.
Print Assumptions C07_keywords_unrestricted_refuted.

(* the text BETWEEN the leaves of every node is what the grammar says (Spec/SepSpec.v, bytes;
   blanks are 32, 9, 13):
     booking       credit blank+ debit blank+ decimal blank+ commodity
     balance line  account blank+ decimal blank+ commodity
     price         commodity blank+ decimal blank+ commodity
     @accrue       interval blank+ date blank+ date blank+ account
     @performance( blank* [ commodity ( blank* , blank* commodity )* ] blank* )
   after the description, after every booking, after every balance line of the multi-line form
   and after every addon stands blank* newline (the last line of a directive that ends the text
   may lack the newline); every node starts with its first leaf and ends with its last leaf (or
   with the rest of its last line), the date of a transaction follows its addon lines directly;
   addon lines in front of an open / close / balance / price / include -- which the parser
   accepts and drops -- start with `@` and end with a newline.  That the blanks of a balance
   line, a price and an @accrue line are not empty (readWhitespace1 accepts none in front of a
   newline) needs class_ok *)
Theorem C07_separators : forall letter digit t f, class_ok letter digit ->
  parse_text letter digit t = ParseOk f -> wf_separators_b t f = true.
Proof. exact parse_text_separators. Qed.
Print Assumptions C07_separators.

Theorem C07_separators_unicode : forall t f,
  parse_text is_letter is_digit t = ParseOk f -> wf_separators_b t f = true.
Proof. exact (fun t f => parse_text_separators is_letter is_digit t f unicode_class_ok). Qed.
Print Assumptions C07_separators_unicode.

(* for an arbitrary classification the statement is false: if the newline is a letter, the
   target commodity of `price A 1<newline>B` starts with the newline, right after the number *)
Theorem C07_separators_unrestricted_refuted :
  exists letter digit t f, parse_text letter digit t = ParseOk f /\ wf_separators_b t f = false.
Proof. exact separators_unrestricted_refuted. Qed.
Print Assumptions C07_separators_unrestricted_refuted.

(* SUMMARY: every byte of the text is accounted for.  [pieces t f] (Spec/SepSpec.v) lists, in
   source order, the gaps between the directives, the leaves, the keyword windows and the
   separators of the tree, each with its class; [determined_b]: the ranges of the pieces follow
   each other without a hole from 0 to |t| and the slice of every piece is in its class
   ([piece_ok_b]: a gap is whitespace-only and comment lines as in cover_b; a leaf is in its
   lexical class as in wf_leaves_b; a keyword window is as in wf_keywords_b; a separator is
   blank+, blank*, blank* `,` blank*, blank* newline as in wf_separators_b).  Hence the text is
   the concatenation of the slices of its pieces: it is determined by the leaves, the keywords
   and the classes of gaps and separators.
   The one class that does not describe its text completely is PDropped: addon lines in front
   of an open / close / balance / price / include are accepted by the parser and belong to no
   node (only in a transaction are they kept); of them the statement says `@` ... newline.   *)
Theorem C07_text_determined : forall letter digit t f, class_ok letter digit ->
  parse_text letter digit t = ParseOk f ->
  determined_b letter digit t f = true /\
  forallb (piece_ok_b Utf8M.decode letter digit t) (pieces t f) = true /\
  concat (map (fun p => cut t (fst p)) (pieces t f)) = t.
Proof. exact parse_text_determined. Qed.
Print Assumptions C07_text_determined.

Theorem C07_text_determined_unicode : forall t f,
  parse_text is_letter is_digit t = ParseOk f ->
  determined_b is_letter is_digit t f = true /\
  forallb (piece_ok_b Utf8M.decode is_letter is_digit t) (pieces t f) = true /\
  concat (map (fun p => cut t (fst p)) (pieces t f)) = t.
Proof. exact (fun t f => parse_text_determined is_letter is_digit t f unicode_class_ok). Qed.
Print Assumptions C07_text_determined_unicode.

(* the same about ANY tree -- no parser in the statement: the five executable statements that
   every check run evaluates on the Go parser's tree imply that its pieces account for every
   byte ("cover_b + wf_leaves_b + wf_keywords_b + wf_separators_b", with wf_tree_b for the
   order of the ranges) *)
Theorem C07_specs_determine : forall letter digit t f,
  wf_tree_b t f = true -> cover_b t f = true -> wf_leaves_b letter digit t f = true ->
  wf_keywords_b t f = true -> wf_separators_b t f = true ->
  determined_b letter digit t f = true /\
  forallb (piece_ok_b Utf8M.decode letter digit t) (pieces t f) = true /\
  concat (map (fun p => cut t (fst p)) (pieces t f)) = t.
Proof. exact determined_of_specs_b. Qed.
Print Assumptions C07_specs_determine.

(* two parsed texts whose pieces have the same slices are the same text *)
Theorem C07_text_determined_eq : forall letter digit t f t' f', class_ok letter digit ->
  parse_text letter digit t = ParseOk f -> parse_text letter digit t' = ParseOk f' ->
  map (fun p => cut t (fst p)) (pieces t f) = map (fun p => cut t' (fst p)) (pieces t' f') -> t = t'.
Proof.
  intros letter digit t f t' f' Hc Hp Hp' He.
  destruct (parse_text_determined letter digit t f Hc Hp) as (_ & _ & H1).
  destruct (parse_text_determined letter digit t' f' Hc Hp') as (_ & _ & H2).
  rewrite <- H1, <- H2. now rewrite He.
Qed.
Print Assumptions C07_text_determined_eq.

(* the three results in one statement *)
Theorem C07_total : forall letter digit t,
  match parse_text letter digit t with
  | ParseOk f => wf_tree_b t f = true /\ cover_b t f = true /\ interleave t f = t
  | ParseErr e => err_in_bounds_b t e = true
  | ParseFuel => False
  end.
Proof. exact parse_text_total. Qed.
Print Assumptions C07_total.

(* everything about a tree the Go parser's tables produce, in one statement *)
Theorem C07_total_unicode : forall t,
  match parse_text is_letter is_digit t with
  | ParseOk f => wf_tree_b t f = true /\ cover_b t f = true /\ interleave t f = t /\
                 wf_leaves_b is_letter is_digit t f = true /\ wf_keywords_b t f = true
  | ParseErr e => err_in_bounds_b t e = true
  | ParseFuel => False
  end.
Proof.
  intros t. pose proof (parse_text_total is_letter is_digit t) as H.
  destruct (parse_text is_letter is_digit t) as [f|e|] eqn:Hp; [|exact H|exact H].
  destruct H as (H1 & H2 & H3). repeat split; try assumption.
  - now apply parse_text_leaves.
  - exact (parse_text_keywords is_letter is_digit t f unicode_class_ok Hp).
Qed.
Print Assumptions C07_total_unicode.

(* the decoder facts the proofs rest on hold of Go's decoder as modelled in Model/Utf8.v *)
Theorem C07_decoder : decoder_ok Utf8M.decode.
Proof. exact utf8_decoder_ok. Qed.
Print Assumptions C07_decoder.

Definition ex_text : str := Eval vm_compute in
  runes_of_string "* c
2020-01-01 open A:B
@performance(X)
2020-01-02 ""d""
A:B C 1.5 X

"%string.

Example C07_example_parses :
  exists f, parse_text is_letter is_digit ex_text = ParseOk f /\
            List.length (f_directives f) = 2%nat /\
            wf_tree_b ex_text f = true /\ cover_b ex_text f = true.
Proof. eexists. vm_compute. repeat split. Qed.

(* an error chain: file > directive > date > scanner error, all inside the 4 bytes *)
Example C07_example_error :
  parse_text is_letter is_digit (runes_of_string "20x0"%string) =
  ParseErr [mkErr (KWhile DFile) 0 2; mkErr (KWhile DDir) 0 2; mkErr (KWhile DDate) 0 2; mkErr KChar 2 2].
Proof. vm_compute. reflexivity. Qed.

(* invalid UTF-8 is an error at the offending byte, not a panic *)
Example C07_example_invalid_utf8 :
  parse_text is_letter is_digit [35; 32; 255; 10] =
  ParseErr [mkErr (KWhile DFile) 0 2; mkErr (KWhile DComment) 0 2; mkErr KNext 1 2; mkErr KUtf8 2 2].
Proof. vm_compute. reflexivity. Qed.

(* the leaves of the example are in their classes *)
Example C07_example_leaves :
  exists f, parse_text is_letter is_digit ex_text = ParseOk f /\ wf_leaves_b is_letter is_digit ex_text f = true.
Proof. eexists. split; [vm_compute; reflexivity|]. vm_compute. reflexivity. Qed.

(* the classes are not vacuous: what they accept and what they reject *)
Definition ex_in (c : list Z -> bool) (s : string) : bool := in_class Utf8M.decode c (runes_of_string s).
Example C07_classes_accept :
  ex_in (date_rs is_digit) "2020-01-31" = true /\
  ex_in (decimal_rs is_digit) "-10.50" = true /\ ex_in (decimal_rs is_digit) "7" = true /\
  ex_in (account_rs is_letter is_digit false) "Assets:Bank:CH93" = true /\
  ex_in (account_rs is_letter is_digit true) "$dividend" = true /\
  ex_in (commodity_rs is_letter is_digit) "CHF" = true.
Proof. vm_compute. repeat split. Qed.
Example C07_classes_reject :
  ex_in (date_rs is_digit) "2020-01-3" = false /\ ex_in (date_rs is_digit) "2020-1-031" = false /\
  ex_in (date_rs is_digit) "2020/01/31" = false /\
  ex_in (decimal_rs is_digit) "1." = false /\ ex_in (decimal_rs is_digit) ".5" = false /\
  ex_in (decimal_rs is_digit) "--1" = false /\ ex_in (decimal_rs is_digit) "1.2.3" = false /\
  ex_in (decimal_rs is_digit) "1,5" = false /\
  ex_in (account_rs is_letter is_digit false) "Assets:" = false /\
  ex_in (account_rs is_letter is_digit false) ":Assets" = false /\
  ex_in (account_rs is_letter is_digit false) "A::B" = false /\
  ex_in (account_rs is_letter is_digit false) "A B" = false /\
  ex_in (account_rs is_letter is_digit false) "$x" = false /\
  ex_in (account_rs is_letter is_digit true) "$x1" = false /\
  ex_in (account_rs is_letter is_digit true) "$" = false /\
  ex_in (commodity_rs is_letter is_digit) "" = false /\ ex_in (commodity_rs is_letter is_digit) "C-F" = false /\
  in_class Utf8M.decode (commodity_rs is_letter is_digit) [67; 195] = false.
Proof. vm_compute. repeat split. Qed.

(* a tree whose date leaf has a one-digit day passes wf_tree_b and cover_b, not wf_leaves_b *)
Example C07_spec_rejects_short_day :
  let t := runes_of_string "2020-01-1 open A
"%string in
  let f := mkFile (mkRange 0 17)
     [mkDirective (mkRange 0 16) (BOpen (mkOpen (mkRange 0 16) (mkRange 0 9) (mkAccount (mkRange 15 16) false)))] in
  wf_tree_b t f = true /\ cover_b t f = true /\ wf_leaves_b is_letter is_digit t f = false.
Proof. vm_compute. repeat split. Qed.

(* the keywords of the example are where the kinds say *)
Example C07_example_keywords :
  exists f, parse_text is_letter is_digit ex_text = ParseOk f /\ wf_keywords_b ex_text f = true.
Proof. eexists. split; [vm_compute; reflexivity|]. vm_compute. reflexivity. Qed.

(* a `close` directive returned as an opening passes every other check, not wf_keywords_b; so
   does an `open` whose keyword touches the account *)
Example C07_spec_rejects_wrong_kind :
  let t := runes_of_string "2020-01-01 close A
"%string in
  let f := mkFile (mkRange 0 19)
     [mkDirective (mkRange 0 18) (BOpen (mkOpen (mkRange 0 18) (mkRange 0 10) (mkAccount (mkRange 17 18) false)))] in
  wf_tree_b t f = true /\ cover_b t f = true /\ wf_leaves_b is_letter is_digit t f = true /\
  wf_keywords_b t f = false.
Proof. vm_compute. repeat split. Qed.
Example C07_spec_rejects_glued_keyword :
  let t := runes_of_string "2020-01-01 openA
"%string in
  let f := mkFile (mkRange 0 17)
     [mkDirective (mkRange 0 16) (BOpen (mkOpen (mkRange 0 16) (mkRange 0 10) (mkAccount (mkRange 15 16) false)))] in
  wf_tree_b t f = true /\ cover_b t f = true /\ wf_leaves_b is_letter is_digit t f = true /\
  wf_keywords_b t f = false.
Proof. vm_compute. repeat split. Qed.

(* the specification rejects trees that are not covers: a directive range shifted by one *)
Example C07_spec_rejects_shifted :
  let t := runes_of_string "2020-01-01 open A
"%string in
  wf_tree_b t (mkFile (mkRange 0 18)
     [mkDirective (mkRange 0 18) (BOpen (mkOpen (mkRange 0 18) (mkRange 0 10) (mkAccount (mkRange 16 17) false)))]) = true /\
  cover_b t (mkFile (mkRange 0 18)
     [mkDirective (mkRange 0 16) (BOpen (mkOpen (mkRange 0 16) (mkRange 0 10) (mkAccount (mkRange 16 16) false)))]) = false.
Proof. vm_compute. split; reflexivity. Qed.

(* the separators of the example are what the grammar says *)
Definition ex_text2 : str := Eval vm_compute in
  runes_of_string "@performance( X , Y )
@accrue monthly 2020-01-01  2020-12-31 A:B
2020-01-02 ""d""
A:B  C 1.5 X
C A:B -2 Y

2020-01-03 balance
A:B 1 X
C 2 Y

2020-01-04 price X 2.5 Y
"%string.
Example C07_example_separators :
  exists f, parse_text is_letter is_digit ex_text2 = ParseOk f /\ List.length (f_directives f) = 3%nat /\
            wf_separators_b ex_text2 f = true.
Proof. eexists. split; [vm_compute; reflexivity|]. vm_compute. split; reflexivity. Qed.

(* the example text consists of 64 pieces *)
Example C07_example_determined :
  exists f, parse_text is_letter is_digit ex_text2 = ParseOk f /\
            determined_b is_letter is_digit ex_text2 f = true /\ List.length (pieces ex_text2 f) = 64%nat.
Proof. eexists. split; [vm_compute; reflexivity|]. vm_compute. split; reflexivity. Qed.

(* a tab is a blank, a missing blank or a second comma is not: trees whose ranges claim
   `A B 1X` (no blank before the commodity) or `@performance(X,,Y)` pass every other check *)
Example C07_spec_rejects_missing_blank :
  let t := runes_of_string "2020-01-01 ""x""
A B 1X
"%string in
  let f := mkFile (mkRange 0 22)
     [mkDirective (mkRange 0 22) (BTrx (mkTrx (mkRange 0 22) (mkRange 0 10) (mkQuoted (mkRange 11 14) (mkRange 12 13))
        [mkBooking (mkRange 15 21) (mkAccount (mkRange 15 16) false) (mkAccount (mkRange 17 18) false) (mkRange 19 20) (mkRange 20 21)]
        zero_addons))] in
  wf_tree_b t f = true /\ cover_b t f = true /\ wf_leaves_b is_letter is_digit t f = true /\
  wf_keywords_b t f = true /\ wf_separators_b t f = false.
Proof. vm_compute. repeat split. Qed.
Example C07_spec_rejects_two_commas :
  let t := runes_of_string "@performance(X,,Y)
2020-01-01 ""x""
A B 1 X
"%string in
  let f := mkFile (mkRange 0 42)
     [mkDirective (mkRange 0 42) (BTrx (mkTrx (mkRange 0 42) (mkRange 19 29) (mkQuoted (mkRange 30 33) (mkRange 31 32))
        [mkBooking (mkRange 34 41) (mkAccount (mkRange 34 35) false) (mkAccount (mkRange 36 37) false) (mkRange 38 39) (mkRange 40 41)]
        (mkAddons (mkRange 0 19) (mkPerf (mkRange 0 18) [mkRange 13 14; mkRange 16 17]) zero_accrual)))] in
  wf_tree_b t f = true /\ cover_b t f = true /\ wf_leaves_b is_letter is_digit t f = true /\
  wf_keywords_b t f = true /\ wf_separators_b t f = false.
Proof. vm_compute. repeat split. Qed.

(* ==================================================================================
   The RENDERED position of an error (Spec/LocationSpec.v, Proofs/LocationProofs.v).
   Every diagnostic of knut prints "path: line:col message"; line:col is
   directives.Range.Location() of the error's range: Go walks the RUNES of the text up to the
   byte offset End, counting newlines (line) and the runes since the last newline (col).
   [location t off] is that loop with Go's decoder (an invalid byte is one rune of width 1);
   [loc_inside_b t (l,c)]: line l exists in t and 1 <= c <= (runes of line l) + 1;
   [offset_of t (l,c)]: the byte offset that the position (l,c) denotes;
   [rune_boundary_b t off]: off is the start of a rune of Go's walk over t, or |t|.
   ================================================================================== *)

(* the rendered position lies inside the input -- for EVERY text and EVERY offset: the line
   exists and the column is at most one past the runes of that line.  (No hypothesis on off is
   needed: at an offset that is no rune boundary, negative or beyond the text, Go's comparison
   pos == End never succeeds and the position of the END of the text is returned,
   C07_location_off_rune.) *)
Theorem C07_location_inside : forall t off, loc_inside_b t (location t off) = true.
Proof. exact location_inside. Qed.
Print Assumptions C07_location_inside.

(* the rendered position identifies the byte the error points at: computed back from the
   text, the byte offset of (line, col) is off -- for every off at which a rune of the text
   starts, and for off = |t| *)
Theorem C07_location_roundtrip : forall t off,
  rune_boundary_b t off = true -> offset_of t (location t off) = off.
Proof. exact location_roundtrip. Qed.
Print Assumptions C07_location_roundtrip.

(* in terms of BYTES the rendered line is one more than the number of bytes '\n' among the
   first off bytes of the text (a newline rune is the byte 10; the bytes of every other rune,
   valid or not, contain no 10).  The column has no such reading: it counts runes -- that is
   what the round trip above pins down and what a byte distance gets wrong *)
Theorem C07_location_line : forall t off,
  rune_boundary_b t off = true -> fst (location t off) = byte_line t off.
Proof. exact location_line. Qed.
Print Assumptions C07_location_line.

(* the hypothesis says no more than it should: such offsets lie in [0,|t|], and 0 and |t| are
   among them *)
Theorem C07_rune_boundary_bounds : forall t off, rune_boundary_b t off = true -> 0 <= off <= zlen t.
Proof. exact rune_boundary_bounds. Qed.
Print Assumptions C07_rune_boundary_bounds.

(* and it is needed: everywhere else Location() renders the end of the text *)
Theorem C07_location_off_rune : forall t off,
  rune_boundary_b t off = false -> location t off = location t (zlen t).
Proof. exact location_off_rune. Qed.
Print Assumptions C07_location_off_rune.

(* every error of the chain that the parser returns: its byte range lies inside the text
   (C07_err_in_bounds) and the position rendered for its End lies inside the text *)
Theorem C07_error_location_inside : forall letter digit t e,
  parse_text letter digit t = ParseErr e ->
  err_in_bounds_b t e = true /\
  forallb (fun x => loc_inside_b t (location t (er_end x))) e = true.
Proof. exact parse_text_error_location_inside. Qed.
Print Assumptions C07_error_location_inside.

(* every error of a returned chain ends where a rune of the text starts (or at the end of the
   text): the scanner only stands at offsets that Go's walk over the runes reaches -- Advance
   moves by the width of the decoded rune, Backtrack returns to an earlier offset -- and every
   error range ends at a scanner offset (Proofs/LocationParserProofs.v: an invariant carried
   through every function of scanner and parser) *)
Theorem C07_error_ends_at_rune : forall letter digit t e,
  parse_text letter digit t = ParseErr e ->
  forallb (fun x => rune_boundary_b t (er_end x)) e = true.
Proof. exact parse_text_errs_at_runes. Qed.
Print Assumptions C07_error_ends_at_rune.

(* hence the position rendered for every error of the chain identifies the byte the error
   points at: computed back from the text, line:col is the byte End *)
Theorem C07_error_location_roundtrip : forall letter digit t e,
  parse_text letter digit t = ParseErr e ->
  forallb (fun x => offset_of t (location t (er_end x)) =? er_end x) e = true.
Proof. exact parse_text_errs_roundtrip. Qed.
Print Assumptions C07_error_location_roundtrip.

(* so the verdict of the check on a rendered position -- inside the input and denoting End
   (observed_loc_ok_b) -- accepts the model's own rendering of every error *)
Theorem C07_error_location_verdict : forall letter digit t e,
  parse_text letter digit t = ParseErr e ->
  forallb (fun x => observed_loc_ok_b t (er_end x) (location t (er_end x))) e = true.
Proof. exact parse_text_errs_verdict. Qed.
Print Assumptions C07_error_location_verdict.

(* ---- example: an error AFTER multi-byte characters on its line ----
   line 2 has 38 runes in 42 bytes (ö ü ä é are two bytes each); the parser stops at the stray
   euro sign, byte 57 of the text = rune 38 of line 2.  Go renders 2:38 for every error of the
   chain; that position lies inside the text and denotes byte 57.  A Location() that counted
   BYTES since the last newline (the seeded change of round 7, strings.LastIndexByte) would
   print 2:42 -- a column that line 2 does not have. *)
Definition ex_text_umlaut : str := Eval vm_compute in
  runes_of_string "2020-01-01 ""ü""
Vermögen:Zürich Aufwände:Café 12 CHF €
"%string.

Example C07_example_location :
  parse_text is_letter is_digit ex_text_umlaut =
    ParseErr [mkErr (KWhile DFile) 0 57; mkErr (KWhile DDir) 0 57; mkErr (KWhile DTrx) 0 57;
              mkErr (KWhile DRest) 56 57; mkErr KChar 57 57] /\
  rune_boundary_b ex_text_umlaut 57 = true /\
  location ex_text_umlaut 57 = (2, 38) /\
  loc_inside_b ex_text_umlaut (2, 38) = true /\
  offset_of ex_text_umlaut (2, 38) = 57 /\
  byte_line ex_text_umlaut 57 = 2 /\
  byte_col ex_text_umlaut 57 = 42 /\
  loc_inside_b ex_text_umlaut (2, 39) = true /\       (* the newline of line 2 *)
  loc_inside_b ex_text_umlaut (2, 40) = false /\
  loc_inside_b ex_text_umlaut (2, 42) = false /\
  observed_loc_ok_b ex_text_umlaut 57 (2, 38) = true /\
  observed_loc_ok_b ex_text_umlaut 57 (2, 39) = false. (* inside, but another byte *)
Proof. vm_compute. repeat split. Qed.

(* an invalid byte is one rune of width 1 (as Go's range yields U+FFFD): the error of the
   invalid-UTF-8 example above points at byte 2 = column 3 of line 1; and an offset inside an
   encoding (byte 2 of "aü": the second byte of ü) is rendered as the end of the text *)
Example C07_example_location_invalid :
  location [35; 32; 255; 10] 2 = (1, 3) /\ offset_of [35; 32; 255; 10] (1, 3) = 2 /\
  rune_boundary_b [97; 195; 188; 10; 120] 2 = false /\
  location [97; 195; 188; 10; 120] 2 = (2, 2) /\ location [97; 195; 188; 10; 120] 5 = (2, 2).
Proof. vm_compute. repeat split. Qed.
