(* C08  format preserves meaning and comments and is idempotent.
   Theorem statements; the proof under a statement is [exact <lemma>], a few lines from the
   lemmas of Proofs/, or a witness by evaluation.  Model: Model/SynPrinter.v ([format_text letter digit t f] is
   syntax.FormatFile on the file f parsed from the bytes t; [format_cmd] is `knut format` on
   one file), Model/Parser.v.  Vocabulary: Spec/FormatSpec.v ([sem]: per directive the kind
   and the strings of date, accounts, quantities, commodities, description, annotations;
   [gaps]: the text before, between and after the directives).

   THE ROUND TRIP IS PROVED AT FULL STRENGTH for every byte list and every directive kind
   (C08_roundtrip), by the context-lemma method of DESIGN.md Appendix B.3
   (Proofs/RoundTrip*.v): every leaf of a parsed tree is in its lexical class (inversion),
   the formatter copies leaf bytes and gaps verbatim and puts a blank, a newline, ',' or ')'
   behind every token, and in front of such text every parser function succeeds, consumes
   exactly the printed text and yields ranges whose slices are the printed leaves
   (construction); parseFile's loop over a gap consumes exactly the gap.

   The statement without a hypothesis on the classification,

     forall letter digit t f out,
       parse_text letter digit t = ParseOk f -> format_text letter digit t f = FOk out ->
       exists f', parse_text letter digit out = ParseOk f' /\
                  sem out f' = sem t f /\ gaps out f' = gaps t f,

   quantifies over EVERY classification of letters and digits and is FALSE in that
   generality (C08_roundtrip_unrestricted_refuted: if the blank counts as a letter, the
   formatter's "X 1 Y" is one commodity).  The theorem therefore carries the hypothesis
   [class_ok letter digit]: tab, newline, CR, blank, ')' ',' '#' '*' '/' are neither letters nor
   digits and 'i' is alphanumeric.  It holds of Go's unicode.IsLetter / unicode.IsDigit
   (C08_class_ok_unicode), so for the real parser the round trip (C08_roundtrip_unicode) and
   idempotence (C08_idem_unicode) hold without any hypothesis.  The other statements hold for
   every classification.                                                                    *)
From Coq Require Import String ZArith List Bool Lia.
From Knut Require Import Model.Bytes Model.Utf8 Model.UnicodeTables Model.Scanner Model.Parser
  Model.SynPrinter Spec.SyntaxSpec Proofs.ScannerProofs Proofs.ParserProofs Spec.FormatSpec Model.SynRender
  Proofs.FormatProofs Proofs.RoundTripLeaf Proofs.RoundTripFile Proofs.RoundTripTop.
Import ListNotations.
Open Scope Z_scope.

(* parsing the formatted text yields the same meaning and the same gaps *)
Theorem C08_roundtrip : forall letter digit t f out,
  class_ok letter digit ->
  parse_text letter digit t = ParseOk f -> format_text letter digit t f = FOk out ->
  exists f', parse_text letter digit out = ParseOk f' /\
             sem out f' = sem t f /\ gaps out f' = gaps t f.
Proof. exact roundtrip. Qed.
Print Assumptions C08_roundtrip.

(* Go's classification (unicode.IsLetter, unicode.IsDigit) satisfies the hypothesis *)
Theorem C08_class_ok_unicode : class_ok is_letter is_digit.
Proof. exact unicode_class_ok. Qed.
Print Assumptions C08_class_ok_unicode.

Theorem C08_roundtrip_unicode : forall t f out,
  parse_text is_letter is_digit t = ParseOk f -> format_text is_letter is_digit t f = FOk out ->
  exists f', parse_text is_letter is_digit out = ParseOk f' /\
             sem out f' = sem t f /\ gaps out f' = gaps t f.
Proof. intros t f out. apply roundtrip. exact unicode_class_ok. Qed.
Print Assumptions C08_roundtrip_unicode.

(* without the hypothesis on the classification the statement is false *)
Theorem C08_roundtrip_unrestricted_refuted :
  exists letter digit t f out,
    parse_text letter digit t = ParseOk f /\ format_text letter digit t f = FOk out /\
    ~ exists f', parse_text letter digit out = ParseOk f' /\ sem out f' = sem t f /\ gaps out f' = gaps t f.
Proof. exact roundtrip_unrestricted_refuted. Qed.
Print Assumptions C08_roundtrip_unrestricted_refuted.

(* idempotence: the formatted text parses, and formatting it again changes nothing *)
Theorem C08_idem : forall letter digit t f out,
  class_ok letter digit ->
  parse_text letter digit t = ParseOk f -> format_text letter digit t f = FOk out ->
  exists f', parse_text letter digit out = ParseOk f' /\ format_text letter digit out f' = FOk out.
Proof. exact idem. Qed.
Print Assumptions C08_idem.

Theorem C08_idem_unicode : forall t f out,
  parse_text is_letter is_digit t = ParseOk f -> format_text is_letter is_digit t f = FOk out ->
  exists f', parse_text is_letter is_digit out = ParseOk f' /\ format_text is_letter is_digit out f' = FOk out.
Proof. intros t f out. apply idem. exact unicode_class_ok. Qed.
Print Assumptions C08_idem_unicode.

(* the command: `knut format` on a file it has rewritten rewrites it to the same bytes *)
Theorem C08_cmd_idem : forall letter digit t n,
  class_ok letter digit -> format_cmd letter digit t = Rewritten n -> format_cmd letter digit n = Rewritten n.
Proof.
  intros letter digit t n Hc H. pose proof (format_cmd_total letter digit t) as Ht. rewrite H in Ht.
  destruct Ht as (f & Hp & Hf). destruct (idem letter digit t f n Hc Hp Hf) as (f' & Hp' & Hf').
  unfold format_cmd. now rewrite Hp', Hf'.
Qed.
Print Assumptions C08_cmd_idem.

(* A file that does not parse is left exactly as it was (the command does not write). *)
Theorem C08_unparseable : forall letter digit t e,
  parse_text letter digit t = ParseErr e ->
  format_cmd letter digit t = Untouched /\ file_after t (format_cmd letter digit t) = Some t.
Proof. intros letter digit t e H. unfold format_cmd. rewrite H. split; reflexivity. Qed.
Print Assumptions C08_unparseable.

(* The command neither panics (slice bounds in Format) nor fails on a parsed file: it either
   rewrites the file with the formatted text of its parse, or the file did not parse. *)
Theorem C08_cmd_total : forall letter digit t,
  match format_cmd letter digit t with
  | Rewritten n => exists f, parse_text letter digit t = ParseOk f /\ format_text letter digit t f = FOk n
  | Untouched => exists e, parse_text letter digit t = ParseErr e
  | CmdPanic | CmdOutOfFuel => False
  end.
Proof. exact format_cmd_total. Qed.
Print Assumptions C08_cmd_total.

Theorem C08_no_panic : forall letter digit t f,
  parse_text letter digit t = ParseOk f -> exists out, format_text letter digit t f = FOk out.
Proof. exact format_parsed. Qed.
Print Assumptions C08_no_panic.

(* All text between directives is kept byte for byte, and nothing else of the input text
   survives except through the meaning: the output is the gaps interleaved with directives
   rendered from their meaning alone, with the padding computed from the meaning alone. *)
Theorem C08_format_shape : forall letter digit t f out,
  format_text letter digit t f = FOk out ->
  render Utf8M.decode (sem t f) (gaps t f) = Some out.
Proof. exact format_text_render. Qed.
Print Assumptions C08_format_shape.

Theorem C08_format_determined : forall letter digit t1 f1 t2 f2 o1 o2,
  format_text letter digit t1 f1 = FOk o1 -> format_text letter digit t2 f2 = FOk o2 ->
  sem t1 f1 = sem t2 f2 -> gaps t1 f1 = gaps t2 f2 -> o1 = o2.
Proof. exact format_determined. Qed.
Print Assumptions C08_format_determined.

(* Idempotence is a consequence of the round trip: whenever the formatted text parses to the
   same meaning and gaps, formatting it again changes nothing (for every classification;
   C08_idem = this composed with C08_roundtrip). *)
Theorem C08_idem_of_roundtrip : forall letter digit t f o f',
  parse_text letter digit t = ParseOk f -> format_text letter digit t f = FOk o ->
  parse_text letter digit o = ParseOk f' -> sem o f' = sem t f -> gaps o f' = gaps t f ->
  format_text letter digit o f' = FOk o.
Proof. intros letter digit t f o f' _. apply idem_of_roundtrip. Qed.
Print Assumptions C08_idem_of_roundtrip.

(* files that consist of comments, headings and blank lines only are left as they are
   (every classification) *)
Theorem C08_no_directives_unchanged : forall letter digit t f,
  parse_text letter digit t = ParseOk f -> f_directives f = [] ->
  format_text letter digit t f = FOk t.
Proof.
  intros letter digit t f Hp Hd.
  unfold format_text, format. rewrite Hd. cbn [initialize fold_left format_loop mk_env e_len e_text].
  assert (Hc : (0 <=? 0) && (0 <=? Z.of_nat (length t)) = true) by lia. rewrite Hc. f_equal.
  apply slice_full.
Qed.
Print Assumptions C08_no_directives_unchanged.

(* the round trip and idempotence for texts that are already in formatted form *)
Theorem C08_roundtrip_on_formatted : forall letter digit t f,
  parse_text letter digit t = ParseOk f -> format_text letter digit t f = FOk t ->
  exists f', parse_text letter digit t = ParseOk f' /\ sem t f' = sem t f /\ gaps t f' = gaps t f /\
             format_text letter digit t f' = FOk t.
Proof. intros letter digit t f Hp Hf. exists f. auto. Qed.
Print Assumptions C08_roundtrip_on_formatted.

Definition ex_src : str := Eval vm_compute in
  runes_of_string "* heading
2020-01-01   open	A:B
@performance( X ,Y )
@accrue monthly 2020-01-01 2020-12-31 A:B
2020-01-02 ""d""
A:B Long:Account:Name   1.5 X
$m   A:B -2 Y
  
# note
2020-01-03 balance
A:B 1 X

"%string.

(* the full round trip and idempotence on an example with every layout feature *)
Example C08_example_roundtrip :
  exists f out f',
    parse_text is_letter is_digit ex_src = ParseOk f /\
    format_text is_letter is_digit ex_src f = FOk out /\ out <> ex_src /\
    parse_text is_letter is_digit out = ParseOk f' /\
    same_sem_gaps_b ex_src f out f' = true /\
    format_text is_letter is_digit out f' = FOk out.
Proof.
  do 3 eexists. split; [vm_compute; reflexivity|]. split; [vm_compute; reflexivity|].
  split; [discriminate|]. split; [vm_compute; reflexivity|]. split; vm_compute; reflexivity.
Qed.

Example C08_example_unparseable :
  format_cmd is_letter is_digit (runes_of_string "2020-01-01 open"%string) = Untouched.
Proof. vm_compute. reflexivity. Qed.
