(* C10  Accruals move amounts in time without creating or losing money.
   Theorem statements; the proof under a statement is [exact <lemma>], a few lines from the
   lemmas of Proofs/, or a witness by evaluation; the Print Assumptions lines show what the
   audited theorems rest on.
   Vocabulary: Spec/AccrualSpec.v (dvalue, booked, booked_txns, booked_src, balanced, is_pair,
   leg_ok, parts_ok, ascending, accrual_verdict), Spec/DateSpec.v (tiles).
   Model: Model/Ledger.v.  [txn_create_fixed] is transaction.Create with the repair of
   findings/C10-equity-dropped.patch ([!p.Account.IsIE()] instead of [p.Account.IsAL()] in
   transaction.expand); [txn_create_gen rebook_pinned] is the pinned code, of which C10_equity_refuted
   shows that it violates the property ([txn_create], used by Cli.v, is [txn_create_fixed]).  Theorems stated with [txn_create_gen rebook] hold of both.    *)
From Coq Require Import ZArith QArith List Bool Permutation.
From Knut Require Import Model.Str Model.Dec Model.Date Model.Account Model.Ledger.
From Knut Require Import Spec.DateSpec Spec.AccrualSpec.
From Knut Require Import Proofs.DecValueAccrual Proofs.AccrualProofs.
Import ListNotations.
Open Scope Z_scope.

(* Every generated transaction balances: per commodity its postings sum to zero.  Holds with or
   without an @accrue annotation, for the pinned and the repaired expansion. *)
Theorem C10_each_balances : forall rebook s ts,
  txn_create_gen rebook s = MOk ts -> Forall (fun t => balanced (t_postings t)) ts.
Proof. exact create_each_balances. Qed.
Print Assumptions C10_each_balances.

(* ... more precisely, each transaction generated from an accrual is one pair: two postings moving
   one quantity of one commodity between two accounts *)
Theorem C10_each_is_pair : forall rebook s ac ts,
  txn_create_gen rebook s = MOk ts -> st_accrual s = Some ac ->
  Forall (fun t => exists a b c q, is_pair a b c q (t_postings t)) ts.
Proof.
  intros rebook s ac ts H Hac. revert H. apply create_Forall.
  - intros ps E. congruence.
  - intros. do 4 eexists. apply pair_build_is_pair.
Qed.
Print Assumptions C10_each_is_pair.

(* Conservation: for every account other than the accrual account and every commodity, the total
   booked over all generated transactions is what the source transaction's booking lines say.
   No hypothesis on the window is needed beyond the expansion having succeeded; account types,
   signs, numbers of decimals and the number of bookings are arbitrary. *)
Theorem C10_conserve : forall s ac ts a c,
  txn_create_fixed s = MOk ts -> st_accrual s = Some ac ->
  a <> ac_account ac ->
  (booked_txns a c ts == booked_src a c (st_bookings s))%Q.
Proof. intros s ac ts a c H Hac _. exact (create_fixed_conserve s ac ts a c H Hac). Qed.
Print Assumptions C10_conserve.

(* The accrual account nets to zero in every commodity when it is not itself an account of the
   source transaction ... *)
Theorem C10_accrual_nets_zero : forall s ac ts c,
  txn_create_fixed s = MOk ts -> st_accrual s = Some ac ->
  ~ in_bookings (ac_account ac) (st_bookings s) ->
  (booked_txns (ac_account ac) c ts == 0)%Q.
Proof. exact create_fixed_accrual_zero. Qed.
Print Assumptions C10_accrual_nets_zero.

(* ... and when it is, it ends with exactly what the source transaction booked on it (its own
   legs are re-booked against itself and cancel; conservation and "nets to zero" can then only
   both hold if the source booked zero on it). *)
Theorem C10_accrual_account_in_source : forall s ac ts c,
  txn_create_fixed s = MOk ts -> st_accrual s = Some ac ->
  (booked_txns (ac_account ac) c ts == booked_src (ac_account ac) c (st_bookings s))%Q.
Proof. intros s ac ts c H Hac. exact (create_fixed_conserve s ac ts (ac_account ac) c H Hac). Qed.
Print Assumptions C10_accrual_account_in_source.

(* The exact division behind the split: Decimal.QuoRem by the number of parts at one decimal
   place loses nothing, d = n * q + r; the parts are q + r, q, ..., q. *)
Theorem C10_sum_parts : forall d n q r,
  quo_rem d (of_int n) 1 = DOk (q, r) -> (dvalue d == inject_Z n * dvalue q + dvalue r)%Q.
Proof. exact quo_rem_spec. Qed.
Print Assumptions C10_sum_parts.

(* Dates.  For a non-empty window (start <= end, start not Go's zero time) the generated
   transactions are, in order, the expansions of the legs (postings) of the source transaction:
   an income/expense leg yields exactly one part per period of NewPartition(start, end, interval)
   -- which tiles the window (C11) --, dated at the period ends in ascending order, described
   "<desc> (accrual i/n)"; every other leg yields one transaction with the original date and
   description, a pair with the accrual account over the leg's full quantity. *)
Theorem C10_dates : forall s ac ts,
  txn_create_fixed s = MOk ts -> st_accrual s = Some ac ->
  ac_start ac <> 0 -> ac_start ac <= ac_end ac ->
  exists ps part legs,
    postings_create (st_bookings s) = MOk ps /\
    new_partition (mkPeriod (ac_start ac) (ac_end ac)) (ac_interval ac) 0 = POk part /\
    periods part <> [] /\
    (ac_interval ac <> Once -> tiles (ac_start ac) (ac_end ac) (periods part)) /\
    (ac_interval ac = Once -> periods part = [mkPeriod (ac_start ac) (ac_end ac)]) /\
    (ac_interval ac <> Once -> ascending (end_dates part)) /\
    ts = concat legs /\
    Forall2 (leg_ok (st_date s) (st_desc s) (st_targets s) (ac_account ac) (end_dates part)) ps legs.
Proof. exact create_fixed_dates. Qed.
Print Assumptions C10_dates.

(* The expansion never panics on a non-empty window; it succeeds unless an account name is
   rejected by the registry. *)
Theorem C10_no_panic_nonempty : forall rebook s ac,
  st_accrual s = Some ac -> ac_start ac <> 0 -> ac_start ac <= ac_end ac ->
  forall m, txn_create_gen rebook s <> MPanic m.
Proof.
  intros rebook s ac Hac Hs Hse m.
  destruct (create_ok rebook s ac Hac Hs Hse) as [[ts ->]| ->]; discriminate.
Qed.
Print Assumptions C10_no_panic_nonempty.

Theorem C10_succeeds_nonempty : forall rebook s ac,
  st_accrual s = Some ac -> ac_start ac <> 0 -> ac_start ac <= ac_end ac ->
  (exists ts, txn_create_gen rebook s = MOk ts) \/ txn_create_gen rebook s = MErr e_account.
Proof. exact create_ok. Qed.
Print Assumptions C10_succeeds_nonempty.

(* Outside C10's hypothesis (C14's finding F8): a window whose end lies before its start has no
   period, and the first income/expense leg divides by zero: Go panics "decimal division by 0".
   (Pinned and repaired code alike.) *)
Theorem C10_empty_window_panics : forall rebook s ac ps,
  st_accrual s = Some ac -> postings_create (st_bookings s) = MOk ps ->
  valid_account (ac_account ac) = true ->
  ac_start ac <> 0 -> ac_end ac < ac_start ac -> ac_interval ac <> Once ->
  existsb (fun p => is_IE (p_acc p)) ps = true ->
  txn_create_gen rebook s = MPanic e_divzero.
Proof.
  intros rebook s ac ps Hac Hps Hv Hs Hes Hiv. rewrite (txn_create_accrual rebook s ac ps Hac Hps Hv).
  apply expand_postings_panic. intros p. apply expand_posting_empty_window; assumption.
Qed.
Print Assumptions C10_empty_window_panics.

(* ... and a window starting at 0001-01-01 (Go's zero time) panics in NewPartition (F19) *)
Theorem C10_zero_start_panics : forall rebook s ac ps,
  st_accrual s = Some ac -> postings_create (st_bookings s) = MOk ps ->
  valid_account (ac_account ac) = true -> ac_start ac = 0 ->
  existsb (fun p => is_IE (p_acc p)) ps = true ->
  txn_create_gen rebook s = MPanic e_zerotime.
Proof.
  intros rebook s ac ps Hac Hps Hv Hs. rewrite (txn_create_accrual rebook s ac ps Hac Hps Hv).
  apply expand_postings_panic. intros p E.
  unfold expand_posting_gen. rewrite E. unfold new_partition. cbn [p_start]. rewrite Hs. reflexivity.
Qed.
Print Assumptions C10_zero_start_panics.

(* The performance targets are copied to every generated transaction. *)
Theorem C10_targets_kept : forall rebook s ts,
  txn_create_gen rebook s = MOk ts -> Forall (fun t => t_targets t = st_targets s) ts.
Proof. exact create_targets. Qed.
Print Assumptions C10_targets_kept.

(* What the correspondence check evaluates on the Go output implies the statements above about
   that output: clauses 1-3 here, clause 5 in C10_verdict_sound_targets, clause 4 (order-free
   form of C10_dates) in C10_verdict_sound_dates. *)
Theorem C10_verdict_sound : forall s ac ends ts,
  accrual_verdict s ac ends ts = 0 ->
  Forall (fun t => balanced (t_postings t)) ts /\
  (forall a c, (booked_txns a c ts == booked_src a c (st_bookings s))%Q) /\
  (~ in_bookings (ac_account ac) (st_bookings s) -> forall c, (booked_txns (ac_account ac) c ts == 0)%Q).
Proof.
  intros s ac ends ts H. apply verdict_zero in H. destruct H as (E1 & E2 & _).
  split; [|split].
  - apply Forall_forall. intros t Hin. rewrite forallb_forall in E1. apply balanced_b_sound. exact (E1 t Hin).
  - exact (conserve_b_sound _ _ E2).
  - intros Hnot c. rewrite (conserve_b_sound _ _ E2). apply not_in_bookings_src. exact Hnot.
Qed.
Print Assumptions C10_verdict_sound.

Theorem C10_verdict_sound_targets : forall s ac ends ts,
  accrual_verdict s ac ends ts = 0 -> Forall (fun t => t_targets t = st_targets s) ts.
Proof. intros s ac ends ts H. apply verdict_zero in H. apply targets_b_sound, H. Qed.
Print Assumptions C10_verdict_sound_targets.

(* clause 4, order-free: every generated transaction is a pair with the accrual account, and the
   multiset of (date, description, leg account, commodity) is: per side of every booking line,
   one entry per period end described "<desc> (accrual i/n)" for an income/expense side, one entry
   at the original date with the original description for any other side *)
Theorem C10_verdict_sound_dates : forall s ac ends ts,
  accrual_verdict s ac ends ts = 0 ->
  exists ks, map (observed_key (ac_account ac)) ts = map Some ks /\
             Permutation (expected_keys (st_date s) (st_desc s) ends (st_bookings s)) ks.
Proof. intros s ac ends ts H. apply verdict_zero in H. apply dates_b_sound, H. Qed.
Print Assumptions C10_verdict_sound_dates.

(* The executable statement accepts everything the repaired model returns (so a faithful
   implementation cannot raise a false alarm, and the statement is satisfiable). *)
Theorem C10_model_meets_spec : forall s ac ts part,
  txn_create_fixed s = MOk ts -> st_accrual s = Some ac ->
  new_partition (mkPeriod (ac_start ac) (ac_end ac)) (ac_interval ac) 0 = POk part ->
  accrual_verdict s ac (end_dates part) ts = 0.
Proof. exact model_meets_spec. Qed.
Print Assumptions C10_model_meets_spec.

(* A posting on an equity account is neither re-booked nor split by the pinned expansion. *)
Theorem C10_pinned_drops_equity : forall t ac p,
  is_AL (p_acc p) = false -> is_IE (p_acc p) = false -> expand_posting_gen rebook_pinned t ac p = MOk [].
Proof.
  intros t ac p HAL HIE. unfold expand_posting_gen, rebook_pinned. rewrite HAL, HIE. reflexivity.
Qed.
Print Assumptions C10_pinned_drops_equity.

(* The conservation statement and the accrual-nets-to-zero statement are both false of the
   pinned transaction.Create: the equity account loses its booking of -300 CHF and the accrual
   account ends at -300 CHF. *)
Theorem C10_equity_refuted : exists s ac ts a c,
  txn_create_gen rebook_pinned s = MOk ts /\ st_accrual s = Some ac /\
  ac_start ac <> 0 /\ ac_start ac <= ac_end ac /\
  a <> ac_account ac /\ ~ in_bookings (ac_account ac) (st_bookings s) /\
  ~ (booked_txns a c ts == booked_src a c (st_bookings s))%Q /\
  ~ (booked_txns (ac_account ac) c ts == 0)%Q.
Proof. exact equity_refuted. Qed.
Print Assumptions C10_equity_refuted.

(* the description suffix is " (accrual i/n)" *)
Example C10_suffix : accrual_suffix 2 3 = [32;40;97;99;99;114;117;97;108;32;50;47;51;41].
Proof. vm_compute. reflexivity. Qed.

(* non-vacuity: the repaired expansion of the witness -- one transaction for the equity leg on the
   original date, three parts for the expense leg at the month ends *)
Example C10_example :
  match txn_create_fixed witness with
  | MOk ts =>
    map (fun t => (civil (t_date t), map (fun p => (p_acc p, to_string (p_qty p))) (t_postings t))) ts
    = [ ((2020, 1, 15), [(acc_equity_opening, [45;51;48;48]); (acc_assets_receivables, [51;48;48])]);
        ((2020, 1, 31), [(acc_assets_receivables, [45;49;48;48]); (acc_expenses_rent, [49;48;48])]);
        ((2020, 2, 29), [(acc_assets_receivables, [45;49;48;48]); (acc_expenses_rent, [49;48;48])]);
        ((2020, 3, 31), [(acc_assets_receivables, [45;49;48;48]); (acc_expenses_rent, [49;48;48])]) ]
  | _ => False
  end.
Proof. vm_compute. reflexivity. Qed.

(* ... and satisfies the executable statement, while the pinned expansion fails clause 2 *)
Example C10_example_verdict :
  match txn_create_fixed witness, txn_create_gen rebook_pinned witness,
        new_partition (mkPeriod (ac_start witness_accrual) (ac_end witness_accrual)) Monthly 0 with
  | MOk ts, MOk ts', POk part =>
    accrual_verdict witness witness_accrual (end_dates part) ts = 0 /\
    accrual_verdict witness witness_accrual (end_dates part) ts' = 2
  | _, _, _ => False
  end.
Proof. vm_compute. split; reflexivity. Qed.

(* a remainder: 100 CHF over three months is 33.4 + 33.3 + 33.3 *)
Example C10_example_remainder :
  match txn_create_fixed (mkStxn (of_civil 2020 1 15) []
          [mkBooking acc_assets_receivables acc_expenses_rent (mkDec 100 0) chf] None
          (Some (mkAccrual Monthly (of_civil 2020 1 1) (of_civil 2020 3 31) acc_equity_opening))) with
  | MOk ts => map (fun t => map (fun p => to_string (p_qty p)) (t_postings t)) ts
              = [ [[45;49;48;48]; [49;48;48]];
                  [[45;51;51;46;52]; [51;51;46;52]]; [[45;51;51;46;51]; [51;51;46;51]]; [[45;51;51;46;51]; [51;51;46;51]] ]
  | _ => False
  end.
Proof. vm_compute. reflexivity. Qed.

(* the empty window of F8, concretely *)
Example C10_example_empty_window :
  txn_create_gen rebook_pinned (mkStxn (of_civil 2020 1 15) []
          [mkBooking acc_assets_receivables acc_expenses_rent (mkDec 100 0) chf] None
          (Some (mkAccrual Monthly (of_civil 2020 3 31) (of_civil 2020 1 1) acc_equity_opening)))
  = MPanic e_divzero.
Proof. vm_compute. reflexivity. Qed.
