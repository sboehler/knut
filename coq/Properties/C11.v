(* C11  Reporting periods partition the requested window.
   Theorem statements; the proof under a statement is [exact <lemma>], a few lines from the
   lemmas of Proofs/, or a witness by evaluation; the Print Assumptions lines show what the
   audited theorems rest on.
   Vocabulary: Spec/DateSpec.v (tiles, within_unit, units_change, lastn,
   align_spec, is_partition_b).  Model: Model/Date.v (new_partition, align).               *)
From Coq Require Import ZArith List Bool Lia.
From Knut Require Import Model.Date Spec.DateSpec Proofs.DateProofs Proofs.ClipProofs.
Import ListNotations.
Open Scope Z_scope.

(* the loop bound of the model is never reached: NewPartition terminates on every input *)
Theorem C11_no_fuel_exhaustion : forall p iv n, new_partition p iv n <> POutOfFuel.
Proof. exact new_partition_no_fuel_exhaustion. Qed.
Print Assumptions C11_no_fuel_exhaustion.

(* Without --last: for every window and every interval other than Once the periods are
   consecutive, non-overlapping and cover [s, e] exactly (tiles); an inverted window yields
   no period; no period straddles a unit boundary; adjacent periods lie in different units. *)
Theorem C11_partition : forall s e iv,
  iv <> Once -> s <> 0 ->
  exists ps,
    new_partition (mkPeriod s e) iv 0 = POk (mkPartition (mkPeriod s e) iv ps) /\
    (e < s -> ps = []) /\
    (s <= e -> tiles s e ps) /\
    Forall (within_unit iv) ps /\
    units_change iv ps.
Proof. exact partition_unlimited. Qed.
Print Assumptions C11_partition.

(* --last n keeps exactly the n most recent periods (all of them if there are fewer) *)
Theorem C11_last : forall s e iv n,
  iv <> Once -> s <> 0 -> 0 < n ->
  exists full ps,
    new_partition (mkPeriod s e) iv 0 = POk (mkPartition (mkPeriod s e) iv full) /\
    new_partition (mkPeriod s e) iv n = POk (mkPartition (mkPeriod s e) iv ps) /\
    ps = lastn (Z.to_nat n) full /\
    (s <= e -> tiles (first_start ps s) e ps) /\
    Forall (within_unit iv) ps /\ units_change iv ps.
Proof. exact partition_last. Qed.
Print Assumptions C11_last.

(* Once: a single period, the window itself *)
Theorem C11_once : forall s e n,
  s <> 0 -> new_partition (mkPeriod s e) Once n = POk (mkPartition (mkPeriod s e) Once [mkPeriod s e]).
Proof. exact partition_once. Qed.
Print Assumptions C11_once.

(* Align: every date up to the window end goes to the end of the period containing it, dates
   before the first shown period to the first period, later dates to no column. *)
Theorem C11_align : forall s e iv n pt d,
  iv <> Once -> s <= e -> 0 <= n ->
  new_partition (mkPeriod s e) iv n = POk pt ->
  align pt d = align_spec (periods pt) d /\
  (e < d -> align pt d = None) /\
  (d <= e -> exists c, align pt d = Some c /\ d <= c <= e).
Proof. exact align_correct. Qed.
Print Assumptions C11_align.

Theorem C11_align_once : forall s e n pt d,
  new_partition (mkPeriod s e) Once n = POk pt ->
  align pt d = if d <=? e then Some e else None.
Proof. exact align_once. Qed.
Print Assumptions C11_align_once.

(* ... stated for every window and interval at once, in the form the check evaluates *)
Theorem C11_align_all : forall s e iv n pt d,
  0 <= n -> new_partition (mkPeriod s e) iv n = POk pt ->
  align pt d = column_expected s e iv (periods pt) d.
Proof. exact align_expected. Qed.
Print Assumptions C11_align_all.

(* Partition.Contains is the window, unaffected by --last *)
Theorem C11_contains : forall p iv n pt d,
  new_partition p iv n = POk pt -> (partition_contains pt d = true <-> p_start p <= d <= p_end p).
Proof.
  intros p iv n pt d H. unfold partition_contains.
  rewrite (proj1 (new_partition_span _ _ _ _ H)). apply period_contains_iff.
Qed.
Print Assumptions C11_contains.

(* The executable statement of C11 that the correspondence check evaluates on the periods the
   Go implementation returns holds of everything the model returns. *)
Theorem C11_model_meets_spec : forall s e iv n pt,
  0 <= n -> new_partition (mkPeriod s e) iv n = POk pt -> is_partition_b s e iv n (periods pt) = true.
Proof. exact model_meets_spec. Qed.
Print Assumptions C11_model_meets_spec.

(* The window that is partitioned is the requested period clipped to the journal's period
   (cmd/flags Multiperiod.Partition): Clip is the intersection -- a date lies in the clipped window iff it lies
   in both periods -- for ANY two periods, inverted ones included; when they do not meet, the clipped window
   contains no date (and by C11_partition has no periods, or the single empty period of `once`). *)
Theorem C11_clip_intersection : forall w j d,
  period_contains (clip w j) d = period_contains w d && period_contains j d.
Proof.
  intros w j d. apply eq_iff_eq_true.
  rewrite andb_true_iff, !period_contains_iff, clip_max_min. cbn [p_start p_end]. lia.
Qed.
Print Assumptions C11_clip_intersection.

Theorem C11_clip_empty : forall w j d,
  Z.min (p_end w) (p_end j) < Z.max (p_start w) (p_start j) -> period_contains (clip w j) d = false.
Proof.
  intros w j d H. apply not_true_is_false. rewrite period_contains_iff, clip_max_min.
  cbn [p_start p_end]. lia.
Qed.
Print Assumptions C11_clip_empty.

Theorem C11_clip_meets_spec : forall w j, clip_ok_b w j (clip w j) = true.
Proof.
  intros w j. unfold clip_ok_b. rewrite clip_max_min. cbn [p_start p_end].
  destruct (Z.leb_spec (Z.max (p_start w) (p_start j)) (Z.min (p_end w) (p_end j))) as [H|H].
  - rewrite !Z.eqb_refl. reflexivity.
  - apply Z.ltb_lt. exact H.
Qed.
Print Assumptions C11_clip_meets_spec.

(* the one input on which the Go code panics (zero time as window start) *)
Theorem C11_zero_start_panics : forall e iv n, new_partition (mkPeriod 0 e) iv n = PPanic.
Proof. reflexivity. Qed.

(* sort.Search, as Align uses it, returns the first index whose period end is >= d *)
Theorem C11_bsearch : forall f fuel i j,
  (forall a b, i <= a <= b -> b < j -> f a = true -> f b = true) ->
  i <= j -> j - i < 2 ^ Z.of_nat fuel ->
  let r := bsearch fuel f i j in
  i <= r <= j /\ (forall a, i <= a < r -> f a = false) /\ (r < j -> f r = true).
Proof. exact bsearch_spec. Qed.

(* non-vacuity: a concrete window, 2020-01-15 .. 2020-03-10 monthly *)
Example C11_example :
  match new_partition (mkPeriod (of_civil 2020 1 15) (of_civil 2020 3 10)) Monthly 0 with
  | POk pt => map (fun p => (civil (p_start p), civil (p_end p))) (periods pt)
              = [((2020, 1, 15), (2020, 1, 31)); ((2020, 2, 1), (2020, 2, 29)); ((2020, 3, 1), (2020, 3, 10))]
  | _ => False
  end.
Proof. vm_compute. reflexivity. Qed.
