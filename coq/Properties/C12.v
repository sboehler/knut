(* C12  Derived prices are consistent with declared prices.
   Theorem statements; the proof under a statement is [exact <lemma>], a few lines from the
   lemmas of Proofs/, or a witness by evaluation; the Print Assumptions lines show what the
   audited theorems rest on.
   Vocabulary: Spec/PriceSpec.v (decl, build, latest, recip, stored, path_value, is_path,
   connected, valid_price_b).  Model: Model/Price.v (prices_insert, normalize = the breadth-first,
   name-ordered traversal of the repaired code; normalize_dfs order = the depth-first traversal of
   the pinned code with Go's map iteration order as a parameter), Model/Pipeline.v.
   A history is any list of declarations (commodity, price, target), in any order.            *)
From Coq Require Import ZArith List Bool Permutation.
From Knut Require Import Model.Str Model.Dec Model.Price Model.Journal Model.Ledger Model.Pipeline.
From Knut Require Import Spec.PriceSpec Spec.PriceDaySpec Proofs.SMapProofs Proofs.PriceProofs Proofs.RecipProofs Proofs.PriceDayProofs.
Import ListNotations.
Open Scope Z_scope.

(* A zero price is rejected: Insert returns the error, ComputePrices turns it into a processing
   error, and no history containing it builds a price map (it leaves no trace). *)
Theorem C12_zero_rejected : forall ps c p t,
  is_zero p = true ->
  prices_insert ps c p t = InsErrZero /\
  (forall s, cp_price_cb s (c, p, t) = RErr k_price_zero c) /\
  (forall h1 h2, build (h1 ++ (c, p, t) :: h2) = None).
Proof. exact zero_rejected. Qed.
Print Assumptions C12_zero_rejected.

(* ... and nothing else is: a history builds iff all its prices are non-zero; Insert never panics
   (the division 1/p is only reached for p <> 0). *)
Theorem C12_insert_total : forall h,
  (exists ps, build h = Some ps) <-> Forall (fun d => is_zero (snd (fst d)) = false) h.
Proof. exact (fun h => build_from_ok_iff h []). Qed.
Print Assumptions C12_insert_total.

Theorem C12_insert_never_panics : forall ps c p t, prices_insert ps c p t <> InsPanic.
Proof. exact insert_never_panics. Qed.
Print Assumptions C12_insert_never_panics.

(* The stored price of c in t is determined by the LAST declaration of the unordered pair {c, t}:
   [latest] scans the history from its end; a declaration "c p t" yields p for (c in t) and
   recip p = truncate (1/p at 16 places, half away from zero) 8 for (t in c). *)
Theorem C12_latest : forall h ps c t, build h = Some ps -> stored ps t c = latest h c t.
Proof. exact build_latest. Qed.
Print Assumptions C12_latest.

(* the reciprocal, stated without the division algorithm: 10^16/p rounded to the nearest integer,
   ties away from zero, as a number of 16 decimals, then cut toward zero to 8 decimals *)
Theorem C12_reciprocal : forall p, is_zero p = false -> is_recip p (recip p).
Proof. exact recip_is_recip. Qed.
Print Assumptions C12_reciprocal.

(* the same, read explicitly: if "c p t" is followed by no declaration of {c, t} then p and its
   reciprocal are what is stored, whatever preceded *)
Theorem C12_latest_explicit : forall h1 c p t h2 ps,
  build (h1 ++ (c, p, t) :: h2) = Some ps -> c <> t ->
  (forall c' p' t', In (c', p', t') h2 -> ~ (c' = c /\ t' = t) /\ ~ (c' = t /\ t' = c)) ->
  stored ps t c = Some p /\ stored ps c t = Some (recip p).
Proof. exact build_last_declaration. Qed.
Print Assumptions C12_latest_explicit.

(* Normalize terminates within its fuel on every price map built by Insert *)
Theorem C12_normalize_total : forall h ps v, build h = Some ps -> normalize ps v <> None.
Proof. exact normalize_total_built. Qed.
Print Assumptions C12_normalize_total.

(* the valuation commodity itself has price 1 *)
Theorem C12_self : forall ps v np, normalize ps v = Some np -> np_price np v = Some one.
Proof. exact normalize_self. Qed.
Print Assumptions C12_self.

(* a directly declared pair gets its declared price (8 decimals), never a chain product *)
Theorem C12_direct : forall ps v np c p,
  normalize ps v = Some np -> c <> v -> stored ps v c = Some p ->
  np_price np c = Some (multiply p one) /\ multiply p one = truncate p 8.
Proof. exact normalize_direct_multiply. Qed.
Print Assumptions C12_direct.

(* every price is the product, truncated to 8 decimals at each step, of the stored prices along
   a simple path of stored edges from v *)
Theorem C12_chain : forall ps v np c x,
  normalize ps v = Some np -> np_price np c = Some x ->
  exists path, is_path ps v path c x /\ NoDup (v :: path) /\
               forall n, In n (v :: path) -> sm_has np n = true.
Proof. exact normalize_chain. Qed.
Print Assumptions C12_chain.
(* ... and that path is a shortest one (breadth-first): no chain of fewer declarations connects
   v and c.  C12_direct is the length-1 instance. *)
Theorem C12_chain_shortest : forall ps v np c x,
  normalize ps v = Some np -> np_price np c = Some x ->
  exists path, is_path ps v path c x /\ NoDup (v :: path) /\
               forall path' x', is_path ps v path' c x' -> (length path <= length path')%nat.
Proof. exact normalize_shortest. Qed.
Print Assumptions C12_chain_shortest.

(* every commodity connected to v gets a price ... *)
Theorem C12_reachable : forall ps v np c,
  normalize ps v = Some np -> connected ps v c -> exists x, np_price np c = Some x.
Proof. exact normalize_reachable. Qed.
Print Assumptions C12_reachable.

(* ... and a commodity not connected to v has none: Price and Valuate fail, and the Valuate
   processor turns a non-zero posting in that commodity into an error (nothing is printed) *)
Theorem C12_unreachable : forall ps v c np,
  normalize ps v = Some np -> ~ connected ps v c ->
  np_price np c = None /\
  (forall a, np_valuate np c a = None) /\
  (forall s t p, v_cur s = Some np -> p_com p = c -> is_zero (p_qty p) = false ->
                 exists f, pr_posting (valuate_proc v) = Some f /\ f s t p = RErr k_no_price c).
Proof. exact unreachable_errors. Qed.
Print Assumptions C12_unreachable.

(* the result does not depend on the order of the declarations: histories that agree on the
   latest declaration of every pair build the same price map, hence the same normalised prices *)
Theorem C12_order_independent : forall h1 h2 ps1 ps2,
  build h1 = Some ps1 -> build h2 = Some ps2 ->
  (forall c t, latest h1 c t = latest h2 c t) ->
  ps1 = ps2 /\ forall v, normalize ps1 v = normalize ps2 v.
Proof. exact order_independent. Qed.
Print Assumptions C12_order_independent.

(* "on a given day": run over the days of a journal, the ComputePrices processor gives day k the
   normalised prices of the history of all price directives up to and including day k (none
   before the first declaration), so everything above applies day by day ... *)
Theorem C12_day : forall v ds s' ds',
  process_days (compute_prices_proc v) (mkCp [] None) ds = ROk (s', ds') ->
  length ds' = length ds /\
  forall k d', nth_error ds' k = Some d' -> d_normalized d' = price_on v ds k.
Proof. exact compute_prices_days. Qed.
Print Assumptions C12_day.

(* ... and it never panics (no fuel exhaustion, no division by zero): its only failure is the
   rejection of a zero price *)
Theorem C12_compute_prices_no_panic : forall v ds m,
  process_days (compute_prices_proc v) (mkCp [] None) ds <> RPanic m.
Proof. exact compute_prices_from_empty_no_panic. Qed.
Print Assumptions C12_compute_prices_no_panic.

(* The executable statement that the check evaluates on the Go output holds of every price the
   model returns, for every commodity (priced or not). *)
Theorem C12_model_meets_spec : forall h ps v np c,
  build h = Some ps -> normalize ps v = Some np -> valid_price_b ps v c (np_price np c) = true.
Proof. exact model_meets_spec. Qed.
Print Assumptions C12_model_meets_spec.

(* The pinned depth-first Prices.normalize does NOT have the property: with declarations
   "A 2 V", "B 3 V", "A 5 B" and the map iteration order that visits B before A, the directly
   declared price 2 of A in V is replaced by the chain product 15; another iteration order
   gives 2, so two runs differ. *)
Theorem C12_dfs_refuted :
  exists ps v c p order,
    build alt_history = Some ps /\ (forall k l, Permutation (order k l) l) /\
    c <> v /\ stored ps v c = Some p /\
    sm_get (normalize_dfs order ps v) c <> Some (truncate p 8) /\
    sm_get (normalize_dfs order ps v) c <> sm_get (normalize_dfs id_order ps v) c.
Proof. exact dfs_refuted. Qed.
Print Assumptions C12_dfs_refuted.

(* non-vacuity: a cycle V-A-B-V (an alternative path to A and to B), a chain A-C, a second
   component D-E, a redeclaration (B 3 V overrides V 7 B), prices with decimals *)
Definition example_history : list decl :=
  [(sV, of_int 7, sB); (sA, of_int 2, sV); (sB, of_int 3, sV); (sA, of_int 5, sB);
   (sC, mkDec 15 (-1), sA); (sD, of_int 4, sE)].

Example C12_example :
  exists ps np,
    build example_history = Some ps /\ normalize ps sV = Some np /\
    map (fun kv => (fst kv, to_string (snd kv))) np
    = [(sA, [50]); (sB, [51]); (sC, [51]); (sV, [49])] /\
    stored ps sB sV = Some (recip (of_int 3)) /\ to_string (recip (of_int 3)) = [48;46;51;51;51;51;51;51;51;51] /\
    np_price np sD = None /\ connected ps sV sC /\ valid_price_b ps sV sD None = true.
Proof.
  destruct (build example_history) as [ps|] eqn:B; [|vm_compute in B; discriminate].
  destruct (normalize ps sV) as [np|] eqn:N; [|exfalso; exact (C12_normalize_total _ _ _ B N)].
  exists ps, np. vm_compute in B. injection B as <-. vm_compute in N. injection N as <-.
  split; [reflexivity|]. split; [reflexivity|]. split; [vm_compute; reflexivity|].
  split; [vm_compute; reflexivity|]. split; [vm_compute; reflexivity|].
  split; [vm_compute; reflexivity|]. split; [|vm_compute; reflexivity].
  exists [sA; sC]. eexists. split; vm_compute; reflexivity.
Qed.
