(* C13  Importers turn every statement row into a valid, faithful journal entry.
   Group A: ch.swisscard2, ch.viac, ch.cumulus, ch.postfinance, ch.swisscard, ch.supercard
   (group B: Properties/C13b.v).  Theorem statements; the proof under a statement is [exact <lemma>], a few lines
   from the lemmas of Proofs/, or a witness by evaluation.
   Proofs: Proofs/ImpProofsA.v (what each importer returns, the printed description, the witnesses),
   Proofs/ImpStdoutA.v (how the executable specification takes a statement apart), Proofs/ImpReading.v.

   Models: Model/Imp/<importer>.v (import_X: the records Go's reader delivered -> directives;
   run_X: the whole command incl. flags and journal.Print), Model/ImpCommonA.v, Model/JPrinter.v.
   Vocabulary: Spec/ImpSpecA.v
     row_fact (date, signed amount, currency)   what a booking row says
     effect a c t                               change of account a's balance in c by transaction t (in Q)
     books acct counter f t                     t is dated rf_date f, consists of exactly one booking between
                                                acct and counter in rf_com f, changes acct by rf_amount f in
                                                rf_com f and by 0 in every other commodity, no annotation
     X_wf_row / X_fact / X_text                 executable reading of a record of importer X
   The theorems quantify over records (what encoding/csv resp. encoding/json delivered), not over
   file bytes.  In every theorem the import account must differ from Expenses:TBD, the counter
   account all six importers use (otherwise both postings hit the same account).

   Deviations of the code from the property's wording, stated here as the relation the code
   implements and written up under findings/:
   * cumulus ignores every record that is neither a booking row, a comment row nor a
     "Rundungskorrektur" row -- that includes the payment rows of the statement
     (findings/C13-cumulus-payment-rows-dropped.md); comment rows are folded into the
     description of the preceding transaction.
   * cumulus and swisscard recognise a booking row by an unanchored date-like expression; a row
     whose date is written differently is ignored without a diagnostic
     (findings/C13-silently-skipped-rows.md).
   * postfinance wrote a debugging line to standard output (C13_postfinance_stdout_refuted, F13;
     repaired by ea2bee2: the code is dbg = false).
   * a double quote in free text ended the description early (C13_quote_breaks_header_pinned, F14;
     repaired by faa0268: C13_description_has_no_quote).
   * supercard: when both Gutschrift and Belastung are filled Gutschrift wins; postfinance takes
     the amount as written (a Lastschrift without minus sign is booked as a credit); swisscard2
     ignores the Debit/Kredit column: the sign of Betrag decides. *)
From Coq Require Import ZArith QArith List Bool Lia.
From Knut Require Import Proofs.ListFacts Model.Str Model.Dec Model.Date Model.Account Model.Ledger Model.Journal
     Model.Table Model.Report Model.JPrinter Model.ImpCommonA
     Model.Imp.Swisscard2 Model.Imp.Viac Model.Imp.Cumulus Model.Imp.Postfinance Model.Imp.Swisscard
     Model.Imp.Supercard
     Spec.ImpSpecA Spec.ImpStmtA Proofs.DecValue Proofs.PairProofs Proofs.ImpReading Proofs.ImpProofsA Proofs.ImpStdoutA.
Import ListNotations.

(* a booking that credits the import account lowers its balance by the quantity, one that debits
   it raises it; other commodities are untouched *)
Theorem C13_effect_of_credit : forall a counter c q d desc tg, a <> counter ->
  effect a c (mkTxn d desc (pair_build a counter c q dec_nil) tg) == - dvalue q.
Proof. exact effect_credit. Qed.
Print Assumptions C13_effect_of_credit.

Theorem C13_effect_of_debit : forall a counter c q d desc tg, a <> counter ->
  effect a c (mkTxn d desc (pair_build counter a c q dec_nil) tg) == dvalue q.
Proof. exact effect_debit. Qed.
Print Assumptions C13_effect_of_debit.

(* Every record after the header is a booking row.  One transaction per row, in order, on the
   Transaktionsdatum; the account changes by -Betrag in Währung; counter-account Expenses:TBD;
   description = Beschreibung / Händler / Händlerkategorie / Kartennummer / Registrierte
   Kategorie / Debit-Kredit joined by " / "; nothing else is emitted. *)
Theorem C13_swisscard2_faithful : forall acct header rows,
  acct <> tbd_account -> forallb sc2_wf_row rows = true ->
  exists ts, import_swisscard2 acct (CRec header :: map CRec rows) = MOk (map DTxn ts) /\
    Forall2 (books acct tbd_account) (map sc2_fact rows) ts /\
    map t_desc ts = map build_desc (map sc2_text rows).
Proof.
  intros acct header rows.
  intros Hne Hwf.
  destruct (directives_faithful _ acct sc2_fact sc2_text (fun f x => charge_directive_books acct f x Hne) rows)
    as (ts & E & H).
  exists ts. split; [|exact H]. rewrite <- E. apply sc2_rows_spec, Hwf.
Qed.
Print Assumptions C13_swisscard2_faithful.

(* The statement has no booking rows.  Exactly one price directive per dailyWealth entry that is
   not before --from and whose value is not zero, in order: <commodity> = round(value, 2) CHF on
   the entry's date; nothing else. *)
Theorem C13_viac_faithful : forall com from l,
  forallb viac_wf_entry l = true ->
  import_viac com from (VValues l) = MOk (map (price_of com s_CHF) (viac_prices from l)).
Proof. exact viac_faithful. Qed.
Print Assumptions C13_viac_faithful.

(* Booking rows are the records whose first two fields look like dates; all other records are
   ignored.  One transaction per booking row, in order, on the Transaction Date; the account
   changes by -(Billing Amount without "CHF" and "'") CHF; description = the trimmed non-empty
   fields Card Number, Description, City, State, Zip, Reference Number joined by blanks. *)
Theorem C13_swisscard_faithful : forall acct rows,
  acct <> tbd_account -> forallb sc_wf_row rows = true ->
  exists ts, import_swisscard acct (map CRec rows) = MOk (map DTxn ts) /\
    Forall2 (books acct tbd_account) (map sc_fact (filter sc_is_booking rows)) ts /\
    map t_desc ts = map build_desc (map sc_text (filter sc_is_booking rows)).
Proof.
  intros acct rows.
  intros Hne Hwf.
  destruct (directives_faithful _ acct sc_fact sc_text (fun f x => charge_directive_books acct f x Hne)
                                (filter sc_is_booking rows)) as (ts & E & H).
  exists ts. split; [|exact H]. rewrite <- E. apply import_swisscard_spec, Hwf.
Qed.
Print Assumptions C13_swisscard_faithful.

(* After the "sep=;" line and the column header: Saldovortrag rows, 11-field rows and rows
   without account number are ignored; every other row is a booking row of 13 fields.  One
   transaction per booking row, in order, on the Einkaufsdatum; the account changes by
   +Gutschrift if filled, else by -Belastung, in Währung; description = Buchungstext Branche
   with runs of white space collapsed. *)
Theorem C13_supercard_faithful : forall acct header rows,
  acct <> tbd_account -> forallb sup_wf_row rows = true ->
  exists ts, import_supercard acct (CRec sup_first :: CRec header :: map CRec rows) = MOk (map DTxn ts) /\
    Forall2 (books acct tbd_account) (map sup_fact (filter sup_is_booking rows)) ts /\
    map t_desc ts = map build_desc (map sup_text (filter sup_is_booking rows)).
Proof.
  intros acct header rows.
  intros Hne Hwf.
  destruct (directives_faithful _ acct sup_fact sup_text (fun f x => change_directive_books acct f x Hne)
                                (filter sup_is_booking rows)) as (ts & E & H).
  exists ts. split; [|exact H]. rewrite <- E. cbn. apply sup_lines_spec, Hwf.
Qed.
Print Assumptions C13_supercard_faithful.

(* Statement = key/value lines, column header, booking rows (7 or 8 fields), one further line
   d1 of another width, disclaimer lines of one field.  One transaction per booking row, in order,
   on the Buchungsdatum; the account changes by the filled one of Gutschrift / Lastschrift as
   written, in the currency of the "Währung:" line (CHF without one); description =
   Avisierungstext Kategorie Label, each trimmed.  The second component is what the importer has
   written to standard output besides the journal: the debugging line for d1.  dbg = true is
   the pinned code, dbg = false the code without the debugging statement. *)
Theorem C13_postfinance_faithful : forall dbg acct kvs header rows d1 ds,
  let cur := pf_header_currency kvs s_CHF in
  acct <> tbd_account ->
  forallb pf_is_kv kvs = true -> pf_is_kv header = false -> valid_name cur = true ->
  forallb pf_wf_row rows = true -> pf_is_row d1 = false -> forallb (fun r => len_is r 1) ds = true ->
  exists ts, import_postfinance dbg acct (pf_statement kvs header rows d1 ds) = (MOk (map DTxn ts), pf_debug_line dbg d1) /\
    Forall2 (books acct tbd_account) (map (pf_fact cur) rows) ts /\
    map t_desc ts = map build_desc (map pf_text rows).
Proof.
  intros dbg acct kvs header rows d1 ds.
  intros cur Hne Hk Hh Hc Hrows Hd1 Hds.
  destruct (directives_faithful _ acct (pf_fact cur) pf_text (fun f x => change_directive_books acct f x Hne) rows)
    as (ts & E & H).
  exists ts. split; [|exact H]. rewrite <- E. apply import_postfinance_spec; assumption.
Qed.
Print Assumptions C13_postfinance_faithful.

(* "nothing else is emitted" is false of ch.postfinance (F13): on every well-formed statement the
   standard output starts with a non-empty line that is not part of the journal ... *)
Theorem C13_postfinance_stdout : forall dbg flag acct items ds out,
  account_flag flag = AAcc acct -> import_postfinance dbg acct items = (MOk ds, out) ->
  run_postfinance dbg flag items = mkRun (out ++ print_directives ds) SOk.
Proof. exact run_postfinance_ok. Qed.
Print Assumptions C13_postfinance_stdout.

Theorem C13_postfinance_debug_line_nonempty : forall r, pf_debug_line true r <> [].
Proof.
  intros r.
  unfold pf_debug_line. intros H.
  apply (f_equal (@length Z)) in H. rewrite !app_length in H. cbn [length] in H. lia.
Qed.
Print Assumptions C13_postfinance_debug_line_nonempty.

(* without the debugging statement nothing but the journal is written *)
Theorem C13_postfinance_repaired_stdout : forall r, pf_debug_line false r = [].
Proof. reflexivity. Qed.
Print Assumptions C13_postfinance_repaired_stdout.

(* ... witness: a statement without rows imports nothing and still prints something *)
Theorem C13_postfinance_stdout_refuted :
  exists flag acct items,
    account_flag flag = AAcc acct /\
    fst (import_postfinance true acct items) = MOk [] /\
    ir_status (run_postfinance true flag items) = SOk /\
    ir_stdout (run_postfinance true flag items) <> print_directives [].
Proof.
  exists w_acct_flag, [s_Assets; [65]%Z], (pf_statement [] [[97]%Z] [] [[68]%Z] []).
  split; [reflexivity|]. exact pf_stdout_witness.
Qed.
Print Assumptions C13_postfinance_stdout_refuted.

(* A statement is a sequence of entries (Spec.ImpSpecA.cum_entry): ignored records, booking rows
   with their comment rows, rounding rows.  One transaction per booking or rounding row, in
   order, on the Einkaufs-Datum (rounding: the date of the row); the account changes by
   +Gutschrift or -Belastung CHF; description = Beschreibung followed by the comments, each
   preceded by a blank; ignored records (which include the statement's payment rows) yield
   nothing. *)
Theorem C13_cumulus_faithful : forall acct entries,
  acct <> tbd_account -> forallb cum_wf_entry entries = true ->
  exists ts, import_cumulus acct (map CRec (flat_map cum_records entries)) = MOk (map DTxn ts) /\
    Forall2 (books acct tbd_account) (flat_map cum_facts entries) ts /\
    map t_desc ts = map build_desc (flat_map cum_texts entries).
Proof.
  intros acct entries.
  intros Hne Hwf.
  destruct (directives_faithful _ acct fst snd (fun f x => change_directive_books acct f x Hne)
                                (flat_map (fun e => combine (cum_facts e) (cum_texts e)) entries)) as (ts & E & H).
  rewrite (map_flat_map fst), (map_flat_map snd) in H.
  rewrite (flat_map_ext _ cum_facts) in H by (intros [r|r cs|r cs]; reflexivity).
  rewrite (flat_map_ext _ cum_texts) in H by (intros [r|r cs|r cs]; reflexivity).
  exists ts. split; [|exact H]. rewrite <- E, (import_cumulus_spec acct entries Hwf). f_equal. symmetry. apply map_flat_map.
Qed.
Print Assumptions C13_cumulus_faithful.

(* With a valid --account (--commodity) the command succeeds on every well-formed statement and
   its standard output is journal.Print of exactly the transactions (prices) of the theorems
   above -- for postfinance preceded by the debugging line when dbg = true. *)
Theorem C13_swisscard2_end_to_end : forall flag acct header rows,
  account_flag flag = AAcc acct -> acct <> tbd_account -> forallb sc2_wf_row rows = true ->
  exists ts, run_swisscard2 flag (CRec header :: map CRec rows) = mkRun (print_directives (map DTxn ts)) SOk /\
    Forall2 (books acct tbd_account) (map sc2_fact rows) ts /\ map t_desc ts = map build_desc (map sc2_text rows).
Proof.
  intros flag acct header rows.
  intros Hf Hne Hwf. destruct (C13_swisscard2_faithful acct header rows Hne Hwf) as (ts & Hi & Hb & Hd).
  exists ts. split; [eapply run_swisscard2_ok; eassumption|]. split; assumption.
Qed.
Print Assumptions C13_swisscard2_end_to_end.

Theorem C13_viac_end_to_end : forall flag l,
  valid_name flag = true -> forallb viac_wf_entry l = true ->
  run_viac flag None (VValues l) = mkRun (print_directives (map (price_of flag s_CHF) (viac_prices 0 l))) SOk.
Proof.
  intros flag l.
  intros Hf Hwf. exact (viac_run_from flag None l 0%Z Hf eq_refl Hwf).
Qed.
Print Assumptions C13_viac_end_to_end.

(* with --from: the prices of the entries not before that day (None: all entries from day 0 on) *)
Theorem C13_viac_end_to_end_from : forall flag from l fr,
  valid_name flag = true ->
  match from with None => Some 0%Z | Some f => parse_iso f end = Some fr ->
  forallb viac_wf_entry l = true ->
  run_viac flag from (VValues l) = mkRun (print_directives (map (price_of flag s_CHF) (viac_prices fr l))) SOk.
Proof. exact viac_run_from. Qed.
Print Assumptions C13_viac_end_to_end_from.

Theorem C13_cumulus_end_to_end : forall flag acct entries,
  account_flag flag = AAcc acct -> acct <> tbd_account -> forallb cum_wf_entry entries = true ->
  exists ts, run_cumulus flag (map CRec (flat_map cum_records entries)) = mkRun (print_directives (map DTxn ts)) SOk /\
    Forall2 (books acct tbd_account) (flat_map cum_facts entries) ts /\
    map t_desc ts = map build_desc (flat_map cum_texts entries).
Proof.
  intros flag acct entries.
  intros Hf Hne Hwf. destruct (C13_cumulus_faithful acct entries Hne Hwf) as (ts & Hi & Hb & Hd).
  exists ts. split; [eapply run_cumulus_ok; eassumption|]. split; assumption.
Qed.
Print Assumptions C13_cumulus_end_to_end.

Theorem C13_postfinance_end_to_end : forall dbg flag acct kvs header rows d1 ds,
  let cur := pf_header_currency kvs s_CHF in
  account_flag flag = AAcc acct -> acct <> tbd_account ->
  forallb pf_is_kv kvs = true -> pf_is_kv header = false -> valid_name cur = true ->
  forallb pf_wf_row rows = true -> pf_is_row d1 = false -> forallb (fun r => len_is r 1) ds = true ->
  exists ts, run_postfinance dbg flag (pf_statement kvs header rows d1 ds) =
             mkRun (pf_debug_line dbg d1 ++ print_directives (map DTxn ts)) SOk /\
    Forall2 (books acct tbd_account) (map (pf_fact cur) rows) ts /\
    map t_desc ts = map build_desc (map pf_text rows).
Proof.
  intros dbg flag acct kvs header rows d1 ds.
  intros cur Hf Hne Hk Hh Hc Hr Hd1 Hds.
  destruct (C13_postfinance_faithful dbg acct kvs header rows d1 ds Hne Hk Hh Hc Hr Hd1 Hds) as (ts & Hi & Hb & Hd).
  exists ts. split; [eapply run_postfinance_ok; eassumption|]. split; assumption.
Qed.
Print Assumptions C13_postfinance_end_to_end.

Theorem C13_swisscard_end_to_end : forall flag acct rows,
  account_flag flag = AAcc acct -> acct <> tbd_account -> forallb sc_wf_row rows = true ->
  exists ts, run_swisscard flag (map CRec rows) = mkRun (print_directives (map DTxn ts)) SOk /\
    Forall2 (books acct tbd_account) (map sc_fact (filter sc_is_booking rows)) ts /\
    map t_desc ts = map build_desc (map sc_text (filter sc_is_booking rows)).
Proof.
  intros flag acct rows.
  intros Hf Hne Hwf. destruct (C13_swisscard_faithful acct rows Hne Hwf) as (ts & Hi & Hb & Hd).
  exists ts. split; [eapply run_swisscard_ok; eassumption|]. split; assumption.
Qed.
Print Assumptions C13_swisscard_end_to_end.

Theorem C13_supercard_end_to_end : forall flag acct header rows,
  account_flag flag = AAcc acct -> acct <> tbd_account -> forallb sup_wf_row rows = true ->
  exists ts, run_supercard flag (CRec sup_first :: CRec header :: map CRec rows) = mkRun (print_directives (map DTxn ts)) SOk /\
    Forall2 (books acct tbd_account) (map sup_fact (filter sup_is_booking rows)) ts /\
    map t_desc ts = map build_desc (map sup_text (filter sup_is_booking rows)).
Proof.
  intros flag acct header rows.
  intros Hf Hne Hwf. destruct (C13_supercard_faithful acct header rows Hne Hwf) as (ts & Hi & Hb & Hd).
  exists ts. split; [eapply run_supercard_ok; eassumption|]. split; assumption.
Qed.
Print Assumptions C13_supercard_end_to_end.

(* Spec/ImpStmtA.v defines, from the row readings of Spec/ImpSpecA.v (X_wf_row, X_fact, X_text), the
   realisation of a row fact as one booking between the import account and Expenses:TBD and the shared
   printer -- not from the importer model -- the journal text X_statement_output the property
   prescribes for the records of a well-formed statement (None for any other list of records).
   The command prints exactly that text.  ./check C13 evaluates the extracted X_statement_output
   on the records of every generated well-formed statement and compares it with the standard
   output of the binary (drv_c13a.ml, verdict `spec`).  Unlike `books`, the executable form says
   which decimal is printed (the amount as written) and which way round a booking of zero is
   written (charge_directive / change_directive). *)

(* the executable form refines the relation: the transaction prescribed for a row fact books it
   (so every X_statement_output is the journal of transactions that `books` the statement's row
   facts, described by the rows' texts) *)
Theorem C13_change_directive_books : forall acct f text, acct <> tbd_account ->
  exists t, change_directive acct f text = DTxn t /\ books acct tbd_account f t /\ t_desc t = build_desc text.
Proof. exact change_directive_books. Qed.
Print Assumptions C13_change_directive_books.

Theorem C13_charge_directive_books : forall acct f text, acct <> tbd_account ->
  exists t, charge_directive acct f text = DTxn t /\ books acct tbd_account f t /\ t_desc t = build_desc text.
Proof. exact charge_directive_books. Qed.
Print Assumptions C13_charge_directive_books.

(* swisscard2: a header record, then well-formed rows; per row the charge Betrag booked from the
   account to Expenses:TBD *)
Theorem C13_swisscard2_stdout : forall flag acct recs,
  account_flag flag = AAcc acct -> sc2_statement_wf recs = true ->
  exists out, sc2_statement_output acct recs = Some out /\ run_swisscard2 flag (map CRec recs) = mkRun out SOk.
Proof.
  intros flag acct recs.
  intros Hf Hwf. unfold sc2_statement_output. rewrite Hwf. eexists. split; [reflexivity|].
  destruct recs as [|h rows]; [discriminate Hwf|]. cbn [sc2_statement_wf] in Hwf. cbn [tl map].
  apply (run_swisscard2_ok flag acct _ _ Hf). cbn [import_swisscard2]. apply sc2_rows_spec, Hwf.
Qed.
Print Assumptions C13_swisscard2_stdout.

(* postfinance: key/value lines, the column header, well-formed booking rows, one further record,
   one-field disclaimer lines (pf_parts cuts the records up accordingly), the currency named by
   the key/value lines valid; per row the amount as written booked from Expenses:TBD to the
   account.  With the debugging statement (dbg = true, F13) the record after the rows precedes the
   journal.  (C13_postfinance_stdout above is the older theorem about the debugging line.) *)
Theorem C13_postfinance_statement_stdout : forall dbg flag acct recs,
  account_flag flag = AAcc acct -> pf_statement_wf recs = true ->
  exists out, pf_statement_output acct recs = Some out /\
    run_postfinance dbg flag (map CRec recs) = mkRun (pf_debug_line dbg (pf_after_rows recs) ++ out) SOk.
Proof. exact postfinance_stdout. Qed.
Print Assumptions C13_postfinance_statement_stdout.

(* the statement of the golden test in miniature: one key/value line, header, one row, disclaimer *)
Example C13_postfinance_statement_wf :
  let row := [[48;56;46;48;51;46;50;48;50;50]; [100]; []; [45;49;57]; [102]; [98]; [48;56;46;48;51;46;50;48;50;50]; []]%Z in
  pf_statement_wf [[s_waehr; [61;34;69;85;82;34]]; [[66]]; row; [[68]]; [[69]]]%Z = true /\
  pf_parts [[s_waehr; [61;34;69;85;82;34]]; [[66]]; row; [[68]]; [[69]]]%Z =
    Some ([[s_waehr; [61;34;69;85;82;34]]], [[66]], [row], [[68]], [[[69]]])%Z.
Proof. vm_compute. split; reflexivity. Qed.

(* viac: the decoded dailyWealth entries well-formed, --from (if given) a date; one price per entry
   that is not before that day and whose value is not zero *)
Theorem C13_viac_stdout : forall flag from l,
  valid_name flag = true -> viac_statement_wf from l = true ->
  exists out, viac_statement_output flag from l = Some out /\ run_viac flag from (VValues l) = mkRun out SOk.
Proof.
  intros flag from l.
  intros Hf Hwf. unfold viac_statement_output. rewrite Hwf. eexists. split; [reflexivity|].
  unfold viac_statement_wf in Hwf. apply andb_prop in Hwf. destruct Hwf as [Hfrom Hl].
  apply viac_run_from; [exact Hf| |exact Hl].
  destruct from as [f|]; [|reflexivity]. apply is_some_inv in Hfrom. destruct Hfrom as [d Hd]. rewrite Hd. reflexivity.
Qed.
Print Assumptions C13_viac_stdout.

Example C13_viac_statement_wf :
  viac_statement_wf (Some [50;48;49;56;45;48;54;45;50;48]%Z)
                    [([50;48;49;56;45;48;54;45;50;48]%Z, [54;55;54;56;46;53;53;54]%Z)] = true.
Proof. vm_compute. reflexivity. Qed.

(* supercard: the "sep=;" record, the column header, well-formed rows; per booking row Gutschrift
   resp. -Belastung booked from Expenses:TBD to the account *)
Theorem C13_supercard_stdout : forall flag acct recs,
  account_flag flag = AAcc acct -> sup_statement_wf recs = true ->
  exists out, sup_statement_output acct recs = Some out /\ run_supercard flag (map CRec recs) = mkRun out SOk.
Proof.
  intros flag acct recs.
  intros Hf Hwf. unfold sup_statement_output. rewrite Hwf. eexists. split; [reflexivity|].
  destruct recs as [|first [|header rows]]; try discriminate Hwf. cbn [sup_statement_wf] in Hwf. cbn [tl map].
  apply andb_prop in Hwf. destruct Hwf as [Hfirst Hrows]. apply rec_eqb_eq in Hfirst. subst first.
  apply (run_supercard_ok flag acct _ _ Hf). cbn. apply sup_lines_spec, Hrows.
Qed.
Print Assumptions C13_supercard_stdout.

Example C13_supercard_statement_wf :
  sup_statement_wf [sup_first; [[75]];
             [[49]; [50]; [79]; [48;57;46;48;53;46;50;48;50;49]; [65]; [84]; [51;46;50;48]; s_CHF; []; s_CHF;
              [51;46;50;48]; []; [49;48;46;48;53;46;50;48;50;49]]]%Z = true.
Proof. vm_compute. reflexivity. Qed.

(* swisscard: every record a well-formed row (a booking row or an ignored one); per booking row the
   Billing Amount booked from the account to Expenses:TBD *)
Theorem C13_swisscard_stdout : forall flag acct recs,
  account_flag flag = AAcc acct -> sc_statement_wf recs = true ->
  exists out, sc_statement_output acct recs = Some out /\ run_swisscard flag (map CRec recs) = mkRun out SOk.
Proof.
  intros flag acct recs.
  intros Hf Hwf. unfold sc_statement_output. rewrite Hwf. eexists. split; [reflexivity|].
  apply (run_swisscard_ok flag acct _ _ Hf). apply import_swisscard_spec, Hwf.
Qed.
Print Assumptions C13_swisscard_stdout.

Example C13_swisscard_statement_wf :
  sc_statement_wf [[[84]; [80]; [67]; [66]; [68]; [67]; [83]; [90]; [82]; [70]; [83]];
            [[49;52;46;48;50;46;50;48;50;48]; [49;52;46;48;50;46;50;48;50;48]; [49]; [45;67;72;70;50;39;48;48;48;46;53;48];
             [100]; []; []; []; []; [68]; []]]%Z = true.
Proof. vm_compute. reflexivity. Qed.

(* cumulus: the records, read as entries by cum_entries (a comment row belongs to the booking or
   rounding row before it; every other record is a well-formed booking row, rounding row or ignored
   record; no comment row before the first row or after an ignored record); per booking/rounding row
   +Gutschrift resp. -Belastung booked from Expenses:TBD to the account, the comments appended to the
   description *)
Theorem C13_cumulus_stdout : forall flag acct recs,
  account_flag flag = AAcc acct -> cum_statement_wf recs = true ->
  exists out, cum_statement_output acct recs = Some out /\ run_cumulus flag (map CRec recs) = mkRun out SOk.
Proof.
  intros flag acct recs.
  intros Hf Hwf. unfold cum_statement_wf in Hwf. unfold cum_statement_output.
  destruct (cum_entries recs) as [es|] eqn:He; [|discriminate Hwf]. eexists. split; [reflexivity|].
  unfold cum_entries in He. destruct (cum_parse recs) as [[[|c cs] es']|] eqn:Hp; try discriminate He. injection He as ->.
  destruct (cum_parse_spec recs [] es Hp) as [Hrecs Hes]. cbn [map app] in Hrecs. subst recs.
  apply (run_cumulus_ok flag acct _ _ Hf). apply import_cumulus_spec, Hes.
Qed.
Print Assumptions C13_cumulus_stdout.

(* cum_entries is the inverse of cum_records on well-formed entries: the records of
   C13_cumulus_entries_wf are read as those entries *)
Example C13_cumulus_statement_wf :
  let d1 := [50;50;46;48;56;46;50;48;50;48]%Z in      (* 22.08.2020 *)
  let d2 := [50;52;46;48;56;46;50;48;50;48]%Z in      (* 24.08.2020 *)
  let es := [CumIgnored [[86]; [66]; [71]; [66]]%Z;
             CumIgnored [d1; [73;104;114;101]; [49;39;50;51;52;46;53;54]; []]%Z;
             CumBooking [d1; d2; [68;101;115;99]; []; [49;39;50;51;51;46;52;53]]%Z [[70;88]%Z];
             CumRounding [d2; s_rund; [48;46;48;50]; []]%Z []] in
  cum_entries (flat_map cum_records es) = Some es.
Proof. vm_compute. reflexivity. Qed.

(* swisscard: the importer's one-pass replacer = remove every "CHF", then every "'" *)
Theorem C13_swisscard_amount_text : forall s, sc_clean s = sc_amount_text s.
Proof. exact sc_clean_spec. Qed.
Print Assumptions C13_swisscard_amount_text.

(* every transaction an importer emits is one posting pair; the journal handed to the printer
   consists of such transactions, day by day *)
Theorem C13_print_balanced : forall acct counter fs ts,
  Forall2 (books acct counter) fs ts ->
  Forall txn_ok ts /\ Forall day_ok (b_days (builder_of (map DTxn ts))).
Proof.
  intros acct counter fs ts H. split; [|eapply imported_days_ok; eassumption].
  induction H; constructor; [eapply books_paired; eassumption|assumption].
Qed.
Print Assumptions C13_print_balanced.

(* the printer writes the description verbatim between two double quotes: the header of a
   transaction is  date SP " description " LF *)
Theorem C13_description_verbatim : forall padding t, t_targets t = None ->
  print_txn padding t =
  format_date (t_date t) ++ [32; 34]%Z ++ t_desc t ++ [34; 10]%Z ++
  concat (map (fun p => print_posting padding p ++ [10%Z]) (odd_postings (t_postings t))).
Proof.
  intros padding t.
  intros H. unfold print_txn. rewrite H. cbn [app]. rewrite <- ?app_assoc. reflexivity.
Qed.
Print Assumptions C13_description_verbatim.

(* "whatever characters occur in free-text fields, the output stays syntactically valid".
   knut's parser (parseQuotedString) reads a description as everything up to the next double
   quote, there is no escape.  Since fix faa0268 transaction.Builder.Build maps a double quote
   to a single quote, so the description the printer writes between the two delimiting quotes
   contains none, whatever the free text was ([simple_txn] is how all six importers build a
   transaction); every other byte of the text is kept. *)
Theorem C13_description_has_no_quote : forall s, count_quotes (build_desc s) = 0%nat.
Proof.
  intros s.
  unfold count_quotes, build_desc. induction s as [|c s IH]; [reflexivity|].
  cbn [map filter]. destruct (c =? 34)%Z eqn:Hc.
  - cbn. exact IH.
  - rewrite Z.eqb_sym in Hc. rewrite Hc. exact IH.
Qed.
Print Assumptions C13_description_has_no_quote.

Theorem C13_description_kept : forall s,
  length (build_desc s) = length s /\ (count_quotes s = 0%nat -> build_desc s = s).
Proof. intros s. split; [apply build_desc_length|apply build_desc_id]. Qed.
Print Assumptions C13_description_kept.

Theorem C13_header_line : forall date desc credit debit com q,
  exists rest,
    print_directives [simple_txn date desc credit debit com q] =
    format_date date ++ [32; 34]%Z ++ build_desc desc ++ [34; 10]%Z ++ rest.
Proof. exact simple_txn_header. Qed.
Print Assumptions C13_header_line.

(* the row whose Beschreibung is a double quote: two quotes on the header line now ... *)
Theorem C13_quote_row_fixed :
  exists flag header row,
    sc2_wf_row row = true /\
    ir_status (run_swisscard2 flag [CRec header; CRec row]) = SOk /\
    count_quotes (first_line (ir_stdout (run_swisscard2 flag [CRec header; CRec row]))) = 2%nat.
Proof. exists w_acct_flag, [], w_quote_row. exact quote_witness. Qed.
Print Assumptions C13_quote_row_fixed.

(* ... and three with Build as pinned (F14): the parser ends the description at the second one
   and rejects the rest of the line *)
Theorem C13_quote_breaks_header_pinned :
  exists date desc credit debit com q,
    count_quotes (first_line (print_directives [simple_txn_pinned date desc credit debit com q])) = 3%nat.
Proof. do 6 eexists. exact quote_witness_pinned. Qed.
Print Assumptions C13_quote_breaks_header_pinned.

(* rows of the importers' golden test inputs *)
Example C13_cumulus_entries_wf :
  let d1 := [50;50;46;48;56;46;50;48;50;48]%Z in      (* 22.08.2020 *)
  let d2 := [50;52;46;48;56;46;50;48;50;48]%Z in      (* 24.08.2020 *)
  forallb cum_wf_entry
    [CumIgnored [[86]; [66]; [71]; [66]]%Z;
     CumIgnored [d1; [73;104;114;101]; [49;39;50;51;52;46;53;54]; []]%Z;      (* a payment row *)
     CumBooking [d1; d2; [68;101;115;99]; []; [49;39;50;51;51;46;52;53]]%Z [[70;88]%Z];
     CumRounding [d2; s_rund; [48;46;48;50]; []]%Z []] = true.
Proof. vm_compute. reflexivity. Qed.

Example C13_supercard_row_wf :
  sup_wf_row [[49]; [50]; [79]; [48;57;46;48;53;46;50;48;50;49]; [65]; [84]; [51;46;50;48]; s_CHF; []; s_CHF;
              [51;46;50;48]; []; [49;48;46;48;53;46;50;48;50;49]]%Z = true.
Proof. vm_compute. reflexivity. Qed.

Example C13_postfinance_row_wf :
  pf_wf_row [[48;56;46;48;51;46;50;48;50;50]; [100]; []; [45;49;57]; [102]; [98]; [48;56;46;48;51;46;50;48;50;50]; []]%Z = true.
Proof. vm_compute. reflexivity. Qed.

Example C13_swisscard_row_wf :
  sc_wf_row [[49;52;46;48;50;46;50;48;50;48]; [49;52;46;48;50;46;50;48;50;48]; [49]; [45;67;72;70;50;39;48;48;48;46;53;48];
             [100]; []; []; []; []; [68]; []]%Z = true.
Proof. vm_compute. reflexivity. Qed.

Example C13_viac_entry_wf :
  viac_wf_entry ([50;48;49;56;45;48;54;45;50;48]%Z, [54;55;54;56;46;53;53;54]%Z) = true.
Proof. vm_compute. reflexivity. Qed.
