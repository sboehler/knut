(* C13  Importers turn every statement row into a valid, faithful journal entry.
   Group B: revolut2, revolut, com.wise, ch.swissquote, us.interactivebrokers (group A, and how a
   description is printed: Properties/C13.v).  Theorem statements; the proof under a statement is [exact <lemma>], a few lines
   from the lemmas of Proofs/, or a witness by evaluation.
   Proofs: Proofs/ImpProofsB.v (what each importer returns; the row lemmas of interactivebrokers),
   Proofs/ImpProofsIB.v (the interactivebrokers statement), Proofs/ImpRunB.v (from the flags to standard output),
   Proofs/ImpStdoutB.v, Proofs/ImpStdoutA.v (how the executable specification reads a statement), Proofs/ImpReading.v.

   Models: Model/Imp/<importer>.v (import_X: the records Go's csv reader delivered -> directives;
   run_X: the whole command incl. account flags and journal.Print), Model/ImpCommonA.v,
   Model/ImpCommonB.v, Model/JPrinter.v.
   Vocabulary: Spec/ImpSpecB.v
     row_effect (date, [(commodity, signed change)])   what a booking row says about the import account
     leg (credit, debit, commodity, quantity)          one booking of a transaction
     books_b acct f legs tg t    t is dated re_date f, consists of exactly the bookings legs (in order),
                                 changes acct in EVERY commodity c by the sum of f's changes in c
                                 (so by nothing where f says nothing), and carries annotation tg
     assertion_of acct b         the balance assertion "b.date balance acct b.qty b.com"
     X_wf_row / X_fact / X_legs / X_text               executable reading of a record of importer X
   and, for us.interactivebrokers, Spec/ImpSpecIB.v (ibs_kind, ibs_wf, ibs_items, ibs_emitted).
   The theorems quantify over records (what encoding/csv delivered), not over file bytes.

   Where an importer does not turn rows into transactions one-to-one, or emits something the
   property's wording does not mention, the theorem states the relation the code implements and
   the deviation is written up under findings/C13-<importer>-*.md:
   * revolut2: rows without Completed Date are skipped; the statement's Balance column is turned
     into ONE assertion per (day, currency): the Balance of the last such row in file order; the
     order of the assertions of one day is Go's map order (findings/C13-revolut2-balances.md).
   * revolut: one transaction per row, but a currency sale/purchase row changes the account in
     two commodities; an assertion of the row's Balance precedes the transaction of every row
     whose date differs from the preceding row's date, which is the day's closing balance only in
     a statement that lists the newest row first (findings/C13-revolut-balances.md).
   * com.wise: a row yields zero (CANCELLED; NEUTRAL within one currency), one, or two transactions
     (conversion, then payment); an incoming payment in another currency credits the target amount
     twice -- C13_wise_incoming_conversion_refuted, findings/C13-wise-incoming-conversion.md
     (with a patch; the model parameter repaired = true is the patched code).
   * ch.swissquote: the two rows of a currency exchange become ONE transaction dated on the second
     row; a purchase/sale changes two commodities; a dividend row is booked from Stückpreis and
     Kosten, not from Nettobetrag; an exchange row left without partner at the end of the file is
     dropped without a diagnostic (findings/C13-swissquote-forex-pairs.md).
   * us.interactivebrokers: quantities, proceeds, deposit amounts, currency-trade commissions and
     cash balances are rounded to two places while stock commissions, dividends, interest, taxes
     and position quantities are not; on statements with IB's precision the emitted assertions
     contradict the emitted transactions (findings/C13-interactivebrokers-rounding.md, known
     finding C13-ib-rounding).  C13_interactivebrokers_faithful states the relation the code
     implements (Spec/ImpSpecIB.v reads those amounts with ibs_num2, i.e. rounded);
     C13_interactivebrokers_two_places_exact says when that is the row's amount. *)
From Coq Require Import ZArith QArith List Bool.
From Knut Require Import Model.Imp.Revolut2Files.
From Knut Require Import Model.Str Model.Dec Model.Date Model.Account Model.Ledger Model.Journal
     Model.ImpCommonA Model.ImpCommonB Model.Imp.Revolut2 Model.Imp.Revolut Model.Imp.Wise Model.Imp.Swissquote Model.Imp.Interactivebrokers
     Spec.TableSpec Spec.ImpSpecA Spec.ImpSpecB Spec.ImpSpecIB Spec.ImpStmtA Spec.ImpStmtB Proofs.DecValue Proofs.DecRoundProofs Proofs.PairProofs
     Proofs.ImpReading Proofs.ImpProofsB Proofs.ImpProofsIB Proofs.ImpRunB Proofs.ImpStdoutA
     Proofs.ImpStdoutB.
Import ListNotations.

(* a booking raises the debited account by its quantity and lowers the credited one, in its
   commodity, whatever the sign of the quantity *)
Theorem C13b_effect_of_bookings : forall a c ls d desc tg,
  effect a c (mkTxn d desc (concat (map booking_postings ls)) tg) == legs_effect a c ls.
Proof. intros. rewrite effect_peffect. apply bookings_effect. Qed.
Print Assumptions C13b_effect_of_bookings.

(* a transaction that books a row (books_b) is a sequence of posting pairs, and the journal built
   from directives whose transactions each book some row consists of such transactions, day by
   day: what group B importers hand to journal.Print is balanced (C13_print_balanced for group A) *)
Theorem C13b_print_balanced : forall acct f ls tg t, books_b acct f ls tg t -> txn_ok t.
Proof. exact books_b_paired. Qed.
Print Assumptions C13b_print_balanced.

Theorem C13b_journal_balanced : forall ds,
  Forall (fun d => match d with DTxn t => exists acct f ls tg, books_b acct f ls tg t | _ => True end) ds ->
  Forall day_ok (b_days (builder_of ds)).
Proof. exact booked_days_ok. Qed.
Print Assumptions C13b_journal_balanced.

(* After the header every record has 10 fields.  Rows without Completed Date are not booked.
   Every other row yields exactly one transaction, in order, on the day of its Completed Date:
   Amount from Expenses:TBD to the account and, when Fee is not zero, Fee from the account to the
   fee account -- the account changes by Amount - Fee in Currency and by nothing else;
   description = Description.  After the transactions one balance assertion per (day, currency)
   that occurs, no key twice, carrying the Balance of the last booking row of that day and
   currency; nothing else. *)
Theorem C13_revolut2_faithful : forall acct feeacct rows,
  acct <> tbd_account -> acct <> feeacct -> forallb r2_wf_row rows = true ->
  exists ts bals,
    import_revolut2 acct feeacct (CRec r2_header :: map CRec rows) =
      MOk (map DTxn ts ++ map (assertion_of acct) bals) /\
    Forall2 (fun r t => books_b acct (r2_fact r) (r2_legs acct feeacct r) None t) (filter r2_is_booking rows) ts /\
    map t_desc ts = map build_desc (map r2_text (filter r2_is_booking rows)) /\
    NoDup (map (fun b => (bf_date b, bf_com b)) bals) /\
    (forall d c v, In (mkBalFact d c v) bals <-> r2_closing (d, c) rows = Some v).
Proof. exact revolut2_faithful. Qed.
Print Assumptions C13_revolut2_faithful.

(* `knut import revolut2 FILE...`: every file is imported on its own (its own parser, its own balance map) into one
   journal: the directives of the run are the concatenation, in argument order, of what C13_revolut2_faithful says
   about each file -- no assertion or transaction of one statement leaks into another (seeded change
   C13d-revolut2-parser-reused kept the balance map across files and repeated the assertions of earlier files); the
   first failing file fails the run. *)
Theorem C13_revolut2_files : forall a f files dss,
  Forall2 (fun file ds => import_revolut2 a f file = MOk ds) files dss ->
  import_revolut2_files a f files = MOk (concat dss).
Proof.
  intros a f files dss H. induction H as [|file ds files dss Hfile _ IH]; cbn [import_revolut2_files concat].
  - reflexivity.
  - rewrite Hfile. cbn [mbind]. rewrite IH. cbn [mbind]. reflexivity.
Qed.
Print Assumptions C13_revolut2_files.

Theorem C13_revolut2_files_error : forall a f pre file post dss e,
  Forall2 (fun file ds => import_revolut2 a f file = MOk ds) pre dss ->
  import_revolut2 a f file = MErr e ->
  import_revolut2_files a f (pre ++ file :: post) = MErr e.
Proof.
  intros a f pre file post dss e H He. induction H as [|x ds pre dss Hx _ IH]; cbn [app import_revolut2_files].
  - rewrite He. reflexivity.
  - rewrite Hx. cbn [mbind]. rewrite IH. reflexivity.
Qed.
Print Assumptions C13_revolut2_files_error.

(* 2020-07-01 10:00:00, -16.95, fee 1.00, CHF, balance 779.65 *)
Example C13_revolut2_row_wf :
  r2_wf_row [[67]; [67]; []; [50;48;50;48;45;48;55;45;48;49;32;49;48;58;48;48;58;48;48]; [97];
             [45;49;54;46;57;53]; [49;46;48;48]; [67;72;70]; [67]; [55;55;57;46;54;53]]%Z = true.
Proof. vm_compute. reflexivity. Qed.

(* The header (9 fields) names the statement's currency in "Paid Out (CUR)".  Every further record
   is a booking row of 9 fields: exactly one transaction per row, in order, on the Completed Date;
   a plain row books the signed amount (+Paid In / -Paid Out) between Expenses:TBD and the
   account in CUR; a "Sold X to Y" / "Bought X from Y" row books the signed amount in CUR and the
   amount of Exchange Out (received) resp. Exchange In (given) in its currency against the
   valuation account Income:<rest of the account name>; the account changes by exactly these
   amounts; description = Reference, Exchange Rate, Category joined by blanks with white space
   collapsed and trimmed.  Besides the transactions: an assertion of the row's Balance in CUR,
   dated on the row's date, before the transaction of each row whose date differs from the date
   of the row before it (rv_weave); nothing else. *)
Theorem C13_revolut_faithful : forall acct cur header rows,
  acct <> tbd_account -> acct <> valuation_account_for acct ->
  len_is header 9 = true -> field header 2 = s_paid_out ++ cur ++ [41%Z] ->
  forallb is_alpha cur = true -> cur <> [] ->
  forallb rv_wf_row rows = true ->
  exists ts,
    import_revolut acct (CRec header :: map CRec rows) = MOk (rv_weave acct cur zero_date rows ts) /\
    Forall2 (fun r t => books_b acct (rv_fact cur r) (rv_legs acct cur r) None t) rows ts /\
    map t_desc ts = map build_desc (map rv_text rows).
Proof.
  intros acct cur header rows.
  intros H1 H2 Hl Hh Hc Hne Hwf.
  destruct (bookings_faithful acct (rv_fact cur) rv_text (rv_legs acct cur) (fun _ => None) rows) as (ts & E & H);
    [intros r _ c; apply rv_legs_effect; assumption|].
  exists ts. split; [|exact H]. rewrite <- (rv_weave_bookings acct cur rows ts _ E).
  apply import_revolut_spec; assumption.
Qed.
Print Assumptions C13_revolut_faithful.

(* "26 Nov 2020;Sold EUR to CHF; 184.98;;CHF  199.95;; 100.00;FX-rate;General" as the reader delivers it *)
Example C13_revolut_row_wf :
  rv_wf_row [[50;54;32;78;111;118;32;50;48;50;48]; [83;111;108;100;32;69;85;82;32;116;111;32;67;72;70];
             [49;56;52;46;57;56]; []; [67;72;70;32;32;49;57;57;46;57;53]; []; [49;48;48;46;48;48]; [70;88]; [71]]%Z = true /\
  rv_exchange [[50;54;32;78;111;118;32;50;48;50;48]; [83;111;108;100;32;69;85;82;32;116;111;32;67;72;70];
             [49;56;52;46;57;56]; []; [67;72;70;32;32;49;57;57;46;57;53]; []; [49;48;48;46;48;48]; [70;88]; [71]]%Z
    = Some ([67;72;70]%Z, mkDec 19995 (-2)).
Proof. vm_compute. split; reflexivity. Qed.

(* After the header every record has 18 fields.  Each row stands for the entries ws_entries lists
   (none for a CANCELLED row and for a NEUTRAL row within one currency -- whose fees, if any, are
   dropped; one payment with its fees for OUT/IN within one currency; for differing currencies a
   conversion transaction carrying the fees -- source amount to the trading account, target
   amount from it -- followed for OUT by the payment of the target amount, for IN by the receipt
   of the target amount [repaired: of the source amount]).  Exactly one transaction per entry,
   in order, on the day of "Created on", consisting of the entry's bookings, changing the account
   by exactly the entry's changes; descriptions "<ID, - and _ as blanks> / <Target name>" resp.
   "<ID> / convert <source> <cur> to <target> <cur>"; nothing else. *)
Theorem C13_wise_faithful : forall repaired acct feeacct trading rows,
  acct <> tbd_account -> acct <> feeacct -> acct <> trading -> forallb ws_wf_row rows = true ->
  let entries := flat_map (ws_entries repaired acct feeacct trading) rows in
  exists ts,
    import_wise repaired acct feeacct trading (CRec ws_header :: map CRec rows) = MOk (map DTxn ts) /\
    Forall2 (fun e t => books_b acct (en_fact e) (en_legs e) None t) entries ts /\
    map t_desc ts = map build_desc (map en_text entries).
Proof.
  intros rep acct feeacct trading rows.
  intros H1 H2 H3 Hwf entries.
  destruct (bookings_faithful acct en_fact en_text en_legs (fun _ => None) entries) as (ts & E & H).
  { intros e He c. apply in_flat_map in He. destruct He as (r & _ & He).
    exact (ws_entry_effect rep acct feeacct trading r e c H1 H2 H3 He). }
  exists ts. split; [|exact H]. rewrite <- E. apply import_wise_spec, Hwf.
Qed.
Print Assumptions C13_wise_faithful.

(* TRANSFER-1, COMPLETED, IN, 100.00 CHF arrive as 92.50 EUR: the row's effect on the account
   ought to be +92.50 EUR (and nothing in CHF).  The code as it stands changes the account by
   +185 EUR and -100 CHF; the patched code by +92.50 EUR and 0 CHF. *)
Definition w_incoming : list str :=
  [[84;82;65;78;83;70;69;82;45;49]; [67;79;77;80;76;69;84;69;68]; [73;78];
   [50;48;50;52;45;48;49;45;48;50;32;49;48;58;48;48;58;48;48]; [50;48;50;52;45;48;49;45;48;50;32;49;48;58;48;48;58;48;48];
   [48;46;48;48]; [67;72;70]; []; []; [82;111;99;107;121]; [49;48;48;46;48;48]; [67;72;70]; [82;111;99;107;121];
   [57;50;46;53;48]; [69;85;82]; []; []; []]%Z.
Definition w_acct : account := [s_Assets; [87]%Z].
Definition w_fee : account := [s_Expenses; [70]%Z].
Definition w_trading : account := [s_Expenses; [84]%Z].

Theorem C13_wise_incoming_conversion_refuted :
  ws_wf_row w_incoming = true /\ ws_dir_of w_incoming = WsIn /\ ws_converted w_incoming = true /\
  ws_row_change false w_acct w_fee w_trading w_incoming (ws_tcur w_incoming) == 2 * dvalue (ws_tgt w_incoming) /\
  ws_row_change false w_acct w_fee w_trading w_incoming (ws_scur w_incoming) == - dvalue (ws_src w_incoming) /\
  ws_row_change true w_acct w_fee w_trading w_incoming (ws_tcur w_incoming) == dvalue (ws_tgt w_incoming) /\
  ws_row_change true w_acct w_fee w_trading w_incoming (ws_scur w_incoming) == 0.
Proof. repeat split; vm_compute; reflexivity. Qed.
Print Assumptions C13_wise_incoming_conversion_refuted.

Example C13_wise_row_wf : ws_wf_row w_incoming = true.
Proof. vm_compute. reflexivity. Qed.

(* After the header every record has 13 fields.  A statement is well-formed (sqs_wf) when its
   rows are, exchange rows come in pairs with at most purchases/sales between the two rows of a
   pair, and no exchange is left open at the end.  Entries (sqs_entries), in order: one per
   purchase/sale (Symbol changes by -/+Anzahl, cash by Nettobetrag: bookings of the proceeds
   Nettobetrag + Kosten against the trading account and of -Kosten against the fee account;
   annotated with Symbol and Währung), one per PAIR of exchange rows (both Nettobetrag amounts
   against the trading account, dated on the second row), one per other row (dividend kinds:
   Stückpreis from the dividend account, Kosten to the tax account, annotated with Symbol;
   Depotgebühren: Nettobetrag against the fee account, empty annotation; Zins: against the interest
   account, annotated with Währung; Einzahlung/Auszahlung/Vergütung/Belastung and every unknown
   kind: Nettobetrag against Expenses:TBD).  Exactly one transaction per entry, on the row's date,
   consisting of the entry's bookings and changing the account by exactly the entry's changes;
   nothing else. *)
Theorem C13_swissquote_faithful : forall acct dividend interest tax fee trading header rows,
  acct <> tbd_account -> acct <> dividend -> acct <> interest -> acct <> tax -> acct <> fee -> acct <> trading ->
  sqs_wf false rows = true ->
  let entries := sqs_entries acct dividend interest tax fee trading None rows in
  exists ts,
    import_swissquote acct dividend interest tax fee trading (CRec header :: map CRec rows) = MOk (map DTxn ts) /\
    Forall2 (fun e t => books_b acct (en_fact (fst e)) (en_legs (fst e)) (snd e) t) entries ts /\
    map t_desc ts = map build_desc (map (fun e => en_text (fst e)) entries).
Proof.
  intros acct dividend interest tax fee trading header rows.
  intros H1 H2 H3 H4 H5 H6 Hwf entries.
  destruct (bookings_faithful acct (fun e : tentry => en_fact (fst e)) (fun e : tentry => en_text (fst e))
                              (fun e : tentry => en_legs (fst e)) (fun e : tentry => snd e) entries) as (ts & E & H);
    [intros e He c; apply (sqs_entries_effect acct dividend interest tax fee trading) with (rows := rows) (pending := None); assumption|].
  exists ts. split; [|exact H]. rewrite <- E. apply import_swissquote_spec, Hwf.
Qed.
Print Assumptions C13_swissquote_faithful.

(* an exchange row without partner at the end of the statement leaves no trace: the statement
   Einzahlung; Forex-Gutschrift imports exactly like the statement Einzahlung *)
Definition w_sq_row (typ : str) (netto : str) : list str :=
  [[48;57;45;49;48;45;50;48;50;48]; [48]; typ; []; []; []; [49]; [49]; [48]; [48]; netto; [48]; [67;72;70]]%Z.
Theorem C13_swissquote_open_exchange_dropped :
  let a := [s_Assets; [83]%Z] in let x := [s_Expenses; [88]%Z] in
  let ein := w_sq_row [69;105;110;122;97;104;108;117;110;103]%Z [49;48;48]%Z in
  let fx := w_sq_row [70;111;114;101;120;45;71;117;116;115;99;104;114;105;102;116]%Z [56;51;48]%Z in
  sqs_wf_row fx = true /\ sqs_wf false [ein; fx] = false /\
  import_swissquote a x x x x x [CRec []; CRec ein; CRec fx] = import_swissquote a x x x x x [CRec []; CRec ein].
Proof. vm_compute. repeat split. Qed.
Print Assumptions C13_swissquote_open_exchange_dropped.

Example C13_swissquote_statement_wf :
  sqs_wf false [w_sq_row [69;105;110;122;97;104;108;117;110;103]%Z [49;48;48]%Z;
                w_sq_row [70;111;114;101;120;45;71;117;116;115;99;104;114;105;102;116]%Z [56;51;48]%Z;
                w_sq_row [70;111;114;101;120;45;66;101;108;97;115;116;117;110;103]%Z [45;57;49;56]%Z] = true.
Proof. vm_compute. reflexivity. Qed.

(* With every account flag valid (so that it names an account; an empty flag gives a nil account,
   findings/C13-nil-account-panic.md) the command succeeds on every well-formed statement and its
   standard output is journal.Print of exactly the directives of the theorems above. *)
Theorem C13_revolut2_end_to_end : forall aflag fflag acct feeacct rows,
  account_flag aflag = AAcc acct -> account_flag fflag = AAcc feeacct ->
  acct <> tbd_account -> acct <> feeacct -> forallb r2_wf_row rows = true ->
  exists ts bals,
    run_revolut2 aflag fflag (CRec r2_header :: map CRec rows) =
      mkRun (print_directives (map DTxn ts ++ map (assertion_of acct) bals)) SOk /\
    Forall2 (fun r t => books_b acct (r2_fact r) (r2_legs acct feeacct r) None t) (filter r2_is_booking rows) ts /\
    map t_desc ts = map build_desc (map r2_text (filter r2_is_booking rows)) /\
    NoDup (map (fun b => (bf_date b, bf_com b)) bals) /\
    (forall d c v, In (mkBalFact d c v) bals <-> r2_closing (d, c) rows = Some v).
Proof.
  intros aflag fflag acct feeacct rows.
  intros Fa Ff H1 H2 Hwf. destruct (C13_revolut2_faithful acct feeacct rows H1 H2 Hwf) as (ts & bals & Hi & H).
  exists ts, bals. split; [|exact H].
  rewrite (import_revolut2_spec acct feeacct rows Hwf) in Hi. injection Hi as <-. apply run_revolut2_ok; assumption.
Qed.
Print Assumptions C13_revolut2_end_to_end.

Theorem C13_revolut_end_to_end : forall aflag acct cur header rows,
  account_flag aflag = AAcc acct ->
  acct <> tbd_account -> acct <> valuation_account_for acct ->
  len_is header 9 = true -> field header 2 = s_paid_out ++ cur ++ [41%Z] ->
  forallb is_alpha cur = true -> cur <> [] ->
  forallb rv_wf_row rows = true ->
  exists ts,
    run_revolut aflag (CRec header :: map CRec rows) = mkRun (print_directives (rv_weave acct cur zero_date rows ts)) SOk /\
    Forall2 (fun r t => books_b acct (rv_fact cur r) (rv_legs acct cur r) None t) rows ts /\
    map t_desc ts = map build_desc (map rv_text rows).
Proof.
  intros aflag acct cur header rows.
  intros Fa H1 H2 Hl Hh Hc Hne Hwf.
  eapply faithful_run; [apply import_revolut_spec|apply run_revolut_ok|apply C13_revolut_faithful]; eassumption.
Qed.
Print Assumptions C13_revolut_end_to_end.

Theorem C13_wise_end_to_end : forall repaired aflag fflag tflag acct feeacct trading rows,
  account_flag aflag = AAcc acct -> account_flag fflag = AAcc feeacct -> account_flag tflag = AAcc trading ->
  acct <> tbd_account -> acct <> feeacct -> acct <> trading -> forallb ws_wf_row rows = true ->
  let entries := flat_map (ws_entries repaired acct feeacct trading) rows in
  exists ts,
    run_wise repaired aflag fflag tflag (CRec ws_header :: map CRec rows) = mkRun (print_directives (map DTxn ts)) SOk /\
    Forall2 (fun e t => books_b acct (en_fact e) (en_legs e) None t) entries ts /\
    map t_desc ts = map build_desc (map en_text entries).
Proof.
  intros rep aflag fflag tflag acct feeacct trading rows.
  intros Fa Ff Ft H1 H2 H3 Hwf entries.
  eapply faithful_run; [apply import_wise_spec|apply run_wise_ok|apply C13_wise_faithful]; eassumption.
Qed.
Print Assumptions C13_wise_end_to_end.

Theorem C13_swissquote_end_to_end :
  forall aflag dflag iflag wflag fflag tflag acct dividend interest tax fee trading header rows,
  account_flag aflag = AAcc acct -> account_flag dflag = AAcc dividend -> account_flag iflag = AAcc interest ->
  account_flag wflag = AAcc tax -> account_flag fflag = AAcc fee -> account_flag tflag = AAcc trading ->
  acct <> tbd_account -> acct <> dividend -> acct <> interest -> acct <> tax -> acct <> fee -> acct <> trading ->
  sqs_wf false rows = true ->
  let entries := sqs_entries acct dividend interest tax fee trading None rows in
  exists ts,
    run_swissquote aflag dflag iflag wflag fflag tflag (CRec header :: map CRec rows) = mkRun (print_directives (map DTxn ts)) SOk /\
    Forall2 (fun e t => books_b acct (en_fact (fst e)) (en_legs (fst e)) (snd e) t) entries ts /\
    map t_desc ts = map build_desc (map (fun e => en_text (fst e)) entries).
Proof.
  intros aflag dflag iflag wflag fflag tflag acct dividend interest tax fee trading header rows.
  intros Fa Fd Fi Fw Ff Ft H1 H2 H3 H4 H5 H6 Hwf entries.
  eapply faithful_run; [apply import_swissquote_spec with (header := header)|apply run_swissquote_ok|apply C13_swissquote_faithful]; eassumption.
Qed.
Print Assumptions C13_swissquote_end_to_end.

(* An activity statement is a sequence of records; ibs_kind says what a record is: a context
   record (Base Currency, Period), a booking row (Trades/Order of Stocks or Forex, Deposits &
   Withdrawals, Dividends, Interest, Withholding Tax -- the format has no separate fee rows:
   commissions are columns of the trade rows), a balance row (Open Positions/Summary, Forex
   Balances/Forex: the statement's position and cash report) or anything else (headers, totals,
   other sections).  A statement is well-formed (ibs_wf) when every record is (ibs_wf_row: the
   fields the kind needs are present and parse), every Forex trade comes after a Base Currency
   record and every balance row after a Period record whose end is not 1 January of year 1.
   For every well-formed statement the importer emits, in record order, exactly one directive per
   booking row and per balance row and nothing for any other record (ibs_items lists the items;
   the two length equations count them):
   * per booking row ONE transaction dated on the row's date that consists of exactly the row's
     bookings (trade: quantity and proceeds against the trading account, commission against the
     fee account -- for a Forex trade in the base currency and only when not zero; deposit: against
     Expenses:TBD; dividend / interest / tax: against the respective account), changes the import
     account by exactly the row's signed amounts in every commodity, carries the annotation
     (traded symbol and currency; security of a dividend/tax row; currency of an interest row)
     and the text (trade/deposit: composed; else the row's description);
   * per balance row the assertion of that balance on the import account, dated on the end of the
     period named by the last Period record before the row.
   "The row's signed amount" is the amount AS THE CODE ROUNDS IT: quantity, proceeds, Forex
   commission, deposit amount and cash balance are read with ibs_num2 (two places, half away
   from zero), stock commission, dividend, interest, tax and position quantity exactly.  This is
   the relation the code implements, not the property's wording: known finding C13-ib-rounding
   (findings/C13-interactivebrokers-rounding.md; C13_interactivebrokers_rounding_witness below).
   Where every rounded amount of the statement has at most two decimals the two readings agree
   (C13_interactivebrokers_two_places_exact). *)
Theorem C13_interactivebrokers_faithful : forall acct dividend interest tax fee trading rows,
  acct <> tbd_account -> acct <> dividend -> acct <> interest -> acct <> tax -> acct <> fee -> acct <> trading ->
  ibs_wf ibs_ctx0 rows = true ->
  let items := ibs_items acct dividend interest tax fee trading ibs_ctx0 rows in
  exists ds,
    import_interactivebrokers acct dividend interest tax fee trading (map CRec rows) = MOk ds /\
    Forall2 (ibs_emitted acct) items ds /\
    length (filter is_txn_dir ds) = length (filter ibs_is_booking rows) /\
    length (filter (fun d => negb (is_txn_dir d)) ds) = length (filter ibs_is_balance rows).
Proof.
  intros acct dividend interest tax fee trading rows.
  intros H1 H2 H3 H4 H5 H6 Hwf items. exists (map (item_dir acct) items). split; [|split].
  - exact (ib_rows_spec acct dividend interest tax fee trading rows ibs_ctx0 Hwf).
  - apply ibs_items_emitted; assumption.
  - apply ibs_items_counts.
Qed.
Print Assumptions C13_interactivebrokers_faithful.

(* from the command line to standard output: with six valid account flags (-a -i -d -w -f -t) the
   command succeeds on every well-formed statement and prints journal.Print of those directives *)
Theorem C13_interactivebrokers_end_to_end :
  forall aflag iflag dflag wflag fflag tflag acct dividend interest tax fee trading rows,
  account_flag aflag = AAcc acct -> account_flag iflag = AAcc interest -> account_flag dflag = AAcc dividend ->
  account_flag wflag = AAcc tax -> account_flag fflag = AAcc fee -> account_flag tflag = AAcc trading ->
  acct <> tbd_account -> acct <> dividend -> acct <> interest -> acct <> tax -> acct <> fee -> acct <> trading ->
  ibs_wf ibs_ctx0 rows = true ->
  let items := ibs_items acct dividend interest tax fee trading ibs_ctx0 rows in
  exists ds,
    run_interactivebrokers aflag iflag dflag wflag fflag tflag (map CRec rows) = mkRun (print_directives ds) SOk /\
    Forall2 (ibs_emitted acct) items ds /\
    length (filter is_txn_dir ds) = length (filter ibs_is_booking rows) /\
    length (filter (fun d => negb (is_txn_dir d)) ds) = length (filter ibs_is_balance rows).
Proof.
  intros aflag iflag dflag wflag fflag tflag acct dividend interest tax fee trading rows.
  intros Fa Fi Fd Fw Ff Ft H1 H2 H3 H4 H5 H6 Hwf items.
  exists (map (item_dir acct) items). split; [|split].
  - eapply run_interactivebrokers_ok; eassumption.
  - apply ibs_items_emitted; assumption.
  - apply ibs_items_counts.
Qed.
Print Assumptions C13_interactivebrokers_end_to_end.

(* the executable form of the statement theorem, which ./check C13 evaluates on the standard
   output of the binary for every generated well-formed statement (drv_c13b.ml): the command
   prints ibs_statement_output, the journal of the directives that realise the statement's items *)
Theorem C13_interactivebrokers_stdout :
  forall aflag iflag dflag wflag fflag tflag acct dividend interest tax fee trading rows,
  account_flag aflag = AAcc acct -> account_flag iflag = AAcc interest -> account_flag dflag = AAcc dividend ->
  account_flag wflag = AAcc tax -> account_flag fflag = AAcc fee -> account_flag tflag = AAcc trading ->
  ibs_wf ibs_ctx0 rows = true ->
  exists out, ibs_statement_output acct dividend interest tax fee trading rows = Some out /\
    run_interactivebrokers aflag iflag dflag wflag fflag tflag (map CRec rows) = mkRun out SOk.
Proof.
  intros aflag iflag dflag wflag fflag tflag acct dividend interest tax fee trading rows.
  intros Fa Fi Fd Fw Ff Ft Hwf. unfold ibs_statement_output. rewrite Hwf. eexists. split; [reflexivity|].
  rewrite (run_interactivebrokers_ok _ _ _ _ _ _ _ _ _ _ _ _ _ Fa Fi Fd Fw Ff Ft Hwf).
  reflexivity.
Qed.
Print Assumptions C13_interactivebrokers_stdout.

(* ... and that journal consists of posting pairs, day by day *)
Theorem C13_interactivebrokers_print_balanced : forall acct items ds,
  Forall2 (ibs_emitted acct) items ds -> Forall day_ok (b_days (builder_of ds)).
Proof.
  intros acct items ds.
  intros H. apply booked_days_ok. eapply ibs_emitted_booked; exact H.
Qed.
Print Assumptions C13_interactivebrokers_print_balanced.

(* what ibs_num2 is: the exact amount rounded half away from zero to two places (Spec/TableSpec.v,
   is_round_haz); an amount with at most two decimals (exponent >= -2) is read exactly *)
Theorem C13_interactivebrokers_rounding : forall s q,
  ibs_num2 s = Some q -> exists d, ibs_num s = Some d /\ is_round_haz d 2 q.
Proof.
  intros s q.
  unfold ibs_num2. destruct (ibs_num s) as [d|]; [|discriminate]. intros H. injection H as <-.
  exists d. split; [reflexivity|]. apply round_spec.
Qed.
Print Assumptions C13_interactivebrokers_rounding.

Theorem C13_interactivebrokers_two_places_exact : forall s d,
  ibs_num s = Some d -> (-2 <= ex d)%Z -> exists q, ibs_num2 s = Some q /\ dvalue q == dvalue d.
Proof.
  intros s d.
  intros Hs He. unfold ibs_num2. rewrite Hs. eexists. split; [reflexivity|]. apply round2_exact. exact He.
Qed.
Print Assumptions C13_interactivebrokers_two_places_exact.

(* a statement with every kind of record: well-formed; six transactions and two assertions *)
Definition w_ib_statement : list (list str) :=
  [
   (* Statement,Data,Period,"January 1, 2024 - January 31, 2024" *)
   [[83;116;97;116;101;109;101;110;116]; [68;97;116;97]; [80;101;114;105;111;100]; [74;97;110;117;97;114;121;32;49;44;32;50;48;50;52;32;45;32;74;97;110;117;97;114;121;32;51;49;44;32;50;48;50;52]];
   (* Account Information,Data,Base Currency,CHF *)
   [[65;99;99;111;117;110;116;32;73;110;102;111;114;109;97;116;105;111;110]; [68;97;116;97]; [66;97;115;101;32;67;117;114;114;101;110;99;121]; [67;72;70]];
   (* Trades,Header,DataDiscriminator,Asset Category *)
   [[84;114;97;100;101;115]; [72;101;97;100;101;114]; [68;97;116;97;68;105;115;99;114;105;109;105;110;97;116;111;114]; [65;115;115;101;116;32;67;97;116;101;103;111;114;121]];
   (* Trades,Data,Order,Stocks,USD,BRK,"2024-01-07, 11:48:02",0.1615,68.3430,68.34,-11.04,-0.005,0,0,0,0,O *)
   [[84;114;97;100;101;115]; [68;97;116;97]; [79;114;100;101;114]; [83;116;111;99;107;115]; [85;83;68]; [66;82;75]; [50;48;50;52;45;48;49;45;48;55;44;32;49;49;58;52;56;58;48;50]; [48;46;49;54;49;53]; [54;56;46;51;52;51;48]; [54;56;46;51;52]; [45;49;49;46;48;52]; [45;48;46;48;48;53]; [48]; [48]; [48]; [48]; [79]];
   (* Trades,Data,Order,Forex,CHF,USD.CHF,"2024-01-08, 10:00:00","1,000",0.9,,-900,-1.8,,,,, *)
   [[84;114;97;100;101;115]; [68;97;116;97]; [79;114;100;101;114]; [70;111;114;101;120]; [67;72;70]; [85;83;68;46;67;72;70]; [50;48;50;52;45;48;49;45;48;56;44;32;49;48;58;48;48;58;48;48]; [49;44;48;48;48]; [48;46;57]; []; [45;57;48;48]; [45;49;46;56]; []; []; []; []; []];
   (* Deposits & Withdrawals,Data,CHF,2024-01-02,Electronic Fund Transfer,5000 *)
   [[68;101;112;111;115;105;116;115;32;38;32;87;105;116;104;100;114;97;119;97;108;115]; [68;97;116;97]; [67;72;70]; [50;48;50;52;45;48;49;45;48;50]; [69;108;101;99;116;114;111;110;105;99;32;70;117;110;100;32;84;114;97;110;115;102;101;114]; [53;48;48;48]];
   (* Deposits & Withdrawals,Data,Total,,,5000 *)
   [[68;101;112;111;115;105;116;115;32;38;32;87;105;116;104;100;114;97;119;97;108;115]; [68;97;116;97]; [84;111;116;97;108]; []; []; [53;48;48;48]];
   (* Dividends,Data,USD,2024-01-15,BRK(US0846707026) Cash Dividend,1.5 *)
   [[68;105;118;105;100;101;110;100;115]; [68;97;116;97]; [85;83;68]; [50;48;50;52;45;48;49;45;49;53]; [66;82;75;40;85;83;48;56;52;54;55;48;55;48;50;54;41;32;67;97;115;104;32;68;105;118;105;100;101;110;100]; [49;46;53]];
   (* Withholding Tax,Data,USD,2024-01-15,BRK(US0846707026) Cash Dividend - US Tax,-0.22, *)
   [[87;105;116;104;104;111;108;100;105;110;103;32;84;97;120]; [68;97;116;97]; [85;83;68]; [50;48;50;52;45;48;49;45;49;53]; [66;82;75;40;85;83;48;56;52;54;55;48;55;48;50;54;41;32;67;97;115;104;32;68;105;118;105;100;101;110;100;32;45;32;85;83;32;84;97;120]; [45;48;46;50;50]; []];
   (* Interest,Data,USD,2024-01-04,USD Debit Interest for Dec-2023,-0.73 *)
   [[73;110;116;101;114;101;115;116]; [68;97;116;97]; [85;83;68]; [50;48;50;52;45;48;49;45;48;52]; [85;83;68;32;68;101;98;105;116;32;73;110;116;101;114;101;115;116;32;102;111;114;32;68;101;99;45;50;48;50;51]; [45;48;46;55;51]];
   (* Open Positions,Data,Summary,Stocks,USD,BRK,0.1615,1 *)
   [[79;112;101;110;32;80;111;115;105;116;105;111;110;115]; [68;97;116;97]; [83;117;109;109;97;114;121]; [83;116;111;99;107;115]; [85;83;68]; [66;82;75]; [48;46;49;54;49;53]; [49]];
   (* Forex Balances,Data,Forex,CHF,USD,-11.045,1 *)
   [[70;111;114;101;120;32;66;97;108;97;110;99;101;115]; [68;97;116;97]; [70;111;114;101;120]; [67;72;70]; [85;83;68]; [45;49;49;46;48;52;53]; [49]];
   (* Notes,Data *)
   [[78;111;116;101;115]; [68;97;116;97]]
  ]%Z.

Example C13_interactivebrokers_statement_wf :
  ibs_wf ibs_ctx0 w_ib_statement = true /\
  map ibs_kind w_ib_statement =
    [IbPeriod; IbBase; IbOther; IbStock; IbForex; IbDeposit; IbOther; IbDividend; IbWithholding; IbInterest;
     IbPosition; IbCash; IbOther] /\
  length (filter ibs_is_booking w_ib_statement) = 6%nat /\ length (filter ibs_is_balance w_ib_statement) = 2%nat.
Proof. vm_compute. repeat split. Qed.

(* the same statement through the model: the stock row books 0.16 BRK where the statement says
   0.1615, and the cash balance -11.045 is asserted as -11.05 (C13-ib-rounding) *)
Example C13_interactivebrokers_statement_run :
  let a := [s_Assets; [73;66]%Z] in let x := [s_Expenses; [88]%Z] in
  exists ds, import_interactivebrokers a x x x x x (map CRec w_ib_statement) = MOk ds /\
    length ds = 8%nat /\
    nth 7 ds (DAssert 0 []) = DAssert (of_civil 2024 1 31) [mkBalance a (mkDec (-1105) (-2)) [85;83;68]%Z].
Proof. eexists. split; [vm_compute; reflexivity|]. split; reflexivity. Qed.

(* the order of the records matters (the hypothesis ibs_wf threads the context): a Forex trade
   after the Base Currency record is booked, the same trade before it makes the import fail *)
Example C13_interactivebrokers_order_matters :
  let a := [s_Assets; [73;66]%Z] in let x := [s_Expenses; [88]%Z] in
  let base := nth 1 w_ib_statement [] in let fx := nth 4 w_ib_statement [] in
  ibs_wf ibs_ctx0 [base; fx] = true /\ ibs_wf ibs_ctx0 [fx; base] = false /\
  (exists t, import_interactivebrokers a x x x x x [CRec base; CRec fx] = MOk [DTxn t]) /\
  import_interactivebrokers a x x x x x [CRec fx; CRec base] = MErr e_base.
Proof. vm_compute. repeat split. eexists. reflexivity. Qed.

(* The row theorems: what ONE record of each transaction kind other than a Forex trade yields, in
   ANY state of the importer (the state is unchanged), stated on the record alone.  On well-formed
   statements they are instances of C13_interactivebrokers_faithful. *)
Theorem C13_interactivebrokers_deposit_row : forall acct dividend interest tax fee trading st cur day desc amt d q,
  acct <> tbd_account ->
  str_eqb cur s_total = false -> is_empty day = false -> valid_name cur = true ->
  parse_iso day = Some d -> ibs_num2 amt = Some q ->
  exists t, ib_line acct dividend interest tax fee trading st [s_deposits; s_data; cur; day; desc; amt] = MOk (st, [DTxn t]) /\
    books_b acct (mkEffect d [(cur, q)]) [mkLeg tbd_account acct cur q] None t.
Proof. intros. eapply ib_deposit_row; eassumption. Qed.
Print Assumptions C13_interactivebrokers_deposit_row.

Theorem C13_interactivebrokers_dividend_row : forall acct dividend interest tax fee trading st cur day desc amt d q,
  acct <> dividend ->
  is_prefix s_total cur = false -> valid_name cur = true -> parse_iso day = Some d -> ibs_num amt = Some q ->
  ibs_security desc <> [] ->
  exists t, ib_line acct dividend interest tax fee trading st [s_dividends; s_data; cur; day; desc; amt] = MOk (st, [DTxn t]) /\
    books_b acct (mkEffect d [(cur, q)]) [mkLeg dividend acct cur q] (Some [ibs_security desc]) t /\
    t_desc t = build_desc desc.
Proof. intros. eapply ib_dividend_row; eassumption. Qed.
Print Assumptions C13_interactivebrokers_dividend_row.

Theorem C13_interactivebrokers_interest_row : forall acct dividend interest tax fee trading st cur day desc amt d q,
  acct <> interest ->
  is_prefix s_total cur = false -> valid_name cur = true -> parse_iso day = Some d -> ibs_num amt = Some q ->
  exists t, ib_line acct dividend interest tax fee trading st [s_interest; s_data; cur; day; desc; amt] = MOk (st, [DTxn t]) /\
    books_b acct (mkEffect d [(cur, q)]) [mkLeg interest acct cur q] (Some [cur]) t /\
    t_desc t = build_desc desc.
Proof. intros. eapply ib_interest_row; eassumption. Qed.
Print Assumptions C13_interactivebrokers_interest_row.

Theorem C13_interactivebrokers_withholding_row : forall acct dividend interest tax fee trading st cur day desc amt code d q,
  acct <> tax ->
  is_prefix s_total cur = false -> valid_name cur = true -> parse_iso day = Some d -> ibs_num amt = Some q ->
  ibs_security desc <> [] ->
  exists t, ib_line acct dividend interest tax fee trading st [s_withholding; s_data; cur; day; desc; amt; code] = MOk (st, [DTxn t]) /\
    books_b acct (mkEffect d [(cur, q)]) [mkLeg tax acct cur q] (Some [ibs_security desc]) t /\
    t_desc t = build_desc desc.
Proof. intros. eapply ib_withholding_row; eassumption. Qed.
Print Assumptions C13_interactivebrokers_withholding_row.

(* the holding changes by the quantity ROUNDED to two places (ibs_num2), the cash by the ROUNDED
   proceeds plus the signed, unrounded commission *)
Theorem C13_interactivebrokers_stock_row :
  forall acct dividend interest tax fee trading st cur sym stamp qs ps x9 prs fs x12 x13 x14 x15 x16 d qty price proceeds feeq,
  acct <> fee -> acct <> trading ->
  valid_name cur = true -> valid_name sym = true ->
  Nat.leb 10 (length stamp) = true -> parse_iso (firstn 10 stamp) = Some d ->
  ibs_num2 qs = Some qty -> ibs_num ps = Some price -> ibs_num2 prs = Some proceeds -> new_from_string fs = Some feeq ->
  exists t, ib_line acct dividend interest tax fee trading st
              [s_trades; s_data; s_order; s_stocks; cur; sym; stamp; qs; ps; x9; prs; fs; x12; x13; x14; x15; x16] = MOk (st, [DTxn t]) /\
    books_b acct (mkEffect d [(sym, qty); (cur, proceeds); (cur, feeq)])
            [mkLeg trading acct sym qty; mkLeg trading acct cur proceeds; mkLeg fee acct cur feeq] (Some [sym; cur]) t.
Proof. intros. eapply ib_stock_row; eassumption. Qed.
Print Assumptions C13_interactivebrokers_stock_row.

Theorem C13_interactivebrokers_loop : forall acct dividend interest tax fee trading st r rest st' ds,
  ib_line acct dividend interest tax fee trading st r = MOk (st', ds) ->
  ib_rows acct dividend interest tax fee trading st (CRec r :: rest) =
  mbind (ib_rows acct dividend interest tax fee trading st' rest) (fun ds' => MOk (ds ++ ds')).
Proof.
  intros acct dividend interest tax fee trading st r rest st' ds.
  intros H. cbn [ib_rows]. rewrite H. reflexivity.
Qed.
Print Assumptions C13_interactivebrokers_loop.

(* rounding loses what the row says: 0.1615 shares are booked as 0.16 *)
Example C13_interactivebrokers_rounding_witness :
  ibs_num [48;46;49;54;49;53]%Z = Some (mkDec 1615 (-4)) /\ ibs_num2 [48;46;49;54;49;53]%Z = Some (mkDec 16 (-2)).
Proof. vm_compute. split; reflexivity. Qed.

(* As C13_interactivebrokers_stdout for the other importers of the group: Spec/ImpStmtB.v defines, from
   the row readings of Spec/ImpSpecB.v (X_wf_row, X_fact, X_legs, X_text), the realisation of bookings as
   posting pairs and the shared printer -- not from the importer model -- the journal text
   X_statement_output the property prescribes for the records of a well-formed statement (None for any
   other list of records).  The command prints exactly that text.  ./check C13 evaluates the extracted
   X_statement_output on the records of every generated well-formed statement and compares it with
   the standard output of the binary (drv_c13b.ml, verdict `spec`). *)

(* the relation of the _faithful theorems pins the transaction down: a transaction that books a row
   (books_b: date, bookings, annotation) under the row's text IS the one the executable form
   prescribes -- so the transactions of C13_<importer>_faithful / _end_to_end are those of
   <importer>_statement_output *)
Theorem C13b_books_determines : forall acct f ls tg text t,
  books_b acct f ls tg t -> t_desc t = build_desc text -> DTxn t = booking_directive f text ls tg.
Proof. exact books_b_determines. Qed.
Print Assumptions C13b_books_determines.

(* revolut2: the header record, then well-formed rows (r2_statement_wf); one transaction per
   booking row in file order, then the assertions of the closing balances (r2s_closings: per day
   and currency with a booking row the Balance of the last such row) ordered by day, then by the
   name of the currency (r2s_balances) *)
Theorem C13_revolut2_stdout : forall aflag fflag acct feeacct recs,
  account_flag aflag = AAcc acct -> account_flag fflag = AAcc feeacct ->
  r2_statement_wf recs = true ->
  exists out, r2_statement_output acct feeacct recs = Some out /\
    run_revolut2 aflag fflag (map CRec recs) = mkRun out SOk.
Proof.
  intros aflag fflag acct feeacct recs.
  intros Fa Ff Hwf. unfold r2_statement_output. rewrite Hwf. eexists. split; [reflexivity|].
  destruct recs as [|h rows]; [discriminate Hwf|]. cbn [r2_statement_wf] in Hwf. apply andb_prop in Hwf.
  destruct Hwf as [Hh Hrows]. apply rec_eqb_eq in Hh. subst h. apply run_revolut2_ok; assumption.
Qed.
Print Assumptions C13_revolut2_stdout.

(* the header and the row of C13_revolut2_row_wf: one transaction with a fee booking, one assertion *)
Example C13_revolut2_statement_wf :
  let row := [[67]; [67]; []; [50;48;50;48;45;48;55;45;48;49;32;49;48;58;48;48;58;48;48]; [97];
              [45;49;54;46;57;53]; [49;46;48;48]; [67;72;70]; [67]; [55;55;57;46;54;53]]%Z in
  r2_statement_wf [r2s_header; row] = true /\
  length (r2s_directives [s_Assets; [82]%Z] [s_Expenses; [70]%Z] [row]) = 2%nat.
Proof. vm_compute. split; reflexivity. Qed.

(* revolut: a header of nine fields whose third field is "Paid Out (CUR)" (rvs_currency), then
   well-formed rows; the transaction of each row, preceded by the assertion of the row's Balance
   where the date changes (rvs_weave, from 1 January of year 1) *)
Theorem C13_revolut_stdout : forall aflag acct recs,
  account_flag aflag = AAcc acct -> rv_statement_wf recs = true ->
  exists out, rv_statement_output acct recs = Some out /\ run_revolut aflag (map CRec recs) = mkRun out SOk.
Proof.
  intros aflag acct recs.
  intros Fa Hwf. unfold rv_statement_output. rewrite Hwf.
  destruct recs as [|h rows]; [discriminate Hwf|]. cbn [rv_statement_wf] in Hwf.
  apply andb_prop in Hwf. destruct Hwf as [Hwf Hrows]. apply andb_prop in Hwf. destruct Hwf as [Hl Hc].
  destruct (rvs_currency h) as [cur|] eqn:Hcur; [|discriminate Hc]. eexists. split; [reflexivity|].
  destruct (rvs_currency_spec h cur Hcur) as (Hh & Ha & Hne). apply run_revolut_ok; assumption.
Qed.
Print Assumptions C13_revolut_stdout.

(* a header and the row of C13_revolut_row_wf: one assertion, one transaction with two bookings *)
Example C13_revolut_statement_wf :
  let header := [[67]; [82]; [80;97;105;100;32;79;117;116;32;40;69;85;82;41]; [80]; [69]; [69]; [66]; [69]; [67]]%Z in
  let row := [[50;54;32;78;111;118;32;50;48;50;48]; [83;111;108;100;32;69;85;82;32;116;111;32;67;72;70];
              [49;56;52;46;57;56]; []; [67;72;70;32;32;49;57;57;46;57;53]; []; [49;48;48;46;48;48]; [70;88]; [71]]%Z in
  rv_statement_wf [header; row] = true /\ rvs_currency header = Some [69;85;82]%Z /\
  length (rvs_weave [s_Assets; [82]%Z] [69;85;82]%Z rvs_zero_day [row]) = 2%nat.
Proof. vm_compute. repeat split. Qed.

(* com.wise: the header record, then well-formed rows; one transaction per entry of each row
   (ws_entries; repaired = true is the code since 0ec20cd) *)
Theorem C13_wise_stdout : forall repaired aflag fflag tflag acct feeacct trading recs,
  account_flag aflag = AAcc acct -> account_flag fflag = AAcc feeacct -> account_flag tflag = AAcc trading ->
  ws_statement_wf recs = true ->
  exists out, ws_statement_output repaired acct feeacct trading recs = Some out /\
    run_wise repaired aflag fflag tflag (map CRec recs) = mkRun out SOk.
Proof.
  intros rep aflag fflag tflag acct feeacct trading recs.
  intros Fa Ff Ft Hwf. unfold ws_statement_output. rewrite Hwf. eexists. split; [reflexivity|].
  destruct recs as [|h rows]; [discriminate Hwf|]. cbn [ws_statement_wf] in Hwf. apply andb_prop in Hwf.
  destruct Hwf as [Hh Hrows]. apply rec_eqb_eq in Hh. subst h. apply run_wise_ok; assumption.
Qed.
Print Assumptions C13_wise_stdout.

(* the header and the converted incoming payment w_incoming: a conversion and a receipt *)
Example C13_wise_statement_wf :
  ws_statement_wf [wss_header; w_incoming] = true /\
  length (ws_directives true w_acct w_fee w_trading [w_incoming]) = 2%nat.
Proof. vm_compute. split; reflexivity. Qed.

(* ch.swissquote: a header record, then a well-formed sequence of rows (sqs_wf: exchange rows in
   complete pairs); one transaction per entry (sqs_entries) *)
Theorem C13_swissquote_stdout :
  forall aflag dflag iflag wflag fflag tflag acct dividend interest tax fee trading recs,
  account_flag aflag = AAcc acct -> account_flag dflag = AAcc dividend -> account_flag iflag = AAcc interest ->
  account_flag wflag = AAcc tax -> account_flag fflag = AAcc fee -> account_flag tflag = AAcc trading ->
  sqs_statement_wf recs = true ->
  exists out, sqs_statement_output acct dividend interest tax fee trading recs = Some out /\
    run_swissquote aflag dflag iflag wflag fflag tflag (map CRec recs) = mkRun out SOk.
Proof.
  intros aflag dflag iflag wflag fflag tflag acct dividend interest tax fee trading recs.
  intros Fa Fd Fi Fw Ff Ft Hwf. unfold sqs_statement_output. rewrite Hwf. eexists. split; [reflexivity|].
  destruct recs as [|h rows]; [discriminate Hwf|]. apply run_swissquote_ok; assumption.
Qed.
Print Assumptions C13_swissquote_stdout.

(* a header and the statement of C13_swissquote_statement_wf: a transfer and ONE exchange transaction *)
Example C13_swissquote_statement_output_wf :
  let a := [s_Assets; [83]%Z] in let x := [s_Expenses; [88]%Z] in
  let rows := [w_sq_row [69;105;110;122;97;104;108;117;110;103]%Z [49;48;48]%Z;
               w_sq_row [70;111;114;101;120;45;71;117;116;115;99;104;114;105;102;116]%Z [56;51;48]%Z;
               w_sq_row [70;111;114;101;120;45;66;101;108;97;115;116;117;110;103]%Z [45;57;49;56]%Z] in
  sqs_statement_wf ([] :: rows) = true /\ length (sqs_directives a x x x x x rows) = 2%nat.
Proof. vm_compute. split; reflexivity. Qed.
