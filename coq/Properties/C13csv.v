(* C13  Importers: the step from the statement's BYTES to the records the importer models start from.
   Theorem statements; the proof under a statement is [exact <lemma>], a few lines
   from the lemmas of Proofs/, or a witness by evaluation.

   Model: Model/Csv.v (Go's encoding/csv.Reader: csv_read_all cfg bytes, with the settings Comma, Comment,
   FieldsPerRecord, LazyQuotes, TrimLeadingSpace; the canonical writer csv_write: every field quoted, quotes doubled),
   Model/CsvImp.v (the settings of the importers, csv_items = the reader items the importer models Model/Imp/*.v take).
   Proofs: Proofs/CsvProofs.v, Proofs/CsvRoundtrip.v, Proofs/CsvLazy.v (LazyQuotes), Proofs/CsvLatin1Proofs.v (the
   ISO 8859-1 decoder of ch.supercard).  Tie: op C13.csv (harness/c13csv.go, drv_c13csv.ml) and the verdict
   csv-records of the importer cases (drv_c13a.ml, drv_c13b.ml).

   Side conditions of the round trip, all necessary (the Examples below show what happens without them):
   * the delimiters are valid (delims_ok: what readRecord checks first; ASCII in the model);
   * no record without fields: it is written as an empty line, and empty lines are skipped.  A record consisting of
     ONE EMPTY field is fine: the canonical writer writes it as two quotes;
   * no field contains a carriage return directly before a newline: readLine turns that pair into a newline, also inside
     a quoted field.  A carriage return anywhere else - alone, at the end of a field, before the closing quote - is kept;
   * the field counts are what FieldsPerRecord demands: negative - anything; positive - that many; zero - all as
     many as the first. *)
From Coq Require Import ZArith List Bool Lia.
From Knut Require Import Model.Bytes Model.Csv Model.ImpCommonA Model.CsvImp Proofs.CsvProofs Proofs.CsvRoundtrip.
From Knut Require Import Model.CsvLatin1 Proofs.CsvLatin1Proofs Spec.CsvSettings Proofs.CsvLazy.
Import ListNotations.
Open Scope Z_scope.

(* Reading the text the canonical writer produces returns exactly the records, whatever bytes the fields contain
   (commas, quotes, newlines, lone carriage returns, leading blanks, non-ASCII, invalid UTF-8), under every setting of
   LazyQuotes, TrimLeadingSpace and Comment. *)
Theorem C13_csv_roundtrip : forall (cfg : csv_cfg) (rs : list (list str)),
  delims_ok cfg = true ->
  Forall (fun r => r <> []) rs ->
  Forall (Forall (fun f => no_crlf f = true)) rs ->
  (cc_fpr cfg < 0 \/
   (0 < cc_fpr cfg /\ Forall (fun r => Z.of_nat (length r) = cc_fpr cfg) rs) \/
   (cc_fpr cfg = 0 /\ exists n, Forall (fun r => length r = n) rs)) ->
  csv_read_all cfg (csv_write (cc_comma cfg) rs) = CsvRecords rs.
Proof. exact csv_roundtrip. Qed.
Print Assumptions C13_csv_roundtrip.

(* On every byte string and under every setting the reader returns records, or the records before the first error and
   one of the four named errors: the fuel of the model is never exhausted. *)
Theorem C13_csv_total : forall (cfg : csv_cfg) (input : str),
  (exists rs, csv_read_all cfg input = CsvRecords rs) \/
  (exists before e, csv_read_all cfg input = CsvError before e).
Proof.
  intros cfg input. rewrite <- csv_read_all_set_nil. apply csv_read_all_set_total.
Qed.
Print Assumptions C13_csv_total.

(* Every record the reader returns (also those returned before an error) has at least one field and the number of
   fields FieldsPerRecord demands. *)
Theorem C13_csv_field_count : forall (cfg : csv_cfg) (input : str) (rs : list (list str)),
  (csv_read_all cfg input = CsvRecords rs \/ exists e, csv_read_all cfg input = CsvError rs e) ->
  Forall (fun r => r <> []) rs /\
  (0 < cc_fpr cfg -> Forall (fun r => Z.of_nat (length r) = cc_fpr cfg) rs) /\
  (cc_fpr cfg = 0 -> exists n, Forall (fun r => length r = n) rs).
Proof. exact csv_read_all_field_count. Qed.
Print Assumptions C13_csv_field_count.

(* What the importer models take as input (Model/ImpCommonA.v: a list of records, then CBad if the reader failed) is
   what the reader model produces from any file: records, or records followed by exactly one CBad. *)
Theorem C13_csv_items_shape : forall (cfg : csv_cfg) (file : str),
  exists rs, csv_items cfg file = map CRec rs \/ csv_items cfg file = map CRec rs ++ [CBad].
Proof.
  intros cfg file. unfold csv_items.
  destruct (C13_csv_total cfg file) as [[rs H]|[b [e H]]]; rewrite H; cbn [items_of_result]; eauto.
Qed.
Print Assumptions C13_csv_items_shape.

(* ... and for a statement written canonically, they are its records: the importer theorems (C13_<importer>_faithful,
   _end_to_end, _stdout), which quantify over records, then speak about the bytes of the file. *)
Theorem C13_csv_items_of_written : forall (cfg : csv_cfg) (rs : list (list str)),
  delims_ok cfg = true ->
  Forall (fun r => r <> []) rs ->
  Forall (Forall (fun f => no_crlf f = true)) rs ->
  (cc_fpr cfg < 0 \/
   (0 < cc_fpr cfg /\ Forall (fun r => Z.of_nat (length r) = cc_fpr cfg) rs) \/
   (cc_fpr cfg = 0 /\ exists n, Forall (fun r => length r = n) rs)) ->
  csv_items cfg (csv_write (cc_comma cfg) rs) = map CRec rs.
Proof.
  intros cfg rs H1 H2 H3 H4. unfold csv_items. rewrite (C13_csv_roundtrip cfg rs H1 H2 H3 H4). reflexivity.
Qed.
Print Assumptions C13_csv_items_of_written.

Definition ex_cfg : csv_cfg := mk_cfg 44 0 false false.

(* a , "x,""y""<newline>z" , c   with a quoted field containing a comma, a doubled quote and a newline *)
Definition ex_text : str := [97;44; 34;120;44;34;34;121;34;34;10;122;34; 44;99;10].
Definition ex_records : list (list str) := [[[97]; [120;44;34;121;34;10;122]; [99]]].

Example C13_csv_example_read : csv_read_all ex_cfg ex_text = CsvRecords ex_records.
Proof. vm_compute. reflexivity. Qed.

Example C13_csv_example_write :
  csv_write 44 ex_records = [34;97;34;44; 34;120;44;34;34;121;34;34;10;122;34; 44;34;99;34;10].
Proof. vm_compute. reflexivity. Qed.

(* the hypotheses of the round trip are satisfiable: the example records under wise's reader settings but three fields *)
Example C13_csv_example_roundtrip :
  csv_read_all (mk_cfg 44 3 false true) (csv_write 44 ex_records) = CsvRecords ex_records.
Proof.
  apply (C13_csv_roundtrip (mk_cfg 44 3 false true) ex_records).
  - reflexivity.
  - repeat constructor; discriminate.
  - repeat constructor.
  - right. left. split; [reflexivity|]. repeat constructor.
Qed.

(* a record of one empty field survives; a record without fields does not (it is written as an empty line) *)
Example C13_csv_example_empty_field : csv_read_all ex_cfg (csv_write 44 [[[]]]) = CsvRecords [[[]]].
Proof. vm_compute. reflexivity. Qed.
Example C13_csv_example_no_fields : csv_read_all ex_cfg (csv_write 44 [[]; [[97]]]) = CsvRecords [[[97]]].
Proof. vm_compute. reflexivity. Qed.

(* carriage returns: the pair CR LF inside a quoted field comes back as LF; a lone CR and a CR at the end of a field
   are kept; CR LF after the closing quote ends the record *)
Example C13_csv_example_crlf : csv_read_all ex_cfg (csv_write 44 [[[97;13;10;98]]]) = CsvRecords [[[97;10;98]]].
Proof. vm_compute. reflexivity. Qed.
Example C13_csv_example_lone_cr : csv_read_all ex_cfg (csv_write 44 [[[97;13;98;13]]]) = CsvRecords [[[97;13;98;13]]].
Proof. vm_compute. reflexivity. Qed.
Example C13_csv_example_crlf_eol : csv_read_all ex_cfg [34;97;34;13;10;98;13] = CsvRecords [[[97]]; [[98]]].
Proof. vm_compute. reflexivity. Qed.

(* the errors: a quote in a bare field, text after a closing quote, an unterminated quoted field, a wrong field count
   (the records before it are kept); under LazyQuotes the first three are accepted (the unterminated field then runs to the end of the input) *)
Example C13_csv_example_bare_quote : csv_read_all ex_cfg [97;34;98;10] = CsvError [] ErrBareQuote.
Proof. vm_compute. reflexivity. Qed.
Example C13_csv_example_quote : csv_read_all ex_cfg [34;97;34;98;10] = CsvError [] ErrQuote.
Proof. vm_compute. reflexivity. Qed.
Example C13_csv_example_unterminated : csv_read_all ex_cfg [120;10;34;97;10] = CsvError [[[120]]] ErrQuote.
Proof. vm_compute. reflexivity. Qed.
Example C13_csv_example_field_count : csv_read_all ex_cfg [97;44;98;10;99;10] = CsvError [[[97];[98]]] ErrFieldCount.
Proof. vm_compute. reflexivity. Qed.
Example C13_csv_example_lazy :
  csv_read_all (mk_cfg 44 (-1) true false) [97;34;98;10; 34;97;34;98;10; 34;97;10]
  = CsvRecords [[[97;34;98]]; [[97;34;98;10;34;97;10]]].
Proof. vm_compute. reflexivity. Qed.

(* TrimLeadingSpace: blanks, a no-break space (C2 A0) and an ideographic space (E3 80 80) before a field go, blanks
   inside quotes stay; a line of blanks is a record of one empty field, not an empty line *)
Example C13_csv_example_trim :
  csv_read_all (mk_cfg 44 (-1) false true) [32;97;44;194;160;227;128;128;34;32;98;34;10; 32;9;10]
  = CsvRecords [[[97]; [32;98]]; [[]]].
Proof. vm_compute. reflexivity. Qed.

(* charmap.ISO8859_1's decoder, byte b -> code point b -> UTF-8.  It is total on byte strings (the result is a byte string
   of one or two bytes per byte); every byte decodes to the UTF-8 encoding of the code point with its number ... *)
Theorem C13_latin1_decode_total : forall s, Forall (fun b => 0 <= b < 256) s ->
  Forall (fun c => 0 <= c < 256) (latin1_decode s) /\
  (length s <= length (latin1_decode s) <= 2 * length s)%nat.
Proof. exact latin1_decode_bytes. Qed.
Print Assumptions C13_latin1_decode_total.

Theorem C13_latin1_byte_utf8 : forall b, 0 <= b < 256 ->
  (b < 128 /\ latin1_byte b = [b]) \/
  (128 <= b /\ exists c1 c2, latin1_byte b = [c1; c2] /\ 194 <= c1 <= 195 /\ 128 <= c2 < 192 /\
                            (c1 - 192) * 64 + (c2 - 128) = b).
Proof. exact latin1_byte_spec. Qed.
Print Assumptions C13_latin1_byte_utf8.

(* ... ASCII text is unchanged, and no two statements decode to the same text *)
Theorem C13_latin1_decode_ascii : forall s, Forall (fun b => b < 128) s -> latin1_decode s = s.
Proof.
  induction s as [|b t IH]; intro H; [reflexivity|].
  inversion H as [|x l Hb Ht]; subst.
  cbn [latin1_decode]. unfold latin1_byte.
  destruct (Z.ltb_spec b 128) as [_|Hge]; [|lia].
  cbn [app]. rewrite (IH Ht). reflexivity.
Qed.
Print Assumptions C13_latin1_decode_ascii.

Theorem C13_latin1_decode_injective : forall s t,
  Forall (fun b => 0 <= b < 256) s -> Forall (fun b => 0 <= b < 256) t ->
  latin1_decode s = latin1_decode t -> s = t.
Proof. exact latin1_decode_inj. Qed.
Print Assumptions C13_latin1_decode_injective.

(* the reader whose FieldsPerRecord is assigned between the calls of Read: never out of fuel; without assignments it is
   csv_read_all; supercard's items are records, possibly followed by CBad *)
Theorem C13_csv_set_total : forall (cfg : csv_cfg) (sets : list Z) (input : str),
  (exists rs, csv_read_all_set cfg sets input = CsvRecords rs) \/
  (exists before e, csv_read_all_set cfg sets input = CsvError before e).
Proof. exact csv_read_all_set_total. Qed.
Print Assumptions C13_csv_set_total.

Theorem C13_csv_set_nil : forall (cfg : csv_cfg) (input : str), csv_read_all_set cfg [] input = csv_read_all cfg input.
Proof. exact csv_read_all_set_nil. Qed.
Print Assumptions C13_csv_set_nil.

Theorem C13_csv_items_supercard_shape : forall file : str,
  exists rs, csv_items_supercard file = map CRec rs \/ csv_items_supercard file = map CRec rs ++ [CBad].
Proof.
  intro file. unfold csv_items_supercard.
  destruct (csv_read_all_set_total cfg_supercard sets_supercard (latin1_decode file)) as [[rs H]|[b [e H]]];
    rewrite H; cbn [items_of_result]; eauto.
Qed.
Print Assumptions C13_csv_items_supercard_shape.

(* "Zürich" + NBSP in ISO 8859-1 *)
Example C13_latin1_example : latin1_decode [90;252;114;105;99;104;160] = [90;195;188;114;105;99;104;194;160].
Proof. vm_compute. reflexivity. Qed.

(* "sep=;" has two fields, the header (here a;b;...;m) thirteen, then any count goes; a first line with one field, or
   a header with twelve, stops the reader *)
Definition ex_sup_header : str := [97;59;98;59;99;59;100;59;101;59;102;59;103;59;104;59;105;59;106;59;107;59;108;59;109;10].
Example C13_supercard_example_items :
  csv_items_supercard ([115;101;112;61;59;10] ++ ex_sup_header ++ [120;59;252;10; 160;121;10])
  = [CRec [[115;101;112;61]; []]; CRec [[97];[98];[99];[100];[101];[102];[103];[104];[105];[106];[107];[108];[109]];
     CRec [[120]; [195;188]]; CRec [[121]]].
Proof. vm_compute. reflexivity. Qed.
Example C13_supercard_example_first_line : csv_items_supercard ([115;101;112;61;10] ++ ex_sup_header) = [CBad].
Proof. vm_compute. reflexivity. Qed.
Example C13_supercard_example_header :
  csv_items_supercard [115;101;112;61;59;10; 97;59;98;10] = [CRec [[115;101;112;61]; []]; CBad].
Proof. vm_compute. reflexivity. Qed.

(* Whatever a reader accepts - every record read, io.EOF reached - the same reader with LazyQuotes = true reads in the
   same way.  For the importers with a strict reader (swisscard2, swisscard, revolut2, revolut, wise; supercard below)
   switching LazyQuotes on therefore changes nothing on any statement the importer gets records from: the setting shows
   only on statements the strict reader rejects (the damaged kind `quote` of harness/c13a.go, c13b.go). *)
Theorem C13_csv_lazy_conservative : forall (cfg : csv_cfg) (input : str) (rs : list (list str)),
  csv_read_all cfg input = CsvRecords rs -> csv_read_all (set_lazy cfg) input = CsvRecords rs.
Proof.
  intros cfg input rs. rewrite <- !csv_read_all_set_nil. apply csv_read_all_set_lazy.
Qed.
Print Assumptions C13_csv_lazy_conservative.

Theorem C13_csv_set_lazy_conservative : forall (cfg : csv_cfg) (sets : list Z) (input : str) (rs : list (list str)),
  csv_read_all_set cfg sets input = CsvRecords rs -> csv_read_all_set (set_lazy cfg) sets input = CsvRecords rs.
Proof. exact csv_read_all_set_lazy. Qed.
Print Assumptions C13_csv_set_lazy_conservative.

(* revolut2.go with `p.reader.LazyQuotes = true` added is set_lazy cfg_revolut2; the hypothesis is satisfiable (a
   statement line with a padded, quoted description); the converse fails: a bare quote is rejected by the strict reader
   and read by the lazy one *)
Example C13_csv_lazy_revolut2 : set_lazy cfg_revolut2 = mk_cfg 44 10 true true.
Proof. reflexivity. Qed.
Definition ex_r2_line : str :=
  [97;44;98;44;99;44;100;44;32;34;120;44;32;34;34;121;34;34;34;44;49;44;48;44;67;44;79;75;44;50;13;10].
Example C13_csv_lazy_example_accepted :
  csv_read_all cfg_revolut2 ex_r2_line = CsvRecords [[[97];[98];[99];[100];[120;44;32;34;121;34];[49];[48];[67];[79;75];[50]]] /\
  csv_read_all (set_lazy cfg_revolut2) ex_r2_line = csv_read_all cfg_revolut2 ex_r2_line.
Proof. vm_compute. split; reflexivity. Qed.
Example C13_csv_lazy_example_rejected :
  csv_read_all (mk_cfg 44 2 false true) [97;34;98;44;99;10] = CsvError [] ErrBareQuote /\
  csv_read_all (set_lazy (mk_cfg 44 2 false true)) [97;34;98;44;99;10] = CsvRecords [[[97;34;98];[99]]].
Proof. vm_compute. split; reflexivity. Qed.
