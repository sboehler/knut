(* C14  Commands fail cleanly on every input.

   "For every input - arbitrary bytes, any include graph including missing files and files
   that include each other, and any flag values - each journal-processing command terminates,
   and does so either successfully or with a non-zero exit status and a diagnostic on standard
   error; it never panics, hangs, or exhausts memory.  An error in any included file fails the
   whole command, and a failing report command leaves standard output empty."

   What is proved here is about the model: the include loader, pinned and repaired; exactly
   which inputs reach a Panic in the pinned model ([guards] is sufficient, each conjunct is
   necessary, and for every panicking function an iff); the repaired variants never panic, on
   any input, and agree with the pinned ones wherever those did not panic; errors carry no
   output.  What only the Go runtime can exhibit - nil dereference, slice
   bounds, allocation, goroutine leaks, the parser on arbitrary bytes - is sampled on the real
   binary by checks/c14.py (level: proof, partial).

   The full-strength statement "forall cmd cfg fs, run cmd cfg fs <> Panic" is FALSE of the
   faithful pinned model: C14_pinned_panics_refuted_* below are the witnesses (findings F5, F8,
   F9, F19); C14_cycle_diverges_pinned is the loader's (F12).  It is TRUE of the repaired model:
   C14_no_panic_repaired, C14_no_panic_repaired_more, C14_load_terminates.

   The commands: check, balance, print; then transcode, portfolio weights, portfolio returns
   (the same three guards, the same shape of statements); then format and infer (the syntax-level
   commands end in one of their proper results, never in CmdPanic / CmdOutOfFuel / InferBad -
   C07_fuel, C08_cmd_total and C15_total at the command level).  "Any flag values": every value
   parser is total, the argument list and cobra's validation, and regexp.Compile on every string
   (Model/RxSyntax.v).

   Theorem statements; the proof under a statement is [exact <lemma>], a few lines from the lemmas
   of Proofs/, or a witness by evaluation. *)
From Coq Require Import ZArith QArith List Bool.
From Knut Require Import Model.Str Model.Dec Model.Date Model.Account Model.Ledger Model.Journal
     Model.Pipeline Model.Table Model.Cli Model.Loader Model.CliSafe Spec.FailSpec Proofs.LoaderProofs Proofs.NoPanic.
From Knut Require Import Model.CliTranscode Model.Weights Model.CliPortfolio Model.CliSafeMore Spec.FailSpecMore
     Proofs.NoPanicMore.
Import ListNotations.
Open Scope Z_scope.

(* the repaired loader terminates on every finite file system, cyclic or not *)
Theorem C14_load_terminates : forall fs root, LoaderM.load (fuel_for fs) fs root <> LOutOfFuel.
Proof. exact load_terminates. Qed.
Print Assumptions C14_load_terminates.

(* the pinned loader on a file that includes itself: no amount of fuel suffices *)
Theorem C14_cycle_diverges_pinned : forall fuel, load_pinned fuel fs_selfinclude [[97]] = LOutOfFuel.
Proof. intros fuel. exact (pinned_diverges fs_selfinclude _ selfinclude_closed fuel [[97]] eq_refl). Qed.
Print Assumptions C14_cycle_diverges_pinned.

(* two files that include each other (through a subdirectory and "..") *)
Theorem C14_mutual_cycle_diverges_pinned : forall fuel, load_pinned fuel fs_mutual [[97]] = LOutOfFuel.
Proof. intros fuel. exact (pinned_diverges fs_mutual _ mutual_closed fuel [[97]] (or_introl eq_refl)). Qed.
Print Assumptions C14_mutual_cycle_diverges_pinned.

(* in general: from any file of a set of parseable files each of which includes a file of the
   set, the pinned loader never ends, the repaired loader ends with an error *)
Theorem C14_cycle_diverges_pinned_general :
  forall fs S, closed fs S -> forall fuel p, S p -> load_pinned fuel fs p = LOutOfFuel.
Proof. exact pinned_diverges. Qed.
Print Assumptions C14_cycle_diverges_pinned_general.

Theorem C14_cycle_is_error :
  forall fs S root, closed fs S -> S root -> exists e, LoaderM.load (fuel_for fs) fs root = LErr e.
Proof. exact cycle_is_error. Qed.
Print Assumptions C14_cycle_is_error.

(* a diamond is not a cycle: the shared file is loaded once per including file *)
Theorem C14_diamond_is_not_a_cycle :
  forall d, LoaderM.load (fuel_for (fs_diamond d)) (fs_diamond d) [[97]] = LOk [d; d].
Proof. reflexivity. Qed.
Print Assumptions C14_diamond_is_not_a_cycle.

(* a missing, unreadable or unparseable file anywhere in the include graph fails the load,
   whatever the fuel *)
Theorem C14_included_error_fails_all :
  forall fs root p, reach fs root p -> (lookup fs p = None \/ lookup fs p = Some FBad) ->
  forall f ds, LoaderM.load f fs root <> LOk ds.
Proof. exact included_error_fails_all. Qed.
Print Assumptions C14_included_error_fails_all.

Theorem C14_missing_file_fails :
  forall fs root f, lookup fs root = None -> LoaderM.load (S f) fs root = LErr (EMissing root).
Proof. intros fs root f H. unfold LoaderM.load. cbn [load_file mem_path existsb]. rewrite H. reflexivity. Qed.
Print Assumptions C14_missing_file_fails.

(* nothing is dropped: every directive of every reachable file is handed to the command *)
Theorem C14_included_directive_loaded :
  forall fs root p items d, reach fs root p -> lookup fs p = Some (FOk items) -> In (IDir d) items ->
  forall f ds, LoaderM.load f fs root = LOk ds -> In d ds.
Proof. exact included_directive_loaded. Qed.
Print Assumptions C14_included_directive_loaded.

(* ... so a directive that lib/model rejects, in any reachable file, fails every command *)
Theorem C14_invalid_directive_fails_all :
  forall fs root p items d,
  reach fs root p -> lookup fs p = Some (FOk items) -> In (IDir d) items ->
  (forall o, parse_directive d <> MOk o) ->
  (forall l u, run_fs fs root (check_cmd_safe l) <> COk u) /\
  (forall l s, run_fs fs root (print_cmd_safe l) <> COk s) /\
  (forall cfg t, run_fs fs root (balance_table_safe cfg) <> COk t).
Proof.
  intros fs root p items d Hr Hlk Hin Hbad.
  pose proof (fun A k Hk => @invalid_directive_fails A k fs root p items d Hk Hr Hlk Hin Hbad) as Hfail.
  split; [|split]; intros; apply Hfail;
    [apply check_cmd_safe_needs_journal|apply print_cmd_safe_needs_journal|apply balance_table_safe_needs_journal].
Qed.
Print Assumptions C14_invalid_directive_fails_all.

(* [guards] (Spec/FailSpec.v): mapping levels and suffixes are non-negative; every accrual
   that spreads an income/expense posting has a window that does not start on day 0 and
   (unless "once") does not end before it starts; the reporting window - the later of --from
   and the first transaction - does not start on day 0. *)
Theorem C14_no_panic_balance :
  forall cfg ds, guards cfg ds = true -> forall m, balance_table cfg ds <> CPanic m.
Proof. exact balance_table_np. Qed.
Print Assumptions C14_no_panic_balance.

Theorem C14_no_panic_check :
  forall lenient ds, accruals_ok ds = true -> forall m, check_cmd lenient ds <> CPanic m.
Proof. exact check_cmd_np. Qed.
Print Assumptions C14_no_panic_check.

Theorem C14_no_panic_print :
  forall lenient ds, accruals_ok ds = true -> forall m, print_cmd lenient ds <> CPanic m.
Proof. exact print_cmd_np. Qed.
Print Assumptions C14_no_panic_print.

(* function by function, exactly when the pinned code panics *)
Theorem C14_expand_panics_iff :
  forall t ac p, (exists m, expand_posting t ac p = MPanic m) <->
                 (is_IE (p_acc p) = true /\ accrual_window_ok ac = false).
Proof. exact expand_posting_panics_iff. Qed.
Print Assumptions C14_expand_panics_iff.

Theorem C14_shorten_panics_iff :
  forall m a, shorten m a = ShPanic <->
  exists level suffix, mapping_level m (acc_name a) = Some (level, suffix) /\
    level <> 0 /\ suffix < acc_level a /\ level <= acc_level a - suffix /\ (level < 0 \/ suffix < 0).
Proof. exact shorten_panics_iff. Qed.
Print Assumptions C14_shorten_panics_iff.

Theorem C14_partition_panics_iff :
  forall cfg b, (exists m, cfg_partition cfg b = CPanic m) <-> Z.max (bc_from cfg) (b_min b) = 0.
Proof. exact cfg_partition_panics_iff. Qed.
Print Assumptions C14_partition_panics_iff.

Theorem C14_check_panics_iff :
  forall lenient ds, (exists m, check_cmd lenient ds = CPanic m) <-> (exists m, parse_directives ds = MPanic m).
Proof. exact check_cmd_panics_iff. Qed.
Print Assumptions C14_check_panics_iff.

(* each conjunct of [guards] is necessary: without it there is an input, satisfying the other
   conjuncts, on which the pinned model panics.  These are the refutations of the
   unconditional "no Panic is reachable" for the pinned code. *)
Theorem C14_pinned_panics_refuted_mapping :      (* F5: -m -1,Assets *)
  exists cfg ds, mapping_nonneg (bc_mapping cfg) = false /\ accruals_ok ds = true /\ window_start_ok cfg ds = true /\
                 balance_table cfg ds = CPanic k_shorten.
Proof. exists (w_cfg w_neg_level), (w_journal w_day None). exact witness_neg_level. Qed.
Print Assumptions C14_pinned_panics_refuted_mapping.

Theorem C14_pinned_panics_refuted_suffix :       (* F5: -m 1:-2,Assets *)
  exists cfg ds, mapping_nonneg (bc_mapping cfg) = false /\ balance_table cfg ds = CPanic k_shorten.
Proof. exists (w_cfg w_neg_suffix), (w_journal w_day None). repeat split; vm_compute; reflexivity. Qed.
Print Assumptions C14_pinned_panics_refuted_suffix.

Theorem C14_pinned_panics_refuted_accrual :      (* F8: @accrue monthly 2020-06-01 2020-01-01 *)
  exists ds, accruals_ok ds = false /\ mapping_nonneg [] = true /\
             check_cmd true ds = CPanic e_divzero /\ balance_table (w_cfg []) ds = CPanic e_divzero.
Proof. exists (w_journal w_day (Some w_inverted)). exact witness_inverted_accrual. Qed.
Print Assumptions C14_pinned_panics_refuted_accrual.

Theorem C14_pinned_panics_refuted_zero_accrual : (* F19: @accrue monthly 0001-01-01 0001-03-01 *)
  exists ds, accruals_ok ds = false /\ check_cmd true ds = CPanic e_zerotime.
Proof. exists (w_journal w_day (Some w_zero_accrual)). repeat split; vm_compute; reflexivity. Qed.
Print Assumptions C14_pinned_panics_refuted_zero_accrual.

Theorem C14_pinned_panics_refuted_zero_day :     (* F19: a transaction dated 0001-01-01; check accepts the journal *)
  exists cfg ds, window_start_ok cfg ds = false /\ accruals_ok ds = true /\ check_cmd true ds = COk tt /\
                 balance_table cfg ds = CPanic k_zerotime.
Proof. exists (w_cfg []), (w_journal 0 None). exact witness_zero_day. Qed.
Print Assumptions C14_pinned_panics_refuted_zero_day.

Theorem C14_pinned_panics_refuted_year_zero :    (* F19: a transaction in year 0000 and no --from *)
  exists cfg ds, window_start_ok cfg ds = false /\ balance_table cfg ds = CPanic k_zerotime.
Proof. exists (w_cfg []), (w_journal (-200) None). repeat split; vm_compute; reflexivity. Qed.
Print Assumptions C14_pinned_panics_refuted_year_zero.

(* no Panic is reachable, for every configuration, every directive list, every file tree *)
Theorem C14_no_panic_repaired :
  forall cfg lenient ds m,
    balance_table_safe cfg ds <> CPanic m /\ check_cmd_safe lenient ds <> CPanic m /\ print_cmd_safe lenient ds <> CPanic m.
Proof.
  intros cfg lenient ds m. split; [apply balance_table_safe_np|]. split; [apply check_cmd_safe_np|apply print_cmd_safe_np].
Qed.
Print Assumptions C14_no_panic_repaired.

Theorem C14_no_panic_repaired_fs :
  forall cfg lenient fs root,
    check_fs lenient fs root <> PredPANIC /\ print_fs lenient fs root <> PredPANIC /\ balance_fs cfg fs root <> PredPANIC.
Proof.
  intros cfg lenient fs root. split; [|split]; apply predict_np, run_fs_np; intros ds;
    [apply check_cmd_safe_np|apply print_cmd_safe_np|apply balance_table_safe_np].
Qed.
Print Assumptions C14_no_panic_repaired_fs.

(* the repair changes nothing on the inputs on which the pinned code did not panic *)
Theorem C14_repaired_agrees :
  forall cfg ds, guards cfg ds = true -> balance_table_safe cfg ds = balance_table cfg ds.
Proof. exact balance_table_safe_agrees. Qed.
Print Assumptions C14_repaired_agrees.

Theorem C14_shorten_safe_agrees :
  forall m a, mapping_nonneg m = true -> shorten m a = shorten_result_of (shorten_safe m a).
Proof. exact shorten_safe_agrees. Qed.
Print Assumptions C14_shorten_safe_agrees.

(* ... and on the witnesses above the repaired commands return errors *)
Theorem C14_repaired_errors_on_witnesses :
  (exists k d, balance_table_safe (w_cfg w_neg_level) (w_journal w_day None) = CErr k d) /\
  (exists k d, balance_table_safe (w_cfg []) (w_journal w_day (Some w_inverted)) = CErr k d) /\
  (exists k d, check_cmd_safe true (w_journal w_day (Some w_zero_accrual)) = CErr k d) /\
  (exists k d, balance_table_safe (w_cfg []) (w_journal 0 None) = CErr k d).
Proof. repeat split; eexists; eexists; vm_compute; reflexivity. Qed.
Print Assumptions C14_repaired_errors_on_witnesses.

(* by the result type: output exists only in COk.  (check prints nothing at all without
   --write: its result type is unit.) *)
Theorem C14_error_empty_stdout :
  forall cfg tc lenient ds k d,
    (balance_csv cfg ds = CErr k d -> stdout_of (balance_csv cfg ds) = []) /\
    (balance_text cfg tc ds = CErr k d -> stdout_of (balance_text cfg tc ds) = []) /\
    (print_cmd lenient ds = CErr k d -> stdout_of (print_cmd lenient ds) = []) /\
    (balance_csv_safe cfg ds = CErr k d -> stdout_of (balance_csv_safe cfg ds) = []) /\
    (print_cmd_safe lenient ds = CErr k d -> stdout_of (print_cmd_safe lenient ds) = []).
Proof. intros cfg tc lenient ds k d. repeat split; apply error_no_output. Qed.
Print Assumptions C14_error_empty_stdout.

(* Model/CliTranscode.v and Model/CliPortfolio.v are built on the pinned Cli.load, the pinned
   Multiperiod.Partition and a Query whose mapping can hit slice bounds; so the statements have
   the shape of those for check, balance and print: no Panic under the explicit guards, an iff for every panicking function
   and command, a witness per guard, and the repaired commands (Model/CliSafeMore.v = the code
   after f4c5740 c04a731 78c5401 864fd70) panic-free on every input. *)

(* transcode after fix 864fd70 (a missing -v is an error): for every journal and every optional
   valuation; the only guard is the one of check and print *)
Theorem C14_no_panic_transcode :
  forall lenient v ds, accruals_ok ds = true -> forall m, transcode_cmd lenient v ds <> CPanic m.
Proof. exact transcode_cmd_np. Qed.
Print Assumptions C14_no_panic_transcode.

(* [pf_guards] (Spec/FailSpecMore.v): the three conjuncts of [guards] on a pf_cfg *)
Theorem C14_no_panic_weights :
  forall cfg ds, pf_guards cfg ds = true -> forall m, weights_csv_cmd cfg ds <> CPanic m.
Proof. exact weights_csv_cmd_np. Qed.
Print Assumptions C14_no_panic_weights.

(* returns has no -m: [returns_guards] = accruals_ok && pf_window_start_ok; both wirings *)
Theorem C14_no_panic_returns :
  forall fx cfg ds, returns_guards cfg ds = true -> forall m, returns_cmd fx cfg ds <> CPanic m.
Proof. exact returns_cmd_np. Qed.
Print Assumptions C14_no_panic_returns.

(* exactly when they panic, command by command and function by function *)
Theorem C14_transcode_panics_iff :
  forall lenient v ds,
  (exists m, transcode_cmd lenient v ds = CPanic m) <->
  ((exists c, valuation_flag v = COk (Some c)) /\ (exists m, parse_directives ds = MPanic m)).
Proof. exact transcode_cmd_panics_iff. Qed.
Print Assumptions C14_transcode_panics_iff.

Theorem C14_returns_panics_iff :
  forall fx cfg ds,
  (exists m, returns_cmd fx cfg ds = CPanic m) <->
  ((exists u, check_valuation cfg = COk u) /\
   ((exists m, parse_directives ds = MPanic m) \/ pf_window_start_ok cfg ds = false)).
Proof. exact returns_cmd_panics_iff. Qed.
Print Assumptions C14_returns_panics_iff.

Theorem C14_pf_partition_panics_iff :
  forall cfg b, (exists m, pf_partition cfg b = CPanic m) <-> Z.max (pc_from cfg) (b_min b) = 0.
Proof. exact pf_partition_panics_iff. Qed.
Print Assumptions C14_pf_partition_panics_iff.

(* weights.Query.Execute on one class path: None is the slice-bounds panic of
   append(ss[:level], ss[len(ss)-suffix:]...) *)
Theorem C14_map_path_panics_iff :
  forall m ss, map_path m ss = None <->
  exists level suffix, mapping_level m (join [colon] ss) = Some (level, suffix) /\
    level < Z.of_nat (length ss) - suffix /\ (level < 0 \/ suffix < 0).
Proof. exact map_path_panics_iff. Qed.
Print Assumptions C14_map_path_panics_iff.

Theorem C14_query_panics_iff :
  forall u m ends l, query_entries u m ends l = WPanic <->
  exists d v0 v1 c q, In (d, (v0, v1)) l /\ existsb (Z.eqb d) ends = true /\ In (c, q) v1 /\
                      map_path m (locate u c) = None.
Proof. exact query_entries_panics_iff. Qed.
Print Assumptions C14_query_panics_iff.

(* each guard is necessary, for these commands too *)
Theorem C14_pinned_panics_refuted_weights_mapping :   (* F5 for weights: -m -1 *)
  exists cfg ds, mapping_nonneg (pc_mapping cfg) = false /\ accruals_ok ds = true /\ pf_window_start_ok cfg ds = true /\
                 weights_csv_cmd cfg ds = CPanic k_bounds.
Proof. exists (w_pf w_neg_level_all), (w_journal w_day None). repeat split; vm_compute; reflexivity. Qed.
Print Assumptions C14_pinned_panics_refuted_weights_mapping.

Theorem C14_pinned_panics_refuted_weights_suffix :    (* -m 1:-2 *)
  exists cfg ds, mapping_nonneg (pc_mapping cfg) = false /\ weights_csv_cmd cfg ds = CPanic k_bounds.
Proof. exists (w_pf w_neg_suffix_all), (w_journal w_day None). repeat split; vm_compute; reflexivity. Qed.
Print Assumptions C14_pinned_panics_refuted_weights_suffix.

Theorem C14_pinned_panics_refuted_accrual_more :      (* F8 through weights, returns, transcode *)
  exists ds, accruals_ok ds = false /\ mapping_nonneg [] = true /\
             weights_csv_cmd (w_pf []) ds = CPanic e_divzero /\
             returns_cmd repaired (w_pf []) ds = CPanic e_divzero /\
             transcode_cmd true (Some w_chf) ds = CPanic e_divzero.
Proof. exists (w_journal w_day (Some w_inverted)). repeat split; vm_compute; reflexivity. Qed.
Print Assumptions C14_pinned_panics_refuted_accrual_more.

Theorem C14_pinned_panics_refuted_zero_day_more :     (* F19b through weights and returns *)
  exists cfg ds, pf_window_start_ok cfg ds = false /\ accruals_ok ds = true /\
                 weights_csv_cmd cfg ds = CPanic k_zerotime /\ returns_cmd repaired cfg ds = CPanic k_zerotime.
Proof. exists (w_pf []), (w_journal 0 None). repeat split; vm_compute; reflexivity. Qed.
Print Assumptions C14_pinned_panics_refuted_zero_day_more.

(* F9: before 864fd70 transcode without -v ended in a nil dereference on every journal that
   check accepts, and never succeeded *)
Theorem C14_pinned_panics_refuted_transcode_noval :
  exists ds, accruals_ok ds = true /\ check_cmd true ds = COk tt /\
             transcode_cmd_pinned true None ds = CPanic k_nil_commodity /\
             transcode_cmd true None ds = CErr k_valuation [].
Proof. exists (w_journal w_day None). repeat split; vm_compute; reflexivity. Qed.
Print Assumptions C14_pinned_panics_refuted_transcode_noval.

Theorem C14_transcode_pinned_noval_never_ok :
  forall lenient ds,
  (exists k d, transcode_cmd_pinned lenient None ds = CErr k d) \/ (exists m, transcode_cmd_pinned lenient None ds = CPanic m).
Proof. exact transcode_cmd_pinned_noval. Qed.
Print Assumptions C14_transcode_pinned_noval_never_ok.

(* the repaired commands: no Panic is reachable, for every flag value, every directive list,
   every file tree *)
Theorem C14_no_panic_repaired_more :
  forall lenient v fx cfg ds m,
    transcode_cmd_safe lenient v ds <> CPanic m /\ weights_csv_cmd_safe cfg ds <> CPanic m /\
    returns_cmd_safe fx cfg ds <> CPanic m.
Proof.
  intros lenient v fx cfg ds m. split; [apply transcode_cmd_safe_np|].
  split; [apply weights_csv_cmd_safe_np|apply returns_cmd_safe_np].
Qed.
Print Assumptions C14_no_panic_repaired_more.

Theorem C14_no_panic_repaired_more_fs :
  forall lenient v cfg fs root,
    transcode_fs lenient v fs root <> PredPANIC /\ weights_fs cfg fs root <> PredPANIC /\ returns_fs cfg fs root <> PredPANIC.
Proof.
  intros lenient v cfg fs root. split; [|split]; apply predict_np, run_fs_np; intros ds;
    [apply transcode_cmd_safe_np|apply weights_csv_cmd_safe_np|apply returns_cmd_safe_np].
Qed.
Print Assumptions C14_no_panic_repaired_more_fs.

(* ... and equal the commands above wherever those do not panic *)
Theorem C14_repaired_agrees_more :
  forall lenient v fx cfg ds,
    (accruals_ok ds = true -> transcode_cmd_safe lenient v ds = transcode_cmd lenient v ds) /\
    (pf_guards cfg ds = true -> weights_csv_cmd_safe cfg ds = weights_csv_cmd cfg ds) /\
    (returns_guards cfg ds = true -> returns_cmd_safe fx cfg ds = returns_cmd fx cfg ds).
Proof.
  intros lenient v fx cfg ds. split; [apply transcode_cmd_safe_agrees|].
  split; [apply weights_csv_cmd_safe_agrees|apply returns_cmd_safe_agrees].
Qed.
Print Assumptions C14_repaired_agrees_more.

Theorem C14_repaired_errors_on_witnesses_more :
  (exists k d, weights_csv_cmd_safe (w_pf w_neg_level_all) (w_journal w_day None) = CErr k d) /\
  (exists k d, weights_csv_cmd_safe (w_pf []) (w_journal w_day (Some w_inverted)) = CErr k d) /\
  (exists k d, returns_cmd_safe repaired (w_pf []) (w_journal w_day (Some w_inverted)) = CErr k d) /\
  (exists k d, transcode_cmd_safe true (Some w_chf) (w_journal w_day (Some w_inverted)) = CErr k d) /\
  (exists k d, weights_csv_cmd_safe (w_pf []) (w_journal 0 None) = CErr k d) /\
  (exists k d, returns_cmd_safe repaired (w_pf []) (w_journal 0 None) = CErr k d).
Proof. repeat split; eexists; eexists; vm_compute; reflexivity. Qed.
Print Assumptions C14_repaired_errors_on_witnesses_more.

(* an invalid directive in any reachable file fails these commands as well *)
Theorem C14_invalid_directive_fails_more :
  forall fs root p items d,
  reach fs root p -> lookup fs p = Some (FOk items) -> In (IDir d) items ->
  (forall o, parse_directive d <> MOk o) ->
  (forall l v s, run_fs fs root (transcode_cmd_safe l v) <> COk s) /\
  (forall cfg s, run_fs fs root (weights_csv_cmd_safe cfg) <> COk s) /\
  (forall fx cfg s, run_fs fs root (returns_cmd_safe fx cfg) <> COk s).
Proof.
  intros fs root p items d Hr Hlk Hin Hbad.
  pose proof (fun A k Hk => @invalid_directive_fails A k fs root p items d Hk Hr Hlk Hin Hbad) as Hfail.
  split; [|split]; intros; apply Hfail;
    [apply transcode_cmd_safe_needs_journal|apply weights_csv_cmd_safe_needs_journal|apply returns_cmd_safe_needs_journal].
Qed.
Print Assumptions C14_invalid_directive_fails_more.

(* a failing command prints nothing, by the result type.  The property asks this of "balance,
   print, transcode, infer, check --write".  For transcode (and weights) it is what the code does:
   both render through a bufio.Writer after the journal has been processed.  For returns - which
   the property does not list - it is a statement about the MODEL's result type only:
   performance.Perf prints a line per period end with fmt.Printf while the days are being
   processed, so in the binary a failure on a later day (assertion, missing price) leaves the
   earlier lines on stdout; the model of returns_cmd describes the output of successful runs, and
   the check does not require an empty stdout of a failing `portfolio returns`. *)
Theorem C14_error_empty_stdout_more :
  forall lenient v fx cfg ds k d,
    (transcode_cmd lenient v ds = CErr k d -> stdout_of (transcode_cmd lenient v ds) = []) /\
    (weights_csv_cmd cfg ds = CErr k d -> stdout_of (weights_csv_cmd cfg ds) = []) /\
    (returns_cmd fx cfg ds = CErr k d -> stdout_of (returns_cmd fx cfg ds) = []) /\
    (transcode_cmd_safe lenient v ds = CErr k d -> stdout_of (transcode_cmd_safe lenient v ds) = []) /\
    (weights_csv_cmd_safe cfg ds = CErr k d -> stdout_of (weights_csv_cmd_safe cfg ds) = []) /\
    (returns_cmd_safe fx cfg ds = CErr k d -> stdout_of (returns_cmd_safe fx cfg ds) = []).
Proof. intros lenient v fx cfg ds k d. repeat split; apply error_no_output. Qed.
Print Assumptions C14_error_empty_stdout_more.

(* the hypotheses of the theorems above can be met *)
Example C14_guards_satisfiable :
  guards (w_cfg []) (w_journal w_day None) = true /\ exists t, balance_table (w_cfg []) (w_journal w_day None) = COk t.
Proof. split; [vm_compute; reflexivity|eexists; vm_compute; reflexivity]. Qed.

Example C14_reach_satisfiable : reach fs_mutual [[97]] [[115]; [98]].
Proof. exact (reach_inc fs_mutual [[97]] [[97]] _ [115; 47; 98] (reach_root _ _) eq_refl (or_introl eq_refl)). Qed.

Example C14_clean_run_examples :
  clean_run_b true ClOK false false = true /\ clean_run_b true ClERR true true = true /\
  clean_run_b true ClERR false true = false /\ clean_run_b true ClERR true false = false /\
  clean_run_b false ClERR false true = true /\
  clean_run_b true ClPANIC true true = false /\ clean_run_b true ClHANG true false = false /\
  clean_run_b true ClOOM true true = false /\ clean_run_b false ClEXIT true true = false.
Proof. repeat split. Qed.

Example C14_pf_guards_satisfiable :
  pf_guards (w_pf []) (w_journal w_day None) = true /\
  (exists out, weights_csv_cmd (w_pf []) (w_journal w_day None) = COk out) /\
  (exists out, returns_cmd repaired (w_pf []) (w_journal w_day None) = COk out) /\
  (exists out, transcode_cmd true (Some w_chf) (w_journal w_day None) = COk out).
Proof. split; [vm_compute; reflexivity|]. repeat split; eexists; vm_compute; reflexivity. Qed.

(* The syntax-level commands work on bytes: Model/Parser.v parse_text (scanner and parser with
   fuel S |t| for each of their seven loops), Model/SynPrinter.v format_cmd, Model/BayesScore.v
   infer_scored.  Their result types have no error-with-output case at all; what C14 asks of them
   is that the distinguished results CmdPanic (slice bounds in Format), CmdOutOfFuel (a loop of
   the parser not ending) and InferBad (fuel, or a rendering that fails) are unreachable, for
   every byte string and every character class - and then the exit class is a function of
   "do the files parse".  (Imported here, after the ledger-level statements, because both levels
   define their own [str], [account], ...) *)
From Knut Require Import Model.Bytes Model.Utf8 Model.Scanner Model.Parser Model.SynPrinter Model.Bayes Model.BayesScore
     Proofs.InferProofs Proofs.NoPanicSyntax.

Theorem C14_format_total : forall letter digit t,
  format_cmd letter digit t <> CmdPanic /\ format_cmd letter digit t <> CmdOutOfFuel /\
  ((exists n, format_cmd letter digit t = Rewritten n) <-> (exists f, parse_text letter digit t = ParseOk f)) /\
  (format_cmd letter digit t = Untouched <-> (exists e, parse_text letter digit t = ParseErr e)).
Proof. exact format_cmd_clean. Qed.
Print Assumptions C14_format_total.

(* infer as it is (the choice is bayes.Model.Infer over any float arithmetic F) ... *)
Theorem C14_infer_total : forall F flog fadd fgt fields lower ph letter digit training target,
  infer_scored F flog fadd fgt fields lower ph letter digit training target <> InferBad /\
  ((exists out, infer_scored F flog fadd fgt fields lower ph letter digit training target = InferOut out) <->
   (exists ftr ftg, parse_text letter digit training = ParseOk ftr /\ parse_text letter digit target = ParseOk ftg)) /\
  (infer_scored F flog fadd fgt fields lower ph letter digit training target = InferErr <->
   ((exists e, parse_text letter digit training = ParseErr e) \/ (exists e, parse_text letter digit target = ParseErr e))).
Proof. exact infer_scored_clean. Qed.
Print Assumptions C14_infer_total.

(* ... and with any valid choice function *)
Theorem C14_infer_with_total : forall ph letter digit choose training target,
  valid_choose choose ->
  infer_with ph Fixed letter digit choose training target <> InferBad /\
  ((exists out, infer_with ph Fixed letter digit choose training target = InferOut out) <->
   (exists ftr ftg, parse_text letter digit training = ParseOk ftr /\ parse_text letter digit target = ParseOk ftg)) /\
  (infer_with ph Fixed letter digit choose training target = InferErr <->
   ((exists e, parse_text letter digit training = ParseErr e) \/ (exists e, parse_text letter digit target = ParseErr e))).
Proof. exact infer_with_clean. Qed.
Print Assumptions C14_infer_with_total.

(* every byte string either parses or is rejected with an error: the loading commands get a
   syntax tree or a diagnostic from every file *)
Theorem C14_parse_total : forall letter digit t,
  (exists f, parse_text letter digit t = ParseOk f) \/ (exists e, parse_text letter digit t = ParseErr e).
Proof. exact parse_text_cases. Qed.
Print Assumptions C14_parse_total.

(* a failing infer prints nothing (by the result type; infer collects its output and writes it
   after both files have been processed); format never writes to stdout *)
Theorem C14_error_empty_stdout_syntax : forall F flog fadd fgt fields lower ph letter digit training target,
  infer_scored F flog fadd fgt fields lower ph letter digit training target = InferErr ->
  stdout_of_infer (infer_scored F flog fadd fgt fields lower ph letter digit training target) = [].
Proof. intros F flog fadd fgt fields lower ph letter digit training target H. rewrite H. reflexivity. Qed.
Print Assumptions C14_error_empty_stdout_syntax.

(* "... and any flag values": the value parsers behind knut's flags (cmd/flags, pflag's int/int32/bool on
   strconv, time.Parse for dates), pflag's reading of the argument list and cobra's validation before Run
   (Model/Flags.v), and the commands behind their command lines (Model/CliFlags.v).  regexp.Compile is
   decided on every string by Model/RxSyntax.v ([rx_valid]: regexp/syntax.Parse with the flags syntax.Perl,
   at the end of this file), so every value parser is total. *)
From Knut Require Import Model.RxSyntax.   (* first: the names of the modules below take precedence *)
From Knut Require Import Model.Flags Model.CliFlags Proofs.FlagsProofs.

(* a rejected command line (a rejected flag value, an unknown flag, a missing argument, the wrong number of
   arguments, a missing required flag, two exclusive interval flags) ends the command before its Run
   function: the result is the usage error whatever the file system holds - the journal is not loaded,
   nothing is written, there is no panic and no success *)
Theorem C14_flag_error_is_clean : forall c today argv e,
  parse_cmdline c argv = CLRejected e ->
  forall fs, run_argv c today argv fs = ORejected e /\
             run_argv c today argv fs <> ORun PredPANIC /\ run_argv c today argv fs <> ORun PredOK /\
             (forall fs', run_argv c today argv fs' = run_argv c today argv fs).
Proof.
  intros c today argv e H fs. split; [exact (flag_error_is_clean c today argv e H fs)|].
  exact (flag_error_no_panic c today argv e fs H).
Qed.
Print Assumptions C14_flag_error_is_clean.

(* a value its flag's parser rejects, directly after the flag: the parse ends there with that error,
   whatever follows on the command line *)
Theorem C14_rejected_value_rejects : forall defs d v e rest,
  find_long defs (f_name d) = Some d -> f_kind d <> KBool -> ~ In 61 (f_name d) ->
  match f_name d with [] => False | c :: _ => c <> 45 /\ c <> 61 end ->
  parse_value (f_kind d) v = VErr e ->
  parse_args defs ((45 :: 45 :: f_name d) :: v :: rest) = PErr (PInvalid (f_name d) e).
Proof. exact rejected_long_value. Qed.
Print Assumptions C14_rejected_value_rejects.

(* ... and anywhere on the command line: after any accepted arguments (the terminator "--" not among
   them) and whatever follows, the command ends with that flag's usage error, in every file system *)
Theorem C14_rejected_value_ends_command : forall c today pre d v e rest s p fs,
  parse_args (cmd_flags c) pre = PArgs s p -> ~ In dashdash pre ->
  find_long (cmd_flags c) (f_name d) = Some d -> f_kind d <> KBool -> ~ In 61 (f_name d) ->
  match f_name d with [] => False | x :: _ => x <> 45 /\ x <> 61 end ->
  parse_value (f_kind d) v = VErr e ->
  run_argv c today (pre ++ (45 :: 45 :: f_name d) :: v :: rest) fs = ORejected (PInvalid (f_name d) e).
Proof. exact rejected_value_ends_command. Qed.
Print Assumptions C14_rejected_value_ends_command.

(* conversely, what reaches the command are accepted values only, each of a flag the command has, each in
   the range of its flag (64/32-bit two's complement, years 0..9999, non-negative mapping numbers) *)
Theorem C14_accepted_values_in_range : forall c argv sets pos,
  parse_cmdline c argv = CLRun sets pos ->
  Forall (fun nv => exists d, In d (cmd_flags c) /\ f_name d = fst nv /\ value_in_range (f_kind d) (snd nv) = true) sets.
Proof. exact cmdline_values_in_range. Qed.
Print Assumptions C14_accepted_values_in_range.

(* every string is either accepted with a value in range or rejected, for every flag kind: bool, int, int32,
   date, the string flags, and the two kinds that compile a regular expression (--account --commodity
   --remap -s, -m <level>[:<suffix>][,<regex>]) - the result type has no third case *)
Theorem C14_flags_total : forall k s,
  (exists v, parse_value k s = VOk v /\ value_in_range k v = true) \/ (exists e, parse_value k s = VErr e).
Proof. exact flags_total. Qed.
Print Assumptions C14_flags_total.

(* a regular-expression flag accepts exactly the strings regexp/syntax parses *)
Theorem C14_regex_flag_iff : forall s,
  (parse_value KRegex s = VOk (VRegex s) <-> rx_valid s = true) /\
  (parse_value KRegex s = VErr ERegex <-> rx_valid s = false).
Proof.
  intros s. cbn [parse_value]. destruct (rx_valid s); split; split; intros H; try reflexivity; discriminate.
Qed.
Print Assumptions C14_regex_flag_iff.

(* strconv.ParseInt(s, 0, bits) as pflag calls it: an accepted value fits the flag's integer type *)
Theorem C14_int_flag_range : forall s bits n, 1 <= bits -> parse_int s 0 bits = NOk n ->
  - 2 ^ (bits - 1) <= n < 2 ^ (bits - 1).
Proof. exact parse_int_range. Qed.
Print Assumptions C14_int_flag_range.

(* -m: accepted iff the text is <level>[:<suffix>][,<regex>] with integers (strconv.Atoi), level >= 0 and
   suffix >= 0 (fix 78c5401), and the expression, if there is one, compiles *)
Theorem C14_mapping_flag_iff : forall v l sf r,
  parse_mapping v = MapOk l sf r <->
  mapping_text v l sf r /\ 0 <= l /\ 0 <= sf /\ (forall x, r = Some x -> rx_valid x = true).
Proof. exact mapping_flag_iff. Qed.
Print Assumptions C14_mapping_flag_iff.

(* the guard [mapping_nonneg] of C14_no_panic_balance and C14_no_panic_weights holds for every command line
   cobra lets through: after 78c5401 account.Shorten cannot be reached with a negative number *)
Theorem C14_accepted_mapping_guard : forall c argv sets pos today cfg,
  parse_cmdline c argv = CLRun sets pos -> balance_cfg_of today sets = Some cfg ->
  mapping_nonneg (bc_mapping cfg) = true.
Proof. exact accepted_balance_guard. Qed.
Print Assumptions C14_accepted_mapping_guard.

(* "-1,Assets" is a well-formed text with a negative level: rejected, with that reason *)
Example C14_mapping_negative_rejected :
  parse_mapping [45;49;44;65;115;115;101;116;115] = MapErr MNegative /\
  parse_mapping [49;58;45;50;44] = MapErr MNegative /\
  parse_mapping [49;58;50;44;94;65] = MapOk 1 2 (Some [94;65]) /\
  parse_mapping [49;44;40] = MapErr MRegex /\
  parse_mapping [120;44;65] = MapErr MInt /\
  parse_mapping [49;58;50;58;51;44;65] = MapErr MShape.
Proof. vm_compute. repeat split. Qed.

(* the hypothesis of C14_flag_error_is_clean is satisfiable: knut balance -m -1,Assets j *)
Example C14_flag_error_example :
  parse_cmdline CmdBalance [[45;109]; [45;49;44;65;115;115;101;116;115]; [106]] = CLRejected (PInvalid n_map EMapNegative) /\
  parse_cmdline CmdBalance [[45;45;108;97;115;116]; [120]; [106]] = CLRejected (PInvalid n_last EIntSyntax) /\
  parse_cmdline CmdBalance [[45;45;100;105;103;105;116;115]; [50;49;52;55;52;56;51;54;52;56]; [106]] = CLRejected (PInvalid n_digits EIntRange) /\
  parse_cmdline CmdBalance [[45;45;102;114;111;109]; [50;48;50;48;45;48;50;45;51;48]; [106]] = CLRejected (PInvalid n_from EDate) /\
  parse_cmdline CmdBalance [[45;45;100;97;121;115]; [45;45;119;101;101;107;115]; [106]] = CLRejected PExclusive /\
  parse_cmdline CmdBalance [[106]; [107]] = CLRejected (PArgCount 2) /\
  parse_cmdline CmdInfer [[106]] = CLRejected (PRequired n_training) /\
  parse_cmdline CmdPrint [[45;45;120]; [106]] = CLRejected (PUnknownFlag [120]).
Proof. vm_compute. repeat split. Qed.

(* ... and so is that of C14_accepted_values_in_range: knut balance --last 3 --days -m 1,Assets -ak j *)
Example C14_flags_accepted_example :
  parse_cmdline CmdBalance [[45;45;108;97;115;116]; [51]; [45;45;100;97;121;115]; [45;109]; [49;44;65]; [45;97;107]; [106]] =
  CLRun [(n_last, VInt 3); (n_days, VBool true); (n_map, VRule 1 0 (Some [65])); (n_sort, VBool true); (n_thousands, VBool true)] [[106]].
Proof. vm_compute. reflexivity. Qed.

(* the hypotheses of C14_rejected_value_rejects hold for --last of balance *)
Example C14_rejected_value_example :
  let d := mkF n_last 0 KInt64 in
  find_long (cmd_flags CmdBalance) (f_name d) = Some d /\ f_kind d <> KBool /\ ~ In 61 (f_name d) /\
  parse_value (f_kind d) [57;57;57;57;57;57;57;57;57;57;57;57;57;57;57;57;57;57;57;57] = VErr EIntRange.
Proof.
  cbv zeta. split; [vm_compute; reflexivity|]. split; [discriminate|]. split; [|vm_compute; reflexivity].
  cbn. intros [H|[H|[H|[H|[]]]]]; discriminate.
Qed.

(* base prefixes and underscores as strconv.ParseInt(s, 0, 64) reads them *)
Example C14_int_syntax_example :
  parse_int [48;120;49;70] 0 64 = NOk 31 /\ parse_int [49;95;48;48;48] 0 64 = NOk 1000 /\
  parse_int [48;49;55] 0 64 = NOk 15 /\ parse_int [49;95;95;48] 0 64 = NErr NSyntax /\
  parse_int [45;57;50;50;51;51;55;50;48;51;54;56;53;52;55;55;53;56;48;56] 0 64 = NOk (-9223372036854775808) /\
  parse_int [57;50;50;51;51;55;50;48;51;54;56;53;52;55;55;53;56;48;56] 0 64 = NErr NRange /\
  parse_int [50;49;52;55;52;56;51;54;52;56] 0 32 = NErr NRange.
Proof. vm_compute. repeat split. Qed.

(* a whole command line in a file tree: `knut check j` and `knut print --x j` where j is an empty journal,
   `knut check missing` and `knut infer -t nothere j` *)
Example C14_run_argv_example :
  let fs : fsys := [([[106]], LoaderM.FOk [])] in
  run_argv CmdCheck 0 [[106]] fs = ORun PredOK /\
  run_argv CmdPrint 0 [[45;45;120]; [106]] fs = ORejected (PUnknownFlag [120]) /\
  run_argv CmdCheck 0 [[109]] fs = ORun PredERR /\
  run_argv CmdInfer 0 [[45;116]; [110]; [106]] fs = ORun PredERR /\
  run_argv CmdInfer 0 [[45;116]; [106]; [106]] fs = ORun PredOK /\
  run_argv CmdTranscode 0 [[106]] fs = ORun PredERR /\
  run_argv CmdBalance 0 [[45;45;104;101;108;112]; [106]] fs = OHelp.
Proof. vm_compute. repeat split. Qed.

(* regexp.Compile as knut's RegexFlag.Set and MappingFlag.Set call it: regexp/syntax.Parse(s, syntax.Perl)
   followed by Simplify and Compile, which cannot fail.  Model/RxSyntax.v follows the parser (go1.23.5) on
   every byte string, including the tree it builds and the counters behind its three limits; [rx_parse] is
   the tree or the error, [rx_valid] says whether there is a tree. *)
From Knut Require Import Proofs.RxLexProofs Proofs.RxSyntaxProofs.

(* the loops over the text and the recursion of factor are fuelled; the fuel is never used up *)
Theorem C14_rx_valid_fuel_enough : forall s, rx_parse s <> OutOfFuel.
Proof. exact rx_parse_fuel_enough. Qed.
Print Assumptions C14_rx_valid_fuel_enough.

(* every string is parsed or rejected with one of the error codes of regexp/syntax (ErrInternal stands for a
   state the Go parser cannot be in: it is not reached) *)
Theorem C14_rx_parse_total : forall s,
  (exists re, rx_parse s = Ok re) \/ (exists e, rx_parse s = Err e /\ e <> ErrInternal).
Proof. exact rx_parse_total. Qed.
Print Assumptions C14_rx_parse_total.

(* [rx_valid s = false] always stands for an error of the parser, never for exhausted fuel *)
Theorem C14_rx_valid_spec : forall s,
  (rx_valid s = true /\ exists re, rx_parse s = Ok re) \/
  (rx_valid s = false /\ exists e, rx_parse s = Err e /\ e <> ErrInternal).
Proof. exact rx_valid_spec. Qed.
Print Assumptions C14_rx_valid_spec.

(* each turn of the parse loop reads at least one byte of the expression *)
Theorem C14_rx_lex_progress : forall fuel flags b t tok rest,
  lex fuel flags b t = Ok (tok, rest) -> (length rest <= length t)%nat.
Proof. exact lex_le. Qed.
Print Assumptions C14_rx_lex_progress.

(* factor, the one recursion that is not on the text: on alternatives of total weight below the fuel it
   answers, and its answer is not heavier *)
Theorem C14_rx_factor_fuel : forall fuel l p, (weights l < fuel)%nat ->
  factor fuel l p <> OutOfFuel /\ forall l' p', factor fuel l p = Ok (l', p') -> (weights l' <= weights l)%nat.
Proof.
  intros fuel l p H. pose proof (factor_ok fuel l p H) as Hg.
  destruct (factor fuel l p) as [[l0 p0]| |]; [|split; discriminate|destruct Hg].
  split; [discriminate|]. intros l' p' E. injection E as <- _. exact Hg.
Qed.
Print Assumptions C14_rx_factor_fuel.

(* one expression per error code, and some that compile *)
Example C14_rx_examples :
  rx_valid [] = true /\
  rx_valid [94;65;115;115;101;116;115;58;40;63;105;41;91;97;45;122;93;43;36] = true /\            (* ^Assets:(?i)[a-z]+$ *)
  rx_valid [40;63;80;60;110;62;97;124;98;41;123;50;44;51;125;63;92;112;123;71;114;101;101;107;125] = true /\  (* (?P<n>a|b){2,3}?\p{Greek} *)
  rx_parse [40] = Err ErrMissingParen /\                         (* ( *)
  rx_parse [41] = Err ErrUnexpectedParen /\                      (* ) *)
  rx_parse [91;97] = Err ErrMissingBracket /\                    (* [a *)
  rx_parse [91;122;45;97;93] = Err ErrCharRange /\               (* [z-a] *)
  rx_parse [92;112;123;70;111;111;125] = Err ErrCharRange /\     (* \p{Foo} *)
  rx_parse [92;113] = Err ErrEscape /\                           (* \q *)
  rx_parse [92] = Err ErrTrailingBackslash /\
  rx_parse [42] = Err ErrMissingRepeatArg /\                     (* * *)
  rx_parse [97;42;42] = Err ErrRepeatOp /\                       (* a** *)
  rx_parse [97;123;49;48;48;49;125] = Err ErrRepeatSize /\       (* a{1001} *)
  rx_parse [40;97;123;53;48;48;125;41;123;51;125] = Err ErrRepeatSize /\   (* (a{500}){3} *)
  rx_parse [40;63;80;60;49;45;62;97;41] = Err ErrNamedCapture /\ (* (?P<1->a) *)
  rx_parse [40;63;120;41] = Err ErrPerlOp /\                     (* (?x) *)
  rx_parse [97;255] = Err ErrUTF8.
Proof. vm_compute. repeat split. Qed.

(* the nesting limit: 999 groups around a literal parse, 1000 do not *)
Example C14_rx_nesting_limit :
  rx_valid (List.repeat 40 999 ++ [97] ++ List.repeat 41 999) = true /\
  rx_parse (List.repeat 40 1000 ++ [97] ++ List.repeat 41 1000) = Err ErrNestingDepth.
Proof. vm_compute. split; reflexivity. Qed.
