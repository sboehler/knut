(* C15  infer edits only the placeholder account.
   Theorem statements; the proof under a statement is [exact <lemma>], a few lines from the lemmas
   of Proofs/, or a witness by evaluation.

   THE CODE WAS REPAIRED (/repo e8bd689 "fix: infer must leave a booking alone when there is no
   candidate, and choose deterministically"; finding F10, findings/C15-infer.md).  The model
   follows the repaired code: variant [Fixed] of Model/Bayes.v is THE model of `knut infer`, it is
   what the check runs against the binary, and every theorem below that is not named *_refuted
   is about it.  Variant [Orig] (bayes.go before e8bd689) survives only in the three *_refuted
   theorems, which record what was wrong.

   Models.
   * Model/Bayes.v -- [infer_with ph Fixed letter digit choose training target] is
     `knut infer -a ph -t TRAINING TARGET` (stdout) on the bytes of the two files, with the
     outcome of the k-th call of inferAccount given by [choose k cands].  The theorems hold for
     EVERY choice function that returns an element of the candidate list and returns one
     whenever the list is not empty ([valid_choose]).  This is the function the check compares
     byte for byte with the binary (the binary's own choices are passed as [choose]).
   * Model/BayesScore.v -- [infer_scored F flog fadd fgt fields lower ph letter digit training
     target]: the same command with the choice MODELLED as the Go code makes it: the counts of
     Model.Update, tokenize, scoreCandidate summing over the tokens in sorted order, and the
     loop of inferAccount over the sorted candidates with `!found || score > max`.  Abstract are
     only the float64 operations (flog a b = math.Log(float64(a)/float64(b)), fadd, fgt) and
     strings.Fields / strings.ToLower; nothing is assumed about them.
     C15_scored_is_infer_with: infer_scored = infer_with ph Fixed ... choose for a valid choose.
   * Model/InferFs.v -- [infer_cmd_fs ... fs troot target]: the command with the training journal read as
     the code reads it (syntax.ParseFileRecursively): a file tree, include resolution and cycle detection by
     Model/Loader.v (C05, C14), training on every transaction of every visited file.  See the section
     THE TRAINING JOURNAL OVER AN INCLUDE TREE below: C15_training_layout_irrelevant (the output is a function
     of the multiset of training transactions: shape of the tree, file names, order do not matter),
     C15_training_arrival_irrelevant, C15_training_cycle_is_error / _bad_file_is_error (exit 1, nothing
     printed), C15_training_without_includes / _tree_as_one_file (it is the one-file command), and the
     theorems of the one-file command restated under the names C15_fs_xxx.
   Meanings and gaps: Spec/FormatSpec.v; relations: Proofs/InferProofs.v
     side_rel ph v cands acc acc' other : acc' = acc if acc is not the placeholder; otherwise
        acc' is a candidate different from [other] (Macro = false), or there is no such
        candidate and acc' is acc (Fixed) resp. the EMPTY account (Orig);
     booking_rel: quantity and commodity kept, credit side related with other = the debit
        account, debit side related with other = the credit account as it is after inference
        (Fixed) resp. as it was (Orig);
     directive_rel: everything but booking accounts kept.
   The executable specification Spec/InferSpec.v infer_ok_b is evaluated by the check on the
   binary's output; C15_roundtrip / C15_infer_correct prove it of the PARSE OF THE MODEL'S OUTPUT.

   Relation to the property text (all at full strength for the repaired code):
     "changes nothing except occurrences of the placeholder"      C15_only_placeholder, C15_roundtrip,
                                                                   C15_without_placeholder_is_format
     "replaced by an account that occurs in the training journal
      and differs from the other account of the same booking"      C15_candidate_valid, C15_candidates_from_training,
                                                                   C15_fixed_meets_spec;  Orig: C15_differs_refuted
     "no such candidate: the booking is left unchanged"            C15_no_candidate_unchanged;  Orig: ..._refuted
     "the result parses"                                           C15_parses, C15_parses_unicode, and more:
          C15_roundtrip -- the parse of the output has exactly the inferred meaning (the target's with the
          placeholder sides substituted; infer_ok_b holds of it) and the target's gaps, and the output is in
          formatted form.  Uses C08's round trip machinery (Proofs/RoundTrip*.v): a candidate is an account
          text of the training file's parse, hence lexically an account, so the substituted meaning is
          lexically valid and its rendering parses back to it (Proofs/InferRoundTrip.v).  Needs [class_ok]
          like C08 (true of Go's unicode tables: the *_unicode versions have no hypothesis).
          C15_total: on files that parse the command prints a text (no failure, never stuck).
          Orig: C15_parses_refuted.
     "apart from those account names and the column alignment
      they imply, identical to the formatted input"                C15_rest_is_format (total; both texts parse, same
          gaps, meanings related by directive_rel, both are [render] of meaning and gaps, both are fixed points
          of format), C15_render_shape
     running infer on its own output changes nothing              C15_idempotent (no condition: a placeholder the
          first run left has no candidate in the second run either)
     "the choice is the same on every run"                         the choice is modelled (Model/BayesScore.v):
          C15_choice_first_max -- the winner is the first maximum of the sorted candidates (beats everything
          before it, nothing after it beats it; unique for a strict weak order: C15_first_max_unique);
          C15_choice_invariant -- it is a function of the MULTISET of training events, the SET of tokens and the
          SET of map keys: independent of the order in which Go enumerates its maps and sets;
          C15_training_order_irrelevant -- permuting the training transactions does not change the output;
          C15_infer_correct -- the whole property for the command with its real choice.
          Not modelled: IEEE arithmetic itself (the proofs hold for any flog/fadd/fgt).  The check runs the
          extracted infer_scored_sems with OCaml doubles and a transcription of Go's math.Log and requires every
          choice of the binary to be the model's (drv_c15.ml, verdict choice-differs-from-model); that the binary
          computes the same float64 values on every run is a fact about the Go runtime, sampled by 10 runs.      *)
From Coq Require Import String ZArith List Bool Permutation Lia.
From Knut Require Import Model.Loader Proofs.LoaderProofs Proofs.OrderLayout.
From Knut Require Import Model.Bytes Model.Utf8 Model.UnicodeTables Model.Scanner Model.Parser
  Model.SynPrinter Spec.SyntaxSpec Proofs.ScannerProofs Proofs.ParserProofs Spec.FormatSpec
  Model.SynRender Proofs.FormatProofs Model.Bayes Model.BayesScore Spec.InferSpec Proofs.InferProofs
  Proofs.RoundTripLeaf Proofs.RoundTripTop Proofs.InferRoundTrip Proofs.InferChoice
  Model.InferFs Proofs.InferFs.
Import ListNotations.
Open Scope Z_scope.

(* Only placeholder sides change: the inferred meanings are related to the target's one by
   one by directive_rel (dates, descriptions, quantities, commodities, annotations, all
   non-transaction directives, all non-placeholder sides identical). *)
Theorem C15_only_placeholder : forall ph v choose cands ds k ds' k',
  valid_choose choose ->
  infer_sems ph v choose cands k ds = (ds', k') -> Forall2 (directive_rel ph v cands) ds ds'.
Proof. intros ph v choose cands ds k ds' k' H. exact (infer_sems_rel ph v choose H cands ds k ds' k'). Qed.
Print Assumptions C15_only_placeholder.

(* A replaced placeholder carries a candidate different from the account it had to avoid. *)
Theorem C15_candidate_valid : forall ph v cands acc acc' other,
  side_rel ph v cands acc acc' other -> without other cands <> [] -> fst acc = ph ->
  exists x, acc' = (x, false) /\ In x cands /\ x <> other.
Proof.
  intros ph v cands acc acc' other [(Hne & _)|(_ & [H|(Hw & _)])] Hn Hph;
    [contradiction|assumption|contradiction].
Qed.
Print Assumptions C15_candidate_valid.

(* Candidates are accounts of bookings of training transactions, and never the placeholder. *)
Theorem C15_candidates_from_training : forall ph training x,
  In x (candidates ph training) ->
  x <> ph /\ exists d, In d training /\ In x (booking_accounts d).
Proof.
  intros ph training x H. split.
  - intros E. subst. exact (candidates_not_ph ph training H).
  - exact (candidates_in_training ph training x H).
Qed.
Print Assumptions C15_candidates_from_training.

(* No candidate: the repaired code leaves the booking's account unchanged. *)
Theorem C15_no_candidate_unchanged : forall ph cands acc acc' other,
  side_rel ph Fixed cands acc acc' other -> fst acc = ph -> without other cands = [] -> acc' = acc.
Proof. intros ph cands acc acc' other. exact (side_rel_no_candidate ph Fixed cands acc acc' other). Qed.
Print Assumptions C15_no_candidate_unchanged.

(* The repaired code satisfies the executable statement of the property that the check
   evaluates on the binary's output (Spec/InferSpec.v), for every valid choice function:
   only placeholder sides differ; each is a training account different from the other side
   of its booking AS PRINTED, or is unchanged when the training journal offers none. *)
Theorem C15_fixed_meets_spec : forall ph training choose k target out k',
  valid_choose choose ->
  infer_sems ph Fixed choose (candidates ph training) k target = (out, k') ->
  infer_ok_b ph training target out = true.
Proof. exact fixed_meets_spec. Qed.
Print Assumptions C15_fixed_meets_spec.

(* The printed text is the target's gaps interleaved with the rendering of the inferred
   meanings -- the very function that `format` is of meanings and gaps (C08_format_shape).
   (Both variants.) *)
Theorem C15_render_shape : forall ph v letter digit choose training target out,
  infer_with ph v letter digit choose training target = InferOut out ->
  exists ftr ftg sems k,
    parse_text letter digit training = ParseOk ftr /\ parse_text letter digit target = ParseOk ftg /\
    infer_sems ph v choose (candidates ph (sem training ftr)) 0%nat (sem target ftg) = (sems, k) /\
    render Utf8M.decode sems (gaps target ftg) = Some out.
Proof. exact infer_with_shape. Qed.
Print Assumptions C15_render_shape.

Theorem C15_parses : forall ph letter digit choose training target out,
  class_ok letter digit -> valid_choose choose ->
  infer_with ph Fixed letter digit choose training target = InferOut out ->
  exists f, parse_text letter digit out = ParseOk f.
Proof.
  intros ph letter digit choose training target out Hc Hch H.
  destruct (infer_roundtrip ph letter digit Hc choose training target out Hch H) as (_ & _ & f' & _ & _ & _ & Hp & _).
  eauto.
Qed.
Print Assumptions C15_parses.

(* The printed text parses; the meaning of the parse is the inferred meaning of the target: it
   is related to the target's meaning directive by directive by directive_rel and satisfies
   the executable statement of the property; the gaps of the parse are the target's gaps; the
   text is in formatted form. *)
Theorem C15_roundtrip : forall ph letter digit choose training target out,
  class_ok letter digit -> valid_choose choose ->
  infer_with ph Fixed letter digit choose training target = InferOut out ->
  exists ftr ftg f' k,
    parse_text letter digit training = ParseOk ftr /\ parse_text letter digit target = ParseOk ftg /\
    parse_text letter digit out = ParseOk f' /\
    infer_sems ph Fixed choose (candidates ph (sem training ftr)) 0%nat (sem target ftg) = (sem out f', k) /\
    Forall2 (directive_rel ph Fixed (candidates ph (sem training ftr))) (sem target ftg) (sem out f') /\
    infer_ok_b ph (sem training ftr) (sem target ftg) (sem out f') = true /\
    gaps out f' = gaps target ftg /\
    format_text letter digit out f' = FOk out.
Proof.
  intros ph letter digit choose training target out Hcls Hch H.
  destruct (infer_roundtrip ph letter digit Hcls choose training target out Hch H)
    as (ftr & ftg & f' & k & H1 & H2 & H3 & H4 & H5 & H6).
  exists ftr, ftg, f', k. repeat (split; [assumption|]).
  split; [exact (infer_sems_rel ph Fixed choose Hch _ _ _ _ _ H4)|].
  split; [exact (fixed_meets_spec ph _ choose _ _ _ _ Hch H4)|]. split; assumption.
Qed.
Print Assumptions C15_roundtrip.

(* for the real parser (Go's unicode.IsLetter / IsDigit) without any hypothesis on the classes *)
Theorem C15_parses_unicode : forall ph choose training target out,
  valid_choose choose ->
  infer_with ph Fixed is_letter is_digit choose training target = InferOut out ->
  exists f', parse_text is_letter is_digit out = ParseOk f' /\
    (forall ftr ftg, parse_text is_letter is_digit training = ParseOk ftr ->
                     parse_text is_letter is_digit target = ParseOk ftg ->
       infer_ok_b ph (sem training ftr) (sem target ftg) (sem out f') = true /\ gaps out f' = gaps target ftg).
Proof.
  intros ph choose training target out Hch H.
  destruct (C15_roundtrip ph is_letter is_digit choose training target out unicode_class_ok Hch H)
    as (ftr & ftg & f' & k & H1 & H2 & H3 & _ & _ & H6 & H7 & _).
  exists f'. split; [assumption|]. intros ftr' ftg' E1 E2.
  assert (ftr' = ftr) by congruence. assert (ftg' = ftg) by congruence. subst. split; assumption.
Qed.
Print Assumptions C15_parses_unicode.

(* On files that parse, the repaired command prints a text: it does not fail and is never stuck
   (InferBad is impossible; InferErr only when a file does not parse: infer_with_total). *)
Theorem C15_total : forall ph letter digit choose training target ftr ftg,
  valid_choose choose ->
  parse_text letter digit training = ParseOk ftr -> parse_text letter digit target = ParseOk ftg ->
  exists out, infer_with ph Fixed letter digit choose training target = InferOut out.
Proof. exact infer_total. Qed.
Print Assumptions C15_total.

(* "apart from those account names and the column alignment they imply, identical to the
   formatted input": on files that parse, `knut infer` prints [out] and `knut format` prints
   [fmt] for the target; both parse, to THE SAME GAPS (all text outside directives, byte for
   byte) and to meanings related one by one by directive_rel (only placeholder sides differ);
   both are the rendering, by the same function, of their meaning and these gaps; both are in
   formatted form. *)
Theorem C15_rest_is_format : forall ph letter digit,
  class_ok letter digit -> forall choose training target ftr ftg,
  valid_choose choose ->
  parse_text letter digit training = ParseOk ftr -> parse_text letter digit target = ParseOk ftg ->
  exists out fmt f' ff,
    infer_with ph Fixed letter digit choose training target = InferOut out /\
    format_text letter digit target ftg = FOk fmt /\
    parse_text letter digit out = ParseOk f' /\ parse_text letter digit fmt = ParseOk ff /\
    sem fmt ff = sem target ftg /\
    Forall2 (directive_rel ph Fixed (candidates ph (sem training ftr))) (sem target ftg) (sem out f') /\
    gaps out f' = gaps target ftg /\ gaps fmt ff = gaps target ftg /\
    render Utf8M.decode (sem out f') (gaps target ftg) = Some out /\
    render Utf8M.decode (sem target ftg) (gaps target ftg) = Some fmt /\
    format_text letter digit out f' = FOk out /\ format_text letter digit fmt ff = FOk fmt.
Proof.
  intros ph letter digit Hcls choose training target ftr ftg Hch Htr Htg.
  rewrite (infer_with_on_sems ph letter digit _ _ _ _ _ Htr).
  exact (infer_sems_rest_is_format ph letter digit Hcls _ (parse_lexdir _ _ _ _ Htr) choose target ftg Hch Htg).
Qed.
Print Assumptions C15_rest_is_format.

(* Idempotence: running infer on its own output with the same training file prints the same
   text again, whatever the (valid) choice function of the second run -- also when placeholders
   are left: a placeholder the first run left has no candidate in the second run either. *)
Theorem C15_idempotent : forall ph letter digit,
  class_ok letter digit -> forall choose choose' training target out,
  valid_choose choose -> valid_choose choose' ->
  infer_with ph Fixed letter digit choose training target = InferOut out ->
  infer_with ph Fixed letter digit choose' training out = InferOut out.
Proof.
  intros ph letter digit Hcls choose choose' training target out Hch Hch' H.
  destruct (infer_with_shape _ _ _ _ _ _ _ _ H) as (ftr & _ & _ & _ & Htr & _).
  rewrite (infer_with_on_sems ph letter digit _ _ _ _ _ Htr) in H. rewrite (infer_with_on_sems ph letter digit _ _ _ _ _ Htr).
  exact (infer_sems_idempotent ph letter digit Hcls _ (parse_lexdir _ _ _ _ Htr) choose choose' target out Hch Hch' H).
Qed.
Print Assumptions C15_idempotent.

(* A target without the placeholder: infer prints exactly the formatted target. *)
Theorem C15_without_placeholder_is_format : forall ph v letter digit choose training target ftr ftg,
  parse_text letter digit training = ParseOk ftr -> parse_text letter digit target = ParseOk ftg ->
  Forall (directive_free ph) (sem target ftg) ->
  exists out, format_text letter digit target ftg = FOk out /\
              infer_with ph v letter digit choose training target = InferOut out.
Proof.
  intros ph v letter digit choose training target ftr ftg Htr Htg Hfree.
  destruct (format_parsed _ _ _ _ Htg) as (out & Hout). exists out. split; [assumption|].
  unfold infer_with. rewrite Htr, Htg, (infer_sems_free ph v choose _ _ 0%nat Hfree).
  now rewrite (format_text_render _ _ _ _ _ Hout).
Qed.
Print Assumptions C15_without_placeholder_is_format.

(* "the choice is the same on every run": the choice of the repaired code *)

(* "First maximum over the sorted candidate list" is a valid choice function for any
   comparison of scores. *)
Theorem C15_deterministic_given_scores : forall gt : str -> str -> bool,
  valid_choose (fun _ => first_max gt).
Proof. exact first_max_valid. Qed.
Print Assumptions C15_deterministic_given_scores.

(* inferAccount as modelled after the Go code is this first maximum, for the comparison of the
   scores of scoreCandidate, and a valid choice *)
Theorem C15_choice_valid : forall F flog fadd fgt fields lower evs,
  pick_valid (infer_account F flog fadd fgt fields lower evs) /\
  forall desc b other l,
    infer_account F flog fadd fgt fields lower evs desc b other l =
    first_max (fun c best => fgt (score F flog fadd evs (tokenize fields lower desc b other) c)
                                 (score F flog fadd evs (tokenize fields lower desc b other) best)) l.
Proof.
  intros. split; [apply infer_account_valid|]. intros. apply infer_account_first_max.
Qed.
Print Assumptions C15_choice_valid.

(* The tie-break, exactly: if `>` on scores is transitive and a > b implies a > c or c > b
   (every strict weak order, e.g. `>` on float64 without NaN -- the scores are finite sums of
   logarithms of positive ratios), the winner [c] of the loop over [l] splits the list,
   l = l1 ++ c :: l2, beats every candidate in l1 and is not beaten by any in l2: among the
   candidates with the maximal score it is the first, i.e. the byte-wise smallest, [l] being
   sorted. *)
Theorem C15_choice_first_max : forall (F : Type) (fgt : F -> F -> bool) (sc : str -> F),
  (forall a b c, fgt a b = true -> fgt b c = true -> fgt a c = true) ->
  (forall a b c, fgt a b = true -> fgt a c = true \/ fgt c b = true) ->
  forall l c, option_map fst (best_loop F fgt sc l None) = Some c -> first_max_spec F fgt sc l c.
Proof.
  intros F fgt sc Ht Hc l c. rewrite (best_loop_none F fgt sc).
  destruct l as [|x l]; [discriminate|]. cbn [first_max].
  intros E. injection E as <-. exact (fold_best_spec F fgt sc Ht Hc x l).
Qed.
Print Assumptions C15_choice_first_max.

(* and that determines it (the candidate list has no duplicates: C15_candidates_sorted) *)
Theorem C15_first_max_unique : forall (F : Type) (fgt : F -> F -> bool) (sc : str -> F),
  (forall a b c, fgt a b = true -> fgt b c = true -> fgt a c = true) ->
  (forall a, fgt a a = false) ->
  forall l c c', NoDup l -> first_max_spec F fgt sc l c -> first_max_spec F fgt sc l c' -> c = c'.
Proof. exact first_max_unique. Qed.
Print Assumptions C15_first_max_unique.

(* THE CHOICE IS A FUNCTION OF THE MULTISET OF TRAINING EVENTS, THE SET OF TOKENS AND THE SET OF
   KEYS of countByAccount: whatever order the Go runtime enumerates the maps and the token set
   in ([t1]/[t2], [k1]/[k2] are two enumerations), and in whatever order the events arrived. *)
Theorem C15_choice_invariant : forall F flog fadd fgt evs1 evs2 t1 t2 k1 k2 other,
  Permutation evs1 evs2 -> (forall x, In x t1 <-> In x t2) -> (forall x, In x k1 <-> In x k2) ->
  choice F flog fadd fgt evs1 t1 k1 other = choice F flog fadd fgt evs2 t2 k2 other.
Proof.
  intros F flog fadd fgt evs1 evs2 t1 t2 k1 k2 other Hp Ht Hk.
  unfold choice. rewrite (InferOrder.sort_dedup_set k1 k2 Hk). f_equal.
  apply best_loop_ext. intros c. rewrite (score_perm F flog fadd evs1 evs2 t1 c Hp).
  now apply score_tokens_set.
Qed.
Print Assumptions C15_choice_invariant.

(* [choice] is what Model.Infer calls *)
Theorem C15_choice_is_infer_account : forall F flog fadd fgt fields lower evs desc b other,
  infer_account F flog fadd fgt fields lower evs desc b other (without other (candidates_c evs)) =
  choice F flog fadd fgt evs (tokenize fields lower desc b other) (map fst evs) other.
Proof. reflexivity. Qed.
Print Assumptions C15_choice_is_infer_account.

(* Two training files whose transactions are permutations of each other give the same output. *)
Theorem C15_training_order_irrelevant : forall F flog fadd fgt fields lower ph letter digit training1 training2 target f1 f2,
  parse_text letter digit training1 = ParseOk f1 -> parse_text letter digit training2 = ParseOk f2 ->
  Permutation (sem training1 f1) (sem training2 f2) ->
  infer_scored F flog fadd fgt fields lower ph letter digit training1 target =
  infer_scored F flog fadd fgt fields lower ph letter digit training2 target.
Proof.
  intros F flog fadd fgt fields lower ph letter digit training1 training2 target f1 f2 H1 H2 Hp.
  unfold BayesScoreM.infer_scored. rewrite H1, H2.
  destruct (parse_text letter digit target) as [ftg| |]; try reflexivity.
  now rewrite (infer_scored_sems_perm F flog fadd fgt fields lower ph _ _ (sem target ftg) Hp).
Qed.
Print Assumptions C15_training_order_irrelevant.

(* The command with the modelled choice is the command of Model/Bayes.v for a valid choice
   function: everything above holds of it. *)
Theorem C15_scored_is_infer_with : forall F flog fadd fgt fields lower ph letter digit training target,
  exists choose, valid_choose choose /\
    infer_scored F flog fadd fgt fields lower ph letter digit training target =
    infer_with ph Fixed letter digit choose training target.
Proof. exact infer_scored_is_infer_with. Qed.
Print Assumptions C15_scored_is_infer_with.

(* The property for the command as it is (no choice function in sight): on files that parse it
   prints a text that parses; the meaning of the parse satisfies the executable statement of
   the property against target and training file; its gaps are the target's; the text is in
   formatted form; running the command on it prints it again. *)
Theorem C15_infer_correct : forall F flog fadd fgt fields lower ph letter digit training target ftr ftg,
  class_ok letter digit ->
  parse_text letter digit training = ParseOk ftr -> parse_text letter digit target = ParseOk ftg ->
  exists out f',
    infer_scored F flog fadd fgt fields lower ph letter digit training target = InferOut out /\
    parse_text letter digit out = ParseOk f' /\
    infer_ok_b ph (sem training ftr) (sem target ftg) (sem out f') = true /\
    gaps out f' = gaps target ftg /\
    format_text letter digit out f' = FOk out /\
    infer_scored F flog fadd fgt fields lower ph letter digit training out = InferOut out.
Proof.
  intros F flog fadd fgt fields lower ph letter digit training target ftr ftg Hcls Htr Htg.
  destruct (infer_scored_on_correct F flog fadd fgt fields lower ph _ _ _ _ _ Hcls (parse_lexdir _ _ _ _ Htr) Htg)
    as (out & f' & H).
  exists out, f'. rewrite !(infer_scored_as_on F flog fadd fgt fields lower ph _ _ _ _ _ Htr). exact H.
Qed.
Print Assumptions C15_infer_correct.

(* the candidate list is strictly sorted (byte-wise), hence duplicate-free *)
Theorem C15_candidates_sorted : forall ph training,
  Sorted.StronglySorted InferOrder.bstr_lt (candidates ph training).
Proof. intros. apply InferOrder.sort_dedup_ssorted. Qed.
Print Assumptions C15_candidates_sorted.

(* THE TRAINING JOURNAL OVER AN INCLUDE TREE (Model/InferFs.v, Proofs/InferFs.v, Proofs/LoaderVisits.v)

   inferRunner.train reads the training journal with syntax.ParseFileRecursively: includes are
   followed, the files reach the trainer in scheduling order, every transaction of every file
   updates the model.  [tfs] maps cleaned relative paths to file bytes.  The include resolution
   is Model/Loader.v [load] (C05, C14) run on the [skeleton] of the file system: a file that
   parses is [its tag; its include targets], a file that does not parse is FBad.
     training_files fs root = TrOk files | TrErr e | TrFuel       the files visited, once per visit
     training_sems fs files                                       the meanings the trainer sees
     infer_cmd_fs ... fs troot target       `knut infer -a ph -t TROOT TARGET` with the real choice
     infer_cmd_fs_arrival arrive ...        the same, files arriving in the order [arrive files]
     infer_with_fs ph v choose fs troot target                    the same for a choice function
   [visits sk root vs] (Proofs/OrderLayout.v, C05): [vs] is the depth-first visit list of the
   include tree below [root]; it has a derivation iff that tree is finite and all its files parse.
   [trxs] keeps the transactions of a list of meanings (everything else is ignored by the trainer). *)

(* the files the trainer gets are, up to order, the visit list of the include tree (C05_layout) *)
Theorem C15_training_files_are_visits : forall letter digit fs root files,
  training_files letter digit fs root = TrOk files ->
  exists vs, visits (skeleton letter digit fs) root vs /\ Permutation files vs.
Proof. exact training_files_visits. Qed.
Print Assumptions C15_training_files_are_visits.

(* conversely a finite include tree of files that parse loads, and the files are its visit list *)
Theorem C15_finite_tree_loads : forall letter digit fs root vs,
  visits (skeleton letter digit fs) root vs ->
  exists files, training_files letter digit fs root = TrOk files /\ Permutation files vs.
Proof. exact visits_training_files. Qed.
Print Assumptions C15_finite_tree_loads.

(* the load of the training journal ends on every file system (C14_load_terminates) *)
Theorem C15_training_load_terminates : forall letter digit fs root, training_files letter digit fs root <> TrFuel.
Proof. exact training_files_fuel. Qed.
Print Assumptions C15_training_load_terminates.

(* THE OUTPUT DEPENDS ONLY ON THE MULTISET OF TRAINING TRANSACTIONS: two file systems -- any
   shapes of the include trees, any file names, any distribution of the directives over the
   files, any order inside the files -- whose visited files hold permutations of the same
   transactions give byte-identical results on every target. *)
Theorem C15_training_layout_irrelevant :
  forall F flog fadd fgt fields lower ph letter digit fs1 root1 vs1 fs2 root2 vs2 target,
  visits (skeleton letter digit fs1) root1 vs1 -> visits (skeleton letter digit fs2) root2 vs2 ->
  Permutation (trxs (training_sems letter digit fs1 vs1)) (trxs (training_sems letter digit fs2 vs2)) ->
  infer_cmd_fs letter digit ph F flog fadd fgt fields lower fs1 root1 target =
  infer_cmd_fs letter digit ph F flog fadd fgt fields lower fs2 root2 target.
Proof. intros F flog fadd fgt fields lower ph letter digit. exact (infer_cmd_fs_layout ph letter digit F flog fadd fgt fields lower). Qed.
Print Assumptions C15_training_layout_irrelevant.

(* the files may reach the trainer in any order (the scheduler's) *)
Theorem C15_training_arrival_irrelevant :
  forall F flog fadd fgt fields lower ph letter digit arrive fs troot target,
  (forall l, Permutation l (arrive l)) ->
  infer_cmd_fs_arrival letter digit ph F flog fadd fgt fields lower arrive fs troot target =
  infer_cmd_fs letter digit ph F flog fadd fgt fields lower fs troot target.
Proof.
  intros F flog fadd fgt fields lower ph letter digit arrive fs troot target Ha.
  unfold InferFsM.infer_cmd_fs, InferFsM.infer_cmd_fs_arrival.
  destruct (training_files letter digit fs troot) as [files|e|]; try reflexivity.
  apply infer_scored_on_perm, trxs_perm, training_sems_perm, Permutation_sym, Ha.
Qed.
Print Assumptions C15_training_arrival_irrelevant.

(* a tree is as good as ONE training file holding its transactions in any order: the command of
   Model/BayesScore.v (this is how the check evaluates the model on generated trees) *)
Theorem C15_training_tree_as_one_file :
  forall F flog fadd fgt fields lower ph letter digit fs root vs training ftr target,
  visits (skeleton letter digit fs) root vs -> parse_text letter digit training = ParseOk ftr ->
  Permutation (trxs (training_sems letter digit fs vs)) (trxs (sem training ftr)) ->
  infer_cmd_fs letter digit ph F flog fadd fgt fields lower fs root target =
  infer_scored F flog fadd fgt fields lower ph letter digit training target.
Proof.
  intros F flog fadd fgt fields lower ph letter digit fs root vs training ftr target Hv Hp Hperm.
  destruct (visits_training_files letter digit fs root vs Hv) as (files & E & P).
  rewrite (infer_cmd_fs_ok ph letter digit F flog fadd fgt fields lower _ _ _ _ E),
    (infer_scored_as_on F flog fadd fgt fields lower ph letter digit _ _ _ Hp).
  apply infer_scored_on_perm.
  eapply Permutation_trans; [apply trxs_perm; apply training_sems_perm; exact P|exact Hperm].
Qed.
Print Assumptions C15_training_tree_as_one_file.

(* a training file without include directives: exactly the one-file command above *)
Theorem C15_training_without_includes :
  forall F flog fadd fgt fields lower ph letter digit fs root training target,
  tlookup fs root = Some training ->
  (forall ftr t, parse_text letter digit training = ParseOk ftr -> ~ In (SemInclude t) (sem training ftr)) ->
  infer_cmd_fs letter digit ph F flog fadd fgt fields lower fs root target =
  infer_scored F flog fadd fgt fields lower ph letter digit training target.
Proof. intros F flog fadd fgt fields lower ph letter digit. exact (infer_cmd_fs_no_includes ph letter digit F flog fadd fgt fields lower). Qed.
Print Assumptions C15_training_without_includes.

(* AN INCLUDE CYCLE IN THE TRAINING JOURNAL IS AN ERROR: exit 1, nothing is printed (nothing is
   written).  [S] is a set of files each of which parses and includes a file of the set. *)
Theorem C15_training_cycle_is_error :
  forall F flog fadd fgt fields lower ph letter digit fs (S : LoaderM.path -> Prop) troot target,
  (forall p, S p -> exists text f t, tlookup fs p = Some text /\ parse_text letter digit text = ParseOk f /\
                                     In (SemInclude t) (sem text f) /\ S (resolve p t)) ->
  S troot ->
  infer_cmd_fs letter digit ph F flog fadd fgt fields lower fs troot target = InferErr.
Proof.
  intros F flog fadd fgt fields lower ph letter digit fs S troot target Hc Hr.
  destruct (training_files_cycle letter digit fs S troot (tclosed_closed letter digit fs S Hc) Hr) as (e & He).
  exact (infer_cmd_fs_err ph letter digit F flog fadd fgt fields lower _ _ _ _ He).
Qed.
Print Assumptions C15_training_cycle_is_error.

(* so is a missing or unparseable file anywhere in the include graph *)
Theorem C15_training_bad_file_is_error :
  forall F flog fadd fgt fields lower ph letter digit fs troot p target,
  reach (skeleton letter digit fs) troot p ->
  (tlookup fs p = None \/ exists text, tlookup fs p = Some text /\ forall f, parse_text letter digit text <> ParseOk f) ->
  infer_cmd_fs letter digit ph F flog fadd fgt fields lower fs troot target = InferErr.
Proof.
  intros F flog fadd fgt fields lower ph letter digit fs troot p target Hr Hb.
  destruct (training_files_bad letter digit fs troot p Hr Hb) as (e & He).
  exact (infer_cmd_fs_err ph letter digit F flog fadd fgt fields lower _ _ _ _ He).
Qed.
Print Assumptions C15_training_bad_file_is_error.

(* the command with its real choice is the command for a valid choice function *)
Theorem C15_fs_scored_is_infer_with : forall F flog fadd fgt fields lower ph letter digit fs troot target,
  exists choose, valid_choose choose /\
    infer_cmd_fs letter digit ph F flog fadd fgt fields lower fs troot target =
    infer_with_fs letter digit ph Fixed choose fs troot target.
Proof.
  intros F flog fadd fgt fields lower ph letter digit fs troot target.
  unfold InferFsM.infer_cmd_fs, InferFsM.infer_cmd_fs_arrival, InferFsM.infer_with_fs, InferFsM.infer_with_fs_arrival.
  destruct (training_files letter digit fs troot) as [files|e|];
    [|exists (choose_of []); split; [apply choose_of_valid|reflexivity]
     |exists (choose_of []); split; [apply choose_of_valid|reflexivity]].
  apply infer_scored_on_is_with_sems.
Qed.
Print Assumptions C15_fs_scored_is_infer_with.

(* candidates are accounts of bookings of transactions of VISITED files, never the placeholder
   (with C15_candidate_valid / C15_no_candidate_unchanged, which speak about any candidate list) *)
Theorem C15_fs_candidates_from_training : forall ph letter digit fs files x,
  In x (candidates ph (training_sems letter digit fs files)) ->
  x <> ph /\ exists p d, In p files /\ In d (file_sems letter digit fs p) /\ In x (booking_accounts d).
Proof.
  intros ph letter digit fs files x H. split.
  - intros E. subst. exact (candidates_not_ph ph _ H).
  - destruct (candidates_in_training ph _ x H) as (d & Hd & Hx).
    unfold InferFsM.training_sems in Hd. apply in_flat_map in Hd. destruct Hd as (p & Hp & Hd). eauto.
Qed.
Print Assumptions C15_fs_candidates_from_training.

(* only_placeholder + candidate_valid + parses + roundtrip: whatever is printed parses; its
   meaning is the target's with exactly the placeholder sides substituted (directive_rel against
   the candidates of the visited files; infer_ok_b holds of it); its gaps are the target's; it
   is in formatted form *)
Theorem C15_fs_roundtrip : forall ph letter digit choose fs troot target out,
  class_ok letter digit -> valid_choose choose ->
  infer_with_fs letter digit ph Fixed choose fs troot target = InferOut out ->
  exists files ftg f' k,
    training_files letter digit fs troot = TrOk files /\
    parse_text letter digit target = ParseOk ftg /\
    parse_text letter digit out = ParseOk f' /\
    infer_sems ph Fixed choose (candidates ph (training_sems letter digit fs files)) 0%nat (sem target ftg) = (sem out f', k) /\
    Forall2 (directive_rel ph Fixed (candidates ph (training_sems letter digit fs files))) (sem target ftg) (sem out f') /\
    infer_ok_b ph (training_sems letter digit fs files) (sem target ftg) (sem out f') = true /\
    gaps out f' = gaps target ftg /\
    format_text letter digit out f' = FOk out.
Proof.
  intros ph letter digit choose fs troot target out Hcls Hch H.
  destruct (infer_with_fs_out ph letter digit _ _ _ _ _ _ H) as (files & E & Ho).
  destruct (infer_sems_roundtrip ph letter digit Hcls _ (training_sems_lex letter digit fs files) choose target out Hch Ho)
    as (ftg & f' & k & H1 & H2 & H3 & H4 & H5 & H6 & H7).
  exists files, ftg, f', k. repeat (split; [assumption|]). assumption.
Qed.
Print Assumptions C15_fs_roundtrip.

(* a training journal that loads and a target that parses: the command prints a text *)
Theorem C15_fs_total : forall ph letter digit choose fs troot files target ftg,
  valid_choose choose ->
  training_files letter digit fs troot = TrOk files -> parse_text letter digit target = ParseOk ftg ->
  exists out, infer_with_fs letter digit ph Fixed choose fs troot target = InferOut out.
Proof.
  intros ph letter digit choose fs troot files target ftg Hch E Htg.
  rewrite (infer_with_fs_ok ph letter digit _ _ _ _ _ _ E).
  exact (infer_sems_total ph letter digit _ (training_sems_lex letter digit fs files) choose target ftg Hch Htg).
Qed.
Print Assumptions C15_fs_total.

Theorem C15_fs_idempotent : forall ph letter digit choose choose' fs troot target out,
  class_ok letter digit -> valid_choose choose -> valid_choose choose' ->
  infer_with_fs letter digit ph Fixed choose fs troot target = InferOut out ->
  infer_with_fs letter digit ph Fixed choose' fs troot out = InferOut out.
Proof.
  intros ph letter digit choose choose' fs troot target out Hcls Hch Hch' H.
  destruct (infer_with_fs_out ph letter digit _ _ _ _ _ _ H) as (files & E & Ho).
  rewrite (infer_with_fs_ok ph letter digit _ _ _ _ _ _ E).
  exact (infer_sems_idempotent ph letter digit Hcls _ (training_sems_lex letter digit fs files) choose choose' target out Hch Hch' Ho).
Qed.
Print Assumptions C15_fs_idempotent.

Theorem C15_fs_rest_is_format : forall ph letter digit choose fs troot files target ftg,
  class_ok letter digit -> valid_choose choose ->
  training_files letter digit fs troot = TrOk files -> parse_text letter digit target = ParseOk ftg ->
  exists out fmt f' ff,
    infer_with_fs letter digit ph Fixed choose fs troot target = InferOut out /\
    format_text letter digit target ftg = FOk fmt /\
    parse_text letter digit out = ParseOk f' /\ parse_text letter digit fmt = ParseOk ff /\
    sem fmt ff = sem target ftg /\
    Forall2 (directive_rel ph Fixed (candidates ph (training_sems letter digit fs files))) (sem target ftg) (sem out f') /\
    gaps out f' = gaps target ftg /\ gaps fmt ff = gaps target ftg /\
    render Utf8M.decode (sem out f') (gaps target ftg) = Some out /\
    render Utf8M.decode (sem target ftg) (gaps target ftg) = Some fmt /\
    format_text letter digit out f' = FOk out /\ format_text letter digit fmt ff = FOk fmt.
Proof.
  intros ph letter digit choose fs troot files target ftg Hcls Hch E Htg.
  rewrite (infer_with_fs_ok ph letter digit _ _ _ _ _ _ E).
  exact (infer_sems_rest_is_format ph letter digit Hcls _ (training_sems_lex letter digit fs files) choose target ftg Hch Htg).
Qed.
Print Assumptions C15_fs_rest_is_format.

(* the whole property for the command on a file tree with its real choice *)
Theorem C15_fs_infer_correct : forall F flog fadd fgt fields lower ph letter digit fs troot files target ftg,
  class_ok letter digit ->
  training_files letter digit fs troot = TrOk files -> parse_text letter digit target = ParseOk ftg ->
  exists out f',
    infer_cmd_fs letter digit ph F flog fadd fgt fields lower fs troot target = InferOut out /\
    parse_text letter digit out = ParseOk f' /\
    infer_ok_b ph (training_sems letter digit fs files) (sem target ftg) (sem out f') = true /\
    gaps out f' = gaps target ftg /\
    format_text letter digit out f' = FOk out /\
    infer_cmd_fs letter digit ph F flog fadd fgt fields lower fs troot out = InferOut out.
Proof.
  intros F flog fadd fgt fields lower ph letter digit fs troot files target ftg Hcls E Htg.
  destruct (infer_scored_on_correct F flog fadd fgt fields lower ph letter digit _ _ _ Hcls
              (training_sems_lex letter digit fs files) Htg) as (out & f' & H).
  exists out, f'. rewrite !(infer_cmd_fs_ok ph letter digit F flog fadd fgt fields lower _ _ _ _ E). exact H.
Qed.
Print Assumptions C15_fs_infer_correct.

(* ... for the real parser, without hypothesis on the character classes *)
Theorem C15_fs_infer_correct_unicode : forall F flog fadd fgt fields lower ph fs troot files target ftg,
  training_files is_letter is_digit fs troot = TrOk files -> parse_text is_letter is_digit target = ParseOk ftg ->
  exists out f',
    infer_cmd_fs is_letter is_digit ph F flog fadd fgt fields lower fs troot target = InferOut out /\
    parse_text is_letter is_digit out = ParseOk f' /\
    infer_ok_b ph (training_sems is_letter is_digit fs files) (sem target ftg) (sem out f') = true /\
    gaps out f' = gaps target ftg /\
    format_text is_letter is_digit out f' = FOk out /\
    infer_cmd_fs is_letter is_digit ph F flog fadd fgt fields lower fs troot out = InferOut out.
Proof.
  intros F flog fadd fgt fields lower ph fs troot files target ftg.
  exact (C15_fs_infer_correct F flog fadd fgt fields lower ph is_letter is_digit fs troot files target ftg unicode_class_ok).
Qed.
Print Assumptions C15_fs_infer_correct_unicode.

(* the code before e8bd689 (variant Orig): refutations by witnesses (findings/C15-infer.md) *)

Definition tbd : str := Eval vm_compute in runes_of_string "Expenses:TBD"%string.
Definition first_choice : nat -> list str -> option str := fun _ l => hd_error l.

Lemma first_choice_valid : valid_choose first_choice.
Proof.
  split.
  - intros k [|y l] x H; [discriminate|]. inversion H. now left.
  - intros k [|y l] H; [congruence|discriminate].
Qed.

Definition w_training0 : str := Eval vm_compute in runes_of_string "2020-01-01 open A
"%string.
Definition w_target : str := Eval vm_compute in runes_of_string "2020-01-02 ""x""
Expenses:TBD Assets:Bank 1 CHF
"%string.

(* no candidate: the placeholder is replaced by the empty account and the output does not parse *)
Theorem C15_no_candidate_unchanged_refuted :
  exists acc', side_rel tbd Orig [] (tbd, false) acc' (runes_of_string "Assets:Bank"%string) /\ acc' <> (tbd, false).
Proof. exists ([], false). split; [right; split; [reflexivity|right; split; reflexivity]|discriminate]. Qed.
Print Assumptions C15_no_candidate_unchanged_refuted.

Theorem C15_parses_refuted :
  exists out e, valid_choose first_choice /\
    infer_with tbd Orig is_letter is_digit first_choice w_training0 w_target = InferOut out /\
    parse_text is_letter is_digit out = ParseErr e.
Proof. do 2 eexists. split; [exact first_choice_valid|]. split; [vm_compute; reflexivity|vm_compute; reflexivity]. Qed.
Print Assumptions C15_parses_refuted.

Definition w_training2 : str := Eval vm_compute in runes_of_string "2020-01-01 ""a""
A B 1 CHF
"%string.
Definition w_both : str := Eval vm_compute in runes_of_string "2020-01-02 ""x""
Expenses:TBD Expenses:TBD 1 CHF
"%string.

(* placeholder on both sides: both get the same account *)
Theorem C15_differs_refuted :
  exists out f a, valid_choose first_choice /\
    infer_with tbd Orig is_letter is_digit first_choice w_training2 w_both = InferOut out /\
    parse_text is_letter is_digit out = ParseOk f /\
    sem out f = [SemTrx (runes_of_string "2020-01-02"%string) (runes_of_string "x"%string)
                   [mkSemBooking (a, false) (a, false) (runes_of_string "1"%string) (runes_of_string "CHF"%string)]
                   None None].
Proof. do 3 eexists. split; [exact first_choice_valid|]. split; [vm_compute; reflexivity|]. split; [vm_compute; reflexivity|vm_compute; reflexivity]. Qed.
Print Assumptions C15_differs_refuted.

(* the repaired code (the model) on the same witnesses *)

Example C15_fixed_no_candidate :
  infer_with tbd Fixed is_letter is_digit first_choice w_training0 w_target =
  InferOut (runes_of_string "2020-01-02 ""x""
Expenses:TBD Assets:Bank           1 CHF
"%string).
Proof. vm_compute. reflexivity. Qed.

Example C15_fixed_both_sides :
  infer_with tbd Fixed is_letter is_digit first_choice w_training2 w_both =
  InferOut (runes_of_string "2020-01-02 ""x""
A B          1 CHF
"%string).
Proof. vm_compute. reflexivity. Qed.

(* the modelled choice, run: integer stand-ins for the float64 operations (the hypotheses
   of C15_choice_first_max / C15_first_max_unique are satisfiable), the description as one token *)

Definition zlog (a b : Z) : Z := a * 1000 / b.
Definition one_field (s : str) : list str := [s].
Definition same (s : str) : str := s.

Example C15_zgt_order :
  (forall a b c, Z.gtb a b = true -> Z.gtb b c = true -> Z.gtb a c = true) /\
  (forall a b c, Z.gtb a b = true -> Z.gtb a c = true \/ Z.gtb c b = true) /\
  (forall a, Z.gtb a a = false).
Proof.
  split; [|split].
  - intros a b c. rewrite !Z.gtb_ltb, !Z.ltb_lt. lia.
  - intros a b c. rewrite !Z.gtb_ltb, !Z.ltb_lt. lia.
  - intros a. rewrite Z.gtb_ltb. apply Z.ltb_irrefl.
Qed.

Example C15_scored_both_sides :
  infer_scored Z zlog Z.add Z.gtb one_field same tbd is_letter is_digit w_training2 w_both =
  InferOut (runes_of_string "2020-01-02 ""x""
A B          1 CHF
"%string).
Proof. vm_compute. reflexivity. Qed.

Definition w_tie1 : str := Eval vm_compute in runes_of_string "2020-01-01 ""a""
B C 1 CHF

2020-01-01 ""a""
A C 1 CHF
"%string.
Definition w_tie2 : str := Eval vm_compute in runes_of_string "2020-01-01 ""a""
A C 1 CHF

2020-01-01 ""a""
B C 1 CHF
"%string.
Definition w_tie_target : str := Eval vm_compute in runes_of_string "2020-01-02 ""a""
Expenses:TBD C 1 CHF
"%string.

(* A and B have equal scores: the byte-wise smaller wins, whatever the order of the training file *)
Example C15_scored_tie :
  infer_scored Z zlog Z.add Z.gtb one_field same tbd is_letter is_digit w_tie1 w_tie_target =
  InferOut (runes_of_string "2020-01-02 ""a""
A C          1 CHF
"%string) /\
  infer_scored Z zlog Z.add Z.gtb one_field same tbd is_letter is_digit w_tie2 w_tie_target =
  infer_scored Z zlog Z.add Z.gtb one_field same tbd is_letter is_digit w_tie1 w_tie_target.
Proof. split; vm_compute; reflexivity. Qed.

(* "a" includes "s/b"; the two transactions of w_tie1, one in each file *)
Definition w_tree : tfs :=
  [ ([[97]], runes_of_string "include ""s/b""

2020-01-01 ""a""
A C 1 CHF
"%string);
    ([[115]; [98]], runes_of_string "2020-01-01 ""a""
B C 1 CHF
"%string) ].
Definition w_flat : tfs := [ ([[116]], w_tie1) ].
(* "a" includes "s/b", "s/b" includes "../a" *)
Definition w_cycle : tfs :=
  [ ([[97]], runes_of_string "include ""s/b""
"%string);
    ([[115]; [98]], runes_of_string "2020-01-01 ""a""
B C 1 CHF

include ""../a""
"%string) ].

Example C15_fs_tree_runs :
  training_files is_letter is_digit w_tree [[97]] = TrOk [[[97]]; [[115]; [98]]] /\
  infer_cmd_fs is_letter is_digit tbd Z zlog Z.add Z.gtb one_field same w_tree [[97]] w_tie_target =
  InferOut (runes_of_string "2020-01-02 ""a""
A C          1 CHF
"%string) /\
  infer_cmd_fs is_letter is_digit tbd Z zlog Z.add Z.gtb one_field same w_flat [[116]] w_tie_target =
  InferOut (runes_of_string "2020-01-02 ""a""
A C          1 CHF
"%string).
Proof. split; [|split]; vm_compute; reflexivity. Qed.

(* the hypotheses of C15_training_layout_irrelevant are satisfiable (and hold of these two) *)
Definition sk_tree : LoaderM.fsys := Eval vm_compute in skeleton is_letter is_digit w_tree.
Definition sk_flat : LoaderM.fsys := Eval vm_compute in skeleton is_letter is_digit w_flat.
Example C15_fs_layout_hypotheses :
  exists vs1 vs2,
    visits (skeleton is_letter is_digit w_tree) [[97]] vs1 /\ visits (skeleton is_letter is_digit w_flat) [[116]] vs2 /\
    Permutation (trxs (training_sems is_letter is_digit w_tree vs1)) (trxs (training_sems is_letter is_digit w_flat vs2)).
Proof.
  exists [[[97]]; [[115]; [98]]], [[[116]]].
  replace (skeleton is_letter is_digit w_tree) with sk_tree by (vm_compute; reflexivity).
  replace (skeleton is_letter is_digit w_flat) with sk_flat by (vm_compute; reflexivity).
  split; [|split].
  - eapply (visits_file _ [[97]] _ [[[[115]; [98]]]]); [vm_compute; reflexivity|].
    vm_compute. constructor; [|constructor].
    eapply (visits_file _ [[115]; [98]] _ []); [vm_compute; reflexivity|vm_compute; constructor].
  - eapply (visits_file _ [[116]] _ []); [vm_compute; reflexivity|vm_compute; constructor].
  - vm_compute. apply perm_swap.
Qed.

(* an include cycle: the hypotheses of C15_training_cycle_is_error hold, and the model says InferErr *)
Example C15_fs_cycle_runs :
  (exists e, training_files is_letter is_digit w_cycle [[97]] = TrErr e) /\
  infer_cmd_fs is_letter is_digit tbd Z zlog Z.add Z.gtb one_field same w_cycle [[97]] w_tie_target = InferErr /\
  tclosed is_letter is_digit w_cycle (fun p => p = [[97]] \/ p = [[115]; [98]]).
Proof.
  split; [eexists; vm_compute; reflexivity|]. split; [vm_compute; reflexivity|].
  intros p [->| ->].
  - do 3 eexists. split; [vm_compute; reflexivity|]. split; [vm_compute; reflexivity|].
    split; [vm_compute; left; reflexivity|]. right. vm_compute. reflexivity.
  - do 3 eexists. split; [vm_compute; reflexivity|]. split; [vm_compute; reflexivity|].
    split; [vm_compute; right; left; reflexivity|]. left. vm_compute. reflexivity.
Qed.
