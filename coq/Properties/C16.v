(* C16  transcode emits a balanced, self-consistent beancount ledger.
   Theorem statements; the proof under a statement is [exact <lemma>], a few lines from the lemmas
   of Proofs/, or a witness by evaluation.
   Model: Model/CliTranscode.v transcode_cmd (`knut transcode -v V FILE`: directives -> accrual
   expansion -> days -> Sort, ComputePrices, Check, Valuate -> beancount.Transcode) and
   Model/Beancount.v (transcode_entries = the items Transcode emits, in emission order;
   transcode = their text).  Vocabulary: Spec/BeancountSpec.v (sentry: what a reader of the text
   sees; txn_balanced_b: exact decimal sum is zero; next_state/state_after: the open directives
   in force after a prefix of the ledger), Spec/BeancountErase.v (erase_entries: model item ->
   reader's entry).  The check evaluates Spec.BeancountSpec.c16_verdict on the binary's output and
   tests on every case that reading the model's text gives back exactly the erased items. *)
From Coq Require Import ZArith List Bool Permutation Sorted.
From Knut Require Import Model.Str Model.Dec Model.Date Model.Account Model.Ledger Model.Journal
     Model.Pipeline Model.Cli Model.Beancount Model.CliTranscode Spec.BeancountSpec Spec.BeancountErase
     Proofs.PairProofs Proofs.BeancountProofs.
Import ListNotations.
Open Scope Z_scope.

(* the text the command prints is the rendering of the emitted items of the processed days *)
Theorem C16_text_is_rendering : forall l c v sds text,
  transcode_cmd l (Some (c :: v)) sds = COk text ->
  exists days, transcode_days l (c :: v) sds = COk days /\ text = transcode days (c :: v).
Proof. exact transcode_cmd_text. Qed.
Print Assumptions C16_text_is_rendering.

(* (1) every emitted transaction sums to exactly zero in V: the decimal sum of its amounts,
   computed without rounding, has coefficient zero.  For every journal and every V. *)
Theorem C16_balanced : forall l v sds days,
  transcode_days l v sds = COk days ->
  Forall entry_balanced (erase_entries v (transcode_entries days [])).
Proof. intros l v sds days H. apply entries_balanced. eapply transcode_days_ok. exact H. Qed.
Print Assumptions C16_balanced.

(* (2) entries appear in chronological order: the dates of the emitted items never decrease *)
Theorem C16_chronological : forall l v sds days,
  transcode_days l v sds = COk days ->
  StronglySorted Z.le (map entry_date (erase_entries v (transcode_entries days []))).
Proof. exact transcode_chronological. Qed.
Print Assumptions C16_chronological.

(* behind it: the builder keeps the days strictly ascending by date (Builder.Day = upd_day),
   no stage changes a day's date, and every transaction carries the date of its day *)
Theorem C16_days_ascending : forall l v sds days,
  transcode_days l v sds = COk days -> Sorted Z.lt (dates days) /\ Forall day_dates_ok days.
Proof. exact transcode_days_dates. Qed.
Print Assumptions C16_days_ascending.

(* (3) nothing lost, nothing duplicated: the multiset of emitted transactions is the multiset
   [users ++ adjs] where [users] are the journal's transactions after accrual expansion
   (directive_txns ds, in some order), each rewritten posting by posting with account, other
   account, commodity and quantity unchanged (txn_sim: only the value is filled in), and [adjs]
   are value adjustments: dated t_date, described "Adjust value of C in account A" for an asset
   or liability account A, posting to A and to valuation_account_for A. *)
Theorem C16_complete : forall l v sds days,
  transcode_days l v sds = COk days ->
  exists ds users adjs,
    parse_directives sds = MOk ds /\
    Permutation (entry_txns (transcode_entries days [])) (users ++ adjs) /\
    (exists orig, Permutation orig (directive_txns ds) /\ Forall2 txn_sim orig users) /\
    Forall (fun t => adjustment (t_date t) t) adjs.
Proof. exact transcode_complete. Qed.
Print Assumptions C16_complete.

(* Transcode itself neither drops nor repeats a transaction of the days it is given *)
Theorem C16_transcode_permutation : forall days seen,
  Permutation (entry_txns (transcode_entries days seen)) (all_txns days).
Proof. exact transcode_entries_perm. Qed.
Print Assumptions C16_transcode_permutation.

(* (4) open before use, not used after close -- for every emitted transaction that is not a
   value adjustment: at the point where it is emitted, each of its posting accounts has an open
   directive earlier in the ledger that is not followed by a close directive (st_open of the
   reader's state after the preceding entries).  With C16_chronological that open directive is
   dated on or before the transaction.  This is the checker's invariant (check_proc accepted
   the posting) carried through Valuate and Transcode.
   The asset/liability account A of a value adjustment is still open as well:
   C16_adjusted_account_open at the end of this file. *)
Theorem C16_open_before_use : forall l v sds days pre t post,
  transcode_days l v sds = COk days ->
  transcode_entries days [] = pre ++ BTxn t :: post ->
  adjustment (t_date t) t \/
  Forall (fun p => mem (acc_name (p_acc p)) (map fst (st_open (state_after (erase_entries v pre)))) = true)
         (t_postings t).
Proof. exact transcode_open_before_use. Qed.
Print Assumptions C16_open_before_use.

(* (4') The same clause for the accounts Valuate posts value adjustments to is FALSE of the
   faithful model (and of knut: findings/C16-valuation-accounts-unopened.md, DESIGN F16):
   Registry.ValuationAccountFor yields Income:<rest of the path>, Transcode emits an open
   directive only for accounts named Equity:Valuation:..., and the adjustments are created after
   the checker ran.  Witness: one share bought at 100, priced 110 two days later. *)
Definition chf : str := [67;72;70].
Definition c16_witness : list sdirective :=
  let acc s := acc_of_name s in
  let P := [65;115;115;101;116;115;58;80] (* Assets:P *) in
  let E := [69;113;117;105;116;121;58;69] (* Equity:E *) in
  let aapl := [65;65;80;76] in
  let d0 := Date.of_civil 2020 1 1 in
  [ SOpen d0 (acc P); SOpen d0 (acc E);
    SPrice d0 aapl (mkDec 100 0) chf;
    SPrice (d0 + 2) aapl (mkDec 110 0) chf;
    STxn (mkStxn (d0 + 1) [66;117;121] [mkBooking (acc E) (acc P) (mkDec 1 0) aapl] None None) ].
Definition c16_days : list day :=
  match transcode_days true chf c16_witness with COk d => d | _ => [] end.

Theorem C16_valuation_open_refuted :
  exists sds v days pre t post p,
    transcode_days true v sds = COk days /\
    transcode_entries days [] = pre ++ BTxn t :: post /\
    In p (t_postings t) /\
    (* no open directive in force when it is posted to ... *)
    mem (acc_name (p_acc p)) (map fst (st_open (state_after (erase_entries v pre)))) = false /\
    (* ... and none anywhere in the ledger *)
    existsb (fun e => match e with BOpen _ a => acc_eqb a (p_acc p) | _ => false end)
            (transcode_entries days []) = false.
Proof.
  exists c16_witness, chf, c16_days, (firstn 3 (transcode_entries c16_days [])).
  eexists. exists []. eexists.
  split; [vm_compute; reflexivity|].
  split; [vm_compute; reflexivity|].
  split; [vm_compute; left; reflexivity|].
  split; vm_compute; reflexivity.
Qed.
Print Assumptions C16_valuation_open_refuted.

(* the executable statement of the property gives exactly this verdict on the model's text of
   the witness: FAIL:unopened-valuation-account Income:P *)
Example C16_witness_verdict :
  match transcode_cmd true (Some chf) c16_witness with
  | COk text => beancount_ok_b text
  | _ => []
  end = [70;65;73;76;58] ++ k_unopened_val ++ [32] ++ [73;110;99;111;109;101;58;80].
Proof. vm_compute. reflexivity. Qed.

(* non-vacuity: the command succeeds on the witness, the ledger has two transactions (the
   purchase and one value adjustment), and reading the text gives back the emitted items *)
Example C16_example :
  match transcode_days true chf c16_witness with
  | COk days => length (entry_txns (transcode_entries days [])) = 2%nat /\ roundtrip_b chf days = true
  | _ => False
  end.
Proof. vm_compute. split; reflexivity. Qed.

(* without -v the pinned Go code dereferenced the nil commodity (c.Name() in beancount.Transcode):
   modelled as CPanic; found under C14 (findings/C14-transcode-without-valuation-panics.md) and
   repaired by 864fd70: the command now fails with an error before loading anything *)
Example C16_no_valuation_panics_pinned :
  transcode_cmd_pinned true None c16_witness = CPanic k_nil_commodity.
Proof. vm_compute. reflexivity. Qed.

Theorem C16_no_valuation_is_error : forall l ds, transcode_cmd l None ds = CErr k_valuation [].
Proof. reflexivity. Qed.
Print Assumptions C16_no_valuation_is_error.

(* (3'), the clause Spec/BeancountMtmSpec.v adds to the executable verdict: in the emitted ledger
   the postings on every asset/liability account add up to the account's market value on the
   journal's last day, Sum_c Q_T(a,c) * p_T(c) (Spec/ValuationSpec.v market_value: quantities and
   normalised prices straight from the directives), within ValuationSpec.step_bound * 10^-8 (one
   per booking of the account, one per (day of the journal, held commodity), + 1).
   Proofs/TranscodeMtmCell.v (one cell: Sort permutes a day's transactions, Check changes nothing,
   C03_mark_to_market for ComputePrices+Valuate, the builder's days carry the journal's quantities
   and prices; a commodity never booked on the account is never revalued) and
   Proofs/TranscodeMtmSum.v (sum over the held commodities, the step count, decimals).
   Side condition: the parser's guarantee on account names (postings_syntactic, as in C03/C02/C04:
   C03_syntactic_sufficient).  The steps are counted inside the window [first_date, last_date] of
   the journal (dates of the year 0000 are negative day numbers: see C16_mtm_year0_example). *)
From Coq Require Import QArith Qabs.
From Knut Require Import Model.Price Spec.WellformedSpec Spec.LedgerSpec Spec.LedgerSyntax Spec.MarkToMarketSpec Spec.ValuationSpec
     Spec.MarkToMarketReportSpec Spec.BeancountMtmSpec Spec.TranscodeMtmSpec
     Proofs.DecValue Proofs.TranscodeMtmCell Proofs.TranscodeMtmSum.
Open Scope Z_scope.

(* on the days handed to beancount.Transcode: the exact decimal sum of the values posted to a *)
Theorem C16_account_totals_mark_to_market : forall l v sds dl days a e,
  parse_directives sds = MOk dl -> postings_syntactic dl ->
  transcode_days l v sds = COk days ->
  account_ok a = true -> is_AL a = true ->
  market_value dl v a (last_date dl) = Some e ->
  within_bound (posted_total a (days_postings days)) e (step_bound dl a (first_date dl) (last_date dl)) = true.
Proof.
  intros l v sds dl days a e Hl Hsyn H Ha HAL He. apply within_bound_intro. rewrite posted_total_value.
  eapply Qle_trans; [exact (transcode_account_total_Q l v sds dl days a _ e Hl Hsyn (last_date_upto dl) H Ha HAL He)|].
  apply Qmult_le_compat_r; [|exact MarkToMarket.eps8_nonneg]. rewrite <- Zle_Qle.
  exact (com_steps_bound dl v a (first_date dl) (last_date dl) (journal_window dl)).
Qed.
Print Assumptions C16_account_totals_mark_to_market.

(* on the emitted ledger, in the reader's vocabulary: the clause of c16_verdict_mtm finds nothing *)
Theorem C16_ledger_mark_to_market : forall l v sds dl days,
  parse_directives sds = MOk dl -> postings_syntactic dl ->
  transcode_days l v sds = COk days ->
  mtm_check dl v (erase_entries v (transcode_entries days [])) = [].
Proof. exact transcode_mtm_check. Qed.
Print Assumptions C16_ledger_mark_to_market.

(* the account total the reader computes from the ledger is the total of the days' postings *)
Theorem C16_ledger_total_is_days_total : forall v a days,
  (dvalue (ledger_total (erase_entries v (transcode_entries days [])) (acc_name a))
   == dvalue (posted_total a (days_postings days)))%Q.
Proof. intros v a days. rewrite ledger_total_days, posted_total_value. reflexivity. Qed.
Print Assumptions C16_ledger_total_is_days_total.

(* behind them, per commodity, for any date T on or after the last directive: a commodity other than V is carried at quantity * latest price up to 10^-8 per
   booking of (a, c) and per day of the journal; V itself exactly at its quantity; a commodity the
   account never books gets no posting at all (so no adjustment can come from nowhere) *)
Theorem C16_position_mark_to_market : forall l v sds dl days a c T,
  parse_directives sds = MOk dl -> postings_syntactic dl -> (forall d, In d dl -> directive_date d <= T) ->
  transcode_days l v sds = COk days ->
  account_ok a = true -> is_AL a = true -> c <> v ->
  (Qabs (cell_value a c (days_postings days) - mv_cell dl v a c T)
   <= inject_Z (cell_bookings dl a c + Z.of_nat (length (WellformedSpec.dates dl))) * (1 # 100000000))%Q.
Proof.
  intros l v sds dl days a c T Hl Hsyn HT. apply transcode_cell; assumption.
Qed.
Print Assumptions C16_position_mark_to_market.

Theorem C16_valuation_commodity_at_quantity : forall l v sds dl days a T,
  parse_directives sds = MOk dl -> postings_syntactic dl -> (forall d, In d dl -> directive_date d <= T) ->
  transcode_days l v sds = COk days ->
  (cell_value a v (days_postings days) == mv_cell dl v a v T)%Q.
Proof.
  intros l v sds dl days a T Hl Hsyn HT. apply transcode_cell_V; assumption.
Qed.
Print Assumptions C16_valuation_commodity_at_quantity.

Theorem C16_unbooked_commodity_not_posted : forall l v sds dl days a c,
  parse_directives sds = MOk dl -> postings_syntactic dl ->
  transcode_days l v sds = COk days ->
  account_ok a = true -> is_AL a = true ->
  (forall d p, In (d, p) (flat_postings dl) -> cellb a c p = false) ->
  Forall (fun p => cellb a c p = false) (days_postings days).
Proof.
  intros l v sds dl days a c Hl Hsyn H Ha HAL Hn. apply (transcode_cell_unbooked l v sds dl days a c Hl Hsyn H Ha HAL).
  unfold cell_bookings. rewrite Proofs.ListFacts.filter_none; [reflexivity|].
  intros [d p] Hin. exact (Hn d p Hin).
Qed.
Print Assumptions C16_unbooked_commodity_not_posted.

(* the hypotheses are satisfiable and the statement is not vacuous: on the witness above (one AAPL
   bought at 100, priced 110 two days later) Assets:P must total 110 = 1 * 110 (purchase 100 +
   adjustment 10), allowance 5e-8; the model's ledger totals exactly 110 *)
Example C16_mtm_example :
  match parse_directives c16_witness, transcode_days true chf c16_witness with
  | MOk dl, COk days =>
    let a := acc_of_name [65;115;115;101;116;115;58;80] in
    postings_syntactic_b dl = true /\ account_ok a = true /\ is_AL a = true /\
    market_value dl chf a (last_date dl) = Some (mkDec 110 0) /\
    step_bound dl a (first_date dl) (last_date dl) = 5 /\
    posted_total a (days_postings days) = mkDec 110 0 /\
    ledger_total (erase_entries chf (transcode_entries days [])) (acc_name a) = mkDec 110 0
  | _, _ => False
  end.
Proof. vm_compute. repeat split; reflexivity. Qed.

(* (4'') what C16_open_before_use leaves out for value adjustments, as far as it is true: every
   posting on an asset/liability account -- of a user transaction or of a value adjustment -- goes
   to an account with an open directive in force at that point of the ledger (and no later close).
   Valuate books an adjustment only for a position whose quantity is not zero at the start of the
   day; Check refuses to close an account with a non-zero position and refuses postings to accounts
   that are not open; both stages add the same quantities to the same positions
   (Proofs/TranscodeOpenAL.v: the coupling of Check's and Valuate's quantity maps).
   The other posting of an adjustment goes to Income:..., for which the clause is false
   (C16_valuation_open_refuted above, F16). *)
From Knut Require Import Proofs.TranscodeOpenAL.
Open Scope Z_scope.

Theorem C16_adjusted_account_open : forall l v sds dl days pre t post,
  parse_directives sds = MOk dl -> postings_syntactic dl ->
  transcode_days l v sds = COk days ->
  transcode_entries days [] = pre ++ BTxn t :: post ->
  Forall (fun p => is_AL (p_acc p) = true ->
                   mem (acc_name (p_acc p)) (map fst (st_open (state_after (erase_entries v pre)))) = true)
         (t_postings t).
Proof. exact transcode_AL_open_before_use. Qed.
Print Assumptions C16_adjusted_account_open.

(* non-vacuity: the fourth emitted item of the witness is the value adjustment; its posting on
   Assets:P finds the open directive, its posting on Income:P does not (F16) *)
Example C16_adjusted_account_example :
  match transcode_days true chf c16_witness with
  | COk days =>
    match nth_error (transcode_entries days []) 3 with
    | Some (BTxn t) =>
      let st := state_after (erase_entries chf (firstn 3 (transcode_entries days []))) in
      map (fun p => (is_AL (p_acc p), mem (acc_name (p_acc p)) (map fst (st_open st)))) (t_postings t)
      = [(false, false); (true, true)]
    | _ => False
    end
  | _ => False
  end.
Proof. vm_compute. reflexivity. Qed.

(* The window of the step count starts at the journal's first date, not at day 0 = 0001-01-01: dates
   of the year 0000 (which time.Parse and the model accept) are negative day numbers.  With the
   window [0, last day] the clause would report
   account-total-not-mark-to-market on the correct ledger of this journal: 0.3 AAPL bought on
   0000-06-01 and again on 0000-06-02 at 0.33333333; the ledger carries 2 * 0.09999999 = 0.19999998
   on Assets:P, the market value is 0.6 * 0.33333333 = 0.199999998, the difference 1.8e-8 is two
   legitimate truncations, and the allowance would evaluate to 1e-8 (no booking and no day inside
   the window).  From the first date the allowance is 2 bookings + 2 days * 1 commodity + 1 = 5. *)
Definition c16_year0_witness : list sdirective :=
  let acc s := acc_of_name s in
  let P := [65;115;115;101;116;115;58;80] (* Assets:P *) in
  let E := [69;113;117;105;116;121;58;69] (* Equity:E *) in
  let aapl := [65;65;80;76] in
  let d0 := Date.of_civil 0 6 1 in
  [ SOpen d0 (acc P); SOpen d0 (acc E);
    SPrice d0 aapl (mkDec 33333333 (-8)) chf;
    STxn (mkStxn d0 [66;117;121] [mkBooking (acc E) (acc P) (mkDec 3 (-1)) aapl] None None);
    STxn (mkStxn (d0 + 1) [66;117;121] [mkBooking (acc E) (acc P) (mkDec 3 (-1)) aapl] None None) ].

Example C16_mtm_year0_example :
  match parse_directives c16_year0_witness, transcode_days true chf c16_year0_witness with
  | MOk dl, COk days =>
    let a := acc_of_name [65;115;115;101;116;115;58;80] in
    postings_syntactic_b dl = true /\ first_date dl < 0 /\ last_date dl = 0 /\
    market_value dl chf a (last_date dl) = Some (mkDec 199999998 (-9)) /\
    posted_total a (days_postings days) = mkDec 19999998 (-8) /\
    step_bound dl a 0 (last_date dl) = 1 /\
    step_bound dl a (first_date dl) (last_date dl) = 5 /\
    mtm_check dl chf (erase_entries chf (transcode_entries days [])) = []
  | _, _ => False
  end.
Proof. vm_compute. repeat split; reflexivity. Qed.

(* The theorems above are about the emitted items; the executable verdict works on text.  The
   reader of Spec/BeancountSpec.v applied to the text Model/Beancount.v writes gives back the
   valuation commodity as written and the erased items, for EVERY valuation commodity and EVERY
   list of items that satisfy the lexical side conditions of Spec/BeancountLex.v:
     commodity_lex_b v   V has no newline and no double quote, stripNonAlphanum(V) is not empty;
     entries_lex_b es    dates in the years 0000..9999; account names not empty, without space,
                         newline and double quote; descriptions without double quote (newlines
                         are allowed: knut's parser accepts them, C16_linewise_reader_refuted).
   Amounts come back as they are after a trip through Decimal.String (DecNormalForm.reread: the
   same value, trailing zeros dropped, positive exponents expanded; reread_entries applies it to
   every amount).  With the amounts themselves the statement is false
   (C16_text_roundtrip_exact_refuted); no clause of the verdict can tell the difference
   (C16_verdict_on_model_text).
   Proofs/BeancountRead.v. *)
From Knut Require Import Spec.BeancountLex Proofs.DecNormalForm Proofs.BeancountRead Proofs.BeancountVerdict
     Proofs.BeancountLexDays.
Open Scope Z_scope.

Theorem C16_text_roundtrip : forall v es,
  commodity_lex_b v = true -> entries_lex_b es = true ->
  read_ledger (s_option ++ v ++ [34;10;10] ++ concat (map (write_entry v) es))
  = Some (v, reread_entries (erase_entries v es)).
Proof. exact read_ledger_text. Qed.
Print Assumptions C16_text_roundtrip.

(* the statement without re-reading,
     read_ledger (s_option ++ v ++ [34;10;10] ++ concat (map (write_entry v) es)) = Some (v, erase_entries v es),
   is false of the model: 1.0 CHF booked in a ledger valued in CHF is carried as 10 * 10^-1,
   printed as "1" and read as 1 * 10^0 *)
Definition c16_trailing_zero_witness : list sdirective :=
  let acc s := acc_of_name s in
  let P := [65;115;115;101;116;115;58;80] (* Assets:P *) in
  let E := [69;113;117;105;116;121;58;69] (* Equity:E *) in
  let d0 := Date.of_civil 2020 1 1 in
  [ SOpen d0 (acc P); SOpen d0 (acc E);
    STxn (mkStxn d0 [66;117;121] [mkBooking (acc E) (acc P) (mkDec 10 (-1)) chf] None None) ].

Theorem C16_text_roundtrip_exact_refuted :
  exists sds v dl days,
    parse_directives sds = MOk dl /\ journal_lex_b dl = true /\ commodity_lex_b v = true /\
    transcode_days true v sds = COk days /\
    read_ledger (transcode days v) <> Some (v, erase_entries v (transcode_entries days [])).
Proof.
  exists c16_trailing_zero_witness, chf. eexists. eexists.
  split; [vm_compute; reflexivity|]. split; [vm_compute; reflexivity|]. split; [vm_compute; reflexivity|].
  split; [vm_compute; reflexivity|]. vm_compute. discriminate.
Qed.
Print Assumptions C16_text_roundtrip_exact_refuted.

(* the executable comparison [roundtrip_b] (amounts through Decimal.String) holds of every case *)
Theorem C16_roundtrip_check : forall v days,
  commodity_lex_b v = true -> entries_lex_b (transcode_entries days []) = true -> roundtrip_b v days = true.
Proof. exact roundtrip_b_true. Qed.
Print Assumptions C16_roundtrip_check.

(* the items `knut transcode` emits satisfy the side condition whenever the journal's directives
   (after accrual expansion, as in postings_syntactic) are lexical: years 0000..9999; account
   segments without space, newline and double quote, the first one not empty; descriptions and
   commodities without double quote.  This is less than knut's parser guarantees.  It is more
   than postings_syntactic (account_ok allows a space inside a segment and says nothing about
   dates): C16_space_in_account_example.  Proofs/BeancountLexDays.v: the builder, day_step for
   Sort/ComputePrices/Check, and for Valuate the invariant that every position held comes from a
   lexical posting (the adjustments and their descriptions are built from the positions). *)
Theorem C16_emitted_items_lexical : forall l v sds dl days,
  parse_directives sds = MOk dl -> journal_lex_b dl = true ->
  transcode_days l v sds = COk days ->
  entries_lex_b (transcode_entries days []) = true.
Proof. exact transcode_days_entries_lex. Qed.
Print Assumptions C16_emitted_items_lexical.

Theorem C16_model_text_roundtrip : forall l v sds dl days,
  parse_directives sds = MOk dl -> journal_lex_b dl = true -> commodity_lex_b v = true ->
  transcode_days l v sds = COk days ->
  read_ledger (transcode days v) = Some (v, reread_entries (erase_entries v (transcode_entries days []))) /\
  roundtrip_b v days = true.
Proof.
  intros l v sds dl days Hp Hj Hv H.
  pose proof (transcode_days_entries_lex l v sds dl days Hp Hj H) as Hes.
  split; [exact (read_ledger_text v _ Hv Hes)|exact (roundtrip_b_true v days Hv Hes)].
Qed.
Print Assumptions C16_model_text_roundtrip.

(* Hence the verdict of the check on the model's own text is what the three clauses say about the
   erased items -- the objects of C16_balanced, C16_chronological, C16_complete,
   C16_open_before_use, C16_adjusted_account_open and C16_ledger_mark_to_market.  (The clauses look
   at values of amounts only: Proofs/BeancountVerdict.v.) *)
Theorem C16_verdict_on_model_text : forall l v sds dl days,
  parse_directives sds = MOk dl -> journal_lex_b dl = true -> commodity_lex_b v = true ->
  transcode_days l v sds = COk days ->
  let es := erase_entries v (transcode_entries days []) in
  c16_verdict_mtm sds v (transcode days v)
  = verdict_of (beancount_check v es ++ complete_check sds es ++ mtm_check dl v es).
Proof.
  intros l v sds dl days Hp Hj Hv H es.
  rewrite (verdict_on_model_text sds v days Hv (transcode_days_entries_lex l v sds dl days Hp Hj H)).
  unfold c16_violations. rewrite Hp. reflexivity.
Qed.
Print Assumptions C16_verdict_on_model_text.

(* hypotheses satisfiable, statement not vacuous: the witness of C16_valuation_open_refuted is
   lexical, and the right-hand side of C16_verdict_on_model_text evaluates to F16's verdict *)
Example C16_verdict_on_model_text_example :
  match parse_directives c16_witness, transcode_days true chf c16_witness with
  | MOk dl, COk days =>
    let es := erase_entries chf (transcode_entries days []) in
    journal_lex_b dl = true /\ commodity_lex_b chf = true /\
    entries_lex_b (transcode_entries days []) = true /\
    verdict_of (beancount_check chf es ++ complete_check c16_witness es ++ mtm_check dl chf es)
    = [70;65;73;76;58] ++ k_unopened_val ++ [32] ++ [73;110;99;111;109;101;58;80]
  | _, _ => False
  end.
Proof. vm_compute. repeat split; reflexivity. Qed.

(* read_ledger keeps a newline inside a double-quoted string in the line (split_lines): knut's
   parser reads a description up to the next double quote (parseQuotedString), newlines included,
   and writeTrx prints it as it is (a multi-line string, legal beancount); a reader that split the
   text at every newline would reject such a correct ledger (verdict FAIL:unreadable).  Witness:
   the journal of C16_valuation_open_refuted with the description "Buy\nmore". *)
Definition c16_multiline_witness : list sdirective :=
  let acc s := acc_of_name s in
  let P := [65;115;115;101;116;115;58;80] (* Assets:P *) in
  let E := [69;113;117;105;116;121;58;69] (* Equity:E *) in
  let aapl := [65;65;80;76] in
  let d0 := Date.of_civil 2020 1 1 in
  [ SOpen d0 (acc P); SOpen d0 (acc E);
    SPrice d0 aapl (mkDec 100 0) chf;
    SPrice (d0 + 2) aapl (mkDec 110 0) chf;
    STxn (mkStxn (d0 + 1) [66;117;121;10;109;111;114;101] [mkBooking (acc E) (acc P) (mkDec 1 0) aapl] None None) ].

Theorem C16_linewise_reader_refuted :
  exists sds v dl days,
    parse_directives sds = MOk dl /\ journal_lex_b dl = true /\ commodity_lex_b v = true /\
    transcode_days true v sds = COk days /\
    read_ledger_linewise (transcode days v) = None /\
    read_ledger (transcode days v) = Some (v, reread_entries (erase_entries v (transcode_entries days []))).
Proof.
  exists c16_multiline_witness, chf. eexists. eexists.
  split; [vm_compute; reflexivity|]. split; [vm_compute; reflexivity|]. split; [vm_compute; reflexivity|].
  split; [vm_compute; reflexivity|]. split; vm_compute; reflexivity.
Qed.
Print Assumptions C16_linewise_reader_refuted.

(* the side condition is needed, and postings_syntactic does not imply it: an account segment
   with a space (account_ok allows it; knut's parser does not) -- the posting line then has four
   fields and the reader rejects it *)
Example C16_space_in_account_example :
  let sds := [ SOpen 737425 [s_Assets; [65;32;66]]; SOpen 737425 [s_Equity; [69]];
               STxn (mkStxn 737425 [66] [mkBooking [s_Equity; [69]] [s_Assets; [65;32;66]] (mkDec 1 0) chf] None None) ] in
  match parse_directives sds, transcode_days true chf sds with
  | MOk dl, COk days =>
    Spec.LedgerSyntax.postings_syntactic_b dl = true /\ journal_lex_b dl = false /\ roundtrip_b chf days = false
  | _, _ => False
  end.
Proof. vm_compute. repeat split; reflexivity. Qed.

(* the order clause starts at 0000-01-01, the least date the reader can return (bst_init): started
   at day 0 = 0001-01-01 it would report the first entry of a ledger of the year 0000 (negative day
   numbers; time.Parse and knut accept them) as FAIL:order.  The year-0000 journal of
   C16_mtm_year0_example: *)
Example C16_order_year0_example :
  match transcode_cmd true (Some chf) c16_year0_witness with
  | COk text => c16_verdict_mtm c16_year0_witness chf text = s_ok
  | _ => False
  end.
Proof. vm_compute. reflexivity. Qed.

(* With C16_verdict_on_model_text the verdict of the check on the text the model writes is decided
   by the three clauses on the erased items.  The statement: that verdict is `ok`, or
   `FAIL:unopened-valuation-account A` (F16), or `FAIL:closed-valuation-account A` (F16b) for a
   valuation account A = Income:..., i.e. every violation the three clauses raise has the known
   shape -- for EVERY journal the parser can produce (C16_model_verdict, hypothesis on the input:
   C09's input_lex) and every valuation commodity that can be written into the option line.

   The pieces:
   C16_violations_from_adjustments   mtm_check finds nothing (C16_ledger_mark_to_market); beancount_check
       raises no order, unbalanced or commodity violation, and every violation it raises comes from a
       posting of a VALUE ADJUSTMENT on an account that is not an asset or liability account -- the
       Income:... account of F16/F16b (Proofs/BeancountVerdict.v, Proofs/BeancountVerdictOpen.v);
   C16_posting_violations_known_shape   check_posting classifies each of them as the known shape: the
       verdict's adjusted_account reads "Adjust value of C in account A" back (C up to the first space),
       A is an asset/liability name, the posting's account is valuation_name A, and A has an open
       directive in force (C16_adjusted_account_open).  Proofs/BeancountKnownShape.v;
   C16_complete_check_finds_nothing   every user transaction is found among the emitted ones, what
       remains are value adjustments, at most one per day and description: Valuate's position map has
       pairwise different keys, and different positions have different descriptions.
       Proofs/TranscodeAdjust.v, Proofs/BeancountComplete.v;
   C16_input_lexical   the side conditions, journal_lex_b and Spec/BeancountAdjLex.v journal_adj_lex_b
       (on every posting after accrual expansion: account syntactic in the sense of C02/C03/C04, hence
       determined by its name; commodity without space), hold of the parsed directives of every input
       that satisfies input_lex.  Proofs/BeancountInputLex.v.
   The second side condition is needed: C16_space_in_commodity_example. *)
From Knut Require Import Spec.BeancountAdjLex Proofs.BeancountVerdictOpen Proofs.TranscodeAdjust Proofs.BeancountKnownShape
     Proofs.BeancountComplete Proofs.PrintLex Proofs.PrintLexInput Proofs.BeancountInputLex Proofs.BeancountModelVerdict.

Theorem C16_violations_from_adjustments : forall l v sds dl days,
  parse_directives sds = MOk dl -> postings_syntactic dl -> journal_lex_b dl = true ->
  commodity_lex_b v = true -> transcode_days l v sds = COk days ->
  let es := erase_entries v (transcode_entries days []) in
  c16_verdict_mtm sds v (transcode days v) = verdict_of (beancount_check v es ++ complete_check sds es) /\
  mtm_check dl v es = [] /\
  Forall (fun x =>
            (v_kind x = k_unopened \/ v_kind x = k_use_after_close \/ v_kind x = k_unopened_val \/ v_kind x = k_closed_val) /\
            exists pre t post p,
              transcode_entries days [] = pre ++ BTxn t :: post /\ adjustment (t_date t) t /\
              In p (t_postings t) /\ is_AL (p_acc p) = false /\ v_detail x = acc_name (p_acc p))
         (beancount_check v es).
Proof.
  intros l v sds dl days Hp Hsyn Hj Hv H es.
  pose proof (transcode_mtm_check l v sds dl days Hp Hsyn H) as Hm. fold es in Hm.
  split; [|split; [exact Hm|exact (beancount_check_model l v sds dl days Hp Hsyn Hj H)]].
  rewrite (C16_verdict_on_model_text l v sds dl days Hp Hj Hv H). fold es. rewrite Hm, app_nil_r. reflexivity.
Qed.
Print Assumptions C16_violations_from_adjustments.

(* (1) every violation beancount_check raises on the model's items has the known shape *)
Theorem C16_posting_violations_known_shape : forall l v sds dl days,
  parse_directives sds = MOk dl -> journal_lex_b dl = true -> journal_adj_lex_b dl = true ->
  transcode_days l v sds = COk days ->
  Forall (fun x => v_known_shape x = true /\ (v_kind x = k_unopened_val \/ v_kind x = k_closed_val))
         (beancount_check v (erase_entries v (transcode_entries days []))).
Proof. exact beancount_check_known. Qed.
Print Assumptions C16_posting_violations_known_shape.

(* behind it: what Valuate adds to the days Check passed on ([d3]: the builder's days after Sort,
   ComputePrices, Check, which add no transaction).  Day by day: the date is kept; the transactions are
   the day's transactions followed by adjustments [ts], each for a position (a, c) with a syntactic
   asset/liability account and a commodity without space (adjustment_lex), with pairwise different
   descriptions; all rewritten posting by posting (values filled in: txn_sim).  And every posting handed
   to beancount.Transcode has a syntactic account and a commodity without space (day_good). *)
Theorem C16_valuate_adjustments : forall l v sds dl days,
  parse_directives sds = MOk dl -> journal_adj_lex_b dl = true -> transcode_days l v sds = COk days ->
  exists d3, Forall2 (day_step no_extra) (b_days (builder_of dl)) d3 /\
    Forall2 (fun d d' =>
               d_date d' = d_date d /\
               exists ts, Forall2 txn_sim (d_txns d ++ ts) (d_txns d') /\
                          Forall (adjustment_lex (d_date d)) ts /\ NoDup (map t_desc ts)) d3 days /\
    Forall day_good days.
Proof. exact transcode_days_val. Qed.
Print Assumptions C16_valuate_adjustments.

(* (2) complete_check finds nothing on the model's items: no lost-transaction, no spurious-transaction,
   no duplicated-adjustment *)
Theorem C16_complete_check_finds_nothing : forall l v sds dl days,
  parse_directives sds = MOk dl -> journal_adj_lex_b dl = true -> transcode_days l v sds = COk days ->
  complete_check sds (erase_entries v (transcode_entries days [])) = [].
Proof. exact complete_check_model. Qed.
Print Assumptions C16_complete_check_finds_nothing.

(* (3) the side conditions hold of the parsed directives of every input the parser can produce *)
Theorem C16_input_lexical : forall sds dl,
  input_lex sds -> parse_directives sds = MOk dl ->
  journal_lex_b dl = true /\ journal_adj_lex_b dl = true.
Proof. exact input_lex_journal. Qed.
Print Assumptions C16_input_lexical.

Theorem C16_adj_lex_is_syntactic : forall dl, journal_adj_lex_b dl = true -> postings_syntactic dl.
Proof. exact journal_adj_lex_syntactic. Qed.
Print Assumptions C16_adj_lex_is_syntactic.

(* the three clauses together, on the parsed journal: the statement that was open *)
Theorem C16_model_violations : forall l v sds dl days,
  parse_directives sds = MOk dl -> journal_lex_b dl = true -> journal_adj_lex_b dl = true ->
  transcode_days l v sds = COk days ->
  let es := erase_entries v (transcode_entries days []) in
  Forall (fun x => v_known_shape x = true /\ (v_kind x = k_unopened_val \/ v_kind x = k_closed_val))
         (beancount_check v es ++ complete_check sds es ++ mtm_check dl v es).
Proof. exact model_violations_known. Qed.
Print Assumptions C16_model_violations.

(* THE VERDICT, hypothesis on the input.  For every journal of syntax-level directives with years
   0000..9999, account segments and commodities non-empty runs of letters and digits, descriptions
   valid UTF-8 without a double quote (input_lex: what knut's parser guarantees of every journal it
   has read, Proofs/PrintLexInput.v), every valuation commodity that can be written and read back
   (commodity_lex_b: no newline, no double quote, stripNonAlphanum(V) not empty) and both settings of
   the checker, if the model of the pipeline succeeds then the executable verdict of the check --
   reader of the text, balanced, chronological, open-before-use, completeness, mark-to-market -- on
   the text the model writes is `ok` or the rendering of a violation of the known shape. *)
Theorem C16_model_verdict : forall l v sds days,
  input_lex sds -> commodity_lex_b v = true -> transcode_days l v sds = COk days ->
  c16_verdict_mtm sds v (transcode days v) = s_ok \/
  exists x, (v_known_shape x = true /\ (v_kind x = k_unopened_val \/ v_kind x = k_closed_val)) /\
            c16_verdict_mtm sds v (transcode days v) = render_violation x.
Proof. exact model_verdict. Qed.
Print Assumptions C16_model_verdict.

(* the same with the side conditions on the parsed journal (bytes only; weaker than input_lex) *)
Theorem C16_model_verdict_parsed : forall l v sds dl days,
  parse_directives sds = MOk dl -> journal_lex_b dl = true -> journal_adj_lex_b dl = true ->
  commodity_lex_b v = true -> transcode_days l v sds = COk days ->
  c16_verdict_mtm sds v (transcode days v) = s_ok \/
  exists x, (v_known_shape x = true /\ (v_kind x = k_unopened_val \/ v_kind x = k_closed_val)) /\
            c16_verdict_mtm sds v (transcode days v) = render_violation x.
Proof. exact model_verdict_parsed. Qed.
Print Assumptions C16_model_verdict_parsed.

(* and for the command: `knut transcode -v V FILE` with V of the parser's shape *)
Theorem C16_model_verdict_cmd : forall l v sds text,
  input_lex sds -> com_lex v -> transcode_cmd l (Some v) sds = COk text ->
  c16_verdict_mtm sds v text = s_ok \/
  exists x, (v_known_shape x = true /\ (v_kind x = k_unopened_val \/ v_kind x = k_closed_val)) /\
            c16_verdict_mtm sds v text = render_violation x.
Proof. exact model_verdict_cmd. Qed.
Print Assumptions C16_model_verdict_cmd.

(* the hypotheses hold of the witness of C16_valuation_open_refuted, and the one violation is the
   posting of the adjustment on Income:P *)
Example C16_model_verdict_example :
  match parse_directives c16_witness, transcode_days true chf c16_witness with
  | MOk dl, COk days =>
    Spec.LedgerSyntax.postings_syntactic_b dl = true /\ journal_lex_b dl = true /\ journal_adj_lex_b dl = true /\
    map (fun x => (v_kind x, v_detail x, v_known_shape x))
        (beancount_check chf (erase_entries chf (transcode_entries days [])))
    = [(k_unopened_val, [73;110;99;111;109;101;58;80], true)] /\
    complete_check c16_witness (erase_entries chf (transcode_entries days [])) = []
  | _, _ => False
  end.
Proof. vm_compute. repeat split; reflexivity. Qed.

(* the input-level hypothesis is satisfiable: the witnesses are journals the parser can produce.  On
   the first the verdict is F16's, on the second (no prices, no adjustment) it is `ok` *)
From Coq Require Import Lia.
From Knut Require Import Model.Utf8 Proofs.ScannerProofs Proofs.RoundTripBase Proofs.PrintWeave Proofs.PrintSem.
Example C16_witness_input_lex : input_lex c16_witness /\ input_lex c16_trailing_zero_witness /\ com_lex chf.
Proof.
  split; [|split].
  - unfold input_lex, c16_witness.
    repeat (apply Forall_cons); try apply Forall_nil; cbn [sdir_lex st_date st_desc st_bookings st_targets st_accrual].
    + split; [date_tac|acc0_tac].
    + split; [date_tac|acc0_tac].
    + split; [date_tac|]. split; seg_tac.
    + split; [date_tac|]. split; seg_tac.
    + split; [date_tac|]. split; [ascii_cls|]. split; [discriminate|].
      split; [forall_tac booking_tac|split; exact I].
  - unfold input_lex, c16_trailing_zero_witness.
    repeat (apply Forall_cons); try apply Forall_nil; cbn [sdir_lex st_date st_desc st_bookings st_targets st_accrual].
    + split; [date_tac|acc0_tac].
    + split; [date_tac|acc0_tac].
    + split; [date_tac|]. split; [ascii_cls|]. split; [discriminate|].
      split; [forall_tac booking_tac|split; exact I].
  - seg_tac.
Qed.

Example C16_model_verdict_values :
  match transcode_cmd true (Some chf) c16_witness, transcode_cmd true (Some chf) c16_trailing_zero_witness with
  | COk text1, COk text2 =>
    c16_verdict_mtm c16_witness chf text1 = render_violation (mkViol k_unopened_val [73;110;99;111;109;101;58;80] true) /\
    c16_verdict_mtm c16_trailing_zero_witness chf text2 = s_ok
  | _, _ => False
  end.
Proof. vm_compute. split; reflexivity. Qed.

(* the condition "commodity without space" is needed (knut's parser guarantees it; the model's
   structured directives do not): one share of "A B".  The journal satisfies postings_syntactic and
   journal_lex_b, the pipeline succeeds, the ledger reads back -- and the verdict's adjusted_account
   reads the commodity of "Adjust value of A B in account Assets:P" as "A", does not find "in account"
   after it, and reports the posting on Income:P as a plain `unopened` (not of the known shape). *)
Definition c16_space_witness : list sdirective :=
  let acc s := acc_of_name s in
  let P := [65;115;115;101;116;115;58;80] (* Assets:P *) in
  let E := [69;113;117;105;116;121;58;69] (* Equity:E *) in
  let ab := [65;32;66] in
  let d0 := Date.of_civil 2020 1 1 in
  [ SOpen d0 (acc P); SOpen d0 (acc E);
    SPrice d0 ab (mkDec 100 0) chf;
    SPrice (d0 + 2) ab (mkDec 110 0) chf;
    STxn (mkStxn (d0 + 1) [66;117;121] [mkBooking (acc E) (acc P) (mkDec 1 0) ab] None None) ].

Example C16_space_in_commodity_example :
  match parse_directives c16_space_witness, transcode_days true chf c16_space_witness with
  | MOk dl, COk days =>
    Spec.LedgerSyntax.postings_syntactic_b dl = true /\ journal_lex_b dl = true /\ journal_adj_lex_b dl = false /\
    roundtrip_b chf days = true /\
    c16_verdict_mtm c16_space_witness chf (transcode days chf)
    = render_violation (mkViol k_unopened [73;110;99;111;109;101;58;80] false)
  | _, _ => False
  end.
Proof. vm_compute. repeat split; reflexivity. Qed.
