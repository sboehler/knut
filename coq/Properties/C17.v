(* C17  Rendered balance tables are rectangular and numerically faithful.
   Theorem statements; the proof under a statement is [exact <lemma>], a few lines from the lemmas
   of Proofs/, or a witness by evaluation; each is followed by Print Assumptions.
   Vocabulary: Spec/TableSpec.v (rect_b, is_round_haz, round_haz, div1000, strip_commas,
   grouping_ok_b, is_numstr_b, num_cell_ok_b, csv_ok_b, table_wf).
   Model: Model/Table.v (render_text, render_csv_rows, num_str, add_thousands_sep,
   final_widths, render_cell), Model/Dec.v (round, to_string_fixed, to_string, div),
   Model/Report.v (render_report).
   Reading of the one place where two clauses of the property pull apart: an amount such as
   -0.004 at two digits is printed "0.00" -- no minus sign (the rounded coefficient is zero),
   and not blank (the amount is not zero): "minus sign iff the ROUNDED value is negative;
   blank iff the amount itself is zero". *)
From Coq Require Import ZArith List Bool Lia.
From Knut Require Import Model.Str Model.Dec Model.Table Model.Report Spec.TableSpec.
From Knut Require Import Proofs.DecRoundProofs Proofs.DecStringProofs Proofs.GroupingProofs
     Proofs.TableProofs Proofs.NumberProofs Proofs.ReportTableProofs.
Import ListNotations.
Open Scope Z_scope.

(* For every table whose rows are as wide as the table (as every row built with
   AddRow..FillEmpty / AddSeparatorRow / AddEmptyRow and every row of the balance report is),
   with non-negative indents and no line break inside a text cell, and every --digits /
   --thousands: all lines of the text rendering have the same number of runes, and there are
   (columns + 1) rune positions, the first and the last among them, at which every line
   carries a column separator '|' or '+'. *)
Theorem C17_rect : forall cfg t, table_wf t -> rect_b (t_width t) (render_text cfg t) = true.
Proof. exact render_text_rect_closed. Qed.
Print Assumptions C17_rect.

(* the structure behind it: the rendering is the lines of the rows, each closed by a newline,
   and a final empty line ... *)
Theorem C17_lines : forall cfg t,
  table_wf t ->
  render_text cfg t =
    concat (map (fun l => l ++ [10]) (map (row_line cfg (final_widths cfg t)) (t_rows t))) ++ [10] /\
  table_lines (render_text cfg t) = Some (map (row_line cfg (final_widths cfg t)) (t_rows t)).
Proof. intros cfg t. apply render_text_lines. apply num_str_no_nl. Qed.
Print Assumptions C17_lines.

(* ... every line is: a separator character, then per column w+2 runes (pad, the cell rendered
   to exactly the column's final width w, pad) followed by a separator character; so the
   separator characters stand at the rune positions sep_pos (final widths) 0 in every line *)
Theorem C17_layout : forall cfg t,
  table_wf t ->
  Forall (fun l => aligned (widths_nat (final_widths cfg t)) (rune_starts l))
         (map (row_line cfg (final_widths cfg t)) (t_rows t)).
Proof. intros cfg t. apply lines_aligned. Qed.
Print Assumptions C17_layout.

Theorem C17_aligned_positions : forall ws l,
  aligned ws l ->
  Forall (fun p => is_sepchar (nth p l 0) = true) (sep_pos ws 0) /\
  length l = S (last (sep_pos ws 0) 0%nat).
Proof. intros ws l H. exact (aligned_seps ws l H []). Qed.
Print Assumptions C17_aligned_positions.

(* a cell is rendered to exactly l runes whenever l is at least its minimal length ... *)
Theorem C17_cell_width : forall cfg c l,
  cell_indent_ok c -> min_length_cell cfg c <= l -> rune_count (render_cell cfg c l) = l.
Proof. exact render_cell_width. Qed.
Print Assumptions C17_cell_width.

(* ... and the final widths dominate the minimal length of every cell of their column *)
Theorem C17_col_widths_ge : forall cfg t,
  rows_full t ->
  length (final_widths cfg t) = t_width t /\
  Forall (fun r => Forall2 (fun c w => min_length_cell cfg c <= w) r (final_widths cfg t)) (t_rows t).
Proof. exact col_widths_ge. Qed.
Print Assumptions C17_col_widths_ge.

(* the balance report builds full rows with non-negative indents *)
Theorem C17_render_report_rows_full : forall cfg r dates,
  let t := render_report cfg r dates in
  (0 < t_width t)%nat /\
  Forall (fun row => length row = t_width t /\ Forall cell_indent_ok row) (t_rows t).
Proof. exact render_report_rows_full. Qed.
Print Assumptions C17_render_report_rows_full.

(* hence every text balance report whose names contain no line break is rectangular *)
Theorem C17_rect_report : forall rc tc r dates,
  Forall (Forall cell_no_nl) (t_rows (render_report rc r dates)) ->
  rect_b (t_width (render_report rc r dates)) (render_text tc (render_report rc r dates)) = true.
Proof.
  intros rc tc r dates. intros Hnl. apply render_text_rect_closed.
    destruct (render_report_rows_full rc r dates) as [Hw Hrows]. split; [exact Hw|].
    rewrite Forall_forall in *. intros row Hrow. destruct (Hrows row Hrow) as [Hl Hi].
    split; [exact Hl|]. split; [exact Hi|exact (Hnl row Hrow)].
Qed.
Print Assumptions C17_rect_report.

(* Decimal.Round is rounding half away from zero, in integers at a common scale: the result
   has exponent -p, is a multiple of the unit of the last kept digit nearest to d, and on a
   tie the one of larger magnitude; this determines it. *)
Theorem C17_round_spec : forall d p, is_round_haz d p (round d p).
Proof. exact round_spec. Qed.
Print Assumptions C17_round_spec.

Theorem C17_round_unique : forall d p r1 r2, is_round_haz d p r1 -> is_round_haz d p r2 -> r1 = r2.
Proof.
  intros d p r1 r2. rewrite !is_round_haz_unfold. intros [E1 H1] [E2 H2].
  destruct r1 as [c1 e1], r2 as [c2 e2]. cbn [coef ex] in *. subst e1 e2. f_equal.
  eapply is_haz_unique; [|exact H1|exact H2]. apply DecProofs.pow10_nonneg_pos. lia.
Qed.
Print Assumptions C17_round_unique.

Theorem C17_round_eq_haz : forall d p, round d p = round_haz d p.
Proof. exact round_eq_haz. Qed.
Print Assumptions C17_round_eq_haz.

(* d / 1000 by DivRound(.., 16) is exact for an amount with at most 13 decimals *)
Theorem C17_div1000_exact : forall d,
  - ex d <= 13 ->
  div d k1000 = DOk (mkDec (coef d * 10 ^ (ex d + 13)) (- 16)) /\
  dec_eqv (mkDec (coef d * 10 ^ (ex d + 13)) (- 16)) (div1000 d).
Proof. exact div1000_exact. Qed.
Print Assumptions C17_div1000_exact.

(* The numeral of a numeric cell, for every amount, --digits p, --thousands:  without its
   commas it is StringFixed of the shown amount d' (d, or d.Div(1000)); that is the numeral
   of d' rounded half away from zero to p places: a plain numeral -?digits(.digits)? with
   max p 0 fractional digits that parses back to the rounded value; a minus sign iff the
   rounded coefficient is negative; well grouped. *)
Theorem C17_number : forall cfg d,
  let p := tc_round cfg in
  exists d',
    shown cfg d d' /\
    strip_commas (num_str cfg d) = to_string_fixed d' p /\
    to_string_fixed d' p = to_string_gen false (round_haz d' p) /\
    round d' p = round_haz d' p /\
    is_round_haz d' p (round d' p) /\
    is_numstr_b (to_string_fixed d' p) = true /\
    frac_len (to_string_fixed d' p) = Z.max p 0 /\
    (exists x, of_string (to_string_fixed d' p) = Some x /\ dec_eqv x (round d' p)) /\
    starts_minus (num_str cfg d) = (coef (round d' p) <? 0) /\
    grouping_ok_b (num_str cfg d) = true.
Proof. exact num_str_spec. Qed.
Print Assumptions C17_number.

(* under --thousands the shown amount is exactly d / 1000 when d has at most 13 decimals *)
Theorem C17_shown_value : forall cfg d d',
  (tc_thousands cfg = true -> - ex d <= 13) ->
  shown cfg d d' -> dec_eqv d' (shown_amount (tc_thousands cfg) d).
Proof. exact shown_value. Qed.
Print Assumptions C17_shown_value.

(* the statement the check evaluates on every numeric cell of the Go output holds of the model *)
Theorem C17_number_meets_spec : forall cfg d,
  (tc_thousands cfg = true -> - ex d <= 13) ->
  num_cell_ok_b (tc_thousands cfg) (tc_round cfg) d (num_str cfg d) = true /\
  num_cell_exact_b (tc_thousands cfg) (tc_round cfg) d (num_str cfg d) = true.
Proof. exact num_str_meets_spec. Qed.
Print Assumptions C17_number_meets_spec.

(* zero amounts are blank; non-zero amounts show their numeral, right-aligned *)
Theorem C17_zero_blank : forall cfg n l,
  is_zero n = true ->
  render_cell cfg (CNum n) l = spaces l /\ all_spaces (render_cell cfg (CNum n) l) = true.
Proof.
  intros cfg n l. intros H. cbn [render_cell]. rewrite H. unfold pad_left. rewrite app_nil_r.
    rewrite rune_count_nil, Z.sub_0_r. split; [reflexivity|].
    unfold all_spaces, spaces, repeat_z. apply forallb_forall. intros x Hx.
    apply repeat_spec in Hx. subst x. reflexivity.
Qed.
Print Assumptions C17_zero_blank.

Theorem C17_nonzero_shown : forall cfg n l,
  is_zero n = false ->
  render_cell cfg (CNum n) l = spaces (l - rune_count (num_str cfg n)) ++ num_str cfg n.
Proof. intros cfg n l. intros H. cbn [render_cell]. rewrite H. reflexivity. Qed.
Print Assumptions C17_nonzero_shown.

(* for every string of the form -?digits(.digits)?: commas exactly before every third integer
   digit counted from the decimal point (or the end), none leading, none after the sign, none
   in the fraction; removing them gives the string back *)
Theorem C17_grouping : forall s,
  is_numstr_b s = true ->
  grouping_ok_b (add_thousands_sep s) = true /\ strip_commas (add_thousands_sep s) = s.
Proof.
  intros s H. split; [exact (add_thousands_sep_grouping_ok s H)|exact (add_thousands_sep_strip s H)].
Qed.
Print Assumptions C17_grouping.

Theorem C17_strip_commas : forall s, ~ In 44 s -> strip_commas (add_thousands_sep s) = s.
Proof. exact strip_commas_add_thousands_sep. Qed.
Print Assumptions C17_strip_commas.

(* the records are the rows that have a non-blank cell, in order, one field per cell: a number
   as Decimal.String of the exact amount, text verbatim, nothing for separator/empty cells *)
Theorem C17_csv_rows : forall t,
  render_csv_rows t = map (map csv_cell) (filter csv_row_visible (t_rows t)).
Proof. exact render_csv_rows_spec_closed. Qed.
Print Assumptions C17_csv_rows.

(* Decimal.String parses back to the same value: the CSV carries the exact amount *)
Theorem C17_to_string_roundtrip : forall d,
  exists x, of_string (to_string d) = Some x /\ dec_eqv x d.
Proof. exact of_to_string. Qed.
Print Assumptions C17_to_string_roundtrip.

Theorem C17_csv_exact : forall t, csv_ok_b (t_rows t) (render_csv_rows t) = true.
Proof.
  intros t. unfold csv_ok_b. rewrite render_csv_rows_spec_closed.
    apply forall2b_map. intros r _. apply forall2b_map. intros c _. apply csv_field_ok.
Qed.
Print Assumptions C17_csv_exact.

Theorem C17_digits_correct : forall n, 0 <= n -> parse_digits (digits n) 0 = Some n.
Proof. intros n Hn. apply (digits_spec n Hn). Qed.
Print Assumptions C17_digits_correct.

Definition ex_cfg := mkTextCfg true 2.
Definition ex_table : table :=
  add_separator_row
    (add_row
       (add_row (add_separator_row (table_new [1; 2]))
                [CText [87;195;164;104;114;117;110;103] ALeft 2; CNum (mkDec (-1234567895) (-3)); CNum (mkDec 0 0)])
       (fill_empty (add_separator_row (table_new [1; 2])) [CText [230;151;165;230;156;172] ALeft 0; CNum (mkDec (-4) (-3))])).

Example C17_example_wf : table_wf ex_table.
Proof.
  split; [vm_compute; repeat constructor|].
  repeat constructor; cbn; try (vm_compute; discriminate); try (intros H; repeat destruct H as [H|H]; try discriminate H; exact H).
Qed.

Example C17_example_text :
  render_text (mkTextCfg false 2) ex_table =
  (* +-----------+---------------+------+
     |   Währung | -1,234,567.90 |      |
     | 日本      |          0.00 |      |     <- -0.004: no sign, not blank
     +-----------+---------------+------+ *)
  [43;45;45;45;45;45;45;45;45;45;45;45;43;45;45;45;45;45;45;45;45;45;45;45;45;45;45;45;43;45;45;45;45;45;45;43;10;
   124;32;32;32;87;195;164;104;114;117;110;103;32;124;32;45;49;44;50;51;52;44;53;54;55;46;57;48;32;124;32;32;32;32;32;32;124;10;
   124;32;230;151;165;230;156;172;32;32;32;32;32;32;32;32;124;32;32;32;32;32;32;32;32;32;32;48;46;48;48;32;124;32;32;32;32;32;32;124;10;
   43;45;45;45;45;45;45;45;45;45;45;45;43;45;45;45;45;45;45;45;45;45;45;45;45;45;45;45;43;45;45;45;45;45;45;43;10;10].
Proof. vm_compute. reflexivity. Qed.

Example C17_example_rect : rect_b 3 (render_text ex_cfg ex_table) = true.
Proof. vm_compute. reflexivity. Qed.

(* the check's cell predicate rejects a mis-grouped, a mis-rounded and a wrongly signed numeral *)
Example C17_example_spec_rejects :
  let d := mkDec (-1234567895) (-3) in
  num_cell_ok_b false 2 d [45;49;44;50;51;52;44;53;54;55;46;57;48] = true /\      (* -1,234,567.90 *)
  num_cell_ok_b false 2 d [45;49;50;44;51;52;44;53;54;55;46;57;48] = false /\     (* -12,34,567.90 *)
  num_cell_ok_b false 2 d [45;49;44;50;51;52;44;53;54;55;46;56;57] = false /\     (* -1,234,567.89 *)
  num_cell_ok_b false 2 d [49;44;50;51;52;44;53;54;55;46;57;48] = false /\        (* 1,234,567.90 *)
  num_cell_ok_b false 2 (mkDec (-4) (-3)) [48;46;48;48] = true /\                 (* 0.00 *)
  num_cell_ok_b false 2 (mkDec (-4) (-3)) [45;48;46;48;48] = false.               (* -0.00 *)
Proof. vm_compute. repeat split. Qed.
