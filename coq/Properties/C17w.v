(* C17 for the text table of `knut portfolio weights`.
   (The property C17 speaks of the balance report -- Properties/C17.v.  `portfolio weights`
   renders its report through the same table package, with its own cell kind; this file says
   what is true of that rendering.  Nothing here is a violation of C17.)
   Theorem statements; the proof under a statement is [exact <lemma>], a few lines from the lemmas
   of Proofs/, or a witness by evaluation; each is followed by Print Assumptions.
   Vocabulary: Spec/TableSpec.v (rect_b, cell_indent_ok, cell_no_nl), Spec/WeightsTableSpec.v
   (pcell_fits_b, wtable_fits_b, wtable_wf, frow_ok, frow_fits, frow_unit), Spec/BeancountLex.v
   (date_lex_b: years 0..9999).
   Model: Model/F64.v (float64 value, n * 100, "%.pf"), Model/WeightsTable.v (percent cell,
   TextRenderer over such cells, weights.Renderer, the command).

   What the Go code does (lib/common/table/renderer.go): the width reserved for a percent cell
   of value n is that of Sprintf("%.2f%%", n); what is written is Fprintf("%*.*f%%", l-1,
   Round, n*100) inside a switch n < 0 / n > 0 / n == 0.  Hence
     - a NaN (the group row over a +Inf and a -Inf weight of a date whose total is zero) is
       written as nothing at all, not even padding:            C17_weights_nan_refuted
     - at --digits 6 "100.000000%" has 11 runes, the date column 10:  C17_weights_digits6_refuted
     - a negative --digits makes fmt write "%!(BADPREC)":      C17_weights_negative_digits_refuted
   and the table is rectangular exactly as far as every cell fills its column:
     C17_weights_table_rect, C17_weights_rect, C17_weights_rect_unit. *)
From Coq Require Import ZArith List Bool.
From Knut Require Import Model.Str Model.Dec Model.Table Model.Report Model.F64 Model.WeightsTable
     Spec.TableSpec Spec.WeightsTableSpec Spec.BeancountLex
     Proofs.WeightsTableProofs Proofs.F64Proofs.
Import ListNotations.
Open Scope Z_scope.

(* a cell is rendered to exactly l runes when l is at least its minimal length and the cell
   fits: always for text / empty / separator cells; for a percent cell iff --digits is in 0..1e6 and
   the numeral of n * 100 with its percent sign has at most l runes; for a NaN iff l = 0 *)
Theorem C17_weights_cell_width : forall round c l,
  pcell_indent_ok c -> wmin_length round c <= l -> pcell_fits_b round c l = true ->
  rune_count (wrender_cell round c l) = l.
Proof. exact wrender_cell_width. Qed.
Print Assumptions C17_weights_cell_width.

(* ... and to another number of runes when it does not fit *)
Theorem C17_weights_cell_misfit : forall round n l,
  0 <= l -> pcell_fits_b round (WPct n) l = false -> rune_count (wrender_cell round (WPct n) l) <> l.
Proof. intros round n l _. apply wrender_cell_misfit. Qed.
Print Assumptions C17_weights_cell_misfit.

(* every full-row table over text / empty / separator / percent cells all of whose cells fit
   their column's final width is rendered rectangular, for every --digits *)
Theorem C17_weights_table_rect : forall round t,
  wtable_wf t -> wtable_fits_b round t = true -> rect_b (wt_width t) (wrender_text round t) = true.
Proof. exact wrender_text_rect. Qed.
Print Assumptions C17_weights_table_rect.

(* the final widths: one per column, at least the minimal length of every cell of the column *)
Theorem C17_weights_col_widths_ge : forall round t,
  wrows_full t ->
  length (w_final_widths round t) = wt_width t /\
  Forall (fun r => Forall2 (fun c w => wmin_length round c <= w) r (w_final_widths round t)) (wt_rows t).
Proof. exact w_col_widths_ge. Qed.
Print Assumptions C17_weights_col_widths_ge.

(* on a table without percent cells this renderer is the renderer of Model/Table.v, about
   which Properties/C17.v speaks *)
Theorem C17_weights_extends_table : forall round t,
  wrender_text round (wtable_of_table t) = render_text (mkTextCfg false round) t.
Proof. exact wrender_text_base. Qed.
Print Assumptions C17_weights_extends_table.

(* weights.Renderer builds full rows; with dates of the years 0..9999, non-negative indents
   and labels without line break the table is well formed *)
Theorem C17_weights_wf : forall dates rows,
  Forall (fun d => date_lex_b d = true) dates ->
  Forall (frow_ok (length dates)) rows ->
  wtable_wf (weights_wtable dates rows) /\ wt_width (weights_wtable dates rows) = S (length dates).
Proof. intros dates rows Hd Hr. split; [exact (weights_wtable_wf dates rows Hd Hr)|exact (weights_wtable_width dates rows)]. Qed.
Print Assumptions C17_weights_wf.

(* The report is rectangular whenever every weight is printed in at most ten runes (the width
   of a date): for every --digits, every list of dates, every list of rows. *)
Theorem C17_weights_rect : forall round dates rows,
  Forall (fun d => date_lex_b d = true) dates ->
  Forall (frow_ok (length dates)) rows ->
  Forall (frow_fits round 10) rows ->
  rect_b (S (length dates)) (weights_text round dates rows) = true.
Proof. exact weights_text_rect. Qed.
Print Assumptions C17_weights_rect.

(* "every weight is a number": the statement one would like -- rectangular for every report in
   which every weight is a number -- is false (C17_weights_digits6_refuted: the weight 1 at
   --digits 6).  What holds: every weight a float64 in [0, 1] (a portfolio without short
   positions) and --digits in 0..5.  "100.00000%" has ten runes. *)
Theorem C17_weights_rect_unit : forall round dates rows,
  0 <= round <= 5 ->
  Forall (fun d => date_lex_b d = true) dates ->
  Forall (frow_ok (length dates)) rows ->
  Forall frow_unit rows ->
  rect_b (S (length dates)) (weights_text round dates rows) = true.
Proof.
  intros round dates rows. intros Hr Hd Hrows Hu. apply weights_text_rect; try assumption.
    eapply Forall_impl; [|exact Hu]. intros [[ind s] cells] Hc. cbn [frow_unit frow_fits] in *.
    eapply Forall_impl; [|exact Hc]. intros [n|] Hn; [apply unit_fits; assumption|exact I].
Qed.
Print Assumptions C17_weights_rect_unit.

(* the numeral of a weight in [0, 1]: at most p + 4 runes at p places *)
Theorem C17_weights_unit_len : forall round n,
  0 <= round <= 1000000 -> f64_in_unit n -> pct_len round n <= round + 5.
Proof. exact pct_len_unit. Qed.
Print Assumptions C17_weights_unit_len.

Definition d_2021_01_02 : Z := 737791.
Definition s_Other : str := [79;116;104;101;114].
Definition s_CHF : str := [67;72;70].
Definition s_USD : str := [85;83;68].
Definition f_one : f64 := FFin false 1 0.

(* 100 CHF in an asset account, 100 USD of debt at a price of 1 CHF: the total is zero, the
   weights are +Inf and -Inf, their group "Other" is NaN (findings/C17-weights-nan-cell.md) *)
Definition nan_rows : list frow :=
  [(0, s_Other, [Some FNaN]); (2, s_CHF, [Some (FInf false)]); (2, s_USD, [Some (FInf true)])].

Example C17_weights_nan_text :
  weights_text 0 [d_2021_01_02] nan_rows =
  (* +-----------+------------+
     | Commodity | 2021-01-02 |
     +-----------+------------+
     | Other     |  |                  <- the NaN cell: nothing, not even padding
     |   CHF     |      +Inf% |
     |   USD     |      -Inf% |
     +-----------+------------+        byte for byte what the binary prints *)
  [43;45;45;45;45;45;45;45;45;45;45;45;43;45;45;45;45;45;45;45;45;45;45;45;45;43;10;
   124;32;67;111;109;109;111;100;105;116;121;32;124;32;50;48;50;49;45;48;49;45;48;50;32;124;10;
   43;45;45;45;45;45;45;45;45;45;45;45;43;45;45;45;45;45;45;45;45;45;45;45;45;43;10;
   124;32;79;116;104;101;114;32;32;32;32;32;124;32;32;124;10;
   124;32;32;32;67;72;70;32;32;32;32;32;124;32;32;32;32;32;32;43;73;110;102;37;32;124;10;
   124;32;32;32;85;83;68;32;32;32;32;32;124;32;32;32;32;32;32;45;73;110;102;37;32;124;10;
   43;45;45;45;45;45;45;45;45;45;45;45;43;45;45;45;45;45;45;45;45;45;45;45;45;43;10;10].
Proof. vm_compute. reflexivity. Qed.

(* a zero-total date column gives a table that is not rectangular *)
Theorem C17_weights_nan_refuted : exists round dates rows,
  Forall (fun d => date_lex_b d = true) dates /\
  Forall (frow_ok (length dates)) rows /\
  rect_b (S (length dates)) (weights_text round dates rows) = false.
Proof.
  exists 0, [d_2021_01_02], nan_rows. split; [repeat constructor|]. split.
  - repeat constructor; try (vm_compute; discriminate);
      intros H; cbn in H; repeat destruct H as [H|H]; try discriminate H; exact H.
  - vm_compute. reflexivity.
Qed.
Print Assumptions C17_weights_nan_refuted.

(* every weight is a number -- the single weight 1 -- and the table is not rectangular:
   --digits 6 *)
Theorem C17_weights_digits6_refuted : exists dates rows,
  Forall (fun d => date_lex_b d = true) dates /\
  Forall (frow_ok (length dates)) rows /\
  Forall frow_unit rows /\
  rect_b (S (length dates)) (weights_text 6 dates rows) = false.
Proof.
  exists [d_2021_01_02], [(0, s_Other, [Some f_one]); (2, s_CHF, [Some f_one])].
  split; [repeat constructor|]. split; [|split].
  - repeat constructor; try (vm_compute; discriminate);
      intros H; cbn in H; repeat destruct H as [H|H]; try discriminate H; exact H.
  - repeat constructor; vm_compute; discriminate.
  - vm_compute. reflexivity.
Qed.
Print Assumptions C17_weights_digits6_refuted.

(* a negative --digits: "%!(BADPREC)" in front of every percentage *)
Theorem C17_weights_negative_digits_refuted : exists dates rows,
  Forall (fun d => date_lex_b d = true) dates /\
  Forall (frow_ok (length dates)) rows /\
  Forall frow_unit rows /\
  rect_b (S (length dates)) (weights_text (-1) dates rows) = false.
Proof.
  exists [d_2021_01_02], [(0, s_Other, [Some f_one]); (2, s_CHF, [Some f_one])].
  split; [repeat constructor|]. split; [|split].
  - repeat constructor; try (vm_compute; discriminate);
      intros H; cbn in H; repeat destruct H as [H|H]; try discriminate H; exact H.
  - repeat constructor; vm_compute; discriminate.
  - vm_compute. reflexivity.
Qed.
Print Assumptions C17_weights_negative_digits_refuted.

Definition ex_rows : list frow :=
  [(0, s_Other, [Some f_one; Some f_one]);
   (2, s_CHF, [Some (FFin false 1 (-3)); None]);                       (* 0.125: "12%" at 0 digits, ties to even *)
   (2, s_USD, [Some (FFin false 7 (-3)); Some f_one])].

Example C17_weights_example_hyps :
  Forall (fun d => date_lex_b d = true) [d_2021_01_02; d_2021_01_02 + 7] /\
  Forall (frow_ok 2) ex_rows /\ Forall frow_unit ex_rows /\ Forall (frow_fits 2 10) ex_rows.
Proof.
  split; [repeat constructor|]. split; [|split].
  - repeat constructor; try (vm_compute; discriminate);
      intros H; cbn in H; repeat destruct H as [H|H]; try discriminate H; exact H.
  - repeat constructor; vm_compute; discriminate.
  - repeat constructor.
Qed.

Example C17_weights_example_text :
  weights_text 0 [d_2021_01_02; d_2021_01_02 + 7] ex_rows =
  (* +-----------+------------+------------+
     | Commodity | 2021-01-02 | 2021-01-09 |
     +-----------+------------+------------+
     | Other     |       100% |       100% |
     |   CHF     |        12% |            |
     |   USD     |        88% |       100% |
     +-----------+------------+------------+ *)
  [43;45;45;45;45;45;45;45;45;45;45;45;43;45;45;45;45;45;45;45;45;45;45;45;45;43;45;45;45;45;45;45;45;45;45;45;45;45;43;10;
   124;32;67;111;109;109;111;100;105;116;121;32;124;32;50;48;50;49;45;48;49;45;48;50;32;124;32;50;48;50;49;45;48;49;45;48;57;32;124;10;
   43;45;45;45;45;45;45;45;45;45;45;45;43;45;45;45;45;45;45;45;45;45;45;45;45;43;45;45;45;45;45;45;45;45;45;45;45;45;43;10;
   124;32;79;116;104;101;114;32;32;32;32;32;124;32;32;32;32;32;32;32;49;48;48;37;32;124;32;32;32;32;32;32;32;49;48;48;37;32;124;10;
   124;32;32;32;67;72;70;32;32;32;32;32;124;32;32;32;32;32;32;32;32;49;50;37;32;124;32;32;32;32;32;32;32;32;32;32;32;32;124;10;
   124;32;32;32;85;83;68;32;32;32;32;32;124;32;32;32;32;32;32;32;32;56;56;37;32;124;32;32;32;32;32;32;32;49;48;48;37;32;124;10;
   43;45;45;45;45;45;45;45;45;45;45;45;43;45;45;45;45;45;45;45;45;45;45;45;45;43;45;45;45;45;45;45;45;45;45;45;45;45;43;10;10].
Proof. vm_compute. reflexivity. Qed.

Example C17_weights_example_rect :
  rect_b 3 (weights_text 2 [d_2021_01_02; d_2021_01_02 + 7] ex_rows) = true.
Proof. vm_compute. reflexivity. Qed.
