(* C19  Concurrent loading and processing is race-free (at the level of the protocol) and terminates.
   Theorem statements; the proof under a statement is [exact <lemma>], a few lines from the lemmas of
   Proofs/, or a witness by evaluation.  Models: Model/Pipe.v (cpr.Seq under conc's context pool with
   WithCancelOnError/WithFirstError), Model/PipeLoader.v (ParseFileRecursively -> FromStream ->
   FromModelStream), Model/PipeFromPath.v (FromPath's three stages on an include tree),
   Model/PipeFromPathCycle.v (the same on an arbitrary include graph: parser tasks with ancestor
   chains).  Vocabulary: Spec/PipeSpec.v, Spec/IncludeGraph.v.  Proofs: Proofs/Pipe*.v,
   Proofs/IncludeGraphProofs.v.
   Every theorem holds for every number of stages n, number of items m, failure oracle [fails]
   and schedule (list of labels; disabled labels are skipped) - no bound anywhere.
   Not covered by proof (DESIGN.md section 7, C19): data races on Go memory (searched by the race
   detector in checks/c19.py) and the semantics of Go channels/select (assumed as modelled).   *)
From Coq Require Import List Bool Arith PeanoNat Permutation.
From Knut Require Import Model.Pipe Model.PipeLoader Model.PipeFromPath Spec.PipeSpec.
From Knut Require Import Spec.IncludeGraph Model.PipeFromPathCycle.
From Knut Require Import Proofs.PipeInv Proofs.PipeProofs Proofs.PipeLive Proofs.PipeTrace
                         Proofs.PipeExact Proofs.PipeLoaderProofs Proofs.PipeFromPathProofs
                         Proofs.IncludeGraphProofs Proofs.PipeFromPathCycleProofs.
Import ListNotations.

(* Ownership.  In every reachable state: of two nodes (source 0, stages 1..n, sink n+1) holding
   items, the downstream node holds a strictly earlier item - so no item is held by two nodes;
   and a node holds item k only after its predecessor has finished k (ended it and handed it
   over). *)
Theorem C19_ownership : forall n m fails sched,
  let st := run n m fails sched init in
  (forall i j k k', i < j -> j <= S n ->
     holds (nodes st i) k -> holds (nodes st j) k' -> k' < k) /\
  (forall i k, 1 <= i -> i <= S n -> holds (nodes st i) k ->
     k < ended (nodes st (pred i)) /\ k < sent (nodes st (pred i))).
Proof.
  intros n m fails sched st. split.
  - exact (ownership_inv n m fails st (reachable_inv n m fails sched)).
  - exact (predecessor_finished_inv n m fails st (reachable_inv n m fails sched)).
Qed.
Print Assumptions C19_ownership.

(* Order.  Whenever a hand-over on channel i is possible in a reachable state, the item handed
   over is exactly the next one the receiver expects (it has received 0..k-1 and gets k); and in
   the event trace every stage begins, and ends, the items in source order 0,1,2,... *)
Theorem C19_order : forall n m fails sched,
  let st := run n m fails sched init in
  (forall i st', step n m fails (Hand i) st = Some st' ->
     recv (nodes st (S i)) = cnt (nodes st i) /\
     ph (nodes st' (S i)) = PHolding /\ cnt (nodes st' (S i)) = cnt (nodes st i)) /\
  (forall i, begins_of i (trace st) = seq 0 (count_ev i EvBegin (trace st)) /\
             ends_of i (trace st) = seq 0 (count_ev i EvEnd (trace st))).
Proof.
  intros n m fails sched st. split.
  - intros i st' H. exact (hand_in_order n m fails st st' i (reachable_inv n m fails sched) H).
  - intros i. split; apply (tr_spec_in_order n _ (T_spec _ _ (reachable_tinv n m fails sched))).
Qed.
Print Assumptions C19_order.

(* No loss, no duplication.  In every reachable state the source list is exactly: what the sink
   has collected, then the items held in the pipeline (downstream first; items stuck in a stage
   that failed or was cancelled included), then what the source has not yet handed over.  The
   sink always holds a prefix of the source list.  A complete run without recorded error
   delivers exactly the source list. *)
Theorem C19_no_loss_dup : forall n m fails sched,
  let st := run n m fails sched init in
  sinkacc st ++ inflight n st ++ unsent m st = seq 0 m /\
  sinkacc st = seq 0 (length (sinkacc st)) /\
  (terminal n st = true -> errs st = [] ->
     result st = Some (seq 0 m) /\ outcome_of st = Success (seq 0 m)) /\
  ((forall i k, 1 <= i <= n -> k < m -> fails i k = false) -> errs st = [] /\ cancelled st = false).
Proof.
  intros n m fails sched st. pose proof (reachable_inv n m fails sched) as HI. repeat split.
  - exact (conservation_inv n m fails st HI).
  - exact (proj1 (sink_prefix_inv n m fails st HI)).
  - destruct (success_result n m fails st HI H H0) as (A & _ & _). exact A.
  - destruct (success_result n m fails st HI H H0) as (_ & _ & A). exact A.
  - exact (proj2 (nofail_no_cancel n m fails st HI H)).
  - exact (proj1 (nofail_no_cancel n m fails st HI H)).
Qed.
Print Assumptions C19_no_loss_dup.

(* Deadlock freedom.  In every reachable state that is not terminal (some goroutine has not
   returned) some label is enabled. *)
Theorem C19_deadlock_free : forall n m fails sched,
  let st := run n m fails sched init in
  terminal n st = false -> exists l, In l (all_labels n) /\ enabled n m fails st l = true.
Proof. intros n m fails sched st H. exact (deadlock_free_inv n m fails st (reachable_inv n m fails sched) H). Qed.
Print Assumptions C19_deadlock_free.

(* Termination.  A progress measure grows with every enabled step and is bounded, hence: every
   schedule has at most (n+2)(4m+5) effective steps; after any schedule the canonical scheduler
   reaches a terminal state within that many steps; a terminal state has no enabled label. *)
Theorem C19_terminates : forall n m fails sched,
  effective n m fails sched init <= bound n m /\
  terminal n (drain n m fails (bound n m) (run n m fails sched init)) = true /\
  (forall st l, terminal n st = true -> step n m fails l st = None).
Proof.
  intros n m fails sched. repeat split.
  - pose proof (effective_bound_from n m fails sched init (inv_init n m fails)).
    apply (Nat.le_trans _ (effective n m fails sched init + mu n m init)); [apply Nat.le_add_r | assumption].
  - apply (drain_terminal_from n m fails (bound n m) _ (reachable_inv n m fails sched)). apply Nat.le_add_l.
  - intros st l H. exact (terminal_no_step n m fails st l H).
Qed.
Print Assumptions C19_terminates.

(* Errors.  In every reachable state, if any error has been recorded the command's result is the
   error of a stage function that did fail (fails i k = true) - never success, never merely the
   cancellation error of a bystander.  In a terminal state (all goroutines have returned: Done or
   Stopped) in which some f_i(t_k) failed, an error has been recorded.  Together with
   C19_terminates: a failing stage makes all stages stop and Seq return that stage's error. *)
Theorem C19_error : forall n m fails sched,
  let st := run n m fails sched init in
  (errs st <> [] ->
     exists i k, outcome_of st = Failure (EFail i k) /\ fails i k = true /\ 1 <= i <= n /\ k < m) /\
  (terminal n st = true -> (exists i, i <= S n /\ ph (nodes st i) = PFailed) ->
     errs st <> [] /\ forall i, i <= S n -> stat (nodes st i) <> Running).
Proof.
  intros n m fails sched st. pose proof (reachable_inv n m fails sched) as HI. split.
  - exact (failure_outcome n m fails st HI).
  - intros HT HF. split; [exact (fired_recorded n m fails st HI HT HF)|].
    apply (terminal_spec n). exact HT.
Qed.
Print Assumptions C19_error.

(* Refinement of the sequential program  for k in items { for i in 1..n { f_i(t_k) } }.
   What is observable of a run: the returned list, and the begin/end events of the stage
   functions.  For a terminal run without recorded error: the result is the source list; for
   every stage the projection of the trace equals the projection of the sequential trace (each
   stage function sees exactly the same sequence of calls - and a stage's state is touched by
   that stage only); and for every item, stage i+1 begins it only after stage i ended it and a
   stage ends it only after beginning it (each item meets the stages in the order 1..n). *)
Theorem C19_seq_refines : forall n m fails sched,
  let st := run n m fails sched init in
  terminal n st = true -> errs st = [] ->
  outcome_of st = Success (seq 0 m) /\
  (forall i, 1 <= i <= n -> proj_stage i (trace st) = proj_stage i (seq_trace n m)) /\
  (forall pre i k post, trace st = pre ++ mkEv i EvBegin k :: post -> 2 <= i ->
     In (mkEv (pred i) EvEnd k) pre) /\
  (forall pre i k post, trace st = pre ++ mkEv i EvEnd k :: post -> In (mkEv i EvBegin k) pre).
Proof.
  intros n m fails sched st HT HE.
  pose proof (reachable_inv n m fails sched) as HI.
  pose proof (reachable_tinv n m fails sched) as HTI.
  change (run n m fails sched init) with st in HI, HTI. clearbody st.
  pose proof (T_spec _ _ HTI) as HS. change (rev (trace_rev st)) with (trace st) in HS.
  repeat split.
  - destruct (success_result n m fails st HI HT HE) as (_ & _ & A). exact A.
  - exact (terminal_proj_stage n m fails st HI HTI HT HE).
  - intros pre i k post E Hi. exact (tr_spec_handover n _ HS pre i k post E Hi).
  - intros pre i k post E. exact (tr_spec_end_after_begin n _ HS pre i k post E).
Qed.
Print Assumptions C19_seq_refines.

(* The trace checker that is run on the hook events of the real binary: it accepts exactly the
   traces satisfying the declarative specification (soundness and its converse), and it accepts
   the trace of every run of the transition system (completeness). *)
Theorem trace_ok_sound : forall n tr, trace_ok n tr = true -> tr_spec n tr.
Proof. intros n tr. exact (proj1 (trace_ok_iff n tr)). Qed.
Print Assumptions trace_ok_sound.

Theorem trace_ok_sound_order : forall n tr, trace_ok n tr = true ->
  (forall i, begins_of i tr = seq 0 (count_ev i EvBegin tr) /\ ends_of i tr = seq 0 (count_ev i EvEnd tr)) /\
  (forall pre i k post, tr = pre ++ mkEv i EvBegin k :: post -> 2 <= i -> In (mkEv (pred i) EvEnd k) pre) /\
  (forall pre i k post, tr = pre ++ mkEv i EvEnd k :: post -> In (mkEv i EvBegin k) pre).
Proof.
  intros n tr H. apply trace_ok_iff in H. repeat split.
  - apply (tr_spec_in_order n tr H).
  - apply (tr_spec_in_order n tr H).
  - intros. eapply tr_spec_handover; eassumption.
  - intros. eapply tr_spec_end_after_begin; eassumption.
Qed.
Print Assumptions trace_ok_sound_order.

Theorem trace_ok_spec_accepts : forall n tr, tr_spec n tr -> trace_ok n tr = true.
Proof. intros n tr. exact (proj2 (trace_ok_iff n tr)). Qed.
Print Assumptions trace_ok_spec_accepts.

Theorem trace_ok_complete : forall n m fails sched,
  trace_ok n (trace (run n m fails sched init)) = true.
Proof. exact trace_ok_complete_run. Qed.
Print Assumptions trace_ok_complete.

(* Exactness (the converse of trace_ok_complete).  Every event list accepted by the checker is the
   trace of a run of the transition system from its initial state, for some number of items and
   some failure oracle (the proof uses length tr items and the oracle that never fails; the
   schedule uses only Fetch, Hand, Begin, End - nothing is cancelled or closed). *)
Theorem C19_trace_ok_exact : forall n tr, trace_ok n tr = true ->
  exists m fails sched, trace (run n m fails sched init) = tr.
Proof. exact trace_ok_exact. Qed.
Print Assumptions C19_trace_ok_exact.

(* Exactness per instance.  For n stages, items 0..m-1 and failure oracle [fails], the traces of
   the runs are exactly the accepted event lists that fit the instance (Spec/PipeSpec.v
   [respects]: items below m; a begin of item k at stage i only if f_(i-1)(t_k) succeeded and
   f_(i+j)(t_(k-1-j)) succeeded for all j >= 0 with i+j <= n - a stage that failed neither hands
   its item on nor receives again). *)
Theorem C19_trace_exact : forall n m fails tr,
  (exists sched, trace (run n m fails sched init) = tr) <->
  (trace_ok n tr = true /\ respects n m fails tr).
Proof. exact trace_exact. Qed.
Print Assumptions C19_trace_exact.

(* [trace_ok_loose] (Spec/PipeSpec.v), the checker without the back-pressure clause of [trace_ok] (per
   stage source order and alternation, begin(i,k) after end(i-1,k)), is complete but not exact: for two
   stages it accepts  b(1,0) e(1,0) b(1,1) e(1,1) b(1,2)  which no run emits for any number of items, any
   oracle and any schedule - the channels are unbuffered, so stage 1 cannot take its third item
   before stage 2 has taken (begun and ended) its first. *)
Theorem trace_ok_loose_exact_refuted : exists n tr,
  trace_ok_loose n tr = true /\
  forall m fails sched, trace (run n m fails sched init) <> tr.
Proof. exists 2, loose_witness. exact trace_ok_loose_not_exact. Qed.
Print Assumptions trace_ok_loose_exact_refuted.

(* The loader.  [rank] witnesses that the include graph is acyclic. *)

(* Under every schedule the loader makes at most W(root)+2 effective steps, and after any
   schedule the canonical scheduler drives it to completion (the consumer sees the channel
   closed) - with or without parse and conversion errors: termination rests on closure. *)
Theorem C19_loader_terminates : forall inc bad cbad rank root sched,
  (forall f g, In g (inc f) -> rank g < rank f) ->
  leffective inc bad cbad sched (linit inc root) <= W inc rank root + 2 /\
  finished (ldrain inc bad cbad (W inc rank root + 2) (lrun inc bad cbad sched (linit inc root))) = true.
Proof.
  intros inc bad cbad rank root sched H. split.
  - rewrite <- (lmu_init inc rank H root). apply leffective_bound_from. exact H.
  - apply (ldrain_finishes_from inc bad cbad rank H).
    rewrite <- (lmu_init inc rank H root). apply lrun_lmu. exact H.
Qed.
Print Assumptions C19_loader_terminates.

(* Without parse errors, when the loader has finished, the files received by the consumer are
   exactly (as a multiset) the files of the include tree below the root - one copy per include
   path, hence each file exactly once when no file is included twice - and no error is reported. *)
Theorem C19_load_multiset : forall inc bad cbad rank root sched,
  (forall f g, In g (inc f) -> rank g < rank f) ->
  (forall f, bad f = false) ->
  let st := lrun inc bad cbad sched (linit inc root) in
  finished st = true ->
  Permutation (got st) (expand inc (rank root) root) /\ perrs st = [] /\
  (NoDup (expand inc (rank root) root) -> NoDup (got st)).
Proof.
  intros inc bad cbad rank root sched H Hb st F.
  destruct (finished_loaded inc rank root st
              (lrun_linv inc bad cbad rank H Hb root sched _ (linv_init inc rank H root)) F)
    as [P E].
  repeat split; [exact P | exact E |].
  intros ND. apply (Permutation_NoDup (Permutation_sym P) ND).
Qed.
Print Assumptions C19_load_multiset.

(* A file that includes itself, in the loader model WITHOUT the ancestor chain (the code as pinned,
   DESIGN.md F12): for every k there is a schedule with k effective steps (k parser tasks spawned) -
   that loader does not terminate on a cyclic include graph.  The code as it is carries the chain:
   C19_frompath_cycle_terminates / C19_frompath_cycle_is_error below. *)
Theorem C19_loader_cycle_unbounded : forall k,
  leffective (fun f => [f]) (fun _ => false) (fun _ => false) (map LSpawn (seq 0 k))
             (linit (fun f => [f]) 0) = k.
Proof. intros k. apply (self_include_spawns k []). Qed.
Print Assumptions C19_loader_cycle_unbounded.

(* journal.FromPath with its three consumers (Model/PipeFromPath.v).  Oracles: [bad f] parsing f
   fails, [cbad f] converting f fails, [abad f] Builder.Add fails on f (constantly false in knut as
   it is: Add fails only on a directive type that model.ParseDirective never produces).
   [drain = true] is the code as it is: model.FromStream keeps receiving after a conversion error. *)

(* Termination from closure (nothing cancels the outer context).  Every schedule makes at most
   3 W(root) + 4 effective steps (for every oracle, with or without the drain).  In the code as it
   is, with a builder that does not fail, a reachable state in which some worker has not returned
   has an enabled label - no stage blocks forever, whatever fails in the parsers and in the
   conversion - and after any schedule the canonical scheduler (first enabled label) makes all
   three workers return within the bound. *)
Theorem C19_frompath_terminates : forall inc bad cbad abad drain rank root sched,
  (forall f g, In g (inc f) -> rank g < rank f) ->
  feffective inc bad cbad abad drain sched (finit inc root) <= 3 * W inc rank root + 4 /\
  (drain = true -> (forall f, abad f = false) ->
   let st := frun inc bad cbad abad drain sched (finit inc root) in
   (ffinished st = false -> exists l, In l (flabels st) /\ fenabled inc bad cbad abad drain st l = true) /\
   ffinished (fdrain inc bad cbad abad drain (3 * W inc rank root + 4) st) = true).
Proof.
  intros inc bad cbad abad drain rank root sched H. split.
  - rewrite <- (fmu_init inc rank H root). apply feffective_bound_from. exact H.
  - intros Hd Ha st. pose proof (reachable_fpinv inc bad cbad abad drain rank H root sched) as HI. split.
    + intros F. exact (fdeadlock_free inc bad cbad abad drain rank root st HI Hd Ha F).
    + apply (fdrain_finishes_from inc bad cbad abad drain rank H root); auto.
      rewrite <- (fmu_init inc rank H root). apply frun_fmu. exact H.
Qed.
Print Assumptions C19_frompath_terminates.

(* Success.  If the three workers have returned and no error was recorded - whatever the oracles
   are - then FromPath returns the builder, the files whose directives were added to it are exactly
   (as a multiset) the files of the include tree, one copy per include path: each file's directives
   reach the builder exactly once when no file is included twice; no stage failed and nothing was
   cancelled.  And when no stage function fails, no error is ever recorded. *)
Theorem C19_frompath_loads_once : forall inc bad cbad abad drain rank root sched,
  (forall f g, In g (inc f) -> rank g < rank f) ->
  let st := frun inc bad cbad abad drain sched (finit inc root) in
  (ffinished st = true -> f_werrs st = [] ->
     foutcome_of st = FOk (f_added st) /\
     Permutation (f_added st) (expand inc (rank root) root) /\
     (NoDup (expand inc (rank root) root) -> NoDup (f_added st)) /\
     f_bld st = BDone /\ f_perrs st = [] /\ f_cerrs st = [] /\ f_pcancel st = false /\ f_ccancel st = false) /\
  ((forall f, bad f = false) -> (forall f, cbad f = false) -> (forall f, abad f = false) -> f_werrs st = []).
Proof.
  intros inc bad cbad abad drain rank root sched H st.
  pose proof (reachable_fpinv inc bad cbad abad drain rank H root sched) as HI. split.
  - intros F We.
    destruct (ffinished_success inc bad cbad abad drain rank root st HI F We) as (P & B & Pe & Ce & Pc & Cc).
    repeat split; auto.
    + unfold foutcome_of. rewrite F, We. reflexivity.
    + intros ND. apply (Permutation_NoDup (Permutation_sym P) ND).
  - exact (nofail_no_werrs inc bad cbad abad drain rank root st HI).
Qed.
Print Assumptions C19_frompath_loads_once.

(* Errors.  Every error recorded by the outer pool - in particular the first, which FromPath
   returns - is the error of a stage function that did fail (never the cancellation error of a
   bystander); and once the three workers have returned, a failure in any of the three stages
   (a parser task, a conversion task, Builder.Add) makes FromPath return such an error. *)
Theorem C19_frompath_error : forall inc bad cbad abad drain rank root sched,
  (forall f g, In g (inc f) -> rank g < rank f) ->
  let st := frun inc bad cbad abad drain sched (finit inc root) in
  (forall e, In e (f_werrs st) -> genuine bad cbad abad e = true) /\
  (ffinished st = true ->
   (exists t, In t (f_ptasks st) /\ t_st t = PFail) \/
   (exists c, In c (f_ctasks st) /\ c_st c = CFail) \/ f_bld st = BFail ->
   exists e, foutcome_of st = FErr e /\ genuine bad cbad abad e = true).
Proof.
  intros inc bad cbad abad drain rank root sched H st.
  pose proof (reachable_fpinv inc bad cbad abad drain rank H root sched) as HI. split.
  - exact (P_werrs _ _ _ _ _ _ _ _ HI).
  - intros F Hf.
    destruct (ffailure_reported inc bad cbad abad drain rank root st HI F Hf) as (e & rest & We & G).
    exists e. split; [|exact G]. unfold foutcome_of. rewrite F, We. reflexivity.
Qed.
Print Assumptions C19_frompath_error.

(* Without the drain (model.FromStream returns at the first conversion error): a reachable state in
   which nothing is enabled, worker1 has not returned, and a parser task is blocked in Push on
   syntaxCh with its context not cancelled - knut hangs.  (Seeded change
   C19b-fromstream-inline-hang.) *)
Theorem C19_frompath_nodrain_refuted : exists inc bad cbad abad root sched,
  let st := frun inc bad cbad abad false sched (finit inc root) in
  ffinished st = false /\ stuck_pusher st = true /\ f_pcancel st = false /\
  (forall l, fstep inc bad cbad abad false l st = None).
Proof.
  exists inc01, none, is1, none, 0, nodrain_sched.
  vm_compute frun. repeat split.
  intros l. destruct l as [t|t|t|t| | | | |c|c|c| ]; try reflexivity;
    try (destruct t as [|[|[|t]]]; reflexivity); destruct c as [|[|c]]; reflexivity.
Qed.
Print Assumptions C19_frompath_nodrain_refuted.

(* The hypothesis on Builder.Add in C19_frompath_terminates is needed: in the code as it is, if
   Builder.Add returned an error, the builder would stop receiving, and the next conversion task
   would block in Push on modelCh forever (the error is recorded but p.Wait never returns).  Not
   reachable from any journal today (findings/C19-builder-error-latent-hang.md). *)
Theorem C19_frompath_builder_error_refuted : exists inc bad cbad abad root sched,
  let st := frun inc bad cbad abad true sched (finit inc root) in
  ffinished st = false /\ stuck_pusher st = true /\ f_ccancel st = false /\
  f_werrs st = [WAdd 1] /\
  (forall l, fstep inc bad cbad abad true l st = None).
Proof.
  exists inc01, none, none, is1, 0, addfail_sched.
  vm_compute frun. repeat split.
  intros l. destruct l as [t|t|t|t| | | | |c|c|c| ]; try reflexivity;
    try (destruct t as [|[|[|t]]]; reflexivity); destruct c as [|[|[|c]]]; reflexivity.
Qed.
Print Assumptions C19_frompath_builder_error_refuted.

(* journal.FromPath on an arbitrary include GRAPH (Model/PipeFromPathCycle.v): the parser tasks as
   they are since fix 3215d33 - every task carries the chain of its ancestors (syntax.parseRec); a
   task whose file is among its ancestors returns "include cycle" (the errgroup records it and
   cancels its context); there is no set of loaded files, so a file included from two places gets
   two tasks.  Stages 2 and 3 as above (with the drain).  Vocabulary: Spec/IncludeGraph.v.
   [finite_graph inc univ root]: the root is in [univ] and [univ] is closed under include - the graph
   may be cyclic.  A visit (anc, f) is a file with the chain of files that led to it; [all_visits] are
   the include paths from the root whose proper prefix is simple, i.e. [simple_paths] (no file twice)
   and [cycle_closings] (a simple path and one include back into it).
   [once = false] is the code as it is, [once = true] the seeded change seeded/C06c-load-once-set. *)

(* Termination on every finite include graph, cyclic or not.  The visits are characterised
   declaratively; every schedule makes at most 6 |visits| + 3 effective steps (with or without the
   global set of the seeded variant); in the code as it is there are never more parser tasks than
   visits - simple paths from the root plus their one-edge cycle closings - and, with a builder that
   does not fail, no reachable state blocks and the canonical scheduler makes the three workers
   return within the bound.  (Compare C19_loader_cycle_unbounded: without the ancestor check a
   self-include spawns tasks forever.) *)
Theorem C19_frompath_cycle_terminates : forall inc bad cbad abad once univ root sched,
  finite_graph inc univ root ->
  let visits := all_visits inc univ root in
  let st := krun inc bad cbad abad once sched (kinit root) in
  (forall anc f, In (anc, f) visits <-> ipath inc root anc f /\ NoDup anc) /\
  (forall anc f, In (anc, f) (simple_paths inc univ root) <-> ipath inc root anc f /\ NoDup (anc ++ [f])) /\
  length visits = length (simple_paths inc univ root) + length (cycle_closings inc univ root) /\
  keffective inc bad cbad abad once sched (kinit root) <= 6 * length visits + 3 /\
  (once = false -> length (k_ptasks st) <= length visits) /\
  (once = false -> (forall f, abad f = false) ->
   (kfinished st = false -> exists l, In l (klabels st) /\ kenabled inc bad cbad abad once st l = true) /\
   kfinished (kdrain inc bad cbad abad once (6 * length visits + 3) st) = true).
Proof. exact frompath_cycle_terminates. Qed.
Print Assumptions C19_frompath_cycle_terminates.

(* A cycle reachable from the root is an error.  If some include path from the root comes back to a
   file it has passed, then in the code as it is, with a builder that does not fail: as soon as the
   parser stage has returned, the first error of the outer pool is an error of the parser stage (an
   include cycle, or a file that does not parse) that did occur; FromPath never returns the builder
   (the outcome of a reachable state is never KOk: the builder's result is not used), and once the
   three workers have returned it returns that error.  Every include-cycle error ever recorded names
   the chain of an include path from the root whose last file is among the files before it. *)
Theorem C19_frompath_cycle_is_error : forall inc bad cbad abad univ root sched,
  finite_graph inc univ root -> (forall f, abad f = false) ->
  cycle_reachable inc root ->
  let st := krun inc bad cbad abad false sched (kinit root) in
  (k_synclosed st = true ->
     exists e rest, k_werrs st = e :: rest /\ parser_stage e = true /\ kgenuine bad cbad abad e = true) /\
  (forall files, koutcome_of st <> KOk files) /\
  (kfinished st = true ->
     exists e, koutcome_of st = KErr e /\ parser_stage e = true /\ kgenuine bad cbad abad e = true) /\
  (forall c, In (KWCycle c) (k_werrs st) ->
     exists anc f, c = anc ++ [f] /\ ipath inc root anc f /\ NoDup anc /\ In f anc).
Proof. exact frompath_cycle_is_error. Qed.
Print Assumptions C19_frompath_cycle_is_error.

(* A diamond is loaded twice.  In the code as it is, on any finite graph and whatever the oracles are:
   if the three workers have returned and no error was recorded then no cycle is reachable from the
   root, FromPath returns the builder, and the files whose directives were added to it are exactly
   (as a multiset) the last files of the simple paths from the root - one copy per simple path: a
   file included from two places is loaded twice.  On a ranked (acyclic) graph that multiset is the
   include tree [expand] of C19_frompath_loads_once, which is the visit list of C05_layout
   ([gvisits], Proofs/OrderLayout.v [visits] on numbered files; it is unique), and when no stage
   function fails no error is recorded. *)
Theorem C19_frompath_diamond_loads_twice : forall inc bad cbad abad univ root sched,
  finite_graph inc univ root ->
  let st := krun inc bad cbad abad false sched (kinit root) in
  kfinished st = true -> k_werrs st = [] ->
  koutcome_of st = KOk (k_added st) /\
  Permutation (k_added st) (map snd (simple_paths inc univ root)) /\
  cycle_closings inc univ root = [] /\ ~ cycle_reachable inc root /\
  k_bld st = BDone /\ k_perrs st = [] /\ k_cerrs st = [] /\ k_pcancel st = false /\ k_ccancel st = false.
Proof. exact frompath_diamond_loads_twice. Qed.
Print Assumptions C19_frompath_diamond_loads_twice.

Theorem C19_frompath_diamond_loads_twice_ranked : forall inc bad cbad abad rank root sched,
  (forall f g, In g (inc f) -> rank g < rank f) ->
  let st := krun inc bad cbad abad false sched (kinit root) in
  (kfinished st = true -> k_werrs st = [] ->
     Permutation (k_added st) (expand inc (rank root) root) /\
     gvisits inc root (expand inc (rank root) root) /\
     (forall vs, gvisits inc root vs -> Permutation (k_added st) vs)) /\
  ((forall f, bad f = false) -> (forall f, cbad f = false) -> (forall f, abad f = false) -> k_werrs st = []).
Proof. exact frompath_diamond_loads_twice_ranked. Qed.
Print Assumptions C19_frompath_diamond_loads_twice_ranked.

(* The seeded change "global load-once set" (seeded/C06c-load-once-set: after the cycle check a task
   claims its file in a global set and returns nil when the file is already claimed).  The statement
   "on a finite graph the outcome of a run that has finished does not depend on the schedule" -
   true of the code as it is for the error/success class by the two theorems above - is false of
   it: on the graph 0 -> 1, 2; 1 -> 2; 2 -> 1 one schedule returns the builder with every file
   loaded once, another one returns "include cycle: 0 -> 1 -> 2 -> 1". *)
Theorem C19_frompath_load_once_refuted : exists inc univ root sched1 sched2,
  finite_graph inc univ root /\ cycle_reachable inc root /\
  let fin s := kdrain inc none none none true (6 * length (all_visits inc univ root) + 3)
                 (krun inc none none none true s (kinit root)) in
  koutcome_of (fin sched1) = KOk [0; 1; 2] /\
  koutcome_of (fin sched2) = KErr (KWCycle [0; 1; 2; 1]).
Proof. exists g_mutual, [0; 1; 2], 0, once_sched_ok, once_sched_err. exact load_once_refuted. Qed.
Print Assumptions C19_frompath_load_once_refuted.

(* examples: the hypotheses are satisfiable and the model runs *)
Definition rr (n : nat) : list label :=   (* one round-robin round over all labels *)
  all_labels n.
Definition rounds (n k : nat) : list label := concat (repeat (rr n) k).

Example C19_example_success :
  let st := run 3 4 (fun _ _ => false) (rounds 3 40) init in
  terminal 3 st = true /\ outcome_of st = Success [0; 1; 2; 3] /\
  trace_ok 3 (trace st) = true /\ trace_complete 3 4 (trace st) = true.
Proof. vm_compute. repeat split. Qed.

Example C19_example_failure :
  let st := run 3 4 (fun i k => (i =? 2) && (k =? 1)) (rounds 3 40) init in
  terminal 3 st = true /\ outcome_of st = Failure (EFail 2 1) /\ trace_ok 3 (trace st) = true.
Proof. vm_compute. repeat split. Qed.

(* an accepted event list with a failing stage function that fits its instance *)
Example C19_example_respects :
  let fails := fun i k => (i =? 2) && (k =? 1) in
  let st := run 3 4 fails (rounds 3 40) init in
  trace_ok 3 (trace st) = true /\ respects 3 4 fails (trace st) /\
  trace_ok_loose 2 loose_witness = true /\ trace_ok 2 loose_witness = false.
Proof.
  split; [vm_compute; reflexivity|]. split; [|split; vm_compute; reflexivity].
  apply (proj1 (C19_trace_exact 3 4 _ _)). eexists. reflexivity.
Qed.

Example C19_example_loader :
  let inc := fun f => match f with 0 => [1; 2] | 1 => [3] | _ => [] end in
  let st := ldrain inc (fun _ => false) (fun _ => false) 40 (linit inc 0) in
  finished st = true /\ got st = [0; 1; 2; 3].
Proof. vm_compute. split; reflexivity. Qed.

(* the hypotheses of the cycle theorems are satisfiable: a diamond (acyclic, ranked), and mutual
   includes below the root (a reachable cycle) *)
Example C19_example_graphs :
  finite_graph g_diamond [0; 1; 2; 3] 0 /\ (forall f g, In g (g_diamond f) -> (4 - g) < (4 - f)) /\
  map snd (simple_paths g_diamond [0; 1; 2; 3] 0) = [0; 1; 3; 2; 3] /\ cycle_closings g_diamond [0; 1; 2; 3] 0 = [] /\
  koutcome_of (kdrain g_diamond none none none false 80 (kinit 0)) = KOk [0; 1; 2; 3; 3] /\
  finite_graph g_mutual [0; 1; 2] 0 /\ cycle_reachable g_mutual 0 /\
  cycle_closings g_mutual [0; 1; 2] 0 = [([0; 1; 2], 1); ([0; 2; 1], 2)] /\
  koutcome_of (kdrain g_mutual none none none false 80 (kinit 0)) = KErr (KWCycle [0; 1; 2; 1]).
Proof.
  split; [exact g_diamond_finite|]. split.
  { intros [|[|[|f]]] g Hg; simpl in Hg; intuition (subst; simpl; auto with arith). }
  split; [vm_compute; reflexivity|]. split; [vm_compute; reflexivity|]. split; [vm_compute; reflexivity|].
  split; [exact g_mutual_finite|]. split; [exact g_mutual_cycle|].
  split; vm_compute; reflexivity.
Qed.

Example C19_example_frompath :
  let inc := fun f => match f with 0 => [1; 2] | 1 => [3] | _ => [] end in
  let ok := fdrain inc none none none true 60 (finit inc 0) in
  let pe := fdrain inc (fun f => f =? 3) none none true 60 (finit inc 0) in
  let ce := fdrain inc none (fun f => f =? 2) none true 60 (finit inc 0) in
  foutcome_of ok = FOk [0; 1; 2; 3] /\ foutcome_of pe = FErr (WParse 3) /\ foutcome_of ce = FErr (WConv 2) /\
  foutcome_of (fdrain inc01 none is1 none true 30
                 (frun inc01 none is1 none true nodrain_sched (finit inc01 0))) = FErr (WConv 1).
Proof. vm_compute. repeat split. Qed.
