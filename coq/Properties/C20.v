(* C20  Portfolio analytics agree with the valued balance.
   Theorem statements; the proof under a statement is [exact <lemma>], a few lines from the
   lemmas of Proofs/Portfolio*.v, or a witness by evaluation.  Model: Model/Perf.v
   (ComputeValues, ComputeFlows, Performance, Perf), Model/Weights.v (Universe.Locate, Query.Execute, Report.Add, PropagateWeights,
   renderer), Model/CliPortfolio.v (the two commands; returns.go in the pinned and in the
   repaired wiring).  Vocabulary: Spec/PortfolioSpec.v, Spec/PortfolioMapSpec.v.

   FLOAT ROUNDING IS NOT MODELLED.  Where the Go code computes in float64 the model computes
   in exact rationals (Q); a division by zero (Go: Inf/NaN) is [None].  All equations below
   are equalities of rationals (==).  The tie to the float64 code is the correspondence check
   within tolerances (weights 1e-6, returns 0.1 percentage points). *)
From Coq Require Import ZArith QArith List Bool.
From Knut Require Import Model.Str Model.Dec Model.Date Model.Account Model.Ledger Model.Journal
     Model.Cli Model.Perf Model.Weights Model.CliPortfolio Spec.PortfolioSpec
     Spec.PortfolioMapSpec Spec.WellformedSpec
     Proofs.PortfolioDays Proofs.PortfolioReturns Proofs.PortfolioWeights Proofs.PortfolioPerDate Proofs.PortfolioWitness
     Proofs.PortfolioProofs Proofs.PortfolioTree Proofs.PortfolioMapWitness Proofs.PortfolioTable
     Proofs.PortfolioValuesFull Proofs.PortfolioFlowsFull Proofs.PortfolioQuietDays Proofs.PortfolioFullWitness.
From Knut Require Proofs.CheckLemmas.
Import ListNotations.
Open Scope Q_scope.

(* The value per commodity that `portfolio weights` uses for a day IS the valued balance of the
   portfolio accounts: for every list of (valued) days with strictly ascending dates (those
   the commands build, C20_command_days_ascending) and every day d in it, the record
   ComputeValues emits for d carries as V1 a map whose entry for commodity c equals
     [portfolio_value]: the sum of the values (written by the valuate_proc stage, the same
       stage `balance -v` books from) of the bookings
       - of ALL days up to and including d, i.e. from the journal's first day: a later --from
         does not cut this window (unlike `balance`, whose Filter stage drops earlier days),
       - on asset/liability accounts passing the account filter,
       - in c, if c passes the commodity filter (0 otherwise);
     [portfolio_value_by_account]: the same taken account by account -- the sum over the A/L
       accounts passing the filter of their valued positions (the cells of `balance -v`) -- for
       every list [accs] that names every account booked on exactly once ([covers]).
   [names_respected]: the filter cannot tell apart two accounts of the same name ([covers]
   identifies accounts by name, as account.Registry does); it holds of the command's filters
   whenever the accounts are syntactically valid (C20_names_respected), and, for any accounts,
   when equally named accounts have the same type (C20_names_respected_by_type). *)
Theorem C20_weights_match_balance : forall cfg pre d post vs,
  asc (map d_date (pre ++ d :: post)) ->
  day_values cfg (pre ++ d :: post) = COk vs ->
  exists v0 v1, nth_error (fst vs) (length pre) = Some (d_date d, (v0, v1)) /\
    forall c,
      pcv_get v1 c == portfolio_value (ca_acc (pf_calc cfg)) (ca_com (pf_calc cfg)) (pre ++ d :: post) c (d_date d) /\
      forall accs, covers accs (pre ++ d :: post) (d_date d) ->
        names_respected (ca_acc (pf_calc cfg)) accs (postings_upto (pre ++ d :: post) (d_date d)) ->
        pcv_get v1 c ==
        portfolio_value_by_account (ca_acc (pf_calc cfg)) (ca_com (pf_calc cfg)) accs (pre ++ d :: post) c (d_date d).
Proof. exact weights_match_balance_full. Qed.
Print Assumptions C20_weights_match_balance.

(* the days both commands hand to ComputeValues have strictly ascending dates *)
Theorem C20_command_days_ascending : forall cfg ds b dates days,
  load ds = COk b -> valued_days cfg (b_days (builder_touch b dates)) = COk days -> asc (map d_date days).
Proof. exact command_days_asc. Qed.
Print Assumptions C20_command_days_ascending.

Theorem C20_names_respected : forall cfg accs ps,
  Forall (fun a => account_ok a = true) accs -> Forall (fun p => account_ok (p_acc p) = true) ps ->
  names_respected (ca_acc (pf_calc cfg)) accs ps.
Proof. exact names_respected_ok. Qed.
Print Assumptions C20_names_respected.

Theorem C20_names_respected_by_type : forall cfg accs ps,
  (forall p a, In p ps -> In a accs -> acc_eqb (p_acc p) a = true -> is_AL a = is_AL (p_acc p)) ->
  names_respected (ca_acc (pf_calc cfg)) accs ps.
Proof.
  intros cfg accs ps H p a Hp Ha He. rewrite (H p a Hp Ha He). f_equal.
  apply CheckLemmas.acc_eqb_name in He. unfold pf_calc. cbn [ca_acc]. rewrite He. reflexivity.
Qed.
Print Assumptions C20_names_respected_by_type.

(* the same record as the fold the code performs: V1 is the map of the decimals accumulated with
   Amounts.Add (entries that become zero are deleted) over the bookings up to and including d *)
Theorem C20_weights_value_record : forall cfg pre d post vs,
  day_values cfg (pre ++ d :: post) = COk vs ->
  exists v0, nth_error (fst vs) (length pre) =
             Some (d_date d, (v0, vals_pcv (fold_left (values_step (pf_calc cfg)) (flat_map day_postings (pre ++ [d])) []))).
Proof. exact weights_value_record. Qed.
Print Assumptions C20_weights_value_record.

(* V0 of every day is V1 of the day processed before it (the first V0 is empty) *)
Theorem C20_values_chain : forall c days, records_chain [] (cv_out (cv_run c cv_init days)).
Proof. intros c days. rewrite cv_run_recs by reflexivity. exact (cv_recs_chain c days []). Qed.
Print Assumptions C20_values_chain.

(* the weight of a commodity is value / total when the total is not zero, and is undefined
   (Go: Inf or NaN) exactly when the total is zero; every entry of a day is dated with the
   day and booked on the path Universe.Locate / the -m mapping give *)
Theorem C20_weight_def : forall v total,
  (forall q, qdiv v total = Some q -> ~ total == 0 /\ q == v / total) /\ (qdiv v total = None <-> total == 0).
Proof. intros v total. split; [intros q; apply qdiv_some|apply qdiv_none]. Qed.
Print Assumptions C20_weight_def.

Theorem C20_weight_entries : forall u m date total v1 es,
  day_entries u m date total v1 = WOk es ->
  map (fun e => (entry_date e, let '(_, _, w) := e in w)) es = map (fun kv => (date, qdiv (snd kv) total)) v1 /\
  Forall2 (fun e kv => map_path m (locate u (fst kv)) = Some (entry_path e)) es v1.
Proof. exact day_entries_def. Qed.
Print Assumptions C20_weight_entries.

(* for every tree (every universe, every mapping): after PropagateWeights the weight of a
   group is its own bookings (collapsed members, if any) plus the weights of its children,
   and it is the sum of everything booked in its subtree.  [nweight] reads a weight map by
   summing the date's entries; on maps with ascending dates that is the cell the renderer
   looks up (C20_weight_cell); Report.Add / PropagateWeights keep the dates ascending on
   every node of the report (C20_report_dates_ascending). *)
Theorem C20_group_sum : forall s lf w ch d,
  tdefined (WNode s lf w ch) ->
  nweight (propagate (WNode s lf w ch)) d == wsum w d + qsum (map (fun c => nweight (propagate c) d) ch) /\
  nweight (propagate (WNode s lf w ch)) d == ttotal (WNode s lf w ch) d.
Proof. intros s lf w ch d H. split; [apply propagate_local; exact H|apply propagate_spec; exact H]. Qed.
Print Assumptions C20_group_sum.

Theorem C20_weight_cell : forall m d, wm_asc m ->
  wsum m d == match wm_get m d with Some w => oq w | None => 0 end.
Proof. exact wsum_get. Qed.
Print Assumptions C20_weight_cell.

Theorem C20_report_dates_ascending : forall es p x,
  wn_find p (propagate (report_of es)) = Some x -> wm_asc (wn_weights x).
Proof.
  intros es p x. rewrite wn_find_propagate. destruct (wn_find p (report_of es)) as [y|] eqn:E; [|discriminate]. cbn [option_map].
  intros H. inversion H; subst. apply propagate_weights_asc.
  exact (tall_here _ _ (wn_find_tall _ p _ y (proj2 (report_shape es)) E)).
Qed.
Print Assumptions C20_report_dates_ascending.

(* the rows of the top level carry every entry of the date *)
Theorem C20_top_level_carries_all : forall es d,
  defined_entries es -> Forall (fun e => entry_path e <> []) es ->
  qsum (map (fun c => nweight c d) (wn_children (propagate (report_of es)))) ==
  qsum (map (fun e => if (entry_date e =? d)%Z then entry_w e else 0) es).
Proof. intros es d Hd. exact (top_level_sum_at es d (defined_edef_at d es Hd)). Qed.
Print Assumptions C20_top_level_carries_all.

(* the top level sums to 100% on every date whose total is not zero (no entry is hidden by a
   level-0 mapping: all paths are non-empty) *)
Theorem C20_top_100 : forall u m date v1 day_es before after,
  day_entries u m date (pcv_sum v1) v1 = WOk day_es -> ~ pcv_sum v1 == 0 ->
  defined_entries before -> defined_entries after ->
  Forall (fun e => entry_date e <> date) before -> Forall (fun e => entry_date e <> date) after ->
  Forall (fun e => entry_path e <> []) (before ++ day_es ++ after) ->
  qsum (map (fun c => nweight c date) (wn_children (propagate (report_of (before ++ day_es ++ after))))) == 1.
Proof.
  intros u m date v1 day_es before after Hd Hnz _ _. exact (top_100_at u m date v1 day_es before after Hd Hnz).
Qed.
Print Assumptions C20_top_100.

(* Vocabulary (Spec/PortfolioMapSpec.v): [wn_find p r] the node at path p; [node_weight r p d] the
   number the renderer reads there for date d (0 where there is no node); [map_entries m es0]
   the entries es0 with Model/Weights.map_path applied to every path; [pf_unmapped cfg] the
   same command without -m. *)

(* for every universe, mapping, period ends and list of value records: the query without -m
   does not panic, and the query with -m books the same entries, in the same order, with the
   same dates and weights, on the paths map_path gives (or panics where map_path does) *)
Theorem C20_mapped_entries : forall u m ends l,
  exists es0, query_entries u [] ends l = WOk es0 /\
    query_entries u m ends l = (match map_entries m es0 with Some es => WOk es | None => WPanic end).
Proof.
  intros u m ends l. destruct (query_entries_unmapped_ok u ends l) as [es0 H]. exists es0.
  split; [exact H|exact (query_entries_map u m ends l es0 H)].
Qed.
Print Assumptions C20_mapped_entries.

(* The mapping law on the nodes: for every configuration (universe, mapping, filters, window)
   and journal on which `portfolio weights` runs, every path p and date d: the weight the
   renderer reads at p in the report WITH the mapping is the sum of the weights of the entries
   of the run WITHOUT the mapping that map_path sends to p or below it, on d.
   [defined_entries]: no weight is a division by a zero total (Go: Inf/NaN); as in C20_group_sum,
   sums with undefined weights are not numbers.  (Per date -- only the entries of d defined -- the
   local form is Proofs/PortfolioPerDate.propagate_at / PortfolioTree.own_at_find_at, which the table theorem
   C20_mapping_law_table uses; the sum over the whole subtree is proved under defined_entries.) *)
Theorem C20_mapping_law : forall cfg ds es0 es p d,
  weights_entries (pf_unmapped cfg) ds = COk es0 -> weights_entries cfg ds = COk es ->
  defined_entries es0 ->
  node_weight (propagate (report_of es)) p d == mapped_weight (pc_mapping cfg) es0 p d.
Proof.
  intros cfg ds es0 es p d H0 H Hd. exact (mapping_law_nodes_at cfg ds es0 es p d H0 H (defined_edef_at d _ Hd)).
Qed.
Print Assumptions C20_mapping_law.

(* hence: a node's weight = the entries the mapping folds into the node itself + the weights
   of its children (a node can be both: booked on, and a group) *)
Theorem C20_mapping_law_local : forall cfg ds es0 es p d x,
  weights_entries (pf_unmapped cfg) ds = COk es0 -> weights_entries cfg ds = COk es ->
  defined_entries es0 ->
  wn_find p (propagate (report_of es)) = Some x ->
  node_weight (propagate (report_of es)) p d ==
  folded_weight (pc_mapping cfg) es0 p d +
  qsum (map (fun c => node_weight (propagate (report_of es)) (p ++ [wn_seg c]) d) (wn_children x)).
Proof.
  intros cfg ds es0 es p d x H0 H Hd. exact (mapping_law_local_at cfg ds es0 es p d x H0 H (defined_edef_at d _ Hd)).
Qed.
Print Assumptions C20_mapping_law_local.

(* The mapping law on the tables: the executable statement the check evaluates on the binary's two text
   tables (Spec/PortfolioSpec.mapping_law_b: every leaf row of the table WITHOUT -m has a row of the
   table WITH -m to be folded into; every row WITH -m = the leaf rows WITHOUT -m that map_path sends
   to the row's path + the row's member rows, in every column in which these are finite numbers; paths
   and members read off the indentation) holds, with tolerance 0, of the rows of the two tables of the
   model ([srows]: depth = indent / 2) -- for every configuration (universe, mapping, filters, window,
   sort order) and journal, zero totals included (an undefined weight makes the cell of its leaf row
   undefined, and the statement skips the column), provided
     [prefix_free es0]  in the run without -m no commodity's path is a proper prefix of another's
                        (a class is not named like a classified commodity's path): otherwise that
                        commodity is no leaf row of the table without -m and mapping_law_b is FALSE
                        of the correct tables, see C20_w4_needs_prefix_free;
     paths non-empty    the mapping hides no commodity altogether (level 0): otherwise the commodity
                        has no row to be folded into (leaves_placed_b). *)
Theorem C20_mapping_law_table : forall cfg ds es0 es t0 t,
  weights_entries (pf_unmapped cfg) ds = COk es0 -> weights_entries cfg ds = COk es ->
  prefix_free es0 -> Forall (fun e => entry_path e <> []) es ->
  weights_table (pf_unmapped cfg) ds = COk t0 -> weights_table cfg ds = COk t ->
  mapping_law_b 0 (length (fst t)) (pc_mapping cfg) (srows t0) (srows t) = true.
Proof.
  intros cfg ds es0 es t0 t H0 H Hpf Hne. unfold weights_table. rewrite H0, H. cbn [cbind]. intros E0 E. inversion E0; inversion E; subst.
  cbn [render_weights fst]. change (pc_alpha (pf_unmapped cfg)) with (pc_alpha cfg).
  exact (table_law (pc_mapping cfg) es0 es (pc_alpha cfg) (pc_alpha cfg) (weights_entries_map cfg ds es0 es H0 H) Hpf Hne).
Qed.
Print Assumptions C20_mapping_law_table.

(* the same for entries: any two sort orders, any mapping under which map_entries succeeds *)
Theorem C20_mapping_law_rows : forall m es0 es a0 a,
  map_entries m es0 = Some es ->
  prefix_free es0 -> Forall (fun e => entry_path e <> []) es ->
  mapping_law_b 0 (length (report_dates es)) m (srows (render_weights a0 es0)) (srows (render_weights a es)) = true.
Proof. exact table_law. Qed.
Print Assumptions C20_mapping_law_rows.

(* where the command with -m runs, the command without -m runs *)
Theorem C20_unmapped_runs : forall cfg ds es,
  weights_entries cfg ds = COk es -> exists es0, weights_entries (pf_unmapped cfg) ds = COk es0.
Proof.
  intros cfg ds es H. pose proof (weights_entries_both cfg ds) as B.
  destruct (weights_entries (pf_unmapped cfg) ds) as [es0| |]; [exists es0; reflexivity|congruence|congruence].
Qed.
Print Assumptions C20_unmapped_runs.

(* repaired wiring: for every journal and configuration with a non-empty window, `portfolio
   returns` prints exactly one line per period of the partition, in order, dated with the
   period's end -- also when that day carries no directive *)
Theorem C20_every_period : forall cfg ds l,
  returns_fixed cfg ds = COk l ->
  (0 <= pc_last cfg)%Z ->
  exists b part,
    load ds = COk b /\ pf_partition cfg b = COk part /\
    (let w := clip (mkPeriod (pc_from cfg) (pc_to cfg)) (builder_period b) in (p_start w <= p_end w)%Z ->
     map fst l = end_dates part).
Proof. exact returns_every_period. Qed.
Print Assumptions C20_every_period.

(* pinned wiring (j.Build() evaluated before Perf registers the period ends): false *)
Theorem C20_every_period_refuted :
  exists cfg ds, (0 <= pc_last cfg)%Z /\ every_period_fails pinned cfg ds.
Proof. exact every_period_refuted. Qed.
Print Assumptions C20_every_period_refuted.

(* the line of a period end is the running product over the processed days of the window
   since the previous reported period end, minus one *)
Theorem C20_period_reported : forall part ends l p rest,
  Forall (fun x => partition_contains part (pf_date x) = true /\ mem ends (pf_date x) = false) l ->
  partition_contains part (pf_date p) = true -> mem ends (pf_date p) = true ->
  perf_loop part ends (Some 1) (l ++ p :: rest) = (pf_date p, reported part ends l p) :: perf_loop part ends (Some 1) rest.
Proof. exact period_reported. Qed.
Print Assumptions C20_period_reported.

(* A period in which nothing but deposits and withdrawals touches the portfolio reports 0.
   For every journal and configuration on which the repaired `portfolio returns` runs: take the
   intermediate results of returnsRunner.execute (the partition, the valued days, the records
   of ComputeValues and ComputeFlows; all determined by cfg and ds) and any stretch l ++ [p] of
   consecutive Performance records.  If every transaction of the valued days of that stretch is
   untargeted (t_targets = None: no @performance annotation, and no value adjustment booked by
   Valuate, i.e. prices unchanged) then on every day of the stretch the change in value is what
   flowed in and out, V1 = V0 + inflow + outflow ([flows_explain]), and the return reported for
   the stretch is 0 -- or undefined, when on some day V0 + inflow = 0.  (C20_period_reported:
   [reported part ends l p] is what the command prints for the period end p when l are the
   processed days of the window since the previous period end.)
   For the pinned ComputeFlows, which ignores the commodity filter, this is false:
   C20_external_flows_zero_refuted. *)
Theorem C20_external_flows_zero : forall cfg ds out,
  returns_fixed cfg ds = COk out ->
  exists b part days vs fs,
    load ds = COk b /\ pf_partition cfg b = COk part /\
    valued_days cfg (b_days (builder_touch b (end_dates part))) = COk days /\
    day_values cfg days = COk vs /\ day_flows repaired cfg (snd vs) = COk fs /\
    out = perf_loop part (end_dates part) (Some 1) (join_perf (fst vs) fs) /\
    map pf_date (join_perf (fst vs) fs) = map d_date days /\
    forall l p, (exists pre rest, join_perf (fst vs) fs = pre ++ l ++ p :: rest) ->
      (forall x, In x days -> In (d_date x) (map pf_date (l ++ [p])) -> untargeted x) ->
      Forall flows_explain (l ++ [p]) /\ is_or_undef (reported part (end_dates part) l p) 0.
Proof. exact external_flows_zero_full. Qed.
Print Assumptions C20_external_flows_zero.

(* the same about the output: when the records before the stretch end with a processed period end (or
   lie before the window, [boundary]), the days of l are in the window and no period ends, and p is a
   period end, the command prints for p a return that is 0 or undefined *)
Theorem C20_external_flows_zero_line : forall cfg ds out,
  returns_fixed cfg ds = COk out ->
  exists part days perfs,
    map pf_date perfs = map d_date days /\ out = perf_loop part (end_dates part) (Some 1) perfs /\
    forall pre l p rest, perfs = pre ++ l ++ p :: rest ->
      boundary part (end_dates part) pre ->
      Forall (fun x => partition_contains part (pf_date x) = true /\ mem (end_dates part) (pf_date x) = false) l ->
      partition_contains part (pf_date p) = true -> mem (end_dates part) (pf_date p) = true ->
      (forall x, In x days -> In (d_date x) (map pf_date (l ++ [p])) -> untargeted x) ->
      exists r, In (pf_date p, r) out /\ is_or_undef r 0.
Proof. exact external_flows_zero_line. Qed.
Print Assumptions C20_external_flows_zero_line.

(* the same from the days of the journal as the builder makes them from the directives (before
   ComputePrices, Check and Valuate): a day that declares no price is valued at the prices of the day
   before, so Valuate books no value adjustment on it, and its transactions keep their targets
   (C20_quiet_days_valued).  Hence: if every day of the stretch is [quiet] in the journal -- no price
   directive, no transaction with a @performance annotation -- the printed return is 0 or undefined. *)
Theorem C20_external_flows_zero_source : forall cfg ds out,
  returns_fixed cfg ds = COk out ->
  exists b part perfs,
    load ds = COk b /\ pf_partition cfg b = COk part /\
    map pf_date perfs = map d_date (b_days (builder_touch b (end_dates part))) /\
    out = perf_loop part (end_dates part) (Some 1) perfs /\
    forall pre l p rest, perfs = pre ++ l ++ p :: rest ->
      boundary part (end_dates part) pre ->
      Forall (fun x => partition_contains part (pf_date x) = true /\ mem (end_dates part) (pf_date x) = false) l ->
      partition_contains part (pf_date p) = true -> mem (end_dates part) (pf_date p) = true ->
      (forall x, In x (b_days (builder_touch b (end_dates part))) -> In (d_date x) (map pf_date (l ++ [p])) -> quiet x) ->
      exists r, In (pf_date p, r) out /\ is_or_undef r 0.
Proof. exact external_flows_zero_source. Qed.
Print Assumptions C20_external_flows_zero_source.

Theorem C20_quiet_days_valued : forall cfg days days',
  valued_days cfg days = COk days' ->
  Forall2 (fun d d' => d_date d' = d_date d /\
                       (d_prices d = [] -> map t_targets (d_txns d') = map t_targets (d_txns d)) /\
                       (quiet d -> untargeted d')) days days'.
Proof.
  intros cfg days days' H. pose proof (valued_days_kept cfg days days' H) as Hk. clear H.
  induction Hk as [|d d' l l' Hd Hrest IH]; constructor; [|exact IH].
  destruct Hd as [H1 H2]. split; [exact H1|]. split; [exact H2|]. apply kept_untargeted. split; assumption.
Qed.
Print Assumptions C20_quiet_days_valued.

(* the law of one period by itself: if on every processed day of the period the change in value
   is accounted for by what flowed in and out, the reported return is 0 or undefined *)
Theorem C20_flows_explain_zero : forall part ends l p,
  Forall (fun x => p_v1 x == p_v0 x + p_inflow x + p_outflow x) (l ++ [p]) ->
  is_or_undef (reported part ends l p) 0.
Proof. exact external_flows_zero. Qed.
Print Assumptions C20_flows_explain_zero.

Theorem C20_external_flows_zero_refuted :
  exists cfg ds s e r,
    no_price_in ds s e = true /\ only_external_in ds s e = true /\
    second_return (returns_gen (mkFixes true false) cfg ds) = Some r /\ ~ r == 0.
Proof. exact external_flows_zero_refuted. Qed.
Print Assumptions C20_external_flows_zero_refuted.

(* A period without flows (and without a zero start value on any of its days): the reported
   return is end value over start value minus one; the daily ratios V1/V0 telescope because
   each day starts with the value the previous processed day ended with. *)
Theorem C20_no_flow_ratio : forall part ends l p v,
  chained v (l ++ [p]) -> ~ v == 0 ->
  Forall (fun x => p_inflow x == 0 /\ p_outflow x == 0 /\ ~ p_v0 x == 0) (l ++ [p]) ->
  exists q, reported part ends l p = Some q /\ q == p_v1 p / v - 1.
Proof.
  intros part ends l p v Hc Hv Hf. unfold reported. destruct (run_telescopes (l ++ [p]) v 1 Hc Hf Hv) as [q [Hr Hq]].
  rewrite Hr. exists (qsub q 1). split; [reflexivity|]. rewrite qsub_eq, Hq.
  unfold last_v1. rewrite fold_left_app. cbn [fold_left]. ring.
Qed.
Print Assumptions C20_no_flow_ratio.

(* the chain hypothesis holds of the records the commands build *)
Theorem C20_records_chained : forall prev vs fs, records_chain prev vs -> chained (pcv_sum prev) (join_perf vs fs).
Proof.
  intros prev vs fs. revert prev. induction vs as [|[d [v0 v1]] vs IH]; intros prev H; cbn [join_perf map chained]; [exact I|].
  destruct H as [-> H]. split; [reflexivity|]. apply IH. exact H.
Qed.
Print Assumptions C20_records_chained.

(* W1 (PortfolioWitness): two monthly periods, the first ends on a day without directive *)
Example C20_w1_periods : w1_ends = [jan 31; feb 10] /\ w1_pinned_dates = [feb 10] /\ w1_fixed_dates = [jan 31; feb 10].
Proof. split; [exact w1_ends_eq|split; [exact w1_pinned_eq|exact w1_fixed_eq]]. Qed.

(* W2: February has unchanged prices and one external deposit; --commodity AAPL *)
Example C20_w2_returns :
  second_return (returns_gen (mkFixes true false) w2_cfg w2_journal) = Some (-1 # 2) /\
  second_return (returns_fixed w2_cfg w2_journal) = Some 0.
Proof. split; [exact w2_pinned_filter|exact w2_repaired]. Qed.

(* W3 (PortfolioMapWitness): universe Equity:US (AAPL), Equity:CH (NESN), Cash (CHF); `-m 1,^Equity:US`
   folds AAPL into the row Equity, which keeps its member CH.  The node Equity is a leaf and a
   group at once; the plain group law fails on the table, the mapping law holds; the hypotheses
   of the mapping theorems hold of this run. *)
Example C20_w3_partial_fold :
  weights_entries w3_cfg w3_journal = COk w3_entries /\ weights_entries (pf_unmapped w3_cfg) w3_journal = COk w3_entries0 /\
  defined_entries w3_entries0 /\
  match wn_find [s_Equity] (propagate (report_of w3_entries)) with
  | Some n => wn_leaf n = true /\ map wn_seg (wn_children n) = [s_CH]
  | None => False
  end /\
  node_weight (propagate (report_of w3_entries)) [s_Equity] (jan 31) == 1 # 2 /\
  folded_weight (pc_mapping w3_cfg) w3_entries0 [s_Equity] (jan 31) == 1 # 4 /\
  node_weight (propagate (report_of w3_entries)) [s_Equity; s_CH] (jan 31) == 1 # 4 /\
  groups_ok_b 0 2 (srows w3_table) = false /\
  mapping_law_b 0 2 (pc_mapping w3_cfg) (srows w3_table0) (srows w3_table) = true.
Proof.
  destruct w3_runs as [H1 [H2 _]]. destruct w3_node_law as [H3 [H4 [H5 _]]]. destruct w3_laws as [H6 H7].
  split; [exact H1|]. split; [exact H2|]. split; [exact w3_defined|]. split; [exact w3_leaf_and_group|].
  split; [exact H3|]. split; [exact H4|]. split; [exact H5|]. split; [exact H6|exact H7].
Qed.

(* the hypotheses of C20_mapping_law_table hold of W3, and its conclusion is what vm_compute finds *)
Example C20_w3_table_law :
  defined_entries w3_entries0 /\ prefix_free w3_entries0 /\ Forall (fun e => entry_path e <> []) w3_entries /\
  mapping_law_b 0 (length (fst w3_table)) (pc_mapping w3_cfg) (srows w3_table0) (srows w3_table) = true.
Proof.
  destruct w3_runs as [H1 [H2 [H3 H4]]].
  split; [exact w3_defined|]. split; [exact w3_prefix_free|]. split; [exact w3_nonempty|].
  exact (C20_mapping_law_table w3_cfg w3_journal w3_entries0 w3_entries w3_table0 w3_table
           H2 H1 w3_prefix_free w3_nonempty H4 H3).
Qed.

(* W4: universe Equity (AAPL), Equity:AAPL (NESN), Cash (CHF), `-m 1,^Cash`.  Every hypothesis of the table
   theorem but prefix_free holds ([Equity; AAPL] is a proper prefix of [Equity; AAPL; NESN]) and
   mapping_law_b is false of the model's tables: the executable statement presupposes prefix_free. *)
Example C20_w4_needs_prefix_free :
  weights_entries (pf_unmapped w4_cfg) w3_journal = COk w4_entries0 /\ weights_entries w4_cfg w3_journal = COk w4_entries /\
  weights_table (pf_unmapped w4_cfg) w3_journal = COk w4_table0 /\ weights_table w4_cfg w3_journal = COk w4_table /\
  defined_entries w4_entries0 /\ Forall (fun e => entry_path e <> []) w4_entries /\
  ~ prefix_free w4_entries0 /\
  mapping_law_b 0 (length (fst w4_table)) (pc_mapping w4_cfg) (srows w4_table0) (srows w4_table) = false.
Proof.
  destruct w4_runs as [H1 [H2 [H3 H4]]]. destruct w4_hyps as [H5 H6]. destruct w4_not_prefix_free as [H7 H8].
  split; [exact H1|]. split; [exact H2|]. split; [exact H3|]. split; [exact H4|]. split; [exact H5|]. split; [exact H6|].
  split; [|exact w4_law_fails].
  intros Hpf. specialize (Hpf _ _ H7 H8). vm_compute in Hpf. discriminate Hpf.
Qed.

(* W5 (PortfolioFullWitness): the journal of W2 without filters, `returns --months --to 2023-02-28 -v CHF`.
   February is a deposit-only period with unchanged prices: the hypotheses of C20_external_flows_zero
   hold of the records of 02-10 and 02-28 ([w5_l], [w5_p]; [w5_days] etc. are the intermediate results
   the theorem names), the deposit of 500 CHF is the inflow of the 10th, and the period reports 0. *)
Example C20_w5_deposit_period :
  (exists b, load w2_journal = COk b /\ pf_partition w5_cfg b = COk w5_part /\
     valued_days w5_cfg (b_days (builder_touch b (end_dates w5_part))) = COk w5_days /\
     day_values w5_cfg w5_days = COk w5_vs /\ day_flows repaired w5_cfg (snd w5_vs) = COk w5_fs) /\
  w5_perfs = join_perf (fst w5_vs) w5_fs /\ (exists pre rest, w5_perfs = pre ++ w5_l ++ w5_p :: rest) /\
  map pf_date (w5_l ++ [w5_p]) = [feb 10; feb 28] /\
  (forall x, In x w5_days -> In (d_date x) (map pf_date (w5_l ++ [w5_p])) -> untargeted x) /\
  (exists b, load w2_journal = COk b /\ pf_partition w5_cfg b = COk w5_part /\
             w5_src_days = b_days (builder_touch b (end_dates w5_part))) /\
  (forall x, In x w5_src_days -> In (d_date x) (map pf_date (w5_l ++ [w5_p])) -> quiet x) /\
  boundary w5_part (end_dates w5_part) (firstn 3 w5_perfs) /\
  Forall (fun x => partition_contains w5_part (pf_date x) = true /\ mem (end_dates w5_part) (pf_date x) = false) w5_l /\
  partition_contains w5_part (pf_date w5_p) = true /\ mem (end_dates w5_part) (pf_date w5_p) = true /\
  match w5_l with
  | [q] => p_v0 q == 1500 # 1 /\ p_inflow q == 500 # 1 /\ p_outflow q == 0 /\ p_v1 q == 2000 # 1
  | _ => False
  end /\
  reported w5_part (end_dates w5_part) w5_l w5_p = Some 0 /\
  second_return (returns_fixed w5_cfg w2_journal) = Some 0.
Proof.
  destruct w5_split as [Hs Hd].
  split; [exact w5_runs|]. split; [reflexivity|]. split; [exists (firstn 3 w5_perfs), []; exact Hs|]. split; [exact Hd|].
  split; [rewrite Hd; exact w5_february_untargeted|]. split; [exact w5_src|]. split; [rewrite Hd; exact w5_february_quiet|].
  split; [exact w5_boundary|].
  destruct w5_stretch as [Hl [Hc Hm]]. split; [exact Hl|]. split; [exact Hc|]. split; [exact Hm|]. split; [exact w5_deposit|]. split; [exact w5_reported|exact w5_returns].
Qed.

(* W5, `weights`: the hypotheses of C20_weights_match_balance hold of the valued days split at 2023-02-10
   with the accounts [Assets:Bank; Assets:Broker; Equity:Opening]; the values are 1500 CHF and AAPL worth 500 CHF *)
Example C20_w5_weights_values :
  w5_days = w5_pre ++ w5_d :: w5_post /\ d_date w5_d = feb 10 /\
  asc (map d_date (w5_pre ++ w5_d :: w5_post)) /\
  (exists vs, day_values w5_cfg (w5_pre ++ w5_d :: w5_post) = COk vs) /\
  covers w5_accs (w5_pre ++ w5_d :: w5_post) (d_date w5_d) /\
  names_respected (ca_acc (pf_calc w5_cfg)) w5_accs (postings_upto (w5_pre ++ w5_d :: w5_post) (d_date w5_d)) /\
  portfolio_value (ca_acc (pf_calc w5_cfg)) (ca_com (pf_calc w5_cfg)) (w5_pre ++ w5_d :: w5_post) CHF (d_date w5_d) == 1500 # 1 /\
  portfolio_value_by_account (ca_acc (pf_calc w5_cfg)) (ca_com (pf_calc w5_cfg)) w5_accs (w5_pre ++ w5_d :: w5_post) AAPL (d_date w5_d) == 500 # 1.
Proof.
  destruct w5_days_split as [H1 [H2 _]]. destruct w5_values as [H3 H4]. destruct w5_runs as [b [_ [_ [_ [H5 _]]]]].
  split; [exact H1|]. split; [exact H2|]. split; [exact w5_asc|]. split; [exists w5_vs; rewrite <- H1; exact H5|].
  split; [exact w5_covers|]. split; [exact w5_names_respected|]. split; [exact H3|exact H4].
Qed.
